(* props/C10.v — property theorems for C10 (float chunks return exactly what was appended).
   Statements; the proofs are in proof/XorProofs.v and proof/Xor2Proofs.v (corollaries and
   evaluated witnesses are derived here).  The model is model/Xor.v.
   Samples are (start timestamp, timestamp, value bit pattern); [wf_sample] only says that the
   timestamp is an int64 and the value a 64-bit pattern — no ordering, no range restriction:
   all timestamp arithmetic in the model wraps like the Go code, so the property's
   "strictly increasing timestamps within +-2^62" is a special case. *)
From Coq Require Import List ZArith Lia.
From Verif Require Import lib.Int64 lib.Bits model.Xor proof.XorProofs proof.Xor2Proofs.
Import ListNotations.
Open Scope Z_scope.

(* Classic XOR chunk: any sample sequence up to the chunk's capacity, appended to a fresh chunk,
   is returned by iterating the chunk's bytes exactly: same length, same timestamps, same value
   bits, no iterator error (AtST is 0 for this encoding: [st0]). *)
Theorem C10_xor_roundtrip : forall k ss,
  Forall wf_sample ss -> Z.of_nat (length ss) <= 65535 ->
  exists num bs, xor_encode [(k, ss)] = EOk num [] bs /\
                 xor_decode (chunk_bytes num [] bs) = DOk (map st0 ss) false.
Proof.
  intros k ss. pose proof (xor_history_roundtrip [(k, ss)]) as H. cbn [flat_map snd] in H.
  rewrite app_nil_r in H. exact H.
Qed.

(* ... also when appending is interrupted any number of times and resumed through
   XORChunk.Appender(), on the same chunk object or on a chunk rebuilt from its bytes (the
   segments carry either kind).  The appender state is rebuilt by iterating the existing bytes
   (a rebuilt appender has window 0/0 where a fresh one has 0xff) and - since
   "fix: chunkenc: XORChunk.Appender does not restore the write position ..." - the write
   position is restored from the iterator's reader. *)
Theorem C10_xor_resume : forall segs,
  Forall wf_sample (flat_map snd segs) ->
  Z.of_nat (length (flat_map snd segs)) <= 65535 ->
  exists num bs, xor_encode segs = EOk num [] bs /\
                 xor_decode (chunk_bytes num [] bs) = DOk (map st0 (flat_map snd segs)) false.
Proof. exact xor_history_roundtrip. Qed.

(* The code before that fix (model: xor_encode_old = xor_run_gen false) violated the statement:
   Appender() did not restore bstream.count of a chunk rebuilt by FromData, so unless the bit
   stream happened to end on a byte boundary the next sample was written after zero padding,
   which the iterator decodes as sample data.  (1000,1.5) (2000,1.5), reload, (3007,2.5) read
   back as ... (3000,1.5). *)
Theorem C10_xor_resume_from_bytes_old_refuted :
  exists segs num bs,
    Forall wf_sample (flat_map snd segs) /\ Z.of_nat (length (flat_map snd segs)) <= 65535 /\
    xor_encode_old segs = EOk num [] bs /\
    xor_decode (chunk_bytes num [] bs) =
      DOk [mkS 0 1000 4609434218613702656; mkS 0 2000 4609434218613702656; mkS 0 3000 4609434218613702656] false /\
    xor_decode (chunk_bytes num [] bs) <> DOk (map st0 (flat_map snd segs)) false.
Proof.
  exists refute_segs. eexists. eexists.
  split; [repeat constructor; cbn; unfold int64, minInt64, maxInt64, is_u64; lia|]. split; [cbn; lia|].
  split; [vm_compute; reflexivity|]. split; [vm_compute; reflexivity|]. vm_compute. discriminate.
Qed.

(* the same history on the fixed code *)
Example C10_xor_resume_from_bytes_fixed :
  match xor_encode refute_segs with
  | EOk num _ bs => xor_decode (chunk_bytes num [] bs) = DOk (map st0 (flat_map snd refute_segs)) false
  | _ => False
  end.
Proof. vm_compute. reflexivity. Qed.

(* One Append against one Next, from any related appender/iterator pair (the simulation step):
   the iterator consumes exactly the emitted bits, whatever follows them, and returns the
   appended timestamp and value. *)
Theorem C10_xor_step : forall num a it t v b a',
  Inv num a it -> int64 t -> is_u64 v -> xor_append num a t v = Some (b, a') ->
  exists it', (forall r, xor_next it (b ++ r) = Some (it', r)) /\ Inv (num + 1) a' it' /\
              i_t it' = t /\ i_v it' = v /\ b <> [].
Proof. exact xor_step. Qed.

(* Every int64 delta-of-delta falls in exactly one bucket (first match) and decodes to itself,
   including the asymmetric bucket bounds -(2^(n-1)-1) .. 2^(n-1). *)
Theorem C10_xor_dod_buckets : forall d r, int64 d -> xor_read_dod (xor_dod_bits d ++ r) = Some (d, r).
Proof. exact xor_dod_rt. Qed.

(* Every 64-bit value pattern (NaN payloads, stale marker, signed zeros, infinities) survives
   xorWrite/xorRead against any previous value and any related leading/trailing window. *)
Theorem C10_xor_value_bits : forall prev v al at_ il it_,
  is_u64 prev -> is_u64 v -> win_rel al at_ il it_ -> wf_window il it_ ->
  exists il' it',
    (forall r, xor_read prev il it_ (fst (fst (xor_write prev v al at_)) ++ r) = Some (v, il', it', r)) /\
    win_rel (snd (fst (xor_write prev v al at_))) (snd (xor_write prev v al at_)) il' it' /\
    wf_window il' it'.
Proof.
  intros prev v al at_ il it_ Hp Hv Hrel Hwf. destruct (xor_write prev v al at_) as [[vb l] tr] eqn:Hw.
  exact (xor_write_rt prev v al at_ il it_ vb l tr Hp Hv Hrel Hwf Hw).
Qed.

(* Capacity: a chunk takes 65535 samples (covered above); the next Append panics. *)
Theorem C10_xor_capacity : forall a t v, xor_append 65535 a t v = None.
Proof. reflexivity. Qed.

(* Non-vacuity: a history with two segments (the second after a reload from bytes), negative / extreme timestamps (deltas that wrap
   int64), a stale-NaN and an all-ones value meets the hypotheses, and its encoding is what
   the theorem says. *)
Example C10_xor_nonvacuous :
  Forall wf_sample (flat_map snd example_segs) /\
  Z.of_nat (length (flat_map snd example_segs)) <= 65535 /\
  match xor_encode example_segs with
  | EOk num _ bs => num = 5 /\ (length bs = 573)%nat /\
                    xor_decode (chunk_bytes num [] bs) = DOk (map st0 (flat_map snd example_segs)) false
  | _ => False
  end.
Proof.
  split; [repeat constructor; cbn; unfold int64, minInt64, maxInt64, is_u64; lia|].
  split; [cbn; lia|]. vm_compute. repeat split.
Qed.

Example C10_inv_nonvacuous : Inv 0 xapp_init xit_init.
Proof. exact Inv_init. Qed.

(* ============================ XOR2 (start-timestamp capable) ============================== *)
(* [wf_sample2]: start timestamp and timestamp are int64 values, the value a 64-bit pattern;
   nothing else (any start timestamps, any order, stale NaNs anywhere). *)

(* Any sample sequence up to the capacity, appended to a fresh XOR2 chunk, is returned exactly
   - (start timestamp, timestamp, value bits) - by iterating the chunk's bytes. *)
Theorem C10_xor2_roundtrip : forall k ss,
  Forall wf_sample2 ss -> Z.of_nat (length ss) <= 65535 ->
  exists num hdr bs, xor2_encode [(k, ss)] = EOk num [hdr] bs /\
                     xor2_decode (chunk_bytes num [hdr] bs) = DOk ss false.
Proof.
  intros k ss. pose proof (xor2_history_roundtrip [(k, ss)]) as H. cbn [flat_map snd] in H.
  rewrite app_nil_r in H. exact H.
Qed.

(* ... also when appending is interrupted any number of times and resumed through
   XOR2Chunk.Appender(), on the same object or on a chunk rebuilt from its bytes (the segments
   carry either kind): the appender state is rebuilt by iterating the existing bytes with the
   header as it is at that moment, and the final iterator reads with the final header. *)
Theorem C10_xor2_resume : forall segs,
  Forall wf_sample2 (flat_map snd segs) -> Z.of_nat (length (flat_map snd segs)) <= 65535 ->
  exists num hdr bs, xor2_encode segs = EOk num [hdr] bs /\
                     xor2_decode (chunk_bytes num [hdr] bs) = DOk (flat_map snd segs) false.
Proof. exact xor2_history_roundtrip. Qed.

(* One Append against one Next for XOR2 (simulation step), with the iterator knowing the final
   header [hdr_of aF] while the appender is still at an intermediate state. *)
Theorem C10_xor2_step : forall aF a hdr it st t v b a' hdr',
  Inv2 aF a it -> HdrInv a hdr -> int64 st -> int64 t -> is_u64 v ->
  x2_append a hdr st t v = Some (b, a', hdr') -> Fut a' aF ->
  exists it', (forall r, x2_next it (b ++ r) = Some (it', r)) /\ Inv2 aF a' it' /\
              j_st it' = st /\ j_t it' = t /\ j_v it' = v /\ b <> [].
Proof. exact x2_step. Qed.

(* varbit integers (start-timestamp deltas): every int64 falls in one bucket and decodes to itself *)
Theorem C10_varbit_roundtrip : forall x r, int64 x -> get_varbit (put_varbit x ++ r) = Some (x, r).
Proof. exact varbit_rt. Qed.

(* the ST header byte is always firstSTKnown*128 + firstSTChangeOn with firstSTChangeOn <= 127,
   and firstSTChangeOn is set by sample 127 at the latest *)
Theorem C10_xor2_header : forall ss a hdr bs aF hdrF,
  HdrInv a hdr -> x2_append_all a hdr ss = Some (bs, aF, hdrF) ->
  HdrInv aF hdrF /\ Fut a aF /\ b_num aF = b_num a + Z.of_nat (length ss).
Proof. exact x2_append_all_hdr. Qed.

Theorem C10_xor2_capacity : forall a hdr st t v, b_num a = 65535 -> x2_append a hdr st t v = None.
Proof. exact x2_capacity. Qed.

Example C10_xor2_nonvacuous :
  Forall wf_sample2 (flat_map snd example2_segs) /\
  Z.of_nat (length (flat_map snd example2_segs)) <= 65535 /\
  match xor2_encode example2_segs with
  | EOk num [hdr] bs => num = 6 /\ hdr = 2 /\
                        xor2_decode (chunk_bytes num [hdr] bs) = DOk (flat_map snd example2_segs) false
  | _ => False
  end.
Proof.
  split; [repeat constructor; cbn; unfold int64, minInt64, maxInt64, is_u64; lia|].
  split; [cbn; lia|]. vm_compute. repeat split.
Qed.

Example C10_inv2_nonvacuous : HdrInv x2app_init 0 /\ Inv2 x2app_init x2app_init (x2it_init 0).
Proof. split; [exact HdrInv_init|]. apply (Inv2_init x2app_init). cbn. lia. Qed.

(* ============================ Next / Seek ================================================== *)
(* [spec_script] (model/Xor.v) is the abstract cursor over the appended samples: Next moves to the
   next sample; Seek t stays on the current sample if its timestamp is >= t (idempotent), else
   moves to the first sample ahead with timestamp >= t, else reports ValNone standing on the
   last sample.  The iterator over the encoded bytes follows it for every script. *)
Theorem C10_xor_seek : forall segs acts,
  Forall wf_sample (flat_map snd segs) ->
  Z.of_nat (length (flat_map snd segs)) <= 65535 ->
  exists num bs, xor_encode segs = EOk num [] bs /\
    xor_run_script (chunk_bytes num [] bs) acts = Some (spec_script None (map st0 (flat_map snd segs)) acts).
Proof. exact xor_seek_script. Qed.

Theorem C10_xor2_seek : forall segs acts,
  Forall wf_sample2 (flat_map snd segs) -> Z.of_nat (length (flat_map snd segs)) <= 65535 ->
  exists num hdr bs, xor2_encode segs = EOk num [hdr] bs /\
    xor2_run_script (chunk_bytes num [hdr] bs) acts = Some (spec_script None (flat_map snd segs) acts).
Proof. exact xor2_seek_script. Qed.

(* what a successful / failing forward Seek of the cursor means: it lands on the FIRST sample ahead
   whose timestamp is >= t (everything skipped is < t); it fails only if every sample ahead is < t *)
Theorem C10_seek_first_at_or_after : forall t rest cur c' rest',
  (seek_rest t cur rest = (c', rest', true) ->
     exists pre x, c' = Some x /\ rest = pre ++ x :: rest' /\ Forall (fun y => s_t y < t) pre /\ t <= s_t x) /\
  (seek_rest t cur rest = (c', rest', false) -> rest' = [] /\ Forall (fun y => s_t y < t) rest).
Proof. intros. split; [apply seek_rest_found|apply seek_rest_none]. Qed.

Example C10_seek_nonvacuous :
  spec_script None [mkS 0 10 1; mkS 0 20 2; mkS 0 30 3] [ASeek 15; ASeek 5; ANext; ASeek 31; ASeek 30]
  = [Some (mkS 0 20 2); Some (mkS 0 20 2); Some (mkS 0 30 3); None; Some (mkS 0 30 3)].
Proof. reflexivity. Qed.
