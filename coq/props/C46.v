(* props/C46.v — property theorems for C46 (the notifier drops only the oldest alerts and
   preserves order).  Statements; the invariants they follow from are proved in proof/SendLoopProofs.v.

   `run c ops` is the state of one send loop after ANY sequence `ops` of atomic steps of the
   goroutines involved (Add by senders; Take / Arrive / Respond by the loop goroutine and by the
   goroutine draining inside stop(); Stop; DrainCheck) -- steps that are not enabled are no-ops,
   so every theorem below is a statement about all interleavings, of any length, for any
   QueueCapacity / MaxBatchSize / DrainOnShutdown.  `log` is what the Alertmanager received, in
   order of reception; `added ops` is every alert handed to the loop, in order. *)
From Coq Require Import List ZArith Bool.
From Verif Require Import model.SendLoop.
From Verif Require Import proof.SendLoopProofs.
Import ListNotations.
Open Scope Z_scope.

(* Order.  Full statement wanted by the property: for ALL ops,
     subseqb (log_alerts (log (run c ops))) (added ops) = true.
   That statement is false of the faithful model when DrainOnShutdown is set (see
   C46_order_under_drain_refuted).  What holds for all interleavings: the alerts received are a
   subsequence, in the same order, of the alerts added, provided no request reached the
   Alertmanager before an older request still in transit ([reordered] is set by exactly that
   event) ... *)
Theorem C46_subsequence : forall c ops, reordered (run c ops) = false ->
  subseqb (log_alerts (log (run c ops))) (added ops) = true.
Proof. exact subsequence. Qed.

(* ... and without DrainOnShutdown that event cannot happen (one request in flight at a time),
   so the order is preserved unconditionally. *)
Theorem C46_subsequence_nodrain : forall c ops, drain c = false ->
  subseqb (log_alerts (log (run c ops))) (added ops) = true.
Proof. intros c ops H. apply subsequence, no_reorder_nodrain, H. Qed.

(* With DrainOnShutdown the loop goroutine's request and the requests sent by stop() are in
   flight concurrently; the Alertmanager can receive the newer batch first.  Reproduced on the
   real Manager by the harness (shape key drain-overlap-reorder). *)
Theorem C46_order_under_drain_refuted :
  exists c ops, finished (run c ops) = true
    /\ log_alerts (log (run c ops)) = [3;4;1;2]
    /\ subseqb (log_alerts (log (run c ops))) (added ops) = false.
Proof. exists cfg_w, ops_reorder. vm_compute. auto. Qed.

(* Overflow drops the oldest alerts first: whatever the state, an add() on a running loop leaves
   exactly the last min(capacity, ..) elements of old queue ++ new alerts, counts what it cut
   off in `dropped`, and touches nothing else. *)
Theorem C46_oldest_first : forall c s al, stopped s = false ->
  let s' := step c s (Add al) in
  exists d : nat,
    queue s' = skipn d (queue s ++ al)
    /\ length (queue s') = Nat.min (cap c) (length (queue s) + length al)
    /\ dropped s' = dropped s + Z.of_nat d
    /\ log s' = log s /\ flights s' = flights s /\ sent s' = sent s /\ errors s' = errors s.
Proof. exact add_oldest_first. Qed.

(* A delivery counts as successful exactly for a final 2xx response (the model's transcription of
   `resp.StatusCode/100 != 2`); with C46_accounting this says `sent` grows only for 2xx and every
   other outcome is counted in `errors` and `dropped`. *)
Theorem C46_status_2xx : forall st, status_ok st = true <-> 200 <= st < 300.
Proof. exact status_ok_spec. Qed.

(* Every request received carries between 1 and MaxBatchSize alerts. *)
Theorem C46_batch_bound : forall c ops, batches_ok c (log (run c ops)) = true.
Proof. exact batch_bound. Qed.

(* Conservation: every alert accepted by add() is, at any moment, exactly one of: delivered
   (sent), failed (errors), dropped by add() on overflow (ovf), still queued, or in a request in
   flight; the dropped counter is overflow drops + failed deliveries + what stop() wrote off;
   the sent counter equals what the Alertmanager acknowledged. *)
Theorem C46_accounting : forall c ops, let s := run c ops in
  accepted s = sent s + errors s + ovf s + len (queue s) + flight_count (flights s)
  /\ dropped s = ovf s + errors s + stopdrop s
  /\ sent s + arrived_count true (flights s) = log_count true (log s)
  /\ log_count false (log s) <= errors s + arrived_count false (flights s)
  /\ (stopped s = false -> accepted s = sent s + dropped s + len (queue s) + flight_count (flights s)).
Proof. exact accounting. Qed.

(* Every loss is counted: once stop() has returned and nothing is in flight, the alerts that
   were accepted and not delivered are covered by the dropped counter; with DrainOnShutdown the
   count is exact and the queue is empty. *)
Theorem C46_every_loss_counted : forall c ops, let s := run c ops in finished s = true ->
  accepted s <= sent s + dropped s
  /\ (drain c = true -> accepted s = sent s + dropped s /\ queue s = [])
  /\ sent s = log_count true (log s).
Proof. exact every_loss_counted. Qed.

(* Without DrainOnShutdown the count is not exact: the loop goroutine can win one more
   `<-hasWork` after stop() has written the queue off, and deliver alerts already counted as
   dropped (over-count; not a loss, so not a violation of the property). *)
Theorem C46_exact_accounting_nodrain_refuted :
  exists c ops, drain c = false /\ finished (run c ops) = true
    /\ accepted (run c ops) < sent (run c ops) + dropped (run c ops).
Proof. exists (mkCfg 5 2 false), ops_overcount. vm_compute. auto. Qed.

(* Drain: when stop() returns (DDone) with DrainOnShutdown, the queue is empty, no request of the
   draining goroutine is pending, and every accepted alert is delivered, counted as dropped, or
   in the one request the loop goroutine may still have in flight (already issued). *)
Theorem C46_drain : forall c ops, let s := run c ops in drain c = true -> dp s = DDone ->
  queue s = [] /\ nfl Drainer (flights s) = 0%nat
  /\ accepted s = sent s + dropped s + loop_flight_count (flights s).
Proof. exact drain_complete. Qed.

(* Non-vacuity: a concrete run that overflows the queue, fails a delivery, drains on stop and
   finishes without reordering. *)
Example C46_nonvacuous :
  let s := run cfg_w ops_nv in
  finished s = true /\ reordered s = false /\ dp s = DDone
  /\ log s = [([3;4], true); ([7;8], false); ([9], true)]
  /\ accepted s = 9 /\ sent s = 3 /\ dropped s = 6 /\ errors s = 4 /\ ovf s = 2.
Proof. vm_compute. repeat split; reflexivity. Qed.
