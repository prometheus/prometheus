(* props/C16.v — property theorems for C16 (series selection and label queries follow matcher
   semantics).  The lemmas are in proof/PostingsProofs.v and proof/PostingsMoreProofs.v.

   Vocabulary (model/Postings.v, proof/PostingsProofs.v):
     store_wfb st           the store read back from an index reader is well formed (refs strictly
                            increasing, label names/values non-empty, the raw value table lists
                            exactly the stored values)
     oracle_consistent st m what PostingsForMatchers assumes about the compiled regex of m when it
                            decides by the value string (".*", ".+", "") or uses SetMatches — true
                            of Go's regexp; checked on every case by oracle_ok
     series_matches ms s    every matcher of ms matches the value of its label on s, an absent
                            label counting as ""  *)
From Coq Require Import List ZArith NArith Bool Sorted.
From Verif Require Import model.Postings proof.PostingsProofs proof.PostingsMoreProofs.
Import ListNotations.
Open Scope Z_scope.

(* PostingsForMatchers never fails on a non-empty list of matchers with non-empty label names,
   and yields, ref-sorted and duplicate-free, exactly the refs of the stored series that satisfy
   every matcher — for all stores, all matcher lists (=, !=, =~, !~; any regex tables), incl.
   empty-matching regexes, negations on absent labels, set regexes, duplicates on one name. *)
Theorem C16_select_exact : forall st ms,
  store_wfb st = true -> ms <> [] ->
  (forall m, In m ms -> m_name m <> []) ->
  (forall m, In m ms -> oracle_consistent st m) ->
  exists p, postings_for_matchers st ms = Ok p /\
    StronglySorted Z.lt p /\
    (forall r, In r p -> exists s, In s (st_series st) /\ s_ref s = r) /\
    (forall s, In s (st_series st) -> (In (s_ref s) p <-> series_matches ms s)).
Proof. exact pfm_exact. Qed.

(* Select on one store (head or block) over [mint,maxt], sorted or not: returns the label sets
   of exactly the stored series that satisfy every matcher and have a chunk overlapping the
   range — every matching series with a sample in range, and no series that does not match. *)
Theorem C16_select_store_exact : forall st mint maxt sorted ms,
  store_wfb st = true -> ms <> [] ->
  (forall m, In m ms -> m_name m <> []) ->
  (forall m, In m ms -> oracle_consistent st m) ->
  exists l, select_store st mint maxt sorted ms = Ok l /\
    forall ls, In ls l <->
      exists s, In s (st_series st) /\ s_labels s = ls /\ series_matches ms s /\
                existsb (chunk_overlaps mint maxt) (s_chunks s) = true.
Proof.
  intros st mint maxt sorted ms WF Hnn Hne Hoc.
  destruct (pfm_exact st ms WF Hnn Hne Hoc) as [p [E [_ [_ HP]]]].
  unfold select_store. rewrite E. eexists. split; [reflexivity|].
  pose proof (selected_In st ms p sorted WF HP) as L. intros ls. split.
  - intros H. apply in_map_iff in H as [s [H1 H2]]. apply filter_In in H2 as [H2 H3].
    apply L in H2 as [H2 H4]. exists s. auto.
  - intros [s [H1 [H2 [H3 H4]]]]. apply in_map_iff. exists s. split; [exact H2|].
    apply filter_In. split; [apply L; auto|exact H4].
Qed.

(* Intersect / Merge / Without on ref-sorted postings: sorted results with set semantics. *)
Theorem C16_postings_algebra : forall a b, StronglySorted Z.lt a -> StronglySorted Z.lt b ->
  (StronglySorted Z.lt (isect a b) /\ forall x, In x (isect a b) <-> In x a /\ In x b) /\
  (StronglySorted Z.lt (merge2 a b) /\ forall x, In x (merge2 a b) <-> In x a \/ In x b) /\
  (StronglySorted Z.lt (without a b) /\ forall x, In x (without a b) <-> In x a /\ ~ In x b).
Proof.
  intros a b Ha Hb.
  exact (conj (isect_spec a b Ha Hb) (conj (merge2_spec a b Ha Hb) (without_spec a b Ha Hb))).
Qed.

(* "sorted by labels when sorting is requested": Select(sortSeries=true) on a store returns the
   label sets in labels.Compare order (labels_le a b := labels_cmp a b <> Gt, a total preorder
   whose Eq is equality).  No hypothesis on the store or the matchers. *)
Theorem C16_sorted : forall st mint maxt ms l,
  select_store st mint maxt true ms = Ok l -> StronglySorted labels_le l.
Proof.
  intros st mint maxt ms l. unfold select_store.
  destruct (postings_for_matchers st ms) as [p|]; [|discriminate]. intros [= <-].
  apply SS_map_filter, sort_series_sorted.
Qed.

(* labelValuesWithMatchers (LabelValues with matchers, one store): only values of [name] carried
   by stored series that satisfy every matcher; without a limit, all of them. *)
Theorem C16_label_values : forall st, store_wfb st = true -> forall ms, ms <> [] ->
  (forall m, In m ms -> m_name m <> []) ->
  (forall m, In m ms -> oracle_consistent st m) ->
  forall name, name <> [] -> forall limit,
  exists vs, label_values_with_matchers st name limit ms = Ok vs /\
    (forall v, In v vs -> value_of_matching st ms name v) /\
    (limit = 0 -> forall v, value_of_matching st ms name v -> In v vs).
Proof. exact lvwm_exact. Qed.

(* labelNamesWithMatchers (LabelNames with matchers, one store): exactly the label names of the
   stored series that satisfy every matcher. *)
Theorem C16_label_names : forall st, store_wfb st = true -> forall ms, ms <> [] ->
  (forall m, In m ms -> m_name m <> []) ->
  (forall m, In m ms -> oracle_consistent st m) ->
  exists p, postings_for_matchers st ms = Ok p /\
    forall n, In n (names_of (lookup_all st p)) <->
      exists s, In s (st_series st) /\ series_matches ms s /\ In n (map fst (s_labels s)).
Proof.
  intros st WF ms Hnn Hne Hoc. destruct (pfm_exact st ms WF Hnn Hne Hoc) as [p [E [_ [_ PM]]]].
  exists p. split; [exact E|]. intros n. unfold names_of.
  rewrite (fold_ins_In _ ins_str_u ins_str_u_In), in_flat_map. split.
  - intros [s [Hs Hn]]. apply (selected_In st ms p false WF PM) in Hs as [H1 H2]. eauto.
  - intros [s [H1 [H2 H3]]]. exists s. split; [apply (selected_In st ms p false WF PM); auto|exact H3].
Qed.

(* Merging the per-store answers (mergeResults/mergeStrings/truncateToLimit), any number of
   stores, any limit: the recursion terminates within the fuel used by run_query; every entry
   comes from some store's answer; without a limit nothing is lost; with a limit N (and
   per-store answers of at most N entries) at most N entries are returned.
   FULL STATEMENT (not proved here, hence _partial): for sorted duplicate-free per-store
   answers s_i taken from unlimited answers U_i with |s_i| = min(N,|U_i|), the result is sorted,
   duplicate-free and has exactly min(N, |U_1 u ... u U_k|) entries.  Missing: the counting
   argument and sortedness of merge_str; both are checked per case by holds (limit_spec). *)
Theorem C16_limit_partial : forall fuel limit rs, (length rs < fuel)%nat ->
  exists r, merge_results fuel limit rs = Some r /\
    (forall x, In x r -> exists l, In l rs /\ In x l) /\
    (limit <= 0 -> forall l x, In l rs -> In x l -> In x r) /\
    (0 < limit -> (forall l, In l rs -> Z.of_nat (length l) <= limit) -> Z.of_nat (length r) <= limit).
Proof. exact merge_results_props. Qed.

(* Domain note (why C16_select_exact needs ms <> []): with an empty matcher list
   PostingsForMatchers selects nothing (Intersect of no postings), not every series. *)
Theorem C16_select_no_matchers : forall st, postings_for_matchers st [] = Ok [].
Proof. reflexivity. Qed.

(* FINDING (known-findings.txt, key empty-label-name-matcher): matchers on the empty label name
   see the index's pseudo pair ""="" — the faithful model violates the exactness statement as
   soon as the hypothesis "label names are non-empty" of C16_select_exact is dropped. *)
Theorem C16_empty_name_refuted :
  exists st ms p s,
    store_wfb st = true /\ ms <> [] /\
    (forall m, In m ms -> oracle_consistent st m) /\
    postings_for_matchers st ms = Ok p /\
    In s (st_series st) /\ In (s_ref s) p /\ ~ series_matches ms s.
Proof.
  apply (empty_name_witness bad_m_plus); try reflexivity.
  apply oc_dot_plus; try reflexivity. intros w [->|[<-|[]]]; reflexivity.
Qed.

Theorem C16_all_key_in_list_refuted :
  exists st ms, store_wfb st = true /\ (forall m, In m ms -> oracle_consistent st m) /\
    postings_for_matchers st ms = Err /\
    exists s, In s (st_series st) /\ series_matches ms s.
Proof.
  exists ex_st, [mkM MEq [] [] [] []; mkM MEq ex_a ex_x [] []].
  split; [reflexivity|]. split; [intros m [<-|[<-|[]]]; apply oc_not_regex; reflexivity|].
  split; [reflexivity|]. eexists. split; [left; reflexivity|]. intros m [<-|[<-|[]]]; reflexivity.
Qed.

(* Non-vacuity: a concrete store and the matcher list {a=~".+", b!="1"} meet all hypotheses;
   one of three series is selected, and the time range decides whether Select returns it. *)
Example C16_nonvacuous :
  store_wfb ex_st = true /\ ex_ms <> [] /\
  (forall m, In m ex_ms -> m_name m <> []) /\
  (forall m, In m ex_ms -> oracle_consistent ex_st m) /\
  postings_for_matchers ex_st ex_ms = Ok [2] /\
  select_store ex_st 0 35 true ex_ms = Ok [[(ex_a, ex_y)]] /\
  select_store ex_st 0 29 true ex_ms = Ok [].
Proof.
  split; [reflexivity|]. split; [discriminate|]. split.
  { intros m [<-|[<-|[]]]; discriminate. }
  split; [|repeat split; reflexivity].
  intros m [<-|[<-|[]]]; [|apply oc_not_regex; reflexivity].
  apply oc_dot_plus; try reflexivity.
  intros w [->|[<-|[<-|[]]]]; reflexivity.
Qed.
