(* props/C42.v — property theorems for C42 (remote read returns the same data as a local
   query).  Only statements; the proofs are in proof/RemoteReadProofs.v, the model in
   model/RemoteRead.v.

   Full statement: for every series set ss a storage returns for (matchers, [mint, maxt]),
       sampled_path limit ext sort ss              = Ok (ss with the external labels), and
       chunked_path maxBytes ext mint maxt chunks  = the in-range samples of every series, once.
   As stated it is FALSE of the faithful model (and of the code) in four corners, each with a
   `_refuted` theorem below and a reproducer in notes/C42.md:
     - streamed: a series whose chunks do not fit one frame comes back as several series
       entries with the same label set (chunkedSeriesSet.Next makes one series per frame);
     - sampled: a float sample -0.0 comes back as +0.0 (prompb.Sample omits Value when
       `m.Value != 0` is false);
     - sampled: a sample with timestamp MaxInt64 is dropped (noTS sentinel of
       concreteSeriesIterator.Next);
     - sampled: concreteSeriesIterator.Seek loses the first sample of the other value type on a
       series mixing floats and histograms (Seek moves both cursors off -1 before its no-op exit).
   Outside these corners the statement is proved at full strength (all series sets, ranges,
   frame sizes, limits, external labels). *)
From Coq Require Import List ZArith Bool NArith.
From Verif Require Import lib.Int64 model.RemoteRead proof.RemoteReadProofs.
Import ListNotations.
Open Scope Z_scope.

(* SAMPLES response: ToQueryResult -> wire -> FromQueryResult -> concreteSeriesIterator gives
   back every series with exactly its samples (floats, integer and float histograms, in
   timestamp order), external labels attached, sorted iff asked for. *)
Theorem C42_sampled_id : forall limit ext sortSeries ss,
  Forall good_series ss ->
  limit <= 0 \/ total_samples ss <= limit ->
  sampled_path limit ext sortSeries ss =
    Ok (let l := map (with_ext ext) ss in if sortSeries then sort_series l else l).
Proof. exact sampled_id. Qed.

(* ... in particular the identity when the storage returned the series sorted *)
Theorem C42_sampled_id_sorted : forall limit ext sortSeries ss,
  Forall good_series ss -> limit <= 0 \/ total_samples ss <= limit ->
  label_sorted (map (with_ext ext) ss) ->
  sampled_path limit ext sortSeries ss = Ok (map (with_ext ext) ss).
Proof. exact sampled_id_sorted. Qed.

(* a configured sample limit below the size of the result turns the response into an error,
   never into a truncated result *)
Theorem C42_sampled_limit : forall limit ext sortSeries ss,
  0 < limit < total_samples ss -> sampled_path limit ext sortSeries ss = ErrLimit.
Proof. exact sampled_limit. Qed.

(* STREAMED_XOR_CHUNKS response, frames: the frames of a series are a partition of its chunk
   list, in order, none empty *)
Theorem C42_frames_partition : forall maxBytes lbls chs,
  concat (frames_of maxBytes lbls chs) = chs /\
  Forall (fun f => f <> []) (frames_of maxBytes lbls chs).
Proof. intros. split; [apply frames_of_concat|apply frames_go_nonempty]. Qed.

(* per series, for ANY frame size: the samples the client iterators yield for the frames of
   the series, concatenated, are exactly the series' samples inside [mint, maxt] *)
Theorem C42_chunked_series_samples : forall maxBytes lbls mint maxt chs,
  ts_nondecr (all_samples chs) ->
  concat (map (chunked_iter mint maxt) (frames_of maxBytes lbls chs))
  = filter (in_range mint maxt) (all_samples chs).
Proof. exact chunked_series_samples. Qed.

(* whole response, for ANY frame size: gluing neighbouring client entries with equal label
   sets gives exactly the direct result (every series once, its in-range samples, server order) *)
Theorem C42_chunked_reassemble : forall maxBytes ext mint maxt ss,
  Forall good_cseries ss ->
  adj_distinct (map (fun s => merge_labels (cs_l s) ext) ss) ->
  reassemble (chunked_path maxBytes ext mint maxt ss) = map (trim_series mint maxt ext) ss.
Proof.
  intros maxBytes ext mint maxt ss Hg. unfold chunked_path, stream_frames.
  induction Hg as [|s ss [Hs Hne] Hg IH]; intros Hd; [reflexivity|].
  cbn [flat_map map]. rewrite client_chunked_app.
  unfold stream_series at 1. unfold client_chunked at 1. rewrite map_map. cbn [f_l f_c].
  assert (Hd' : adj_distinct (map (fun s => merge_labels (cs_l s) ext) ss)).
  { cbn in Hd. destruct ss; cbn in *; tauto. }
  specialize (IH Hd').
  rewrite reassemble_frames.
  - rewrite IH. cbn [map]. f_equal. unfold trim_series. f_equal. now apply chunked_series_samples.
  - unfold frames_of. apply frames_go_count. exact Hne.
  - rewrite IH. destruct ss as [|s2 ss2]; cbn; auto. cbn in Hd. tauto.
Qed.

(* whole response when every series fits one frame (the 1 MiB default and ordinary series):
   the client's series set IS the direct result, no gluing needed *)
Theorem C42_chunked_id_one_frame : forall maxBytes ext mint maxt ss,
  Forall good_cseries ss -> Forall (fits maxBytes ext) ss ->
  chunked_path maxBytes ext mint maxt ss = map (trim_series mint maxt ext) ss.
Proof. exact chunked_id_one_frame. Qed.

(* frame budget: a frame holds one chunk, or its chunks except the last stay below
   maxBytesInFrame minus the label sizes ("inaccuracy of at most one chunk") *)
Theorem C42_frames_budget : forall maxBytes lbls chs,
  Forall (within_budget (max_data_length maxBytes lbls)) (frames_of maxBytes lbls chs).
Proof. exact frames_budget. Qed.

(* read.go querier (NewSampleAndChunkQueryableClient) configured with the serving side's
   external labels: the labels added by the handler are stripped again and the result is the
   direct result itself — over the sampled response ... *)
Theorem C42_querier_sampled_id : forall limit maxBytes ext mnames sortSeries mint maxt ss chunks,
  Forall good_series ss -> limit <= 0 \/ total_samples ss <= limit ->
  Forall (fun l => str_mem (fst l) mnames = false) ext ->
  Forall (fun s => storable ext (ser_l s)) ss ->
  label_sorted (map (with_ext ext) ss) ->
  querier_path false limit maxBytes ext mnames sortSeries mint maxt ss chunks = Ok ss.
Proof.
  intros. unfold querier_path. rewrite sampled_id_sorted by auto.
  rewrite added_names_all by auto. now rewrite strip_with_ext.
Qed.

(* ... and over the streamed response when every series fits one frame *)
Theorem C42_querier_chunked_id : forall limit maxBytes ext mnames sortSeries mint maxt direct ss,
  Forall good_cseries ss -> Forall (fits maxBytes ext) ss ->
  Forall (fun l => str_mem (fst l) mnames = false) ext ->
  Forall (fun s => storable ext (cs_l s)) ss ->
  querier_path true limit maxBytes ext mnames sortSeries mint maxt direct ss
  = Ok (map (fun s => mkSer (cs_l s) (filter (in_range mint maxt) (all_samples (cs_c s)))) ss).
Proof.
  intros limit maxBytes ext mnames sortSeries mint maxt direct ss Hg Hf Hm Hs. unfold querier_path.
  rewrite chunked_id_one_frame by auto. rewrite added_names_all by auto. f_equal.
  clear Hg Hf. unfold strip_series. induction Hs as [|s ss Hs Hss IH]; cbn [map]; auto. rewrite IH. f_equal.
  unfold trim_series. cbn [ser_l ser_s]. f_equal. apply strip_merge; auto. apply ext_names_in.
Qed.

Example C42_querier_nonvacuous :
  storable [([122%N], [49%N])] [([97%N], [98%N]); ([99%N], [100%N])] /\
  querier_path false 0 100 [([122%N], [49%N])] [[97%N]] true 0 100
     [mkSer [([97%N], [98%N])] [mkS 5 KF 1]] [] = Ok [mkSer [([97%N], [98%N])] [mkS 5 KF 1]].
Proof. exact querier_example. Qed.

(* refuted: a series larger than a frame (every single chunk fits) is returned as two series *)
Theorem C42_chunked_split_refuted : exists maxBytes ext mint maxt ss,
  Forall good_cseries ss /\
  adj_distinct (map (fun s => merge_labels (cs_l s) ext) ss) /\
  Forall (fun s => Forall (fun c => chunk_size c < max_data_length maxBytes (merge_labels (cs_l s) ext)) (cs_c s)) ss /\
  chunked_path maxBytes ext mint maxt ss <> map (trim_series mint maxt ext) ss.
Proof. exact chunked_split_refuted. Qed.

(* refuted: negative zero does not survive the sampled response *)
Theorem C42_sampled_negzero_refuted : exists ss,
  Forall (fun s => ts_sorted (ser_s s) /\ below_noTS (ser_s s)) ss /\
  sampled_path 0 [] false ss <> Ok ss.
Proof.
  exists [mkSer [([97%N], [98%N])] [mkS 1000 KF neg_zero_bits]]. split.
  - repeat constructor.
  - vm_compute. discriminate.
Qed.

(* refuted: a sample at MaxInt64 does not survive the sampled response *)
Theorem C42_sampled_maxint64_refuted : exists ss,
  Forall (fun s => ts_sorted (ser_s s) /\ no_negzero (ser_s s)) ss /\
  sampled_path 0 [] false ss <> Ok ss.
Proof.
  exists [mkSer [([97%N], [98%N])] [mkS 1000 KF 1; mkS maxInt64 KF 2]]. split.
  - repeat constructor; intros _; vm_compute; discriminate.
  - vm_compute. discriminate.
Qed.

(* refuted: Seek is not a faithful access path on a series that mixes floats and histograms
   (Seek is otherwise covered by the correspondence run only: seek_probe vs seek_spec) *)
Theorem C42_sampled_seek_mixed_refuted : exists all skip t,
  ts_sorted all /\ below_noTS all /\ no_negzero all /\
  seek_probe (floats_of all) (hists_of all) skip t <> Some (Some (seek_spec all skip t)).
Proof.
  exists [mkS 10 KF 1; mkS 20 KH 3; mkS 30 KF 2], 1%nat, 10.
  split; [repeat constructor|split; [repeat constructor|split]].
  - repeat constructor; intros _; vm_compute; discriminate.
  - vm_compute. intros H. congruence.
Qed.

Example C42_seek_probe_nonvacuous :
  seek_probe (floats_of [mkS 10 KF 1; mkS 20 KH 3; mkS 30 KF 2]) (hists_of [mkS 10 KF 1; mkS 20 KH 3; mkS 30 KF 2]) 0 15
  = Some (Some (seek_spec [mkS 10 KF 1; mkS 20 KH 3; mkS 30 KF 2] 0 15)).
Proof. exact seek_fresh_example. Qed.

(* non-vacuity: concrete non-trivial inputs meeting the hypotheses *)
Example C42_nonvacuous_sampled :
  Forall good_series
    [mkSer [([97%N], [98%N])] [mkS 10 KF 4607182418800017408; mkS 20 KH 77; mkS 30 KFH 78; mkS 40 KF 0];
     mkSer [([97%N], [99%N])] []]
  /\ sampled_path 3 [([122%N], [49%N])] true
       [mkSer [([97%N], [98%N])] [mkS 10 KF 4607182418800017408; mkS 20 KH 77; mkS 30 KFH 78; mkS 40 KF 0]]
     = ErrLimit.
Proof. exact good_series_example. Qed.

Example C42_nonvacuous_chunked :
  Forall good_cseries ex_cseries /\ adj_distinct (map (fun s => merge_labels (cs_l s) []) ex_cseries)
  /\ length (stream_frames 60 [] ex_cseries) = 3%nat
  /\ length (chunked_path 60 [] 2 5 ex_cseries) = 3%nat
  /\ Forall (fits 1000 []) ex_cseries.
Proof. exact good_cseries_example. Qed.
