(* props/C12.v — property theorems for C12 (counter-reset hints returned by queries are sound).
   The statements; the lemmas behind them are in proof/CounterResetHintProofs.v, the model in
   model/CounterResetHint.v.

   Vocabulary.  [P a b]: a is non-stale, has b's schema, zero threshold and custom bounds, and no
   count, zero count or bucket count (absent bucket = 0) of b is lower than in a.
   [sound_list l]: the statement of C12 on a returned list l — every non-stale sample marked
   NotCounterReset has a preceding sample in l with [P] (evaluated as [pred_ok]); it is the predicate
   the correspondence check evaluates on the real queriers' output.  [sound_tail l]: the same for every
   sample but the first.  [valid h]: bucket indices strictly increasing, bucket counts non-negative,
   custom bounds only with the custom schema (what Histogram.Validate enforces on ingestion).

   The FULL statement (all samples of every query result are sound) is FALSE of the faithful model and
   of the code: C12_first_sample_refuted and C12_deleted_chunk_start_refuted (both reproduced on the
   real DB, both recorded as known findings).  What is proved of the code for all inputs is
   C12_sound_partial (+ C12_sound_from_start).  C12_sound_if_hint_reset is about a hypothetical
   repair of tsdb.DeletedIterator, not about the code. *)
From Coq Require Import List ZArith Bool.
From Verif Require Import model.CounterResetHint proof.CounterResetHintProofs.
Import ListNotations.
Open Scope Z_scope.

(* The appendable cascade: a non-stale histogram is appended to a counter chunk only if the chunk's
   last sample is an admissible predecessor (any decrease, disappeared used bucket, layout change or
   stale predecessor makes appendable refuse or report a reset). *)
Theorem C12_appendable_cascade : forall a last h,
  inv a last -> valid h -> a_stale h = false ->
  appendable a h = (true, CNotReset) -> P last h.
Proof. exact appendable_sound. Qed.

(* For every sequence of AppendHistogram calls (any forced cuts, any valid histograms, resets, layout
   changes, stale markers, gauge samples): within one counter chunk every non-stale sample has all
   earlier samples of the chunk as admissible predecessors. *)
Theorem C12_chunk_sound : forall k ops, Forall (fun op => valid (snd op)) ops ->
  forall c, In c (run k ops) -> c_crh c <> CGauge ->
  forall l1 a l2 b l3, c_samples c = l1 ++ a :: l2 ++ b :: l3 ->
  a_stale (snd b) = false -> P (snd a) (snd b).
Proof.
  intros k ops Hv c Hin Hg l1 a l2 b l3 E Hs. pose proof (run_ok k ops Hv) as Hok. rewrite Forall_forall in Hok.
  destruct (Hok c Hin) as [Hc|Hp]; [contradiction|]. rewrite E in Hp. exact (pwo_split _ _ _ _ _ Hp Hs).
Qed.

(* Reading all chunks of such a series with the chunk iterators (hint from counterResetHint(crh,
   numRead)) gives a sound list, first sample included. *)
Theorem C12_read_sound : forall k ops, Forall (fun op => valid (snd op)) ops ->
  sound_list (concat (map read_chunk (run k ops))) = true.
Proof. exact read_sound. Qed.

(* The chained merge, for every tie-breaking of its heap: if every input has strictly increasing
   timestamps and is sound for all samples but its first, the merged list is sound for every sample
   (NotCounterReset survives only for a sample that directly follows its predecessor in the same
   input iterator). *)
Theorem C12_merge_sound : forall srcs ch out,
  Forall it_ok srcs -> chain srcs ch = COk out -> sound_list out = true.
Proof. exact chain_sound. Qed.

(* PARTIAL end-to-end statement about the code.
   FULL STATEMENT (false, see the two _refuted theorems below): for any number of sources, any valid
   append histories with increasing timestamps and any keep predicate (query window, tombstones),
   every sample of the result is sound.
   PROVED: for a query window [mint, maxt] — results merged through the chained iterator (every
   tie-breaking) are sound for every sample; a single source returned as it is is sound for every
   sample but the first, and for the first one too unless it is marked.
   MISSING: the first sample of a single-source result whose range starts inside a chunk, and results
   filtered by tombstones. *)
Theorem C12_sound_partial : forall (srcs : list src) mint maxt,
  Forall src_ok srcs ->
  (forall ch out, chain (map (src_read mint maxt) srcs) ch = COk out -> sound_list out = true)
  /\ (forall s, In s srcs ->
        sound_tail (src_read mint maxt s) = true
        /\ (match src_read mint maxt s with [] => True | x :: _ => marked x = false end ->
            sound_list (src_read mint maxt s) = true)).
Proof.
  intros srcs mint maxt Hf. split.
  - intros ch out. apply chain_sound, Forall_map. exact (Forall_impl _ (src_window_ok mint maxt) Hf).
  - intros s Hin. rewrite Forall_forall in Hf. destruct (src_window_ok mint maxt s (Hf s Hin)) as [Ht _].
    split; [exact Ht|exact (sound_tail_first _ Ht)].
Qed.

(* A query whose range starts at or before the first sample of the series is sound for every sample. *)
Theorem C12_sound_from_start : forall k ops mint maxt lo,
  Forall (fun op => valid (snd op)) ops -> zincr lo (map op_time ops) -> mint <= lo + 1 ->
  sound_list (read_source (window mint maxt) (run k ops)) = true.
Proof.
  intros k ops mint maxt lo Hv Hi Hm.
  exact (window_keep_from mint maxt _ None lo Hm (run_incr k ops lo Hi) (read_sound k ops Hv)).
Qed.

(* Refuted: the first sample of a range-restricted single-source result is marked although its
   predecessor is not in the result (counter histograms 10..50 at 1000..5000, range [3000,10000]);
   known finding first-sample-of-range-restricted-result, corpus case 5 of h_c12. *)
Theorem C12_first_sample_refuted : exists (s : src) mint maxt,
  src_ok s /\ sound_list (src_read mint maxt s) = false
  /\ match src_read mint maxt s with x :: _ => marked x = true | [] => False end.
Proof.
  exists (KInt, ops_grow), 3000, 10000. split; [apply ops_grow_ok|]. split; vm_compute; reflexivity.
Qed.

(* Refuted: with a tombstone over the first sample of a later chunk a NON-first sample is marked
   although the counter decreased (10,20 | 5,6,7 with [2500,3500] deleted gives 10,20,6*,7);
   known finding sample-after-deleted-chunk-start, corpus case 7 of h_c12. *)
Theorem C12_deleted_chunk_start_refuted : exists (s : src) keep,
  src_ok s /\ sound_tail (read_source keep (run (fst s) (snd s))) = false.
Proof. exists (KInt, ops_reset), keep_del. split; [apply ops_reset_ok|]. vm_compute. reflexivity. Qed.

(* ABOUT A HYPOTHETICAL REPAIR, NOT ABOUT THE CODE: if the DeletedIterator reset a NotCounterReset
   hint to unknown for a sample it reaches by skipping deleted samples (model read_source_fixed), the
   property would hold at full strength: any sources, any keep predicate, merged or single. *)
Theorem C12_sound_if_hint_reset : forall (srcs : list src) keep,
  Forall src_ok srcs ->
  (forall ch out, chain (map (src_read_fixed keep) srcs) ch = COk out -> sound_list out = true)
  /\ (forall s, In s srcs -> sound_list (src_read_fixed keep s) = true).
Proof.
  intros srcs keep Hf. split.
  - intros ch out. apply chain_sound, Forall_map. exact (Forall_impl _ (fun s Hs => proj2 (src_fixed_ok keep s Hs)) Hf).
  - intros s Hin. rewrite Forall_forall in Hf. apply src_fixed_ok, Hf, Hin.
Qed.

(* the two refuting inputs through the hypothetical repair *)
Example C12_fixed_witnesses :
  map marked (read_source_fixed (window 3000 10000) (run KInt ops_grow)) = [false; true; true]
  /\ map marked (read_source_fixed keep_del (run KInt ops_reset)) = [false; true; false; true].
Proof. split; vm_compute; reflexivity. Qed.

(* Non-vacuity: a concrete series whose read keeps four marked samples, a concrete history that cuts a
   second chunk at the reset, and a concrete merge of two overlapping windows that satisfies the
   hypotheses of C12_merge_sound and keeps marks only inside runs of one iterator. *)
Example C12_nonvacuous_read :
  map marked (concat (map read_chunk (run KInt ops_grow))) = [false; true; true; true; true]
  /\ length (run KInt ops_reset) = 2%nat.
Proof. split; vm_compute; reflexivity. Qed.

Example C12_nonvacuous_merge : exists out,
  chain two_reads [] = COk out /\ map r_t out = [1000; 2000; 3000; 4000; 5000]
  /\ map marked out = [false; true; false; false; true] /\ Forall it_ok two_reads.
Proof.
  eexists. split; [vm_compute; reflexivity|]. split; [reflexivity|]. split; [reflexivity|].
  destruct ops_grow_ok as [Hv [lo Hi]].
  constructor; [exact (source_window KInt ops_grow 1000 3000 lo Hv Hi)|].
  constructor; [exact (source_window KInt ops_grow 3000 5000 lo Hv Hi)|constructor].
Qed.

Example C12_nonvacuous_sources : src_ok (KInt, ops_grow) /\ src_ok (KInt, ops_reset).
Proof. split; [exact ops_grow_ok|exact ops_reset_ok]. Qed.
