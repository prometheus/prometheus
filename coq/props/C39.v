(* props/C39.v — property theorems for C39 (label sets behave as canonical sorted maps in
   every build).  Nothing but statements; proofs are in proof/LabelsXProofs.v.

   FULL STATEMENT (of which the theorems below prove the listed parts):
     forall ops, protocol_ok ops = true ->
       the transcripts (iteration, length, lookups, String, Equal, Compare sign) of
       run I_string ops, run I_slice ops, run I_dedupe ops are equal, every register is a
       strictly name-sorted list denoting the map the operations specify, and Builder results
       carry no empty values.
   Proved for all inputs: the stringlabels encoding is an injective representation of entry
   lists (abs o repr = id; Range/Len/Get/Has on it are the list's resp. the map's); Builder
   operation sequences have map semantics (slicelabels algorithm); the stringlabels
   Builder.Labels byte-level merge is the entry-level merge used by dedupelabels; Sort yields the
   canonical list; constructors agree across stringlabels/slicelabels on all of these.
   Also proved for all inputs: Compare and Equal of stringlabels = those of slicelabels; the
   entry-level merge (stringlabels/dedupelabels Builder.Labels) = filter+append+sort
   (slicelabels Builder.Labels) on every reachable builder state.
   NOT proved (checked only by the correspondence run, see notes/C39.md): the composition of
   these per-operation results into one induction over whole programs (run_ops) — the
   machine-level statement is therefore given `_partial`, per operation class; the dedupelabels
   symbol table (abstract in the model). *)
From Coq Require Import List ZArith Bool.
From Verif Require Import model.LabelsX proof.LabelsXProofs proof.LabelsXCompare proof.LabelsXMerge proof.LabelsXSpec.
Import ListNotations.
Open Scope Z_scope.

(* stringlabels: the length-prefixed string is a faithful representation of the entry list
   (strings shorter than 2^24 bytes): iterating / counting the encoded form gives back the
   entries, and equal data <-> equal entries (this is Equal and Bytes of that build). *)
Theorem C39_string_abs : forall ls, all_short ls ->
  exists d, encode_labels ls = Ok d /\ st_range d = Ok ls /\ st_len d = Ok (zlen ls).
Proof. exact string_abs. Qed.

Theorem C39_string_injective : forall a b da db, all_short a -> all_short b ->
  encode_labels a = Ok da -> encode_labels b = Ok db -> (da = db <-> a = b).
Proof. exact string_inj. Qed.

(* stringlabels Get/Has (first-byte peek, early exit) are the lookups of the map, on every
   well-formed (strictly name-sorted, non-empty names) label set and every name incl. "" *)
Theorem C39_string_lookup : forall ls d name, all_short ls -> wf_labels ls = true -> encode_labels ls = Ok d ->
  st_get d name = Ok (match lkp ls name with Some v => v | None => [] end) /\
  st_has d name = Ok (match lkp ls name with Some _ => true | None => false end).
Proof. exact string_lookup. Qed.

(* every Builder operation sequence (Set/Del/Keep, any names and values, in any order and
   number) on any sorted base: Labels() is strictly name-sorted, has no empty values, and
   denotes exactly the map obtained by folding the specification over the operations *)
Theorem C39_builder_map_semantics : forall base ops, strictly_sorted base = true ->
  let b := fold_left bstep ops (b_reset_sl base) in
  let r := sl_blabels (bbase b) (badd b) (bdel b) in
  strictly_sorted r = true /\ no_empty_vals r = true /\
  forall k, lkp r k = fst (fold_left spec_step ops (spec_init base)) k.
Proof. exact builder_map_semantics. Qed.

(* stringlabels Builder.Labels, working on raw bytes (copies byte ranges of the base, appends
   encoded additions), computes the encoding of the entry-level merge (the dedupelabels
   algorithm) for every base, add and del list *)
Theorem C39_builder_string_refines_entries : forall base add del, all_short base -> all_short add ->
  st_blabels (enc base) add del = Ok (enc (dd_blabels base add del)).
Proof. exact st_blabels_enc. Qed.
Theorem C39_enc_is_encode_labels : forall ls, all_short ls -> encode_labels ls = Ok (enc ls).
Proof. exact encode_labels_enc. Qed.

(* the sorted merge of stringlabels/dedupelabels and the filter+append+sort of slicelabels are
   the same function on every well-formed builder state (binv: unique pending names, sorted base) *)
Theorem C39_builder_merge_eq_filter_sort : forall b : bst, binv b ->
  dd_blabels (bbase b) (badd b) (bdel b) = sl_blabels (bbase b) (badd b) (bdel b).
Proof. exact merge_eq_filter_sort. Qed.

(* hence after ANY Builder operation sequence on a sorted base, Builder.Labels of the three
   builds coincide (stringlabels: up to its injective encoding) *)
Theorem C39_builder_all_builds_equal : forall base ops, strictly_sorted base = true ->
  let b := fold_left bstep ops (b_reset_sl base) in
  all_short (bbase b) -> all_short (badd b) ->
  l_blabels I_dedupe (bbase b) (badd b) (bdel b) = l_blabels I_slice (bbase b) (badd b) (bdel b) /\
  l_blabels I_string (enc (bbase b)) (badd b) (bdel b) = Ok (enc (sl_blabels (bbase b) (badd b) (bdel b))).
Proof. exact builder_all_builds_equal. Qed.

(* Compare of stringlabels (first differing byte of the two data strings, walk over the
   length-prefixed fields of a up to it, compare that field) has the sign of the entry-wise
   Compare of slicelabels/dedupelabels - for ALL label lists, sorted or not *)
Theorem C39_string_compare : forall la lb, all_short la -> all_short lb ->
  l_compare I_string (enc la) (enc lb) = l_compare I_slice la lb.
Proof. exact compare_string_slice. Qed.

Theorem C39_string_equal : forall la lb, all_short la -> all_short lb ->
  l_equal I_string (enc la) (enc lb) = l_equal I_slice la lb.
Proof. exact equal_string_slice. Qed.

(* ordering and equality are mutually consistent *)
Theorem C39_compare_order_laws : forall la lb,
  (sgn (sl_compare la lb) = 0 <-> la = lb) /\ sgn (sl_compare lb la) = - sgn (sl_compare la lb).
Proof. intros la lb. split; [apply compare_zero_iff_equal | apply compare_antisym]. Qed.

(* the executable specification machine that [holds] (corr/CorrC39.v) compares every build's
   registers with - m_set / m_del / m_of on strictly sorted association lists - is the finite-map
   semantics (update / delete / build) in which C39_builder_map_semantics is stated *)
Theorem C39_spec_machine_is_map :
  (forall n v m, strictly_sorted m = true ->
     strictly_sorted (CorrC39.m_set n v m) = true /\
     forall k, CorrC39.lookup (CorrC39.m_set n v m) k = upd (CorrC39.lookup m) n (Some v) k) /\
  (forall n m, strictly_sorted m = true ->
     strictly_sorted (CorrC39.m_del n m) = true /\
     forall k, CorrC39.lookup (CorrC39.m_del n m) k = upd (CorrC39.lookup m) n None k) /\
  (forall ls, nodup_names ls = true ->
     strictly_sorted (CorrC39.m_of ls) = true /\ forall k, CorrC39.lookup (CorrC39.m_of ls) k = CorrC39.lookup ls k).
Proof. exact spec_machine_is_map. Qed.

(* symbol-table rebuild = identity on every label set, in every build's model *)
Theorem C39_rebuild_symbol_table_id : forall ls, all_short ls ->
  rebuild1 I_string (enc ls) = Ok (enc ls) /\ rebuild1 I_slice ls = Ok ls /\ rebuild1 I_dedupe ls = Ok ls.
Proof. exact rebuild_identity. Qed.

(* ScratchBuilder.Sort / New: for unique names the result is the canonical sorted list of the
   same map *)
Theorem C39_sort_canonical : forall adds, nodup_names adds = true ->
  strictly_sorted (sort_labels adds) = true /\ (forall k, lkp (sort_labels adds) k = lkp adds k) /\
  (forall k, has_name k (sort_labels adds) = has_name k adds).
Proof. exact sort_labels_spec. Qed.

(* partial form of "the representations are observationally equal": for New/FromStrings/FromMap
   (unique non-empty names) stringlabels and slicelabels agree on Range, Len, Get and Has, and
   the result is well-formed (Compare/Equal: C39_string_compare/_equal; Builder.Labels:
   C39_builder_all_builds_equal).  Missing for the full statement: the induction composing these
   over whole programs (registers, ScratchBuilder phases), and dedupelabels' concrete symbol table. *)
Theorem C39_representations_equal_partial : forall ls, all_short ls -> nodup_names ls = true -> nonempty_names ls = true ->
  exists d, st_new ls = Ok d /\
    st_range d = Ok (sort_labels ls) /\ st_len d = Ok (zlen (sort_labels ls)) /\
    wf_labels (sort_labels ls) = true /\
    (forall k, lkp (sort_labels ls) k = lkp ls k) /\
    (forall k, st_get d k = Ok (sl_get (sort_labels ls) k) /\ st_has d k = Ok (sl_has (sort_labels ls) k)).
Proof. exact new_observations. Qed.

(* length limit of the stringlabels encoding: a name or value of 2^24 bytes or more is rejected
   (panic "String too long to encode as label."), never encoded - so every label set that
   exists in this build satisfies the hypothesis [all_short] of the theorems above.  Such
   strings are outside the domain common to the three builds (slicelabels/dedupelabels accept them). *)
Theorem C39_len_limit_rejected : forall s, two24 <= zlen s -> encode_str s = Panic.
Proof. exact encode_str_too_long. Qed.

(* The code before "fix: model/labels: stringlabels ... 2^24" violated this: sizeWhenEncoded
   accepted a string of exactly 2^24 bytes, encodeSize wrote only 24 bits, and the encoded
   label set decoded to an empty string followed by garbage. *)
Theorem C39_len_2pow24_old_refuted : exists s e, zlen s = two24 /\ encode_str_old s = Ok e /\ decode_string e = Ok ([], s).
Proof. exact len_2pow24_old_refuted. Qed.

(* "for any sequence" is false without the ScratchBuilder protocol: Add; Assign(empty); Labels *)
Theorem C39_any_sequence_refuted : exists ops tS tL,
  protocol_ok ops = false /\ run I_string [] [] ops = Ok tS /\ run I_slice [] [] ops = Ok tL /\
  map o_range (t_regs tS) <> map o_range (t_regs tL).
Proof. exact any_sequence_refuted. Qed.

(* within the protocol, the ORDER of Builder.Range after a Builder.Labels differs between builds
   (same set); the cross-build comparison therefore treats Builder.Range as a set *)
Theorem C39_builder_range_order_differs : exists ops tS tL,
  protocol_ok ops = true /\ run I_string [] [] ops = Ok tS /\ run I_slice [] [] ops = Ok tL /\
  t_events tS <> t_events tL /\ map o_range (t_regs tS) = map o_range (t_regs tL).
Proof. exact builder_range_order_differs. Qed.

(* non-vacuity *)
Example C39_nonvacuous_codec : all_short [([97], rep 300 120); ([98], [])] /\ wf_labels [([97], rep 300 120); ([98], [])] = true.
Proof. split; [repeat constructor; vm_compute; reflexivity | vm_compute; reflexivity]. Qed.
Example C39_nonvacuous_builder :
  let base := [([97], [49]); ([98], []); ([99], [51])] in
  let ops := [OBSet [98] [50]; OBDel [[97]]; OBSet [122] [57]; OBKeep [[99]]; OBSet [97] []] in
  let b := fold_left bstep ops (b_reset_sl base) in
  strictly_sorted base = true /\ sl_blabels (bbase b) (badd b) (bdel b) = [([98], [50]); ([99], [51]); ([122], [57])].
Proof. vm_compute. auto. Qed.
