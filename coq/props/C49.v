(* props/C49.v — property theorems for C49 (printing a configuration and loading it back is
   lossless).  Nothing but statements; proofs are in proof/ConfigProofs.v.

   Vocabulary (model/Config.v): a configuration and a YAML document are [node] trees;
   [print] = Config.String (which fields are written: yaml tags, omitempty, isZero),
   [load] = config.Load (overlay of the document on the defaults, then the UnmarshalYAML /
   Validate hooks).  [valid c]: c is well-typed and every struct in it is a fixed point of its
   hook (it is what Load/Validate produce and accept).  [lossless c]: every field that print
   omits holds exactly the value load puts there when the key is absent.

   The property as stated ("for ANY valid configuration ... loading the printed text yields an
   equal configuration") is FALSE of the code and of the faithful model: C49_roundtrip_refuted.
   What holds is the statement restricted to lossless configurations (C49_roundtrip), and the
   restriction is exactly the per-field condition C49_omission_safe_iff: a field equal to its
   default may be omitted, a zero value that differs from the default must not be. *)
From Coq Require Import List ZArith Bool String.
From Verif Require Import model.Config proof.ConfigProofs.
Import ListNotations.

(* Round trip, concrete schema: for every valid lossless configuration, loading the printed
   configuration yields the same configuration, and printing that yields the same document. *)
Theorem C49_roundtrip : forall c, valid c = true -> lossless c = true ->
  exists c', load (print c) = Ok c' /\ c' = c /\ print c' = print c.
Proof.
  intros c Hv Hl. unfold valid in Hv. apply andb_true_iff in Hv as [Hv Hf]. apply andb_true_iff in Hv as [Hn Hw].
  exists c. repeat split. now apply roundtrip_generic.
Qed.

(* The same for every schema and every hooks (reset, post): nothing in the argument depends on
   the Prometheus tables. *)
Theorem C49_roundtrip_generic : forall reset post t cur v,
  nodup_keys t = true -> wtb t v = true -> fixedb post t v = true -> losslessb reset t cur v = true ->
  decode reset post t cur (pr t v) = Ok v.
Proof. exact roundtrip_generic. Qed.

(* Per-field lemma 1 (default absorbing): after loading a mapping into a struct, a field whose
   key is absent holds the content of the base (the default the hook started from). *)
Theorem C49_default_absorbing : forall reset post fs bm m m',
  overlay reset post fs bm m = Ok m' ->
  forall k, lookup k m = None -> lookup k m' = lookup k (combine (keys fs) (map snd bm)).
Proof. exact overlay_absent. Qed.

(* Per-field lemma 2: a field whose key is present holds the decoded document value. *)
Theorem C49_present_decoded : forall reset post fs bm m m',
  NoDup (keys fs) -> overlay reset post fs bm m = Ok m' ->
  forall k y, lookup k m = Some y -> In k (keys fs) ->
  exists t b v, lookup k (combine (keys fs) (map snd bm)) = Some b /\ decode reset post t b y = Ok v /\
                lookup k m' = Some v.
Proof. intros reset post fs bm m m' _. apply overlay_present. Qed.

(* Per-field lemma 3 (when omission is safe): provided the fields that ARE written decode back,
   overlaying the printed struct on the base reproduces the struct IF AND ONLY IF every omitted
   field equals the base's field.  "Only if" is where round-trip bugs live: an omitempty field
   whose zero value differs from its default. *)
Theorem C49_omission_safe_iff : forall reset post fs bm m,
  NoDup (keys fs) -> present_ok reset post fs bm m ->
  (overlay reset post fs bm (prs fs m) = Ok m <-> omitted_agree fs bm m).
Proof. exact overlay_print_iff. Qed.

(* The unrestricted statement is refuted: remote_read with `filter_external_labels: false` loads
   to a valid configuration, print omits the field (omitempty, false is zero), the reload has
   true (DefaultRemoteReadConfig).  The witness is replayed on the real code by the harness
   (corpus case "lossy remote_read.filter_external_labels"). *)
Theorem C49_roundtrip_refuted :
  exists doc c, load doc = Ok c /\ valid c = true /\ load (print c) <> Ok c.
Proof. exact roundtrip_refuted. Qed.

(* the witness in detail: the model names the lossy field, and the second round trip is stable *)
Example C49_refuted_witness :
  load doc_rr_filter = Ok cfg_rr_filter /\ valid cfg_rr_filter = true /\
  lossless cfg_rr_filter = false /\
  lossy_fields cfg_rr_filter = [".remote_read.filter_external_labels"%string] /\
  (exists c2, load (print cfg_rr_filter) = Ok c2 /\ node_eqb c2 cfg_rr_filter = false /\
              load (print c2) = Ok c2).
Proof. exact refuted_witness. Qed.

(* Where the losses are: a well-typed configuration can be lossy only at an omitempty field whose
   load-time base is not zero (generic: lossy_in_risky_mut); for the modelled Prometheus schema
   these are the 31 fields of risky_fields (computed from the tags and defaults; listed in
   ConfigProofs.risky_fields_list).  For 14 of them validation rejects or repairs the zero value
   (the relabel action in its 6 places, protobuf_message, queue_config and its 4 positive
   settings, runtime and runtime.gogc); the other 17 are lossy on the real code (findings). *)
Theorem C49_lossy_only_risky : forall c x,
  wtb top_ty c = true -> In x (lossy_fields c) -> In x risky_fields.
Proof.
  intros c x Hw H.
  apply (proj1 (lossy_in_risky_mut reset) top_ty (NMap d_top) c ""%string x); [vm_compute; reflexivity | exact Hw | exact H].
Qed.

(* Idempotence of load-after-print ("load (print (load (print c))) = load (print c)"), PARTIAL.
   Full statement: forall c, wtb top_ty c = true -> forall c1, load (print c) = Ok c1 ->
   load (print c1) = Ok c1.  Proved: the same statement for every schema whose hooks only check
   (return their argument or an error) and whose base values are valid — for ALL well-typed
   values, lossy or not — and its instances for the sections remote_read, remote_write (with
   queue_config and metadata_config), alerting (alertmanagers, relabel rules), otlp,
   scrape_configs before Validate, relabel rule lists and rule_files.  Missing: the hooks that
   fill values (GlobalConfig.UnmarshalYAML, TSDBConfig.UnmarshalYAML, ScrapeConfig.Validate and
   the top-level pass); for those idempotence is checked on every harness case (c3 = c2). *)
Theorem C49_idempotent_partial : forall t cur, In (t, cur) check_only_sections ->
  forall v v1, wtb t v = true ->
  decode reset post t cur (pr t v) = Ok v1 -> decode reset post t cur (pr t v1) = Ok v1.
Proof.
  intros t cur Hin v v1 Hw Hd. destruct (sections_check_only t cur Hin) as (H1 & H2 & H3).
  eapply idempotent_check_only; eauto.
Qed.

Theorem C49_idempotent_check_only_generic : forall reset post t cur v v1,
  nodup_keys t = true -> check_only post t -> bases_ok reset post t cur = true -> wtb t v = true ->
  decode reset post t cur (pr t v) = Ok v1 -> decode reset post t cur (pr t v1) = Ok v1.
Proof. exact idempotent_check_only. Qed.

(* non-vacuity: the lossy remote_read witness is in the domain of C49_idempotent_partial (its
   first reload differs from it, the second does not) *)
Example C49_idempotent_nonvacuous :
  exists v v1, wtb (TSeq (TPtr rr_ty)) v = true /\
               decode reset post (TSeq (TPtr rr_ty)) (NSeq []) (pr (TSeq (TPtr rr_ty)) v) = Ok v1 /\
               node_eqb v v1 = false.
Proof. exact idempotent_sections_example. Qed.

(* Non-vacuity of C49_roundtrip: a configuration with nine sections, inherited and defaulted
   values, explicit empty separator/replacement and false HTTP flags is valid and lossless. *)
Example C49_nonvacuous :
  load doc_example_ok = Ok cfg_example /\ valid cfg_example = true /\ lossless cfg_example = true.
Proof. destruct example_valid_lossless as [H1 [H2 [H3 _]]]. auto. Qed.
