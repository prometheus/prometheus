(* props/C13.v — property theorems for C13 (the write-ahead log returns exactly the records
   written).  Model: model/Wal.v (writer WL.log/flushPage/nextSegment/Log/Close, Reader over
   segmentBufReader, LiveReader).  Proofs: proof/WalProofs.v. *)
From Coq Require Import List ZArith NArith Bool.
From Verif Require Import model.Wal proof.WalProofs.
Import ListNotations.
Open Scope Z_scope.

(* For every page size that can hold a header and a byte and whose fragments fit the 16-bit
   length field (the real 32768 is one), every CRC function with 32-bit values, every
   compression codec that round-trips, every valid compression setting, every pagesPerSegment
   (any integer: also segments smaller than a record) and every sequence of Log calls with any
   records (empty, larger than a page, larger than a segment):
   - no Log call fails (no panic, no divergence of the fragment loop), and
   - wlog.Reader over the resulting segment files returns exactly the logged records, in
     order, and ends without error — whether or not Close() padded the last page. *)
Theorem C13_roundtrip :
  forall (page_size : Z) (crc : list N -> N) (enc : N -> list N -> list N)
         (dec : N -> list N -> option (list N)),
  8 <= page_size <= 65542 ->
  (forall l, (crc l < 4294967296)%N) ->
  (forall c r, r <> [] -> enc c r <> [] /\ dec c (enc c r) = Some r) ->
  forall (c : N) (pps : Z) (batches : list (list (list N))),
  In c [0%N; 1%N; 2%N] ->
  exists st,
    log_batches page_size crc enc c pps batches w_init = WOk st /\
    read_segments page_size crc dec (segments st) = (concat batches, RClean) /\
    read_segments page_size crc dec (segments (close page_size st)) = (concat batches, RClean).
Proof.
  intros ps crc enc dec Hps Hcrc Hdec. exact (wal_roundtrip ps crc dec Hps Hcrc enc Hdec).
Qed.

(* non-vacuity: a concrete log with 16-byte pages and 2 pages per segment whose records are
   empty, split over pages, and larger than a segment; the hypotheses of the theorem hold for
   these oracles, the log has 4 segments, and reading it back returns the records *)
Definition ex_crc (l : list N) : N := (N.of_nat (length l) * 2654435761 mod 4294967296)%N.
Definition ex_enc (_ : N) (r : list N) : list N := r.
Definition ex_dec (_ : N) (s : list N) : option (list N) := Some s.
Definition ex_batches : list (list (list N)) :=
  [[[1; 2; 3]%N; []]; [[4; 5; 6; 7; 8; 9; 10; 11; 12; 13; 14; 15]%N];
   [repeat 7%N 40; [9]%N]; [[]]].

Example C13_roundtrip_nonvacuous :
  (forall l, (ex_crc l < 4294967296)%N) /\
  (forall c r, r <> [] -> ex_enc c r <> [] /\ ex_dec c (ex_enc c r) = Some r) /\
  match log_batches 16 ex_crc ex_enc 0 2 ex_batches w_init with
  | WOk st => length (segments st) = 4%nat /\
              read_segments 16 ex_crc ex_dec (segments st) = (concat ex_batches, RClean)
  | _ => False
  end.
Proof.
  split; [|split].
  - intros. unfold ex_crc. apply N.mod_lt. discriminate.
  - intros c r Hr. split; [exact Hr|reflexivity].
  - vm_compute. split; reflexivity.
Qed.

(* Layout: after any sequence of Log calls every finished segment file is a whole number of
   pages (so no record crosses a segment: a record is written entirely after the switch), all
   logged bytes are on disk (flushed = alloc), the page is never left with fewer than 7 free
   bytes, and the active file ends alloc bytes into a page. *)
Theorem C13_layout :
  forall (page_size : Z) (crc : list N -> N) (enc : N -> list N -> list N)
         (dec : N -> list N -> option (list N)),
  8 <= page_size <= 65542 ->
  (forall l, (crc l < 4294967296)%N) ->
  (forall c r, r <> [] -> enc c r <> [] /\ dec c (enc c r) = Some r) ->
  forall (c : N) (pps : Z) (batches : list (list (list N))) (st : wst),
  In c [0%N; 1%N; 2%N] ->
  log_batches page_size crc enc c pps batches w_init = WOk st ->
  Forall (fun s => exists q, 0 <= q /\ zlen s = page_size * q) (w_closed st) /\
  w_flushed st = alloc st /\ alloc st + 7 <= page_size /\
  exists q, 0 <= q /\ zlen (active_file st) = page_size * q + alloc st.
Proof. intros ps crc enc dec Hps _. exact (wal_layout ps crc dec Hps enc). Qed.

(* Live reader.  Full statement:
     forall page_size crc enc dec (same hypotheses), c, pps, batches, st,
       log_batches ... batches w_init = WOk st ->
       forall seg (the i-th of segments st) and every split of seg into chunks (chunks of any
       sizes, including cuts inside headers and empty chunks),
         live_run page_size crc dec chunks l_init = (outs, NEof) with
         concat outs = the records stored in segment i, and the concatenation over all
         segments = concat batches.
   It is proved in proof/WalProofs.v in two parts: every segment the writer leaves is a
   well-formed stretch holding known records ([log_batches_ok], [logged_segments]), and the
   LiveReader over a well-formed stretch returns its records and ends in NEof under every split
   ([live_run_wf]); [check_log_ok] puts them together for the check below, for every log.
   Stated here: the instance for a bounded family of concrete logs —
   page size 16 / 2 pages per segment, all logs of at most 3 records with lengths in
   {0,1,2,8,9,10,19,30} (585 logs: empty records, records filling a page exactly, +-1, records
   larger than a segment), and page size 9 / 3 pages per segment, all logs of 1..3 records with
   lengths in {0,1,2,3,5,7}; for every segment of every such log, EVERY single cut position
   (the reader sees a prefix, drains, then sees the rest — this includes every partial flush and
   every cut inside a header) and byte-by-byte release.  In each case the LiveReader returns
   exactly the records of that segment, ends in the EOF ("try again") state, and the
   per-segment record lists concatenate to the logged records. *)
Theorem C13_live_partial :
  forallb (fun ls => check_log 16 2 (mklog ls)) live_logs = true /\
  forallb (fun ls => check_log 9 3 (mklog ls)) live_logs2 = true.
Proof. exact (conj live_bounded live_bounded2). Qed.

(* non-vacuity: the family contains a log with a record spanning two segments' worth of pages,
   and a wrong expectation is rejected by the same checker *)
Example C13_live_partial_nonvacuous :
  existsb (fun l => match l with [30; 0; 9]%nat => true | _ => false end) live_logs = true /\
  length live_logs = 585%nat /\
  check_log 16 2 (mklog [30; 0; 9]%nat) = true /\
  live_ok 16 [[1%N]] [[1; 0; 1; 5; 5; 5; 5; 2]%N] = false.
Proof.
  split; [vm_compute; reflexivity|]. split; [vm_compute; reflexivity|].
  split; [apply check_log_ok; split; apply Z.leb_le; reflexivity|vm_compute; reflexivity].
Qed.
