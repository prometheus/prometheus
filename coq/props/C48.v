(* props/C48.v — Agent-mode storage logs every accepted sample.

   Statement (properties.jsonl): in agent mode, every sample, histogram and exemplar accepted by a committed
   appender is written to the WAL after a series record for its reference; samples not newer than the
   series' last written sample minus the out-of-order window are rejected; after WAL truncation,
   checkpointing and restart the WAL still contains every accepted sample at or after the truncation time;
   the agent never serves queries.  Quantifier: all histories of appends, commits, rollbacks,
   truncations, garbage collection and restarts.

   Model: model/Agent.v (tsdb/agent: both appender versions, getOrCreate, minValidTime, exemplar
   validation, ST zero samples, appenderBase.log, DB.truncate/gc through model/Checkpoint.v of C15,
   replayWAL/loadWAL, queriers).  `run o es` is the state after the history `es` (a list of events with
   any number of simultaneously open appenders), `wellformed es` = at most one appender is open at a time
   and DB.truncate / restart happen while none is open.

   What is proved
   * C48_logged_partial / C48_accepted_logged_partial: FULL STATEMENT = "for every history es, every data
     item accepted by appender a and not rolled back is, after a's commit, in the WAL after a series record
     of its ref".  Proved for all *sequential* histories (wellformed).  The unrestricted statement is FALSE
     of the model and of the implementation: C48_logged_interleaved_refuted (two open appenders touching
     one new series; corpus case 0 of the harness replays it on the real agent DB; finding
     agent-interleaved-appenders-sample-before-series).
   * C48_accepted_pending_* / C48_pending_kept: for ALL states and histories — an append that returns no
     error has put its item into the appender's pending lists, and it stays there until that appender's
     own commit / rollback.
   * C48_admission_v1 / _v2 / C48_min_valid / C48_lastts_commit / C48_lastts_monotone: for ALL states —
     an append is rejected as out of order exactly when t <= minValidTime(lastTs) = max(MinInt64, lastTs -
     window); a commit raises lastTs to at least every sample timestamp it logged for the series and
     lastTs never decreases between restarts.  (Not proved: the bookkeeping of loadWAL after a restart
     — lastTs = max(0, replayed timestamps) — is tied on generated histories only.)
   * C48_truncate_keeps / C48_truncate_keeps_series / C48_gc_spec / C48_restart_keeps_wal: for ALL database
     states — DB.truncate(mint) with wlog.Checkpoint (the default) keeps every sample / histogram /
     exemplar with t >= mint; with either checkpoint implementation it keeps the series record of every
     series that survives the garbage collection (exactly the series with a write at or after mint); a
     restart leaves the WAL contents alone.
   * C48_inmemory_keeps_last / C48_inmemory_refuted: with Options.CheckpointFromInMemorySeries the
     checkpoint is rebuilt from memory (agent/checkpoint.go): every surviving series keeps its series
     record followed by a float sample carrying its last timestamp, but the accepted samples of the
     checkpointed segments are NOT kept whatever their time — the retention clause of the statement is
     false for this option, by design of the option (corpus case 3 replays the witness on the real
     agent DB; the model agrees with it record by record).
   * C48_series_records_partial: in sequential histories every live series has its series record in the
     WAL at every truncation / restart.  With DB.truncate between an append and its commit this fails:
     C48_gc_pending_refuted (corpus case 2; finding agent-gc-pending-series-orphan, the "known
     limitation" comment of getOrCreate).
   * C48_no_queries. *)
From Coq Require Import List ZArith Bool Lia.
From Verif Require Import lib.Int64 model.Checkpoint model.Agent proof.AgentProofs.
Import ListNotations.
Open Scope Z_scope.

(* what `logged k x recs` says: recs = l1 ++ R :: l2, R is a record of kind k (k = -1: exemplars) holding
   x, and l1 contains a series record of x's ref *)
Theorem C48_logged_meaning : forall k x recs,
  logged k x recs = true <->
  exists l1 R l2, recs = l1 ++ R :: l2 /\ holds_item k x R /\ In (fst (fst x)) (series_refs l1).
Proof. exact logged_iff. Qed.

(* ---- accepted => pending (all states) ---- *)
Theorem C48_accepted_pending_v1 : forall o d p r b t v kind hbad d' p' rr err perr,
  append_v1 o d p r b t v kind hbad = (d', p', (rr, err, perr)) -> err = E_OK -> 0 <= kind <= 4 ->
  In (kind, (rr, t, v)) (pending_items p').
Proof. exact append_v1_accept. Qed.

Theorem C48_accepted_pending_v2 : forall o d p r b st t v zv kind hbad stale exs d' p' rr err perr,
  append_v2 o d p r b st t v zv kind hbad stale exs = (d', p', (rr, err, perr)) ->
  err = E_OK \/ err = E_PARTIAL -> 0 <= kind <= 4 ->
  In (kind, (rr, t, v)) (pending_items p').
Proof. exact append_v2_accept. Qed.

Theorem C48_accepted_pending_exemplar : forall d p r e d' p' rr err perr,
  exemplar_v1 d p r e = (d', p', (rr, err, perr)) -> err = E_OK -> rr <> 0 ->
  In (-1, (rr, snd (fst e), fst (fst e))) (pending_items p').
Proof. exact exemplar_v1_accept. Qed.

(* pending data stays pending until the appender's own commit / rollback (or a restart), whatever the
   other events are *)
Theorem C48_pending_kept : forall o st e a,
  ends a e = false ->
  incl (pending_items (get_app st a)) (pending_items (get_app (fst (step o st e)) a)).
Proof. exact pending_kept. Qed.

(* ---- commit => logged after a series record (sequential histories) ---- *)
Theorem C48_logged_partial : forall o es a rolls it,
  wellformed (es ++ [ECommit a rolls]) = true ->
  In it (pending_items (get_app (run o es) a)) ->
  logged (fst it) (snd it) (wal_records (d_wal (st_db (run o (es ++ [ECommit a rolls]))))) = true.
Proof. exact logged_sequential. Qed.

(* end to end: an append of either appender version that returned no error (or only exemplar errors),
   followed by any events that do not end the appender, then its commit *)
Theorem C48_accepted_logged_partial : forall o es1 a ver r b stt t v zv kind hbad stale exs es2 rolls rr err perr,
  let ap := EAppend a ver r b stt t v zv kind hbad stale exs in
  wellformed (es1 ++ ap :: es2 ++ [ECommit a rolls]) = true ->
  forallb (fun e => negb (ends a e)) es2 = true ->
  0 <= kind <= 4 ->
  snd (step o (run o es1) ap) = OAppend rr err perr ->
  err = E_OK \/ err = E_PARTIAL ->
  logged kind (rr, t, v) (wal_records (d_wal (st_db (run o (es1 ++ ap :: es2 ++ [ECommit a rolls]))))) = true.
Proof. exact accepted_logged. Qed.

(* the unrestricted statement is false: appender 1 creates series ref 1, appender 2 appends to it and
   commits first — its sample is in the WAL before any series record of ref 1 *)
Theorem C48_logged_interleaved_refuted :
  exists o es a rolls it,
    wellformed (es ++ [ECommit a rolls]) = false /\
    In it (pending_items (get_app (run o es) a)) /\
    logged (fst it) (snd it) (wal_records (d_wal (st_db (run o (es ++ [ECommit a rolls]))))) = false.
Proof.
  exists o0, ex_interleaved, 2, [], (0, (1, 1001, 2)).
  destruct interleaved_refuted as [A [B [C _]]]. auto.
Qed.

(* ---- admission ---- *)
Theorem C48_min_valid : forall oow last,
  0 <= oow -> int64 oow -> int64 last -> min_valid oow last = Z.max minInt64 (last - oow).
Proof. exact min_valid_spec. Qed.

Theorem C48_admission_v1 : forall o d p r b t v kind hbad d1 p1 s,
  negb (kind =? 0) && hbad = false ->
  get_or_create d p r b = inl (d1, p1, s) ->
  snd (append_v1 o d p r b t v kind hbad) =
  if t <=? min_valid (o_oow o) (s_last s) then (0, E_OOO, []) else (s_ref s, E_OK, []).
Proof. exact append_v1_admission. Qed.

Theorem C48_admission_v2 : forall o d p r b st t v zv kind hbad stale exs d1 p1 s,
  negb (kind =? 0) && hbad = false ->
  get_or_create d p r b = inl (d1, p1, s) ->
  let res := snd (append_v2 o d p r b st t v zv kind hbad stale exs) in
  if t <=? min_valid (o_oow o) (s_last s) then res = (0, E_OOO, [])
  else fst (fst res) = s_ref s /\ (snd (fst res) = E_OK \/ snd (fst res) = E_PARTIAL).
Proof. exact append_v2_admission. Qed.

(* which series an append is judged against *)
Theorem C48_series_resolution : forall d p,
  (forall b s, 0 < b -> find_lab b (d_series d) = Some s -> get_or_create d p 0 b = inl (d, p, s)) /\
  (forall r b s, r <> 0 -> find_id r (d_series d) = Some s -> get_or_create d p r b = inl (d, p, s)).
Proof. intros d p. split; intros; [apply goc_existing|apply goc_by_ref]; auto. Qed.

Theorem C48_lastts_commit : forall d p rolls r s,
  find_id r (d_series d) = Some s ->
  exists s', find_id r (d_series (commit d p rolls)) = Some s' /\ s_lab s' = s_lab s /\ s_last s <= s_last s' /\
    (forall x, In x (p_samples p ++ map snd (p_hist p) ++ map snd (p_fhist p)) -> fst (fst x) = r ->
               snd (fst x) <= s_last s').
Proof. exact commit_last. Qed.

Theorem C48_lastts_monotone : forall o st e r s,
  e <> ERestart ->
  find_id r (d_series (st_db st)) = Some s ->
  match find_id r (d_series (st_db (fst (step o st e)))) with
  | Some s' => s_lab s' = s_lab s /\ s_last s <= s_last s'
  | None => exists mint zv, e = ETruncate mint zv /\ In r (gc_gone mint (d_series (st_db st)))
  end.
Proof. exact last_monotone. Qed.

(* ---- truncation, checkpointing, restart (all database states) ---- *)
Theorem C48_truncate_keeps : forall o d mint zv,
  o_inmem o = false ->
  (forall k l x, In (RSamples k l) (wal_records (d_wal d)) -> In x l -> mint <= snd (fst x) ->
     exists l', In (RSamples k l') (wal_records (d_wal (truncate o d mint zv))) /\ In x l') /\
  (forall l x, In (RExemplars l) (wal_records (d_wal d)) -> In x l -> mint <= snd (fst x) ->
     exists l', In (RExemplars l') (wal_records (d_wal (truncate o d mint zv))) /\ In x l').
Proof.
  intros o d mint zv HO. split; intros.
  - apply (truncate_keeps o d mint zv (RSamples k) l); auto. intros keep m l0. reflexivity.
  - apply (truncate_keeps o d mint zv RExemplars l); auto. intros keep m l0. reflexivity.
Qed.

Theorem C48_truncate_keeps_series : forall o d mint zv r,
  In r (map s_ref (d_series (truncate o d mint zv))) ->
  In r (series_refs (wal_records (d_wal d))) ->
  In r (series_refs (wal_records (d_wal (truncate o d mint zv)))).
Proof. exact truncate_keeps_series. Qed.

Theorem C48_gc_spec : forall o d mint zv s,
  In s (d_series d) ->
  (In s (d_series (truncate o d mint zv)) -> mint <= s_last s) /\
  (~ In s (d_series (truncate o d mint zv)) -> exists s', In s' (d_series d) /\ s_ref s' = s_ref s /\ s_last s' < mint).
Proof. exact truncate_gc_spec. Qed.

Theorem C48_restart_keeps_wal : forall o d, wal_records (d_wal (restart o d)) = wal_records (d_wal d).
Proof. exact restart_keeps_wal. Qed.

(* every live series has its series record in the WAL whenever DB.truncate / a restart begins
   (sequential histories) *)
Theorem C48_series_records_partial : forall o es e s,
  wellformed (es ++ [e]) = true -> (e = ERestart \/ exists m zv, e = ETruncate m zv) ->
  In s (d_series (st_db (run o es))) ->
  In (s_ref s) (series_refs (wal_records (d_wal (st_db (run o es))))).
Proof. exact live_series_logged. Qed.

(* DB.truncate between an append and its commit: the sample (t = 5000, at or after both truncation
   times) stays in the WAL, the series record of its ref does not *)
Theorem C48_gc_pending_refuted :
  exists o es x,
    wellformed es = false /\
    (exists l, In (RSamples 0 l) (wal_records (d_wal (st_db (run o es)))) /\ In x l) /\
    logged 0 x (wal_records (d_wal (st_db (run o es)))) = false.
Proof.
  exists o0, ex_gc_pending, (2, 5000, 1).
  destruct gc_pending_refuted as [A [B C]]. split; auto. split; auto.
  exists [(2, 5000, 1)]. rewrite B. simpl. auto.
Qed.

(* ---- Options.CheckpointFromInMemorySeries (agent/checkpoint.go) ---- *)
Theorem C48_inmemory_keeps_last : forall o d mint zv last s,
  o_inmem o = true ->
  plan_last (w_first (d_wal d)) (w_cur (d_wal d)) = Some last ->
  In s (d_series (truncate o d mint zv)) ->
  logged 0 (s_ref s, s_last s, zv) (wal_records (d_wal (truncate o d mint zv))) = true.
Proof. exact inmem_truncate_keeps_last. Qed.

(* the retention clause is false with this option: a sequential history after which two committed samples at
   or after the truncation time are no longer in the WAL *)
Theorem C48_inmemory_refuted :
  exists o es mint zv k l x,
    wellformed (es ++ [ETruncate mint zv]) = true /\
    In (RSamples k l) (wal_records (d_wal (st_db (run o es)))) /\ In x l /\ mint <= snd (fst x) /\
    forall l', In (RSamples k l') (wal_records (d_wal (st_db (run o (es ++ [ETruncate mint zv]))))) -> ~ In x l'.
Proof.
  exists o_im, ex_inmem, 4000, 9, 0, [(1, 5000, 1)], (1, 5000, 1).
  destruct inmem_refuted as [A [B C]]. rewrite B, C. repeat split; simpl; auto; try lia.
  intros l' [H|[H|[]]]; [discriminate|]. inversion H; subst. simpl. intros [E|[]]. discriminate.
Qed.

(* ---- the agent never serves queries ---- *)
Theorem C48_no_queries : forall o es which mint maxt,
  query (st_db (run o es)) which mint maxt = E_UNSUPPORTED /\
  step o (run o es) (EQuery which mint maxt) = (run o es, OQuery E_UNSUPPORTED).
Proof. exact no_queries. Qed.

(* ---- non-vacuity: a sequential history with an out-of-order rejection, exemplars, a rollback, a
   garbage collection, a checkpoint (index 1) and a restart satisfies the hypotheses of
   C48_logged_partial with a non-empty pending list ---- *)
Example C48_nonvacuous :
  wellformed (ex_seq ++ [ECommit 4 []]) = true /\
  pending_items (get_app (run o0 ex_seq) 4) = [(0, (1, 2500, 6))] /\
  w_cpidx (d_wal (st_db (run o0 ex_seq))) = 1 /\
  map s_last (d_series (st_db (run o0 ex_seq))) = [2000; 0; 0] /\
  logged 0 (1, 2500, 6) (wal_records (d_wal (st_db (run o0 (ex_seq ++ [ECommit 4 []]))))) = true.
Proof. exact ex_seq_facts. Qed.

Example C48_admission_nonvacuous :
  snd (append_v1 (mkO 100 false false) (mkDB 1 [mkS 1 1 1000] [] [] wal_empty []) app_empty 0 1 900 5 0 false) = (0, E_OOO, []) /\
  snd (append_v1 (mkO 100 false false) (mkDB 1 [mkS 1 1 1000] [] [] wal_empty []) app_empty 0 1 901 5 0 false) = (1, E_OK, []) /\
  snd (append_v1 (mkO 100 false false) (mkDB 0 [] [] [] wal_empty []) app_empty 0 1 minInt64 5 0 false) = (0, E_OOO, []).
Proof. vm_compute. auto. Qed.
