(* props/C07.v — property theorems for C07 (compaction preserves the union of its inputs).
   Statements; the proofs are in proof/CompactMergeProofs.v (pb_correct holds all of C07_union,
   C07_chunks_ordered and C07_stats). The model is model/CompactMerge.v
   (DefaultBlockPopulator.PopulateBlock over persisted blocks: block chunk series sets with
   trimming and tombstones, merge of the sets, compacting chunk merger, index chunk-order check,
   BlockMeta.Stats), on top of model/Merge.v (C19) and model/Intervals.v (C20).

   Vocabulary. [inputs_ok blocks mint maxt]: at least one block; in every block the series are
   strictly label-sorted, every series' chunks are well-formed ([cb]: non-empty, strictly
   time-sorted, MinTime/MaxTime attained), time-ordered and disjoint ([cdisj]), of one value
   type each, with int64 bounds; its tombstones are canonical (what Intervals.Add produces, C20);
   every timestamp is > MinInt64 (C19's known finding chain-minint64-dropped otherwise);
   mint is an int64 and MinInt64 < maxt <= MaxInt64. The output range is [mint, maxt), i.e. the
   closed range [mint, maxt-1].
   [survivors mint (maxt-1) blocks l]: every sample, of every series labelled l in every block,
   that lies in the range and in none of that series' tombstone intervals of that block.
   [dedup_ts]: the sorted, de-duplicated timestamps of a sample list.
   Every theorem quantifies over the choice stream [ch], i.e. holds for every tie-breaking of the
   heaps in storage/merge.go. *)
From Coq Require Import List ZArith Sorted.
From Verif Require Import lib.Int64 model.Intervals model.Merge proof.MergeProofs model.CompactMerge
     proof.CompactMergeProofs.
Import ListNotations.
Open Scope Z_scope.

(* A compaction of well-formed blocks never fails (no Intervals.Add panic, no mixed-type chunk,
   no merge error, no out-of-order chunk rejected by the index writer). *)
Theorem C07_total : forall ch blocks mint maxt, inputs_ok blocks mint maxt ->
  exists out st ch', populate_block ch true blocks mint maxt = (Some (out, st), ch').
Proof. exact pb_total. Qed.

(* The samples of every output series are exactly the de-duplicated union of the inputs within
   the output range minus the deleted intervals: one sample per surviving timestamp, in time
   order, and each one IS a surviving input sample of that label set (its value is the value of
   one of the inputs that hold the timestamp undeleted). *)
Theorem C07_union : forall ch blocks mint maxt out st ch', inputs_ok blocks mint maxt ->
  populate_block ch true blocks mint maxt = (Some (out, st), ch') ->
  forall l chks, In (l, chks) out ->
    map s_t (all_smps chks) = dedup_ts (survivors mint (maxt - 1) blocks l) /\
    (forall x, In x (all_smps chks) -> In x (survivors mint (maxt - 1) blocks l)).
Proof. intros ch blocks mint maxt out st ch' H He l chks Hin. apply (pb_correct _ _ _ _ _ _ _ H He), Hin. Qed.

(* No series lost or invented: the output label sets are strictly increasing (each once, in
   index order) and are exactly those with at least one surviving sample. *)
Theorem C07_series : forall ch blocks mint maxt out st ch', inputs_ok blocks mint maxt ->
  populate_block ch true blocks mint maxt = (Some (out, st), ch') ->
  StronglySorted Z.lt (map fst out) /\
  forall l, In l (map fst out) <-> survivors mint (maxt - 1) blocks l <> [].
Proof. exact pb_series. Qed.

(* The output chunks of each series are well-formed, time-ordered and non-overlapping, and no
   series is written without chunks. *)
Theorem C07_chunks_ordered : forall ch blocks mint maxt out st ch', inputs_ok blocks mint maxt ->
  populate_block ch true blocks mint maxt = (Some (out, st), ch') ->
  forall l chks, In (l, chks) out -> chks <> [] /\ Forall cb chks /\ cdisj chks.
Proof.
  intros ch blocks mint maxt out st ch' H He l chks Hin.
  destruct (proj1 (proj2 (pb_correct _ _ _ _ _ _ _ H He)) l chks Hin) as (A & B & C & _). auto.
Qed.

(* BlockMeta.Stats equals the counts of what was written: series, chunks, samples, and samples
   by chunk encoding (histogram / float). *)
Theorem C07_stats : forall ch blocks mint maxt out st ch', inputs_ok blocks mint maxt ->
  populate_block ch true blocks mint maxt = (Some (out, st), ch') -> st = count_stats out.
Proof. intros ch blocks mint maxt out st ch' H He. apply (pb_correct _ _ _ _ _ _ _ H He). Qed.

(* LeveledCompactor.Compact: the output range is the hull computed by CompactBlockMetas; when
   the block metas are honest ([metas_ok]: int64 bounds, every sample of a block inside
   [MinTime, MaxTime)) nothing is cut by the range: the written block holds, per label set,
   exactly the de-duplicated union of all undeleted input samples ([undeleted]: every sample of
   every input series of that label set outside that series' tombstones in its block). *)
Theorem C07_compact : forall ch blocks, compact_inputs_ok blocks ->
  exists out st ch', compact_blocks ch true blocks = (Some (out, st), ch') /\
    StronglySorted Z.lt (map fst out) /\
    (forall l, In l (map fst out) <-> undeleted blocks l <> []) /\
    (forall l chks, In (l, chks) out ->
       chks <> [] /\ Forall cb chks /\ cdisj chks /\
       map s_t (all_smps chks) = dedup_ts (undeleted blocks l) /\
       (forall x, In x (all_smps chks) -> In x (undeleted blocks l))) /\
    st = count_stats out.
Proof. exact compact_blocks_correct. Qed.

(* Non-vacuity: two overlapping blocks, a tombstone straddling a chunk boundary, a range that
   cuts the last sample, a series present in one block only; t=10 is deleted in block 1 but
   survives through block 2. *)
Example C07_nonvacuous :
  inputs_ok ex_blocks 0 26 /\
  fst (populate_block [] true ex_blocks 0 26) =
  Some ([(0, [mkC 0 0 [mkS 0 1 1]; mkC 5 10 [mkS 5 1 2; mkS 10 1 2]; mkC 25 25 [mkS 25 1 2]]);
         (3, [mkC 7 7 [mkS 7 2 9]])], mkSt 2 4 5 1 4) /\
  survivors 0 25 ex_blocks 0 = [mkS 0 1 1; mkS 5 1 2; mkS 10 1 2; mkS 25 1 2].
Proof. split; [exact ex_blocks_ok|exact ex_blocks_run]. Qed.

(* The concatenating merger (storage.NewConcatenatingChunkSeriesMerger) is NOT generally
   applicable in a compaction, even for blocks that are disjoint in time and given in time
   order: the order in which the series of one label set are concatenated is the pop order of
   equal keys from the heap of sets, so under one tie-breaking the chunks come out of time
   order and index.Writer.AddSeries rejects them (the compaction returns an error, nothing is
   written), under another they are in order. Replayed on the real code: corpus case
   "concatenating-disjoint-blocks" returns "chunk minT 20 is not higher than previous chunk
   maxT 50". The compacting merger (the default) handles the same input under every
   tie-breaking (C07_total). *)
Theorem C07_concatenating_refuted :
  inputs_ok cc_blocks 0 51 /\
  fst (populate_block [] false cc_blocks 0 51) = None /\
  (exists out st, fst (populate_block [2%nat; 1%nat] false cc_blocks 0 51) = Some (out, st)) /\
  (exists out st, fst (populate_block [] true cc_blocks 0 51) = Some (out, st)).
Proof. exact concat_order_dependent. Qed.
