(* props/C44.v — property theorems for C44 (alert states follow the for / keep_firing_for
   semantics). Statements only; proofs are in proof/AlertingProofs.v; the model (AlertingRule.Eval,
   sendAlerts, Group.RestoreForState, CopyState at reload) and the documented reference machine
   (spec_next / spec_vec) are in model/Alerting.v.
   Times are Unix nanoseconds, [None] is Go's zero time.Time. *)
From Coq Require Import List ZArith Bool.
From Verif Require Import model.Alerting proof.AlertingProofs.
Import ListNotations.
Open Scope Z_scope.

(* 1. Refinement, for ALL histories: after any sequence of evaluations (successful or failing
   with a query error / duplicate label set / exceeded limit), notifications, reloads with other
   hold and keep_firing_for durations, restarts and for-state restores, a successful evaluation
   moves every alert instance exactly as the reference state machine [spec_next] says (first
   activity -> pending from ts; still active -> firing iff active for >= hold; absent -> pending
   dropped, firing resolved unless within keep_firing_for; resolved -> retained for the retention
   period; resolved and active again -> new pending period), and the returned ALERTS /
   ALERTS_FOR_STATE series are exactly those of the instances active afterwards once the rule is
   marked restored, and empty before. *)
Theorem C44_transitions : forall c0 ops c m ts qo limit res m' vec,
  run_world (c0, []) ops = (c, m) ->
  eval c m ts qo limit false res = (m', EvOk vec) ->
  (forall k, lookup k m' = spec_next c ts (lookup k res) (lookup k m)) /\
  vec = spec_vec c ts qo m'.
Proof.
  intros c0 ops c m ts qo limit res m' vec Hr He.
  pose proof (run_world_inv ops (c0, []) inv_nil) as Hinv. rewrite Hr in Hinv.
  now apply (eval_ok_spec _ _ _ _ _ _ _ _ Hinv) in He.
Qed.

(* the same for one step from any well-formed state, with the invariant preserved *)
Theorem C44_series_reflect_state : forall c m ts qo limit res m' vec,
  inv m -> eval c m ts qo limit false res = (m', EvOk vec) ->
  inv m' /\ (forall k, lookup k m' = spec_next c ts (lookup k res) (lookup k m)) /\
  vec = spec_vec c ts qo m'.
Proof. exact eval_ok_spec. Qed.

(* failing evaluations: a query error or a duplicate label set leaves the state untouched, an
   exceeded limit empties it *)
Theorem C44_failed_eval : forall c m ts qo limit qerr res m' o,
  eval c m ts qo limit qerr res = (m', o) ->
  (qerr = true -> o = EvQueryErr /\ m' = m) /\
  (qerr = false -> has_dup (map fst res) = true -> o = EvDup /\ m' = m) /\
  (o = EvLimit -> m' = [] /\ 0 < limit) /\
  (o = EvQueryErr \/ o = EvDup -> m' = m).
Proof. exact eval_errors. Qed.

(* 2. Whole evaluation histories follow the per-instance reference machine. *)
Theorem C44_history_refines : forall c es m m', inv m -> evals c m es = Some m' ->
  inv m' /\ forall k, lookup k m' = key_run c k es (lookup k m).
Proof. exact evals_refine. Qed.

(* 3. "pending from its first active evaluation, firing at the first evaluation at least 'for'
   after its activation while it stayed active": an instance without an entry (or with a resolved
   one) that is in the result of every evaluation e0, e1, ... (times never going back) has
   ActiveAt = time of e0, and is firing with FiredAt = the time of the FIRST evaluation e with
   ts(e) - ts(e0) >= hold if there is one, pending with no FiredAt otherwise. *)
Theorem C44_fires_at_first : forall c k e0 es a0,
  (a0 = None \/ exists a, a0 = Some a /\ is_active a = false) ->
  Forall (present_in k) (e0 :: es) -> mono (e_ts e0) es ->
  exists a', key_run c k (e0 :: es) a0 = Some a' /\
    match find (reaches c (e_ts e0)) (e0 :: es) with
    | Some e1 => shape a' Firing (e_ts e0) (Some (e_ts e1))
    | None => shape a' Pending (e_ts e0) None
    end.
Proof. exact fires_at_first. Qed.

(* 4. Absence. A pending alert is dropped; a firing one is resolved at once without
   keep_firing_for; with keep_firing_for the first absence opens the window, the alert stays
   firing (unchanged) over any number of absent evaluations inside the window, and the first
   evaluation at or after its end resolves it. *)
Theorem C44_absent_pending_dropped : forall c ts a, a_state a = Pending -> spec_next c ts None (Some a) = None.
Proof. exact absent_pending. Qed.

Theorem C44_absent_firing_resolved : forall c ts a, a_state a = Firing -> c_kff c <= 0 ->
  spec_next c ts None (Some a) = Some (resolve a ts).
Proof. exact absent_firing_no_keep. Qed.

Theorem C44_keep_firing_starts : forall c ts a, a_state a = Firing -> a_keepSince a = None -> 0 < c_kff c ->
  c_hold c <= ts - a_activeAt a ->
  spec_next c ts None (Some a) = Some (set_keepSince a (Some ts)).
Proof. intros c ts a Hs Hks Hk Hh. apply absent_firing_kept; auto. now rewrite Z.sub_diag. Qed.

Theorem C44_keep_firing_window : forall c k es a t1 tl,
  a_state a = Firing -> a_keepSince a = Some t1 -> 0 < c_kff c -> c_hold c <= tl - a_activeAt a ->
  mono tl es -> Forall (absent_in k) es -> Forall (fun e => e_ts e - t1 < c_kff c) es ->
  key_run c k es (Some a) = Some a.
Proof. exact keep_firing_window. Qed.

Theorem C44_keep_firing_ends : forall c ts a t1, a_state a = Firing -> a_keepSince a = Some t1 ->
  c_kff c <= ts - t1 -> spec_next c ts None (Some a) = Some (resolve a ts).
Proof. exact keep_firing_ends. Qed.

(* 5. Retention: a resolved entry is kept unchanged over every absent evaluation up to and
   including resolvedAt + 15 min, dropped by the first one later than that, and replaced by a new
   pending period when the instance is active again. *)
Theorem C44_retention : forall c k r es a,
  a_state a = Inactive -> a_resolvedAt a = Some r ->
  Forall (absent_in k) es -> Forall (fun e => e_ts e - r <= resolvedRetention) es ->
  key_run c k es (Some a) = Some a.
Proof. exact retention_kept. Qed.

Theorem C44_retention_dropped : forall c ts a r, a_state a = Inactive -> a_resolvedAt a = Some r ->
  resolvedRetention < ts - r -> spec_next c ts None (Some a) = None.
Proof. exact retention_dropped. Qed.

Theorem C44_reappears_pending : forall c ts a v, a_state a = Inactive ->
  spec_next c ts (Some v) (Some a) = Some (hold_state c ts (new_alert ts v)).
Proof. exact reappears_pending. Qed.

(* 6. Restore. RestoreForState marks the rule restored, keeps the durations, touches nothing but
   ActiveAt, and ActiveAt changes only for an instance whose last stored ALERTS_FOR_STATE sample
   inside [ts - outage tolerance, ts] is not a stale marker, and only if hold >= grace period; then
   it is [restored_activeAt], which means (C44_restore_shift): if the alert was already due to
   fire when that sample was written the stored activation time is taken (it fires at the next
   evaluation), otherwise the time still to wait after the restore is max(grace period, what
   remained when Prometheus went down). *)
Theorem C44_restore : forall c m ts tol grace st c' m',
  NoDup (map fst st) -> restore c m ts tol grace st = (c', m') ->
  c' = mkCfg (c_hold c) (c_kff c) true /\
  (forall k, lookup k m = None -> lookup k m' = None) /\
  forall k a, lookup k m = Some a ->
    exists a', lookup k m' = Some a' /\ a' = set_activeAt a (a_activeAt a') /\
      a_activeAt a' =
      match visible_sample ts tol st k with
      | Some (t, Some v) => if c_hold c <? grace then a_activeAt a
                            else restored_activeAt (c_hold c) grace ts t v
      | _ => a_activeAt a
      end.
Proof. exact restore_spec. Qed.

Theorem C44_restore_shift : forall hold grace ts t v,
  let down := Z.quot t 1000 * sec in
  let orig := v * sec in
  let remaining := hold - (down - orig) in
  let r := restored_activeAt hold grace ts t v in
  (remaining <= 0 -> r = orig) /\
  (0 < remaining -> r + hold = ts + Z.max grace remaining).
Proof. exact restored_activeAt_spec. Qed.

Theorem C44_restore_outage_tolerance : forall ts tol st k s,
  lookup k st = Some s ->
  Forall (fun tv => fst tv < tms_of_nano (ts - tol) \/ tms_of_nano ts < fst tv) s ->
  visible_sample ts tol st k = None.
Proof. exact visible_sample_out_of_tolerance. Qed.

(* 7. The state invariant holds in every reachable state. *)
Theorem C44_invariant : forall ops w, inv (snd w) -> inv (snd (run_world w ops)).
Proof. exact run_world_inv. Qed.

(* ---------- non-vacuity ---------- *)
Definition ex_cfg := mkCfg 60 120 true.      (* hold 60, keep_firing_for 120 (tiny units) *)
Definition ex_ev (ts : Z) (keys : list Z) := mkEv ts 0 0 (map (fun k => (k, 1)) keys).

(* a history with flapping: instance 7 pending at 1000, firing at 1060 (not at 1059), kept firing
   while absent at 1100 and 1200, resolved at 1220 (window from 1100 ends at 1220); instance 8
   pending at 1059 and dropped at 1100 *)
Example C44_nonvacuous_history :
  evals ex_cfg [] [ex_ev 1000 [7]; ex_ev 1059 [7; 8]; ex_ev 1060 [7]; ex_ev 1100 []; ex_ev 1200 []; ex_ev 1220 []]
  = Some [(7, mkAlert Inactive 1 1000 (Some 1060) (Some 1220) (Some 1100) None None)].
Proof. vm_compute. reflexivity. Qed.

Example C44_nonvacuous_fires :
  Forall (present_in 7) [ex_ev 1000 [7]; ex_ev 1059 [7; 8]; ex_ev 1060 [7]; ex_ev 1070 [7]] /\
  mono 1000 [ex_ev 1059 [7; 8]; ex_ev 1060 [7]; ex_ev 1070 [7]] /\
  find (reaches ex_cfg 1000) [ex_ev 1000 [7]; ex_ev 1059 [7; 8]; ex_ev 1060 [7]; ex_ev 1070 [7]] = Some (ex_ev 1060 [7]).
Proof.
  split; [|split; [simpl; repeat split; discriminate|reflexivity]].
  repeat constructor; exists 1; reflexivity.
Qed.

(* a reachable state through a reload that raises the hold duration (firing falls back to
   pending) and a restart + restore that moves ActiveAt *)
Example C44_nonvacuous_world :
  run_world (mkCfg 60 0 true, [])
    [OpEval 1000 0 0 false [(1, 5)]; OpEval 1060 0 0 false [(1, 5)]; OpSend 1060 0 10;
     OpReload 600 0 true; OpEval 1100 0 0 false [(1, 5)]]
  = (mkCfg 600 0 true, [(1, mkAlert Pending 5 1000 None None None None (Some 1100))]).
Proof. vm_compute. reflexivity. Qed.

Example C44_nonvacuous_restore :
  (* hold 30 min, grace 10 min, sample written 2 min before the restore, 5 min after activation:
     25 min remained -> fires 25 min + the 2 min outage after the original deadline *)
  let hold := 1800 * sec in let grace := 600 * sec in
  let ts := 2000 * sec in let t := 1880 * 1000 in let v := 1580 in
  restored_activeAt hold grace ts t v + hold = ts + 1500 * sec /\
  restored_activeAt hold grace ts t v = (1580 + 120) * sec.
Proof. vm_compute. split; reflexivity. Qed.
