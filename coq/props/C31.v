(* props/C31.v — property theorems for C31 (native histogram arithmetic preserves bucket
   semantics).  Nothing but statements; the proofs rest on proof/HistArithProofs.v.
   Vocabulary: `total l t` is the bucket map (count recorded for absolute bucket index t) of a
   bucket list l = `expand spans buckets`; `retarget k l` re-indexes l into the schema that is k
   steps coarser (targetIdx); counts are integers (see model/HistArith.v). *)
From Coq Require Import List ZArith Bool Lia.
From Verif Require Import model.HistArith proof.HistArithProofs corr.CorrC31.
Import ListNotations.
Open Scope Z_scope.

(* Valid spans expand to strictly increasing bucket indices (no bucket is described twice). *)
Theorem C31_expand_increasing : forall sp bs l, expand sp bs = Ok l -> increasing l.
Proof. exact expand_increasing. Qed.

(* addBuckets / kahanAddBuckets: the resulting bucket map is the bucket-wise sum (sgn = 1,
   Add and KahanAdd) or difference (sgn = -1, Sub), for every index. *)
Theorem C31_add_buckets_bucketwise : forall sgn la lb t,
  total (merge_add sgn la lb) t = total la t + sgn * total lb t.
Proof. exact total_merge_add. Qed.

(* reduceResolution by k >= 0 schema steps: every target bucket t holds exactly the sum of the
   origin buckets i with targetIdx(i) = t; the result has strictly increasing indices. *)
Theorem C31_reduce_preserves_totals : forall sp bs l k t, expand sp bs = Ok l -> 0 <= k ->
  total (reduce_abs k l) t = sumc (filter (fun b => target_idx (fst b) k =? t) l) /\
  increasing (reduce_abs k l).
Proof.
  intros sp bs l k t H Hk. pose proof (expand_increasing _ _ _ H) as Hi.
  split; [rewrite reduce_total by assumption; apply total_retarget|now apply reduce_increasing].
Qed.

(* Compact(maxEmptyBuckets = k) never changes the total of any bucket, whatever k; and with
   k = 0 no empty bucket is left. *)
Theorem C31_compact_preserves_totals : forall k l t, total (compact_abs k l) t = total l t.
Proof. exact total_compact. Qed.
Theorem C31_compact0_no_empty_bucket : forall l, Forall (fun b => snd b <> 0) (compact_abs 0 l).
Proof. exact compact0_no_empty. Qed.

(* Histogram.ToFloat: spans are kept and the float buckets decode back to exactly the integer
   histogram's deltas, i.e. every absolute count is preserved; exponential histograms keep
   zero bucket and negative side, custom ones keep their bounds. *)
Theorem C31_to_float_preserves : forall h,
  let f := to_float h in
  r_ps f = i_ps h /\ deltas_from 0 (r_pb f) = i_pd h /\ r_cnt f = i_cnt h /\ r_schema f = i_schema h /\
  (is_custom (i_schema h) = false ->
     r_ns f = i_ns h /\ deltas_from 0 (r_nb f) = i_nd h /\ r_zc f = i_zc h /\ r_zt f = i_zt h /\
     abs_of_raw f = abs_of_raw (mkRF (i_hint h) (i_schema h) (i_zt h) (i_zc h) (i_cnt h) (i_sum h)
                                     (i_ps h) (cumsum (i_pd h)) (i_ns h) (cumsum (i_nd h)) [])) /\
  (is_custom (i_schema h) = true -> r_cv f = i_cv h /\ r_ns f = [] /\ r_nb f = [] /\ r_zc f = 0).
Proof.
  intro h. unfold to_float, cumsum.
  destruct (is_custom (i_schema h)); cbn;
    rewrite ?(deltas_cumsum : forall acc ds, deltas_from acc (cumsum_from acc ds) = ds); intuition discriminate.
Qed.

(* detectReset on the two aligned bucket sequences reports a reset exactly when some bucket of
   the previous histogram is populated and missing now, or has a smaller count now. *)
Theorem C31_detect_buckets_iff : forall prev cur, increasing prev -> increasing cur ->
  (dr_lists prev cur = true <->
   exists p, In p prev /\
     match find_idx (fst p) cur with None => snd p <> 0 | Some c => c < snd p end).
Proof. exact p_detect_buckets_iff. Qed.

(* ... which for non-negative counts is: some bucket count decreased. *)
Theorem C31_detect_buckets_decreased : forall prev cur, increasing prev -> increasing cur ->
  Forall (fun p => 0 <= snd p) prev ->
  (dr_lists prev cur = true <-> exists p, In p prev /\ total cur (fst p) < snd p).
Proof. exact p_detect_buckets_decreased. Qed.

(* Custom buckets with different bounds: every bucket t of the intersected layout holds the
   sum (difference) of the two operands mapped onto that layout, and every source bucket is
   mapped to some bucket of it. *)
Theorem C31_custom_mismatch_bucketwise : forall sgn la ba lb bb inter t,
  0 <= t <= Z.of_nat (length inter) ->
  total (add_mism sgn la ba lb bb inter) t =
  total (remap inter ba la) t + sgn * total (remap inter bb lb) t.
Proof. exact add_mism_total. Qed.
Theorem C31_custom_mapping_in_range : forall inter bounds idx,
  0 <= map_idx inter bounds idx <= Z.of_nat (length inter).
Proof. exact map_idx_range. Qed.

(* Add / Sub / KahanAdd on two custom-bucket histograms: with equal bounds the bucket map is the
   bucket-wise sum/difference; with different bounds the result lives on the intersection of the
   bounds (exactly the bounds present in both) and every bucket of that layout holds the
   sum/difference of the operands' buckets mapped onto it (first bound >= the source bound,
   else the +Inf bucket: C31_custom_target_bucket). *)
Theorem C31_add_sub_custom : forall sgn h o,
  is_custom (schema h) = true -> is_custom (schema o) = true ->
  idx_nonneg (pos h) = true -> idx_nonneg (pos o) = true ->
  exists r, arith sgn h o = Ok r /\
    let R := ao_h r in
    schema R = schema h /\ cnt R = cnt h + sgn * cnt o /\ sum R = sum h + sgn * sum o /\
    zc R = zc h /\ zt R = zt h /\
    (list_eqb (cv h) (cv o) = true ->
       ao_reconciled r = false /\ cv R = cv h /\
       forall t, total (pos R) t = total (pos h) t + sgn * total (pos o) t) /\
    (list_eqb (cv h) (cv o) = false ->
       ao_reconciled r = true /\ cv R = intersect (cv h) (cv o) /\
       forall t, 0 <= t <= Z.of_nat (length (cv R)) ->
         total (pos R) t = total (remap (cv R) (cv h) (pos h)) t +
                           sgn * total (remap (cv R) (cv o) (pos o)) t).
Proof. exact arith_custom. Qed.
Theorem C31_custom_bounds_intersection : forall a b lo z, zinc lo a -> zinc lo b ->
  (In z (intersect a b) <-> In z a /\ In z b).
Proof. exact intersect_spec. Qed.
Theorem C31_custom_target_bucket : forall inter x p,
  (forall r, find_ge inter x p = Some r ->
     exists pre y post, inter = pre ++ y :: post /\ r = p + Z.of_nat (length pre) /\ x <= y /\
                        Forall (fun z => z < x) pre) /\
  (find_ge inter x p = None -> Forall (fun z => z < x) inter).
Proof. intros inter x p. split; [intro r; apply find_ge_some|apply find_ge_none]. Qed.

(* zeroCountForLargerThreshold (slow path, T above the histogram's own threshold): the
   returned threshold T' is >= T, cuts through no populated bucket, differs from T only if T
   cut a populated bucket, and the returned zero count is the old one plus exactly the buckets
   (both signs) whose lower bound lies below T'.  (EFuel/EPanic excluded by "= Ok".) *)
Theorem C31_zero_bucket_widening : forall h T z T',
  schema h <= 8 -> increasing (pos h) -> increasing (neg h) -> zcflt h T = Ok (z, T') ->
  (thr_eqb T (zt h) = true /\ z = zc h /\ T' = T) \/
  (thr_ltb (zt h) T = true /\ thr_leb T T' = true /\
   z = zc h + absorbed_sum (schema h) T' (pos h) + absorbed_sum (schema h) T' (neg h) /\
   nocut (schema h) T' (pos h) /\ nocut (schema h) T' (neg h) /\
   (T' = T \/ (thr_ltb T T' = true /\ exists b, In b (pos h ++ neg h) /\ snd b <> 0 /\
                 inside (schema h) T b = true /\ thr_ltb T (upper (fst b) (schema h)) = true))).
Proof. exact zcflt_spec. Qed.

(* FULL STATEMENT for Add (sgn = 1, also KahanAdd) and Sub (sgn = -1) on exponential
   histograms: the result has the lower of the two schemas and a zero threshold T' >= both
   thresholds that cuts no populated bucket of a histogram whose zero bucket grew; its zero
   count is the sum/difference of both zero counts each increased by what T' absorbed; count
   and sum are added/subtracted; and every regular bucket t (positive and negative side) holds
   the sum/difference of the non-absorbed buckets of both operands brought to the result
   schema (retarget = targetIdx).
   The statement as such is FALSE of the code (C31_add_refuted).  It is proved here under
   `no_double_count o s' T'`, which excludes exactly the configuration of the finding (a
   populated bucket of `other` inside the common zero bucket whose merged bucket at the result
   schema sticks out of it), and for `other` not having populated buckets wholly inside its own
   zero bucket (wf_own).  no_double_count holds whenever other's schema is not the higher one,
   when T' = 0, and when T' is a bucket boundary of the result schema (three lemmas below). *)
Theorem C31_add_sub_partial : forall sgn h o r,
  is_exp (schema h) = true -> is_exp (schema o) = true ->
  increasing (pos h) -> increasing (neg h) -> increasing (pos o) -> increasing (neg o) ->
  wf_own o ->
  arith sgn h o = Ok r ->
  let R := ao_h r in let T' := zt R in let s' := Z.min (schema h) (schema o) in
  no_double_count o s' T' ->
  schema R = s' /\ thr_leb (zt h) T' = true /\ thr_leb (zt o) T' = true /\
  cnt R = cnt h + sgn * cnt o /\ sum R = sum h + sgn * sum o /\
  zc R = zc h + absorbed_at h T' + sgn * (zc o + absorbed_at o T') /\
  (thr_eqb T' (zt h) = false -> nocut (schema h) T' (pos h) /\ nocut (schema h) T' (neg h)) /\
  (thr_eqb T' (zt o) = false -> nocut (schema o) T' (pos o) /\ nocut (schema o) T' (neg o)) /\
  (forall t, total (pos R) t =
             total (retarget (schema h - s') (kept_at (schema h) (zt h) T' (pos h))) t +
             sgn * total (retarget (schema o - s') (kept_at (schema o) (zt o) T' (pos o))) t) /\
  (forall t, total (neg R) t =
             total (retarget (schema h - s') (kept_at (schema h) (zt h) T' (neg h))) t +
             sgn * total (retarget (schema o - s') (kept_at (schema o) (zt o) T' (neg o))) t).
Proof. exact arith_general. Qed.

Theorem C31_no_double_count_other_not_higher_res : forall h o T,
  schema o <= schema h -> no_double_count o (Z.min (schema h) (schema o)) T.
Proof. exact ndc_other_not_higher_res. Qed.
Theorem C31_no_double_count_zero_threshold : forall o s', no_double_count o s' T0.
Proof. exact ndc_zero_threshold. Qed.
Theorem C31_no_double_count_threshold_on_grid : forall o s' j,
  s' <= schema o -> schema o <= 8 -> no_double_count o s' (TC (bcode j s')).
Proof. exact ndc_threshold_on_grid. Qed.

(* the same without any side condition when both zero buckets already have the same width *)
Theorem C31_add_same_threshold_partial : forall sgn h o,
  is_custom (schema h) = false -> is_custom (schema o) = false ->
  thr_eqb (zt o) (zt h) = true -> increasing (pos h) -> increasing (neg h) ->
  increasing (pos o) -> increasing (neg o) ->
  exists r, arith sgn h o = Ok r /\
    let s' := Z.min (schema h) (schema o) in
    schema (ao_h r) = s' /\ zt (ao_h r) = zt h /\
    zc (ao_h r) = zc h + sgn * zc o /\ cnt (ao_h r) = cnt h + sgn * cnt o /\
    (forall t, total (pos (ao_h r)) t =
               total (retarget (schema h - s') (pos h)) t +
               sgn * total (drop_below s' (zt h) (reduced_to s' (schema o) (pos o))) t) /\
    (forall t, total (neg (ao_h r)) t =
               total (retarget (schema h - s') (neg h)) t +
               sgn * total (drop_below s' (zt h) (reduced_to s' (schema o) (neg o))) t).
Proof. exact arith_same_threshold. Qed.

(* FULL STATEMENT for DetectReset: a reset is reported exactly when the hint says so, or
   (hint unknown/gauge) the count decreased, the bucket type changed, the resolution
   increased, the zero threshold decreased or now cuts through a populated bucket, or after
   aligning the previous histogram (lower resolution, wider zero bucket; intersected custom
   bounds) the zero count or some bucket count decreased.
   FALSE of the code as it is (C31_detect_refuted).  Proved here for exponential histograms
   with non-negative counts, hint unknown/gauge, under the same no_double_count condition on
   the previous histogram; the custom-bounds branch is covered by the correspondence check
   only (model function dmm), hence "_partial". *)
Theorem C31_detect_reset_iff_partial : forall c p b,
  is_exp (schema c) = true -> is_exp (schema p) = true ->
  increasing (pos c) -> increasing (neg c) -> increasing (pos p) -> increasing (neg p) ->
  nonneg (pos c) -> nonneg (neg c) -> nonneg (pos p) -> nonneg (neg p) ->
  wf_own c -> wf_own p -> hint c <> 1 -> hint c <> 2 ->
  detect_reset c p = Ok b ->
  no_double_count p (schema c) (zt c) ->
  (b = true <->
   cnt c < cnt p \/ schema p < schema c \/ thr_ltb (zt c) (zt p) = true \/
   cuts_populated p (zt c) \/
   zc c < zc p + absorbed_at p (zt c) \/
   (exists t, total (pos c) t <
              total (retarget (schema p - schema c) (kept_at (schema p) (zt p) (zt c) (pos p))) t) \/
   (exists t, total (neg c) t <
              total (retarget (schema p - schema c) (kept_at (schema p) (zt p) (zt c) (neg p))) t)).
Proof. exact detect_general. Qed.

(* hints short-cut; a change of the bucket type (custom <-> exponential) is a reset *)
Theorem C31_detect_reset_hint_and_type : forall c p,
  (hint c = 1 -> detect_reset c p = Ok true) /\ (hint c = 2 -> detect_reset c p = Ok false) /\
  (hint c <> 1 -> hint c <> 2 -> cnt p <= cnt c ->
   (is_custom (schema c) = true /\ is_custom (schema p) = false) \/
   (is_exp (schema c) = true /\ is_custom (schema p) = true) ->
   detect_reset c p = Ok true).
Proof. exact p_detect_reset_hint_and_type. Qed.

(* Finding 1: when `other` has the higher resolution and the common zero threshold is not a
   bucket boundary of the receiver's schema, buckets of `other` that were added to the zero
   count are added again to the merged bucket the threshold cuts: observations are counted
   twice.  Witness: receiver schema 0, zero threshold 2^(1/8), bucket (2,4]:3, zero count 1;
   other schema 3, buckets (1,2^(1/8)]:5 and (2^(1/8),2^(2/8)]:7.  The sum has 16 observations
   but zero count 6 + buckets 12 + 3 = 21. *)
Definition w_recv : fh := mkH 0 0 (TC 64) 1 4 0 [(2, 3)] [] [].
Definition w_other : fh := mkH 0 3 T0 0 12 0 [(1, 5); (2, 7)] [] [].
Theorem C31_add_refuted : exists h o r,
  wf h = true /\ wf o = true /\ arith 1 h o = Ok r /\
  cnt (ao_h r) = 16 /\
  zc (ao_h r) + sumc (pos (ao_h r)) + sumc (neg (ao_h r)) = 21 /\
  (zc h + sumc (pos h) + sumc (neg h)) + (zc o + sumc (pos o) + sumc (neg o)) = 16.
Proof. exists w_recv, w_other. eexists. repeat split; vm_compute; reflexivity. Qed.

(* Finding 2: for the same reason DetectReset reports a reset although nothing decreased: the
   previous histogram (schema 3, bucket (1,2^(1/8)]:5) and the current one (schema 0, zero
   bucket widened to 2^(1/8) holding those 5 observations) describe the same data. *)
Definition w_prev : fh := mkH 0 3 T0 0 5 0 [(1, 5)] [] [].
Definition w_cur : fh := mkH 0 0 (TC 64) 5 5 0 [] [] [].
Theorem C31_detect_refuted : exists c p,
  wf c = true /\ wf p = true /\ detect_reset c p = Ok true /\ reset_spec c p = false.
Proof. exists w_cur, w_prev. repeat split; vm_compute; reflexivity. Qed.

(* non-vacuity of C31_add_sub_partial / C31_detect_reset_iff_partial: a case where the zero
   bucket of the receiver is widened past one of its buckets, other has the higher resolution
   and the threshold is on the receiver's grid *)
Definition e_h : fh := mkH 0 0 (TC 0) 2 12 0 [(1, 4); (2, 6)] [] [].          (* schema 0, zt 1, (1,2]:4 (2,4]:6 *)
Definition e_o : fh := mkH 0 1 (TC 512) 3 11 0 [(3, 5); (4, 3)] [] [].        (* schema 1, zt 2, (2,2.83]:5 (2.83,4]:3 *)
Example C31_nonvacuous_add_sub_partial :
  wf_own e_o /\ no_double_count e_o 0 (TC 512) /\
  exists r, arith 1 e_h e_o = Ok r /\ zt (ao_h r) = TC 512 /\ zc (ao_h r) = 9 /\ pos (ao_h r) = [(2, 14)].
Proof.
  split; [|split].
  - intros b Hb. cbn in Hb. destruct Hb as [<-|[<-|[]]]; cbn; intro; discriminate.
  - apply (ndc_threshold_on_grid e_o 0 1); cbn; lia.
  - eexists. vm_compute. repeat split.
Qed.
Example C31_nonvacuous_detect_partial :
  detect_reset (mkH 0 0 (TC 512) 9 23 0 [(2, 14)] [] []) e_h = Ok false /\
  detect_reset (mkH 0 0 (TC 512) 9 23 0 [(2, 5)] [] []) e_h = Ok true /\
  no_double_count e_h 0 (TC 512).
Proof. repeat split; try (vm_compute; reflexivity). apply (ndc_threshold_on_grid e_h 0 1); cbn; lia. Qed.

Example C31_nonvacuous_custom :
  exists r, arith 1 (mkH 0 (-53) T0 0 9 0 [(0, 2); (1, 3); (3, 4)] [] [1; 2; 5])
                    (mkH 0 (-53) T0 0 6 0 [(0, 1); (2, 5)] [] [2; 5; 7]) = Ok r /\
            cv (ao_h r) = [2; 5] /\ pos (ao_h r) = [(0, 6); (2, 9)] /\ ao_reconciled r = true.
Proof. eexists. vm_compute. repeat split. Qed.

(* non-vacuity *)
Example C31_nonvacuous_expand :
  expand [mkSpan (-2) 2; mkSpan 3 1] [5; 0; 7] = Ok [(-2, 5); (-1, 0); (3, 7)].
Proof. reflexivity. Qed.
Example C31_nonvacuous_reduce :
  reduce_abs 1 [(-2, 5); (-1, 1); (0, 2); (3, 7); (4, 1)] = [(-1, 5); (0, 3); (2, 8)].
Proof. reflexivity. Qed.
Example C31_nonvacuous_compact :
  compact_abs 1 [(0, 0); (1, 4); (2, 0); (3, 5); (4, 0); (5, 0); (6, 2); (9, 1); (10, 0)] =
  [(1, 4); (2, 0); (3, 5); (6, 2); (9, 1)].
Proof. reflexivity. Qed.
Example C31_nonvacuous_detect :
  dr_lists [(1, 5); (2, 0); (4, 3)] [(1, 5); (4, 2)] = true /\
  dr_lists [(1, 5); (2, 0); (4, 3)] [(0, 9); (1, 6); (4, 3); (7, 1)] = false.
Proof. split; reflexivity. Qed.
Example C31_nonvacuous_same_threshold :
  exists r, arith (-1) (mkH 0 2 (TC 10) 3 20 0 [(1, 4); (5, 6)] [(2, 7)] [])
                       (mkH 3 0 (TC 10) 1 6 0 [(1, 2); (2, 3)] [] []) = Ok r /\
            pos (ao_h r) = [(1, 2); (2, 3)] /\ schema (ao_h r) = 0.
Proof. eexists. vm_compute. repeat split. Qed.
