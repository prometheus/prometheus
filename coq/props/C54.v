(* props/C54.v — property theorems for C54 (fanout storage merges primary and secondary data
   with best-effort secondaries; commit order).  Statements (the witnesses are evaluated in place); definitions are in
   model/Fanout.v, proofs and the vocabulary of the hypotheses (wf, creatable, no_late,
   late_failure, lbl_of, label_selector, rb_call, is_rollback) in proof/FanoutProofs.v.

   Full statement of the query part (NOT a theorem of the code as it is):
     forall p secs nsel currs, wf nsel p -> Forall (wf nsel) secs -> creatable p ->
       length currs = length (live_secs secs) ->
       <conclusion of C54_query_partial>
   i.e. without the hypotheses `Forall creatable secs` (no secondary fails at Querier()
   creation) and `Forall no_late secs` (no secondary fails at a Next after its first).  Both
   excluded stages are refuted below on the faithful model (C54_create_refuted,
   C54_late_failure_refuted) and reproduced on the real fanout by the harness corpus. *)
From Coq Require Import List ZArith.
From Verif Require Import model.Fanout proof.FanoutProofs.
Import ListNotations.
Open Scope Z_scope.

(* Query through a fanout whose secondaries fail, if at all, at Select or at the first Next
   (any number of them, in any of the nsel Selects, whatever Select triggered their Once):
   the querier is created, and every Select either fails with the primary's error (when the
   primary's set fails, at any step) or succeeds with exactly the merge of the primary's
   series and the series of the secondaries that failed nowhere in the query — nothing of a
   failed secondary, in any Select (all-or-nothing). *)
Theorem C54_query_partial : forall p secs nsel currs,
  wf nsel p -> Forall (wf nsel) secs -> creatable p -> Forall creatable secs ->
  Forall no_late secs -> length currs = length (live_secs secs) ->
  exists rs lv ln,
    query p secs nsel currs = ROk rs lv ln (map is_ok (p :: secs)) /\ length rs = nsel /\
    forall a r, nth_error rs a = Some r ->
      exists pc, set_at p a = Some pc /\
        match final_err pc with
        | Some e => r_errs r = [e]
        | None => r_errs r = [] /\ r_series r = expected_series pc secs a
        end.
Proof. exact query_partial. Qed.

(* ... and the failure of such a secondary is reported: its error is among the warnings of the
   Select that triggered its Once (unless the primary failed at the first Next there, in
   which case the query fails anyway). *)
Theorem C54_secondary_failure_reported : forall p secs currs j sels lv ln cu e ws r,
  nth_error (combine (live_secs secs) currs) j = Some (QOk sels lv ln, cu) ->
  find_first_fail sels = Some (e, ws) ->
  select_res p (combine (live_secs secs) currs) cu = Some r ->
  (forall pc, set_at p cu = Some pc -> first_fail pc = None) ->
  In e (r_warns r).
Proof. exact warn_reported. Qed.

(* LabelValues / LabelNames: fail exactly when the primary's call fails; otherwise the values
   are those of the primary and of every secondary whose call succeeded, every failed
   secondary's error is a warning, the primary's warnings are kept. *)
Theorem C54_label_queries : forall sel p secs, label_selector sel ->
  exists r, label_res sel p (live_secs secs) = Some r /\
    match l_fail (lbl_of sel p) with
    | Some e => snd r = Some e
    | None =>
        snd r = None
        /\ (forall v, In v (lvals r) <->
                      In v (l_vals (lbl_of sel p)) \/
                      exists s l, In s secs /\ sel s = Some l /\ l_fail l = None /\ In v (l_vals l))
        /\ (forall s l e, In s secs -> sel s = Some l -> l_fail l = Some e -> In e (lwarns r))
        /\ (forall w, In w (l_warns (lbl_of sel p)) -> In w (lwarns r))
    end.
Proof. exact label_res_spec. Qed.

(* The two excluded stages, on the faithful model (known findings). *)
Theorem C54_late_failure_refuted :
  exists p secs nsel currs rs lv ln cl r,
    wf nsel p /\ Forall (wf nsel) secs /\ creatable p /\ Forall creatable secs /\
    (forall a c, set_at p a = Some c -> final_err c = None) /\
    (exists sels l1 l2 c, In (QOk sels l1 l2) secs /\ In c sels /\ late_failure c) /\
    query p secs nsel currs = ROk rs lv ln cl /\ nth_error rs 0 = Some r /\
    r_errs r = [2101] /\ r_warns r = [] /\ In (mkSer 1 [(0, 1000); (30, 1030)]) (r_series r).
Proof.
  (* a secondary failing at its second Next: the query fails with the secondary's error, the
     series it yielded before stays in the result, no warning *)
  exists wit_prim, [wit_sec_late], 1%nat, [0%nat].
  eexists; eexists; eexists; eexists; eexists.
  split; [reflexivity|]. split; [repeat constructor|]. split; [exact I|]. split; [repeat constructor|].
  split.
  { intros [|[|a]] c; simpl; intros [= <-]; reflexivity. }
  split.
  { do 4 eexists. split; [left; reflexivity|]. split; [left; reflexivity|].
    exists 2101. split; reflexivity. }
  split; [vm_compute; reflexivity|]. split; [reflexivity|].
  split; [reflexivity|]. split; [reflexivity|]. simpl. auto.
Qed.

Theorem C54_create_refuted :
  exists p secs nsel currs e cl,
    wf nsel p /\ creatable p /\ In (QCreateFail e) secs /\
    query p secs nsel currs = RCreateFail e cl.
Proof.
  (* a secondary whose Querier() call fails: fanout.Querier fails *)
  exists wit_prim, [QNoop; QCreateFail 3001], 1%nat, [], 3001. eexists.
  split; [reflexivity|]. split; [exact I|]. split; [simpl; auto|]. vm_compute. reflexivity.
Qed.

(* Appender side.  One fanout appender session (Appender or AppenderV2) started from ANY
   contents of the stores: appends that returned nil and were committed (Commit = nil) are in
   the primary and in every secondary; Commit = nil exactly when everyone committed; a Commit
   error is the error of the first failing commit, everything before it committed and
   everything after it is rolled back; if the primary's commit fails no secondary commits and
   no store changes; Rollback rolls everyone back.  Stores only grow. *)
Theorem C54_commit : forall stores s stores' res,
  length stores = S (length (ss_secs s)) ->
  run_session stores s = (stores', res) ->
  length stores' = length stores /\ sr_stores res = stores' /\ Forall2 grows stores stores' /\
  length (sr_appends res) = length (ss_samples s) /\
  (ss_commit s = true -> sr_end res = None ->
     Forall (fun c => c = ECommitOk) (sr_calls res) /\
     forall k x ref, nth_error (ss_samples s) k = Some x ->
                     nth_error (sr_appends res) k = Some (ref, None) ->
       Forall2 (fun old new => exists d, new = old ++ d /\ exists r, In (x, r) d) stores stores') /\
  (ss_commit s = true -> forall e, sr_end res = Some e ->
     exists pre c post, ss_prim s :: ss_secs s = pre ++ c :: post /\ ac_commit c = true /\ e = e_commit c /\
       Forall (fun c => ac_commit c = false) pre /\
       map Some (sr_calls res) = map (fun _ => Some ECommitOk) pre ++ Some ECommitFail :: map (fun c => Some (snd (rb_call c))) post) /\
  (ss_commit s = true -> ac_commit (ss_prim s) = true ->
     sr_end res = Some (e_commit (ss_prim s)) /\ stores' = stores /\
     exists calls, sr_calls res = ECommitFail :: calls /\ Forall is_rollback calls) /\
  (ss_commit s = false -> stores' = stores /\ Forall is_rollback (sr_calls res)).
Proof. exact session_spec. Qed.

(* Every session of every history of sessions is such a step, so C54_commit covers all
   reachable states. *)
Theorem C54_history : forall n ss stores,
  length stores = n -> Forall (fun s => S (length (ss_secs s)) = n) ss ->
  Forall2 (fun s res => exists st st', length st = n /\ run_session st s = (st', res))
          ss (run_sessions stores ss).
Proof. exact history_spec. Qed.

(* Non-vacuity: a fanout with a secondary failing at its first Next (and at LabelValues), a
   noop secondary and a healthy one meets the hypotheses of C54_query_partial; the result has
   nothing of the failed secondary and carries its warning and error as warnings. *)
Example C54_nonvacuous :
  wf 1 wit_prim /\ Forall (wf 1) [wit_sec_first; QNoop; wit_sec_ok] /\ creatable wit_prim /\
  Forall creatable [wit_sec_first; QNoop; wit_sec_ok] /\ Forall no_late [wit_sec_first; QNoop; wit_sec_ok] /\
  sec_failed wit_sec_first = true /\
  exists lv ln cl,
  query wit_prim [wit_sec_first; QNoop; wit_sec_ok] 1 [0%nat; 0%nat] =
    ROk [mkSelRes [mkSer 0 [(0, 0); (10, 10)]; mkSer 3 [(10, 3010); (20, 3020); (30, 3030)]; mkSer 7 [(50, 7050)]]
                  [] [2102; 2101]] lv ln cl.
Proof.
  split; [reflexivity|]. split; [repeat constructor|]. split; [exact I|]. split; [repeat constructor|].
  split.
  { repeat constructor. intros e. vm_compute. auto. intros e. vm_compute. discriminate. }
  split; [reflexivity|]. do 3 eexists. vm_compute. reflexivity.
Qed.

(* Non-vacuity of C54_commit: the primary's commit fails in a session with two secondaries. *)
Example C54_commit_nonvacuous :
  let s := mkSession false (mkApp [] true false 10) [mkApp [1%nat] false false 20; mkApp [] false true 30] [1; 2; 3] true in
  run_session [[]; [(9, 9)]; []] s =
    ([[]; [(9, 9)]; []],
     mkSessRes [(1001, None); (0, Some 21); (1003, None)] (Some 12) [ECommitFail; ERollbackOk; ERollbackFail] [[]; [(9, 9)]; []]).
Proof. vm_compute. reflexivity. Qed.
