(* props/C04.v — property theorems for C04 (damaged on-disk data never yields wrong samples).
   Model: model/Damage.v (reader over a damaged segment / head chunk file; the open sequence of
   tsdb/db.go + Head.Init with WAL / WBL repair; appends; a second open).
   Proofs: proof/DamageProofs.v.

   The property as stated:
     forall database, damage (truncation at any byte / any one byte changed) of WAL, WBL,
     checkpoint or head chunk data:
       open fails WITHOUT removing or altering undamaged data, or
       open succeeds with contents = blocks + each log replayed up to its first damaged record
       (undamaged logs in full) + intact head chunks;
     no sample, series or value that was not written; the repaired database accepts and keeps
     new writes.
   What is proved of the model of the code as it is:
     C04_no_invention            (full)     the first open never shows a sample that is not on disk
                                            under its series' ref - for any damage of any files
     C04_reader_prefix           (full)     a damaged segment is replayed as a prefix of its records,
                                            everything before the damage included
     C04_reader_keeps_before_damage (full)  every record that ends before the damage is delivered
     C04_open_replays_prefixes   (partial)  a successful open replays checkpoint + WAL + WBL as delivered,
                                            except that a WAL error skips the WBL
     C04_failed_open_cases       (partial)  a failed open leaves blocks, checkpoint and WBL alone, and
                                            the WAL too unless the checkpoint was unreadable
   and four parts of the statement are FALSE of the model (and of the code, see notes/C04.md):
     C04_checkpoint_damage_refuted          an unreadable checkpoint makes Open fail AFTER it deleted
                                            the WAL segments
     C04_wal_repair_skips_wbl_refuted       when the WAL is repaired the (undamaged) WBL is not replayed
     C04_reopen_invention_refuted           after a repair that lost a Series record the ref is given to
                                            a new series; at the next open it shows the old series' samples
     C04_old_chunk_file_refuted             an older head chunk file cut at a chunk boundary hides
                                            samples that the WAL still has
     C04_acknowledged_append_dropped_refuted  after a repair that leaves a series without head chunk an
                                            out-of-order append is acknowledged and silently dropped *)
From Coq Require Import List ZArith Bool.
From Verif Require Import model.Damage proof.DamageProofs.
Import ListNotations.
Open Scope Z_scope.

Ltac in_list := repeat (first [left; reflexivity | right]).

(* ------------------------------------------------------------------ no invention (first open) *)
(* For every directory state d - blocks, checkpoint, WAL, WBL and head chunk files, each file
   with ANY damage (not only a single one) - if Open succeeds, every sample it shows is a block
   sample or is attributed to a series identity id through a ref such that a Series record
   (ref, id) and a sample (ref, t, v) (in a log record or a head chunk) exist in the undamaged
   data: nothing is made up, no value or timestamp is altered, no series appears from nowhere.
   No CRC hypothesis is needed: where a checksum fails to detect a change the model's result is
   OOracle, not OOk. *)
Theorem C04_no_invention :
  forall d h d' k cr cl, open d = OOk h d' k cr cl ->
  forall x, In x (contents d h) -> written d x.
Proof. exact open_no_invention. Qed.

(* a concrete database: two series declared in the WAL (the second one late), in-order samples
   in the WAL, out-of-order samples in the WBL *)
Definition no_or : oracle := mkO 5 false false.
Definition ex_wal (dm : dmg) : seg :=
  mkSeg 32768 [mkR [mkF 0 20 111] 0 (RSeries [(1, 10)]);
               mkR [mkF 27 10 222] 0 (RSamples [(1, 100, 1)]);
               mkR [mkF 44 20 333] 0 (RSeries [(2, 20)]);
               mkR [mkF 71 10 444] 0 (RSamples [(2, 200, 2)])] dm no_or.
Definition ex_wbl : seg :=
  mkSeg 32768 [mkR [mkF 0 12 555] 0 (RMarkers [(1, 0)]);
               mkR [mkF 19 10 666] 0 (RSamples [(1, 50, 3)]);
               mkR [mkF 36 12 777] 0 (RMarkers [(2, 0)]);
               mkR [mkF 55 10 888] 0 (RSamples [(2, 150, 4)])] DNone no_or.
Definition ex_disk (dm : dmg) : disk := mkD [] min_int64 None [(0, ex_wal dm)] [(0, ex_wbl)] [] 4.

Example C04_no_invention_nonvacuous :
  exists h d' , open (ex_disk DNone) = OOk h d' KNone false false /\
    contents (ex_disk DNone) h = [(10, 100, 1); (10, 50, 3); (20, 200, 2); (20, 150, 4)].
Proof. eexists; eexists; vm_compute; split; reflexivity. Qed.

(* ------------------------------------------------------------------ the reader delivers a prefix *)
(* For every segment layout, every damage (truncation at any offset, any byte set to any
   value) and every oracle: the records the reader delivers are - apart from empty records, which
   replay ignores - exactly the first k records of the segment for some k, and every record that
   lies wholly before the damage is among them (its delivery does not depend on the damage).
   Reading never continues past a record it had to give up on. *)
Theorem C04_reader_prefix :
  forall s out st, read_seg s = (out, st) ->
  exists k, (k <= length (sg_recs s))%nat /\
    strip out = strip (firstn k (seg_contents s)) /\
    (forall j r, (j < k)%nat -> nth_error (sg_recs s) j = Some r -> In (r_rec r) out).
Proof.
  intros s out st H. unfold read_seg in H.
  destruct (rd_prefix _ _ _ _ _ _ _ H) as (k & Hk & Hs & Hin).
  exists k. split; auto. split; auto. unfold seg_contents. rewrite firstn_map. exact Hs.
Qed.

(* an undamaged segment is replayed in full, without error *)
Theorem C04_undamaged_segment :
  forall s, sg_dmg s = DNone -> read_seg s = (seg_contents s, RClean).
Proof. intros s H. unfold read_seg. rewrite H. apply rd_none. Qed.

Example C04_reader_prefix_nonvacuous :
  (* a changed data byte in the third record, detected by the checksum: two records delivered *)
  read_seg (ex_wal (DByte 60 99)) = ([RSeries [(1, 10)]; RSamples [(1, 100, 1)]], RCorrupt) /\
  (* a truncation one byte into the third record's header: an empty record, no error *)
  read_seg (ex_wal (DTrunc 45)) = ([RSeries [(1, 10)]; RSamples [(1, 100, 1)]; ROther], RClean) /\
  (* one of the three unused header bits flipped: nothing happens *)
  read_seg (ex_wal (DByte 44 33)) = (seg_contents (ex_wal DNone), RClean).
Proof. vm_compute. repeat split; reflexivity. Qed.

(* ------------------------------------------------------------------ what a successful open replays *)
(* every record of a segment that ends before the damaged byte / the cut is delivered, whatever
   the damage and the oracle are *)
Theorem C04_reader_keeps_before_damage :
  forall s m, (m <= length (sg_recs s))%nat ->
  (forall j r, (j < m)%nat -> nth_error (sg_recs s) j = Some r -> dmg_lt (sg_dmg s) (r_end r) = false) ->
  exists out' st, read_seg s = (firstn m (seg_contents s) ++ out', st).
Proof.
  intros s m Hm Hb. unfold read_seg, seg_contents. rewrite firstn_map.
  apply rd_before; auto.
Qed.

(* Full statement (FALSE because of the third case, see C04_wal_repair_skips_wbl_refuted): a
   successful open yields the head obtained by replaying what each log's readers deliver
   (checkpoint, WAL, then WBL) over the head chunks that iterate.
   Proved: the checkpoint is read completely and cleanly, and exactly one of three things
   happened - (KNone) WAL and WBL read cleanly and are both replayed, the WAL directory only gains
   the fresh segment; (KWbl) the WAL is replayed completely, the WBL up to its corrupt segment's
   last good record, the WAL directory only gains the fresh segment; (KWal) the WAL is replayed up
   to its corrupt segment's last good record and the WBL is NOT replayed at all (its directory
   only gains the fresh segment).  By C04_reader_prefix each "delivered" list is a prefix of the
   segment's records, and replay ignores the empty records (replay_wal_strip / replay_wbl_strip). *)
Theorem C04_open_replays_prefixes_partial :
  forall d h d' k cr cl, open d = OOk h d' k cr cl ->
  exists cs files crecs wrecs wst,
    load_chunks (d_chunks d) = ChOk cs files cr /\
    read_log (ckpt_recs d) = (crecs, LClean) /\ read_log (d_wal d) = (wrecs, wst) /\
    let rp := replay cs (d_minvalid d) (d_cap d) (last_mmref cs) (crecs ++ wrecs) in
    ((k = KNone /\ wst = LClean /\ exists brecs, read_log (d_wbl d) = (brecs, LClean) /\
        h = gc (rp brecs) /\ d_wal d' = new_segment (d_wal d)) \/
     (k = KWbl /\ wst = LClean /\ exists brecs idx kept, read_log (d_wbl d) = (brecs, LCorrupt idx kept) /\
        h = gc (rp brecs) /\ d_wal d' = new_segment (d_wal d)) \/
     (k = KWal /\ exists idx kept, wst = LCorrupt idx kept /\ h = gc (rp []) /\
        d_wbl d' = (if 0 <? d_cap d then new_segment (d_wbl d) else d_wbl d))).
Proof. intros d h d' k cr cl H. pose proof (open_cases d) as S. rewrite H in S. exact S. Qed.

Example C04_open_replays_nonvacuous :
  (* a cut in the middle of the WBL's last record: WAL in full, WBL up to the cut, WBL repaired *)
  exists h d', open (mkD [] min_int64 None [(0, ex_wal DNone)]
                         [(0, mkSeg 32768 (sg_recs ex_wbl) (DTrunc 60) no_or)] [] 4) = OOk h d' KWbl false false /\
    contents (ex_disk DNone) h = [(10, 100, 1); (10, 50, 3); (20, 200, 2)] /\
    d_wbl d' = [(0, clean_seg [RMarkers [(1, 0)]; RSamples [(1, 50, 3)]; RMarkers [(2, 0)]]); (1, clean_seg [])].
Proof. eexists; eexists; vm_compute; repeat split; reflexivity. Qed.

(* ------------------------------------------------------------------ a failed open *)
(* Full statement (FALSE, see C04_checkpoint_damage_refuted): open d = OErr d' -> d' = d up to
   the two empty segments created by the open.
   Proved: whenever Open fails, blocks, checkpoint and WBL are as they were (plus the fresh empty
   WBL segment) and EITHER a head chunk file has a broken header and WAL and head chunk files are
   as they were (plus the fresh empty WAL segment), OR the checkpoint was unreadable and the WAL
   directory has lost every segment above the index of the checkpoint's bad segment.  A WAL or
   WBL read error never makes Open fail (the repair always finds its segment). *)
Theorem C04_failed_open_cases_partial :
  forall d d', open d = OErr d' ->
  let wal1 := new_segment (d_wal d) in
  let wbl1 := if 0 <? d_cap d then new_segment (d_wbl d) else d_wbl d in
  d_blocks d' = d_blocks d /\ d_ckpt d' = d_ckpt d /\ d_wbl d' = wbl1 /\
  ((load_chunks (d_chunks d) = ChFail /\ d_wal d' = wal1 /\ d_chunks d' = d_chunks d) \/
   (exists crecs cidx kept, read_log (ckpt_recs d) = (crecs, LCorrupt cidx kept) /\
      d_wal d' = filter (fun p => fst p <=? cidx) wal1)).
Proof. intros d d' H. pose proof (open_cases d) as S. rewrite H in S. exact S. Qed.

(* a database with a checkpoint (its segment 0 holds the Series records) and two WAL segments *)
Definition ex_ckpt (dm : dmg) : seg :=
  mkSeg 32768 [mkR [mkF 0 20 111] 0 (RSeries [(1, 10); (2, 20)])] dm no_or.
Definition ex_seg_a : seg := mkSeg 32768 [mkR [mkF 0 10 222] 0 (RSamples [(1, 100, 1)])] DNone no_or.
Definition ex_seg_b : seg := mkSeg 32768 [mkR [mkF 0 10 444] 0 (RSamples [(2, 200, 2)])] DNone no_or.
Definition ex_disk_ckpt (dm : dmg) : disk :=
  mkD [] min_int64 (Some (1, [(0, ex_ckpt dm)])) [(2, ex_seg_a); (3, ex_seg_b)] [] [] 0.

(* one changed byte in the checkpoint: Open returns an error, and the two undamaged WAL
   segments are gone *)
Theorem C04_checkpoint_damage_refuted :
  exists d d', (exists off v, d = ex_disk_ckpt (DByte off v)) /\
    open (ex_disk_ckpt DNone) <> open d /\
    open d = OErr d' /\ d_wal d = [(2, ex_seg_a); (3, ex_seg_b)] /\ d_wal d' = [].
Proof.
  exists (ex_disk_ckpt (DByte 10 99)). eexists. split; [exists 10, 99; reflexivity|].
  vm_compute. split; [discriminate|]. split; [reflexivity|]. split; reflexivity.
Qed.

Example C04_failed_open_nonvacuous :
  (* the undamaged checkpointed database opens and shows both samples *)
  (exists h d', open (ex_disk_ckpt DNone) = OOk h d' KNone false false /\
     contents (ex_disk_ckpt DNone) h = [(10, 100, 1); (20, 200, 2)]) /\
  (* a head chunk file with a flipped magic byte: Open fails, nothing but the fresh segment changes *)
  (exists d', open (mkD [] min_int64 None [(0, ex_wal DNone)] [] [mkCF 1 1000 [] (DByte 1 7) false] 0) = OErr d' /\
     d_wal d' = [(0, ex_wal DNone); (1, clean_seg [])]).
Proof. split; [eexists; eexists; vm_compute; split; reflexivity | eexists; vm_compute; split; reflexivity]. Qed.

(* ------------------------------------------------------------------ the WBL is skipped *)
(* Full statement (FALSE): if only the WAL is damaged, the contents after Open include every WBL
   sample of every series declared before the damage.
   Counterexample: a data byte of the LAST WAL record changes (detected by the checksum, the WAL
   is repaired, both series are declared before the damage) - the out-of-order samples of both
   series, which only the untouched WBL holds, are not in the opened database. *)
Theorem C04_wal_repair_skips_wbl_refuted :
  exists d h d' x, d = ex_disk (DByte 80 99) /\
    open d = OOk h d' KWal false false /\
    d_wbl d = [(0, ex_wbl)] /\ sg_dmg ex_wbl = DNone /\
    x = (10, 50, 3) /\ written d x /\ ~ In x (contents d h).
Proof.
  exists (ex_disk (DByte 80 99)). eexists. eexists. exists (10, 50, 3).
  split; [reflexivity|]. split; [vm_compute; reflexivity|].
  split; [reflexivity|]. split; [reflexivity|]. split; [reflexivity|]. split.
  - right. exists 1. vm_compute. split; [left; reflexivity|]. in_list.
  - vm_compute. intros [H|[]]. discriminate.
Qed.

(* ------------------------------------------------------------------ a ref is given out twice *)
(* Full statement (FALSE): after a successful open, appends, Close and a second Open, every
   sample shown was written (before the damage, or by those appends).
   Counterexample: a data byte of the Series record of series 20 (ref 2) changes; the repair
   drops that record; a series never seen before (identity 30) is appended and gets ref 2; at
   the second open the WBL sample (2, 150, 4), written to series 20, is shown as a sample of
   series 30. *)
Theorem C04_reopen_invention_refuted :
  exists d added c1 c1b c2 k2 x, d = ex_disk (DByte 60 99) /\ added = [(30, 300, 7)] /\
    scenario d added = SOk c1 KWal false c1b (R2Ok c2 k2) /\
    In x c2 /\ ~ written d x /\ ~ In x added.
Proof.
  exists (ex_disk (DByte 60 99)), [(30, 300, 7)]. eexists. eexists. eexists. eexists. exists (30, 150, 4).
  split; [reflexivity|]. split; [reflexivity|]. split; [vm_compute; reflexivity|].
  split; [vm_compute; in_list|]. split.
  - intros [H|(ref & Hd & _)]; [destruct H|]. vm_compute in Hd.
    destruct Hd as [Hd|[Hd|[]]]; inversion Hd.
  - intros [H|[]]. discriminate.
Qed.

(* the same scenario without damage keeps every write and invents nothing *)
Example C04_reopen_nonvacuous :
  exists c1 c1b c2, scenario (ex_disk DNone) [(30, 300, 7)] = SOk c1 KNone false c1b (R2Ok c2 KNone) /\
    c2 = [(10, 100, 1); (10, 50, 3); (20, 200, 2); (20, 150, 4); (30, 300, 7)].
Proof. eexists; eexists; eexists; vm_compute; split; reflexivity. Qed.

(* ------------------------------------------------------------------ an older head chunk file cut short *)
(* Full statement (FALSE): with undamaged logs, damage to head chunk files never changes the
   contents.  Counterexample (outside the property's quantifier, which truncates the NEWEST head
   chunk file only): head chunk file 1 holds two chunks of ref 1, file 2 one more; file 1 is cut
   exactly between its chunks.  No error is raised, the second chunk is gone, but the newest
   chunk still sets mmMaxTime = 60, so replay skips the WAL samples at 30 and 40. *)
Definition ex_wal_long : seg :=
  mkSeg 32768 [mkR [mkF 0 20 111] 0 (RSeries [(1, 10)]);
               mkR [mkF 27 60 222] 0 (RSamples [(1, 10, 1); (1, 20, 2); (1, 30, 3); (1, 40, 4); (1, 50, 5); (1, 60, 6); (1, 70, 7)])]
        DNone no_or.
Definition ex_chunks (dm : dmg) : list cfile :=
  [mkCF 1 1000 [mkC 8 50 4294967304 1 false 20 [(10, 1); (20, 2)];
                mkC 50 92 4294967346 1 false 40 [(30, 3); (40, 4)]] dm false;
   mkCF 2 1000 [mkC 8 50 8589934600 1 false 60 [(50, 5); (60, 6)]] DNone false].
Definition ex_disk_chunks (dm : dmg) : disk := mkD [] min_int64 None [(0, ex_wal_long)] [] (ex_chunks dm) 0.

Theorem C04_old_chunk_file_refuted :
  exists d h d', d = ex_disk_chunks (DTrunc 50) /\ open d = OOk h d' KNone false true /\
    written d (10, 30, 3) /\ ~ In (10, 30, 3) (contents d h) /\
    (exists h0 d0, open (ex_disk_chunks DNone) = OOk h0 d0 KNone false false /\
                   In (10, 30, 3) (contents (ex_disk_chunks DNone) h0)).
Proof.
  exists (ex_disk_chunks (DTrunc 50)). eexists. eexists.
  split; [reflexivity|]. split; [vm_compute; reflexivity|]. split.
  - right. exists 1. vm_compute. split; [left; reflexivity|]. in_list.
  - split.
    + vm_compute. intros H. repeat (destruct H as [H|H]; [discriminate|]). destruct H.
    + eexists. eexists. split; [vm_compute; reflexivity|]. vm_compute. in_list.
Qed.

(* ------------------------------------------------------------------ an acknowledged write is dropped *)
(* Full statement (FALSE): every sample acknowledged after a successful open is stored.
   Counterexample: the last WAL record is cut; every sample that is left lies in an m-mapped
   chunk, so the series is rebuilt without a head chunk; memSeries.appendable then takes ANY
   sample for an in-order one ("freshly created series"), the out-of-order sample (10, 25) is
   acknowledged, logged to the WAL, and ignored by memSeries.append because the newest m-mapped
   chunk is newer; the next replay skips it for the same reason. *)
Definition ex_wal_tail (dm : dmg) : seg :=
  mkSeg 32768 [mkR [mkF 0 20 111] 0 (RSeries [(1, 10)]);
               mkR [mkF 27 30 222] 0 (RSamples [(1, 10, 1); (1, 20, 2); (1, 30, 3)]);
               mkR [mkF 64 10 333] 0 (RSamples [(1, 40, 4)])] dm no_or.
Definition ex_disk_tail (dm : dmg) : disk :=
  mkD [] min_int64 None [(0, ex_wal_tail dm)] []
      [mkCF 1 1000 [mkC 8 50 4294967304 1 false 30 [(10, 1); (20, 2); (30, 3)]] DNone false] 4.

Theorem C04_acknowledged_append_dropped_refuted :
  exists d c1 c1b c2 k2, d = ex_disk_tail (DTrunc 70) /\
    scenario d [(10, 25, 9)] = SOk c1 KWal false c1b (R2Ok c2 k2) /\
    ~ In (10, 25, 9) c1b /\ ~ In (10, 25, 9) c2 /\
    (* while the undamaged database stores it *)
    (exists c1' c1b' c2' k2', scenario (ex_disk_tail DNone) [(10, 25, 9)] = SOk c1' KNone false c1b' (R2Ok c2' k2') /\
       In (10, 25, 9) c1b' /\ In (10, 25, 9) c2').
Proof.
  exists (ex_disk_tail (DTrunc 70)). eexists. eexists. eexists. eexists.
  split; [reflexivity|]. split; [vm_compute; reflexivity|]. split; [|split].
  - vm_compute. intros H. repeat (destruct H as [H|H]; [discriminate|]). destruct H.
  - vm_compute. intros H. repeat (destruct H as [H|H]; [discriminate|]). destruct H.
  - eexists. eexists. eexists. eexists. split; [vm_compute; reflexivity|]. split; vm_compute; in_list.
Qed.
