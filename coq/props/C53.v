(* props/C53.v — property theorems for C53 (a read-only open returns what a read-write open
   would, and changes nothing).  Nothing but statements; proofs are in proof/ReadOnlyProofs.v.
   The model is model/ReadOnly.v: a data directory = its blocks (any list: any order, overlaps,
   any hints) + the oracle [init] (Head.Init as a function of the cut-off it is given);
   [oracle_ok init] = Head.MinTime() is an int64 and a lower bound of the loaded in-order samples;
   [tomb_ok init] = no replayed tombstone ending below the loaded in-order minimum covers an
   out-of-order head sample.

   Full statement of the property (for the record; FALSE of the code as it is, see the
   _refuted theorems):
     forall init bs mint maxt sel, oracle_ok init ->
       query (open_ro init bs maxt) mint maxt sel = query (open_rw init bs) mint maxt sel
     forall init bs sel maxt, cutoff bs <= maxt ->
       flush_content (flush_wal init bs sel) = head_data (open_ro init bs maxt) sel *)
From Coq Require Import List ZArith Lia.
From Verif Require Import lib.Int64 model.ReadOnly proof.ReadOnlyProofs.
Import ListNotations.
Open Scope Z_scope.

(* Same results, for EVERY directory (every list of blocks, every head content) and every query
   whose maxt is not below the cut-off, i.e. whenever the read-only open loads the head at all.
   _partial: the case maxt < cutoff is missing - it is false, see C53_same_results_refuted; and
   tomb_ok is assumed - without it the statement is false, see C53_same_results_tomb_refuted. *)
Theorem C53_same_results_partial :
  forall (init : Z -> hdata) (bs : list blockd) (mint maxt : Z) (sel : list sid),
    oracle_ok init -> tomb_ok init -> cutoff bs <= maxt ->
    query (open_ro init bs maxt) mint maxt sel = query (open_rw init bs) mint maxt sel.
Proof. exact same_results. Qed.

(* Below the cut-off the read-only open consults blocks only; the results agree exactly when
   whatever the read-write head contributes to the query is also in a block. *)
Theorem C53_same_results_below_cutoff_partial :
  forall (init : Z -> hdata) (bs : list blockd) (mint maxt : Z) (sel : list sid),
    maxt < cutoff bs ->
    (forall i t, In i sel -> mint <= t <= maxt ->
       In t (head_cands (open_rw init bs) mint maxt i) -> In t (block_cands bs mint maxt i)) ->
    query (open_ro init bs maxt) mint maxt sel = query (open_rw init bs) mint maxt sel.
Proof. exact same_results_below. Qed.

(* The unrestricted statement is false of the code as it is (finding
   ro-skips-head-when-blocks-cover-maxt): an acknowledged out-of-order sample that lives only in
   the WBL is not returned by a read-only querier whose maxt lies below an in-order block's
   MaxTime.  100, 200, 1700, 1800; Compact; out-of-order 500; Close; Querier(0, 900). *)
Theorem C53_same_results_refuted :
  exists init bs mint maxt sel, oracle_ok init /\
    query (open_ro init bs maxt) mint maxt sel <> query (open_rw init bs) mint maxt sel.
Proof. exact same_results_refuted. Qed.

(* finding ro-drops-head-tombstone-below-head-mintime: even where the head is loaded, the
   read-only open's Head.Init drops (gc: TruncateBefore(Head.MinTime())) a replayed tombstone that
   ends below the loaded in-order minimum, while tsdb.Open's head (MinTime = cut-off after
   Head.Truncate) keeps it; a deleted out-of-order sample still sitting in a head chunk file is
   returned by the read-only querier only. *)
Theorem C53_same_results_tomb_refuted :
  exists init bs mint maxt sel, oracle_ok init /\ cutoff bs <= maxt /\
    query (open_ro init bs maxt) mint maxt sel <> query (open_rw init bs) mint maxt sel.
Proof. exact same_results_tomb_refuted. Qed.

(* The rule before "fix: tsdb: read-only DB hides WAL samples below an out-of-order block's max
   time" (cut-off = MaxTime of the last block by MinTime) violated the statement even where the
   head is loaded.  100, 200; out-of-order 150; CompactOOOHead; Close (block range 1000). *)
Theorem C53_same_results_old_refuted :
  exists init bs mint maxt sel, oracle_ok init /\ cutoff bs <= maxt /\
    query (open_ro_old init bs maxt) mint maxt sel <> query (open_rw init bs) mint maxt sel.
Proof. exact same_results_old_refuted. Qed.

(* The cut-off of the read-only open (blocks sorted by MinTime) is the cut-off of the read-write
   open (blocks in directory order): the highest MaxTime among the blocks without a hint. *)
Theorem C53_cutoff_order_independent :
  forall bs, cutoff (sort_blocks bs) = cutoff bs
    /\ (forall b, In b bs -> b_hint b = false -> b_maxt b <= cutoff bs)
    /\ (cutoff bs = minInt64 \/ exists b, In b bs /\ b_hint b = false /\ b_maxt b = cutoff bs).
Proof. intros bs. split; [apply cutoff_sort|apply cutoff_spec]. Qed.

(* FlushWAL writes exactly the head data - _partial: only when the last block of the sorted list
   gives the same cut-off as the opens use, the head holds no out-of-order data and no in-order
   sample below the cut-off; the first two restrictions are findings (next two theorems). *)
Theorem C53_flush_exact_partial :
  forall (init : Z -> hdata) (bs : list blockd) (sel : list sid) (maxt : Z),
    cutoff_old bs = cutoff bs -> cutoff bs <= maxt ->
    (forall i, get (h_ooo (init (cutoff bs))) i = []) ->
    (forall i t, In t (get (h_io (init (cutoff bs))) i) ->
         cutoff bs <= t /\ h_min (init (cutoff bs)) <= t <= h_max (init (cutoff bs))) ->
    flush_content (flush_wal init bs sel) = head_data (open_ro init bs maxt) sel.
Proof. exact flush_exact_partial. Qed.

(* finding flushwal-cutoff-from-last-block: FlushWAL still takes the cut-off from the last block,
   whatever its hints.  100, 200; out-of-order 150; CompactOOOHead; Close; FlushWAL writes nothing. *)
Theorem C53_flush_refuted_old_cutoff :
  exists init bs sel, oracle_ok init /\ (forall i, get (h_ooo (init (cutoff bs))) i = []) /\
    flush_content (flush_wal init bs sel) <> head_data (open_ro init bs maxInt64) sel.
Proof. exact flush_refuted_old_cutoff. Qed.

(* finding flushwal-omits-out-of-order-head-data: the block is written from the in-order
   RangeHead only.  100, 200, 300; out-of-order 150; Close; the flushed block lacks 150. *)
Theorem C53_flush_refuted_ooo :
  exists init bs sel, cutoff_old bs = cutoff bs /\
    flush_content (flush_wal init bs sel) <> head_data (open_ro init bs maxInt64) sel.
Proof. exact flush_refuted_ooo. Qed.

(* The file system trace of a read-only session (MkdirTemp sandbox; hard links of the head chunk
   files; whatever the replay creates or removes below the sandbox; RemoveAll sandbox), for every
   file system in which the sandbox name is fresh, wherever the sandbox lies (inside the data
   directory or not): at EVERY prefix of the trace every pre-existing path still resolves to the
   same node and every pre-existing inode has its content; after the whole trace the tree is
   the original tree. *)
Theorem C53_fs_unchanged :
  forall (f0 : fs) (dir sb : path) (has_cd : bool) (files : list Z)
         (created : list (Z * Z * Z)) (removed : list Z),
    fresh sb f0 ->
    let tr := ro_trace dir sb has_cd files created removed in
    (forall k f, run f0 (firstn k tr) = Some f ->
       (forall p n, lookup (f_tree f0) p = Some n -> lookup (f_tree f) p = Some n)
       /\ (forall ino h, content (f_data f0) ino = Some h -> content (f_data f) ino = Some h))
    /\ (forall f, run f0 tr = Some f ->
          (forall p, lookup (f_tree f) p = lookup (f_tree f0) p)
          /\ (forall ino h, content (f_data f0) ino = Some h -> content (f_data f) ino = Some h)).
Proof. exact fs_unchanged. Qed.

(* ---- non-vacuity ---- *)
(* a directory with an in-order block, an out-of-order block sorting last and overlapping it,
   in-order and out-of-order head data: hypotheses of C53_same_results_partial hold and the
   answer is not trivial *)
Definition ex_blocks : list blockd :=
  [mkB 0 1000 true [(0, [150; 700])]; mkB (-1000) 0 false [(0, [-900; -5]); (1, [-300])]; mkB 500 2000 true [(1, [1500])]].
Definition ex_init : Z -> hdata :=
  fun mv => mkH 100 2600 [(0, [100; 200; 2600]); (1, [2100])] [(1, [40])] 40 40 [(0, (160, 250)); (1, (-20, 30))].

Example C53_ex_same_results :
  oracle_ok ex_init /\ tomb_ok ex_init /\ cutoff ex_blocks = 0 /\ cutoff_old ex_blocks = 2000
  /\ query (open_ro ex_init ex_blocks 300) (-950) 300 [0; 1]
     = [(0, [-900; -5; 100; 150]); (1, [-300; 40])]
  /\ query (open_rw ex_init ex_blocks) (-950) 300 [0; 1]
     = [(0, [-900; -5; 100; 150]); (1, [-300; 40])].
Proof.
  split; [|split; [|vm_compute; repeat split; reflexivity]].
  - apply oracle_okb_sound. reflexivity.
  - intros mv i a b t Hin Hb Ht Hc. unfold ex_init in *; cbn [h_tomb h_min h_ooo] in *.
    simpl in Hin. destruct Hin as [E|[E|[]]]; inversion E; subst; [lia|].
    simpl in Ht. destruct Ht as [<-|[]]. lia.
Qed.

(* hypotheses of C53_flush_exact_partial hold in a non-trivial state *)
Definition ex2_blocks : list blockd := [mkB 0 1000 false [(0, [100; 900])]].
Definition ex2_init : Z -> hdata := fun mv => mkH 1200 1800 [(0, [1200; 1800])] [] maxInt64 minInt64 [].
Example C53_ex_flush :
  cutoff_old ex2_blocks = cutoff ex2_blocks
  /\ flush_wal ex2_init ex2_blocks [0] = Some (1200, 1801, [(0, [1200; 1800])])
  /\ head_data (open_ro ex2_init ex2_blocks 5000) [0] = [(0, [1200; 1800])].
Proof. vm_compute. repeat split; reflexivity. Qed.

(* a session on a tree with two head chunk files, sandbox inside the data directory (2 = the
   data directory, 1 = chunks_head, 7 = the sandbox): the trace runs, links share the inode,
   one new chunk file is cut and one link removed in the sandbox, and the hypotheses of
   C53_fs_unchanged hold *)
Definition ex_fs : fs :=
  mkFS [([2], NDir); ([2; 1], NDir); ([2; 1; 3], NFile 10); ([2; 1; 4], NFile 11); ([2; 5], NDir); ([2; 5; 6], NFile 12)]
       [(10, 111); (11, 222); (12, 333)].
Example C53_ex_fs :
  (forall e, In e (f_tree ex_fs) -> under [2; 7] (fst e) = false)
  /\ (exists f, run ex_fs (ro_open_ops [2] [2; 7] true [3; 4] [(8, 13, 444)] [4]) = Some f
        /\ lookup (f_tree f) [2; 7; 1; 3] = Some (NFile 10)
        /\ lookup (f_tree f) [2; 7; 1; 4] = None
        /\ lookup (f_tree f) [2; 7; 1; 8] = Some (NFile 13)
        /\ lookup (f_tree f) [2; 1; 4] = Some (NFile 11))
  /\ (exists f, run ex_fs (ro_trace [2] [2; 7] true [3; 4] [(8, 13, 444)] [4]) = Some f
        /\ f_tree f = f_tree ex_fs).
Proof.
  split; [|split].
  - intros e He. simpl in He. repeat (destruct He as [<-|He]; [reflexivity|]). inversion He.
  - eexists. vm_compute. repeat split; reflexivity.
  - eexists. vm_compute. repeat split; reflexivity.
Qed.
