(* props/C30.v — property theorems for C30 (counter and delta functions follow the documented
   algorithms). Statements; the lemmas they follow from are in proof/RateProofs.v. The model is
   over exact rationals: "up to floating-point rounding" in the property text is the 1e-9
   relative tolerance of the correspondence check, not part of these theorems.
   [fge] is the float64 threshold comparison (an oracle); wherever a theorem needs anything
   from it, it asks only [fge_ok fge]: it agrees with the exact comparison away from ties. *)
From Coq Require Import List ZArith QArith Bool Sorted.
From Verif Require Import model.Rate proof.RateProofs.
Import ListNotations.
Open Scope Z_scope.

(* Counter-reset correction: "last - first + sum of the values before each reset" is exactly
   the sum of the per-step counter increments (cur - prev, or cur after a value drop or a
   start-timestamp reset). Any series, any start timestamps. *)
Theorem C30_reset_correction : forall first rest,
  (sV (last rest first) - sV first + reset_corr first rest == Qsum (increments first rest))%Q.
Proof. exact reset_correction_telescopes. Qed.

(* rate / increase / delta of the instant query f(m[range] offset off) @ ts equal the
   separately written documented algorithm [doc_change] / [doc_rate] (extrapolation to the
   window boundaries limited by 1.1 average intervals, by the counter's zero point, and
   replaced by the first sample's start timestamp when that lies inside the range), for every
   series with increasing timestamps, every oracle, with or without start timestamps. *)
Theorem C30_matches_doc : forall fge use_st ss ts range_ms off,
  StronglySorted lt_T ss -> 0 < range_ms ->
  let re := ts - off in
  let rs := re - range_ms in
  oeq (eval fge FIncrease use_st ss ts range_ms off)
      (doc_change fge true (eff use_st (window ss rs re)) rs re) /\
  oeq (eval fge FRate use_st ss ts range_ms off)
      (doc_rate fge (eff use_st (window ss rs re)) rs re range_ms) /\
  oeq (eval fge FDelta use_st ss ts range_ms off)
      (doc_change fge false (eff false (window ss rs re)) rs re).
Proof.
  intros fge use_st ss ts range_ms off Hs Hr re rs.
  assert (Hv := fun b => proj1 (eval_window_valid b ss rs re Hs)).
  unfold eval. simpl gets_st. rewrite andb_true_r, andb_false_r.
  repeat split; [apply matches_doc_change | apply matches_doc_rate | apply matches_doc_change]; auto.
Qed.

(* For non-negative samples rate and increase are never negative (whatever the start
   timestamps, the spacing, the oracle). *)
Theorem C30_nonneg : forall fge use_st ss ts range_ms off,
  StronglySorted lt_T ss -> 0 < range_ms -> nonneg ss ->
  (forall v, eval fge FRate use_st ss ts range_ms off = Some v -> (0 <= v)%Q) /\
  (forall v, eval fge FIncrease use_st ss ts range_ms off = Some v -> (0 <= v)%Q).
Proof.
  intros fge use_st ss ts range_ms off Hs Hr Hnn. unfold eval. simpl gets_st. rewrite andb_true_r.
  split; intros v Hv;
    exact (extrapolated_rate_nonneg fge _ _ _ _ _ v (eval_window_valid _ _ _ _ Hs)
             (eff_nonneg _ _ (window_nonneg _ _ _ Hnn)) Hr Hv).
Qed.

(* rate and increase are present together and increase = rate * range seconds (exactly, in
   rational arithmetic). No assumption on the series at all. *)
Theorem C30_increase_rate : forall fge use_st ss ts range_ms off,
  0 < range_ms ->
  match eval fge FRate use_st ss ts range_ms off, eval fge FIncrease use_st ss ts range_ms off with
  | Some r, Some i => (i == r * ms range_ms)%Q
  | None, None => True
  | _, _ => False
  end.
Proof.
  intros fge use_st ss ts range_ms off Hr. unfold eval. simpl gets_st.
  now apply increase_is_rate_times_range.
Qed.

(* Extrapolation limits (path without a usable start timestamp; at least two samples): the
   result is increase * (left + covered + right) / covered where the extensions are
   non-negative, stay inside the window, are each at most 1.1 average sample intervals, and
   for a counter the left extension does not pass the counter's zero point (the extrapolated
   value at the extended start is >= 0). *)
Theorem C30_extrapolation_bounds : forall fge, fge_ok fge ->
  forall is_counter first rest rs re,
  valid_window (first :: rest) rs re -> rest <> [] -> st_path is_counter first rs = false ->
  let covered := ms (sT (last rest first) - sT first) in
  let left := doc_left fge is_counter first rest rs in
  let right := doc_right fge first rest re in
  let S := sT (last rest first) - sT first in
  let n := Z.of_nat (length rest) in
  doc_change fge is_counter (first :: rest) rs re =
    Some (doc_inc is_counter first rest * ((left + covered + right) / covered))%Q /\
  (0 <= left /\ left <= ms (sT first - rs) /\ left <= thr S n /\
   0 <= right /\ right <= ms (re - sT (last rest first)) /\ right <= thr S n /\
   left + covered + right <= ms (re - rs) /\
   (is_counter = true -> 0 < doc_inc true first rest -> 0 <= sV first ->
    0 <= sV first - doc_inc true first rest / covered * left))%Q.
Proof.
  intros fge Hf c first rest rs re Hv Hne Hst. cbv zeta. split.
  - apply doc_change_decomposed; assumption.
  - exact (extrapolation_bounds fge Hf c first rest rs re Hv Hne).
Qed.

(* Start-timestamp path: a zero sample is assumed at the first sample's start timestamp,
   nothing is added on the left, and the covered interval plus the right extension stays
   inside the window. Works for a single sample too. *)
Theorem C30_start_timestamp_path : forall fge, fge_ok fge ->
  forall first rest rs re,
  valid_window (first :: rest) rs re -> st_path true first rs = true ->
  let covered := ms (sT (last rest first) - sST first) in
  let right := doc_right fge first rest re in
  (0 < covered /\ 0 <= right /\ covered + right <= ms (re - rs) /\
   doc_change fge true (first :: rest) rs re =
     Some ((sV first + Qsum (increments first rest)) * ((covered + right) / covered)))%Q.
Proof. exact st_path_bounds. Qed.

(* irate / idelta use exactly the last two samples; irate of non-negative samples is >= 0;
   fewer than two samples give no result. *)
Theorem C30_instant_value : forall is_rate pre p l,
  instant_value is_rate (pre ++ [p; l]) =
  if sT l - sT p =? 0 then None
  else let v := if negb is_rate || negb (is_reset p l) then (sV l - sV p)%Q else sV l in
       Some (if is_rate then (v / ms (sT l - sT p))%Q else v).
Proof. exact instant_value_last_two. Qed.

Theorem C30_instant_value_short : forall is_rate w,
  (length w < 2)%nat -> instant_value is_rate w = None.
Proof. exact instant_value_short. Qed.

Theorem C30_irate_nonneg : forall pre p l v,
  StronglySorted lt_T (pre ++ [p; l]) -> nonneg (pre ++ [p; l]) ->
  instant_value true (pre ++ [p; l]) = Some v -> (0 <= v)%Q.
Proof. exact irate_nonneg. Qed.

(* resets / changes count exactly the adjacent pairs with a reset / a value change; both lie
   in [0, samples-1]; without start timestamps every reset is a change; zero resets iff no
   adjacent pair is a reset; zero changes iff all values are equal. *)
Theorem C30_resets_changes : forall first rest,
  count_resets first rest = Z.of_nat (length (filter reset_pair (adjacent first rest))) /\
  count_changes first rest = Z.of_nat (length (filter change_pair (adjacent first rest))) /\
  0 <= count_resets first rest <= Z.of_nat (length rest) /\
  0 <= count_changes first rest <= Z.of_nat (length rest) /\
  (Forall (fun s => sST s = 0) rest -> count_resets first rest <= count_changes first rest) /\
  (count_resets first rest = 0 <->
     Forall (fun pr => is_reset (fst pr) (snd pr) = false) (adjacent first rest)) /\
  (count_changes first rest = 0 <-> Forall (fun s => (sV s == sV first)%Q) rest).
Proof.
  intros first rest.
  assert (Hr := count_bounds reset_pair count_resets (fun _ => eq_refl) count_resets_cons first rest).
  assert (Hc := count_bounds change_pair count_changes (fun _ => eq_refl) count_changes_cons first rest).
  split; [apply (count_filter reset_pair count_resets); [reflexivity | exact count_resets_cons]|].
  split; [apply (count_filter change_pair count_changes); [reflexivity | exact count_changes_cons]|].
  split; [exact Hr|]. split; [exact Hc|]. split; [apply resets_le_changes_no_st|].
  split; [apply (count_zero_iff reset_pair count_resets); [reflexivity | exact count_resets_cons]|].
  apply no_changes_iff.
Qed.

(* the exact-arithmetic comparison is an admissible oracle (the hypothesis fge_ok is
   satisfiable) *)
Theorem C30_oracle_satisfiable : fge_ok fge_exact.
Proof. exact fge_exact_ok. Qed.

(* ---- non-vacuity: concrete windows meeting the hypotheses, with non-trivial results ---- *)
Definition ex_series : list sample :=
  [mkS 100000 1 0; mkS 110000 2 0; mkS 120000 4 0; mkS 130000 7 0].

Example C30_nonvacuous_window :
  StronglySorted lt_T ex_series /\ nonneg ex_series /\
  valid_window (window ex_series 89000 141000) 89000 141000 /\
  st_path true (mkS 100000 1 0) 89000 = false.
Proof.
  assert (Hs : StronglySorted lt_T ex_series).
  { unfold ex_series, lt_T. repeat constructor; simpl; reflexivity. }
  split; [exact Hs|]. split; [unfold ex_series, nonneg; repeat constructor; discriminate|].
  split; [apply window_valid; exact Hs | reflexivity].
Qed.

(* exact tie at both ends (11 s = 1.1 * 10 s): with the exact oracle the result is the
   non-extrapolated-to-the-boundary one, increase = 6 * (5 + 30 + 5) / 30 = 8 *)
Example C30_nonvacuous_value :
  oeq (eval fge_exact FIncrease false ex_series 141000 52000 0) (Some 8%Q) /\
  oeq (eval fge_exact FRate false ex_series 141000 52000 0) (Some (8 # 52)%Q).
Proof. split; vm_compute; reflexivity. Qed.

(* a start timestamp inside the range of a single sample: rate is defined *)
Example C30_nonvacuous_st :
  st_path true (mkS 100000 7 95000) 93000 = true /\
  oeq (eval fge_exact FIncrease true [mkS 100000 7 95000] 103000 10000 0) (Some 7%Q).
Proof. split; vm_compute; reflexivity. Qed.

(* a reset at the first and at the last step *)
Example C30_nonvacuous_resets :
  resets [mkS 1 9 0; mkS 2 2 0; mkS 3 5 0; mkS 4 8 0; mkS 5 1 0] = Some (inject_Z 2) /\
  changes [mkS 1 9 0; mkS 2 2 0; mkS 3 5 0; mkS 4 8 0; mkS 5 1 0] = Some (inject_Z 4).
Proof. split; reflexivity. Qed.
