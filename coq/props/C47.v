(* props/C47.v — property theorems for C47 (service discovery converges to the latest target
   groups; no update is lost while the consumer is slow).  Statements only; proofs are in
   proof/DiscoveryProofs.v.  The transition system (`step`, `run`, `init`) is the model of
   discovery.Manager in model/Discovery.v; a trace is any interleaving of the atomic steps of
   all updaters, the sender, the consumer and ApplyConfig. *)
From Coq Require Import List ZArith Bool.
From Verif Require Import model.Discovery proof.DiscoveryProofs.
Import ListNotations.

(* Safety (no lost update), for all interleavings: in every reachable state either an update is
   still being propagated — triggerSend is armed or some updater is between receiving a batch
   and arming the trigger — or what the sender is holding (its partial or complete allGroups
   snapshot) resp., when it is idle, what the consumer last received, is exactly allGroups of
   the current state.  In particular there is no reachable state in which the consumer's view
   is stale and nothing is scheduled to repair it, however slow the consumer is. *)
Theorem C47_no_lost_update : forall tr s,
  run init tr = Some s ->
  trigger s = true \/
  (exists p, In p (providers s) /\ uidle p = false) \/
  match sender s with
  | SIdle => delivered s = allGroups (providers s) (targets s)
  | SSnap k acc => acc = fold_left (ag_prov (targets s)) (firstn k (providers s)) []
  | SHave acc => acc = allGroups (providers s) (targets s)
  | SRearm => True   (* a failed send is being repaired: the put-back of the trigger is pending *)
  end.
Proof. exact no_lost_update. Qed.

(* Convergence under a fair continuation: from any reachable state, let the system run on its
   own (no new batch, no reload, no spurious trigger; the consumer keeps receiving, i.e. every
   send attempt finds it waiting).  Every such continuation has at most `rank s` steps, and
   from whatever state it has reached, either it has converged — sender idle, trigger clear,
   all updaters idle and the last delivered map = allGroups of the current state — or a further
   fair step is enabled.  Hence every maximal fair continuation ends converged.
   This relies on the sender's put-back of the trigger after a failed send (ERearm) being
   NON-BLOCKING: it is enabled in state SRearm whatever the trigger flag is.  If it blocked when
   an updater or a reload has re-armed the trigger between ETake and the put-back, SRearm with
   trigger = true would have no enabled sender step for ever (the sender is the only reader of
   triggerSend) and the second disjunct would fail there; C47_nonvacuous goes through exactly
   this window ([...; ESend (fails); ETrig 0; ERearm; ...]). *)
Theorem C47_convergence : forall tr0 s tr s',
  run init tr0 = Some s -> fair_run s tr -> run s tr = Some s' ->
  (length tr + rank s' <= rank s)%nat /\
  (converged s' \/ exists l s'', internal l = true /\ fair s' l /\ step s' l = Some s'').
Proof. exact convergence. Qed.

(* ... and a converged state is stable: the only internal step still enabled is the consumer
   starting to wait; nothing more is delivered until the environment acts again. *)
Theorem C47_converged_stable : forall s l s',
  converged s -> internal l = true -> step s l = Some s' -> l = EWait.
Proof. exact converged_stuck. Qed.

(* The fold specification of updateGroup: after any sequence of batches the entry of a source
   is the latest group sent for that source if that group is non-empty, and absent otherwise
   (emptied sources are removed, nil entries are skipped). *)
Theorem C47_fold_spec : forall h k,
  iget k (fold_batches h) =
  match last_of k (flat h) with
  | Some g => if (0 <? gnt g)%Z then Some g else None
  | None => None
  end.
Proof. exact fold_lookup. Qed.

(* The reference fold used by the harness-side specification (`latest`) denotes the same set. *)
Theorem C47_fold_is_latest : forall h g,
  In g (map snd (fold_batches h)) <-> In g (latest h).
Proof. exact fold_is_latest. Qed.

(* m.targets is the fold of the history, for every interleaving including reloads: what is
   stored for (job j, provider p) is the fold of the batches p's updater has applied since p was
   started (plus the batch being applied right now if j was already visited) when j is one of
   p's subs, and nothing otherwise (removed subs and removed providers leave nothing behind;
   a sub added by a reload starts with a copy of the provider's current state). *)
Theorem C47_targets_are_fold : forall tr s p j,
  run init tr = Some s -> In p (providers s) ->
  inner (j, pname p) (targets s) =
  if zmem j (psubs p) then
    match pu p with
    | UBusy b rem => if zmem j rem then fold_batches (papplied p)
                     else apply_batch (fold_batches (papplied p)) b
    | _ => fold_batches (papplied p)
    end
  else [].
Proof. intros tr s p j H Hin. exact (targets_are_fold tr s p H Hin j). Qed.

(* What allGroups returns: an entry exactly for the jobs some provider serves (empty list if
   there are no targets), listing provider after provider the groups stored for that job. *)
Theorem C47_allgroups_spec : forall T P j,
  Forall (fun p => NoDup (psubs p)) P ->
  slook j (allGroups P T) =
  if existsb (serves j) P
  then Some (flat_map (fun p => if serves j p then map snd (inner (j, pname p) T) else []) P)
  else None.
Proof. exact allGroups_lookup. Qed.

(* End to end: once converged (which every maximal fair continuation reaches, C47_convergence),
   the map last received by the consumer has an entry exactly for the jobs of the current
   configuration, and the entry of a job lists, for every provider serving it, the latest
   non-empty group of every source (C47_fold_spec) that provider has sent since it was
   started; emptied sources, removed subs and removed providers are absent. *)
Theorem C47_converged_delivers_fold : forall tr s j,
  run init tr = Some s -> converged s ->
  slook j (delivered s) =
  if existsb (serves j) (providers s)
  then Some (flat_map (fun p => if serves j p then map snd (fold_batches (papplied p)) else [])
                      (providers s))
  else None.
Proof. exact converged_delivers_fold. Qed.

(* Non-vacuity: a reachable state with an update in flight, a failed send behind it (slow
   consumer: nothing delivered yet, trigger re-armed), and a fair continuation of it that ends
   converged with the folded groups delivered (job 3 has no targets and is delivered empty). *)
Example C47_nonvacuous :
  run init ex_prefix = Some ex_state /\
  trigger ex_state = true /\ sender ex_state = SIdle /\ delivered ex_state = [] /\
  fair_run ex_state ex_cont /\ run ex_state ex_cont = Some ex_final /\
  converged ex_final /\
  delivered ex_final = [(1%Z, [ex_g3]); (2%Z, [ex_g3; ex_g3]); (3%Z, [])].
Proof. exact ex_nonvacuous. Qed.
