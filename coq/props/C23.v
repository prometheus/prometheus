(* props/C23.v — property C23: restart from a memory snapshot equals restart from the WAL.

   FULL STATEMENT (what the property asks), over model/Snapshot.v:
     for every history [ops] (appends in and out of order, chunk cuts, deletions, exemplars,
     compactions, restarts with the snapshot option on or off) ending in a clean shutdown with
     the snapshot enabled, with d = the durable state after that shutdown:
        query d (open true d) = query d (open false d)                                  (equiv)
        every exemplar of (open true d) was stored before the shutdown                  (exemplars)
        unusable d -> open true d = open false d                                        (fallback)
   Status:
     (fallback)   C23_bad_snapshot_falls_back — proved for every durable state.
     (exemplars)  C23_exemplars_subset, C23_exemplars_subset_history — proved (exemplar storage is
                  an oracle that never invents exemplars).
     (equiv)      NOT proved as stated.  Proved: C23_equiv_series_partial — for ONE series at a
                  clean shutdown whose chunk files followed by the snapshotted head chunk are
                  exactly the samples memSeries.append accepted from its WAL sample log (the
                  invariant of a running head), the series restored from the snapshot and the
                  series rebuilt by the WAL replay carry the same chunk files and show the same
                  in-order samples from minValidTime on, for every minValidTime, every chunk
                  cutting, every log with out-of-order / duplicate entries.  Also
                  C23_replay_is_greedy_partial (the WAL replay of a
                  series' sample log into its m-mapped chunks keeps exactly the greedy increasing
                  subsequence above mmMaxTime and minValidTime — the characterisation from which
                  equality with the snapshotted head chunk follows) and the two exchange laws
                  C23_greedy_laws it is used with.  Missing: lifting to whole heads (per-series
                  projection of the record fold, tombstone coverage) and the induction over
                  histories.  The tie checks (equiv) on every generated history instead.
     For snapshots OLDER than the end of the WAL (crash after a clean start, or the option
     switched off and on again) the statement was FALSE of the code before the fix
     /repo 5693077124 (model variant open_old): C23_outdated_snapshot_old_refuted.  The current
     model (open) follows the fixed code; the outdated-snapshot case is checked by the tie
     (histories that toggle the option) and not yet proved. *)
From Coq Require Import List ZArith Bool Lia.
From Verif Require Import model.Snapshot proof.SnapshotProofs.
Import ListNotations.
Open Scope Z_scope.

(** an unusable snapshot (none on disk, WAL behind the snapshot, decoding error, unreadable head
    chunk files) makes Init behave exactly as the WAL-only restart: same series, chunks,
    tombstones and exemplars, hence the same answer to every query — nothing is lost, nothing is
    taken from the snapshot *)
Theorem C23_bad_snapshot_falls_back : forall add d,
  unusable d -> open add true d = open add false d /\ query d (open add true d) = query d (open add false d).
Proof. intros add d H. rewrite (fallback add d H). split; reflexivity. Qed.

(** with the option off the snapshot on disk plays no role *)
Theorem C23_option_off_ignores_snapshot : forall add d,
  open add false d =
  open add true (mkD (d_mv d) (d_lastseg d) (d_cp d) (d_wal d) (d_mm d) (d_mm_ok d) None (d_ooo d) (d_blk d) (d_univ d)).
Proof. exact open_off. Qed.

(** exemplars after Init come from the snapshot in use or from exemplar records of the WAL *)
Theorem C23_exemplars_subset : forall add,
  (forall st e x, In x (add st e) -> In x st \/ x = e) ->
  forall enabled d x, In x (h_ex (open add enabled d)) ->
    (exists s, usable enabled d = Some s /\ In x (sn_ex s)) \/ wal_exemplar d x.
Proof. exact open_exemplars. Qed.

(** along a history: an exemplar present after a restart was in the storage at this shutdown
    (snapshot taken now), or in the storage when the older snapshot on disk was taken, or was
    logged by an appender before the shutdown *)
Theorem C23_exemplars_subset_history : forall add,
  (forall st e x, In x (add st e) -> In x st \/ x = e) ->
  forall s ec eo x, In x (h_ex (s_head (step add s (Restart ec eo)))) ->
    (ec = true /\ In x (h_ex (s_head s))) \/
    (exists sn, s_snap s = Some sn /\ In x (sn_ex sn)) \/
    (exists e, In e (s_wal s) /\ w_rec e = WEx (fst x) (snd x)).
Proof. exact restart_exemplars. Qed.

(** WAL replay of one series (resetSeriesWithMMappedChunks, then processWALSamples over its
    sample log [w]): the m-mapped chunks are kept and the rebuilt head chunk is the greedy
    strictly increasing subsequence, above mmMaxTime, of the samples >= minValidTime *)
Theorem C23_replay_is_greedy_partial : forall mv cs w,
  let m := fold_left (replay_sample mv) w (wal_series mv cs) in
  ms_mm m = load_chunks mv cs /\
  ms_hc m = incr (mm_max (load_chunks mv cs)) (filter (fun x => mv <=? ts x) w).
Proof.
  intros mv cs w. unfold wal_series. cbn zeta.
  rewrite replay_fold; [split; reflexivity | apply Z.le_refl].
Qed.

(** MAIN (partial: one series; see the header for what is missing) *)
Theorem C23_equiv_series_partial : forall mv old keep hc w,
  concat (old ++ keep) ++ hc = incr minInt64 w ->
  (forall c, In c (old ++ keep) -> c <> []) ->
  (forall c, In c old -> cmax c < mv) ->
  (forall c, In c keep -> mv <= cmax c) ->
  let a := snap_series mv hc (old ++ keep) in
  let b := fold_left (replay_sample mv) w (wal_series mv (old ++ keep)) in
  ms_hc a = hc /\ ms_mm a = keep /\ ms_mm b = keep /\
  filter (fun x => mv <=? ts x) (io_samples a) = filter (fun x => mv <=? ts x) (io_samples b).
Proof. exact series_equiv. Qed.

(* non-vacuity: a log with out-of-order and duplicate entries, one chunk below minValidTime, one
   chunk straddling it, a head chunk *)
Example C23_ex_series :
  let w := [(100, 1); (200, 2); (150, 3); (300, 4); (300, 5); (400, 6); (250, 7); (500, 8); (600, 9)] in
  let old := [[(100, 1); (200, 2)]] in let keep := [[(300, 4); (400, 6)]] in let hc := [(500, 8); (600, 9)] in
  concat (old ++ keep) ++ hc = incr minInt64 w /\
  (forall c, In c old -> cmax c < 350) /\ (forall c, In c keep -> 350 <= cmax c) /\
  filter (fun x => 350 <=? ts x) (io_samples (fold_left (replay_sample 350) w (wal_series 350 (old ++ keep)))) = [(400, 6); (500, 8); (600, 9)].
Proof.
  cbn zeta. split; [vm_compute; reflexivity|]. split; [|split; [|vm_compute; reflexivity]].
  - intros c [<- | []]. vm_compute. reflexivity.
  - intros c [<- | []]. vm_compute. discriminate.
Qed.

(** the two exchange laws of the greedy subsequence: starting above a higher bound = filtering the
    result; filtering the log by "t >= c" first = filtering the result *)
Theorem C23_greedy_laws : forall w lo,
  (forall lo', lo <= lo' -> incr lo' w = filter (fun x => lo' <? ts x) (incr lo w)) /\
  (forall c, filter (fun x => c <=? ts x) (incr lo w) = incr (Z.max lo (c - 1)) (filter (fun x => c <=? ts x) w)).
Proof. intros w lo. split; [intros lo'; apply incr_raise | intros c; apply incr_filter_ge]. Qed.

(* ---------------- non-vacuity ---------------- *)
Definition add_all (st : list (Z * sample)) (e : Z * sample) := st ++ [e].
Lemma add_all_incl : forall st e x, In x (add_all st e) -> In x st \/ x = e.
Proof. intros st e x H. apply in_app_or in H. destruct H as [H | [<- | []]]; auto. Qed.

(* two series, chunk cuts, an out-of-order append that the WAL replay must reject, a deletion, an
   exemplar, a restart without snapshot in the middle, positive timestamps *)
Definition ex_ops : list op :=
  [ Append 0 (100, 1); Append 1 (110, 2); Append 0 (200, 3); Cut 0 2; Append 0 (300, 4);
    Append 0 (250, 5); Delete 0 (150, 260); Exemplar 0 (300, 77); Restart false false;
    Append 0 (400, 6); Append 1 (500, 7); Cut 0 1 ].
Definition ex_d : dstate :=
  let s := run add_all ex_ops in durable s (close true s) [0; 1].

Example C23_ex_clean_shutdown :
  query ex_d (open add_all true ex_d) = [(0, [(100, 1); (300, 4); (400, 6)]); (1, [(110, 2); (500, 7)])] /\
  query ex_d (open add_all false ex_d) = query ex_d (open add_all true ex_d) /\
  usable true ex_d <> None /\
  h_ex (open add_all true ex_d) = [(0, (300, 77))].
Proof. vm_compute. split; [reflexivity | split; [reflexivity | split; [discriminate | reflexivity]]]. Qed.

Example C23_ex_unusable :
  let d := mkD (d_mv ex_d) 0 (d_cp ex_d) (d_wal ex_d) (d_mm ex_d) true (d_snap ex_d) (d_ooo ex_d) (d_blk ex_d) (d_univ ex_d) in
  unusable d /\ query d (open add_all true d) = [(0, [(100, 1); (300, 4); (400, 6)]); (1, [(110, 2); (500, 7)])].
Proof.
  split; [|vm_compute; reflexivity].
  right. eexists. split; [reflexivity|]. left. vm_compute. reflexivity.
Qed.

(* ---------------- outdated snapshot: false of the code BEFORE the fix ---------------- *)
(* series 0: -300 appended, clean shutdown with snapshot; restart with the option off; -200, 0, 1
   appended, shutdown without snapshot (the old one stays on disk).  Init with the option on
   loads the old snapshot and replays the WAL behind it.  Before /repo 5693077124 the restored
   memSeries had mmMaxTime = 0 (never set), so processWALSamples skipped -200 and 0
   ([open_old]); with the snapshot directory removed all four samples came back.  Since the fix
   (mmMaxTime = MinInt64 in loadChunkSnapshot, [open]) both restarts agree.  The harness corpus
   case "outdated-snapshot-nonpositive" replays this history on the real tsdb.DB as a regression
   case. *)
Definition stale_ops : list op :=
  [ Append 0 (-300, 1); Restart true false; Append 0 (-200, 2); Append 0 (0, 3); Append 0 (1, 4) ].
Definition stale_d : dstate :=
  let s := run add_all stale_ops in durable s (close false s) [0].

Theorem C23_outdated_snapshot_old_refuted :
  exists d, usable true d <> None /\ d_mm_ok d = true /\
            query d (open_old add_all true d) <> query d (open_old add_all false d).
Proof.
  exists stale_d. vm_compute. repeat split; congruence.
Qed.
Example C23_outdated_detail :
  query stale_d (open_old add_all true stale_d) = [(0, [(-300, 1); (1, 4)])] /\
  query stale_d (open_old add_all false stale_d) = [(0, [(-300, 1); (-200, 2); (0, 3); (1, 4)])] /\
  query stale_d (open add_all true stale_d) = [(0, [(-300, 1); (-200, 2); (0, 3); (1, 4)])] /\
  query stale_d (open add_all false stale_d) = query stale_d (open add_all true stale_d).
Proof. vm_compute. repeat split; reflexivity. Qed.
