(* props/C06.v — C06: queries racing with compaction see each sample exactly once.
   Statements only; proofs are in proof/CompactRaceProofs.v (with the invariant) and proof/CompactRaceClose.v. *)
From Coq Require Import List ZArith Bool.
From Verif Require Import model.CompactRace proof.CompactRaceProofs proof.CompactRaceClose.
Import ListNotations.
Open Scope Z_scope.

(* For every quiescent start state and EVERY valid interleaving of the steps of head compaction,
   head truncation, out-of-order compaction / garbage collection, block compaction and block
   deletion with the steps of querier creation (split at the points where the real DB.Querier can
   be preempted), iteration and Close: every iteration of every querier returns exactly the
   committed samples of its range - none missing, none twice. *)
(* [no_view tr]: the trace contains no step of DB.CompactStaleHead / DB.CompactSelectedSeries (an
   extension beyond the maintenance kinds the property lists; for those see
   C06_view_evict_refuted below). *)
Theorem C06_exactly_once : forall s0 tr s outs,
  wf_init s0 = true -> no_view tr = true -> run s0 tr = Some (s, outs) ->
  forall q mint maxt res, In (q, mint, maxt, res) outs ->
    NoDup res /\ (forall x, In x res <-> (In x (committed s0) /\ mint <= s_t x <= maxt)).
Proof. exact exactly_once. Qed.

(* ... and if the committed samples have distinct (series, timestamp) keys, no key is returned twice *)
Theorem C06_exactly_once_keys : forall s0 tr s outs,
  wf_init s0 = true -> no_view tr = true -> run s0 tr = Some (s, outs) ->
  (forall a b, In a (committed s0) -> In b (committed s0) -> s_sid a = s_sid b -> s_t a = s_t b -> a = b) ->
  forall q mint maxt res, In (q, mint, maxt, res) outs ->
    NoDup (map (fun x => (s_sid x, s_t x)) res).
Proof. exact exactly_once_keys. Qed.

(* ---- non-vacuity ------------------------------------------------------------------------- *)

Definition ex_s0 : state :=
  mkSt [mkS 0 10 2; mkS 0 50 3; mkS 0 120 4; mkS 0 160 5; mkS 0 210 6] 10
       [mkOC None [mkS 0 30 7]] 30 30
       [mkB 0 (-100) 0 [mkS 0 (-50) 1]] [] [] [] 0 false 0 Idle [] [] [] [] false.

(* a head compaction of [0,100): querier 1 is open from before the block is written until the
   reader wait; querier 2 is created in pieces around the publication of the truncation flag and
   iterated after the memory was truncated *)
Definition ex_tr1 : list ev :=
  [EQBegin 1 0 300; EQOpenHead 1; EQFinish 1; EHWritten (Some 1) 0 100; ESwapped; ETimePub;
   EQBegin 2 0 60; EQOpenHead 2; EFlagSet; EQFinish 2; EQIter 1; EQClose 1; EAwaited; EMinSet;
   EGcDone 120 30; EQIter 2; EHeadDone; EQClose 2].

(* an out-of-order compaction: querier 1 is open across the publication of the gc reference *)
Definition ex_tr2 : list ev :=
  [EQBegin 1 0 300; EQOpenHead 1; EQFinish 1; EOStart 1; EOWritten [(1, 0, 100)]; ESwapped; EGcPub;
   EQIter 1; EQClose 1; EOAwaited; EGcDone 10 1000; EODone;
   EQBegin 2 (-60) 40; EQOpenHead 2; EQFinish 2; EQIter 2; EQClose 2].

Example ex_wf : wf_init ex_s0 = true.
Proof. vm_compute. reflexivity. Qed.

Example ex_head_compaction_valid :
  option_map (fun p => map (fun o => length (snd o)) (snd p)) (run ex_s0 ex_tr1) = Some [6%nat; 3%nat].
Proof. vm_compute. reflexivity. Qed.

Example ex_ooo_compaction_valid :
  option_map (fun p => map (fun o => length (snd o)) (snd p)) (run ex_s0 ex_tr2) = Some [6%nat; 3%nat].
Proof. vm_compute. reflexivity. Qed.

(* the reader wait of truncateMemory is not enabled while the overlapping querier 1 is open *)
Example ex_wait_blocks :
  first_bad ex_s0 [EQBegin 1 0 300; EQOpenHead 1; EQFinish 1; EHWritten (Some 1) 0 100; ESwapped;
                   ETimePub; EFlagSet; EAwaited] 0 = 7.
Proof. vm_compute. reflexivity. Qed.

(* A block is never released while a querier still reads it: in every reachable state no querier
   (open or in creation) holds a block whose pending-reader wait has returned (files released /
   deleted), and no querier ever hit ErrClosing at creation or read a released block. *)
Theorem C06_no_use_after_close : forall s0 tr s outs,
  wf_init s0 = true -> run s0 tr = Some (s, outs) ->
  failed s = false /\
  (forall x b, In x (queriers s) -> In b (q_blocks x) -> ~ In (b_id b) (closed s)).
Proof. exact no_use_after_close. Qed.

(* Maintenance finishes once the queries close: in every reachable state without queriers, the
   step at which the maintenance actor waits (Block.Close's reader wait, the swap of db.blocks
   and the publication of the gc reference under db.mtx, the reader waits of truncateMemory and
   truncateOOO) is enabled. *)
Theorem C06_progress : forall s0 tr s outs,
  wf_init s0 = true -> run s0 tr = Some (s, outs) -> queriers s = [] ->
  forall e, next_wait s = Some e -> step s e <> None.
Proof. exact progress. Qed.

(* non-vacuity of C06_progress: a reachable state with no querier in which the actor is at a wait *)
Example ex_progress_at_wait :
  option_map (fun p => (next_wait (fst p), queriers (fst p)))
             (run ex_s0 [EHWritten (Some 1) 0 100; ESwapped; ETimePub; EFlagSet]) = Some (Some EAwaited, []).
Proof. vm_compute. reflexivity. Qed.

(* non-vacuity of C06_no_use_after_close: a block compaction whose parent is held by querier 1;
   the parent can only be released after querier 1 closed *)
Definition ex_s1 : state :=
  mkSt [mkS 0 210 6] 200 [] 4611686018427387904 (-4611686018427387904)
       [mkB 0 0 100 [mkS 0 10 2]; mkB 1 100 200 [mkS 0 120 4]] [] [] [] 0 false 0 Idle [] [] [] [] false.
Example ex_block_release_waits :
  (first_bad ex_s1 [EQBegin 1 0 50; EQFinish 1; EBWritten 2 [0; 1] 0 200; ESwapped;
                    EBlockClosing 0; EBlockClosed 0] 0,
   first_bad ex_s1 [EQBegin 1 0 50; EQFinish 1; EBWritten 2 [0; 1] 0 200; ESwapped;
                    EBlockClosing 0; EQIter 1; EQClose 1; EBlockClosed 0; EBlockClosing 1; EBlockClosed 1] 0)
  = (5, -1).
Proof. vm_compute. reflexivity. Qed.

(* ---- stale-series / selected-series compaction (Head.truncateSeries) ---------------------- *)

(* FULL STATEMENT THAT FAILS: C06_exactly_once without the [no_view] hypothesis.
   Head.truncateSeries documents its maxt as inclusive but hands it to
   WaitForPendingReadersInTimeRange, which treats its upper bound as exclusive (maxt--): an open
   querier whose mint equals maxt (= Head.MaxTime(), the newest sample) is not waited for, the
   series is evicted under it and it misses the sample at maxt.  The faithful model reproduces it
   (reproduced on the real code: shape key stale-evict-reader-at-maxt, notes/C06.md). *)
Definition ex_s2 : state :=
  mkSt [mkS 0 10 1; mkS 0 50 2] 10 [] 4611686018427387904 (-4611686018427387904)
       [] [] [] [] 0 false 0 Idle [] [] [] [] false.
Definition ex_tr3 : list ev :=
  [EQBegin 1 50 90; EQOpenHead 1; EQFinish 1; EVWritten 1 0 100 [0]; ESwapped; EVAwaited 50;
   EVEvicted [0]; EQIter 1; EQClose 1].

Theorem C06_view_evict_refuted :
  exists s0 tr s outs q mint maxt res x,
    wf_init s0 = true /\ run s0 tr = Some (s, outs) /\ In (q, mint, maxt, res) outs /\
    In x (committed s0) /\ mint <= s_t x <= maxt /\ ~ In x res.
Proof.
  exists ex_s2, ex_tr3.
  eexists _, _, 1, 50, 90, [], (mkS 0 50 2).
  split; [vm_compute; reflexivity|].
  split; [vm_compute; reflexivity|].
  split; [left; reflexivity|].
  split; [vm_compute; auto|].
  split; [unfold Z.le; cbn; split; discriminate|].
  intros [].
Qed.

(* with the querier one millisecond wider the wait does its job: the eviction is not enabled *)
Example ex_view_wait_blocks :
  first_bad ex_s2 [EQBegin 1 49 90; EQOpenHead 1; EQFinish 1; EVWritten 1 0 100 [0]; ESwapped; EVAwaited 50] 0 = 5.
Proof. vm_compute. reflexivity. Qed.
