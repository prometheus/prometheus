(* props/C38.v — Relabeling follows its documented semantics.
   Model: model/Relabel.v (relabel.relabel / ProcessBuilder over labels.Builder);
   documented semantics: doc_rule / doc_process on canonical label sets; proofs: proof/RelabelProofs.v.
   Regex operations, md5, case mapping, label-name validity are oracles [O : oracle]; the two
   facts assumed about them are explicit premises (expand_literal, default_matches_empty). *)
From Coq Require Import List ZArith NArith Bool Permutation.
From Verif Require Import model.Relabel proof.RelabelProofs.
Import ListNotations.

(* Assumed oracle behaviour (Go regexp): a template without '$' expands to itself; the default
   regex matches the empty string. *)
Definition oracle_ok (O : oracle) : Prop :=
  (forall re t s idx, has_dollar t = false -> o_expand O re t s idx = t) /\
  o_find O default_re_text [] <> None.

(* 1. For every sorted base label set, every chain of valid rules and every oracle, what
   ProcessBuilder leaves in the builder (Labels()) is exactly what the documented semantics
   computes from the label set (empty values removed); drop iff the documentation drops; no
   panic.  labelmap's visiting order is left unspecified by the documentation: the
   implementation's result is the documented result for SOME order of the current labels. *)
Theorem C38_refines_doc : forall O base rs,
  oracle_ok O -> ssorted base = true -> Forall (rule_ok O) rs ->
  match process O rs (new_builder base) with
  | OKeep b' => doc_process_rel O rs (strip_empty base) (DKeep (blabels b'))
  | ODrop _ => doc_process_rel O rs (strip_empty base) DDrop
  | OPanic => False
  end.
Proof.
  intros O base rs [H1 H2] Hs Hok. pose proof (process_labels O H1 H2 base rs Hs Hok) as H.
  destruct (process O rs (new_builder base)); tauto.
Qed.

(* 2. When no labelmap step of the documented run copies two different values to one target
   name (chain_cf), the result is the deterministic documented function doc_process (labelmap
   in name order) of the label set and the rules. *)
Theorem C38_refines_doc_deterministic : forall O base rs,
  oracle_ok O -> ssorted base = true -> Forall (rule_ok O) rs -> chain_cf O rs (strip_empty base) ->
  match process O rs (new_builder base) with
  | OKeep b' => doc_process O rs (strip_empty base) = DKeep (blabels b')
  | ODrop _ => doc_process O rs (strip_empty base) = DDrop
  | OPanic => False
  end.
Proof.
  intros O base rs [H1 H2] Hs Hok Hcf. pose proof (process_labels O H1 H2 base rs Hs Hok) as H.
  destruct (process O rs (new_builder base)); tauto.
Qed.

(* 3. The result is a sorted label set without empty values or duplicate names — for any rules
   (valid or not) and any oracle. Strict sortedness by name excludes duplicate names. *)
Theorem C38_result_canonical : forall O base rs, ssorted base = true ->
  match process O rs (new_builder base) with
  | OKeep b' | ODrop b' =>
      ssorted (blabels b') = true /\ no_empty (blabels b') = true /\ NoDup (map lname (blabels b'))
  | OPanic => True
  end.
Proof.
  intros O base rs Hs.
  pose proof (process_binv O rs (new_builder base) (binv_new base Hs)) as H.
  destruct (process O rs (new_builder base)) as [b'|b'|]; auto;
    destruct (blabels_spec b' H) as [Hc _]; apply canonical_iff in Hc as [Hc1 Hc2];
    repeat split; auto using ssorted_NoDup.
Qed.

(* 4. Builder.Set/Del/Get are map operations; Labels() is the canonical list with the same
   lookups; Range enumerates exactly the non-empty bindings. *)
Theorem C38_builder_is_a_map : forall b n v m, binv b ->
  bget (bset b n v) m = (if str_eqb m n then v else bget b m) /\
  bget (bdel b n) m = (if str_eqb m n then [] else bget b m) /\
  lget (blabels b) m = bget b m /\
  (forall l, In l (brange b) <-> (bget b (lname l) = lvalue l /\ lvalue l <> [])) /\
  binv (bset b n v) /\ binv (bdel b n).
Proof.
  intros b n v m Hb. split; [apply bget_bset|]. split; [apply bget_bdel|].
  split; [apply (blabels_spec b Hb)|]. split; [intros l; apply brange_in; auto|].
  split; [apply binv_bset|apply binv_bdel]; auto.
Qed.

(* 5. Builder.Del's in-place range/append loop (transcribed with its aliasing and Go bounds
   checks) neither panics nor removes anything else, under the invariant that Set maintains. *)
Theorem C38_del_loop_safe : forall n add, NoDup (map lname add) -> go_del_add n add = Some (remove_add n add).
Proof. exact go_del_add_spec. Qed.

(* 6. A drop stops the chain and leaves the builder untouched by the dropping rule and all
   later rules. *)
Theorem C38_drop_short_circuits : forall O rs1 r rs2 b b1 b2,
  process O rs1 b = OKeep b1 -> relabel O r b1 = ODrop b2 ->
  process O (rs1 ++ r :: rs2) b = ODrop b1 /\ b2 = b1.
Proof.
  intros O rs1 r rs2 b b1 b2 H1 H2. pose proof (relabel_drop_unchanged O r b1 b2 H2) as E. subst b2.
  split; auto. rewrite process_app, H1. simpl. rewrite H2. reflexivity.
Qed.

(* 7. REFUTED as a statement about label SETS: with colliding labelmap targets the outcome is
   not a function of (label set, rule) — it depends on which labels earlier rules touched
   (Builder.Range visits base labels first, then added ones in insertion order).
   Full statement that fails:  forall b1 b2 r, blabels b1 = blabels b2 ->
     labels after relabel r b1 = labels after relabel r b2. *)
Definition ex_oracle : oracle :=
  mkO (fun _ s => match s with 97%N :: _ :: [] => true | _ => false end)   (* regex a(.) anchored *)
      (fun _ _ => Some [0%Z; 0%Z; 0%Z; 0%Z]) (fun _ t _ _ => t)
      (fun _ _ rp => rp) (fun _ => 0%Z) (fun s => s) (fun s => s) (fun _ _ => true).
Definition ex_a1 : str := [97; 49]%N.
Definition ex_a2 : str := [97; 50]%N.
Definition ex_b : str := [98]%N.
Definition ex_labelmap : rule := mkRule LabelMap [] [59%N] [97; 40; 46; 41]%N false 0 [] ex_b false.
Definition ex_b1 : builder := bset (new_builder [(ex_a1, [120%N]); (ex_a2, [121%N])]) ex_a1 [122%N].
Definition ex_b2 : builder := new_builder [(ex_a1, [122%N]); (ex_a2, [121%N])].

Theorem C38_labelmap_set_function_refuted :
  exists O r b1 b2 b1' b2', binv b1 /\ binv b2 /\ blabels b1 = blabels b2 /\
    relabel O r b1 = OKeep b1' /\ relabel O r b2 = OKeep b2' /\ blabels b1' <> blabels b2'.
Proof.
  exists ex_oracle, ex_labelmap, ex_b1, ex_b2.
  eexists. eexists.
  split; [apply binv_bset, binv_new; reflexivity|]. split; [apply binv_new; reflexivity|].
  split; [vm_compute; reflexivity|]. split; [reflexivity|]. split; [reflexivity|].
  vm_compute. intros H. discriminate H.
Qed.

(* ---------------------------------------------------------------- non-vacuity *)
Definition ex_base : list label := [(ex_a1, [120%N]); (ex_a2, [121%N]); (ex_b, [])].
Definition ex_replace : rule := mkRule Replace [] [59%N] default_re_text true 0 [99%N] [122%N] false.
Definition ex_drop : rule := mkRule Keep [ex_a1] [59%N] [97; 40; 46; 41]%N false 0 [] [] false.

Example C38_ex_oracle_ok : oracle_ok ex_oracle.
Proof. split; [reflexivity|discriminate]. Qed.
Example C38_ex_rules_ok : Forall (rule_ok ex_oracle) [ex_replace; ex_labelmap].
Proof. repeat constructor; try discriminate. Qed.
(* the chain really runs: fast path adds c="z", labelmap then copies a1,a2 to b (a collision) *)
Example C38_ex_run :
  match process ex_oracle [ex_replace; ex_labelmap] (new_builder ex_base) with
  | OKeep b' => blabels b' = [(ex_a1, [120%N]); (ex_a2, [121%N]); (ex_b, [121%N]); ([99%N], [122%N])]
  | _ => False
  end.
Proof. vm_compute. reflexivity. Qed.
(* a collision-free chain satisfying chain_cf *)
Example C38_ex_chain_cf : chain_cf ex_oracle [ex_replace] (strip_empty ex_base).
Proof. simpl. split; auto. intros E. discriminate E. Qed.
(* drop: the short-circuit theorem's hypotheses are met *)
Example C38_ex_drop :
  relabel ex_oracle ex_drop (new_builder ex_base) = ODrop (new_builder ex_base).
Proof. reflexivity. Qed.
(* the Del loop's modelled panic is real outside the invariant (duplicate names in b.add) *)
Example C38_ex_del_loop_panics_on_duplicates :
  go_del_add ex_b [(ex_b, [120%N]); (ex_b, [121%N])] = None.
Proof. reflexivity. Qed.
