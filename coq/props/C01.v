(* props/C01.v — property C01: queries return exactly the committed, undeleted samples.

   FULL STATEMENT (what the property asks):
     for every configuration and every history [ops] of commits, rollbacks, deletions, head /
     out-of-order compactions, tombstone cleaning and restarts, every query over [mint,maxt] with
     a selector returns, for every selected series, exactly one sample at each timestamp in range
     where an acknowledged sample of that series was stored and not later deleted, with one of
     the values stored there, in increasing time order, and nothing else:
        forall c ops mint maxt sel,
          answer_equiv (query (run c ops) mint maxt sel)
                       (spec_query (spec_run (map spec_of_op ops)) mint maxt sel).
   The faithful model of the code as it is REFUTES this statement (five independent ways, each
   replayed on the real tsdb.DB by the harness corpus): the C01_refuted lemmas below.
   What is proved instead is C01_refinement_partial: the statement for every history whose
   operations are well-formed (wf_ops):
     - accepted samples carry the admission facts the appender guarantees (in-order: above the
       series' newest chunk and >= minValidTime) and are not covered by a head tombstone of
       their series (false for out-of-order samples: C01_refuted_ooo_append_under_tombstone);
     - a Delete range contains no out-of-order sample still in the head of a selected series
       (otherwise: C01_refuted_delete_then_ooo_compaction, C01_refuted_delete_skips_ooo_sample);
     - the final state satisfies dead_covered: an in-order head sample below Head.MinTime that
       still sits in a chunk straddling the last truncation point (the head querier returns it)
       is also visible in a block (otherwise: C01_refuted_delete_skips_dead_head_sample).  That
       well-formed histories preserve dead_covered is NOT proved (dead_free is a decidable
       sufficient condition);
     - MISSING OPS: CompactPending (DB.Compact while an appender is open; assumed like Restart) and Restart.  A restart is assumed to re-establish the invariant and to preserve
       the set of visible samples (it does not always: the C01_refuted_restart lemmas); the tie checks
       every generated restart against the implementation instead. *)
From Coq Require Import List ZArith Bool Lia.
From Verif Require Import lib.Int64 model.TsdbSpec model.Tsdb proof.TsdbProofs.
Import ListNotations.
Open Scope Z_scope.

(** the specification's answer is exactly "one entry per timestamp in range carrying a live
    sample, strictly increasing, with the values stored there; absent when there is none" *)
Theorem C01_spec_query_exact : forall sp mint maxt sel i pts,
  In (i, pts) (spec_query sp mint maxt sel) ->
  In i sel /\ sincr (map fst pts) /\ pts <> [] /\
  (forall t vs, In (t, vs) pts -> mint <= t <= maxt /\ vs <> [] /\ forall v, In v vs <-> In (mkS t v) (sp i)) /\
  (forall x, In x (sp i) -> mint <= st x <= maxt -> exists vs, In (st x, vs) pts).
Proof. exact spec_query_exact. Qed.

(** the structured model's query (head querier WITHOUT a floor at Head.MinTime — as in the code —
    head tombstones over in-order and out-of-order data, only the blocks overlapping the range,
    block tombstones) answers like the specification on the abstraction, provided every in-order
    head sample below Head.MinTime that is still in a chunk is also visible in a block
    (dead_covered; false after the Delete of C01_refuted_delete_skips_dead_head_sample) *)
Theorem C01_query_is_spec_of_abs : forall c s mint maxt sel,
  blocks_inv c (s_blocks s) -> dead_covered s ->
  answer_equiv (query s mint maxt sel) (spec_query (abs s) mint maxt sel).
Proof. exact query_abs. Qed.

(** per operation: the invariant is kept and abs commutes with the step — a commit adds exactly
    the acknowledged samples, a Delete removes exactly [mint,maxt] of the selected series, head
    compaction (block cut + truncateMemory + gc + min-time adjustment), out-of-order compaction
    (blocks per aligned range + truncateOOO), and tombstone cleaning leave abs unchanged *)
Theorem C01_abs_step : forall c s o,
  wf_cfg c -> inv c s -> wf_op c s o ->
  inv c (step c s o) /\ sequiv (abs (step c s o)) (spec_step (abs s) (spec_of_op o)).
Proof. exact step_refines. Qed.

Theorem C01_abs_run : forall c ops,
  wf_cfg c -> wf_ops c state0 ops ->
  inv c (run c ops) /\ sequiv (abs (run c ops)) (spec_run (map spec_of_op ops)).
Proof. exact abs_run. Qed.

(** MAIN (partial: Restart is assumed, see the header) *)
Theorem C01_refinement_partial : forall c ops,
  wf_cfg c -> wf_ops c state0 ops -> dead_covered (run c ops) ->
  forall mint maxt sel,
    answer_equiv (query (run c ops) mint maxt sel)
                 (spec_query (spec_run (map spec_of_op ops)) mint maxt sel).
Proof. exact refinement_partial. Qed.

(** what the tie's [holds] checks on the implementation's answer is stable under answer_equiv *)
Theorem C01_answer_ok_respects_equiv : forall obs a b,
  answer_equiv a b -> answer_ok obs a = true -> answer_ok obs b = true.
Proof. exact answer_ok_equiv. Qed.

(* ---------------- non-vacuity ---------------- *)
Definition ex_cfg : cfg := mkCfg 1000 100000 [0; 1].
Definition io (i t v : Z) : acc := (i, mkS t v, false).
Definition oo (i t v : Z) : acc := (i, mkS t v, true).
Definition lg (l : list acc) : list (sid * option sample) := map (fun a => (fst (fst a), Some (snd (fst a)))) l.
(* cmc created l: an appender that created the series [created] and stored the samples l *)
Definition cmc (created : list sid) (l : list acc) : op :=
  Commit l (map (fun i => (i, None)) created ++ lg l) (match l with a :: _ => Some (st (snd (fst a))) | [] => None end).
Definition cm := cmc [].

(* in-order data in two series, an out-of-order sample, a head compaction (two blocks, negative
   and positive times), an out-of-order compaction, a Delete across head and blocks that does
   not touch out-of-order head data, tombstone cleaning *)
Definition ex_ops : list op :=
  [ cmc [0; 1] [io 0 (-1500) 1; io 1 150 2]; cm [io 0 900 3; io 1 950 4]; cm [oo 1 400 5];
    CompactOOO; cm [io 0 1700 6; io 1 1800 7]; cm [io 0 2700 8]; Compact;
    Delete 120 1750 [0; 1]; CleanTombstones; cm [io 1 2800 9] ].

Example C01_ex_wf : wf_cfg ex_cfg /\ wf_ops ex_cfg state0 ex_ops.
Proof. split; [reflexivity | apply wf_opsb_sound; vm_compute; reflexivity]. Qed.

Example C01_ex_dead_covered : dead_covered (run ex_cfg ex_ops).
Proof.
  apply (dead_free_covered ex_cfg); [|vm_compute; reflexivity].
  destruct C01_ex_wf as [Hw Hwf]. exact (proj1 (abs_run ex_cfg ex_ops Hw Hwf)).
Qed.

Example C01_ex_answer :
  query (run ex_cfg ex_ops) minInt64 maxInt64 [0; 1] =
    [(0, [(-1500, [1]); (2700, [8])]); (1, [(1800, [7]); (2800, [9])])]
  /\ map (block_meta (universe ex_cfg)) (s_blocks (run ex_cfg ex_ops)) = [(-1500, 0, false, 1)]
  /\ h_minT (s_head (run ex_cfg ex_ops)) = 1700.
Proof. vm_compute. auto. Qed.

(* ---------------- the full statement is false of the code as it is ---------------- *)
Definition full_statement : Prop :=
  forall c ops mint maxt sel, wf_cfg c ->
    answer_equiv (query (run c ops) mint maxt sel)
                 (spec_query (spec_run (map spec_of_op ops)) mint maxt sel).

Ltac refute c ops sel :=
  intros H; specialize (H c ops minInt64 maxInt64 sel ltac:(unfold wf_cfg; cbn; lia));
  apply answer_equiv_shape in H; vm_compute in H; discriminate.

Definition cfg1 : cfg := mkCfg 1000 100000 [0].
Definition cfg2 : cfg := mkCfg 1000 100000 [0; 1].

(* F1: Head.Delete's tombstone hides an out-of-order head sample; compactOOO ignores head
   tombstones (OOOCompactionHead.Tombstones is empty) and truncateOOO keeps the tombstone only in
   the head: the deleted sample (150) is returned again after CompactOOOHead *)
Definition ops_f1 : list op :=
  [cmc [0] [io 0 100 1]; cm [io 0 200 2]; cm [io 0 300 3]; cm [oo 0 150 4]; Delete 120 180 [0]; CompactOOO].
Theorem C01_refuted_delete_then_ooo_compaction : ~ full_statement.
Proof. refute cfg1 ops_f1 [0]. Qed.
Example C01_f1_detail :
  shape (query (run cfg1 ops_f1) minInt64 maxInt64 [0]) = [(0, [100; 150; 200; 300])] /\
  shape (spec_query (spec_run (map spec_of_op ops_f1)) minInt64 maxInt64 [0]) = [(0, [100; 200; 300])].
Proof. vm_compute. auto. Qed.

(* F2: Head.Delete clamps to the head's and the series' IN-ORDER range: an out-of-order head
   sample (400) below it is not deleted by Delete(0, 2000) *)
Definition ops_f2 : list op :=
  [cmc [0] [io 0 1000 1]; cmc [1] [io 1 500 2]; cm [oo 1 400 3]; Delete 0 2000 [1]].
Theorem C01_refuted_delete_skips_ooo_sample : ~ full_statement.
Proof. refute cfg2 ops_f2 [0; 1]. Qed.
Example C01_f2_detail :
  shape (query (run cfg2 ops_f2) minInt64 maxInt64 [0; 1]) = [(0, [1000]); (1, [400])] /\
  shape (spec_query (spec_run (map spec_of_op ops_f2)) minInt64 maxInt64 [0; 1]) = [(0, [1000])].
Proof. vm_compute. auto. Qed.

(* F3: an out-of-order sample acknowledged AFTER a Delete, at a timestamp the older head
   tombstone covers, is hidden while it is in the head *)
Definition ops_f3 : list op :=
  [cmc [0] [io 0 100 1]; cm [io 0 200 2]; cm [io 0 300 3]; Delete 120 250 [0]; cm [oo 0 180 9]].
Theorem C01_refuted_ooo_append_under_tombstone : ~ full_statement.
Proof. refute cfg1 ops_f3 [0]. Qed.

(* F4: after CompactOOOHead the m-mapped out-of-order chunk is still on disk; a restart loads it
   again, so a sample deleted in the out-of-order block (150) comes back *)
Definition ops_f4 : list op :=
  [cmc [0] [io 0 300 1]; cm [oo 0 150 2]; CompactOOO; Delete 140 160 [0]; Restart [(0, [mkS 150 2])]].
Theorem C01_refuted_restart_reloads_ooo_chunk : ~ full_statement.
Proof. refute cfg1 ops_f4 [0]. Qed.

(* F5: the newest in-order block is deleted completely and removed by CleanTombstones; the next
   restart computes a lower minValidTime and replays the deleted samples (100, 200) from the WAL *)
Definition cfg5 : cfg := mkCfg 1000 0 [0].
Definition ops_f5 : list op :=
  [cmc [0] [io 0 100 1]; cm [io 0 200 2]; cm [io 0 1700 3]; Compact; Delete 0 999 [0]; CleanTombstones; Restart []].
Theorem C01_refuted_restart_replays_wal : ~ full_statement.
Proof. refute cfg5 ops_f5 [0]. Qed.
Example C01_f5_detail :
  shape (query (run cfg5 ops_f5) minInt64 maxInt64 [0]) = [(0, [100; 200; 1700])] /\
  shape (spec_query (spec_run (map spec_of_op ops_f5)) minInt64 maxInt64 [0]) = [(0, [1700])].
Proof. vm_compute. auto. Qed.

(* F6: a restart lowers Head.MinTime to the last in-order block's maxt; the next head compaction
   copies -5 into block [-1000,0) and truncates the head to 0, but the chunk [-5,203] stays in the
   head.  Delete(-2306,194) tombstones -5 in the block; the head tombstone is clamped to
   [Head.MinTime, ...] = [0,194]; the head querier (no floor at Head.MinTime) still returns -5 *)
Definition ops_f6 : list op :=
  [cmc [0] [io 0 (-2600) 1; io 0 (-5) 2]; cm [io 0 203 8; io 0 1000 9]; Compact; Restart []; Compact;
   Delete (-2306) 194 [0]].
Theorem C01_refuted_delete_skips_dead_head_sample : ~ full_statement.
Proof. refute cfg5 ops_f6 [0]. Qed.
Example C01_f6_detail :
  shape (query (run cfg5 ops_f6) minInt64 maxInt64 [0]) = [(0, [-2600; -5; 203; 1000])] /\
  shape (spec_query (spec_run (map spec_of_op ops_f6)) minInt64 maxInt64 [0]) = [(0, [-2600; 203; 1000])].
Proof. vm_compute. auto. Qed.
