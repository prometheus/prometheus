(* props/C02.v — property theorems for C02 (append admission and commit apply the documented
   ordering rules), about the model of tsdb/head_append.go, head_append_v2.go and ooo_head.go in
   model/Appendable.v. Statements only; proofs are in proof/AppendableProofs.v. *)
From Coq Require Import List ZArith Bool Lia.
From Verif Require Import lib.Int64 model.Appendable proof.AppendableProofs proof.AppendableSeq.
Import ListNotations.
Open Scope Z_scope.

(* The admission decision (memSeries.appendable / appendableHistogram / appendableFloatHistogram)
   is exactly the documented table over: t against the appender's minValidTime, t against the
   series' newest in-order sample, bit-identity of the value, and the out-of-order window taken
   from the appender's snapshot (`table` has one constructor per row: fresh series, newer, exact
   duplicate, different value at the newest timestamp, out of order accepted, too old,
   out of bounds, out of order rejected). *)
Theorem C02_decision_table : forall last t v sn r,
  appendable last t v sn = r <-> table last t v sn r.
Proof. exact decision_table. Qed.

(* Re-appending the newest in-order sample with a bit-identical value is accepted and is a no-op:
   per sample (whatever the window), and as a transaction (the head is unchanged). *)
Theorem C02_exact_dup_noop : forall c sn h sid t v,
  head_wf h -> s_last (h_series h sid) = Some (t, v) -> sn_minValid sn <= t ->
  appendable (s_last (h_series h sid)) t v sn = (false, None) /\
  commit_sample (c_oooCap c) sn (h_series h sid) t v = (h_series h sid, None) /\
  head_eq (commit c h (appender_of sn [(sid, t, v)])) h.
Proof.
  intros c sn h sid t v Hw El Hm.
  destruct (exact_dup_sample (c_oooCap c) sn (h_series h sid) t v El Hm) as [A B].
  split; [exact A|]. split; [exact B|]. apply exact_dup_commit; assumption.
Qed.

(* A rejected or rolled-back sample is never stored: an append (v1 or v2, any options) never
   touches the series, and if it returns an error it leaves the appender's batches as they were;
   Rollback changes nothing; and every sample a series holds after a Commit was there before or
   is an accepted sample of the committed appender (for a float staleness marker possibly its
   histogram-typed form). *)
Theorem C02_rejected_never_stored :
  (forall c h a flag sid t v h' a' e,
     append c h a flag sid t v = (h', a', e) ->
     h_series h' = h_series h /\
     (e <> 0 -> a_batches a' = a_batches a /\ a_types a' = a_types a)) /\
  (forall h a, rollback h a = h) /\
  (forall c h a sid x,
     In x (series_samples (h_series (commit c h a) sid)) ->
     In x (series_samples (h_series h sid)) \/
     exists e, In e (entries a) /\ e_sid e = sid /\ fst x = e_t e /\
               (snd x = e_val e \/
                (is_stale_float (e_val e) = true /\ (snd x = VH 0 \/ snd x = VFH 0)))).
Proof.
  split; [|split].
  - intros c h a flag sid t v h' a' e E.
    destruct (append_spec c h a flag sid t v h' a' e E) as (A & B & _). auto.
  - exact rollback_nothing.
  - exact commit_only_accepted.
Qed.

(* An accepted append adds exactly that sample to the appender (getCurrentBatch batching), so
   the appenders reachable by appends are `appender_of sn log` for the accepted samples log. *)
Theorem C02_accepted_is_logged : forall c h a flag sid t v h' a',
  append c h a flag sid t v = (h', a', 0) ->
  exists v' a1, a' = add_entry a1 (sid, t, v') /\ derived (sid, t, v') (sid, t, v) /\
                a_batches a1 = a_batches a /\ a_types a1 = a_types a.
Proof.
  intros c h a flag sid t v h' a' E.
  destruct (append_spec c h a flag sid t v h' a' 0 E) as (_ & _ & C). apply C. reflexivity.
Qed.

(* FULL STATEMENT (refuted below): for every head h, snapshot sn and accepted samples log,
     head_eq (commit c h (appender_of sn log)) (commit_each c sn log h)
   i.e. committing the transaction [a1..an] = committing a1..an one at a time, in append order,
   each through its own appender with the original appender's window snapshot.
   PROVED PART: every transaction in which no float staleness marker is followed by another
   sample of the same series (`safe log`; markers already typed as histograms at append and
   histogram-valued markers are not restricted). What is excluded is exactly the configuration
   of the refuted theorem below: commitFloats re-queues the converted marker at the end of the
   batch's histograms, which is only visible if a later sample of that series exists. *)
Theorem C02_commit_sequential_partial : forall c sn h log,
  head_wf h -> safe log ->
  head_eq (commit c h (appender_of sn log)) (commit_each c sn log h).
Proof. exact commit_sequential_fold. Qed.

(* in particular all transactions without float staleness markers *)
Corollary C02_commit_sequential_nostale : forall c sn h log,
  head_wf h -> nostale log ->
  head_eq (commit c h (appender_of sn log)) (commit_each c sn log h).
Proof. exact commit_sequential. Qed.

(* The code as it is violates the full statement: a float staleness marker for a histogram series
   followed, in the same appender, by a newer histogram of that series is converted at commit
   and re-queued behind the newer sample; with out-of-order ingestion disabled it is dropped.
   Reproduced on the real code (corpus case 0 of the harness; known finding
   stale-float-deferred-after-histogram). *)
Theorem C02_commit_sequential_refuted :
  exists c sn h log, head_wf h /\
    ~ head_eq (commit c h (appender_of sn log)) (commit_each c sn log h).
Proof. exact commit_sequential_refuted. Qed.

(* ---- non-vacuity *)
Definition ex_sn := mkSnap 500 1000 300.
Definition ex_head :=
  mkHead 900 1000 minInt64
         (fun k => if k =? 1 then mkSeries (Some (1000, VF 7)) [(1000, VF 7); (900, VF 7)] [] []
                   else empty_series).

(* every row of the table is inhabited *)
Example C02_table_rows :
  appendable None 600 (VF 1) ex_sn = (false, None) /\
  appendable (Some (1000, VF 7)) 1001 (VH 1) ex_sn = (false, None) /\
  appendable (Some (1000, VF 7)) 1000 (VF 7) ex_sn = (false, None) /\
  appendable (Some (1000, VF 7)) 1000 (VF 8) ex_sn = (false, Some EDup) /\
  appendable (Some (1000, VF 7)) 1000 (VH 7) ex_sn = (false, Some EDup) /\
  appendable (Some (1000, VF 7)) 700 (VF 1) ex_sn = (true, None) /\
  appendable (Some (1000, VF 7)) 699 (VF 1) ex_sn = (true, Some ETooOld) /\
  appendable (Some (1000, VF 7)) 499 (VF 1) (mkSnap 500 1000 0) = (false, Some EOOB) /\
  appendable (Some (1000, VF 7)) 999 (VF 1) (mkSnap 500 1000 0) = (false, Some EOOO).
Proof. repeat split; vm_compute; reflexivity. Qed.

Example C02_dup_nonvacuous :
  head_wf ex_head /\ s_last (h_series ex_head 1) = Some (1000, VF 7) /\ sn_minValid ex_sn <= 1000.
Proof. unfold head_wf. cbn. unfold maxInt64, minInt64. repeat split; lia. Qed.

(* a transaction with intra-transaction disorder, a duplicate, two series and a type change:
   the hypotheses of the sequential theorem hold, and the commit re-check drops / reroutes *)
Definition ex_log : list entry :=
  [(1, 1010, VF 1); (2, 800, VH 1); (1, 950, VF 2); (1, 1010, VF 3); (2, 800, VH 1); (1, 1020, VH 2); (1, 1030, VF 4)].
(* ... and one with a float staleness marker that is converted at commit (series 3 ends with a
   histogram) and is the last sample of its series *)
Definition ex_head2 :=
  mkHead 900 1000 minInt64
         (fun k => if k =? 3 then mkSeries (Some (1000, VH 7)) [(1000, VH 7)] [] [] else empty_series).
Definition ex_log2 : list entry := [(1, 1010, VF 1); (3, 1010, VF staleBits); (1, 1020, VH 2); (2, 1000, VFH 1)].
Example C02_sequential_marker_nonvacuous :
  head_wf ex_head2 /\ safe ex_log2 /\ ~ nostale ex_log2 /\
  series_samples (h_series (commit (mkCfg 1000 300 32) ex_head2 (appender_of ex_sn ex_log2)) 3)
    = [(1000, VH 7); (1010, VH 0)].
Proof.
  split; [unfold head_wf; cbn; unfold maxInt64, minInt64; lia|].
  split; [cbn; repeat split; try discriminate; repeat constructor; cbn; lia|].
  split; [|vm_compute; reflexivity].
  intros H. inversion H as [|? ? _ H2]; subst. inversion H2 as [|? ? H3 _]; subst. vm_compute in H3. discriminate.
Qed.

Example C02_sequential_nonvacuous :
  head_wf ex_head /\ nostale ex_log /\
  length (a_batches (appender_of ex_sn ex_log)) = 2%nat /\
  series_samples (h_series (commit (mkCfg 1000 300 32) ex_head (appender_of ex_sn ex_log)) 1)
    = [(900, VF 7); (1000, VF 7); (1010, VF 1); (1020, VH 2); (1030, VF 4); (950, VF 2)].
Proof.
  split; [unfold head_wf; cbn; unfold maxInt64, minInt64; lia|].
  split; [repeat constructor|]. split; vm_compute; reflexivity.
Qed.
