(* props/C45.v — property theorems for C45 (recording rules write their results and staleness
   markers).  Nothing but statements; proofs are in proof/RuleGroupProofs.v.

   The model (model/RuleGroup.v) is Group.Eval / RecordingRule.Eval / CopyState /
   cleanupStaleSeries over an abstract append-only storage; [qf] is the query function
   (ManagerOptions.QueryFunc) — every theorem holds for ANY query function, the examples and
   the correspondence check instantiate it with the instant-query evaluator [query].
   All statements quantify over arbitrary stores and group states, hence over every state
   reachable by any history of scrapes, evaluations, reloads and removals; C45_history_append_only
   lifts "is in the store" to the end of every history.

   Vocabulary: an [arec] (l, t, v, res) is one Append call of an appender with its result;
   [triple] forgets the result; [written log] are the series whose Append was accepted. *)
From Coq Require Import List ZArith Bool.
From Verif Require Import model.RuleGroup proof.RuleGroupProofs.
Import ListNotations.
Open Scope Z_scope.

(* A successful rule evaluation at query time qt (= ts - query offset) appends exactly its
   result vector, every sample stamped qt, before the markers; every Append that the storage
   accepted — result or marker — is in the store afterwards. *)
Theorem C45_results_stored : forall qf st r prev qt limit vec,
  rule_eval qf st r qt limit = Some vec ->
  exists st' log1 log2,
    eval_rule qf st r prev qt limit = (st', written log1, Some (log1 ++ log2)) /\
    map triple log1 = map (fun lz => (fst lz, qt, VNum (snd lz))) vec /\
    (forall a, In a log2 -> rec_val a = VStale) /\
    (forall a, In a (log1 ++ log2) -> rec_res a = AOk -> In (rec_ts a, rec_val a) (samples st' (rec_lbl a))).
Proof.
  intros qf st r prev qt limit vec H.
  destruct (eval_rule_ok qf st r prev qt limit vec H) as (st' & l1 & l2 & He & L1 & L2 & Hs & _).
  exists st', l1, l2. repeat split; auto. intros a. exact (triple_stale _ _ _ _ L2).
Qed.

(* ... under the rule's name and labels (rule labels have distinct names and do not set __name__). *)
Theorem C45_results_named : forall qf st r qt limit vec l z,
  rule_eval qf st r qt limit = Some vec -> In (l, z) vec ->
  ~ In name_label (map fst (r_labels r)) -> NoDup (map fst (r_labels r)) ->
  lget l name_label = Some (r_name r) /\ forall k v, In (k, v) (r_labels r) -> lget l k = Some v.
Proof. exact results_named. Qed.

(* The markers of that evaluation are exactly: series written by the previous successful
   evaluation (prev) that this one did not write, each stamped qt; and the new "previous"
   set is what this evaluation wrote. *)
Theorem C45_stale_diff : forall qf st r prev qt limit vec,
  rule_eval qf st r qt limit = Some vec ->
  exists st' log1 log2,
    eval_rule qf st r prev qt limit = (st', written log1, Some (log1 ++ log2)) /\
    map triple log1 = map (fun lz => (fst lz, qt, VNum (snd lz))) vec /\
    map triple log2 = map (fun l => (l, qt, VStale)) (vanished prev (written log1)) /\
    (forall l, In l (vanished prev (written log1)) <-> In l prev /\ ~ In l (written log1)).
Proof.
  intros qf st r prev qt limit vec H.
  destruct (eval_rule_ok qf st r prev qt limit vec H) as (st' & l1 & l2 & He & L1 & L2 & _).
  exists st', l1, l2. split; [exact He|]. split; [exact L1|]. split; [exact L2|]. intros l. apply vanished_spec.
Qed.

(* A failed evaluation (colliding label sets, limit) writes nothing, marks nothing, and
   leaves the "previous successful evaluation" untouched. *)
Theorem C45_failed_eval : forall qf st r prev qt limit,
  rule_eval qf st r qt limit = None -> eval_rule qf st r prev qt limit = (st, prev, None).
Proof. exact eval_rule_failed. Qed.

(* Rules are evaluated in order: the rule after [pre] is evaluated (its query included)
   against the store st1 left by [pre], and in st1 every result sample that an earlier rule
   of this very evaluation wrote successfully is what an instant selector at qt returns. *)
Theorem C45_order_dependency : forall qf gid st qt limit pre r prev post,
  exists st1 pre' ev1,
    eval_rules qf gid st qt limit 0 pre = (st1, pre', ev1) /\
    (exists rest, snd (eval_rules qf gid st qt limit 0 (pre ++ (r, prev) :: post)) =
                  ev1 ++ EvRule gid (Z.of_nat (length pre)) (snd (eval_rule qf st1 r prev qt limit)) :: rest) /\
    (forall j log a z, In (EvRule gid j (Some log)) ev1 -> In a log -> rec_res a = AOk -> rec_val a = VNum z ->
        sel_sample (samples st1 (rec_lbl a)) qt = Some z).
Proof. exact order_dependency. Qed.

(* Reload: the series of an old rule whose (name, labels) is not configured any more are
   all marked stale, at the evaluation's timestamp, by the cleanup appender of the next
   evaluation of the group (accepted markers are in the store) — and only once: no later
   evaluation opens a cleanup appender. *)
Theorem C45_removed_rule_marked : forall qf s gid from rules off lim r p l ts,
  find_group (s_groups s) gid = Some from ->
  In (r, p) (g_rules from) -> ~ In (rkey_of r) (map rkey_of rules) -> In l p ->
  let s1 := fst (step qf s (OpLoad gid rules off lim)) in
  let s2 := fst (step qf s1 (OpEval gid ts)) in
  (exists log, In (EvCleanup gid log) (snd (step qf s1 (OpEval gid ts))) /\
               In (l, ts - off, VStale) (map triple log) /\
               (forall a, In a log -> rec_res a = AOk ->
                          In (rec_ts a, rec_val a) (samples (s_store s2) (rec_lbl a)))) /\
  (forall ts' g' log', ~ In (EvCleanup g' log') (snd (step qf s2 (OpEval gid ts')))).
Proof. exact removed_rule_marked. Qed.

(* Removing a group marks every series of every one of its rules (and what was still
   waiting in staleSeries) at the removal time; the group is gone afterwards. *)
Theorem C45_removed_group_marked : forall qf s gid g ts l r p,
  find_group (s_groups s) gid = Some g -> In (r, p) (g_rules g) -> In l p ->
  let s' := fst (step qf s (OpRemove gid ts)) in
  exists log, snd (step qf s (OpRemove gid ts)) = [EvCleanup gid log] /\
              map triple log = map (fun l => (l, ts - g_offset g, VStale)) (g_stale g ++ flat_map snd (g_rules g)) /\
              In (l, ts - g_offset g, VStale) (map triple log) /\
              (forall a, In a log -> rec_res a = AOk -> In (rec_ts a, rec_val a) (samples (s_store s') (rec_lbl a))) /\
              find_group (s_groups s') gid = None.
Proof. exact removed_group_marked. Qed.

(* Whatever is in the store at some point of a history is in it at every later point. *)
Theorem C45_history_append_only : forall qf ops1 ops2 x l,
  In x (samples (s_store (fst (run qf ops1))) l) -> In x (samples (s_store (fst (run qf (ops1 ++ ops2)))) l).
Proof. exact history_append_only. Qed.

(* Concurrent evaluation: the batches of concurrentRuleEvalController.SplitGroupIntoBatches
   (over the dependency analysis of buildDependencyMap) evaluate a rule strictly after EVERY
   earlier rule of the group whose name its selector matches — also when several earlier rules
   share that name — and contain every rule.  (Within a batch rules run concurrently; batches
   run one after the other.) *)
Theorem C45_batches_respect_dependencies : forall rules i j ri rj,
  (i < j)%nat -> nth_error rules i = Some ri -> nth_error rules j = Some rj -> dep_on rj ri = true ->
  before (split_batches rules) i j.
Proof. exact batches_respect. Qed.

Theorem C45_batches_cover : forall rules i, (i < length rules)%nat -> In i (concat (split_batches rules)).
Proof. exact batches_cover. Qed.

(* base = m0;  lvl{c="x0"} = base;  lvl{c="x1"} = base;  total = sum by () (lvl):
   both lvl rules are evaluated one by one before total *)
Example C45_nonvacuous_batches :
  split_batches [mkRule 10 [] (mkExpr 0 None None 1 0 None);
                 mkRule 11 [(3, 0)] (mkExpr 10 None None 1 0 None);
                 mkRule 11 [(3, 1)] (mkExpr 10 None None 1 0 None);
                 mkRule 12 [] (mkExpr 11 None (Some []) 1 0 None)]
  = [[0]; [1]; [2]; [3]]%nat.
Proof. vm_compute. reflexivity. Qed.

(* ------------------------------------------------------------------ non-vacuity *)
Definition m0a0 : lset := [(0, 0); (1, 0)].
Definition m0a1 : lset := [(0, 0); (1, 1)].
Definition sel0 : expr := mkExpr 0 None None 1 0 None.
Definition r0 : rule := mkRule 10 [] sel0.                                   (* r0 = m0 *)
Definition r1 : rule := mkRule 11 [(3, 1)] (mkExpr 10 None None 2 1 None).   (* r1{c="x1"} = r0 * 2 + 1 *)

Definition hist1 : list op :=
  [OpLoad 0 [r0; r1] 0 0;
   OpRaw m0a0 600000 (VNum 5); OpRaw m0a1 600000 (VNum 7); OpEval 0 600000;
   OpRaw m0a0 615000 (VNum 6); OpRaw m0a1 615000 VStale; OpEval 0 615000;
   OpLoad 0 [r0] 0 0; OpRaw m0a0 630000 (VNum 6); OpEval 0 630000; OpEval 0 645000].

(* the hypotheses of C45_results_stored / C45_stale_diff are met with a non-empty vector *)
Example C45_nonvacuous_eval :
  rule_eval query (s_store (fst (run query (firstn 3 hist1)))) r0 600000 0
  = Some [([(0, 10); (1, 0)], 5); ([(0, 10); (1, 1)], 7)].
Proof. vm_compute. reflexivity. Qed.

(* order dependency: at the first evaluation r1 already sees r0's results of that timestamp;
   churn: at the second evaluation the series of m0{a="x1"} get their markers *)
Example C45_nonvacuous_history :
  snd (run query (firstn 7 hist1)) =
  [EvRaw AOk; EvRaw AOk;
   EvRule 0 0 (Some [([(0, 10); (1, 0)], 600000, VNum 5, AOk); ([(0, 10); (1, 1)], 600000, VNum 7, AOk)]);
   EvRule 0 1 (Some [([(0, 11); (1, 0); (3, 1)], 600000, VNum 11, AOk); ([(0, 11); (1, 1); (3, 1)], 600000, VNum 15, AOk)]);
   EvRaw AOk; EvRaw AOk;
   EvRule 0 0 (Some [([(0, 10); (1, 0)], 615000, VNum 6, AOk); ([(0, 10); (1, 1)], 615000, VStale, AOk)]);
   EvRule 0 1 (Some [([(0, 11); (1, 0); (3, 1)], 615000, VNum 13, AOk); ([(0, 11); (1, 1); (3, 1)], 615000, VStale, AOk)])].
Proof. vm_compute. reflexivity. Qed.

(* reload without r1: its remaining series is marked by the cleanup appender of the next
   evaluation, and not again *)
Example C45_nonvacuous_reload :
  skipn 8 (snd (run query hist1)) =
  [EvRaw AOk;
   EvRule 0 0 (Some [([(0, 10); (1, 0)], 630000, VNum 6, AOk)]);
   EvCleanup 0 [([(0, 11); (1, 0); (3, 1)], 630000, VStale, AOk)];
   EvRule 0 0 (Some [([(0, 10); (1, 0)], 645000, VNum 6, AOk)])].
Proof. vm_compute. reflexivity. Qed.

Example C45_nonvacuous_removed_rule :
  let s := fst (run query (firstn 7 hist1)) in
  exists from p, find_group (s_groups s) 0 = Some from /\ In (r1, p) (g_rules from) /\
                 ~ In (rkey_of r1) (map rkey_of [r0]) /\ In [(0, 11); (1, 0); (3, 1)] p.
Proof.
  eexists. eexists. split; [vm_compute; reflexivity|]. split; [right; left; reflexivity|].
  split; [|left; reflexivity].
  intros [H | []]. discriminate H.
Qed.
