(* props/C05.v — C05 "Readers see whole transactions only".

   The model (model/Isolation.v) is a transition system over the atomic steps of the real code
   (ENewApp, EApply = one sample of a Commit, ECleanup = one sample of a Rollback, EClose,
   ENewReader, ECloseReader, EMmap); [run init tr = ROk st] says tr is a valid trace (every
   step's precondition held) ending in st.  All theorems quantify over ALL valid traces, i.e.
   over every interleaving of any number of appenders, rollbacks, chunk cuts (the [cut] flag of
   EApply is unconstrained), m-mapping and reader creation/closing, and over every open reader
   reading at any later moment.

   Ghost state used to state the property (not used by the modelled code): st_closed = the
   appendIDs whose closeAppend step has happened; rd_snap = st_closed at the reader's creation;
   s_owner = the appendID a sample was written with.

   FULL STATEMENT of the property (completeness half), kept here as required:
     forall tr st rd sref x, run init tr = ROk st -> In rd (st_readers st) ->
       In x (all_samples (st_series st sref)) -> In (s_owner x) (rd_snap rd) ->
       exists l, read_series rd (st_series st sref) = Some l /\ In x l
   It is FALSE of the faithful model and of the code (C05_complete_refuted; known finding
   committed-txn-hidden-behind-inflight-sample).  What holds instead is the exact
   characterisation C05_read_is_visible_prefix, from which the safety half
   (C05_no_dirty_read) holds in full and completeness / all-or-nothing hold under the side
   condition of C05_complete_partial / C05_whole_txn_partial. *)
From Coq Require Import List ZArith Bool.
From Verif Require Import model.Isolation proof.IsolationProofs.
Import ListNotations.
Open Scope Z_scope.

(* Safety half, at full strength: an open reader was created by an ENewReader step of the
   trace, and whatever it returns for any series at any later moment was written by appenders
   whose closeAppend step precedes that ENewReader step (never a sample of an appender that
   had not finished committing when the reader was created; never a panic). *)
Theorem C05_no_dirty_read :
  forall tr st rd,
    run init tr = ROk st -> In rd (st_readers st) ->
    exists tr1 st1 tr2,
      tr = tr1 ++ ENewReader (rd_key rd) :: tr2 /\ run init tr1 = ROk st1 /\
      forall sref, exists l, read_series rd (st_series st sref) = Some l /\
        forall x, In x l -> In (s_owner x) (st_closed st1) /\ In (EClose (s_owner x)) tr1.
Proof. exact no_dirty_read. Qed.

(* Exact characterisation of a read: the longest prefix of the series' samples whose
   appenders were closed when the reader was created. *)
Theorem C05_read_is_visible_prefix :
  forall tr st rd sref,
    run init tr = ROk st -> In rd (st_readers st) ->
    read_series rd (st_series st sref) =
    Some (takewhile (fun x => memZ (s_owner x) (rd_snap rd)) (all_samples (st_series st sref))).
Proof. exact read_prefix. Qed.

(* The invariant the stopAfter arithmetic relies on: in every reachable state the ring is
   well formed (count <= len, first < len) and its logical contents are exactly the appendIDs
   of the newest txIDCount samples of the series, across chunk cuts, m-mapping and trimming. *)
Theorem C05_ring_alignment :
  forall tr st sref,
    run init tr = ROk st ->
    let s := st_series st sref in
    wf_ring (m_txs s) /\ (r_count (m_txs s) <= length (all_samples s))%nat /\
    ring_contents (m_txs s) = map s_owner (lastn (r_count (m_txs s)) (all_samples s)).
Proof. exact ring_alignment. Qed.

(* Trimming with the low watermark never drops an appendID a live reader still needs: every
   sample no longer covered by the ring was written by a closed appender that every open
   reader is entitled to see. *)
Theorem C05_watermark_sound :
  forall tr st sref x,
    run init tr = ROk st ->
    let s := st_series st sref in
    In x (firstn (length (all_samples s) - r_count (m_txs s)) (all_samples s)) ->
    In (s_owner x) (st_closed st) /\ forall rd, In rd (st_readers st) -> entitled rd x = true.
Proof. exact watermark_sound. Qed.

(* The completeness half is refuted: a reader created after appender 2 closed gets 2's sample
   on series 3 but not on series 1, where it sits behind a sample of the still open appender 1. *)
Theorem C05_complete_refuted :
  exists tr st rd x1 x3,
    run init tr = ROk st /\ In rd (st_readers st) /\
    In (s_owner x1) (rd_snap rd) /\ s_owner x3 = s_owner x1 /\
    In x1 (all_samples (st_series st 1)) /\ In x3 (all_samples (st_series st 3)) /\
    read_series rd (st_series st 1) = Some [] /\
    read_series rd (st_series st 3) = Some [x3].
Proof. exact complete_refuted. Qed.

(* Completeness for every sample not behind a sample the reader is not entitled to. *)
Theorem C05_complete_partial :
  forall tr st rd sref l1 x l2,
    run init tr = ROk st -> In rd (st_readers st) ->
    all_samples (st_series st sref) = l1 ++ x :: l2 ->
    In (s_owner x) (rd_snap rd) -> Forall (fun y => In (s_owner y) (rd_snap rd)) l1 ->
    exists l, read_series rd (st_series st sref) = Some l /\ In x l.
Proof. exact complete_partial. Qed.

(* All-or-nothing for every transaction none of whose series has an earlier sample of an
   appender that was still open at the reader's creation. *)
Theorem C05_whole_txn_partial :
  forall tr st rd a,
    run init tr = ROk st -> In rd (st_readers st) ->
    (forall sref l1 x l2, all_samples (st_series st sref) = l1 ++ x :: l2 -> s_owner x = a ->
                          Forall (fun y => In (s_owner y) (rd_snap rd)) l1) ->
    (In a (rd_snap rd) ->
     forall sref x, In x (all_samples (st_series st sref)) -> s_owner x = a ->
                    exists l, read_series rd (st_series st sref) = Some l /\ In x l) /\
    (~ In a (rd_snap rd) ->
     forall sref l, read_series rd (st_series st sref) = Some l -> forall x, In x l -> s_owner x <> a).
Proof. exact whole_txn_partial. Qed.

(* isolation.lowWatermark() (oldest open reader's watermark, else lowest open appendID, else
   last issued id) never decreases along a valid trace, whatever appenders and readers do. *)
Theorem C05_watermark_monotone :
  forall tr1 tr2 st1 st2,
    run init tr1 = ROk st1 -> run st1 tr2 = ROk st2 ->
    low_watermark (st_last st1) (st_open st1) (st_readers st1) <=
    low_watermark (st_last st2) (st_open st2) (st_readers st2).
Proof. exact watermark_monotone. Qed.

(* No step of a valid trace hits a Go panic (ring index / slice bounds). *)
Theorem C05_no_panic : forall tr, run init tr <> RPanic.
Proof. exact no_panic. Qed.

(* ---------------------------------------------------------------- non-vacuity *)

(* appender 1 commits two series; appender 2 is in the middle of its commit (one of two
   samples applied, ring grown and partly trimmed) when reader 7 is created; m-map and a
   chunk cut happen; the reader is open, sees 1's samples and none of 2's *)
Definition tr_ex : list ev :=
  [ENewApp; EApply 1 1 10 1000 false; EApply 1 2 10 1001 false; EClose 1;
   ENewApp; EApply 2 1 20 2000 true; ENewReader 7; EMmap 1; EApply 2 2 20 2001 false;
   ENewApp; EApply 3 1 30 3000 false; EClose 3].

Example C05_trace_nonvacuous :
  exists st rd,
    run init tr_ex = ROk st /\ In rd (st_readers st) /\ rd_snap rd = [1] /\
    map s_v (all_samples (st_series st 1)) = [1000; 2000; 3000] /\
    read_series rd (st_series st 1) = Some [mkS 10 1000 1] /\
    read_series rd (st_series st 2) = Some [mkS 10 1001 1] /\
    r_count (m_txs (st_series st 1)) = 2%nat.
Proof.
  eexists. eexists. split; [vm_compute; reflexivity|]. split; [left; reflexivity|].
  vm_compute. repeat split; reflexivity.
Qed.

(* the side condition of C05_complete_partial is met non-trivially in that state: sample
   (10,1000) of the closed appender 1 has no predecessor, and is returned *)
Example C05_partial_nonvacuous :
  exists st rd x, run init tr_ex = ROk st /\ In rd (st_readers st) /\
    all_samples (st_series st 1) = [] ++ x :: [mkS 20 2000 2; mkS 30 3000 3] /\
    In (s_owner x) (rd_snap rd).
Proof.
  eexists. eexists. eexists. split; [vm_compute; reflexivity|]. split; [left; reflexivity|].
  split; vm_compute; auto.
Qed.

(* the watermark really moves: 2 when reader 7 has just been created (appender 1 closed,
   appender 2 open), 3 after tr_ex followed by closing the reader and appender 2 *)
Example C05_watermark_moves :
  exists st1 st2,
    run init (firstn 7 tr_ex) = ROk st1 /\ run st1 (skipn 7 tr_ex ++ [ECloseReader 7; EClose 2]) = ROk st2 /\
    low_watermark (st_last st1) (st_open st1) (st_readers st1) = 2 /\
    low_watermark (st_last st2) (st_open st2) (st_readers st2) = 3.
Proof.
  eexists. eexists. split; [vm_compute; reflexivity|]. split; [vm_compute; reflexivity|].
  split; vm_compute; reflexivity.
Qed.
