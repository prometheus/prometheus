(* props/C41.v — property theorems for C41 (remote-write receivers store exactly what they
   report as written). Statements; the lemmas they follow from are proved in proof/WriteReqProofs.v. *)
From Coq Require Import List ZArith Bool.
From Verif Require Import model.WriteReq proof.WriteReqProofs.
Import ListNotations.
Open Scope Z_scope.

(* The 2.0 symbol table round-trips: references produced by SymbolizeLabels, decoded against the
   table (grown by any later additions), give the label set back, in name order — identically
   when the input was already strictly sorted by name (as every labels.Labels value is). *)
Theorem C41_symbols_roundtrip : forall tbl ls tbl' refs,
  symbolize_labels tbl ls = (tbl', refs) -> desymbolize refs tbl' = Some (sort_labels ls).
Proof.
  intros tbl ls tbl' refs H. apply symbolize_labels_spec in H as [_ D].
  unfold desymbolize. rewrite (D tbl' (extends_refl _)). reflexivity.
Qed.

Theorem C41_symbols_roundtrip_sorted : forall tbl ls tbl' refs, sorted_strict ls = true ->
  symbolize_labels tbl ls = (tbl', refs) -> desymbolize refs tbl' = Some ls.
Proof.
  intros tbl ls tbl' refs S H. rewrite (C41_symbols_roundtrip _ _ _ _ H), (sort_sorted_strict _ S). reflexivity.
Qed.

(* ... for all series of a request sharing one table: later symbols do not disturb earlier
   references. *)
Theorem C41_symbols_roundtrip_request : forall lss tbl tbl' refss,
  symbolize_all tbl lss = (tbl', refss) ->
  map (fun r => desymbolize r tbl') refss = map (fun ls => Some (sort_labels ls)) lss.
Proof. intros lss tbl tbl' refss H. apply symbolize_all_spec in H as [_ D]. apply D, extends_refl. Qed.

(* Protocol 2.0, ANY appender (any per-append outcome, any commit result), any request: after a
   commit the three written-count headers equal the numbers of float, histogram and exemplar
   appends the appender acknowledged; the status is 204 or 400, and 204 only if every series was
   acceptable (decodable references, valid label set, not empty); nothing is acknowledged under
   an invalid label set; otherwise (hard error or failed commit) the counts are zero, nothing is
   kept and the status is 500. *)
Theorem C41_counts_equal_acknowledged : forall St (A : appender St) maxT st0 r,
  let res := handle_v2 A maxT st0 r in
  match r_fin res with
  | FCommitted =>
      r_stats res = Some (count_f (r_trace res), count_h (r_trace res), count_e (r_trace res))
      /\ (r_status res = 204 \/ r_status res = 400)
      /\ (r_status res = 204 -> forallb (series_ok (r2_syms r)) (r2_series r) = true)
      /\ Forall (fun e => valid_series (ev_labels e) = true) (r_trace res)
  | _ => r_stats res = Some (0, 0, 0) /\ r_trace res = [] /\ r_status res = 500
  end.
Proof.
  intros St A maxT st0 r res.
  pose proof (v2_all_start St A maxT _ (tracks_nothing St A) _ (fun _ H => H) st0 (r2_syms r) (r2_series r) I) as H.
  destruct (handle_v2_cases St A maxT st0 r) as [(st & E & Hr)|[(a & st & E & _ & Hr)|(a & st & E & _ & Hr)]];
    subst res; rewrite Hr; simpl; auto.
  rewrite E in H. destruct H as ((_ & Hs & Hh & He & HF & _) & C).
  destruct (count_rev (ac_tr a)) as (-> & -> & ->). rewrite Hs, Hh, He.
  repeat split; [destruct (ac_bad a =? 0); auto | | apply Forall_rev, HF].
  destruct (Z.eqb_spec (ac_bad a) 0); [auto | discriminate].
Qed.

(* Full statement: for every storage, the reported counts equal what the request added to the
   storage. Proved (_partial) for every ATOMIC storage — one whose decision on an append may
   depend on everything stored and everything acknowledged so far in the request, and which
   stores at commit exactly what it acknowledged: the storage grows by `new`, the headers are
   the counts of `new`, every stored item has a valid label set, a 500 stores nothing, a 204
   means every series was acceptable. Missing: the TSDB head is not atomic in this sense
   (C41_counts_equal_stored_refuted). *)
Theorem C41_counts_equal_stored_partial : forall decide maxT s0 r, id_pending s0 = [] ->
  let res := handle_v2 (ideal_app decide) maxT s0 r in
  exists new,
    id_stored (r_state res) = new ++ id_stored s0 /\ id_pending (r_state res) = []
    /\ r_stats res = Some (count_f new, count_h new, count_e new)
    /\ Forall (fun e => valid_series (ev_labels e) = true) new
    /\ (r_status res = 500 -> new = [])
    /\ (r_status res = 204 -> forallb (series_ok (r2_syms r)) (r2_series r) = true).
Proof.
  intros decide maxT s0 r P0 res.
  pose proof (v2_all_start _ _ maxT _ (ideal_tracks decide s0) _ (fun _ H => H) s0 (r2_syms r) (r2_series r)
                (conj P0 eq_refl)) as H.
  destruct (handle_v2_cases _ (ideal_app decide) maxT s0 r) as [(st & E & Hr)|[(a & st & E & Ec & Hr)|(a & st & E & Ec & Hr)]];
    subst res; rewrite Hr; rewrite E in H; simpl.
  - destruct H as (tr & _ & R2). exists []. rewrite R2. repeat split; auto. discriminate.
  - discriminate Ec.
  - destruct H as (([R1 R2] & Hs & Hh & He & HF & _) & C). inversion Ec; subst st; clear Ec. simpl.
    exists (ac_tr a). rewrite R1, R2, Hs, Hh, He. repeat split; auto.
    + destruct (ac_bad a =? 0); discriminate.
    + destruct (Z.eqb_spec (ac_bad a) 0); [auto | discriminate].
Qed.

(* The faithful two-phase model of the TSDB head (Append checks against the committed series,
   Commit re-checks and silently drops) violates it: a 2.0 request with two samples of one
   series, the second older, is answered 204 with Samples-Written: 2 while one sample is
   stored. Reproduced on the real handler + real Head by the harness corpus. *)
Theorem C41_counts_equal_stored_refuted : exists h r maxT,
  let res := head_request maxT h (R2 r) in
  r_status res = 204 /\ r_stats res = Some (2, 0, 0) /\ r_fin res = FCommitted
  /\ head_floats (ha_head (r_state res)) - head_floats h = 1.
Proof. exists (head_new true 1000), w_req_ooo, w_big. vm_compute. repeat split. Qed.

(* With exemplar storage disabled the head acknowledges every exemplar and stores none. *)
Theorem C41_exemplars_disabled_refuted : exists h r maxT,
  let res := head_request maxT h (R2 r) in
  r_status res = 204 /\ r_stats res = Some (1, 0, 1) /\ head_exs (ha_head (r_state res)) = 0.
Proof. exists (head_new false 1000), w_req_ex, w_big. vm_compute. repeat split. Qed.

(* Two exemplars of one series in one request, the second older: both counted, one stored. *)
Theorem C41_exemplars_ooo_refuted : exists h r maxT,
  let res := head_request maxT h (R2 r) in
  r_status res = 204 /\ r_stats res = Some (1, 0, 2) /\ head_exs (ha_head (r_state res)) = 1.
Proof. exists (head_new true 1000), w_req_ex2, w_big. vm_compute. repeat split. Qed.

(* Protocol 1.0 over an atomic storage is all-or-nothing: on 204 the storage grew by exactly
   the acknowledged appends (all under valid label sets), on any other status it is unchanged. *)
Theorem C41_v1_all_or_nothing : forall decide maxT s0 r, id_pending s0 = [] ->
  let res := handle_v1 (ideal_app decide) maxT s0 r in
  id_pending (r_state res) = [] /\
  (r_status res = 204 ->
     id_stored (r_state res) = rev (r_trace res) ++ id_stored s0
     /\ Forall (fun e => valid_series (ev_labels e) = true) (r_trace res))
  /\ (r_status res <> 204 -> id_stored (r_state res) = id_stored s0 /\ r_trace res = []).
Proof.
  intros decide maxT s0 r P0 res.
  pose proof (v1_all_inv _ _ maxT _ (ideal_tracks decide s0) _ (fun _ H => H) r s0 []
                (conj (conj P0 eq_refl) (Forall_nil _))) as H.
  destruct (handle_v1_cases _ (ideal_app decide) maxT s0 r) as [(st & o & E & Hr)|[(st & tr & st' & E & Ec & Hr)|(st & tr & st' & E & Ec & Hr)]];
    subst res; rewrite Hr; rewrite E in H; simpl.
  - destruct H as (tr & _ & R2). repeat split; auto.
  - discriminate Ec.
  - destruct H as (([R1 R2] & HF) & _).
    inversion Ec; subst st'; clear Ec. simpl. rewrite R1, R2, rev_involutive.
    repeat split; auto using Forall_rev; congruence.
Qed.

(* Protocol 1.0, any appender: a 204 means every float sample and histogram of every valid
   series was acknowledged, in request order (exemplar failures are ignored by design). *)
Theorem C41_v1_success_all_acknowledged : forall St (A : appender St) maxT st0 r,
  let res := handle_v1 A maxT st0 r in
  r_status res = 204 -> nonex (r_trace res) = v1_wanted r.
Proof.
  intros St A maxT st0 r res.
  pose proof (v1_all_inv St A maxT _ (tracks_nothing St A) (fun _ => True) (fun _ _ => I) r st0 []
                (conj I (Forall_nil _))) as H.
  destruct (handle_v1_cases St A maxT st0 r) as [(st & o & E & Hr)|[(st & tr & st' & E & _ & Hr)|(st & tr & st' & E & _ & Hr)]];
    subst res; rewrite Hr; simpl; try discriminate; [destruct o; discriminate|].
  rewrite E in H. intros _. apply H.
Qed.

(* ... which the two-phase head breaks: 204 although a sample of a valid series was dropped. *)
Theorem C41_v1_success_refuted : exists h r maxT,
  let res := head_request maxT h (R1 r) in
  r_status res = 204 /\ length (v1_wanted r) = 2%nat /\ head_floats (ha_head (r_state res)) = 1.
Proof. exists (head_new true 1000), w_req_v1, w_big. vm_compute. repeat split. Qed.

(* Invalid series: protocol 1.0 never appends under an invalid label set (the series is skipped;
   the status stays 204 — the code's own TODO notes the 1.0 specification asks for 400). The 2.0
   part is in C41_counts_equal_acknowledged. *)
Theorem C41_invalid_rejected : forall St (A : appender St) maxT st0 r,
  Forall (fun e => valid_series (ev_labels e) = true) (r_trace (handle_v1 A maxT st0 r)).
Proof.
  intros St A maxT st0 r.
  pose proof (v1_all_inv St A maxT _ (tracks_nothing St A) _ (fun _ H => H) r st0 []
                (conj I (Forall_nil _))) as H.
  destruct (handle_v1_cases St A maxT st0 r) as [(st & o & E & ->)|[(st & tr & st' & E & _ & ->)|(st & tr & st' & E & _ & ->)]];
    simpl; try constructor.
  rewrite E in H. apply Forall_rev, H.
Qed.

(* Codec. Full statement: a native histogram (integer or float, any schema incl. custom buckets,
   any spans / buckets / custom values / reset hint, floats as bit patterns), its timestamp and
   start timestamp survive From*Histogram -> Marshal -> Unmarshal -> To*Histogram of either
   protocol unchanged, bit for bit. Proved (_partial) for histograms whose sum and zero threshold
   are not negative zero; missing: -0.0 in a scalar double field (refuted below). *)
Theorem C41_codec_roundtrip_partial : forall st ts h, wire_safe h ->
  (g_float h = false ->
     let p := transmit (from_int st ts h) in
     to_int p = Some h /\ is_float_hist p = false /\ p_ts p = ts /\ p_st p = st) /\
  (g_float h = true ->
     let p := transmit (from_float st ts h) in
     to_float p = h /\ to_int p = None /\ is_float_hist p = true /\ p_ts p = ts /\ p_st p = st).
Proof.
  intros st ts h [S1 S2]. unfold to_float, to_int. simpl.
  rewrite (wire_f_id _ S1), (wire_f_id _ S2).
  split; intros F; (split; [rewrite <- F; destruct h; reflexivity | auto]).
Qed.

(* Every other double value of a sample / exemplar / histogram scalar survives the wire ... *)
Theorem C41_value_roundtrip_partial : forall v, v <> negzero -> wire_f v = v.
Proof. exact wire_f_id. Qed.

(* ... but negative zero arrives as +0.0 (the generated proto3 marshaller writes a double only
   `if m.X != 0`): Sample.value, Exemplar.value, Histogram.sum, Histogram.zero_threshold. *)
Theorem C41_codec_negative_zero_refuted :
  wire_f negzero <> negzero /\
  g_float w_negz_hist = true /\ to_float (transmit (from_float 0 0 w_negz_hist)) <> w_negz_hist.
Proof. split; [vm_compute; discriminate|]. split; [reflexivity|]. vm_compute. discriminate. Qed.

(* The float view of an integer histogram (ToFloatHistogram on an integer message): all fields
   kept, counts converted with float64(), bucket counts = partial sums of the deltas (exact while
   below 2^53). *)
Theorem C41_codec_int_to_float : forall st ts h, g_float h = false ->
  Forall small (g_pb h) -> Forall small (psums 0 (g_pb h)) ->
  Forall small (g_nb h) -> Forall small (psums 0 (g_nb h)) ->
  let f := to_float (transmit (from_int st ts h)) in
  g_float f = true /\ g_hint f = g_hint h /\ g_schema f = g_schema h /\ g_zt f = wire_f (g_zt h)
  /\ g_sum f = wire_f (g_sum h) /\ g_zc f = z2f (g_zc h) /\ g_count f = z2f (g_count h)
  /\ g_pspans f = g_pspans h /\ g_nspans f = g_nspans h /\ g_custom f = g_custom h
  /\ g_pb f = map bits_exact (psums 0 (g_pb h)) /\ g_nb f = map bits_exact (psums 0 (g_nb h)).
Proof.
  intros st ts h _ P1 P2 N1 N2 f. subst f. unfold to_float. simpl.
  rewrite (deltas_to_counts_exact _ 0 P1 P2), (deltas_to_counts_exact _ 0 N1 N2).
  repeat split.
Qed.

Example C41_nonvacuous_codec :
  let h := mkGH false 2 3 4562254508917369340 1 6 4617315517961601024 [(0, 2)] [2; 1] [(-1, 1)] [3] [] in
  wire_safe h /\ g_pb (to_float (transmit (from_int 7 1000 h))) = [4611686018427387904; 4613937818241073152]
  /\ z2f 9007199254740993 = 4845873199050653696 /\ z2f 18446744073709551615 = 4895412794951729152.
Proof. vm_compute. repeat split; discriminate. Qed.

(* non-vacuity *)
Example C41_nonvacuous_partial_write :
  let res := handle_v2 (ideal_app dedup) w_big (mkIdeal [] []) w_req_mixed in
  r_status res = 400 /\ r_stats res = Some (2, 1, 1) /\ length (id_stored (r_state res)) = 4%nat.
Proof. vm_compute. repeat split. Qed.

Example C41_nonvacuous_symbols :
  symbolize_labels new_table [(metric_name, [109; 49]); ([97], [109; 49])]
  = ([[]; metric_name; [109; 49]; [97]], [1; 2; 3; 2]%nat)
  /\ sorted_strict [([97], [109; 49]); (metric_name, [109; 49])] = false
  /\ sorted_strict [(metric_name, [109; 49]); ([97], [109; 49])] = true.
Proof. vm_compute. repeat split. Qed.

Example C41_same_samples_in_two_requests_are_rejected :
  let h := head_new true 1000 in
  let r1 := head_request w_big h (R2 (mkR2 w_syms [mkTS2 [1; 2]%nat 0 0 [(2000, 1)] [] []])) in
  let r2 := head_request w_big (ha_head (r_state r1)) (R2 (mkR2 w_syms [mkTS2 [1; 2]%nat 0 0 [(1990, 2)] [] []])) in
  r_status r1 = 204 /\ r_stats r1 = Some (1, 0, 0) /\ r_status r2 = 400 /\ r_stats r2 = Some (0, 0, 0)
  /\ head_floats (ha_head (r_state r2)) = 1.
Proof. vm_compute. repeat split. Qed.
