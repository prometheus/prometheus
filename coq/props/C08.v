(* props/C08.v — property theorems for C08 (compaction planning converges and never mixes
   block classes).  Statements only; proofs are in proof/PlanProofs.v.  The specification
   predicates (wf_input, plan_shape, hints_ok, mu) are defined in model/Plan.v and are the same
   ones corr/CorrC08.v evaluates on the implementation's output.

   wf_input c ms: at least one range, ranges in (0, 2^61], block times in [-2^61, 2^61] (so no
   planning arithmetic wraps), MinTime <= MaxTime, distinct block ids.  Nothing bounds the
   number of blocks or of ranges. *)
From Coq Require Import List ZArith Bool Lia.
From Verif Require Import lib.Int64 model.Plan proof.PlanProofs.
Import ListNotations.
Open Scope Z_scope.

(* plan never panics on well-formed input ... *)
Theorem C08_plan_total : forall c ms, wf_input c ms = true -> exists p, plan c ms = Ok p.
Proof.
  intros c ms Hwf. apply wf_input_spec in Hwf as (Hc & _). unfold plan.
  destruct (plan_metas c ms) eqn:E; [eauto|destruct (plan_metas_no_panic c ms Hc E)].
Qed.

(* ... and what it returns names blocks ps of the input with [plan_shape]: empty, or distinct
   blocks of ONE class that are either an overlap group (sorted, each block starting before the
   end of the union of the previous ones; only if overlapping compaction is enabled), or a
   range group (>= 2 blocks, none failed, all inside one aligned window of one of the ranges
   after the first, pairwise disjoint when overlapping compaction is enabled, not containing
   the newest block of the class), or one block whose tombstones warrant a rewrite (also not
   the newest). *)
Theorem C08_plan_shape : forall c ms p, wf_input c ms = true -> plan c ms = Ok p ->
  exists ps, p = ids ps /\ plan_shape c ms ps = true.
Proof.
  intros c ms p Hwf Hp. apply wf_input_spec in Hwf. unfold plan in Hp.
  destruct (plan_metas c ms) as [ps|] eqn:E; [|discriminate]. injection Hp as <-.
  exists ps. split; [reflexivity|]. apply plan_metas_shape; assumption.
Qed.

(* a plan never mixes head-view classes (stale-series / selected-series / regular) *)
Theorem C08_no_class_mix : forall c ms ps, wf_input c ms = true -> plan_metas c ms = Ok ps ->
  forall x y, In x ps -> In y ps -> class_of x = class_of y.
Proof.
  intros c ms ps Hwf Hp. apply (plan_shape_same_class c ms ps).
  apply plan_metas_shape; [apply wf_input_spec; exact Hwf | exact Hp].
Qed.

(* CompactBlockMetas, for ANY non-empty input list: the out-of-order hint is set iff every input
   carries it, a partial-view hint iff some input carries it; if all inputs are of one class
   the merged block is of that class (hints_ok) *)
Theorem C08_hints : forall uid bs r, compact_block_metas uid bs = Ok r ->
  hints_ok bs r = true /\
  m_ooo r = forallb m_ooo bs /\ m_stale r = existsb m_stale bs /\ m_sel r = existsb m_sel bs.
Proof. intros uid bs r H. split; [exact (cbm_hints uid bs r H) | exact (cbm_hint_values uid bs r H)]. Qed.

(* merging what plan returned keeps the class of every planned block, and the merged block is
   out-of-order iff all planned blocks are *)
Theorem C08_plan_merge_keeps_class : forall c ms ps uid r, wf_input c ms = true ->
  plan_metas c ms = Ok ps -> compact_block_metas uid ps = Ok r ->
  (forall x, In x ps -> class_of r = class_of x) /\
  (m_ooo r = true <-> forall x, In x ps -> m_ooo x = true).
Proof.
  intros c ms ps uid r Hwf Hp Hc. apply wf_input_spec in Hwf. split.
  - apply (cbm_class uid ps r Hc), (plan_shape_same_class c ms ps), plan_metas_shape; assumption.
  - destruct (cbm_hint_values uid ps r Hc) as (-> & _). apply forallb_forall.
Qed.

(* One iteration of the plan/compact loop ([step]: plan non-empty, planned blocks replaced by the
   merged block with ANY fresh id, ANY NumSeries, no tombstones, or by nothing when the merged
   block came out empty) keeps the input well formed and strictly decreases
   mu = #blocks + #blocks with tombstones ... *)
Theorem C08_step_decreases : forall c uid written series ms ms',
  wf_input c ms = true -> ~ In uid (ids ms) -> 0 <= series < two64' ->
  compact_step c uid written series ms = Ok (Some ms') ->
  wf_input c ms' = true /\ 0 <= mu ms' < mu ms.
Proof.
  intros c uid written series ms ms' Hwf Hf Hs Hst. apply wf_input_spec in Hwf.
  destruct (compact_step_decreases c uid written series ms ms' Hwf Hf Hs Hst) as [H1 H2].
  split; [apply wf_input_spec; exact H1 | split; [apply mu_nonneg | exact H2]].
Qed.

(* ... so repeated planning and compacting stops: there is no infinite sequence of steps from a
   well-formed block set (for all choices the rewrites make), every run has at most mu ms
   steps, and a run can only stop at an empty plan *)
Theorem C08_converges : forall c ms, wf_input c ms = true -> Acc (fun a b => step c b a) ms.
Proof. intros c ms H. apply step_terminates. apply wf_input_spec. exact H. Qed.

Theorem C08_run_bound : forall c ms n ms', wf_input c ms = true -> run c ms n ms' ->
  Z.of_nat n <= mu ms /\ wf_input c ms' = true.
Proof.
  intros c ms n ms' Hwf Hr. apply wf_input_spec in Hwf.
  destruct (run_bound c ms n ms' Hwf Hr) as [H1 H2]. pose proof (mu_nonneg ms').
  split; [lia | apply wf_input_spec; exact H2].
Qed.

Theorem C08_stops_only_at_empty_plan : forall c ms uid written series, wf_input c ms = true ->
  (exists ms', compact_step c uid written series ms = Ok (Some ms')) \/
  (compact_step c uid written series ms = Ok None /\ plan c ms = Ok []).
Proof. intros c ms uid w s H. apply step_possible. apply wf_input_spec. exact H. Qed.

(* the executable loop of the model (the one whose step count is compared with the harness'
   loop over the real plan / CompactBlockMetas) ends at an empty plan within mu ms compactions
   whenever its fuel exceeds mu ms *)
Theorem C08_loop_terminates : forall fuel c next ms, wf_input c ms = true ->
  (forall i, In i (ids ms) -> i < next) -> mu ms < Z.of_nat fuel ->
  exists n, compact_loop fuel c next ms = Ok (Some n) /\ 0 <= n <= mu ms.
Proof. intros fuel c next ms H. apply compact_loop_terminates. apply wf_input_spec. exact H. Qed.

(* plan_shape spelled out as a proposition *)
Theorem C08_plan_shape_reading : forall c ms ps, plan_shape c ms ps = true ->
  ps = [] \/
  exists k, (forall x, In x ps -> class_of x = k /\ In (m_id x) (ids ms)) /\ NoDup (ids ps) /\
    ((c_overlap c = true /\ overlap_groupP ps) \/ range_groupP c (of_class k ms) ps \/
     tomb_singleP c (of_class k ms) ps).
Proof. exact plan_shape_reading. Qed.

(* ---- observation (not part of the statement proved above): with overlapping compaction
   DISABLED a range group may contain overlapping blocks; the disjointness clause of
   plan_shape is therefore conditional on the flag.  Replayed on the real code (corpus case
   "disabled overlap"). *)
Definition B (i a b : Z) : meta := mkMeta i a b false 0 10 false false false 1 [].

Theorem C08_disabled_overlap_group_may_overlap_refuted :
  exists c ms ps, wf_input c ms = true /\ c_overlap c = false /\ plan_metas c ms = Ok ps /\
                  disjoint_ordered ps = false.
Proof.
  exists (mkCfg [20; 60; 180] false), [B 0 0 10; B 1 5 15; B 2 20 30; B 3 60 70; B 4 100 110], [B 0 0 10; B 1 5 15; B 2 20 30].
  vm_compute. repeat split; reflexivity.
Qed.

(* ---- non-vacuity: each shape occurs on well-formed input, and a loop run that really compacts *)
Example C08_nonvacuous_range :
  let c := mkCfg [20; 60; 180] true in
  let ms := [B 0 (-60) (-40); B 1 (-40) (-20); B 2 (-20) 0; B 3 0 20] in
  wf_input c ms = true /\ plan c ms = Ok [0; 1; 2].
Proof. vm_compute. split; reflexivity. Qed.

Example C08_nonvacuous_overlap :
  let c := mkCfg [20; 60; 180] true in
  let ms := [B 0 0 20; B 1 19 40; B 2 40 60] in
  wf_input c ms = true /\ plan c ms = Ok [0; 1].
Proof. vm_compute. split; reflexivity. Qed.

Example C08_nonvacuous_tomb_and_classes :
  let c := mkCfg [20; 60; 180] true in
  let ms := [mkMeta 0 0 60 false 5 20 true false true 2 []; mkMeta 1 100 120 false 0 20 true false false 1 [];
             B 2 0 20; B 3 1000 1020] in
  wf_input c ms = true /\ plan c ms = Ok [0] /\ mu ms = 5.
Proof. vm_compute. repeat split; reflexivity. Qed.

Example C08_nonvacuous_loop :
  let c := mkCfg [20; 60; 180] true in
  let ms := [B 0 0 20; B 1 20 40; B 2 40 60; B 3 60 80; B 4 80 100; B 5 100 120; B 6 120 140;
             B 7 140 160; B 8 160 180; B 9 180 200] in
  wf_input c ms = true /\ compact_loop 64 c 10 ms = Ok (Some 4).
Proof. vm_compute. split; reflexivity. Qed.
