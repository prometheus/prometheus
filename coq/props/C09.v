(* props/C09.v — property theorems for C09 (retention removes only whole expired blocks, oldest
   first).  The lemmas they rest on are in proof/RetentionProofs.v.

   Everywhere `o` is the slice as deletableBlocks' (unstable) sort left it: ANY permutation of
   the blocks that is descending in MaxTime.  The theorems hold for every such `o`. *)
From Coq Require Import List ZArith Bool Lia Sorting.Permutation.
From Verif Require Import lib.Int64 model.Retention proof.RetentionProofs.
Import ListNotations.
Open Scope Z_scope.

(* Time-based retention deletes exactly the blocks whose MaxTime is at least the retention
   duration older than the newest MaxTime — whatever order the sort gave to equal MaxTimes.
   (span_ok: MaxTime differences fit int64; the code subtracts in int64.) *)
Theorem C09_time_exact : forall c bs o m b,
  Permutation o bs -> sorted_desc o = true -> NoDup (map b_id bs) ->
  0 < c_dur c -> span_ok bs -> is_newest bs m -> In b bs ->
  (In (b_id b) (beyond_time c o) <-> c_dur c <= m - b_maxt b).
Proof. exact time_exact. Qed.

(* Size-based retention keeps exactly the longest newest-first run (first k blocks of o) whose
   cumulative size plus Head().Size() stays within the limit, and deletes the rest. *)
Theorem C09_size_prefix : forall c o,
  0 < eff_max_bytes c -> (forall b, In b o -> 0 <= b_size b) -> 0 <= c_head c ->
  c_head c + sum_sizes o <= maxInt64 ->
  exists k, (k <= length o)%nat /\ beyond_size c o = map b_id (skipn k o) /\
    (forall j, (1 <= j <= k)%nat -> c_head c + sum_sizes (firstn j o) <= eff_max_bytes c) /\
    ((k < length o)%nat -> eff_max_bytes c < c_head c + sum_sizes (firstn (S k) o)).
Proof.
  intros c o Hm Hsz Hh Hsum. rewrite beyond_size_eq. destruct (Z.leb_spec (eff_max_bytes c) 0); [lia|].
  apply Forall_forall in Hsz.
  destruct (size_scan_split (eff_max_bytes c) o (c_head c) Hh Hsz Hsum)
    as (kept & gone & E & -> & Hin & Hout).
  rewrite E in *.
  exists (length kept). rewrite app_length, skipn_app, skipn_all, Nat.sub_diag.
  split; [lia|]. split; [easy|]. split.
  - intros j Hj. rewrite firstn_app. replace (j - length kept)%nat with 0%nat by lia.
    destruct Hin as [->|Hin]; [cbn in Hj; lia|]. cbn [firstn]. rewrite app_nil_r.
    apply Forall_app in Hsz as [Hk _]. rewrite <- (firstn_skipn j kept) in Hin, Hk.
    apply Forall_app in Hk as [_ Hk]. rewrite sum_sizes_app in Hin.
    pose proof (sum_filter_le (fun _ => true) _ Hk). lia.
  - intros Hlt. destruct gone as [|x r]; [cbn in Hlt; lia|].
    rewrite <- Nat.add_1_r, firstn_app_2, sum_sizes_app. specialize (Hout x r eq_refl). cbn. lia.
Qed.

(* Size retention independently of how the sort ordered equal MaxTimes: a block is kept when
   everything at least as new as it fits, deleted when what is strictly newer plus itself does not
   fit; so only a group of equal MaxTime that straddles the limit depends on the tie order ... *)
Theorem C09_size_tie_independent : forall c bs o b,
  Permutation o bs -> sorted_desc o = true -> NoDup (map b_id bs) ->
  0 < eff_max_bytes c -> (forall x, In x bs -> 0 <= b_size x) -> 0 <= c_head c ->
  c_head c + sum_sizes bs <= maxInt64 -> In b bs ->
  (c_head c + sum_sizes (filter (newer_or_tied b) bs) <= eff_max_bytes c ->
     ~ In (b_id b) (beyond_size c o)) /\
  (eff_max_bytes c < c_head c + sum_sizes (filter (strictly_newer b) bs) + b_size b ->
     In (b_id b) (beyond_size c o)).
Proof. exact size_tie_independent. Qed.

(* ... and for a block whose MaxTime no other block shares the answer is exact. *)
Theorem C09_size_exact_no_tie : forall c bs o b,
  Permutation o bs -> sorted_desc o = true -> NoDup (map b_id bs) ->
  0 < eff_max_bytes c -> (forall x, In x bs -> 0 <= b_size x) -> 0 <= c_head c ->
  c_head c + sum_sizes bs <= maxInt64 -> In b bs ->
  (forall x, In x bs -> b_maxt x = b_maxt b -> x = b) ->
  (In (b_id b) (beyond_size c o) <->
   eff_max_bytes c < c_head c + sum_sizes (filter (strictly_newer b) bs) + b_size b).
Proof.
  intros c bs o b Hperm Hsort Hnd Hm Hsz Hh Hsum Hb Huniq.
  destruct (size_tie_independent c bs o b Hperm Hsort Hnd Hm Hsz Hh Hsum Hb) as [Hkeep Hdel].
  rewrite (sum_tied_split b bs (NoDup_map_inv _ _ Hnd) Hb Huniq) in Hkeep.
  split; [|exact Hdel]. intros Hin. apply Z.nle_gt. intros H. apply Hkeep; [lia|exact Hin].
Qed.

(* A limit of zero (or a negative one) disables the respective retention. *)
Theorem C09_disabled : forall c o,
  (c_dur c = 0 -> beyond_time c o = []) /\ (eff_max_bytes c <= 0 -> beyond_size c o = []).
Proof. intros c o. split; [apply time_disabled | apply size_disabled]. Qed.

(* Retention never deletes a block that is strictly newer than one it retains — for every
   configuration (no range assumptions at all) and every tie order. *)
Theorem C09_suffix : forall c o b b',
  sorted_desc o = true -> NoDup (map b_id o) -> In b o -> In b' o ->
  In (b_id b) (beyond_time c o ++ beyond_size c o) ->
  ~ In (b_id b') (beyond_time c o ++ beyond_size c o) ->
  b_maxt b <= b_maxt b'.
Proof.
  intros c o b b' Hsort Hnd Hb Hb' Hdel Hkept. apply in_app_or in Hdel as [Hdel|Hdel];
    [apply (gone_oldest _ o b b' (beyond_time_suffix c o))
    |apply (gone_oldest _ o b b' (beyond_size_suffix c o))]; auto;
    intros H; apply Hkept, in_or_app; auto.
Qed.

(* A successful reload keeps exactly the loadable blocks (and exactly the directories) that are
   neither superseded (Deletable flag, or parent of a loadable block) nor beyond retention:
   only whole blocks go, nothing else is touched, nothing new appears. *)
Theorem C09_reload_exact : forall c disk o loaded dirs,
  reload c disk o = ROk loaded dirs ->
  let gone i := (In i (map b_id (loadable disk)) /\
                   ((exists b, In b o /\ b_del b = true /\ b_id b = i) \/
                    In i (beyond_time c o ++ beyond_size c o)))
                \/ In i (parents_of (loadable disk)) in
  (forall b, In b loaded <-> In b (loadable disk) /\ ~ gone (b_id b)) /\
  (forall i, In i dirs <-> In i (map d_id disk) /\ ~ gone i).
Proof.
  intros c disk o loaded dirs H gone. destruct (reload_exact c disk o loaded dirs H) as [H1 H2].
  assert (Hg : forall i, In i (reload_deletable c disk o) <-> gone i)
    by (intros i; unfold gone; now rewrite in_reload_deletable, in_deletable_ids).
  split; intros x; [rewrite H1|rewrite H2]; now rewrite Hg.
Qed.

(* Blocks superseded by a completed compaction are removed — from ANY directory state in which
   the compacted block is loadable, i.e. after a crash at any point of the parent deletions
   (any subset of the parents still on disk, corrupted or with unreadable meta or not). *)
Theorem C09_parents_removed : forall c disk o loaded dirs child p,
  reload c disk o = ROk loaded dirs -> In child (loadable disk) -> In p (b_parents child) ->
  ~ In p dirs /\ ~ In p (map b_id loaded).
Proof.
  intros c disk o loaded dirs child p H Hb Hp. destruct (reload_exact _ _ _ _ _ H) as [Hl Hd].
  assert (Hg : In p (reload_deletable c disk o))
    by (apply in_reload_deletable; right; apply in_flat_map; eauto).
  split; intros Hi; [apply Hd in Hi|apply in_map_iff in Hi as [x [<- Hx]]; apply Hl in Hx]; tauto.
Qed.

Corollary C09_crash_resume : forall c disk0 child removed o loaded dirs,
  let disk := mkD child true true :: filter (fun d => negb (memZ (d_id d) removed)) disk0 in
  reload c disk o = ROk loaded dirs ->
  forall p, In p (b_parents child) -> ~ In p dirs /\ ~ In p (map b_id loaded).
Proof.
  intros c disk0 child removed o loaded dirs disk H p Hp.
  eapply C09_parents_removed; eauto. unfold disk, loadable. simpl. now left.
Qed.

(* Reloading never touches the head; a reload that fails (corrupted block that no loadable
   block supersedes) changes nothing. *)
Theorem C09_head_untouched : forall (H : Type) c o (s : dbstate H),
  s_head (reload_state c o s) = s_head s /\
  (forall bad, reload c (s_disk s) o = RErr bad -> reload_state c o s = s).
Proof. intros H c o s. split; [apply reload_state_head | intros bad; apply reload_state_err]. Qed.

(* The set of orders quantified over is never empty. *)
Theorem C09_order_exists : forall bs,
  Permutation (sort_desc bs) bs /\ sorted_desc (sort_desc bs) = true.
Proof. intros bs. split; [apply sort_desc_perm | apply sort_desc_sorted]. Qed.

(* ---- a stronger reading that the code does NOT satisfy (documented quirk) ----
   Size retention counts blocks that the very same reload removes as superseded, so it can
   delete an old block although everything that survives, plus that block, fits the limit. *)
Definition quirk_cfg := mkCfg 0 200 0 0 0 0.
Definition quirk_disk :=
  [ mkD (mkB 0 0 50 50 false []) true true;          (* X: old, independent *)
    mkD (mkB 1 50 100 50 false []) true true;        (* A *)
    mkD (mkB 2 100 200 50 false []) true true;       (* B *)
    mkD (mkB 3 50 200 100 false [1; 2]) true true ]. (* C = compaction of A and B *)

Theorem C09_size_tight_refuted :
  exists c disk o loaded dirs x,
    valid_order o (loadable disk) = true /\ reload c disk o = ROk loaded dirs /\
    In x (loadable disk) /\ b_del x = false /\ ~ In (b_id x) (parents_of (loadable disk)) /\
    beyond_time c o = [] /\
    ~ In x loaded /\ c_head c + sum_sizes (x :: loaded) <= eff_max_bytes c.
Proof.
  exists quirk_cfg, quirk_disk, (sort_desc (loadable quirk_disk)),
         [mkB 3 50 200 100 false [1; 2]], [3], (mkB 0 0 50 50 false []).
  split; [vm_compute; reflexivity|]. split; [vm_compute; reflexivity|].
  split; [now left|]. split; [reflexivity|]. split; [|split; [reflexivity|split]].
  - vm_compute. intros [H|[H|H]]; try discriminate; contradiction.
  - vm_compute. intros [H|H]; [discriminate|contradiction].
  - vm_compute. discriminate.
Qed.

(* ---- non-vacuity ---- *)
Definition ex_blocks :=
  [ mkB 0 0 100 10 false []; mkB 1 100 200 20 false []; mkB 2 150 200 30 false [];
    mkB 3 200 300 40 false [] ].
Definition ex_order := [ mkB 3 200 300 40 false []; mkB 2 150 200 30 false [];
                         mkB 1 100 200 20 false []; mkB 0 0 100 10 false [] ].

Example C09_time_nonvacuous :
  let c := mkCfg 100 0 0 0 0 0 in
  Permutation ex_order ex_blocks /\ sorted_desc ex_order = true /\ NoDup (map b_id ex_blocks) /\
  0 < c_dur c /\ span_ok ex_blocks /\ is_newest ex_blocks 300 /\
  beyond_time c ex_order = [2; 1; 0].
Proof.
  intros c.
  assert (Hb : Forall (fun x => 0 <= b_maxt x <= 300) ex_blocks) by (repeat constructor; discriminate).
  split; [|split; [|split; [|split; [|split; [|split]]]]].
  - apply Permutation_sym. exact (Permutation_rev ex_blocks).
  - reflexivity.
  - apply nodupZ_NoDup. reflexivity.
  - reflexivity.
  - apply (span_ok_bounds 0 300); [discriminate|exact Hb].
  - split.
    + exists (mkB 3 200 300 40 false []). split; [do 3 right; now left|reflexivity].
    + intros x Hx. rewrite Forall_forall in Hb. apply Hb, Hx.
  - vm_compute. reflexivity.
Qed.

Example C09_size_nonvacuous :
  let c := mkCfg 0 75 0 0 0 5 in
  0 < eff_max_bytes c /\ (forall b, In b ex_order -> 0 <= b_size b) /\
  c_head c + sum_sizes ex_order <= maxInt64 /\
  beyond_size c ex_order = [1; 0] /\ beyond_size (mkCfg 0 0 25 (-1) 600 5) ex_order = [1; 0].
Proof.
  intros c. split; [|split; [|split; [|split]]].
  - reflexivity.
  - apply (Forall_forall (fun b => 0 <= b_size b) ex_order). repeat constructor; discriminate.
  - vm_compute. discriminate.
  - vm_compute. reflexivity.
  - vm_compute. reflexivity.
Qed.

Example C09_reload_nonvacuous :
  reload (mkCfg 0 0 0 0 0 0)
         [ mkD (mkB 1 50 100 50 false []) true false;   (* corrupted parent, still on disk *)
           mkD (mkB 3 50 200 100 false [1; 2]) true true;
           mkD (mkB 4 0 0 0 false []) false true ]      (* unreadable meta: left alone *)
         [ mkB 3 50 200 100 false [1; 2] ]
  = ROk [ mkB 3 50 200 100 false [1; 2] ] [3; 4].
Proof. reflexivity. Qed.
