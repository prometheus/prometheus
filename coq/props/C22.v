(* props/C22.v — property C22: samples are never attributed to the wrong series.

   Full statement (properties.jsonl): a sample is only ever returned under the label set it was
   appended with; series references handed out are never reused for a different label set while any
   cached reference, WAL record or head-chunk file may still refer to them, across series garbage
   collection, stale-series and selected-series eviction, WAL checkpoints and restarts with or
   without fast startup; appending with an outdated reference either resolves to the right series
   or falls back to the given labels.

   Model: model/SeriesRef.v.  All theorems quantify over every history `ops` (every sequence of
   transactions, truncations, gc passes, evictions and restarts) and over every value of the
   inputs the model does not compute (which series a gc pass removes, keepUntil values, append
   acceptance, head-chunk file / WBL content, series_state.json content, minValidTime, fast
   startup on/off, clean/unclean). *)
From Coq Require Import List ZArith Bool Lia.
From Verif Require Import model.SeriesRef proof.SeriesRefProofs.
Import ListNotations.
Open Scope Z_scope.

(* (1) lastSeriesID bounds, in every reachable state, the ref of every series record and every
   tombstone record of the durable WAL (checkpoint and segments), of every head series, of every
   reference the client cached and — since fix 422818037d — of every chunk found in the head-chunk
   files at the last restart; hence a reference allocated for a new series is greater than all
   of them — after any number of restarts, with any series_state.json content and fast startup on
   or off (fix 38fca1216f: the state file can only raise the id). *)
Theorem C22_ref_fresh : forall ops a,
  let m := run ops in
  by_ref (head m) (a_cref a) = None -> by_lset (head m) (a_l a) = None ->
  let '(_, _, _, crt, _) := append1 (last m) (head m) a in
  crt = [RSeries (last m + 1) (a_l a)] /\
  (forall x r, In x (wal m) -> rec_alloc_ref x = Some r -> r < last m + 1) /\
  (forall s, In s (head m) -> s_ref s < last m + 1) /\
  (forall p, In p (cache m) -> fst p < last m + 1) /\
  (* head-chunk files: cs is what was on disk at the last restart of the history *)
  (forall ops1 cl fo fn sf mv cs wbl ea alive ops2 c,
     ops = ops1 ++ ORestart cl fo fn sf mv cs wbl ea alive :: ops2 ->
     forallb (fun o => negb (is_restart o)) ops2 = true -> In c cs -> ck_ref c < last m + 1).
Proof. exact fresh_ref_above_chunks. Qed.

(* non-vacuity: a history with a gc'd series, a checkpoint, a stale state file read by fast
   startup and a restart, after which a series is created *)
Definition ex_ops : list op :=
  [OTx [mkApp 0 0 100 true false; mkApp 0 1 100 true false];
   ORestart true true false (Some (2, 0, true)) min_int64 [] [] [] [1; 2];
   OTx [mkApp 0 2 200 true false];
   ORestart true false false (Some (2, 0, true)) min_int64 [] [] [] [1; 2; 3];
   ORestart true false false (Some (2, 0, true)) min_int64 [] [] [] [1; 2; 3];
   OTruncate 1000 [(3, 50)];
   OTruncate 2000 [];
   ORestart false false true (Some (2, 0, true)) 2000 [] [] [] [1; 2]].

Example C22_ref_fresh_nonvacuous :
  let m := run ex_ops in
  (* series 3 was garbage-collected and its records have left the WAL: its ref is free again *)
  last m = 2 /\ map s_ref (head m) = [2; 1] /\ wal m = [RSeries 1 0; RSeries 2 1] /\
  by_ref (head m) 0 = None /\ by_lset (head m) 7 = None /\
  append1 (last m) (head m) (mkApp 0 7 300 true false)
  = (3, [mkS 3 7 [7]; mkS 2 1 []; mkS 1 0 []], 3, [RSeries 3 7], [RSample 3 7 300]).
Proof. vm_compute. repeat split; auto. Qed.

Example C22_ref_fresh_chunks_nonvacuous :
  (* a head-chunk file is the only thing that still knows ref 5 *)
  let ops := [OTx [mkApp 0 0 100 true false];
              ORestart true false true (Some (0, 0, true)) min_int64 [mkChunk 5 true 10 [9]] [] [] [1]] in
  last (run ops) = 5 /\ wal (run ops) = [RSeries 1 0; RSample 1 0 100] /\
  last (run_old ops) = 1.
Proof. vm_compute. repeat split; reflexivity. Qed.

(* (2) Under the two conditions the property text names —
     * the client passes 0 or a reference it was handed for the same labels in this process
       (tx_ok; its cache is lost at a restart), and
     * what head-chunk files and the WBL hold for a ref at a restart belongs to the label set
       that the WAL's series record for this ref names (restart_ok) —
   every history leaves every head series holding only samples appended with its own labels (so
   a query over the head returns every sample under the labels it was appended with), the durable
   WAL never contains two series records with one ref and different labels, and every sample
   record follows only series records of its ref that carry its own labels.  Quantified over all
   gc decisions, keepUntil values, checkpoints, state-file contents, clean/unclean restarts and
   fast startup on/off. *)
Theorem C22_labels_stable : forall ops,
  ops_ok init ops ->
  let m := run ops in
  head_pure m = true /\
  (forall q, In q (query_head m) -> forall g, In g (snd q) -> g = fst q) /\
  stream_uniq (wal m) /\ attr_from [] (wal m).
Proof.
  intros ops Hok m. destruct (coherent_run ops Hok) as [_ Hu Ha _ _ _ _ Hp _].
  split; [exact (head_pure_true m Hp)|]. split; [|split; assumption].
  intros q Hq g Hg. unfold query_head in Hq. apply in_map_iff in Hq. destruct Hq as (s & <- & Hs).
  exact (Hp s Hs g Hg).
Qed.

(* (3) appending through an outdated reference: the sample lands in a series carrying the given
   labels (the reference resolves to the right series, or the append falls back to the labels) —
   every head series that has the returned ref carries the labels given to Append. *)
Theorem C22_stale_ref_safe : forall ops a,
  ops_ok init ops ->
  let m := run ops in
  client_ok (cache m) a -> a_ok a = true ->
  let '(_, h1, ret, _, _) := append1 (last m) (head m) a in
  (exists s, In s h1 /\ s_ref s = ret) /\
  (forall s, In s h1 -> s_ref s = ret -> s_l s = a_l a /\ series_pure_p s).
Proof. intros ops a Hok. exact (stale_ref_safe (run ops) a (coherent_run ops Hok)). Qed.

Example C22_labels_stable_nonvacuous :
  ops_ok init ex_ops /\ client_ok (cache (run ex_ops)) (mkApp 0 7 300 true false).
Proof. vm_compute. repeat split; try (left; reflexivity); intros; contradiction. Qed.

(* (4) The code BEFORE fix 422818037d (model: run_old = replay that ignores the refs of the
   head-chunk files and stores the state file's id unconditionally) violated (1) for chunk files
   and, through it, the second condition of (2).  Witness = the operations and inputs OBSERVED on
   the real tsdb.DB before the fix in the corpus history "ooo-chunk-file-outlives-series" of
   harness/cmd/h_c22: series {l=1} (ref 2) has an out-of-order chunk m-mapped into a head-chunk
   file, is garbage-collected, and its series record leaves the WAL through a checkpoint while the
   chunk file survives.  After a restart lastSeriesID was 1, so the new series {l=2} was handed
   ref 2; after the next restart loadWAL attached the old out-of-order chunk of {l=1} to it and a
   query returned the sample appended to {l=1} under {l=2}.  The same history is replayed on the
   fixed code by every run of the check (regression case). *)
Definition witness_ops : list op :=
  [OTx [mkApp 0 0 550 true false; mkApp 0 1 550 true false];
   OTx [mkApp 1 0 1000 true false; mkApp 2 1 1000 true false];
   OTx [mkApp 2 1 775 true false];
   ORestart true false false None (-9223372036854775808) [mkChunk 1 false 550 [0]; mkChunk 2 false 550 [1]] [RSample 2 1 775] [] [1; 2];
   ORestart true false false None (-9223372036854775808) [mkChunk 1 false 550 [0]; mkChunk 2 false 550 [1]] [RSample 2 1 775] [] [1; 2];
   OTx [mkApp 0 0 1900 true false];
   OTx [mkApp 1 0 2350 true false];
   OTx [mkApp 1 0 2800 true false];
   OTx [mkApp 1 0 3250 true false];
   OTx [mkApp 1 0 3700 true false];
   OTx [mkApp 1 0 4150 true false];
   OTx [mkApp 1 0 4600 true false];
   OTx [mkApp 1 0 5050 true false];
   OGc [];
   OTruncate 1000 [];
   OTx [mkApp 1 0 5500 true false];
   OTruncate 2000 [(2,2350)];
   OTx [mkApp 1 0 5950 true false];
   OTruncate 3000 [];
   OTx [mkApp 1 0 6400 true false];
   OTruncate 4000 [];
   OTx [mkApp 1 0 6850 true false];
   OTruncate 5000 [];
   OTx [mkApp 1 0 7300 true false];
   OTruncate 6000 [];
   OTx [mkApp 1 0 7750 true false];
   ORestart true false false None 6000 [mkChunk 1 false 1900 [0]; mkChunk 1 false 2800 [0]; mkChunk 1 false 3700 [0]; mkChunk 1 false 4600 [0]; mkChunk 2 true 775 [1]; mkChunk 1 false 6850 [0]] [] [] [1];
   OTx [mkApp 0 2 8200 true false];
   ORestart true false false None 6000 [mkChunk 1 false 1900 [0]; mkChunk 1 false 2800 [0]; mkChunk 1 false 3700 [0]; mkChunk 1 false 4600 [0]; mkChunk 2 true 775 [1]; mkChunk 1 false 6850 [0]] [] [] [1; 2];
   OTx [mkApp 0 3 8650 true false]].

Theorem C22_chunk_file_ref_reuse_old_refuted :
  exists ops,
    (* the client is disciplined and all sf ids are fine; only the chunk-file condition fails *)
    (forall n, match nth_error ops n with
               | Some (OTx apps) => tx_ok (run_old (firstn n ops)) apps
               | _ => True
               end) /\
    (* a ref handed out after a restart is NOT greater than every ref in a surviving head-chunk file *)
    (exists cs, In (mkChunk 2 true 775 [1]) cs /\ In (RSeries 2 2) (wal (run_old ops))) /\
    head_pure (run_old ops) = false /\
    In (2, [2; 1]) (query_head (run_old ops)).
Proof.
  exists witness_ops. split; [|split; [|split]].
  - intros n. do 31 (destruct n as [|n]; [vm_compute; repeat split; auto 8|]).
    vm_compute. destruct n; exact I.
  - exists [mkChunk 2 true 775 [1]]. split; [now left|]. vm_compute. intuition.
  - vm_compute. reflexivity.
  - vm_compute. intuition.
Qed.

(* the fixed replay on the same disk content: lastSeriesID is 2 after the restart that used to
   yield 1, so the next series gets ref 3 *)
Example C22_fixed_on_old_witness :
  last (run_old (firstn 27 witness_ops)) = 1 /\ last (run (firstn 27 witness_ops)) = 2.
Proof. vm_compute. split; reflexivity. Qed.
