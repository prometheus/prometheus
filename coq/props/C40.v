(* props/C40.v — property theorems for C40 (remote write delivers every sample in order despite
   resharding and retries).  Statements; the invariants they follow from are proved in proof/RemoteQueueProofs.v.

   [run relab bsz nbq ext old_flush n0 ops] is the state of a queue manager started with n0 shards after ANY
   list [ops] of atomic steps of the goroutines involved (watcher: OStore / OReset / OLookup /
   OEnqueue; runShard k: OTake / OTimer / OSend with outcome Ok | Recoverable | Unrecoverable;
   stop(): OSoft, the FlushAndShutdown goroutines OFlushPush / OFlushClose, OHard when the flush
   deadline expires; start(n): OStart).  A step that is not enabled is a no-op, so every theorem
   quantifies over all interleavings, of any length, for any batch size, channel capacity, number
   of shards, external labels and any relabelling function [relab].

   fed s      = the samples Append accepted (not too old, series known and kept), in WAL order, each
                with a fresh id (its position in the feed) and the labels the series had then
   log s      = every WriteClient.Store call with its outcome, in order
   delivered  = the samples of the successful calls;  attempted = the samples of all calls
   lossy s    = a batch was abandoned (unrecoverable error, or hard shutdown at the flush deadline)
   flushrace s= runShard's timer took a q.batch that tryEnqueueingBatch had already put on the channel *)
From Coq Require Import List ZArith Bool.
From Verif Require Import model.RemoteQueue.
From Verif Require Import proof.RemoteQueueProofs.
Import ListNotations.
Open Scope Z_scope.

(* All theorems are about the code as it is now, i.e. [run .. false ..] (old_flush = false, after fix
   dca118dfcb); [run .. true ..] is the code before that fix, kept for C40_no_dup_old_refuted. *)

(* Every sample, per series in WAL order.  For all interleavings in which no batch is abandoned
   (the property's "failures recover within the flush deadline"): at every moment the accepted
   samples of a series are exactly the delivered ones followed by the ones still queued in the
   series' single shard / in flight / pending in Append, in order -- whatever the reshards,
   however often sends fail recoverably -- and once nothing is queued any more,
   delivered = accepted. *)
Theorem C40_per_series_exact : forall relab bsz nbq ext n0 ops r, (0 < n0)%nat ->
  let s := run relab bsz nbq ext false n0 ops in
  lossy s = false ->
  fr r (fed s) = fr r (delivered (log s)) ++ outstanding s r
  /\ (quiescent s = true -> fr r (fed s) = fr r (delivered (log s))).
Proof.
  intros relab bsz nbq ext n0 ops r _ s HL.
  assert (E : fr r (fed s) = fr r (delivered (log s)) ++ outstanding s r)
    by apply (Inv_run relab bsz nbq ext n0 ops HL).
  split; [exact E|]. intros Hq. rewrite E, (quiescent_outstanding s r Hq). apply app_nil_r.
Qed.

(* Order and uniqueness in the form of the property text: ids are unique in the feed; everything
   delivered was accepted; nothing is delivered twice; per series the delivered samples are a
   prefix of the accepted ones (so in WAL order, without gaps). *)
Theorem C40_in_order_once : forall relab bsz nbq ext n0 ops, (0 < n0)%nat ->
  let s := run relab bsz nbq ext false n0 ops in
  lossy s = false ->
  NoDup (map i_id (fed s))
  /\ incl (delivered (log s)) (fed s)
  /\ NoDup (map i_id (delivered (log s)))
  /\ forall r, exists rest, fr r (fed s) = fr r (delivered (log s)) ++ rest.
Proof.
  intros relab bsz nbq ext n0 ops Hn s HL.
  assert (Hex : forall r, fr r (fed s) = fr r (delivered (log s)) ++ outstanding s r).
  { intros r. apply (C40_per_series_exact relab bsz nbq ext n0 ops r Hn HL). }
  destruct (FedInv_run relab bsz nbq ext n0 ops) as [Hnd _]. fold s in Hnd.
  assert (Hincl : incl (delivered (log s)) (fed s)).
  { intros x Hx. apply (fr_In (i_ref x)). rewrite Hex. apply in_or_app. left. apply fr_In. auto. }
  repeat split; eauto.
  apply NoDup_map_incl with (m := fed s); auto.
  apply nodup_by_ref. intros r. apply NoDup_app_left with (outstanding s r). rewrite <- Hex.
  apply NoDup_filter. eapply NoDup_map_inv; eauto.
Qed.

(* When no send fails (and no stop() runs into the flush deadline) no sample is sent twice. *)
Theorem C40_no_dup_without_failure : forall relab bsz nbq ext n0 ops, (0 < n0)%nat ->
  let s := run relab bsz nbq ext false n0 ops in
  all_ok (log s) = true -> lossy s = false ->
  NoDup (map i_id (attempted (log s))).
Proof.
  intros relab bsz nbq ext n0 ops Hn s Hok HL. rewrite all_ok_attempted by exact Hok.
  apply (C40_in_order_once relab bsz nbq ext n0 ops Hn HL).
Qed.

(* Before fix dca118dfcb that statement was false: one shard, no failure, no reshard, only Stop():
   the timer of runShard fires after tryEnqueueingBatch has put the partial batch on the channel
   and before FlushAndShutdown clears q.batch; both samples are sent twice.  Reproduced on the real
   queue and on a real QueueManager before the fix; both reproducers are regression cases now. *)
Theorem C40_no_dup_old_refuted :
  exists ops, let s := run relab_id 3 1 [] true 1 ops in
    all_ok (log s) = true /\ lossy s = false /\ quiescent s = true
    /\ map i_id (attempted (log s)) = [0; 1; 0; 1].
Proof. exists ops_race. vm_compute. repeat split. Qed.

(* The flush/timer race event cannot happen any more, for any interleaving. *)
Theorem C40_no_flush_race : forall relab bsz nbq ext n0 ops, (0 < n0)%nat ->
  flushrace (run relab bsz nbq ext false n0 ops) = false.
Proof. exact flushrace_run. Qed.

(* Within an epoch (between two start() calls) all queued samples of a series sit in one shard. *)
Theorem C40_one_shard_per_series : forall relab bsz nbq ext n0 ops, (0 < n0)%nat ->
  let s := run relab bsz nbq ext false n0 ops in
  lossy s = false ->
  forall k sh x, nth_error (shards s) k = Some sh -> In x (pipe sh) ->
                 shard_of (length (shards s)) (i_ref x) = k.
Proof. intros relab bsz nbq ext n0 ops _ s HL. apply (Inv_run relab bsz nbq ext n0 ops HL). Qed.

(* Labels, unconditionally (failures and hard shutdown included): every sample in any Store call,
   successful or not, was accepted by Append, and its labels are exactly what relabelling made of
   (a stored label set of that series + external labels). *)
Theorem C40_labels : forall relab bsz nbq ext n0 ops x,
  In x (attempted (log (run relab bsz nbq ext false n0 ops))) ->
  In x (fed (run relab bsz nbq ext false n0 ops))
  /\ exists raw seg, In (OStore (i_ref x) raw seg) ops /\ relab (add_ext ext raw) = Some (i_lbl x).
Proof.
  intros relab bsz nbq ext n0 ops x Hx. destruct (K_run relab bsz nbq ext n0 ops) as [_ K2 _ K4 _].
  split; [|apply K2]; apply K4, Hx.
Qed.

(* No sample of a dropped series is sent, unconditionally. *)
Theorem C40_dropped_never_sent : forall relab bsz nbq ext n0 ops r,
  (forall raw seg, In (OStore r raw seg) ops -> relab (add_ext ext raw) = None) ->
  forall x, In x (attempted (log (run relab bsz nbq ext false n0 ops))) -> i_ref x <> r.
Proof.
  intros relab bsz nbq ext n0 ops r Hdrop x Hx E.
  destruct (C40_labels relab bsz nbq ext n0 ops x Hx) as (_ & raw & seg & A & B).
  rewrite E in A. rewrite (Hdrop _ _ A) in B. discriminate.
Qed.

(* enqueue never runs into a closed queue (send on closed channel) and never divides by zero. *)
Theorem C40_no_panic : forall relab bsz nbq ext n0 ops, (0 < n0)%nat ->
  panicked (run relab bsz nbq ext false n0 ops) = false.
Proof. intros relab bsz nbq ext n0 ops _. apply (W_run relab bsz nbq ext n0 ops). Qed.

(* Every sample handed to Append is accepted or counted in droppedSamplesTotal. *)
Theorem C40_append_accounting : forall relab bsz nbq ext n0 ops,
  let s := run relab bsz nbq ext false n0 ops in
  nextid s = Z.of_nat (length (fed s)) + n_old s + n_dropped s + n_unint s.
Proof. exact append_accounting. Qed.

(* Flush on stop.  In the model the FlushAndShutdown goroutine of a queue has no way to give up:
   its only steps are OFlushPush (tryEnqueueingBatch) and, after a successful one, OFlushClose.  On
   a full channel OFlushPush is a no-op that leaves the goroutine where it was, so the step stays
   enabled and has to be taken again (the `for q.tryEnqueueingBatch(done) { wait 1s }` loop); the
   channel cannot be closed before; once the channel has room the whole partial batch is handed
   over.  The only other exit is OHard (flush deadline), which sets [lossy].  C40_per_series_exact
   (delivered = accepted at quiescence when not lossy) rests on exactly this: a state in which a
   queue was closed with its partial batch dropped is not reachable.  That the loop is actually
   taken until it succeeds (fairness / liveness) is not a Coq theorem; it is covered by the tie:
   scripts in which FlushAndShutdown stays blocked for > 2 s on a full channel (agree), and
   concurrent runs in which the endpoint stalls or fails recoverably for > 2.5 s during
   Stop / reshard with full channels and non-empty partial batches (holds: exact delivery). *)
Theorem C40_flush_retries_until_enqueued : forall nbq sh, sh_fl sh = FNone ->
  (q_batch (sh_q sh) <> [] -> (nbq <= length (q_chan (sh_q sh)))%nat -> sh_flushpush nbq false sh = sh)
  /\ sh_flushclose sh = sh
  /\ ((length (q_chan (sh_q sh)) < nbq)%nat ->
      let sh' := sh_flushpush nbq false sh in
      sh_fl sh' = FPushed /\ q_batch (sh_q sh') = [] /\ pipe sh' = pipe sh).
Proof.
  intros nbq sh H. split; [|split].
  - intros; apply flush_full_is_noop; auto.
  - apply close_needs_flush; auto.
  - intros; apply flush_succeeds_with_room; auto.
Qed.

(* In every reachable state, whatever the interleaving: a closed queue has no partial batch left
   behind and its flush has completed; a queue whose flush has not succeeded is still open. *)
Theorem C40_closed_only_after_flush : forall relab bsz nbq ext n0 ops k sh, (0 < n0)%nat ->
  nth_error (shards (run relab bsz nbq ext false n0 ops)) k = Some sh ->
  (q_closed (sh_q sh) = true -> sh_fl sh = FClosed /\ q_batch (sh_q sh) = [])
  /\ (sh_fl sh = FNone -> q_closed (sh_q sh) = false).
Proof.
  intros relab bsz nbq ext n0 ops k sh _ Hk. destruct (W_run relab bsz nbq ext n0 ops) as [Hw _].
  destruct (Forall_nth _ _ _ _ _ Hw Hk) as (_ & H2 & _ & H4). rewrite H2.
  destruct (sh_fl sh); split; try discriminate; auto. intros _. split; auto. apply H4. discriminate.
Qed.

(* Every Store call carries between 1 and MaxSamplesPerSend samples, unconditionally. *)
Theorem C40_batch_bound : forall relab bsz nbq ext, (0 < bsz)%nat -> forall n0 ops,
  batches_ok bsz (log (run relab bsz nbq ext false n0 ops)) = true.
Proof. intros relab bsz nbq ext Hb n0 ops. apply (BI_run relab bsz nbq ext Hb n0 ops). Qed.

(* Non-vacuity: two shards, batches of two, external label 4=7, relabelling drops series with label
   5; a recoverable failure retried in place, a sample pending across a reshard to three shards,
   a too-old sample, a dropped series, an unknown series; the run ends quiescent and lossless. *)
Example C40_nonvacuous :
  let s := run relab_nv 2 1 [(4, 7)] false 2 ops_nv in
  lossy s = false /\ flushrace s = false /\ quiescent s = true /\ panicked s = false
  /\ map i_id (delivered (log s)) = [0; 2; 1; 6]
  /\ map i_id (attempted (log s)) = [0; 2; 0; 2; 1; 6]
  /\ map i_lbl (delivered (log s)) = [[(1, 1); (4, 7)]; [(1, 1); (4, 7)]; [(1, 2); (4, 7)]; [(1, 1); (4, 7)]]
  /\ length (shards s) = 3%nat
  /\ (n_old s, n_dropped s, n_unint s) = (1, 1, 1).
Proof. vm_compute. repeat split. Qed.

(* The interleaving of C40_no_dup_old_refuted on the code as it is now: each sample once. *)
Example C40_race_regression :
  let s := run relab_id 3 1 [] false 1 ops_race in
    all_ok (log s) = true /\ lossy s = false /\ quiescent s = true /\ flushrace s = false
    /\ map i_id (attempted (log s)) = [0; 1].
Proof. vm_compute. repeat split. Qed.
