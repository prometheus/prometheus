(* props/C51.v — property theorems for C51 (the query API's JSON encodes values losslessly).
   Nothing but statements; proofs are in proof/ApiJsonProofs.v. *)
From Coq Require Import List ZArith NArith Bool String Lia.
From Verif Require Import lib.Int64 model.ApiJson proof.ApiJsonProofs proof.ApiJsonHistProofs.
Import ListNotations.
Open Scope Z_scope.

(* Timestamps (vectors, matrices, histogram points, exemplars: jsonutil.MarshalTimestamp).
   For EVERY int64 timestamp except MinInt64 — in particular for every timestamp of the API's time
   range — the bytes written are a JSON number (no exponent, no leading zeros) whose exact decimal
   value m/10^k equals t/1000: millisecond precision with no rounding at all. *)
Theorem C51_timestamp : forall t, minInt64 < t <= maxInt64 ->
  exists m k, parse_number (marshal_timestamp t) = Some (m, k) /\ m * 1000 = t * 10 ^ k /\ (k = 0 \/ k = 3).
Proof. exact timestamp_roundtrip. Qed.

Theorem C51_timestamp_api_range : forall t, in_api_range t = true ->
  exists m k, parse_number (marshal_timestamp t) = Some (m, k) /\ m * 1000 = t * 10 ^ k.
Proof.
  intros t H. destruct (timestamp_roundtrip t (api_range_in_domain t H)) as (m & k & H1 & H2 & _).
  exists m, k. auto.
Qed.

Example C51_timestamp_nonvacuous :
  marshal_timestamp 1435781451781 = s2b "1435781451.781" /\
  marshal_timestamp (-5) = s2b "-0.005" /\
  parse_number (s2b "-0.005") = Some (-5, 3) /\
  in_api_range 1435781451781 = true /\ minInt64 < -5 <= maxInt64.
Proof. repeat split; vm_compute; reflexivity || discriminate. Qed.

(* The one int64 the code does not handle: t = -t wraps for MinInt64 and the output is not a number.
   MinInt64 lies outside the API's time range, so this does not contradict the property. *)
Theorem C51_timestamp_minint64_refuted :
  marshal_timestamp minInt64 = s2b "--9223372036854775.00-808" /\
  parse_number (marshal_timestamp minInt64) = None /\ in_api_range minInt64 = false.
Proof. destruct timestamp_minint64_garbage. repeat split; auto. Qed.

(* Float values (jsonutil.MarshalFloat). strconv is an oracle: IF AppendFloat's output in either
   format consists of plain characters and ParseFloat reads it back to the same float (up to the
   sign/payload of NaN), THEN for every float64 bit pattern the JSON string written decodes to the
   same float, whichever format the cut-offs select. *)
Theorem C51_float : forall (fmt : Z -> fmtk -> bytes) (parse : bytes -> option Z),
  (forall f k, forallb plain_char (fmt f k) = true) ->
  (forall f k, exists f', parse (fmt f k) = Some f' /\ fsame f f' = true) ->
  forall f, exists s f', unquote (marshal_float fmt f) = Some s /\ parse s = Some f' /\ fsame f f' = true.
Proof. exact float_roundtrip. Qed.

(* Scalars (promql.Scalar.MarshalJSON writes float64(T)/1000): full statement
     forall t, in_api_range t -> nearest_ms (decimal written for t) = t
   is FALSE: two different timestamps inside the API's time range are written with identical bytes
   whatever the float formatting is (finding, reproduced on the real codec by the harness). *)
Theorem C51_scalar_timestamp_refuted :
  exists t1 t2, in_api_range t1 = true /\ in_api_range t2 = true /\ t1 <> t2 /\
    forall fmt v, marshal_scalar fmt t1 v = marshal_scalar fmt t2 v.
Proof.
  exists 9007199254741020, 9007199254741021. destruct scalar_ts_collision as (H1 & H2 & H3).
  split; [exact H1|]. split; [exact H2|]. split; [lia|].
  intros fmt v. unfold marshal_scalar. now rewrite H3.
Qed.

(* Histograms (jsonutil.MarshalHistogram over FloatHistogram.AllBucketIterator).
   The bytes written are the canonical rendering {"count":..,"sum":..,"buckets":[[code,lo,hi,n],..]}
   ("buckets" omitted when there is none) of count, sum and exactly the specification's non-empty
   buckets spec_exposed: negative buckets in descending index order, the zero bucket, positive buckets;
   bounds of bucket idx are (bound(idx-1), bound idx] resp. [-bound idx, -bound(idx-1)), clipped at
   the zero threshold; codes 0/1/3 as documented. Any counts (negative, NaN, -0 included), any
   span layout with non-negative lengths (empty spans included), any zero threshold.
   Hypotheses: idx_ok / idxn_ok = the oracle getBoundExponential is positive on the indices used
   (lower bound may underflow to 0); the zero count is not negative/NaN (that case is refuted below).
   Exponential schemas: *)
Theorem C51_histogram_exponential : forall fmt eb h,
  h_schema h =? custom_schema = false ->
  spans_ok (h_nspans h) (h_nb h) = true -> nonneg_spans (h_pspans h) ->
  Forall (fun ic => idxn_ok eb h (fst ic)) (expand (h_nspans h) (h_nb h) 0) ->
  Forall (fun ic => idx_ok eb h (fst ic)) (expand (h_pspans h) (h_pb h) 0) ->
  fgt (h_zc h) fzero = fne (h_zc h) fzero ->
  marshal_histogram fmt eb h = Ok (render_hist fmt (h_count h) (h_sum h) (spec_exposed eb h)).
Proof.
  intros fmt eb h Hc Hns Hps Hn Hp Hz. rewrite <- code_all_spec by exact Hz.
  apply marshal_histogram_code; auto. rewrite Hc. discriminate.
Qed.

(* Custom-bucket schema (valid such histograms have no negative buckets and no zero bucket), and
   more generally every histogram without negative buckets: *)
Theorem C51_histogram_no_negative_buckets : forall fmt eb h,
  h_nb h = [] -> nonneg_spans (h_pspans h) ->
  Forall (fun ic => idx_ok eb h (fst ic)) (expand (h_pspans h) (h_pb h) 0) ->
  (h_schema h =? custom_schema = true -> fgt (h_zc h) fzero = false) ->
  fgt (h_zc h) fzero = fne (h_zc h) fzero ->
  marshal_histogram fmt eb h = Ok (render_hist fmt (h_count h) (h_sum h) (spec_exposed eb h)).
Proof.
  intros fmt eb h Hnb Hss Hidx Hc Hz. rewrite <- code_all_spec by exact Hz. apply marshal_histogram_code; auto.
Qed.

(* the reverse bucket iterator enumerates the expansion of a valid span layout backwards *)
Theorem C51_reverse_iterator : forall ss bs, spans_ok ss bs = true -> rev_iter ss bs = rev (expand ss bs 0).
Proof. exact rev_iter_expand. Qed.

Example C51_histogram_exponential_nonvacuous :
  let h := mkHist 0 0 4613937818241073152 0 0 [mkSpan 1 1] [mkSpan 0 2] [4607182418800017408] [4611686018427387904; 0] [] in
  let eb := fun (_ i : Z) => if i =? -1 then 4602678819172646912 else if i =? 0 then 4607182418800017408 else 4611686018427387904 in
  h_schema h =? custom_schema = false /\ spans_ok (h_nspans h) (h_nb h) = true /\
  Forall (fun ic => idxn_ok eb h (fst ic)) (expand (h_nspans h) (h_nb h) 0) /\
  spec_exposed eb h = [(1, 13830554455654793216, 13826050856027422720, 4611686018427387904);
                       (3, 9223372036854775808, 0, 4613937818241073152);
                       (0, 4607182418800017408, 4611686018427387904, 4607182418800017408)].
Proof.
  cbv zeta. split; [reflexivity|]. split; [reflexivity|]. split; [|vm_compute; reflexivity].
  repeat constructor; cbn; first [lia | reflexivity].
Qed.

(* the forward bucket iterator enumerates exactly the expansion of the spans (all inputs) *)
Theorem C51_forward_iterator : forall ss bs, nonneg_spans ss -> fwd_iter ss bs = expand ss bs 0.
Proof. exact fwd_iter_expand. Qed.

Example C51_histogram_nonvacuous :
  let h := mkHist 0 0 4613937818241073152 0 0 [mkSpan 1 2] [] [4607182418800017408; 0] [] [] in
  let eb := fun (_ i : Z) => if i =? 0 then 4607182418800017408 else if i =? 1 then 4611686018427387904 else 4616189618054758400 in
  h_nb h = [] /\ nonneg_spans (h_pspans h) /\
  Forall (fun ic => idx_ok eb h (fst ic)) (expand (h_pspans h) (h_pb h) 0) /\
  fgt (h_zc h) fzero = fne (h_zc h) fzero /\
  spec_exposed eb h = [(3, 9223372036854775808, 0, 4613937818241073152); (0, 4607182418800017408, 4611686018427387904, 4607182418800017408)].
Proof. exact pos_hist_nonvacuous. Qed.

(* A valid histogram whose zero bucket has a negative count (histogram subtraction produces such
   counts): the JSON has no buckets at all although the histogram has a non-empty bucket (finding,
   reproduced on the real codec by the harness). *)
Theorem C51_histogram_negative_zero_count_refuted :
  exists h, hist_valid h = true /\
    forall fmt eb, marshal_histogram fmt eb h = Ok (render_hist fmt (h_count h) (h_sum h) [])
                   /\ spec_exposed eb h = [(3, fnegate (h_zt h), h_zt h, h_zc h)].
Proof.
  exists neg_zero_hist. split; [vm_compute; reflexivity|]. intros fmt eb. split; [|vm_compute; reflexivity].
  rewrite marshal_histogram_code; [reflexivity | now left | constructor | constructor | discriminate].
Qed.
