(* props/C29.v — property C29: aggregations and binary operators follow the documented
   semantics.  Theorems over model/PromqlAgg.v; proofs in proof/PromqlAggProofs.v. *)
From Coq Require Import List ZArith NArith QArith Qabs Bool Permutation Sorted.
From Verif Require Import model.PromqlAgg proof.PromqlAggProofs.
Import ListNotations.
Open Scope Z_scope.

(* Grouping (rangeEvalAgg): for every key function — in the engine the projection
   [group_key without grouping] of the metric — the groups are exactly the classes of the
   projected label set: distinct keys, in order of first occurrence, every input series lands
   in the group of its key, and a group's members are all series with that key, in input
   order (never empty). *)
Theorem C29_groups : forall (A : Type) (key : A -> labels) (v : list A),
  let gs := groups_of key v in
  NoDup (map fst gs) /\
  map fst gs = uniq_keys (map key v) /\
  (forall s, In s v -> In (key s) (map fst gs)) /\
  (forall k ms, In (k, ms) gs ->
     ms <> [] /\ ms = filter (fun s => labels_eqb (key s) k) v).
Proof. intros A key v. exact (groups_of_partition key v). Qed.

Example C29_groups_nonvacuous :
  let a := [95;95;110;97;109;101;95;95]%N in
  groups_of (fun s : sample => group_key true [[98%N]] (fst s))
            [ ([(a, [109%N]); ([97%N], [49%N]); ([98%N], [49%N])], f1);
              ([(a, [110%N]); ([97%N], [50%N])], f0);
              ([(a, [110%N]); ([97%N], [49%N]); ([98%N], [50%N])], f1) ]
  = [ ([([97%N], [49%N])],
       [ ([(a, [109%N]); ([97%N], [49%N]); ([98%N], [49%N])], f1);
         ([(a, [110%N]); ([97%N], [49%N]); ([98%N], [50%N])], f1) ]);
      ([([97%N], [50%N])], [ ([(a, [110%N]); ([97%N], [50%N])], f0) ]) ].
Proof. vm_compute. reflexivity. Qed.

(* SUM (kahansum.Inc accumulation, result floatValue + floatKahanC): for all finite inputs
   and every overflow oracle, whenever the result is finite it is the exact sum. *)
Theorem C29_sum_exact : forall (ovf : Q -> bool) (x : Q) (xs : list Q) (r : Q),
  agg_sum ovf (FFin x) (map FFin xs) = FFin r -> r == qsum (x :: xs).
Proof. intros ovf x xs r H. rewrite <- (fins_map_FFin (x :: xs)). exact (agg_sum_fin ovf _ _ _ H). Qed.

Example C29_sum_nonvacuous :
  agg_sum (fun _ => false) (FFin (1 # 2)) (map FFin [3 # 4; -2 # 1; 5 # 1]) = FFin (17 # 4).
Proof. vm_compute. reflexivity. Qed.

(* COUNT and GROUP are exact. *)
Theorem C29_counts_exact : forall ovf param (vals : list fval),
  vals <> [] ->
  agg_value ovf ACount param vals = fz (Z.of_nat (length vals)) /\
  agg_value ovf AGroup param vals = f1.
Proof. intros ovf param [|v vals] H; [contradiction | split; reflexivity]. Qed.

(* Set operators: VectorAnd / VectorOr / VectorUnless with their empty-operand short-circuits
   are the documented set operations on join signatures, followed by the duplicate check. *)
Theorem C29_set_ops : forall op on names lhs rhs,
  vector_set op on names lhs rhs = check_same (spec_set op on names lhs rhs).
Proof. exact vector_set_spec. Qed.

Example C29_set_ops_nonvacuous :
  vector_set SOr true [[97%N]] [([([97%N], [49%N])], f1)]
             [([([97%N], [49%N]); ([98%N], [49%N])], f0); ([([97%N], [50%N])], f0)]
  = RVec [([([97%N], [49%N])], f1); ([([97%N], [50%N])], f0)].
Proof. vm_compute. reflexivity. Qed.

(* AVG (direct Kahan sum; once the running sum would overflow, incremental mean with Kahan
   compensation): for all finite inputs and every overflow oracle — hence wherever the switch
   to the incremental mean happens — a finite result is the exact mean sum/count. *)
Theorem C29_avg_exact : forall (ovf : Q -> bool) (x : Q) (xs : list Q) (r : Q),
  agg_avg ovf (FFin x) (map FFin xs) = FFin r -> r == qmean (x :: xs).
Proof. intros ovf x xs r H. rewrite <- (fins_map_FFin (x :: xs)). exact (agg_avg_fin ovf _ _ _ H). Qed.

(* non-vacuity: an oracle declaring every |q| >= 10 out of range forces the incremental-mean
   path at the second element (6 + 6 = 12), and the result is still the exact mean *)
Example C29_avg_nonvacuous :
  agg_avg (fun q => Qle_bool 10 (Qabs q)) (FFin (6 # 1)) (map FFin [6 # 1; 3 # 1]) = FFin (5 # 1) /\
  a_incr (fold_left (avg_step (fun q => Qle_bool 10 (Qabs q))) (map FFin [6 # 1; 3 # 1]) (avg_init (FFin (6 # 1)))) = true /\
  agg_avg (fun _ => false) (FFin (6 # 1)) (map FFin [6 # 1; 3 # 1]) = FFin (5 # 1).
Proof. vm_compute. repeat split; reflexivity. Qed.

(* STDVAR (Welford recurrence on count, mean, M2; result M2/count) and STDDEV (its square
   root, outside exact arithmetic): for all finite inputs and every overflow oracle a finite
   result is the population variance sum((x - mean)^2)/n. *)
Theorem C29_stdvar_exact : forall (ovf : Q -> bool) (x : Q) (xs : list Q) (r : Q),
  agg_stdvar ovf (FFin x) (map FFin xs) = FFin r -> r == qvar (x :: xs).
Proof. intros ovf x xs r H. rewrite <- (fins_map_FFin (x :: xs)). exact (agg_stdvar_fin ovf _ _ _ H). Qed.

Example C29_stdvar_nonvacuous :
  agg_stdvar (fun _ => false) (FFin (1 # 1)) (map FFin [2 # 1; 4 # 1; 17 # 2]) = FFin (531 # 64) /\
  agg_stdvar (fun _ => false) (FFin (1 # 1)) [FInf false; FFin (4 # 1)] = FNaN.
Proof. vm_compute. split; reflexivity. Qed.

(* QUANTILE (promql/quantile.go, after fix 023c7e876c) for 0 <= phi <= 1 and a non-empty group
   — the documented "value that ranks at number phi*N among the N values, NaN smallest": the
   values are sorted NaN-first ascending (a sorted permutation), the rank phi*(n-1) splits into
   an index 0 <= lo <= n-1 and a weight 0 <= w < 1; when the rank is a whole number (w = 0) the
   result IS the value at that rank, s[lo]; otherwise it is s[lo]*(1-w) + s[min(n-1,lo+1)]*w in
   float arithmetic.  (phi = NaN, phi < 0, phi > 1 return NaN, -Inf, +Inf by definition of the
   model's [quantile].) *)
Theorem C29_quantile : forall ovf (q : Q) (vals : list fval),
  vals <> [] -> (0 <= q)%Q -> (q <= 1)%Q ->
  let s := sort_by heap_less vals in
  let n := Z.of_nat (length vals) in
  let rank := (q * inject_Z (n - 1))%Q in
  let lo := qfloor rank in
  let hi := Z.min (n - 1) (lo + 1) in
  let w := (rank - inject_Z lo)%Q in
  Permutation s vals /\ Sorted (fun a b => nf_le a b = true) s /\
  0 <= lo <= n - 1 /\ lo <= hi <= n - 1 /\ (0 <= w)%Q /\ (w < 1)%Q /\
  quantile ovf (FFin q) vals =
    (if Qeq_bool w 0 then nth (Z.to_nat lo) s FNaN
     else fadd ovf (fmul ovf (nth (Z.to_nat lo) s FNaN) (FFin (1 - w)))
                   (fmul ovf (nth (Z.to_nat hi) s FNaN) (FFin w))).
Proof. exact quantile_spec. Qed.

(* in particular phi = 1 is the last element of the NaN-first ascending order (the maximum) and
   phi = 0 the first one, whatever the values (infinite ones included) *)
Theorem C29_quantile_extremes : forall ovf v vals,
  quantile ovf (FFin 1) (v :: vals) = nth (length vals) (sort_by heap_less (v :: vals)) FNaN /\
  quantile ovf (FFin 0) (v :: vals) = nth 0 (sort_by heap_less (v :: vals)) FNaN.
Proof.
  intros ovf v vals. split; apply quantile_whole_rank; try discriminate; try reflexivity.
  cbn [length]. now rewrite Nat2Z.inj_succ, Z.sub_1_r, Z.pred_succ, Qmult_1_l.
Qed.

Example C29_quantile_nonvacuous :
  quantile (fun _ => false) (FFin (3 # 4)) [FFin 5; FFin 1; FNaN; FFin 2; FFin 9] = FFin 5 /\
  quantile (fun _ => false) (FFin (1 # 2)) [FFin 4; FFin 1] = FFin (5 # 2) /\
  quantile (fun _ => false) (FFin 1) [FFin 5; FFin 1; FInf false; FFin 2] = FInf false.
Proof. vm_compute. repeat split; reflexivity. Qed.

(* FIXED (023c7e876c).  The previous quantile() ([quantile_old]) interpolated also for weight 0,
   so an infinite upper neighbour gave Inf*0 = NaN: quantile(1, {1, +Inf}) = NaN although the
   maximum is +Inf, and the quantile of a single +Inf value was NaN for every phi in [0,1].
   The repaired function returns +Inf in both cases. *)
Theorem C29_quantile_rank_old_refuted : forall ovf,
  quantile_old ovf (FFin 1) [FFin 1; FInf false] = FNaN /\
  quantile_old ovf (FFin (1 # 2)) [FInf false] = FNaN /\
  agg_max (FFin 1) [FInf false] = FInf false /\
  quantile ovf (FFin 1) [FFin 1; FInf false] = FInf false /\
  quantile ovf (FFin (1 # 2)) [FInf false] = FInf false.
Proof. intro ovf. repeat split. Qed.

(* MAX / MIN (`group.floatValue < f || math.IsNaN(group.floatValue)`): the result is one of the
   group's values; as soon as one value is not NaN the result is not NaN and is an upper
   (lower) bound of every non-NaN value — NaN only if all values are NaN. *)
Theorem C29_extremes : forall (x : fval) (xs : list fval),
  (In (agg_max x xs) (x :: xs) /\
   forall y, In y (x :: xs) -> is_nan y = false ->
             is_nan (agg_max x xs) = false /\ fle y (agg_max x xs) = true) /\
  (In (agg_min x xs) (x :: xs) /\
   forall y, In y (x :: xs) -> is_nan y = false ->
             is_nan (agg_min x xs) = false /\ fle (agg_min x xs) y = true).
Proof. intros x xs. split; [exact (agg_max_spec x xs) | exact (agg_min_spec x xs)]. Qed.

Example C29_extremes_nonvacuous :
  agg_max FNaN [FFin 1; FNaN; FFin 3; FFin 2] = FFin 3 /\ agg_min FNaN [FNaN] = FNaN /\
  agg_min (FFin 2) [FNaN; FInf true; FFin 1] = FInf true.
Proof. vm_compute. repeat split; reflexivity. Qed.

(* TOPK / BOTTOMK of one group (series loop with a k-element heap whose minimum is replaced,
   then the final sort), for every k >= 1 and every group: the output is sorted in the
   documented order (topk: descending, bottomk: ascending, NaN last in both), has
   min(k, |group|) elements, is a sub-multiset of the group, and every series left out is no
   better than every selected one.  (Which of several equal series is selected is not fixed by
   the documentation; the model takes one choice, the correspondence accepts any.) *)
Theorem C29_topk : forall (k : Z) (members : list sample), 1 <= k ->
  (let out := k_group ATopk k members in
   Sorted (fun a b : sample => topk_ge (snd a) (snd b) = true) out /\
   Z.of_nat (length out) = Z.min k (Z.of_nat (length members)) /\
   exists rest, Permutation members (out ++ rest) /\
                forall s u, In s out -> In u rest -> topk_ge (snd s) (snd u) = true) /\
  (let out := k_group ABottomk k members in
   Sorted (fun a b : sample => botk_ge (snd a) (snd b) = true) out /\
   Z.of_nat (length out) = Z.min k (Z.of_nat (length members)) /\
   exists rest, Permutation members (out ++ rest) /\
                forall s u, In s out -> In u rest -> botk_ge (snd s) (snd u) = true).
Proof.
  intros k members Hk. split.
  - exact (gk_select topk_ge topk_less topk_better topk_before topk_ge_total topk_ge_trans
             topk_less_strict topk_better_strict topk_before_strict k members Hk).
  - exact (gk_select botk_ge botk_less botk_better botk_before botk_ge_total botk_ge_trans
             botk_less_strict botk_better_strict botk_before_strict k members Hk).
Qed.

Example C29_topk_nonvacuous :
  map snd (k_group ATopk 3 [([], FNaN); ([], FFin 1); ([], FNaN); ([], FFin 3); ([], FFin 2); ([], FInf true)])
    = [FFin 3; FFin 2; FFin 1] /\
  map snd (k_group ABottomk 2 [([], FNaN); ([], FFin 1); ([], FNaN)]) = [FFin 1; FNaN].
Proof. vm_compute. split; reflexivity. Qed.

(* LIMITK of one group: min(k, |group|) series of the group (the engine takes the first k in
   input order; the documentation allows any deterministic choice). *)
Theorem C29_limitk : forall (k : Z) (members : list sample), 0 <= k ->
  let out := k_group ALimitk k members in
  Z.of_nat (length out) = Z.min k (Z.of_nat (length members)) /\
  exists rest, members = out ++ rest.
Proof. exact k_group_limitk. Qed.

(* Vector matching, one-to-one and group_left, no fill modifiers (VectorBinop + resultMetric +
   the same-labelset check): whenever the engine returns a vector, it is exactly the
   documented one — one element per pair (l, r) with equal join signature, in left-hand order,
   with the documented result labels and value, comparison-filtered unless bool —, it contains
   no duplicate label set, and the right-hand ("one") side has no two series with the same
   signature unless an operand is empty.
   PARTIAL with respect to the full statement "for every cardinality and fill modifier the
   result is the documented vector or the documented error": group_right without fill is
   C29_binop_group_right (up to permutation); with fill modifiers the statement is false for
   group_right with unequal fill values (C29_fill_group_right_refuted) and otherwise checked by
   the correspondence only; of the errors only the many-to-many one is characterised in both
   directions (C29_binop_dup_error, C29_binop_dup_complete). *)
Theorem C29_binop_pairs_partial : forall ovf op rb m lhs rhs out,
  m_card m <> OneToMany -> m_fill_l m = None -> m_fill_r m = None ->
  vector_binop ovf op rb m lhs rhs = RVec out ->
  out = spec_binop_out ovf op rb m lhs rhs /\
  has_dup_labels (map fst out) = false /\
  (lhs = [] \/ rhs = [] \/
   NoDup (map (fun r : sample => signature (m_on m) (m_labels m) (fst r)) rhs)).
Proof.
  intros ovf op rb m lhs rhs out Hcard Hfl Hfr H.
  apply vector_binop_nofill in H; [|assumption..]. rewrite spec_binop_out_nofill by assumption.
  unfold orient in H. destruct (m_card m); [exact H | exact H | contradiction].
Qed.

(* the many-to-many error is raised only when two right-hand series share a signature *)
Theorem C29_binop_dup_error : forall ovf op rb m lhs rhs,
  m_card m <> OneToMany ->
  vector_binop ovf op rb m lhs rhs = RErr ErrDupRight ->
  has_dup_labels (map (fun r : sample => signature (m_on m) (m_labels m) (fst r)) rhs) = true.
Proof. exact vector_binop_dup_error. Qed.

(* group_right without fill modifiers: a returned vector is a permutation of the documented
   one (the engine iterates the right operand, the documentation fixes no order), without
   duplicate label sets, and the left ("one") side has unique signatures unless an operand is
   empty. *)
Theorem C29_binop_group_right : forall ovf op rb m lhs rhs out,
  m_card m = OneToMany -> m_fill_l m = None -> m_fill_r m = None ->
  vector_binop ovf op rb m lhs rhs = RVec out ->
  Permutation out (spec_binop_out ovf op rb m lhs rhs) /\
  has_dup_labels (map fst out) = false /\
  (lhs = [] \/ rhs = [] \/
   NoDup (map (fun l : sample => signature (m_on m) (m_labels m) (fst l)) lhs)).
Proof.
  intros ovf op rb m lhs rhs out Hcard Hfl Hfr H.
  apply vector_binop_nofill in H; [|assumption..]. unfold orient in H. rewrite Hcard in H.
  destruct H as [-> H]. rewrite spec_binop_out_nofill by assumption.
  split; [apply matched_out_swap | exact H].
Qed.

Example C29_binop_group_right_nonvacuous :
  let a := [97%N] in let b := [98%N] in
  vector_binop (fun _ => false) OSub false (mkMatching OneToMany true [a] [] None None)
     [([(a, [49%N])], FFin 10); ([(a, [50%N])], FFin 20)]
     [([(a, [50%N]); (b, [49%N])], FFin 1); ([(a, [49%N]); (b, [49%N])], FFin 2); ([(a, [50%N]); (b, [50%N])], FFin 3)]
  = RVec [([(a, [50%N]); (b, [49%N])], FFin 19); ([(a, [49%N]); (b, [49%N])], FFin 8);
          ([(a, [50%N]); (b, [50%N])], FFin 17)].
Proof. vm_compute. reflexivity. Qed.

(* ... and the many-to-many error is complete: with both operands non-empty, two right-hand
   series with the same signature always raise it (one-to-one and group_left). *)
Theorem C29_binop_dup_complete : forall ovf op rb m lhs rhs,
  m_card m <> OneToMany -> lhs <> [] -> rhs <> [] ->
  has_dup_labels (map (fun r : sample => signature (m_on m) (m_labels m) (fst r)) rhs) = true ->
  vector_binop ovf op rb m lhs rhs = RErr ErrDupRight.
Proof. exact vector_binop_dup_complete. Qed.

Example C29_binop_nonvacuous :
  let a := [97%N] in let b := [98%N] in
  let m := mkMatching ManyToOne true [a] [b] None None in
  vector_binop (fun _ => false) OMul false m
     [([(name_lbl, [109%N]); (a, [49%N]); ([99%N], [49%N])], FFin 2);
      ([(name_lbl, [109%N]); (a, [49%N]); ([99%N], [50%N])], FFin 3);
      ([(name_lbl, [109%N]); (a, [50%N])], FFin 5)]
     [([(name_lbl, [110%N]); (a, [49%N]); (b, [120%N])], FFin 10)]
  = RVec [([(a, [49%N]); (b, [120%N]); ([99%N], [49%N])], FFin 20);
          ([(a, [49%N]); (b, [120%N]); ([99%N], [50%N])], FFin 30)] /\
  vector_binop (fun _ => false) OMul false m
     [([(a, [49%N])], FFin 2)] [([(a, [49%N])], FFin 1); ([(a, [49%N]); (b, [120%N])], FFin 1)]
  = RErr ErrDupRight.
Proof. vm_compute. split; reflexivity. Qed.

(* Vector/scalar operators (VectorscalarBinop + the same-labelset check) are the documented
   element-wise operation: arithmetic drops the metric name, comparison filters keeping the
   vector element's value (also when the scalar is on the left), bool yields 0/1 and drops
   the name.  Hypothesis: the parser only allows bool on comparison operators. *)
Theorem C29_vector_scalar : forall ovf op rb swap sc v,
  (rb = true -> is_cmp op = true) ->
  vector_scalar_binop ovf op rb swap sc v = check_same (spec_vs ovf op rb swap sc v).
Proof. exact vector_scalar_spec. Qed.

Example C29_vector_scalar_nonvacuous :
  vector_scalar_binop (fun _ => false) OLt false true (FFin 2)
     [([(name_lbl, [109%N])], FFin 3); ([(name_lbl, [110%N])], FFin 1); ([], FNaN)]
  = RVec [([(name_lbl, [109%N])], FFin 3)].
Proof. vm_compute. reflexivity. Qed.

(* count_values: every input series is represented, and every output series carries exactly
   the number of input series whose value-labelled, projected label set it is (never 0),
   for every formatting oracle. *)
Theorem C29_count_values_exact : forall fmt wo g vl v out,
  agg_count_values fmt wo g vl v = RVec out ->
  let keyof (s : sample) := group_key wo (if wo then g else vl :: g) (lset vl (fmt (snd s)) (fst s)) in
  (forall s, In s v -> In (keyof s) (map fst out)) /\
  forall k c, In (k, c) out ->
    c = fz (Z.of_nat (length (filter (fun s => labels_eqb (keyof s) k) v))) /\
    (1 <= length (filter (fun s => labels_eqb (keyof s) k) v))%nat.
Proof. exact count_values_exact. Qed.

Example C29_count_values_nonvacuous :
  let fmt (v : fval) : str := match v with FFin q => if Qeq_bool q 1 then [49%N] else [50%N] | _ => [78%N] end in
  agg_count_values fmt false [] [118%N]
    [([([97%N], [49%N])], FFin 1); ([([97%N], [50%N])], FFin 2); ([([97%N], [51%N])], FFin 1)]
  = RVec [([([118%N], [49%N])], fz 2); ([([118%N], [50%N])], fz 1)].
Proof. vm_compute. reflexivity. Qed.

(* FINDING.  Documented: fill_left(v) supplies v as the missing LEFT operand, fill_right(v) as
   the missing RIGHT operand.  The faithful model (VectorBinop swaps the operand lists for
   group_right but keeps using FillValues.RHS for the first loop and FillValues.LHS for the
   second) uses them the other way round under group_right:
     l - on() group_right fill_left(5) fill_right(7) r   with l = {}, r = {{} 8}
   documented 5 - 8 = -3, model (and engine) 7 - 8 = -1. *)
Theorem C29_fill_group_right_refuted :
  exists (ovf : Q -> bool) (op : bop) (m : matching) (lhs rhs : list sample),
    m_card m = OneToMany /\
    vector_binop ovf op false m lhs rhs = RVec [([], FFin (-1))] /\
    spec_binop_out ovf op false m lhs rhs = [([], FFin (-3))].
Proof.
  exists (fun _ => false), OSub,
         (mkMatching OneToMany true [] [] (Some (FFin 5)) (Some (FFin 7))),
         [], [([], FFin 8)].
  vm_compute. repeat split; reflexivity.
Qed.
