(* props/C18.v — property theorems for C18: query sharding partitions series deterministically.

   Property text: "With query sharding enabled in the storage, for any shard count n of at
   least 1, selecting shard indexes 0 to n-1 returns pairwise disjoint sets of series whose
   union is the unsharded result, for head and block data alike. A series' shard depends only
   on its label set and is the same in every label-set build variant and across restarts."

   xxhash is an oracle ([xxh_sum] = xxhash.Sum64, [xxh_stream] = Digest fed with a sequence of
   writes); the only assumption about it (needed for the build-variant statement alone) is
   that streaming equals the one-shot sum of the concatenated writes. *)
From Coq Require Import List NArith ZArith Bool Permutation.
From Verif Require Import lib.Bytes model.Sharding proof.ShardingProofs.
Import ListNotations.
Open Scope Z_scope.

(* ------------------------------------------------------------------ partition *)
(* Statement for one index reader [s] (head or block), any postings list [p] produced by the
   matchers, any chunk-visibility predicate [vis] and any n >= 1:
   U = the unsharded Select result, S i = the result of Select with ShardIndex i, ShardCount n.
   - every shard query succeeds and S i is U filtered by "StableHash(labels) mod n = i";
   - S 0 ++ ... ++ S (n-1) is a permutation of U (union = U, nothing twice);
   - S i and S j have no element in common for i <> j;
   - x is in U iff it is in some S i with 0 <= i < n;
   - an index outside 0..n-1 selects nothing. *)
Definition partition_statement (xxh_sum : bytes -> Z) (s : source) (vis : Z -> bool) (p : list Z) (n : nat) : Prop :=
  let U := series_set s vis p in
  let S := fun i => filter (shard_pred xxh_sum i (Z.of_nat n)) U in
  select xxh_sum s vis p no_shard = SOk U /\
  (forall i, select xxh_sum s vis p (mkHints i (Z.of_nat n)) = SOk (S i)) /\
  Permutation (concat (map S (range n))) U /\
  (forall i j x, i <> j -> In x (S i) -> ~ In x (S j)) /\
  (forall x, In x U <-> exists i, 0 <= i < Z.of_nat n /\ In x (S i)) /\
  (forall i, ~ (0 <= i < Z.of_nat n) -> S i = []) /\
  (NoDup U -> forall i, NoDup (S i)).

(* head: any head reachable from the empty head with sharding enabled by any sequence of
   series creations, WAL/snapshot replays (restart) and series garbage collections *)
Theorem C18_partition_head :
  forall xxh_sum (ops : list head_op) vis p (n : nat), (1 <= n)%nat ->
    partition_statement xxh_sum (SrcHead (run_head xxh_sum true ops)) vis p n.
Proof. intros. now apply partition_any, reachable_head_ok. Qed.

(* block: any series table, any postings list whose references resolve in it *)
Theorem C18_partition_block :
  forall xxh_sum (b : block) vis p (n : nat), (1 <= n)%nat ->
    (forall r, In r p -> block_series b r <> None) ->
    partition_statement xxh_sum (SrcBlock b) vis p n.
Proof. intros. now apply partition_any. Qed.

(* ------------------------------------------------------------------ only the label set matters *)
(* Two index readers (a head with any history — fresh, restarted, other refs — or a block),
   two postings lists, same n: if the same label set is returned for shard i by one and for
   shard j by the other, then i = j = xxh(stable_bytes labels) mod n. *)
Theorem C18_depends_only_on_labels :
  forall xxh_sum s1 s2 vis1 vis2 p1 p2 n i j r1 r2 ls l1 l2,
    1 <= n -> src_ok xxh_sum s1 p1 -> src_ok xxh_sum s2 p2 ->
    select xxh_sum s1 vis1 p1 (mkHints i n) = SOk l1 ->
    select xxh_sum s2 vis2 p2 (mkHints j n) = SOk l2 ->
    In (r1, ls) l1 -> In (r2, ls) l2 ->
    i = shard xxh_sum ls n /\ j = shard xxh_sum ls n.
Proof.
  intros * Hn H1 H2 E1 E2 I1 I2.
  rewrite (select_sharded _ _ _ _ _ _ Hn H1) in E1. rewrite (select_sharded _ _ _ _ _ _ Hn H2) in E2.
  injection E1 as <-. injection E2 as <-.
  apply filter_In in I1 as [_ I1], I2 as [_ I2]. apply Z.eqb_eq in I1, I2. now split.
Qed.

(* the sources the previous theorem talks about: every reachable sharding-enabled head *)
Theorem C18_reachable_head_ok :
  forall xxh_sum ops p, src_ok xxh_sum (SrcHead (run_head xxh_sum true ops)) p.
Proof. exact reachable_head_ok. Qed.

(* the cached memSeries.shardHash of every series of every reachable head (restarts included)
   is the stable hash of its label set *)
Theorem C18_head_caches_stable_hash :
  forall xxh_sum en ops s, In s (h_series (run_head xxh_sum en ops)) ->
    ms_shardHash s = if en then stable_hash xxh_sum (ms_lset s) else 0.
Proof.
  intros xxh_sum en ops s Hs. destruct (run_head_inv xxh_sum en ops) as [H1 H2].
  specialize (H1 s Hs). now rewrite H2 in H1.
Qed.

(* with sharding disabled in the head, a sharded Select fails instead of returning data *)
Theorem C18_disabled_head_errors :
  forall xxh_sum ops vis p idx n, 1 <= n ->
    select xxh_sum (SrcHead (run_head xxh_sum false ops)) vis p (mkHints idx n) = SErrDisabled.
Proof.
  intros xxh_sum ops vis p idx n Hn. apply select_disabled; [assumption|].
  apply (run_head_inv xxh_sum false ops).
Qed.

(* ------------------------------------------------------------------ build variants *)
(* The three StableHash implementations feed the same byte string to xxhash — the reference
   serialisation name 0xff value 0xff ... — and take the streaming (> 1 KB) path in exactly
   the same situations; with a digest that equals the one-shot sum they return equal values. *)
Theorem C18_variants_equal :
  forall ls v,
    feed_bytes (feed_of v ls) = stable_bytes ls /\
    is_stream (feed_of v ls) = (1024 <=? len (stable_bytes ls)).
Proof.
  intros ls v. split; [apply feed_of_bytes|]. rewrite feed_of_slice. now apply (feed_slice_stream ls []).
Qed.

Theorem C18_variants_hash_equal :
  forall xxh_sum xxh_stream,
    (forall ws, xxh_stream ws = xxh_sum (concat ws)) ->
    forall ls v1 v2,
      stable_hash_v xxh_sum xxh_stream v1 ls = stable_hash_v xxh_sum xxh_stream v2 ls /\
      stable_hash_v xxh_sum xxh_stream v1 ls = stable_hash xxh_sum ls.
Proof. intros xxh_sum xxh_stream H ls v1 v2. now rewrite !(stable_hash_v_eq _ _ H). Qed.

(* stringlabels keeps a label set as size-prefixed bytes and StableHash walks that encoding:
   decoding the encoding of any label list (sizes below 2^24, the encoder's limit) gives the
   list back, so the hash over Labels.data is the hash over the labels *)
Theorem C18_stringlabels_roundtrip :
  forall ls,
    Forall (fun v => len (l_name v) < 16777216 /\ len (l_value v) < 16777216) ls ->
    sl_decode (length (sl_encode ls)) (sl_encode ls) = Some ls /\
    feed_string_data (sl_encode ls) = Some (feed_of VString ls).
Proof.
  intros ls H. split; [now apply sl_decode_encode, sl_encode_length|now apply feed_string_data_encode].
Qed.

(* ------------------------------------------------------------------ non-vacuity *)
Definition ex_sum (b : bytes) : Z := Z.of_N (fold_left N.add b 0%N).   (* a toy hash *)
Definition ex_l (v : N) : labels := [mkL [110%N] [v]].
Definition ex_ops : list head_op := [OpCreate (ex_l 1); OpCreate (ex_l 2); OpReplay 9 (ex_l 3); OpCreate (ex_l 4); OpGC 2].
Definition ex_head := run_head ex_sum true ex_ops.

Example C18_ex_unsharded :
  select ex_sum (SrcHead ex_head) (fun _ => true) [1; 2; 9; 10; 77] no_shard
  = SOk [(1, ex_l 1); (9, ex_l 3); (10, ex_l 4)].
Proof. vm_compute. reflexivity. Qed.

Example C18_ex_shards :
  select ex_sum (SrcHead ex_head) (fun _ => true) [1; 2; 9; 10; 77] (mkHints 0 2) = SOk [(10, ex_l 4)] /\
  select ex_sum (SrcHead ex_head) (fun _ => true) [1; 2; 9; 10; 77] (mkHints 1 2) = SOk [(1, ex_l 1); (9, ex_l 3)] /\
  select ex_sum (SrcBlock [(5, ex_l 4); (6, ex_l 3)]) (fun _ => true) [5; 6] (mkHints 0 2) = SOk [(5, ex_l 4)].
Proof. vm_compute. repeat split. Qed.

(* a label set beyond 1 KB takes the streaming path in all three variants *)
Example C18_ex_slow_path :
  let ls := [mkL [97%N] (repeat 120%N 600); mkL [98%N] (repeat 121%N 600); mkL [99%N] [1%N]] in
  map (fun v => is_stream (feed_of v ls)) [VString; VSlice; VDedupe] = [true; true; true] /\
  map (fun v => is_stream (feed_of v (ex_l 1))) [VString; VSlice; VDedupe] = [false; false; false].
Proof. vm_compute. split; reflexivity. Qed.

(* a value of 300 bytes uses the 4-byte size prefix of the stringlabels encoding *)
Example C18_ex_roundtrip :
  let ls := [mkL [97%N] (repeat 120%N 300); mkL [98%N] []] in
  firstn 7 (sl_encode ls) = [1; 97; 255; 44; 1; 0; 120]%N /\
  sl_decode (length (sl_encode ls)) (sl_encode ls) = Some ls.
Proof.
  intros ls. split; [now vm_compute|].
  apply sl_decode_encode, sl_encode_length. repeat constructor; now vm_compute.
Qed.
