(* lib/LabelMerge.v — the loop of Builder.Labels in the stringlabels and dedupelabels builds: one pass
   over the name-sorted base that skips the deleted names (sorted) and merges in the added labels
   (sorted), an added label replacing the base label of its name.  Stated over any key type with a
   decidable strict total order; model/Relabel.v and model/LabelsX.v transcribe the loop over their
   own strings, and each is shown equal to [lmerge].  The result is the sorted list of the labels that
   Builder.Range enumerates: the base labels neither deleted nor overridden, and the added ones. *)
From Coq Require Import List Bool Sorted.
From Verif Require Import lib.SortedList.
Import ListNotations.

Section Merge.
Context {K V : Type} (ltb eqb : K -> K -> bool).

Fixpoint ge_keys (dl : list K) (k : K) : list K :=
  match dl with x :: t => if ltb x k then ge_keys t k else dl | [] => [] end.
Fixpoint lt_part (k : K) (ad : list (K * V)) : list (K * V) :=
  match ad with x :: t => if ltb (fst x) k then x :: lt_part k t else [] | [] => [] end.
Fixpoint ge_part (k : K) (ad : list (K * V)) : list (K * V) :=
  match ad with x :: t => if ltb (fst x) k then ge_part k t else ad | [] => [] end.

Fixpoint lmerge (base : list (K * V)) (dl : list K) (ad : list (K * V)) : list (K * V) :=
  match base with
  | [] => ad
  | l :: rest =>
      let dl' := ge_keys dl (fst l) in
      if (match dl' with x :: _ => eqb x (fst l) | [] => false end) then lmerge rest dl' ad
      else lt_part (fst l) ad ++
           match ge_part (fst l) ad with
           | y :: ad' => if eqb (fst y) (fst l) then y :: lmerge rest dl' ad' else l :: lmerge rest dl' (y :: ad')
           | [] => l :: lmerge rest dl' []
           end
  end.

(* labels strictly ascending by key; deleted keys ascending, duplicates allowed *)
Definition klt (x y : K * V) : Prop := ltb (fst x) (fst y) = true.
Definition kle (a b : K) : Prop := ltb b a = false.

Lemma parts_app k ad : lt_part k ad ++ ge_part k ad = ad.
Proof. induction ad as [|x t IH]; simpl; auto. destruct (ltb (fst x) k); simpl; [rewrite IH|]; reflexivity. Qed.
Lemma lt_part_lt k ad x : In x (lt_part k ad) -> ltb (fst x) k = true.
Proof.
  induction ad as [|y t IH]; simpl; [intros []|]. destruct (ltb (fst y) k) eqn:E; [|intros []].
  intros [<-|H]; auto.
Qed.
Lemma ge_part_head k ad : match ge_part k ad with y :: _ => ltb (fst y) k = false | [] => True end.
Proof. induction ad as [|x t IH]; simpl; auto. destruct (ltb (fst x) k) eqn:E; auto. Qed.

Lemma ge_keys_in dl k m : In m (ge_keys dl k) -> In m dl.
Proof. induction dl as [|x t IH]; simpl; auto. destruct (ltb x k); auto. Qed.
Lemma ge_keys_keeps dl k m : In m dl -> ltb m k = false -> In m (ge_keys dl k).
Proof.
  induction dl as [|x t IH]; simpl; auto. intros [<-|H] E; [rewrite E; left; reflexivity|].
  destruct (ltb x k); simpl; auto.
Qed.
Lemma ge_keys_sorted (R : K -> K -> Prop) dl k : StronglySorted R dl -> StronglySorted R (ge_keys dl k).
Proof. induction 1 as [|a t S IH F]; simpl; [constructor|]. destruct (ltb a k); auto. constructor; auto. Qed.
Lemma ge_keys_head dl k : match ge_keys dl k with x :: _ => ltb x k = false | [] => True end.
Proof. induction dl as [|x t IH]; simpl; auto. destruct (ltb x k) eqn:E; auto. Qed.

Hypothesis eqb_spec : forall a b, reflect (a = b) (eqb a b).
Hypothesis ltb_irrefl : forall a, ltb a a = false.
Hypothesis ltb_trans : forall a b c, ltb a b = true -> ltb b c = true -> ltb a c = true.
Hypothesis ltb_total : forall a b, ltb a b = false -> ltb b a = false -> a = b.

Lemma ltb_asym a b : ltb a b = true -> ltb b a = false.
Proof.
  intros H. destruct (ltb b a) eqn:E; auto. pose proof (ltb_trans _ _ _ H E) as C.
  rewrite ltb_irrefl in C. discriminate.
Qed.

Lemma klt_same l1 l2 : StronglySorted klt l1 -> StronglySorted klt l2 -> (forall x, In x l1 <-> In x l2) -> l1 = l2.
Proof.
  apply StronglySorted_same. unfold klt. intros x y H1 H2. rewrite (ltb_asym _ _ H1) in H2. discriminate.
Qed.

(* after the deletions below k are skipped, k is deleted iff it is the next one *)
Lemma ge_keys_deleted dl k : StronglySorted kle dl ->
  (match ge_keys dl k with x :: _ => eqb x k | [] => false end) = true <-> In k dl.
Proof.
  intros Hs. pose proof (ge_keys_sorted kle dl k Hs) as S. pose proof (ge_keys_head dl k) as Hd. split.
  - intros H. apply (ge_keys_in dl k). destruct (ge_keys dl k) as [|x t]; [discriminate|].
    destruct (eqb_spec x k); [left; assumption|discriminate].
  - intros H. apply (fun H => ge_keys_keeps dl k k H (ltb_irrefl k)) in H.
    destruct (ge_keys dl k) as [|x t]; [contradiction|]. apply StronglySorted_inv in S as [_ F].
    destruct (eqb_spec x k) as [|N]; auto. destruct N. apply ltb_total; auto.
    destruct H as [->|H]; [apply ltb_irrefl|exact (Forall_in F k H)].
Qed.

(* two members of a strictly sorted list with the same key are the same *)
Lemma klt_unique M x y : StronglySorted klt M -> In x M -> In y M -> fst x = fst y -> x = y.
Proof.
  intros S. induction S as [|a t S IH F]; [intros []|]. rewrite Forall_forall in F.
  assert (N : forall u : K * V, In u t -> fst a <> fst u).
  { intros u Hu E. pose proof (F u Hu) as H. unfold klt in H. rewrite E, ltb_irrefl in H. discriminate. }
  intros [<-|Hx] [<-|Hy] E; auto.
  - destruct (N y Hy E).
  - destruct (N x Hx (eq_sym E)).
Qed.

(* the result is strictly sorted; it comes from the additions and the base labels not deleted; it holds
   every addition and every base label neither deleted nor overridden *)
Lemma lmerge_parts base : forall dl ad,
  StronglySorted klt base -> StronglySorted kle dl -> StronglySorted klt ad ->
  StronglySorted klt (lmerge base dl ad) /\
  (forall x, In x (lmerge base dl ad) -> In x ad \/ (In x base /\ ~ In (fst x) dl)) /\
  incl ad (lmerge base dl ad) /\
  (forall x, In x base -> ~ In (fst x) dl -> ~ In (fst x) (map fst ad) -> In x (lmerge base dl ad)).
Proof.
  induction base as [|l rest IH]; intros dl ad Hb Hd Ha; cbn [lmerge].
  - split; [exact Ha|]. split; [auto|]. split; [apply incl_refl|intros x []].
  - apply StronglySorted_inv in Hb as [Hrest Hl]. rewrite Forall_forall in Hl. cbv zeta.
    pose proof (ge_keys_sorted kle dl (fst l) Hd) as Hd'.
    pose proof (ge_keys_deleted dl (fst l) Hd) as Del. set (dl' := ge_keys dl (fst l)) in *.
    (* for the labels after l the deletions skipped here do not matter *)
    assert (Tail : forall x, In x rest -> (In (fst x) dl' <-> In (fst x) dl)).
    { intros x Hx. split; [apply ge_keys_in|]. intros H. apply ge_keys_keeps; auto. apply ltb_asym, Hl, Hx. }
    destruct (match dl' with x :: _ => eqb x (fst l) | [] => false end).
    + destruct (IH dl' ad Hrest Hd' Ha) as (S & W1 & W2 & W3). split; [exact S|]. split; [|split; [exact W2|]].
      * intros x Hx. destruct (W1 x Hx) as [H|[H1 H2]]; [left; exact H|right].
        split; [right; exact H1|]. rewrite <- (Tail x H1). exact H2.
      * intros x [<-|H1] H2 H3; [destruct H2; apply Del; reflexivity|]. apply W3; auto. rewrite (Tail x H1). exact H2.
    + assert (Hk : ~ In (fst l) dl) by (intros H; apply Del in H; discriminate H).
      pose proof (parts_app (fst l) ad) as Split. pose proof (lt_part_lt (fst l) ad) as Lo.
      assert (InLo : incl (lt_part (fst l) ad) ad) by (rewrite <- Split at 2; apply incl_appl, incl_refl).
      assert (InHi : incl (ge_part (fst l) ad) ad) by (rewrite <- Split at 2; apply incl_appr, incl_refl).
      assert (InAd : incl ad (lt_part (fst l) ad ++ ge_part (fst l) ad)) by (rewrite Split; apply incl_refl).
      rewrite <- Split in Ha. apply StronglySorted_app in Ha as (Slo & Shi & _).
      (* the result is the additions below l, then h (l itself, or the addition that replaces it), then
         the merge of what comes after l with the additions adT above it *)
      assert (NT : forall h adT, fst h = fst l -> StronglySorted klt adT -> Forall (klt h) adT ->
                incl adT ad -> In h ad \/ h = l ->
                incl (lt_part (fst l) ad ++ ge_part (fst l) ad) (lt_part (fst l) ad ++ h :: adT) ->
                let M := lt_part (fst l) ad ++ h :: lmerge rest dl' adT in
                StronglySorted klt M /\
                (forall x, In x M -> In x ad \/ (In x (l :: rest) /\ ~ In (fst x) dl)) /\
                incl ad M /\
                (forall x, In x (l :: rest) -> ~ In (fst x) dl -> ~ In (fst x) (map fst ad) -> In x M)).
      { intros h adT Eh SA GA Sub Hh Sup M. destruct (IH dl' adT Hrest Hd' SA) as (S & W1 & W2 & W3).
        assert (GT : Forall (klt h) (lmerge rest dl' adT)).
        { apply Forall_forall. intros x Hx. destruct (W1 x Hx) as [H|[H _]]; [exact (Forall_in GA x H)|].
          unfold klt. rewrite Eh. apply Hl, H. }
        split; [|split; [|split]].
        - apply StronglySorted_app. split; [exact Slo|]. split; [constructor; assumption|].
          intros x y Hx [<-|Hy]; unfold klt; [rewrite Eh; apply Lo, Hx|].
          apply (ltb_trans _ (fst l)); [apply Lo, Hx|]. rewrite <- Eh. exact (Forall_in GT y Hy).
        - intros x Hx. apply in_app_or in Hx as [Hx|[<-|Hx]]; [left; apply InLo, Hx| |].
          + destruct Hh as [Hh| ->]; [left; exact Hh|right]. split; [left; reflexivity|exact Hk].
          + destruct (W1 x Hx) as [H|[H1 H2]]; [left; apply Sub, H|right].
            split; [right; exact H1|]. rewrite <- (Tail x H1). exact H2.
        - intros x Hx. apply in_or_app. apply InAd, Sup, in_app_or in Hx as [Hx|[<-|Hx]];
            [left; exact Hx|right; left; reflexivity|right; right; apply W2, Hx].
        - intros x [<-|H1] H2 H3; apply in_or_app; right.
          + destruct Hh as [Hh| ->]; [|left; reflexivity]. destruct H3. rewrite <- Eh. apply in_map, Hh.
          + right. apply W3; [exact H1|rewrite (Tail x H1); exact H2|].
            intros H. apply H3. apply in_map_iff in H as (y & E & Hy). apply in_map_iff. exists y. split; [exact E|apply Sub, Hy]. }
      pose proof (ge_part_head (fst l) ad) as Hhd.
      destruct (ge_part (fst l) ad) as [|y ad'] eqn:Ehi; [|destruct (eqb_spec (fst y) (fst l)) as [Ey|Ey]].
      * apply (NT l [] eq_refl Shi (Forall_nil _) InHi (or_intror eq_refl)). apply incl_app_app; [apply incl_refl|intros x []].
      * apply StronglySorted_inv in Shi as [Sad' Gy].
        apply (NT y ad' Ey Sad' Gy (fun x Hx => InHi x (or_intror Hx)) (or_introl (InHi y (or_introl eq_refl)))), incl_refl.
      * assert (Hly : klt l y).
        { unfold klt. destruct (ltb (fst l) (fst y)) eqn:E; [reflexivity|]. destruct Ey. apply ltb_total; assumption. }
        apply (NT l (y :: ad') eq_refl Shi); [|exact InHi|right; reflexivity|apply incl_app_app; [apply incl_refl|apply incl_tl, incl_refl]].
        apply StronglySorted_inv in Shi as [_ Gy]. constructor; [exact Hly|].
        eapply Forall_impl; [|exact Gy]. intros z Hz. exact (ltb_trans _ _ _ Hly Hz).
Qed.

(* the result is the strictly sorted list of the additions and of the base labels neither deleted nor
   overridden: a base label with the name of an addition cannot be in it beside that addition *)
Theorem lmerge_spec base dl ad :
  StronglySorted klt base -> StronglySorted kle dl -> StronglySorted klt ad ->
  StronglySorted klt (lmerge base dl ad) /\
  forall x, In x (lmerge base dl ad) <->
            In x ad \/ (In x base /\ ~ In (fst x) dl /\ ~ In (fst x) (map fst ad)).
Proof.
  intros Hb Hd Ha. destruct (lmerge_parts base dl ad Hb Hd Ha) as (S & W1 & W2 & W3). split; [exact S|].
  intros x. split; [|intros [H|(H1 & H2 & H3)]; [apply W2, H|apply W3; assumption]].
  intros Hx. destruct (W1 x Hx) as [H|[H1 H2]]; [left; exact H|].
  assert (Dec : forall a b : K, {a = b} + {a <> b}) by (intros a b; destruct (eqb_spec a b); [left|right]; assumption).
  destruct (in_dec Dec (fst x) (map fst ad)) as [C|C]; [left|right; auto].
  apply in_map_iff in C as (y & E & Hy). rewrite (klt_unique _ x y S Hx (W2 y Hy) (eq_sym E)). exact Hy.
Qed.

End Merge.
