(* lib/RegexProofs.v — the derivative matcher of lib/Regex.v decides the denotation CM. *)
From Coq Require Import List ZArith Bool Lia.
From Verif Require Import lib.Regex.
Import ListNotations.
Open Scope Z_scope.

Section Proofs.
Variable F : rune -> rune -> bool.
Notation CM := (CM F).
Notation deriv := (deriv F).
Notation cmatch := (cmatch F).

Lemma CM_none_inv b e s : CM b e CNone s -> False.
Proof. inversion 1. Qed.
Lemma CM_eps_iff b e s : CM b e CEps s <-> s = [].
Proof. split; [inversion 1; auto | intros ->; constructor]. Qed.
Lemma CM_beg_inv b e s : CM b e CBeg s -> s = [] /\ b = true.
Proof. inversion 1; auto. Qed.
Lemma CM_end_inv b e s : CM b e CEnd s -> s = [] /\ e = true.
Proof. inversion 1; auto. Qed.
Lemma CM_chr_inv b e p s : CM b e (CChr p) s -> exists c, s = [c] /\ cp_match F p c = true.
Proof. inversion 1; subst; eauto. Qed.
Lemma CM_cat_iff b e x y s : CM b e (CCat x y) s <->
  exists s1 s2, s = s1 ++ s2 /\ CM b (e && isnil s2) x s1 /\ CM (b && isnil s1) e y s2.
Proof. split; [inversion 1; subst; eauto | intros (s1 & s2 & -> & H1 & H2); now apply CM_cat]. Qed.
Lemma CM_alt_iff b e x y s : CM b e (CAlt x y) s <-> CM b e x s \/ CM b e y s.
Proof. split; [inversion 1; subst; auto | intros [H | H]; [now apply CM_altl | now apply CM_altr]]. Qed.
Lemma CM_star_inv b e x s : CM b e (CStar x) s ->
  s = [] \/ exists s1 s2, s = s1 ++ s2 /\ s1 <> [] /\ CM b (e && isnil s2) x s1 /\ CM false e (CStar x) s2.
Proof. inversion 1; subst; auto. right; eauto 8. Qed.

Ltac cat_intro := apply CM_cat; simpl; rewrite ?andb_true_r, ?andb_false_r; auto.

Lemma nullable_spec : forall r b e, nullable b e r = true <-> CM b e r [].
Proof.
  induction r; intros b e; simpl.
  - split; [discriminate | intros H; destruct (CM_none_inv _ _ _ H)].
  - split; [constructor | auto].
  - split; [intros ->; constructor | intros H; apply CM_beg_inv in H; tauto].
  - split; [intros ->; constructor | intros H; apply CM_end_inv in H; tauto].
  - split; [discriminate | intros H; apply CM_chr_inv in H; destruct H as (c & Hc & _); discriminate].
  - rewrite andb_true_iff, IHr1, IHr2. split.
    + intros [H1 H2]. change (@nil rune) with (@nil rune ++ []).
      cat_intro.
    + intros H. apply CM_cat_iff in H. destruct H as (s1 & s2 & Hs & H1 & H2).
      symmetry in Hs. apply app_eq_nil in Hs. destruct Hs; subst. simpl in *.
      rewrite andb_true_r in *. auto.
  - rewrite orb_true_iff, IHr1, IHr2, CM_alt_iff. reflexivity.
  - split; [constructor | auto].
Qed.

Lemma CM_cat_none_l b e y s : CM b e (CCat CNone y) s -> False.
Proof. intros H. apply CM_cat_iff in H. destruct H as (? & ? & _ & H & _). exact (CM_none_inv _ _ _ H). Qed.
Lemma CM_cat_none_r b e x s : CM b e (CCat x CNone) s -> False.
Proof. intros H. apply CM_cat_iff in H. destruct H as (? & ? & _ & _ & H). exact (CM_none_inv _ _ _ H). Qed.
Lemma CM_cat_eps_l b e y s : CM b e (CCat CEps y) s <-> CM b e y s.
Proof.
  split.
  - intros H. apply CM_cat_iff in H. destruct H as (s1 & s2 & -> & H1 & H2).
    apply CM_eps_iff in H1. subst. simpl in *. now rewrite andb_true_r in H2.
  - intros H. change s with ([] ++ s). cat_intro. constructor.
Qed.

Lemma mk_cat_spec b e x y s : CM b e (mk_cat x y) s <-> CM b e (CCat x y) s.
Proof.
  assert (N : forall z, CM b e CNone s <-> CM b e (CCat z CNone) s).
  { intros z. split; intros H; [destruct (CM_none_inv _ _ _ H) | destruct (CM_cat_none_r _ _ _ _ H)]. }
  destruct x; simpl;
    [ split; intros H; [destruct (CM_none_inv _ _ _ H) | destruct (CM_cat_none_l _ _ _ _ H)]
    | destruct y; symmetry; apply CM_cat_eps_l
    | destruct y; try reflexivity; apply N .. ].
Qed.

Lemma mk_alt_spec b e x y s : CM b e (mk_alt x y) s <-> CM b e (CAlt x y) s.
Proof.
  rewrite CM_alt_iff. assert (N : CM b e CNone s <-> False) by (split; [apply CM_none_inv | tauto]).
  destruct x; simpl;
    [ rewrite N; split; [auto | intros [[] | H]; exact H]
    | destruct y; try apply CM_alt_iff; rewrite N; (split; [auto | intros [H | []]; exact H]) .. ].
Qed.

Lemma deriv_spec : forall r b e c s, CM false e (deriv b c r) s <-> CM b e r (c :: s).
Proof.
  induction r; intros b e c s; simpl.
  1-4: split; intros H; [destruct (CM_none_inv _ _ _ H) |].
  - destruct (CM_none_inv _ _ _ H).
  - apply CM_eps_iff in H. discriminate.
  - apply CM_beg_inv in H. now destruct H.
  - apply CM_end_inv in H. now destruct H.
  - destruct (cp_match F p c) eqn:E.
    + split; intros H.
      * apply CM_eps_iff in H. subst. now constructor.
      * apply CM_chr_inv in H. destruct H as (c' & Hc & _). inversion Hc; subst. constructor.
    + split; intros H.
      * destruct (CM_none_inv _ _ _ H).
      * apply CM_chr_inv in H. destruct H as (c' & Hc & Hm). inversion Hc; subst. congruence.
  - rewrite mk_alt_spec. split; intros H.
    + apply CM_alt_iff in H. destruct H as [H | H].
      * apply mk_cat_spec in H. apply CM_cat_iff in H. destruct H as (s1 & s2 & -> & H1 & H2).
        apply IHr1 in H1. simpl in H2.
        change (c :: s1 ++ s2) with ((c :: s1) ++ s2).
        cat_intro.
      * destruct (nullable b false r1) eqn:N; [| destruct (CM_none_inv _ _ _ H)].
        apply IHr2 in H. apply nullable_spec in N.
        change (c :: s) with ([] ++ c :: s).
        cat_intro.
    + apply CM_cat_iff in H. destruct H as (s1 & s2 & Hs & H1 & H2).
      destruct s1 as [| c1 s1]; simpl in Hs.
      * subst s2. simpl in *. rewrite andb_false_r in H1. rewrite andb_true_r in H2.
        apply CM_altr. apply nullable_spec in H1. rewrite H1. now apply IHr2.
      * inversion Hs; subst. apply CM_altl. apply mk_cat_spec.
        simpl in H2. rewrite andb_false_r in H2.
        cat_intro. now apply IHr1.
  - rewrite mk_alt_spec, !CM_alt_iff, IHr1, IHr2. reflexivity.
  - rewrite mk_cat_spec. split; intros H.
    + apply CM_cat_iff in H. destruct H as (s1 & s2 & -> & H1 & H2).
      apply IHr in H1. simpl in H2.
      change (c :: s1 ++ s2) with ((c :: s1) ++ s2).
      apply CM_star1; auto. discriminate.
    + apply CM_star_inv in H. destruct H as [H | (s1 & s2 & Hs & Hn & H1 & H2)]; [discriminate |].
      destruct s1 as [| c1 s1]; [congruence |]. inversion Hs; subst.
      cat_intro. now apply IHr.
Qed.

Theorem cmatch_spec : forall s r b, cmatch b r s = true <-> CM b true r s.
Proof.
  induction s as [| c s IH]; intros r b; simpl.
  - apply nullable_spec.
  - rewrite IH. apply deriv_spec.
Qed.

(* the reference matcher decides the anchored meaning of the syntax tree *)
Theorem re_match_correct : forall r s, re_match F r s = true <-> Matches F r s.
Proof. intros. apply cmatch_spec. Qed.

End Proofs.
