(* lib/Bits.v — bit streams as [list bool] (first element = first bit written = most
   significant bit of the first byte), n-bit big-endian fields, byte packing, and the
   leading/trailing-zero counts of 64-bit patterns.  Executable definitions and their
   round-trip lemmas (shared by C10, C11). *)
From Coq Require Import List ZArith Lia Bool.
Import ListNotations.
Open Scope Z_scope.

Definition bits := list bool.

(* ---- n-bit fields ------------------------------------------------------------------ *)

(* the n right-most bits of x (two's complement for negative x), most significant first:
   bstream.writeBits(u, n) *)
Fixpoint put_bits (n : nat) (x : Z) : bits :=
  match n with
  | O => []
  | S n' => Z.testbit x (Z.of_nat n') :: put_bits n' x
  end.

Fixpoint get_bits_acc (n : nat) (bs : bits) (acc : Z) : option (Z * bits) :=
  match n with
  | O => Some (acc, bs)
  | S n' => match bs with
            | [] => None                                  (* io.EOF *)
            | b :: r => get_bits_acc n' r (2 * acc + Z.b2z b)
            end
  end.

(* bstreamReader.readBits(n): an unsigned n-bit number, or None at end of stream *)
Definition get_bits (n : nat) (bs : bits) : option (Z * bits) := get_bits_acc n bs 0.

Definition get_bit (bs : bits) : option (bool * bits) :=
  match bs with [] => None | b :: r => Some (b, r) end.

Lemma put_bits_length n x : length (put_bits n x) = n.
Proof. induction n; cbn [put_bits length]; congruence. Qed.

Lemma mod_pow2_succ x n : 0 <= n ->
  x mod 2 ^ (n + 1) = Z.b2z (Z.testbit x n) * 2 ^ n + x mod 2 ^ n.
Proof.
  intros Hn. rewrite Z.pow_add_r, Z.pow_1_r by lia.
  rewrite Z.rem_mul_r by lia. rewrite Z.testbit_spec' by lia. lia.
Qed.

Lemma get_put_acc n : forall x r acc,
  get_bits_acc n (put_bits n x ++ r) acc = Some (acc * 2 ^ Z.of_nat n + x mod 2 ^ Z.of_nat n, r).
Proof.
  induction n as [|n IH]; intros x r acc.
  - cbn [put_bits get_bits_acc app]. change (Z.of_nat 0) with 0. rewrite Z.pow_0_r, Z.mod_1_r. f_equal. f_equal. lia.
  - cbn [put_bits get_bits_acc app]. rewrite IH. f_equal. f_equal.
    rewrite Nat2Z.inj_succ. unfold Z.succ. rewrite (mod_pow2_succ x (Z.of_nat n)) by lia.
    rewrite Z.pow_add_r, Z.pow_1_r by lia. lia.
Qed.

(* reading back an n-bit field yields the written number modulo 2^n *)
Lemma get_put_mod n x r : get_bits n (put_bits n x ++ r) = Some (x mod 2 ^ Z.of_nat n, r).
Proof. unfold get_bits. rewrite get_put_acc. f_equal. Qed.

Lemma get_put n x r : 0 <= x < 2 ^ Z.of_nat n -> get_bits n (put_bits n x ++ r) = Some (x, r).
Proof. intros H. rewrite get_put_mod, Z.mod_small by lia. reflexivity. Qed.

Lemma get_bits_acc_range n : forall bs acc v r, 0 <= acc ->
  get_bits_acc n bs acc = Some (v, r) -> acc * 2 ^ Z.of_nat n <= v < (acc + 1) * 2 ^ Z.of_nat n.
Proof.
  induction n as [|n IH]; intros bs acc v r Ha H.
  - cbn in H. inversion H; subst. change (Z.of_nat 0) with 0. rewrite Z.pow_0_r. lia.
  - cbn [get_bits_acc] in H. destruct bs as [|b bs]; [discriminate|].
    apply IH in H; [|destruct b; cbn [Z.b2z]; lia].
    rewrite Nat2Z.inj_succ. unfold Z.succ. rewrite Z.pow_add_r, Z.pow_1_r by lia.
    assert (Hp : 0 < 2 ^ Z.of_nat n) by (apply Z.pow_pos_nonneg; lia).
    destruct b; cbn [Z.b2z] in H; nia.
Qed.

Lemma get_bits_range n bs v r : get_bits n bs = Some (v, r) -> 0 <= v < 2 ^ Z.of_nat n.
Proof. unfold get_bits. intros H. apply get_bits_acc_range in H; lia. Qed.

(* ---- bytes <-> bits ---------------------------------------------------------------- *)

Definition unpack_bytes (bs : list Z) : bits := flat_map (put_bits 8) bs.

Definition byte_of_bits (bs : bits) : Z :=
  fold_left (fun acc (b : bool) => 2 * acc + Z.b2z b) bs 0.

(* bits -> bytes, the last byte padded with zero bits (what bstream leaves there) *)
Fixpoint pack_bits (bs : bits) : list Z :=
  match bs with
  | b7 :: b6 :: b5 :: b4 :: b3 :: b2 :: b1 :: b0 :: r =>
      byte_of_bits [b7; b6; b5; b4; b3; b2; b1; b0] :: pack_bits r
  | [] => []
  | _ => [byte_of_bits (firstn 8 (bs ++ repeat false 7))]
  end.

(* zero padding up to the next byte boundary: what "count = 0" on a reloaded chunk means *)
Definition pad8 (bs : bits) : bits :=
  bs ++ repeat false (Nat.modulo (8 - Nat.modulo (length bs) 8) 8).

(* the last bit written is the lowest *)
Lemma put_bits_snoc n : forall x b, put_bits (S n) (2 * x + Z.b2z b) = put_bits n x ++ [b].
Proof.
  induction n as [|n IH]; intros x b.
  - cbn [put_bits app Z.of_nat]. rewrite Z.testbit_0_r. reflexivity.
  - change (put_bits (S (S n)) (2 * x + Z.b2z b))
      with (Z.testbit (2 * x + Z.b2z b) (Z.of_nat (S n)) :: put_bits (S n) (2 * x + Z.b2z b)).
    rewrite IH, Nat2Z.inj_succ, Z.testbit_succ_r by lia. reflexivity.
Qed.

Lemma put8_byte_of b7 b6 b5 b4 b3 b2 b1 b0 :
  put_bits 8 (byte_of_bits [b7;b6;b5;b4;b3;b2;b1;b0]) = [b7;b6;b5;b4;b3;b2;b1;b0].
Proof. unfold byte_of_bits. cbn [fold_left]. rewrite !put_bits_snoc. reflexivity. Qed.

Lemma unpack_pack_len : forall n bs, (length bs <= n)%nat ->
  exists pad, unpack_bytes (pack_bits bs) = bs ++ pad /\ Forall (fun b => b = false) pad.
Proof.
  induction n as [|n IH]; intros bs Hl.
  - destruct bs; [|cbn in Hl; lia]. exists []. split; [reflexivity|constructor].
  - destruct bs as [|b7 [|b6 [|b5 [|b4 [|b3 [|b2 [|b1 [|b0 r]]]]]]]].
    1: exists []; split; [reflexivity|constructor].
    (* a last, partial byte: padded with zero bits *)
    1-7: eexists; (split; [cbn [pack_bits firstn app repeat unpack_bytes flat_map];
                           rewrite put8_byte_of; reflexivity | repeat constructor]).
    destruct (IH r) as [pad [Hp Hz]]; [cbn [length] in Hl; lia|].
    exists pad. split; [|exact Hz].
    cbn [pack_bits unpack_bytes flat_map]. fold (unpack_bytes (pack_bits r)).
    rewrite Hp, put8_byte_of. reflexivity.
Qed.

(* unpacking the packed bytes gives the bits back, followed by zero padding *)
Lemma unpack_pack bs :
  exists pad, unpack_bytes (pack_bits bs) = bs ++ pad /\ Forall (fun b => b = false) pad.
Proof. apply (unpack_pack_len (length bs)). lia. Qed.

(* ---- leading / trailing zeros of a 64-bit pattern ---------------------------------- *)

Fixpoint tz_pos (p : positive) : Z :=
  match p with xO p' => 1 + tz_pos p' | _ => 0 end.

(* bits.TrailingZeros64 / bits.LeadingZeros64 for 0 <= d < 2^64 *)
Definition tz64 (d : Z) : Z := match d with Zpos p => tz_pos p | _ => 64 end.
Definition lz64 (d : Z) : Z := match d with Zpos _ => 63 - Z.log2 d | _ => 64 end.

Lemma tz_pos_nonneg p : 0 <= tz_pos p.
Proof. induction p; cbn [tz_pos]; lia. Qed.

Lemma tz_pos_divide p : exists q, Zpos p = q * 2 ^ tz_pos p /\ 0 < q.
Proof.
  induction p as [p IH|p IH|].
  - exists (Zpos p~1). cbn [tz_pos]. rewrite Z.pow_0_r. lia.
  - destruct IH as [q [Hq Hp]]. exists q. cbn [tz_pos].
    pose proof (tz_pos_nonneg p). rewrite Z.pow_add_r by lia.
    change (Z.pos p~0) with (2 * Z.pos p). rewrite Hq. rewrite Z.pow_1_r. lia.
  - exists 1. cbn [tz_pos]. rewrite Z.pow_0_r. lia.
Qed.

(* shifting right then left by at most the number of trailing zeros restores the number *)
Lemma shiftr_shiftl_tz d k : 0 < d -> 0 <= k <= tz64 d -> Z.shiftl (Z.shiftr d k) k = d.
Proof.
  intros Hd Hk. destruct d as [|p|p]; try lia. cbn [tz64] in Hk.
  destruct (tz_pos_divide p) as [q [Hq Hq0]].
  rewrite Z.shiftr_div_pow2, Z.shiftl_mul_pow2 by lia.
  assert (He : 2 ^ tz_pos p = 2 ^ (tz_pos p - k) * 2 ^ k) by (rewrite <- Z.pow_add_r by lia; f_equal; lia).
  rewrite Hq, He, Z.mul_assoc, Z.div_mul by (apply Z.pow_nonzero; lia). reflexivity.
Qed.

Lemma lz64_bound d : 0 < d < 2 ^ 64 -> 0 <= lz64 d <= 63 /\ d < 2 ^ (64 - lz64 d).
Proof.
  intros Hd. destruct d as [|p|p]; try lia. cbn [lz64].
  pose proof (Z.log2_spec (Zpos p) ltac:(lia)) as [Hlo Hhi].
  assert (Z.log2 (Z.pos p) < 64) by (apply Z.log2_lt_pow2; lia).
  pose proof (Z.log2_nonneg (Z.pos p)).
  split; [lia|]. replace (64 - (63 - Z.log2 (Z.pos p))) with (Z.succ (Z.log2 (Z.pos p))) by lia. exact Hhi.
Qed.

Lemma tz64_bound d : 0 < d < 2 ^ 64 -> 0 <= tz64 d /\ lz64 d + tz64 d <= 63.
Proof.
  intros Hd. destruct d as [|p|p]; try lia. cbn [tz64 lz64].
  pose proof (tz_pos_nonneg p). split; [lia|].
  destruct (tz_pos_divide p) as [q [Hq Hq0]].
  assert (2 ^ tz_pos p <= Z.pos p) by nia.
  assert (tz_pos p <= Z.log2 (Z.pos p)) by (apply Z.log2_le_pow2; lia). lia.
Qed.

(* d shifted right by k <= tz fits in 64 - l - k bits whenever l <= lz *)
Lemma shiftr_fits d l k : 0 < d < 2 ^ 64 -> 0 <= l <= lz64 d -> 0 <= k <= tz64 d ->
  0 <= Z.shiftr d k < 2 ^ (64 - l - k).
Proof.
  intros Hd Hl Hk. pose proof (lz64_bound d Hd) as [Hlz Hlt]. pose proof (tz64_bound d Hd) as [Htz Hsum].
  rewrite Z.shiftr_div_pow2 by lia.
  assert (Hp : 0 < 2 ^ k) by (apply Z.pow_pos_nonneg; lia).
  split; [apply Z.div_pos; lia|].
  apply Z.div_lt_upper_bound; [lia|]. rewrite <- Z.pow_add_r by lia.
  replace (k + (64 - l - k)) with (64 - l) by lia.
  eapply Z.lt_le_trans; [exact Hlt|]. apply Z.pow_le_mono_r; lia.
Qed.
