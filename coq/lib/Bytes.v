(* lib/Bytes.v — bytes as N (< 256), byte strings as list N, big-endian fixed-width integers,
   and the Decbuf/Encbuf model of tsdb/encoding/encoding.go (fixed-width part).

   Decbuf has a *sticky* error: once E is set every later read returns 0 and the callers in
   /repo only look at the final Err().  A decoder is therefore modelled in the error monad
   [dec A := list N -> res (A * list N)] (first error wins, nothing after it is observable).
   Distinct failure kinds are distinct constructors of [err]; a Go panic is [EPanic],
   running out of fuel in a fuelled loop is [EFuel]. *)
From Coq Require Import List NArith ZArith Lia Bool.
From Verif Require Import lib.Int64.
Import ListNotations.
Open Scope N_scope.

(* ---------------------------------------------------------------- bytes *)
Definition byte_ok (b : N) : Prop := b < 256.
Definition bytes_ok (l : list N) : Prop := Forall byte_ok l.
Definition bytes_okb (l : list N) : bool := forallb (fun b => b <? 256) l.

Fixpoint bytes_eqb (a b : list N) : bool :=
  match a, b with
  | [], [] => true
  | x :: a', y :: b' => (x =? y) && bytes_eqb a' b'
  | _, _ => false
  end.

(* ---------------------------------------------------------------- results *)
Inductive err := ESize      (* encoding.ErrInvalidSize (short buffer, bad varint) *)
               | EType      (* "invalid record type" *)
               | ETrailing  (* "unexpected %d bytes left in entry" *)
               | EPanic     (* a Go run-time panic *)
               | EFuel      (* model artefact: fuelled loop ran out of fuel *)
               | EOther.    (* any other error returned by the code *)

Inductive res (A : Type) := Ok (a : A) | Err (e : err).
Arguments Ok {A} a.
Arguments Err {A} e.

Definition err_eqb (a b : err) : bool :=
  match a, b with
  | ESize, ESize | EType, EType | ETrailing, ETrailing | EPanic, EPanic | EFuel, EFuel | EOther, EOther => true
  | _, _ => false
  end.

(* a decoder consumes a prefix of the buffer *)
Definition dec (A : Type) := list N -> res (A * list N).

Definition dret {A} (a : A) : dec A := fun bs => Ok (a, bs).
Definition dfail {A} (e : err) : dec A := fun _ => Err e.
Definition dbind {A B} (d : dec A) (k : A -> dec B) : dec B :=
  fun bs => match d bs with Ok (a, r) => k a r | Err e => Err e end.
Definition dmap {A B} (f : A -> B) (d : dec A) : dec B := dbind d (fun a => dret (f a)).

Declare Scope dec_scope.
Delimit Scope dec_scope with dec.
Notation "x <- d ;; k" := (dbind d (fun x => k)) (at level 61, d at next level, right associativity) : dec_scope.
Notation "' p <- d ;; k" := (dbind d (fun p => k)) (at level 61, p pattern, d at next level, right associativity) : dec_scope.

(* run a decoder n times in sequence (Go: `for range n { ... }` / `for i := range slice`) *)
Fixpoint drepeat {A} (n : nat) (d : dec A) : dec (list A) :=
  match n with
  | O => dret []
  | S k => dbind d (fun a => dbind (drepeat k d) (fun l => dret (a :: l)))
  end.

(* ---------------------------------------------------------------- big endian *)
(* n bytes, most significant first, of x mod 256^n  (binary.BigEndian.PutUintNN) *)
Fixpoint be_enc (n : nat) (x : N) : list N :=
  match n with
  | O => []
  | S k => (x / 256 ^ N.of_nat k) mod 256 :: be_enc k x
  end.

(* read n bytes big-endian into an accumulator; None when the buffer is shorter *)
Fixpoint be_take (n : nat) (acc : N) (bs : list N) : option (N * list N) :=
  match n with
  | O => Some (acc, bs)
  | S k => match bs with [] => None | b :: r => be_take k (acc * 256 + b) r end
  end.

Definition put_be16 (x : N) : list N := be_enc 2 x.
Definition put_be32 (x : N) : list N := be_enc 4 x.
Definition put_be64 (x : N) : list N := be_enc 8 x.

Definition d_be (n : nat) : dec N :=
  fun bs => match be_take n 0 bs with Some (x, r) => Ok (x, r) | None => Err ESize end.
Definition d_be16 : dec N := d_be 2.
Definition d_be32 : dec N := d_be 4.   (* Decbuf.Be32 *)
Definition d_be64 : dec N := d_be 8.   (* Decbuf.Be64 *)

(* Decbuf.Byte *)
Definition d_byte : dec N := fun bs => match bs with [] => Err ESize | b :: r => Ok (b, r) end.

(* take exactly n raw bytes *)
Fixpoint take_bytes (n : nat) (bs : list N) : option (list N * list N) :=
  match n with
  | O => Some ([], bs)
  | S k => match bs with [] => None | b :: r =>
             match take_bytes k r with Some (h, t) => Some (b :: h, t) | None => None end end
  end.

(* ---------------------------------------------------------------- int64 <-> uint64 views *)
Definition two64N : N := 18446744073709551616.
Definition u64_ok (x : N) : Prop := x < two64N.
Definition u64_okb (x : N) : bool := x <? two64N.

(* Go uint64(x) for an int64 (or any integer) x *)
Definition to_u64 (z : Z) : N := Z.to_N (z mod two64).
(* Go int64(x) for a uint64 x *)
Definition to_i64 (n : N) : Z := wrap64 (Z.of_N n).
(* Go int32(x) truncation of an int64 *)
Definition wrap32 (z : Z) : Z := (z + 2147483648) mod 4294967296 - 2147483648.
Definition int32 (z : Z) : Prop := (-2147483648 <= z <= 2147483647)%Z.
Definition int32b (z : Z) : bool := ((-2147483648 <=? z) && (z <=? 2147483647))%Z.

(* ================================================================ lemmas *)

Lemma bytes_okb_spec l : bytes_okb l = true <-> bytes_ok l.
Proof.
  unfold bytes_okb, bytes_ok, byte_ok. rewrite forallb_forall, Forall_forall.
  split; intros H x Hx; specialize (H x Hx); [apply N.ltb_lt | apply N.ltb_lt]; exact H.
Qed.

Lemma bytes_eqb_eq a b : bytes_eqb a b = true <-> a = b.
Proof.
  revert b; induction a as [|x a IH]; intros [|y b]; simpl; try (split; [discriminate|discriminate]); try tauto.
  rewrite andb_true_iff, N.eqb_eq, IH. split; [intros [-> ->]; reflexivity | intros H; inversion H; auto].
Qed.

Lemma be_enc_length n x : length (be_enc n x) = n.
Proof. induction n; simpl; auto. Qed.

Lemma be_enc_bytes_ok n x : bytes_ok (be_enc n x).
Proof.
  induction n; simpl; constructor; auto. unfold byte_ok. apply N.mod_lt. discriminate.
Qed.

Lemma be_take_enc n : forall x acc rest,
  be_take n acc (be_enc n x ++ rest) = Some (acc * 256 ^ N.of_nat n + x mod 256 ^ N.of_nat n, rest).
Proof.
  induction n as [|k IH]; intros x acc rest.
  - simpl. rewrite N.mod_1_r. f_equal. f_equal. lia.
  - cbn [be_enc be_take app]. rewrite IH. f_equal. f_equal.
    rewrite Nnat.Nat2N.inj_succ, N.pow_succ_r'.
    set (p := 256 ^ N.of_nat k).
    assert (Hp : p <> 0) by (apply N.pow_nonzero; discriminate).
    rewrite (N.mul_comm 256 p).
    rewrite (N.mod_mul_r x p 256) by (auto; discriminate).
    lia.
Qed.

Lemma d_be_enc n x rest : x < 256 ^ N.of_nat n -> d_be n (be_enc n x ++ rest) = Ok (x, rest).
Proof.
  intros H. unfold d_be. rewrite be_take_enc. rewrite N.mod_small by exact H. reflexivity.
Qed.

Lemma d_be64_put x rest : u64_ok x -> d_be64 (put_be64 x ++ rest) = Ok (x, rest).
Proof. intros H. apply d_be_enc. exact H. Qed.

Lemma d_be32_put x rest : x < 4294967296 -> d_be32 (put_be32 x ++ rest) = Ok (x, rest).
Proof. intros H. apply d_be_enc. exact H. Qed.

Lemma d_be16_put x rest : x < 65536 -> d_be16 (put_be16 x ++ rest) = Ok (x, rest).
Proof. intros H. apply d_be_enc. exact H. Qed.

(* a decoder that succeeds hands its value and the rest to the continuation *)
Lemma dbind_ok {A B} (d : dec A) (k : A -> dec B) bs a r :
  d bs = Ok (a, r) -> dbind d k bs = k a r.
Proof. intros H. unfold dbind. rewrite H. reflexivity. Qed.

Lemma dbind_be64 {B} (k : N -> dec B) x rest :
  u64_ok x -> dbind d_be64 k (put_be64 x ++ rest) = k x rest.
Proof. intros H. apply dbind_ok, d_be64_put, H. Qed.

Lemma dbind_byte {B} (k : N -> dec B) b rest : dbind d_byte k (b :: rest) = k b rest.
Proof. reflexivity. Qed.

Lemma put_be64_length x : length (put_be64 x) = 8%nat.
Proof. apply be_enc_length. Qed.

Lemma be_take_short n : forall acc bs, (length bs < n)%nat -> be_take n acc bs = None.
Proof.
  induction n as [|k IH]; intros acc bs H; [inversion H|].
  destruct bs as [|b r]; simpl; auto. apply IH. simpl in H. lia.
Qed.

Lemma take_bytes_app s rest : take_bytes (length s) (s ++ rest) = Some (s, rest).
Proof. induction s as [|b s IH]; simpl; auto. rewrite IH. reflexivity. Qed.

(* a counted repetition reads back what a loop over the elements wrote *)
Lemma drepeat_flat_map {X} (d : dec X) (e : X -> list N) (P : X -> Prop) :
  (forall x rest, P x -> d (e x ++ rest) = Ok (x, rest)) ->
  forall l rest, Forall P l -> drepeat (length l) d (flat_map e l ++ rest) = Ok (l, rest).
Proof.
  intros Hd l. induction l as [|x l IH]; intros rest Hl; [reflexivity|].
  inversion Hl as [|? ? Hx Hl']; subst.
  cbn [length drepeat flat_map]. rewrite <- app_assoc.
  unfold dbind at 1. rewrite (Hd x _ Hx). unfold dbind at 1. rewrite (IH rest Hl'). reflexivity.
Qed.

(* ---- int64/uint64 views *)
Lemma to_u64_ok z : u64_ok (to_u64 z).
Proof.
  unfold u64_ok, to_u64, two64N, two64.
  pose proof (Z.mod_pos_bound z 18446744073709551616 ltac:(lia)). lia.
Qed.

Lemma to_i64_range n : int64 (to_i64 n).
Proof. apply wrap64_range. Qed.

Lemma sub64_range a b : int64 (sub64 a b).
Proof. apply wrap64_range. Qed.

Lemma to_i64_to_u64 z : to_i64 (to_u64 z) = wrap64 z.
Proof.
  unfold to_i64, to_u64, wrap64, two64.
  pose proof (Z.mod_pos_bound z 18446744073709551616 ltac:(lia)) as Hb.
  rewrite Z2N.id by lia.
  rewrite Zplus_mod_idemp_l. reflexivity.
Qed.

Lemma to_u64_to_i64 n : u64_ok n -> to_u64 (to_i64 n) = n.
Proof.
  unfold u64_ok, two64N, to_u64, to_i64, wrap64, two64. intros H.
  rewrite Zminus_mod_idemp_l.
  replace (Z.of_N n + 9223372036854775808 - 9223372036854775808)%Z with (Z.of_N n) by lia.
  rewrite Z.mod_small by lia. apply N2Z.id.
Qed.

Lemma to_u64_wrap64 z : to_u64 (wrap64 z) = to_u64 z.
Proof.
  unfold to_u64, wrap64, two64. f_equal.
  rewrite Zminus_mod_idemp_l. f_equal. lia.
Qed.

(* the two lemmas every delta encoding needs: a delta computed and re-applied with wrap-around
   restores the value *)
Lemma wrap64_add_wrap_r a b : wrap64 (a + wrap64 b) = wrap64 (a + b).
Proof.
  unfold wrap64, two64.
  replace (a + ((b + 9223372036854775808) mod 18446744073709551616 - 9223372036854775808) + 9223372036854775808)%Z
    with (a + (b + 9223372036854775808) mod 18446744073709551616)%Z by lia.
  rewrite Zplus_mod_idemp_r. f_equal. f_equal. lia.
Qed.

Lemma delta64_restore base x : int64 x -> add64 base (sub64 x base) = x.
Proof.
  intros H. unfold add64, sub64. rewrite wrap64_add_wrap_r.
  replace (base + (x - base))%Z with x by lia. apply wrap64_id. exact H.
Qed.

Lemma wrap32_id z : int32 z -> wrap32 z = z.
Proof. unfold int32, wrap32. intros H. rewrite Z.mod_small by lia. lia. Qed.

Lemma int32b_spec z : int32b z = true <-> int32 z.
Proof. unfold int32b, int32. rewrite andb_true_iff, !Z.leb_le. tauto. Qed.

Lemma int32_int64 z : int32 z -> int64 z.
Proof. unfold int32, int64, minInt64, maxInt64. lia. Qed.

Lemma u64_okb_spec x : u64_okb x = true <-> u64_ok x.
Proof. unfold u64_okb, u64_ok. apply N.ltb_lt. Qed.
