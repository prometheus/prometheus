(* lib/SortedList.v — facts about lists, StronglySorted and Permutation that the proofs about
   interval sets, sample lists and chunk lists share. *)
From Coq Require Import List Bool Sorted Permutation.
Import ListNotations.

Lemma firstn_length_app {A} (l r : list A) : firstn (length l) (l ++ r) = l.
Proof. induction l as [|a l IH]; cbn [length firstn app]; [destruct r; reflexivity|]. rewrite IH. reflexivity. Qed.

Lemma skipn_length_app {A} (l r : list A) : skipn (length l) (l ++ r) = r.
Proof. induction l as [|a l IH]; cbn [length skipn app]; [reflexivity|exact IH]. Qed.

Lemma firstn_app_exact {A} (a b : list A) k : k = length a -> firstn k (a ++ b) = a.
Proof. intros ->. apply firstn_length_app. Qed.

Lemma firstn_S_nth {A} (l : list A) i x : nth_error l i = Some x -> firstn (S i) l = firstn i l ++ [x].
Proof.
  revert l. induction i as [|i IH]; intros [|a l] H; try discriminate H; cbn [firstn app].
  - injection H as ->. reflexivity.
  - rewrite <- (IH l H). reflexivity.
Qed.

Lemma in_firstn {A} (l : list A) n x : In x (firstn n l) -> In x l.
Proof. intros H. rewrite <- (firstn_skipn n l). apply in_or_app. left. exact H. Qed.

Lemma filter_all {A} (p : A -> bool) l : (forall x, In x l -> p x = true) -> filter p l = l.
Proof.
  induction l as [|a l IH]; simpl; intros H; [reflexivity|].
  rewrite (H a (or_introl eq_refl)). f_equal. apply IH. intros x Hx. apply H. right. exact Hx.
Qed.

Lemma filter_none {A} (p : A -> bool) l : (forall x, In x l -> p x = false) -> filter p l = [].
Proof.
  induction l as [|a l IH]; simpl; intros H; [reflexivity|].
  rewrite (H a (or_introl eq_refl)). apply IH. intros x Hx. apply H. right. exact Hx.
Qed.

Lemma filter_nil_iff {A} (p : A -> bool) l : filter p l = [] <-> forall x, In x l -> p x = false.
Proof.
  split; [|apply filter_none]. intros E x Hx. destruct (p x) eqn:Px; [|reflexivity].
  assert (H : In x (filter p l)) by (apply filter_In; auto). rewrite E in H. destruct H.
Qed.

Lemma filter_filter {A} (f g : A -> bool) l : filter f (filter g l) = filter (fun x => g x && f x) l.
Proof.
  induction l as [|a l IH]; simpl; [reflexivity|].
  destruct (g a); simpl; [destruct (f a); rewrite IH; reflexivity|exact IH].
Qed.

Lemma filter_comm {A} (f g : A -> bool) l : filter f (filter g l) = filter g (filter f l).
Proof. rewrite !filter_filter. apply filter_ext. intros a. apply andb_comm. Qed.

Lemma filter_idem {A} (f : A -> bool) l : filter f (filter f l) = filter f l.
Proof. rewrite filter_filter. apply filter_ext. intros a. apply andb_diag. Qed.

Lemma flat_map_ext_in {A B} (f g : A -> list B) l :
  (forall a, In a l -> f a = g a) -> flat_map f l = flat_map g l.
Proof. intros H. rewrite !flat_map_concat_map. f_equal. apply map_ext_in, H. Qed.

Lemma flat_map_nil {A B} (f : A -> list B) l : (forall a, f a = []) -> flat_map f l = [].
Proof. intro H. induction l as [|a l IH]; simpl; [reflexivity | now rewrite H, IH]. Qed.

Lemma flat_map_singleton {A B} (f : A -> B) l : flat_map (fun x => [f x]) l = map f l.
Proof. induction l; simpl; congruence. Qed.

Lemma fold_left_ext {A B} (f g : A -> B -> A) l :
  (forall a b, f a b = g a b) -> forall a, fold_left f l a = fold_left g l a.
Proof. intros H. induction l as [|x l IH]; simpl; intros a; [reflexivity|]. rewrite H. apply IH. Qed.

Lemma last_cons {A} (a : A) l d : last (a :: l) d = last l a.
Proof.
  revert a d. induction l as [|b l IH]; intros a d; [reflexivity|].
  change (last (a :: b :: l) d) with (last (b :: l) d). now rewrite !IH.
Qed.

Lemma forallb_repeat {A} (f : A -> bool) x n : f x = true -> forallb f (repeat x n) = true.
Proof. intros H. induction n as [|n IH]; simpl; [reflexivity|]. now rewrite H. Qed.

Lemma existsb_eqb_In {A} (eqb : A -> A -> bool) : (forall x y, eqb x y = true <-> x = y) ->
  forall x l, existsb (eqb x) l = true <-> In x l.
Proof.
  intros He x l. rewrite existsb_exists. split; [intros (y & Hy & E); apply He in E; now subst|].
  intros H. exists x. split; [exact H|apply He; reflexivity].
Qed.

Lemma existsb_eqb_notin {A} (eqb : A -> A -> bool) : (forall x y, eqb x y = true <-> x = y) ->
  forall x l, existsb (eqb x) l = false <-> ~ In x l.
Proof. intros He x l. rewrite <- (existsb_eqb_In eqb He). symmetry. apply not_true_iff_false. Qed.

(* A model's own duplicate test with this body is convertible to [nodupb eqb] at its equality. *)
Section NoDupb.
  Context {A : Type} (eqb : A -> A -> bool).

  Fixpoint nodupb (l : list A) : bool :=
    match l with [] => true | x :: t => negb (existsb (eqb x) t) && nodupb t end.

  Lemma nodupb_spec : (forall x y, eqb x y = true <-> x = y) -> forall l, nodupb l = true <-> NoDup l.
  Proof.
    intros He. induction l as [|x t IH]; simpl; [split; [constructor|reflexivity]|].
    rewrite andb_true_iff, negb_true_iff, (existsb_eqb_notin eqb He), IH. symmetry. apply NoDup_cons_iff.
  Qed.
End NoDupb.

Lemma Forall2_in_l {A B} (P : A -> B -> Prop) l1 l2 : Forall2 P l1 l2 ->
  forall a, In a l1 -> exists b, In b l2 /\ P a b.
Proof.
  induction 1 as [|x y l1 l2 Hxy Hf IH]; intros a Ha; [destruct Ha|].
  destruct Ha as [<-|Ha]; [exists y; split; [left; reflexivity|exact Hxy]|].
  destruct (IH a Ha) as (b & Hb & Hp). exists b. split; [right; exact Hb|exact Hp].
Qed.

Lemma NoDup_snoc {A} (l : list A) x : NoDup l -> ~ In x l -> NoDup (l ++ [x]).
Proof.
  intros H Hx. apply (Permutation_NoDup (Permutation_cons_append l x)). constructor; assumption.
Qed.

Lemma NoDup_app_disjoint {A} (l1 l2 : list A) :
  NoDup l1 -> NoDup l2 -> (forall x, In x l1 -> ~ In x l2) -> NoDup (l1 ++ l2).
Proof.
  induction l1 as [|a t IH]; simpl; intros H1 H2 Hd; auto.
  inversion H1; subst. constructor.
  - intros Hin. apply in_app_or in Hin as [Hin|Hin]; auto. apply (Hd a); auto.
  - apply IH; auto.
Qed.

Lemma NoDup_map_inj {A B} (f : A -> B) l a b : NoDup (map f l) -> In a l -> In b l -> f a = f b -> a = b.
Proof.
  induction l as [|c l IH]; [contradiction|]. simpl. intros N. inversion N as [|? ? Hn N']; subst.
  intros [H1|H1] [H2|H2] E.
  - congruence.
  - subst c. exfalso. apply Hn. rewrite E. apply in_map. exact H2.
  - subst c. exfalso. apply Hn. rewrite <- E. apply in_map. exact H1.
  - apply IH; assumption.
Qed.

Lemma NoDup_map_filter {A B} (f : A -> B) (g : A -> bool) l : NoDup (map f l) -> NoDup (map f (filter g l)).
Proof.
  induction l as [|a l IH]; simpl; intros H; [constructor|]. inversion H as [|? ? Hn Hl]; subst.
  destruct (g a); simpl; [|apply IH; exact Hl]. constructor; [|apply IH; exact Hl].
  intros Hin. apply Hn. apply in_map_iff in Hin. destruct Hin as [x [E Hx]]. apply filter_In in Hx.
  apply in_map_iff. exists x. split; [exact E|apply Hx].
Qed.

Lemma Forall_in {A} {P : A -> Prop} {l} : Forall P l -> forall x, In x l -> P x.
Proof. apply Forall_forall. Qed.

Lemma Forall_filter {A} (P : A -> Prop) p l : Forall P l -> Forall P (filter p l).
Proof. rewrite !Forall_forall. intros H x Hx. apply filter_In in Hx as [Hx _]. apply H, Hx. Qed.

Lemma perm_mem {A} {l l' : list A} : Permutation l l' -> forall x, In x l <-> In x l'.
Proof. intros H x. split; apply Permutation_in; [|symmetry]; exact H. Qed.

Lemma map_mem {A B} (f : A -> B) l l' :
  (forall x, In x l <-> In x l') -> forall y, In y (map f l) <-> In y (map f l').
Proof.
  intros H y. rewrite !in_map_iff. split; intros [x [E Hx]]; exists x; (split; [exact E|apply H, Hx]).
Qed.

Section Sorted.
  Context {A : Type} (R : A -> A -> Prop).

  Lemma StronglySorted_app a b : StronglySorted R (a ++ b) <->
    StronglySorted R a /\ StronglySorted R b /\ forall x y, In x a -> In y b -> R x y.
  Proof.
    induction a as [|s a IH]; simpl.
    - split; [intros H; split; [constructor|split; [exact H|intros x y []]]|intros (_ & H & _); exact H].
    - split.
      + intros H. apply StronglySorted_inv in H as [Hs Hf]. apply IH in Hs as (H1 & H2 & H3).
        apply Forall_app in Hf as [Hfa Hfb]. rewrite Forall_forall in Hfb.
        split; [constructor; assumption|]. split; [exact H2|].
        intros x y [<-|Hx] Hy; [apply Hfb, Hy|apply H3; assumption].
      + intros (H1 & H2 & H3). apply StronglySorted_inv in H1 as [Hs Hf].
        constructor; [apply IH; auto|]. apply Forall_app. split; [exact Hf|].
        apply Forall_forall. auto.
  Qed.

  Lemma StronglySorted_filter p l : StronglySorted R l -> StronglySorted R (filter p l).
  Proof.
    induction 1 as [|a l Hs IH Hf]; simpl; [constructor|].
    destruct (p a); [|exact IH]. constructor; [exact IH|apply Forall_filter, Hf].
  Qed.
End Sorted.

Lemma StronglySorted_same {A} (R : A -> A -> Prop) : (forall x y, R x y -> R y x -> False) ->
  forall l1 l2, StronglySorted R l1 -> StronglySorted R l2 -> (forall x, In x l1 <-> In x l2) -> l1 = l2.
Proof.
  intros Asym. induction l1 as [|a t1 IH]; intros [|b t2] S1 S2 H; auto.
  - destruct (proj2 (H b) (or_introl eq_refl)).
  - destruct (proj1 (H a) (or_introl eq_refl)).
  - apply StronglySorted_inv in S1 as [S1 B1]. apply StronglySorted_inv in S2 as [S2 B2].
    assert (E : a = b).
    { destruct (proj1 (H a) (or_introl eq_refl)) as [E|Ia]; auto.
      destruct (proj2 (H b) (or_introl eq_refl)) as [E|Ib]; auto.
      destruct (Asym a b (Forall_in B1 b Ib) (Forall_in B2 a Ia)). }
    subst b. f_equal. apply IH; auto. intros x. split; intros Hx.
    + destruct (proj1 (H x) (or_intror Hx)) as [<-|]; auto. destruct (Asym a a); exact (Forall_in B1 a Hx).
    + destruct (proj2 (H x) (or_intror Hx)) as [<-|]; auto. destruct (Asym a a); exact (Forall_in B2 a Hx).
Qed.

Lemma StronglySorted_map {A B} (f : A -> B) (R : A -> A -> Prop) (S : B -> B -> Prop) l :
  (forall a b, R a b -> S (f a) (f b)) -> StronglySorted R l -> StronglySorted S (map f l).
Proof.
  intros H. induction 1 as [|a l Hs IH Hf]; simpl; constructor; [exact IH|].
  apply Forall_map. eapply Forall_impl; [|exact Hf]. apply H.
Qed.
