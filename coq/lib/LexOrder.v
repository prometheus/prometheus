(* lib/LexOrder.v — the lexicographic order on lists over a three-way comparison of their elements:
   Go's string comparison (bytewise), whatever type a model takes for bytes.  A model's own
   [str_cmp] / [str_ltb] with the same bodies are convertible to [lex_cmp cmp] / [lex_ltb cmp]. *)
From Coq Require Import List Bool.
Import ListNotations.

Section Lex.
Context {A : Type} (cmp : A -> A -> comparison).

Fixpoint lex_cmp (a b : list A) : comparison :=
  match a, b with
  | [], [] => Eq
  | [], _ :: _ => Lt
  | _ :: _, [] => Gt
  | x :: a', y :: b' => match cmp x y with Eq => lex_cmp a' b' | c => c end
  end.
Definition lex_ltb (a b : list A) : bool := match lex_cmp a b with Lt => true | _ => false end.

Hypothesis cmp_eq : forall x y, cmp x y = Eq <-> x = y.
Hypothesis cmp_antisym : forall x y, cmp y x = CompOpp (cmp x y).
Hypothesis cmp_lt_trans : forall x y z, cmp x y = Lt -> cmp y z = Lt -> cmp x z = Lt.

Lemma lex_cmp_eq a : forall b, lex_cmp a b = Eq <-> a = b.
Proof.
  induction a as [|x a IH]; intros [|y b]; simpl; split; intros H; try discriminate; auto.
  - destruct (cmp x y) eqn:E; try discriminate. apply cmp_eq in E. apply IH in H. congruence.
  - injection H as <- <-. rewrite (proj2 (cmp_eq x x) eq_refl). apply IH. reflexivity.
Qed.

Lemma lex_cmp_antisym a : forall b, lex_cmp b a = CompOpp (lex_cmp a b).
Proof.
  induction a as [|x a IH]; intros [|y b]; simpl; auto.
  rewrite (cmp_antisym x y). destruct (cmp x y); simpl; auto.
Qed.

Lemma lex_cmp_lt_trans a : forall b c, lex_cmp a b = Lt -> lex_cmp b c = Lt -> lex_cmp a c = Lt.
Proof.
  induction a as [|x a IH]; intros [|y b] [|z c]; simpl; intros H1 H2; try discriminate; auto.
  destruct (cmp x y) eqn:E1; try discriminate; destruct (cmp y z) eqn:E2; try discriminate.
  - apply cmp_eq in E1. subst y. rewrite E2. eauto.
  - apply cmp_eq in E1. subst y. rewrite E2. reflexivity.
  - apply cmp_eq in E2. subst z. rewrite E1. reflexivity.
  - rewrite (cmp_lt_trans x y z E1 E2). reflexivity.
Qed.

Lemma lex_ltb_irrefl a : lex_ltb a a = false.
Proof. unfold lex_ltb. rewrite (proj2 (lex_cmp_eq a a) eq_refl). reflexivity. Qed.

Lemma lex_ltb_trans a b c : lex_ltb a b = true -> lex_ltb b c = true -> lex_ltb a c = true.
Proof.
  unfold lex_ltb. destruct (lex_cmp a b) eqn:E1; try discriminate. destruct (lex_cmp b c) eqn:E2; try discriminate.
  intros _ _. rewrite (lex_cmp_lt_trans _ _ _ E1 E2). reflexivity.
Qed.

Lemma lex_ltb_asym a b : lex_ltb a b = true -> lex_ltb b a = false.
Proof. unfold lex_ltb. rewrite (lex_cmp_antisym a b). destruct (lex_cmp a b); simpl; auto; discriminate. Qed.

Lemma lex_cmp_cases a b :
  (lex_cmp a b = Lt /\ lex_ltb a b = true) \/ (lex_cmp a b = Eq /\ a = b) \/ (lex_cmp a b = Gt /\ lex_ltb b a = true).
Proof.
  unfold lex_ltb. rewrite (lex_cmp_antisym a b). destruct (lex_cmp a b) eqn:E; auto.
  right; left. split; auto. apply lex_cmp_eq; auto.
Qed.

Lemma lex_ltb_total a b : lex_ltb a b = false -> lex_ltb b a = false -> a = b.
Proof. destruct (lex_cmp_cases a b) as [[_ H]|[[_ H]|[_ H]]]; congruence. Qed.

End Lex.

(* Equality of lists decided elementwise: a model's own [str_eqb] with this body is convertible to
   [eqb_list eqb] at its equality of bytes. *)
Section Eqb.
Context {A : Type} (eqb : A -> A -> bool).

Fixpoint eqb_list (a b : list A) : bool :=
  match a, b with
  | [], [] => true
  | x :: a', y :: b' => eqb x y && eqb_list a' b'
  | _, _ => false
  end.

Lemma eqb_list_eq : (forall x y, eqb x y = true <-> x = y) -> forall a b, eqb_list a b = true <-> a = b.
Proof.
  intros He. induction a as [|x a IH]; intros [|y b]; simpl; split; intros H; try discriminate; auto.
  - apply andb_true_iff in H as [H1 H2]. apply He in H1. apply IH in H2. congruence.
  - injection H as <- <-. apply andb_true_iff. split; [apply He|apply IH]; reflexivity.
Qed.
End Eqb.
