(* lib/Varint.v — base-128 varints as used by encoding/binary (PutUvarint/PutVarint) on the
   write side and github.com/dennwc/varint.Uvarint (an unrolled binary.Uvarint) on the read
   side, plus the varint-flavoured Decbuf/Encbuf methods of tsdb/encoding/encoding.go. *)
From Coq Require Import List NArith ZArith Lia Bool.
From Verif Require Import lib.Int64 lib.Bytes.
Import ListNotations.
Open Scope N_scope.

(* ---------------------------------------------------------------- uvarint *)
(* binary.PutUvarint:  for x >= 0x80 { buf[i] = byte(x)|0x80; x >>= 7; i++ }; buf[i] = byte(x).
   x is a uint64, so at most 10 bytes are produced (the size of Encbuf.C); fuel 10 is exact
   for x < 2^64 (lemma uv_enc_fuel_enough below: more fuel changes nothing). *)
Fixpoint uv_enc_fuel (fuel : nat) (x : N) : list N :=
  match fuel with
  | O => []
  | S f => if x <? 128 then [x] else (x mod 128 + 128) :: uv_enc_fuel f (x / 128)
  end.
Definition put_uvarint (x : N) : list N := uv_enc_fuel 10 x.

(* binary.Uvarint / dennwc varint.Uvarint, reduced to what Decbuf uses (value, n>=1) or failure
   (n<1: buffer too short, or more than 64 bits).  [n] = bytes still allowed (10 at the start),
   [s] = current shift, [acc] = bits so far.  `x | uint64(b)<<s` is written acc + b*2^s: the
   bits are disjoint (acc < 2^s).  The 10th byte may only be 0 or 1; a 10th byte with the
   continuation bit always ends in failure (overflow, or buffer exhausted). *)
Fixpoint uv_dec_aux (n : nat) (s acc : N) (bs : list N) : option (N * list N) :=
  match n with
  | O => None
  | S n' =>
      match bs with
      | [] => None
      | b :: r =>
          if b <? 128 then
            if Nat.eqb n' 0 && (1 <? b) then None else Some (acc + b * 2 ^ s, r)
          else uv_dec_aux n' (s + 7) (acc + (b - 128) * 2 ^ s) r
      end
  end.
Definition get_uvarint (bs : list N) : option (N * list N) := uv_dec_aux 10 0 0 bs.

(* ---------------------------------------------------------------- zig-zag *)
(* binary.PutVarint: ux := uint64(x) << 1; if x < 0 { ux = ^ux } *)
Definition zigzag (x : Z) : N := Z.to_N (if (x <? 0)%Z then (-2 * x - 1)%Z else (2 * x)%Z).
(* Decbuf.Varint64: x := int64(ux >> 1); if ux&1 != 0 { x = ^x } *)
Definition unzigzag (u : N) : Z := if N.even u then Z.of_N (u / 2) else (- Z.of_N (u / 2) - 1)%Z.

Definition put_varint (x : Z) : list N := put_uvarint (zigzag x).

(* ---------------------------------------------------------------- Encbuf / Decbuf methods *)
Definition put_uvarint_bytes (s : list N) : list N := put_uvarint (N.of_nat (length s)) ++ s.  (* PutUvarintStr/-Bytes *)

Definition d_uvarint64 : dec N :=                       (* Decbuf.Uvarint64 *)
  fun bs => match get_uvarint bs with Some (x, r) => Ok (x, r) | None => Err ESize end.
Definition d_varint64 : dec Z := dmap unzigzag d_uvarint64.   (* Decbuf.Varint64 *)
(* Decbuf.Uvarint: int(uint64) — values >= 2^63 become negative *)
Definition d_uvarint_int : dec Z := dmap to_i64 d_uvarint64.
(* Decbuf.Uvarint32: uint32(uint64) *)
Definition d_uvarint32 : dec N := dmap (fun x => x mod 4294967296) d_uvarint64.

(* Decbuf.UvarintBytes / UvarintStr:
     l := d.Uvarint64(); if len(d.B) < int(l) { E = ErrInvalidSize }; s := d.B[:l]
   int(l) is negative for l >= 2^63, the length check passes and the slice expression panics. *)
Definition d_uvarint_bytes : dec (list N) :=
  fun bs => match d_uvarint64 bs with
            | Err e => Err e
            | Ok (l, r) =>
                if 9223372036854775808 <=? l then Err EPanic
                else match take_bytes (N.to_nat l) r with
                     | Some (s, t) => Ok (s, t)
                     | None => Err ESize
                     end
            end.

(* ================================================================ lemmas *)

Lemma uv_enc_fuel_S f x :
  uv_enc_fuel (S f) x = if x <? 128 then [x] else (x mod 128 + 128) :: uv_enc_fuel f (x / 128).
Proof. reflexivity. Qed.

Lemma uv_dec_aux_cons n s acc b r :
  uv_dec_aux (S n) s acc (b :: r) =
  if b <? 128 then (if Nat.eqb n 0 && (1 <? b) then None else Some (acc + b * 2 ^ s, r))
  else uv_dec_aux n (s + 7) (acc + (b - 128) * 2 ^ s) r.
Proof. reflexivity. Qed.

Lemma uv_dec_enc : forall n x s acc rest,
  (n <= 9)%nat -> s = 7 * (9 - N.of_nat n) -> x * 2 ^ s < two64N ->
  uv_dec_aux (S n) s acc (uv_enc_fuel (S n) x ++ rest) = Some (acc + x * 2 ^ s, rest).
Proof.
  induction n as [|n IH]; intros x s acc rest Hn Hs Hx.
  - (* last byte: s = 63, x <= 1 *)
    simpl in Hs. subst s. unfold two64N in Hx.
    assert (x <= 1) by (change (2 ^ 63) with 9223372036854775808 in Hx; lia).
    rewrite uv_enc_fuel_S. destruct (x <? 128) eqn:E; [|apply N.ltb_ge in E; lia].
    cbn [app]. rewrite uv_dec_aux_cons, E. cbn [Nat.eqb andb].
    destruct (1 <? x) eqn:E1; [apply N.ltb_lt in E1; lia|]. reflexivity.
  - rewrite uv_enc_fuel_S. destruct (x <? 128) eqn:E.
    + cbn [app]. rewrite uv_dec_aux_cons, E. cbn [Nat.eqb andb]. reflexivity.
    + apply N.ltb_ge in E.
      cbn [app]. rewrite uv_dec_aux_cons.
      assert (Hb : (x mod 128 + 128 <? 128) = false) by (apply N.ltb_ge, N.le_add_l).
      rewrite Hb, N.add_sub.
      assert (Hs' : s + 7 = 7 * (9 - N.of_nat n)) by lia.
      assert (Hpow : 2 ^ (s + 7) = 2 ^ s * 128) by (rewrite N.pow_add_r; reflexivity).
      pose proof (N.div_mod x 128 ltac:(discriminate)) as Hdm.
      pose proof (N.mod_lt x 128 ltac:(discriminate)) as Hml.
      set (q := x / 128) in *. set (m := x mod 128) in *. set (p := 2 ^ s) in *.
      rewrite IH; [| lia | exact Hs' | ]; rewrite Hpow; fold p.
      * f_equal. f_equal. rewrite Hdm. ring.
      * apply N.le_lt_trans with (x * p); [|exact Hx].
        rewrite Hdm. replace ((128 * q + m) * p) with (q * (p * 128) + m * p) by ring. apply N.le_add_r.
Qed.

Lemma get_put_uvarint x rest : u64_ok x -> get_uvarint (put_uvarint x ++ rest) = Some (x, rest).
Proof.
  intros H. unfold get_uvarint, put_uvarint.
  rewrite (uv_dec_enc 9 x 0 0 rest); [| lia | reflexivity | ].
  - f_equal. f_equal. change (2 ^ 0) with 1. lia.
  - change (2 ^ 0) with 1. unfold u64_ok in H. lia.
Qed.

Lemma d_uvarint64_put x rest : u64_ok x -> d_uvarint64 (put_uvarint x ++ rest) = Ok (x, rest).
Proof. intros H. unfold d_uvarint64. rewrite get_put_uvarint by exact H. reflexivity. Qed.

Lemma uv_enc_fuel_nonempty f x : uv_enc_fuel (S f) x <> [].
Proof. simpl. destruct (x <? 128); discriminate. Qed.

Lemma put_uvarint_nonempty x : put_uvarint x <> [].
Proof. apply uv_enc_fuel_nonempty. Qed.

(* more fuel than 10 changes nothing for a uint64: the fuel is not a restriction *)
Lemma uv_enc_fuel_enough : forall f x k, x < 128 ^ N.of_nat f -> (0 < f)%nat ->
  uv_enc_fuel (f + k) x = uv_enc_fuel f x.
Proof.
  induction f as [|f IH]; intros x k Hx Hf; [lia|].
  cbn [uv_enc_fuel Nat.add]. destruct (x <? 128) eqn:E; [reflexivity|].
  apply N.ltb_ge in E. f_equal.
  rewrite Nnat.Nat2N.inj_succ, N.pow_succ_r' in Hx.
  assert (Hd : x / 128 < 128 ^ N.of_nat f) by (apply N.div_lt_upper_bound; [discriminate | exact Hx]).
  destruct f as [|f']; [simpl in Hd; assert (x / 128 = 0) by lia;
                        assert (x < 128) by (apply N.div_small_iff in H; [exact H|discriminate]); lia|].
  apply IH; [exact Hd | lia].
Qed.

Lemma put_uvarint_fuel_irrelevant x k : u64_ok x -> uv_enc_fuel (10 + k) x = put_uvarint x.
Proof.
  intros H. unfold put_uvarint. apply uv_enc_fuel_enough; [|lia].
  unfold u64_ok, two64N in H. change (128 ^ N.of_nat 10) with 1180591620717411303424. lia.
Qed.

(* ---- zig-zag *)
Lemma zigzag_ok x : int64 x -> u64_ok (zigzag x).
Proof.
  unfold int64, minInt64, maxInt64, u64_ok, two64N, zigzag. intros H.
  destruct (x <? 0)%Z eqn:E; [apply Z.ltb_lt in E | apply Z.ltb_ge in E]; lia.
Qed.

Lemma unzigzag_zigzag x : unzigzag (zigzag x) = x.
Proof.
  unfold unzigzag, zigzag.
  destruct (x <? 0)%Z eqn:E; [apply Z.ltb_lt in E | apply Z.ltb_ge in E].
  - set (a := Z.to_N (- x - 1)).
    replace (Z.to_N (-2 * x - 1)) with (1 + 2 * a) by (unfold a; lia).
    rewrite N.even_add_mul_2. cbn [N.even].
    replace ((1 + 2 * a) / 2) with a.
    + unfold a. lia.
    + apply N.div_unique with (r := 1); lia.
  - set (a := Z.to_N x).
    replace (Z.to_N (2 * x)) with (0 + 2 * a) by (unfold a; lia).
    rewrite N.even_add_mul_2. cbn [N.even].
    replace ((0 + 2 * a) / 2) with a.
    + unfold a. lia.
    + apply N.div_unique with (r := 0); lia.
Qed.

Lemma d_varint64_put x rest : int64 x -> d_varint64 (put_varint x ++ rest) = Ok (x, rest).
Proof.
  intros H. unfold d_varint64, dmap, dbind, put_varint.
  rewrite d_uvarint64_put by (apply zigzag_ok; exact H).
  unfold dret. rewrite unzigzag_zigzag. reflexivity.
Qed.

Lemma put_varint_nonempty x : put_varint x <> [].
Proof. apply put_uvarint_nonempty. Qed.

Lemma d_uvarint_int_put x rest : x < 9223372036854775808 ->
  d_uvarint_int (put_uvarint x ++ rest) = Ok (Z.of_N x, rest).
Proof.
  intros H. unfold d_uvarint_int, dmap, dbind.
  rewrite d_uvarint64_put by (unfold u64_ok, two64N; lia).
  unfold dret. f_equal. f_equal. unfold to_i64. apply wrap64_id.
  unfold int64, minInt64, maxInt64. lia.
Qed.

Lemma d_uvarint32_put x rest : x < 4294967296 -> d_uvarint32 (put_uvarint x ++ rest) = Ok (x, rest).
Proof.
  intros H. unfold d_uvarint32, dmap, dbind.
  rewrite d_uvarint64_put by (unfold u64_ok, two64N; lia).
  unfold dret. rewrite N.mod_small by exact H. reflexivity.
Qed.

(* the same in continuation form, for decoders written with dbind *)
Lemma dbind_varint {B} (k : Z -> dec B) x rest :
  int64 x -> dbind d_varint64 k (put_varint x ++ rest) = k x rest.
Proof. intros H. apply dbind_ok, d_varint64_put, H. Qed.

Lemma dbind_uvarint {B} (k : N -> dec B) x rest :
  u64_ok x -> dbind d_uvarint64 k (put_uvarint x ++ rest) = k x rest.
Proof. intros H. apply dbind_ok, d_uvarint64_put, H. Qed.

Lemma dbind_uvarint32 {B} (k : N -> dec B) x rest :
  x < 4294967296 -> dbind d_uvarint32 k (put_uvarint x ++ rest) = k x rest.
Proof. intros H. apply dbind_ok, d_uvarint32_put, H. Qed.

Lemma dbind_uvarint_int {B} (k : Z -> dec B) x rest :
  x < 9223372036854775808 -> dbind d_uvarint_int k (put_uvarint x ++ rest) = k (Z.of_N x) rest.
Proof. intros H. apply dbind_ok, d_uvarint_int_put, H. Qed.

Lemma d_uvarint_bytes_put s rest : N.of_nat (length s) < 9223372036854775808 ->
  d_uvarint_bytes (put_uvarint_bytes s ++ rest) = Ok (s, rest).
Proof.
  intros H. unfold d_uvarint_bytes, put_uvarint_bytes. rewrite <- app_assoc.
  rewrite d_uvarint64_put by (unfold u64_ok, two64N; lia).
  destruct (9223372036854775808 <=? N.of_nat (length s)) eqn:E; [apply N.leb_le in E; lia|].
  rewrite Nnat.Nat2N.id, take_bytes_app. reflexivity.
Qed.

Lemma put_uvarint_bytes_nonempty s : put_uvarint_bytes s <> [].
Proof.
  unfold put_uvarint_bytes. pose proof (put_uvarint_nonempty (N.of_nat (length s))).
  destruct (put_uvarint (N.of_nat (length s))); [congruence | discriminate].
Qed.
