(* proof/PlanProofs.v — proofs about model/Plan.v (C08).  The boolean specification predicates are
   read as propositions; each loop of the planner (the insertion sort, selectOverlappingDirs,
   splitByRange, selectDirs, the tombstone scan) gets one lemma; planClass and plan return a plan of
   the specified shape and do not panic; CompactBlockMetas keeps hints and class; one compaction
   step keeps the block set well formed and lowers the measure mu. *)
From Coq Require Import List ZArith Bool Lia Permutation.
From Verif Require Import lib.Int64 lib.SortedList model.Plan.
Import ListNotations.
Open Scope Z_scope.

Fixpoint ordpairs {A} (R : A -> A -> Prop) (l : list A) : Prop :=
  match l with [] => True | x :: tl => Forall (R x) tl /\ ordpairs R tl end.

Lemma ordpairs_app {A} (R : A -> A -> Prop) l1 l2 :
  ordpairs R (l1 ++ l2) <-> ordpairs R l1 /\ ordpairs R l2 /\ (forall x y, In x l1 -> In y l2 -> R x y).
Proof.
  induction l1 as [|a l1 IH]; simpl; [intuition|].
  rewrite IH, Forall_app, (Forall_forall (R a) l2). split.
  - intros ((Ha1 & Ha2) & H1 & H2 & H3). repeat split; auto. intros x y [<-|Hx] Hy; auto.
  - intros ((Ha1 & H1) & H2 & H3). repeat split; auto.
Qed.

Lemma NoDup_app_both {A} (l1 l2 : list A) : NoDup (l1 ++ l2) -> NoDup l1 /\ NoDup l2.
Proof.
  induction l1 as [|a l1 IH]; simpl; intros H; [split; [constructor | exact H]|].
  inversion H as [|? ? Hn Hd]; subst. destruct (IH Hd) as [H1 H2]. split; auto.
  constructor; auto. intros Hin. apply Hn, in_or_app. auto.
Qed.

(* p is a contiguous run of l: what selectOverlappingDirs and splitByRange cut out of the sorted
   block list *)
Definition infix {A} (p l : list A) : Prop := exists l1 l3, l = l1 ++ p ++ l3.

Lemma infix_incl {A} (p l : list A) : infix p l -> incl p l.
Proof. intros (l1 & l3 & ->) x Hx. apply in_or_app. right. apply in_or_app. left. exact Hx. Qed.

Lemma infix_app_l {A} (p l l0 : list A) : infix p l -> infix p (l0 ++ l).
Proof. intros (l1 & l3 & ->). exists (l0 ++ l1), l3. apply app_assoc. Qed.

Lemma infix_cons {A} (p l : list A) x : infix p l -> infix p (x :: l).
Proof. apply (infix_app_l p l [x]). Qed.

Lemma infix_ordpairs {A} (R : A -> A -> Prop) p l : infix p l -> ordpairs R l -> ordpairs R p.
Proof.
  intros (l1 & l3 & ->) H. apply ordpairs_app in H as (_ & H & _). apply ordpairs_app in H as (H & _). exact H.
Qed.

Lemma infix_nodup_ids p l : infix p l -> NoDup (ids l) -> NoDup (ids p).
Proof.
  intros (l1 & l3 & ->) H. unfold ids in *. rewrite !map_app in H.
  apply NoDup_app_both in H as [_ H]. apply NoDup_app_both in H as [H _]. exact H.
Qed.

Lemma memb_spec x l : memb x l = true <-> In x l.
Proof. apply (existsb_eqb_In Z.eqb Z.eqb_eq). Qed.

Lemma nodupb_spec l : nodupb l = true <-> NoDup l.
Proof. exact (SortedList.nodupb_spec Z.eqb Z.eqb_eq l). Qed.

Lemma filter_nil {A} (f : A -> bool) l : filter f l = [] -> forall x, In x l -> f x = false.
Proof. apply filter_nil_iff. Qed.

Lemma existsb_false_in {A} (f : A -> bool) l x : existsb f l = false -> In x l -> f x = false.
Proof.
  intros E Hx. destruct (f x) eqn:Ef; [|reflexivity].
  assert (existsb f l = true) by (apply existsb_exists; eauto). congruence.
Qed.

Definition Smin (x y : meta) : Prop := m_min x <= m_min y.
Definition Dis (x y : meta) : Prop := m_max x <= m_min y.

Lemma sorted_min_spec l : sorted_min l = true <-> ordpairs Smin l.
Proof.
  induction l as [|x l IH]; simpl; [tauto|].
  rewrite andb_true_iff, IH, forallb_forall, Forall_forall. unfold Smin.
  split; intros [H1 H2]; split; auto; intros y Hy; specialize (H1 y Hy); lia.
Qed.

Lemma disjoint_ordered_spec l : disjoint_ordered l = true <-> ordpairs Dis l.
Proof.
  induction l as [|x l IH]; simpl; [tauto|].
  rewrite andb_true_iff, IH, forallb_forall, Forall_forall. unfold Dis.
  split; intros [H1 H2]; split; auto; intros y Hy; specialize (H1 y Hy); lia.
Qed.

Definition saneP (m : meta) : Prop :=
  - two61 <= m_min m /\ m_min m <= m_max m /\ m_max m <= two61 /\
  0 <= m_tomb m < two64' /\ 0 <= m_series m < two64'.

Lemma sane_meta_spec m : sane_meta m = true <-> saneP m.
Proof. unfold sane_meta, saneP. lia. Qed.

Definition sane_cfgP (c : cfg) : Prop :=
  c_ranges c <> [] /\ Forall (fun r => 0 < r <= two61) (c_ranges c).

Lemma sane_cfg_spec c : sane_cfg c = true <-> sane_cfgP c.
Proof.
  unfold sane_cfg, sane_cfgP. rewrite andb_true_iff, forallb_forall, Forall_forall.
  assert (Hn : nonempty (c_ranges c) = true <-> c_ranges c <> [])
    by (destruct (c_ranges c); simpl; split; congruence).
  rewrite Hn. apply and_iff_compat_l. split; intros H r Hr; specialize (H r Hr); lia.
Qed.

Definition wfP (c : cfg) (ms : list meta) : Prop := sane_cfgP c /\ Forall saneP ms /\ NoDup (ids ms).

Lemma wf_input_spec c ms : wf_input c ms = true <-> wfP c ms.
Proof.
  unfold wf_input, wfP. rewrite !andb_true_iff, sane_cfg_spec, nodupb_spec, forallb_forall, Forall_forall.
  rewrite and_assoc. apply and_iff_compat_l, and_iff_compat_r.
  split; intros H m Hm; apply sane_meta_spec, H, Hm.
Qed.

(* every block after the first starts before the largest MaxTime of the blocks before it *)
Fixpoint chainedP (gmax : Z) (l : list meta) : Prop :=
  match l with [] => True | d :: tl => m_min d < gmax /\ chainedP (Z.max gmax (m_max d)) tl end.

Lemma chained_spec g l : chained g l = true <-> chainedP g l.
Proof.
  revert g. induction l as [|d l IH]; intros g; simpl; [tauto|].
  rewrite andb_true_iff, Z.ltb_lt, IH. tauto.
Qed.

Definition newest_excluded (kl ps : list meta) : Prop :=
  exists n, In n kl /\ ~ In (m_id n) (ids ps) /\ forall x, In x ps -> m_min x <= m_min n.

Lemma excludes_newest_spec kl ps : excludes_newest kl ps = true <-> newest_excluded kl ps.
Proof.
  unfold excludes_newest, newest_excluded. rewrite existsb_exists.
  split; intros (n & Hn & H); exists n; (split; [exact Hn|]).
  - apply andb_prop in H as [H1 H2]. rewrite forallb_forall in H2. split.
    + rewrite <- memb_spec. destruct (memb (m_id n) (ids ps)); [discriminate|discriminate].
    + intros x Hx. apply Z.leb_le, H2, Hx.
  - destruct H as [H1 H2]. apply andb_true_intro. split.
    + rewrite <- memb_spec in H1. destruct (memb (m_id n) (ids ps)); [contradiction|reflexivity].
    + apply forallb_forall. intros x Hx. apply Z.leb_le, H2, Hx.
Qed.

Definition overlap_groupP (ps : list meta) : Prop :=
  exists d0 d1 tl, ps = d0 :: d1 :: tl /\ ordpairs Smin ps /\ chainedP (m_max d0) (d1 :: tl).

Definition range_groupP (c : cfg) (kl ps : list meta) : Prop :=
  (2 <= length ps)%nat /\ (forall x, In x ps -> m_failed x = false) /\
  (exists iv k, In iv (tl (c_ranges c)) /\ forall x, In x ps -> iv * k <= m_min x /\ m_max x <= iv * k + iv) /\
  (c_overlap c = true -> ordpairs Dis ps) /\ ordpairs Smin ps /\ newest_excluded kl ps.

Definition tomb_singleP (c : cfg) (kl ps : list meta) : Prop :=
  exists b mid, ps = [b] /\ mid_range c = Some mid /\ 0 < m_tomb b /\
    (if m_max b - m_min b <? mid then m_series b <= m_tomb b else 20 * m_tomb b > u64 (m_series b + 1)) /\
    newest_excluded kl ps.

Lemma overlap_group_reading ps : overlap_group ps = true -> overlap_groupP ps.
Proof.
  unfold overlap_group. destruct ps as [|d0 [|d1 tl]]; try discriminate.
  intros H. apply andb_prop in H as [H1 H2]. exists d0, d1, tl.
  split; [reflexivity|]. split; [apply sorted_min_spec, H1|apply chained_spec, H2].
Qed.

(* the window of a range group is the aligned window of one of its blocks *)
Lemma range_group_spec c kl ps : range_group c kl ps = true <->
  (2 <= length ps)%nat /\ (forall x, In x ps -> m_failed x = false) /\
  (exists iv f, In iv (tl (c_ranges c)) /\ In f ps /\
     forall x, In x ps -> iv * (m_min f / iv) <= m_min x /\ m_max x <= iv * (m_min f / iv) + iv) /\
  (c_overlap c = true -> ordpairs Dis ps) /\ ordpairs Smin ps /\ newest_excluded kl ps.
Proof.
  unfold range_group, within_range. split.
  - intros H. apply andb_prop in H as [H H6]. apply andb_prop in H as [H H5].
    apply andb_prop in H as [H H4]. apply andb_prop in H as [H H3]. apply andb_prop in H as [H1 H2].
    split; [lia|]. split; [intros x; apply existsb_false_in, negb_true_iff, H2|].
    split; [|split; [|split; [apply sorted_min_spec, H5|apply excludes_newest_spec, H6]]].
    + apply existsb_exists in H3 as (iv & Hiv & H3). apply existsb_exists in H3 as (f & Hf & H3).
      rewrite forallb_forall in H3. exists iv, f. split; [exact Hiv|]. split; [exact Hf|].
      intros x Hx. specialize (H3 x Hx). unfold in_window in H3. lia.
    + intros Ho. rewrite Ho in H4. apply disjoint_ordered_spec, H4.
  - intros (H1 & H2 & (iv & f & Hiv & Hf & H3) & H4 & H5 & H6).
    repeat (apply andb_true_intro; split).
    + lia.
    + destruct (existsb m_failed ps) eqn:E; [|reflexivity].
      apply existsb_exists in E as (x & Hx & E). rewrite (H2 x Hx) in E. discriminate.
    + apply existsb_exists. exists iv. split; [exact Hiv|]. apply existsb_exists. exists f. split; [exact Hf|].
      apply forallb_forall. intros x Hx. specialize (H3 x Hx). unfold in_window. lia.
    + destruct (c_overlap c); [apply disjoint_ordered_spec, H4|]; reflexivity.
    + apply sorted_min_spec, H5.
    + apply excludes_newest_spec, H6.
Qed.

Lemma tomb_single_reading c kl ps : tomb_single c kl ps = true -> tomb_singleP c kl ps.
Proof.
  unfold tomb_single, tomb_rule, tomb_all_deleted, tomb_ratio_big.
  destruct ps as [|b [|? ?]]; try discriminate. destruct (mid_range c) as [mid|] eqn:Em; [|discriminate].
  intros H. apply andb_prop in H as [H H3]. apply andb_prop in H as [H1 H2].
  exists b, mid. split; [reflexivity|]. split; [exact Em|]. split; [lia|].
  split; [destruct (_ <? mid); lia|apply excludes_newest_spec, H3].
Qed.

Lemma ins_perm x l : Permutation (ins x l) (x :: l).
Proof.
  induction l as [|y l IH]; simpl; auto.
  destruct (m_min x <? m_min y); auto.
  rewrite IH. apply perm_swap.
Qed.

Lemma ins_sorted x l : ordpairs Smin l -> ordpairs Smin (ins x l).
Proof.
  induction l as [|y l IH]; simpl; [intros _; split; [constructor | exact I]|].
  intros [Hy Hl]. destruct (Z.ltb_spec (m_min x) (m_min y)) as [E|E]; simpl.
  - repeat split; auto.
    constructor; [unfold Smin; lia|]. rewrite Forall_forall in *. intros z Hz. specialize (Hy z Hz). unfold Smin in *. lia.
  - split; [|apply IH; exact Hl].
    rewrite Forall_forall in *. intros z Hz.
    apply (Permutation_in _ (ins_perm x l)) in Hz. destruct Hz as [<-|Hz]; [unfold Smin; lia | auto].
Qed.

Lemma sort_fold_perm l acc : Permutation (fold_left (fun a x => ins x a) l acc) (l ++ acc).
Proof.
  revert acc. induction l as [|x l IH]; intros acc; simpl; auto.
  rewrite IH. rewrite ins_perm. symmetry. apply Permutation_middle.
Qed.

Lemma sort_fold_sorted l acc : ordpairs Smin acc -> ordpairs Smin (fold_left (fun a x => ins x a) l acc).
Proof. revert acc. induction l as [|x l IH]; intros acc H; simpl; auto. apply IH, ins_sorted, H. Qed.

Lemma sort_min_perm l : Permutation (sort_min l) l.
Proof. unfold sort_min. rewrite sort_fold_perm, app_nil_r. reflexivity. Qed.

Lemma sort_min_sorted l : ordpairs Smin (sort_min l).
Proof. apply sort_fold_sorted. exact I. Qed.

Lemma gmax_step d gmax : (if m_max d >? gmax then m_max d else gmax) = Z.max gmax (m_max d).
Proof. destruct (Z.gtb_spec (m_max d) gmax); lia. Qed.

(* what the loop returns when it returns something: a run of at least two blocks, each after the
   first starting before the end of the union of those before it *)
Definition overlap_run (r l : list meta) : Prop :=
  infix r l /\ match r with a0 :: (_ :: _) as rest => chained (m_max a0) rest = true | _ => False end.

(* once the group is open the loop extends it while the blocks keep overlapping *)
Lemma overlap_loop_open ds : forall prev gmax acc, acc <> [] ->
  exists pre suf, overlap_loop prev gmax acc ds = acc ++ pre /\ ds = pre ++ suf /\ chained gmax pre = true.
Proof.
  induction ds as [|d tl IH]; intros prev gmax acc Hne.
  - exists [], []. simpl. rewrite app_nil_r. auto.
  - cbn [overlap_loop]. rewrite gmax_step. destruct acc as [|a acc']; [congruence|].
    destruct (m_min d <? gmax) eqn:E.
    + destruct (IH d (Z.max gmax (m_max d)) ((a :: acc') ++ [d])) as (pre & suf & H1 & -> & H3);
        [discriminate|].
      exists (d :: pre), suf. rewrite H1, <- app_assoc. simpl. rewrite E. auto.
    + exists [], (d :: tl). rewrite app_nil_r. auto.
Qed.

Definition wfm (d : meta) : Prop := m_min d <= m_max d.

(* until then the blocks seen are pairwise disjoint and globalMaxt is the last block's MaxTime *)
Lemma overlap_loop_phase1 ds : forall prev, Forall wfm ds ->
  (overlap_loop prev (m_max prev) [] ds = [] /\ ordpairs Dis (prev :: ds)) \/
  overlap_run (overlap_loop prev (m_max prev) [] ds) (prev :: ds).
Proof.
  induction ds as [|d tl IH]; intros prev Hwf.
  - left. simpl. repeat split; constructor.
  - inversion Hwf as [|? ? Hd Htl]; subst. unfold wfm in Hd.
    cbn [overlap_loop app]. rewrite gmax_step. destruct (m_min d <? m_max prev) eqn:E.
    + right.
      destruct (overlap_loop_open tl d (Z.max (m_max prev) (m_max d)) [prev; d]) as (pre & suf & -> & -> & H3);
        [discriminate|].
      split; [exists [], suf; reflexivity|]. simpl. rewrite E. exact H3.
    + apply Z.ltb_ge in E. replace (Z.max (m_max prev) (m_max d)) with (m_max d) by lia.
      destruct (IH d Htl) as [[Hr Ho] | [Hi Hc]].
      * left. split; [exact Hr|]. split; [|exact Ho].
        constructor; [unfold Dis; lia|]. destruct Ho as [Ho _]. rewrite Forall_forall in *.
        intros y Hy. specialize (Ho y Hy). unfold Dis in *. lia.
      * right. split; [apply infix_cons, Hi|exact Hc].
Qed.

Lemma select_overlapping_spec c s : Forall wfm s ->
  (select_overlapping c s = [] /\ (c_overlap c = true -> ordpairs Dis s)) \/
  (c_overlap c = true /\ overlap_run (select_overlapping c s) s).
Proof.
  intros Hwf. unfold select_overlapping. destruct (c_overlap c); simpl; [|left; split; [reflexivity|discriminate]].
  destruct s as [|d0 [|d1 tl]].
  - left. split; [reflexivity | intros _; exact I].
  - left. split; [reflexivity | intros _; simpl; repeat split; constructor].
  - destruct (overlap_loop_phase1 (d1 :: tl) d0 (Forall_inv_tail Hwf)) as [[Hr Ho] | H]; auto.
Qed.

Definition cur_group (cur : option (Z * list meta)) : list meta :=
  match cur with Some (_, g) => g | None => [] end.

(* g opens with a block whose window ends at lim, and every block of g ends by lim *)
Definition group_of (tr lim : Z) (g : list meta) : Prop :=
  exists f g', g = f :: g' /\ lim = lim_of tr f /\ Forall (fun x => m_max x <= lim) g.

Definition cur_ok (tr : Z) (cur : option (Z * list meta)) : Prop :=
  match cur with Some (lim, g) => group_of tr lim g | None => True end.

Definition fresh_of (tr : Z) (d : meta) : option (Z * list meta) :=
  if m_max d >? lim_of tr d then None else Some (lim_of tr d, [d]).

Lemma fresh_of_spec tr d : cur_ok tr (fresh_of tr d) /\
  forall p tl, infix p (cur_group (fresh_of tr d) ++ tl) -> infix p (d :: tl).
Proof.
  unfold fresh_of. destruct (Z.gtb_spec (m_max d) (lim_of tr d)); simpl; split; auto.
  - intros p tl. apply infix_cons.
  - exists d, []. repeat split. constructor; [lia | constructor].
Qed.

Lemma split_go_spec tr ds : forall cur, cur_ok tr cur ->
  forall p, In p (split_go tr cur ds) -> (exists lim, group_of tr lim p) /\ infix p (cur_group cur ++ ds).
Proof.
  induction ds as [|d tl IH]; intros cur Hok p Hp.
  - simpl in Hp. destruct cur as [[lim g]|]; [|contradiction]. destruct Hp as [<-|[]].
    split; [exists lim; exact Hok|]. exists [], []. simpl. rewrite !app_nil_r. reflexivity.
  - cbn [split_go] in Hp. fold (fresh_of tr d) in Hp. destruct (fresh_of_spec tr d) as [Hf Hfi].
    destruct cur as [[lim g]|]; cbn [cur_group].
    + destruct (Z.gtb_spec (m_max d) lim) as [Hgt|Hle].
      * destruct Hp as [<-|Hp].
        -- split; [exists lim; exact Hok|]. exists [], (d :: tl). reflexivity.
        -- destruct (IH _ Hf p Hp) as [Hs Hi]. split; [exact Hs|]. apply infix_app_l, Hfi, Hi.
      * destruct (IH (Some (lim, g ++ [d]))) with (p := p) as [Hs Hi]; [|exact Hp|].
        { destruct Hok as (f & g' & -> & Hlim & Hall). exists f, (g' ++ [d]).
          split; [reflexivity|]. split; [exact Hlim|]. apply Forall_app. split; [exact Hall|]. constructor; auto. }
        split; [exact Hs|]. cbn [cur_group] in Hi. rewrite <- app_assoc in Hi. exact Hi.
    + destruct (IH _ Hf p Hp) as [Hs Hi]. split; [exact Hs|]. apply Hfi, Hi.
Qed.

Lemma split_by_range_spec tr ds p : In p (split_by_range ds tr) ->
  (exists lim, group_of tr lim p) /\ infix p ds.
Proof. apply (split_go_spec tr ds None I). Qed.

Lemma wrap_small z : - (4 * two61) <= z < 4 * two61 -> wrap64 z = z.
Proof. intros H. apply wrap64_id. unfold int64, minInt64, maxInt64, two61 in *. lia. Qed.

Lemma div_floor iv m : 0 < iv ->
  iv * (m / iv) <= m < iv * (m / iv) + iv /\ Z.abs (m / iv) <= Z.abs m.
Proof.
  intros H. pose proof (Z.mul_div_le m iv H). pose proof (Z.mul_succ_div_gt m iv H). split; [lia|nia].
Qed.

(* Go's truncating division of a negative dividend, shifted by iv - 1, is the floor *)
Lemma quot_floor iv m : 0 < iv -> m < 0 -> Z.quot (m - iv + 1) iv = m / iv.
Proof.
  intros Hiv Hm. destruct (div_floor iv m Hiv) as [Hb _].
  replace (m - iv + 1) with (- (iv - 1 - m)) by lia.
  rewrite Z.quot_opp_l, Z.quot_div_nonneg by lia.
  rewrite <- (Z.div_unique (iv - 1 - m) iv (- (m / iv)) (iv - 1 - (m - iv * (m / iv)))); lia.
Qed.

Lemma t0_of_floor iv mint : 0 < iv <= two61 -> - two61 <= mint <= two61 ->
  t0_of iv mint = iv * (mint / iv) /\ iv * (mint / iv) <= mint < iv * (mint / iv) + iv.
Proof.
  intros Hiv Hm. destruct (div_floor iv mint) as [Hb Hq]; [lia|]. split; [|exact Hb].
  assert (Hwq : wrap64 (mint / iv) = mint / iv) by (apply wrap_small; lia).
  assert (Hwm : wrap64 (iv * (mint / iv)) = iv * (mint / iv)) by (apply wrap_small; lia).
  unfold t0_of, mul64, div64, godiv, add64, sub64. destruct (Z.leb_spec 0 mint) as [Hp|Hn].
  - rewrite Z.quot_div_nonneg, Hwq by lia. exact Hwm.
  - rewrite (wrap_small (mint - iv)), (wrap_small (mint - iv + 1)) by lia.
    rewrite quot_floor, Hwq by lia. exact Hwm.
Qed.

Lemma lim_of_floor iv d : 0 < iv <= two61 -> saneP d ->
  lim_of iv d = iv * (m_min d / iv) + iv /\ iv * (m_min d / iv) <= m_min d.
Proof.
  intros Hiv (H1 & H2 & H3 & _). unfold lim_of.
  destruct (t0_of_floor iv (m_min d) Hiv ltac:(lia)) as (-> & Hb). split; [|lia].
  unfold add64. apply wrap_small. lia.
Qed.

Lemma select_ranges_spec ds high rs r : select_ranges ds high rs = Ok r -> r <> [] ->
  exists iv, In iv rs /\ In r (split_by_range ds iv) /\ group_ok iv high r = true.
Proof.
  induction rs as [|iv rs IH]; simpl; intros H Hne.
  - inversion H. congruence.
  - destruct (iv =? 0); [discriminate|].
    destruct (find (group_ok iv high) (split_by_range ds iv)) eqn:Ef.
    + inversion H; subst. apply find_some in Ef as [Hin Hok]. exists iv. auto.
    + destruct (IH H Hne) as (iv' & Hin & Hr). exists iv'. auto.
Qed.

Definition tomb_cond (mid : Z) (b : meta) : bool :=
  if sub64 (m_max b) (m_min b) <? mid then tomb_all_deleted b else tomb_ratio_big b.

Lemma tomb_scan_spec mid l :
  tomb_scan mid l = [] \/ exists b, tomb_scan mid l = [b] /\ In b l /\ tomb_cond mid b = true.
Proof.
  induction l as [|v tl IH]; simpl; [left; reflexivity|].
  destruct (sub64 (m_max v) (m_min v) <? mid) eqn:E1.
  - destruct (tomb_all_deleted v) eqn:E2; [right | left; reflexivity].
    exists v. unfold tomb_cond. rewrite E1. auto.
  - destruct (tomb_ratio_big v) eqn:E2.
    + right. exists v. unfold tomb_cond. rewrite E1. auto.
    + destruct IH as [IH | (b & Hb & Hin & Hc)]; [left; exact IH | right]. exists b. auto.
Qed.

Lemma tomb_cond_rule c mid b : saneP b -> mid_range c = Some mid -> tomb_cond mid b = true ->
  tomb_rule c b = true /\ (0 <? m_tomb b) = true.
Proof.
  intros (H1 & H2 & H3 & H4 & H5) Hmid Hc. unfold tomb_rule, tomb_cond in *. rewrite Hmid.
  unfold sub64 in Hc. rewrite wrap_small in Hc by (unfold two61 in *; lia).
  split; [exact Hc|].
  destruct (m_max b - m_min b <? mid).
  - unfold tomb_all_deleted in Hc. lia.
  - unfold tomb_ratio_big, u64 in Hc.
    pose proof (Z.mod_pos_bound (m_series b + 1) two64 ltac:(unfold two64; lia)). lia.
Qed.

(* planClass: the class list is sorted, an overlap group is looked for in all of it, a range group
   and a tombstone block only among the blocks before the newest *)

(* what planClass knows of the sorted class list and of every run of it *)
Definition class_ok (s : list meta) : Prop := ordpairs Smin s /\ Forall saneP s /\ NoDup (ids s).

Lemma class_ok_infix p s : infix p s -> class_ok s -> class_ok p.
Proof.
  intros Hi (H1 & H2 & H3). split; [exact (infix_ordpairs _ _ _ Hi H1)|].
  split; [exact (incl_Forall (infix_incl _ _ Hi) H2)|exact (infix_nodup_ids _ _ Hi H3)].
Qed.

Lemma sorted_class kl : kl <> [] -> Forall saneP kl -> NoDup (ids kl) ->
  exists s' n, sort_min kl = s' ++ [n] /\ Permutation (s' ++ [n]) kl /\ class_ok (s' ++ [n]).
Proof.
  intros Hne Hs Hn. pose proof (sort_min_perm kl) as Hp. pose proof (sort_min_sorted kl) as Ho.
  destruct (exists_last (l := sort_min kl)) as (s' & n & E).
  { intros E. rewrite E in Hp. apply Permutation_nil in Hp. contradiction. }
  rewrite E in Hp, Ho. exists s', n. repeat split; try assumption.
  - apply (Permutation_Forall (Permutation_sym Hp) Hs).
  - apply (Permutation_NoDup (Permutation_map m_id (Permutation_sym Hp)) Hn).
Qed.

(* the newest block of the class (last after sorting) is in no plan taken from the others *)
Lemma excludes_newest_intro kl s' n ps :
  Permutation (s' ++ [n]) kl -> class_ok (s' ++ [n]) -> incl ps s' -> newest_excluded kl ps.
Proof.
  intros Hperm (Hsort & _ & Hnd) Hincl. exists n. split; [|split].
  - apply (Permutation_in _ Hperm), in_elt.
  - unfold ids in *. rewrite map_app in Hnd. apply NoDup_remove_2 in Hnd. rewrite app_nil_r in Hnd.
    intros Hin. apply Hnd. apply in_map_iff in Hin as (x & <- & Hx). apply in_map, Hincl, Hx.
  - intros x Hx. apply ordpairs_app in Hsort as (_ & _ & H). apply (H x n); [apply Hincl, Hx|left; reflexivity].
Qed.

Lemma sane_wfm l : Forall saneP l -> Forall wfm l.
Proof. apply Forall_impl. intros a (H1 & H2 & _). exact H2. Qed.

Definition shape3 (c : cfg) (kl ps : list meta) : Prop :=
  (c_overlap c = true /\ overlap_group ps = true) \/ range_group c kl ps = true \/ tomb_single c kl ps = true.

Lemma overlap_case r s : overlap_run r s -> class_ok s ->
  r <> [] /\ incl r s /\ NoDup (ids r) /\ overlap_group r = true.
Proof.
  intros [Hi Hc] Hs. destruct (class_ok_infix _ _ Hi Hs) as (Hsort & _ & Hnd).
  destruct r as [|a0 [|r1 rest]]; try contradiction.
  split; [discriminate|]. split; [apply infix_incl, Hi|]. split; [exact Hnd|].
  apply andb_true_intro. split; [apply sorted_min_spec, Hsort|exact Hc].
Qed.

Lemma tomb_case c kl s' ps mid : class_ok s' -> mid_range c = Some mid ->
  tomb_scan mid (rev s') = ps -> ps <> [] -> (forall q, incl q s' -> newest_excluded kl q) ->
  incl ps s' /\ NoDup (ids ps) /\ tomb_single c kl ps = true.
Proof.
  intros (_ & Hsane & _) Hmid Hps Hne Hexcl.
  destruct (tomb_scan_spec mid (rev s')) as [Hnil | (b & Hb & Hin & Hc)]; [congruence|].
  rewrite Hb in Hps. subst ps. apply in_rev in Hin.
  assert (Hi : incl [b] s') by (intros z [<-|[]]; exact Hin).
  rewrite Forall_forall in Hsane.
  destruct (tomb_cond_rule c mid b (Hsane b Hin) Hmid Hc) as [Hrule Hpos].
  split; [exact Hi|]. split; [repeat constructor; intros []|].
  unfold tomb_single. rewrite Hrule, Hpos. apply excludes_newest_spec, Hexcl, Hi.
Qed.

Lemma range_case c kl s' ps : sane_cfgP c -> class_ok s' -> (c_overlap c = true -> ordpairs Dis s') ->
  select_dirs c s' = Ok ps -> ps <> [] -> (forall q, incl q s' -> newest_excluded kl q) ->
  incl ps s' /\ NoDup (ids ps) /\ range_group c kl ps = true.
Proof.
  intros [_ Hrs] Hs Hdis Hsd Hne Hexcl. unfold select_dirs in Hsd.
  destruct (c_ranges c) as [|r0 [|r1 rs]] eqn:Er; try (injection Hsd as <-; congruence).
  destruct s' as [|y s''] eqn:Es'; [injection Hsd as <-; congruence|]. rewrite <- Es' in *.
  destruct (select_ranges_spec _ _ _ _ Hsd Hne) as (iv & Hiv & Hing & Hok).
  destruct (split_by_range_spec _ _ _ Hing) as ((lim & f & p' & -> & -> & Hall) & Hi).
  pose proof (infix_incl _ _ Hi) as Hinc. destruct (class_ok_infix _ _ Hi Hs) as (Hsorted & Hsane & Hnd).
  rewrite Forall_forall in Hrs, Hall.
  destruct (lim_of_floor iv f) as [Hlim Hlow]; [apply Hrs; right; exact Hiv|exact (Forall_inv Hsane)|].
  unfold group_ok in Hok. apply andb_prop in Hok as [Hnf Hok]. apply andb_prop in Hok as [_ Hlen].
  split; [exact Hinc|]. split; [exact Hnd|]. apply range_group_spec.
  split; [apply Z.ltb_lt in Hlen; lia|]. split; [intros x; apply existsb_false_in, negb_true_iff, Hnf|].
  split; [|split; [intros Ho; apply (infix_ordpairs _ _ _ Hi (Hdis Ho))|split; [exact Hsorted|apply Hexcl, Hinc]]].
  (* the window is that of the group's first block f; the others start no earlier (sorted) and end
     by f's limit *)
  exists iv, f. split; [rewrite Er; exact Hiv|]. split; [left; reflexivity|].
  intros x Hx. specialize (Hall x Hx). rewrite Hlim in Hall. split; [|exact Hall].
  destruct Hx as [<-|Hx]; [exact Hlow|].
  destruct Hsorted as [Hf _]. rewrite Forall_forall in Hf. specialize (Hf x Hx). unfold Smin in Hf. lia.
Qed.

Lemma plan_class_shape c kl ps : sane_cfgP c -> Forall saneP kl -> NoDup (ids kl) ->
  plan_class c kl = Ok ps -> ps <> [] ->
  incl ps kl /\ NoDup (ids ps) /\ shape3 c kl ps.
Proof.
  intros Hc Hsane Hnd Hplan Hne. unfold plan_class in Hplan.
  destruct kl as [|k0 kl'] eqn:Ekl; [injection Hplan as <-; congruence|].
  assert (Hklne : kl <> []) by (rewrite Ekl; discriminate). rewrite <- Ekl in *. clear k0 kl' Ekl.
  destruct (sorted_class kl Hklne Hsane Hnd) as (s' & n & Hsn & Hperm & Hs).
  rewrite Hsn in Hplan.
  assert (Hs_incl : incl (s' ++ [n]) kl) by (intros x; apply (Permutation_in _ Hperm)).
  destruct (select_overlapping_spec c _ (sane_wfm _ (proj1 (proj2 Hs)))) as [[Hr Ho] | (Eo & Hrun)].
  2:{ destruct (overlap_case _ _ Hrun Hs) as (Hrne & Hi & Hn & Hg).
      destruct (select_overlapping c (s' ++ [n])) as [|a0 rest]; [congruence|]. injection Hplan as <-.
      split; [exact (incl_tran Hi Hs_incl)|]. split; [exact Hn|]. left. auto. }
  rewrite Hr, removelast_last in Hplan.
  pose proof (excludes_newest_intro kl s' n) as Hexcl. specialize (fun q => Hexcl q Hperm Hs).
  assert (Hi' : infix s' (s' ++ [n])) by (exists [], [n]; reflexivity).
  pose proof (class_ok_infix _ _ Hi' Hs) as Hs'. pose proof (incl_tran (infix_incl _ _ Hi') Hs_incl) as Hs'_incl.
  destruct (select_dirs c s') as [[|x r']|] eqn:Esd; [| |discriminate].
  - destruct s' as [|y s''] eqn:Es'; [injection Hplan as <-; congruence|]. rewrite <- Es' in *.
    destruct (mid_range c) as [mid|] eqn:Emid; [|discriminate]. injection Hplan as Hps.
    destruct (tomb_case c kl s' ps mid Hs' Emid Hps Hne Hexcl) as (Hi & Hn & Hg).
    split; [exact (incl_tran Hi Hs'_incl)|]. split; [exact Hn|]. right. right. exact Hg.
  - injection Hplan as <-.
    destruct (range_case c kl s' (x :: r') Hc Hs') as (Hi & Hn & Hg); auto.
    { intros Eo. apply (infix_ordpairs _ _ _ Hi' (Ho Eo)). }
    split; [exact (incl_tran Hi Hs'_incl)|]. split; [exact Hn|]. right. left. exact Hg.
Qed.

Lemma cls_eqb_eq a b : cls_eqb a b = true <-> a = b.
Proof. destruct a, b; simpl; split; intros H; try reflexivity; try discriminate. Qed.

Lemma of_class_in k ms x : In x (of_class k ms) <-> In x ms /\ class_of x = k.
Proof. unfold of_class. rewrite filter_In, cls_eqb_eq. tauto. Qed.

Lemma of_class_sane k ms : Forall saneP ms -> Forall saneP (of_class k ms).
Proof. apply incl_Forall, incl_filter. Qed.

Lemma filter_nodup_ids f ms : NoDup (ids ms) -> NoDup (ids (filter f ms)).
Proof.
  induction ms as [|m ms IH]; simpl; intros H; [constructor|].
  inversion H as [|? ? Hn Hd]; subst. destruct (f m); simpl; auto.
  constructor; auto. intros Hin. apply Hn. unfold ids in *. apply in_map_iff in Hin as (x & Hx & Hin).
  apply filter_In in Hin as [Hin _]. rewrite <- Hx. apply in_map. exact Hin.
Qed.

Lemma nonempty_of_class ms x : In x ms -> nonempty (of_class (class_of x) ms) = true.
Proof.
  intros H. assert (Hin : In x (of_class (class_of x) ms)) by (apply of_class_in; auto).
  destruct (of_class (class_of x) ms); [contradiction | reflexivity].
Qed.

Definition n_classes (ms : list meta) : Z :=
  (if nonempty (of_class Stale ms) then 1 else 0) + (if nonempty (of_class Selected ms) then 1 else 0)
  + (if nonempty (of_class Regular ms) then 1 else 0).

Lemma single_class ms m0 : In m0 ms -> (1 <? n_classes ms) = false -> of_class (class_of m0) ms = ms.
Proof.
  intros H0 Hc. apply Z.ltb_ge in Hc. unfold of_class. apply filter_all. intros x Hx.
  apply cls_eqb_eq.
  pose proof (nonempty_of_class ms x Hx) as Nx. pose proof (nonempty_of_class ms m0 H0) as N0.
  unfold n_classes in Hc.
  (* two different classes would make two of the three summands 1 *)
  destruct (class_of x), (class_of m0); try reflexivity; exfalso;
    rewrite Nx, N0 in Hc; destruct (nonempty _) in Hc; lia.
Qed.

(* plan tries the classes in turn, or takes all blocks when they are of one class: either way it
   returns what planClass returns on one of the classes *)
Lemma plan_metas_class c ms : ms <> [] -> exists k, plan_metas c ms = plan_class c (of_class k ms).
Proof.
  intros Hne. unfold plan_metas. destruct ms as [|m0 ms'] eqn:Ems; [congruence|]. rewrite <- Ems.
  assert (H0 : In m0 ms) by (rewrite Ems; left; reflexivity).
  fold (n_classes ms). destruct (1 <? n_classes ms) eqn:Ec.
  - destruct (plan_class c (of_class Regular ms)) as [[|x1 r1]|] eqn:E1; [|exists Regular; auto..].
    destruct (plan_class c (of_class Stale ms)) as [[|x2 r2]|] eqn:E2; [exists Selected|exists Stale..]; auto.
  - exists (class_of m0). rewrite (single_class ms m0 H0 Ec). reflexivity.
Qed.

Lemma shape_to_bool c ms k ps : ps <> [] -> incl ps (of_class k ms) -> NoDup (ids ps) ->
  shape3 c (of_class k ms) ps -> plan_shape c ms ps = true.
Proof.
  intros Hne Hincl Hnd Hsh. destruct ps as [|b ps']; [congruence|].
  assert (Hk : forall x, In x (b :: ps') -> In x ms /\ class_of x = k) by (intros x Hx; apply of_class_in, Hincl, Hx).
  unfold plan_shape. rewrite (proj2 (Hk b (or_introl eq_refl))).
  assert (H1 : same_class k (b :: ps') = true).
  { apply forallb_forall. intros x Hx. apply cls_eqb_eq, Hk, Hx. }
  assert (H2 : nodupb (ids (b :: ps')) = true) by (apply nodupb_spec; exact Hnd).
  assert (H3 : forallb (fun x => memb (m_id x) (ids ms)) (b :: ps') = true).
  { apply forallb_forall. intros x Hx. apply memb_spec, in_map, Hk, Hx. }
  rewrite H1, H2, H3. cbn [andb].
  destruct Hsh as [[Ho Hg] | [Hg | Hg]]; rewrite ?Ho, Hg; cbn [andb orb]; rewrite ?orb_true_r; reflexivity.
Qed.

Lemma plan_metas_shape_incl c ms ps : wfP c ms -> plan_metas c ms = Ok ps ->
  plan_shape c ms ps = true /\ incl ps ms /\ NoDup (ids ps).
Proof.
  intros (Hc & Hs & Hn) Hp. destruct ps as [|b ps'] eqn:Eps.
  { split; [reflexivity | split; [intros x [] | constructor]]. }
  rewrite <- Eps in *. assert (Hne : ps <> []) by (rewrite Eps; discriminate).
  destruct (plan_metas_class c ms) as (k & Hk); [intros ->; injection Hp as <-; congruence|].
  rewrite Hk in Hp.
  destruct (plan_class_shape c (of_class k ms) ps Hc (of_class_sane k ms Hs) (filter_nodup_ids _ ms Hn) Hp Hne)
    as (Hi & Hd & Hsh).
  split; [eapply shape_to_bool; eauto | split; [|exact Hd]].
  intros x Hx. apply Hi, of_class_in in Hx as [Hx _]. exact Hx.
Qed.

Lemma plan_metas_shape c ms ps : wfP c ms -> plan_metas c ms = Ok ps -> plan_shape c ms ps = true.
Proof. intros H1 H2. apply (plan_metas_shape_incl c ms ps H1 H2). Qed.

(* no panic on sane input *)
Lemma select_ranges_no_panic ds high rs :
  Forall (fun r => 0 < r <= two61) rs -> select_ranges ds high rs <> Panic.
Proof.
  induction 1 as [|iv rs' Hiv Hall IH]; simpl; [discriminate|].
  destruct (Z.eqb_spec iv 0); [lia|].
  destruct (find (group_ok iv high) (split_by_range ds iv)); [discriminate | exact IH].
Qed.

Lemma plan_class_no_panic c kl : sane_cfgP c -> plan_class c kl <> Panic.
Proof.
  intros (Hne & Hrs). unfold plan_class. destruct kl as [|k0 kl']; [discriminate|].
  destruct (select_overlapping c (sort_min (k0 :: kl'))); [|discriminate].
  assert (Hsd : select_dirs c (removelast (sort_min (k0 :: kl'))) <> Panic).
  { unfold select_dirs. destruct (c_ranges c) as [|r0 [|r1 rs]] eqn:Er; try discriminate.
    destruct (removelast (sort_min (k0 :: kl'))); [discriminate|].
    apply select_ranges_no_panic, (Forall_inv_tail Hrs). }
  destruct (select_dirs c (removelast (sort_min (k0 :: kl')))) as [[|x r]|]; try discriminate; [|congruence].
  destruct (removelast (sort_min (k0 :: kl'))); [discriminate|].
  assert (Hmid : mid_range c <> None).
  { unfold mid_range. intros E. apply nth_error_None in E.
    destruct (c_ranges c) as [|r0 rs]; [congruence|].
    pose proof (Nat.div_lt (length (r0 :: rs)) 2 ltac:(simpl; lia) ltac:(lia)). lia. }
  destruct (mid_range c); [discriminate | congruence].
Qed.

Lemma plan_metas_no_panic c ms : sane_cfgP c -> plan_metas c ms <> Panic.
Proof.
  intros Hc. destruct ms as [|m0 ms']; [discriminate|].
  destruct (plan_metas_class c (m0 :: ms')) as (k & ->); [discriminate|]. apply plan_class_no_panic, Hc.
Qed.

Lemma plan_shape_reading c ms ps : plan_shape c ms ps = true ->
  ps = [] \/
  exists k, (forall x, In x ps -> class_of x = k /\ In (m_id x) (ids ms)) /\ NoDup (ids ps) /\
    ((c_overlap c = true /\ overlap_groupP ps) \/ range_groupP c (of_class k ms) ps \/ tomb_singleP c (of_class k ms) ps).
Proof.
  destruct ps as [|b ps']; [left; reflexivity|]. intros H. right. unfold plan_shape in H.
  set (ps := b :: ps') in *. set (k := class_of b) in *.
  apply andb_prop in H as [H Hsh]. apply andb_prop in H as [H Hm]. apply andb_prop in H as [Hs Hn].
  exists k. split; [|split].
  - intros x Hx. unfold same_class in Hs. rewrite forallb_forall in Hs, Hm. split.
    + apply cls_eqb_eq, Hs, Hx.
    + apply memb_spec, Hm, Hx.
  - apply nodupb_spec, Hn.
  - apply orb_prop in Hsh as [Hsh|Hsh]; [apply orb_prop in Hsh as [Hsh|Hsh]|].
    + left. apply andb_prop in Hsh as [Ho Hg]. split; [exact Ho|apply overlap_group_reading, Hg].
    + right. left. apply range_group_spec in Hsh as (H1 & H2 & (iv & f & Hiv & _ & Hw) & H4).
      split; [exact H1|]. split; [exact H2|]. split; [|exact H4]. exists iv, (m_min f / iv). auto.
    + right. right. apply tomb_single_reading, Hsh.
Qed.

(* class segregation, read off plan_shape *)
Lemma plan_shape_same_class c ms ps : plan_shape c ms ps = true ->
  forall x y, In x ps -> In y ps -> class_of x = class_of y.
Proof.
  intros H x y Hx Hy. destruct (plan_shape_reading c ms ps H) as [->|(k & Hk & _)]; [destruct Hx|].
  rewrite (proj1 (Hk x Hx)), (proj1 (Hk y Hy)). reflexivity.
Qed.

(* the out-of-order hint is set iff every input has it; a partial-view hint iff some input has it *)
Lemma cbm_hint_values uid bs r : compact_block_metas uid bs = Ok r ->
  m_ooo r = forallb m_ooo bs /\ m_stale r = existsb m_stale bs /\ m_sel r = existsb m_sel bs.
Proof.
  unfold compact_block_metas. destruct bs as [|b bs']; [discriminate|]. intros H. injection H as <-.
  cbn [m_ooo m_stale m_sel]. auto.
Qed.

Lemma class_of_merge l b : In b l -> (forall x, In x l -> class_of x = class_of b) ->
  (if existsb m_stale l then Stale else if existsb m_sel l then Selected else Regular) = class_of b.
Proof.
  intros Hb Es. destruct (existsb m_stale l) eqn:E1.
  - apply existsb_exists in E1 as (x & Hx & Hsx). rewrite <- (Es x Hx). unfold class_of. rewrite Hsx. reflexivity.
  - destruct (existsb m_sel l) eqn:E2.
    + apply existsb_exists in E2 as (x & Hx & Hsx). rewrite <- (Es x Hx). unfold class_of.
      rewrite (existsb_false_in _ _ x E1 Hx), Hsx. reflexivity.
    + unfold class_of. rewrite (existsb_false_in _ _ b E1 Hb), (existsb_false_in _ _ b E2 Hb). reflexivity.
Qed.

(* merging blocks of one class gives a block of that class *)
Lemma cbm_class uid bs r : compact_block_metas uid bs = Ok r ->
  (forall x y, In x bs -> In y bs -> class_of x = class_of y) -> forall b, In b bs -> class_of r = class_of b.
Proof.
  intros H Hs b Hb. destruct (cbm_hint_values uid bs r H) as (_ & Hst & Hse).
  unfold class_of at 1. rewrite Hst, Hse. apply class_of_merge; [exact Hb|]. intros x Hx. apply Hs; assumption.
Qed.

Lemma cbm_hints uid bs r : compact_block_metas uid bs = Ok r -> hints_ok bs r = true.
Proof.
  intros H. destruct (cbm_hint_values uid bs r H) as (Ho & Hs & Hse).
  unfold hints_ok. rewrite Ho, Hs, Hse, !eqb_reflx. cbn [andb].
  destruct bs as [|b bs']; [reflexivity|].
  destruct (same_class (class_of b) (b :: bs')) eqn:Es; [|reflexivity].
  unfold same_class in Es. rewrite forallb_forall in Es.
  apply cls_eqb_eq, (cbm_class uid _ r H); [|left; reflexivity].
  intros x y Hx Hy. apply Es, cls_eqb_eq in Hx, Hy. congruence.
Qed.

Lemma cbm_total uid bs : bs <> [] -> exists r, compact_block_metas uid bs = Ok r.
Proof. destruct bs; [congruence|]. intros _. eexists. reflexivity. Qed.

Definition wgt (m : meta) : Z := 1 + (if 0 <? m_tomb m then 1 else 0).
Fixpoint sumw (l : list meta) : Z := match l with [] => 0 | m :: tl => wgt m + sumw tl end.

Lemma mu_sumw ms : mu ms = sumw ms.
Proof.
  unfold mu. induction ms as [|m ms IH]; [reflexivity|].
  cbn [sumw filter length]. unfold wgt. destruct (0 <? m_tomb m); cbn [length]; lia.
Qed.

Lemma sumw_app l1 l2 : sumw (l1 ++ l2) = sumw l1 + sumw l2.
Proof. induction l1 as [|a l1 IH]; simpl; lia. Qed.

Lemma sumw_split f l : sumw l = sumw (filter f l) + sumw (filter (fun x => negb (f x)) l).
Proof. induction l as [|a l IH]; simpl; [reflexivity|]. destruct (f a); simpl; lia. Qed.

Lemma sumw_len l : Z.of_nat (length l) <= sumw l.
Proof. induction l as [|a l IH]; simpl length; simpl sumw; unfold wgt; [lia|]. destruct (0 <? m_tomb a); lia. Qed.

(* a non-empty plan has at least two blocks, or is one block with tombstones *)
Lemma plan_shape_weight c ms ps : plan_shape c ms ps = true -> ps <> [] -> 2 <= sumw ps.
Proof.
  intros H Hne. pose proof (sumw_len ps) as Hl.
  destruct (plan_shape_reading c ms ps H)
    as [->|(k & _ & _ & [[_ (d0 & d1 & tl & -> & _)]|[(H2 & _)|(b & mid & -> & _ & Hpos & _)]])].
  - congruence.
  - cbn [length] in Hl. lia.
  - lia.
  - simpl. unfold wgt. rewrite (proj2 (Z.ltb_lt _ _) Hpos). lia.
Qed.

(* distinct blocks taken from a list weigh no more than the list *)
Lemma sumw_incl ps : forall l, NoDup ps -> incl ps l -> sumw ps <= sumw l.
Proof.
  induction ps as [|x ps IH]; intros l Hnd Hi.
  - pose proof (sumw_len l). simpl. lia.
  - inversion Hnd as [|? ? Hx Hnd']; subst.
    destruct (in_split x l (Hi x (or_introl eq_refl))) as (l1 & l2 & ->).
    specialize (IH (l1 ++ l2) Hnd'). rewrite sumw_app in *. simpl.
    enough (sumw ps <= sumw l1 + sumw l2) by lia. apply IH. intros y Hy.
    specialize (Hi y (or_intror Hy)). apply in_app_or in Hi as [Hi|[<-|Hi]]; [|contradiction|];
      apply in_or_app; [left|right]; exact Hi.
Qed.

Lemma remove_ids_incl p ms : incl (remove_ids p ms) ms.
Proof. apply incl_filter. Qed.

(* min_list and max_list are the greatest lower and the least upper bound of x and the list *)
Lemma min_list_glb l : forall x lo, lo <= min_list x l <-> lo <= x /\ forall y, In y l -> lo <= y.
Proof.
  unfold min_list. induction l as [|a l IH]; intros x lo; simpl; [intuition|].
  rewrite IH. replace (if a <? x then a else x) with (Z.min x a) by (destruct (Z.ltb_spec a x); lia).
  split.
  - intros [H1 H2]. split; [lia|]. intros y [<-|Hy]; [lia|auto].
  - intros [H1 H2]. pose proof (H2 a (or_introl eq_refl)). split; [lia|auto].
Qed.

Lemma max_list_lub l : forall x hi, max_list x l <= hi <-> x <= hi /\ forall y, In y l -> y <= hi.
Proof.
  unfold max_list. induction l as [|a l IH]; intros x hi; simpl; [intuition|].
  rewrite IH. replace (if a >? x then a else x) with (Z.max x a) by (destruct (Z.gtb_spec a x); lia).
  split.
  - intros [H1 H2]. split; [lia|]. intros y [<-|Hy]; [lia|auto].
  - intros [H1 H2]. pose proof (H2 a (or_introl eq_refl)). split; [lia|auto].
Qed.

Lemma cbm_id uid bs r : compact_block_metas uid bs = Ok r -> m_id r = uid.
Proof. unfold compact_block_metas. destruct bs; [discriminate|]. intros H. injection H as <-. reflexivity. Qed.

Lemma cbm_sane uid bs r series : Forall saneP bs -> 0 <= series < two64' ->
  compact_block_metas uid bs = Ok r ->
  saneP (with_series r series) /\ m_id (with_series r series) = uid /\ m_tomb (with_series r series) = 0.
Proof.
  intros Hs Hser H. unfold compact_block_metas in H. destruct bs as [|b bs']; [discriminate|].
  cbv beta iota in H. remember (b :: bs') as l eqn:El. rewrite Forall_forall in Hs.
  assert (Hb : saneP b) by (apply Hs; rewrite El; left; reflexivity).
  injection H as <-. unfold with_series, saneP. cbn [m_id m_min m_max m_failed m_tomb m_series m_stale m_sel m_ooo m_level m_sources].
  split; [|split; reflexivity].
  (* the merged range lies between the extreme bounds of the inputs and contains that of b *)
  assert (Hlo : - two61 <= min_list (m_min b) (map m_min l)).
  { apply min_list_glb. split; [apply Hb|]. intros t Ht. apply in_map_iff in Ht as (y & <- & Hy). apply (Hs y Hy). }
  assert (Hhi : max_list (m_max b) (map m_max l) <= two61).
  { apply max_list_lub. split; [apply Hb|]. intros t Ht. apply in_map_iff in Ht as (y & <- & Hy). apply (Hs y Hy). }
  destruct (proj1 (min_list_glb (map m_min l) (m_min b) _) (Z.le_refl _)) as [A1 _].
  destruct (proj1 (max_list_lub (map m_max l) (m_max b) _) (Z.le_refl _)) as [B1 _].
  destruct Hb as (_ & Hb & _). lia.
Qed.

(* what a successful step is made of *)
Lemma compact_step_some c uid written series ms ms' :
  compact_step c uid written series ms = Ok (Some ms') ->
  exists ps nm, plan_metas c ms = Ok ps /\ ps <> [] /\ compact_block_metas uid ps = Ok nm /\
    ms' = remove_ids (ids ps) ms ++ (if written then [with_series nm series] else []).
Proof.
  unfold compact_step. destruct (plan_metas c ms) as [[|b ps']|]; try discriminate.
  destruct (compact_block_metas uid (b :: ps')) as [nm|] eqn:Ec; [|discriminate].
  intros H. injection H as <-. exists (b :: ps'), nm.
  split; [reflexivity|]. split; [discriminate|]. split; [exact Ec|reflexivity].
Qed.

(* one iteration: well-formedness is kept and the measure mu strictly decreases *)
Lemma compact_step_decreases c uid written series ms ms' :
  wfP c ms -> ~ In uid (ids ms) -> 0 <= series < two64' ->
  compact_step c uid written series ms = Ok (Some ms') ->
  wfP c ms' /\ mu ms' < mu ms.
Proof.
  intros Hwf Hfresh Hser Hstep. pose proof Hwf as (Hc & Hs & Hn).
  destruct (compact_step_some _ _ _ _ _ _ Hstep) as (ps & nm & Ep & Hne & Ecb & ->).
  destruct (plan_metas_shape_incl c ms ps Hwf Ep) as (Hsh & Hi & Hd).
  destruct (cbm_sane uid ps nm series (incl_Forall Hi Hs) Hser Ecb) as (Hnm & Hid & Htomb).
  pose proof (plan_shape_weight c ms ps Hsh Hne) as Hw.
  pose proof (sumw_split (fun m => memb (m_id m) (ids ps)) ms) as Hsplit.
  change (filter (fun x => negb _) ms) with (remove_ids (ids ps) ms) in Hsplit.
  assert (Hsel : sumw ps <= sumw (filter (fun m => memb (m_id m) (ids ps)) ms)).
  { apply sumw_incl; [apply (NoDup_map_inv m_id), Hd|]. intros x Hx.
    apply filter_In. split; [apply Hi, Hx|apply memb_spec, in_map, Hx]. }
  split.
  - split; [exact Hc | split].
    + apply Forall_app. split; [apply (incl_Forall (remove_ids_incl _ ms) Hs)|].
      destruct written; constructor; [exact Hnm | constructor].
    + unfold ids. rewrite map_app. fold (ids (remove_ids (ids ps) ms)).
      destruct written; cbn [map]; [|rewrite app_nil_r; apply filter_nodup_ids; exact Hn].
      rewrite Hid. apply (Permutation_NoDup (Permutation_cons_append _ _)).
      constructor; [|apply filter_nodup_ids; exact Hn].
      intros Hin. apply Hfresh. unfold ids in *. apply in_map_iff in Hin as (x & <- & Hin).
      apply in_map. exact (remove_ids_incl _ _ _ Hin).
  - rewrite !mu_sumw, sumw_app.
    assert (sumw (if written then [with_series nm series] else []) <= 1).
    { destruct written; simpl; [|lia]. unfold wgt. rewrite Htomb. simpl. lia. }
    lia.
Qed.

Inductive step (c : cfg) : list meta -> list meta -> Prop :=
| step_intro ms uid written series ms' :
    ~ In uid (ids ms) -> 0 <= series < two64' ->
    compact_step c uid written series ms = Ok (Some ms') -> step c ms ms'.

Lemma mu_nonneg ms : 0 <= mu ms.
Proof. unfold mu. lia. Qed.

Lemma step_decreases c ms ms' : step c ms ms' -> wfP c ms -> wfP c ms' /\ mu ms' < mu ms.
Proof. intros [? uid written series ? Hf Hse Hcs] Hwf. exact (compact_step_decreases _ _ _ _ _ _ Hwf Hf Hse Hcs). Qed.

(* no infinite sequence of compactions: the inverse step relation is well founded from every
   well-formed block set, whatever ids / written / series the rewrites produce *)
Lemma step_terminates c ms : wfP c ms -> Acc (fun a b => step c b a) ms.
Proof.
  intros Hwf.
  assert (H : forall n : nat, forall ms, wfP c ms -> mu ms < Z.of_nat n -> Acc (fun a b => step c b a) ms).
  { induction n as [|n IH]; intros ms0 Hw Hlt.
    - pose proof (mu_nonneg ms0). lia.
    - constructor. intros ms1 Hst. destruct (step_decreases c ms0 ms1 Hst Hw) as [Hw1 Hlt1].
      apply IH; [exact Hw1 | lia]. }
  apply (H (S (Z.to_nat (mu ms)))); [exact Hwf|]. pose proof (mu_nonneg ms). lia.
Qed.

(* every run of n compactions from ms has n <= mu ms *)
Inductive run (c : cfg) : list meta -> nat -> list meta -> Prop :=
| run_nil ms : run c ms 0 ms
| run_step ms ms1 n ms2 : step c ms ms1 -> run c ms1 n ms2 -> run c ms (S n) ms2.

Lemma run_bound c ms n ms' : wfP c ms -> run c ms n ms' -> Z.of_nat n + mu ms' <= mu ms /\ wfP c ms'.
Proof.
  intros Hwf Hr. induction Hr as [ms | ms ms1 n ms2 Hst Hr IH].
  - split; [lia | exact Hwf].
  - destruct (step_decreases c ms ms1 Hst Hwf) as [Hw1 Hlt1].
    destruct (IH Hw1) as [IH1 IH2]. split; [lia | exact IH2].
Qed.

(* a step is possible exactly when the plan is not empty *)
Lemma step_possible c ms uid written series : wfP c ms ->
  (exists ms', compact_step c uid written series ms = Ok (Some ms')) \/
  (compact_step c uid written series ms = Ok None /\ plan c ms = Ok []).
Proof.
  intros Hwf. unfold compact_step, plan. pose proof (plan_metas_no_panic c ms (proj1 Hwf)) as Hp.
  destruct (plan_metas c ms) as [ps|]; [|congruence].
  destruct ps as [|b ps'].
  - right. auto.
  - left. destruct (cbm_total uid (b :: ps') ltac:(discriminate)) as (r & Hr). rewrite Hr. eexists. reflexivity.
Qed.

Lemma compact_step_ids c uid written series ms ms' :
  compact_step c uid written series ms = Ok (Some ms') ->
  forall i, In i (ids ms') -> In i (ids ms) \/ i = uid.
Proof.
  intros H. destruct (compact_step_some _ _ _ _ _ _ H) as (ps & nm & _ & _ & E & ->).
  intros i Hi. unfold ids in Hi. rewrite map_app in Hi. apply in_app_or in Hi as [Hi|Hi].
  - left. apply in_map_iff in Hi as (x & <- & Hx). apply in_map. exact (remove_ids_incl _ _ _ Hx).
  - right. destruct written; [|contradiction]. destruct Hi as [<-|[]]. apply (cbm_id _ _ _ E).
Qed.

Lemma compact_loop_terminates fuel : forall c next ms, wfP c ms -> (forall i, In i (ids ms) -> i < next) ->
  mu ms < Z.of_nat fuel -> exists n, compact_loop fuel c next ms = Ok (Some n) /\ 0 <= n <= mu ms.
Proof.
  induction fuel as [|f IH]; intros c next ms Hwf Hlt Hmu.
  - pose proof (mu_nonneg ms). lia.
  - cbn [compact_loop].
    destruct (step_possible c ms next true 0 Hwf) as [(ms' & Hst) | (Hst & _)]; rewrite Hst.
    + assert (Hfresh : ~ In next (ids ms)) by (intros Hin; specialize (Hlt next Hin); lia).
      destruct (compact_step_decreases c next true 0 ms ms' Hwf Hfresh ltac:(unfold two64'; lia) Hst) as [Hwf' Hmu'].
      destruct (IH c (next + 1) ms' Hwf') as (n & Hn & Hb).
      * intros i Hi. destruct (compact_step_ids _ _ _ _ _ _ Hst i Hi) as [Hi'|Hi']; [specialize (Hlt i Hi')|]; lia.
      * lia.
      * rewrite Hn. exists (n + 1). split; [reflexivity | lia].
    + exists 0. split; [reflexivity|]. pose proof (mu_nonneg ms). lia.
Qed.
