(* proof/FastRegexProofs3.v — C17, continued: the pre-filters of compileMatchStringFunction
   (prefix / suffix / containsInOrder), the trueMatcher shortcut, NewFastRegexMatcher
   (new_frm_correct_full), optimizeAlternatingSimpleContains, SetMatches and the fast path on
   the pattern text. *)
From Coq Require Import List ZArith Bool Lia.
From Verif Require Import lib.SortedList lib.Regex lib.RegexProofs model.FastRegex proof.FastRegexProofs proof.FastRegexProofs2.
Import ListNotations.
Open Scope Z_scope.

Inductive InOrder : str -> list str -> Prop :=
| IO_nil : forall s, InOrder s []
| IO_cons : forall a x b t, InOrder b t -> InOrder (a ++ x ++ b) (x :: t).

Lemma InOrder_prepend c s t : InOrder s t -> InOrder (c ++ s) t.
Proof.
  intros H. inversion H; subst; [constructor |]. rewrite app_assoc. now constructor.
Qed.

Lemma skipn_app_le {A} n (u b : list A) : (n <= length u)%nat -> skipn n (u ++ b) = skipn n u ++ b.
Proof.
  intros H. rewrite skipn_app. replace (n - length u)%nat with 0%nat by lia. reflexivity.
Qed.

Lemma after_first_unfold x s :
  after_first x s = if is_prefix x s then Some (skipn (length x) s)
                    else match s with [] => None | _ :: t => after_first x t end.
Proof. destruct s; reflexivity. Qed.

Lemma after_first_found (x b : str) : forall a : str, exists c : str, after_first x (a ++ x ++ b) = Some (c ++ b).
Proof.
  induction a as [| h a IH].
  - exists []. simpl. rewrite after_first_unfold.
    assert (Hp : is_prefix x (x ++ b) = true) by (apply is_prefix_spec; eauto).
    rewrite Hp, skipn_length_app. reflexivity.
  - destruct IH as (c & Hc). rewrite after_first_unfold.
    destruct (is_prefix x ((h :: a) ++ x ++ b)) eqn:Hp.
    + exists (skipn (length x) ((h :: a) ++ x)).
      rewrite app_assoc. rewrite skipn_app_le; [reflexivity |]. rewrite app_length. unfold str, rune in *. lia.
    + exists c. exact Hc.
Qed.

Lemma after_first_sound x : forall s r, after_first x s = Some r -> exists a, s = a ++ x ++ r.
Proof.
  induction s as [| h s IH]; intros r H; rewrite after_first_unfold in H;
    (destruct (is_prefix x _) eqn:Hp;
     [inversion H; subst; apply is_prefix_spec in Hp; destruct Hp as (r' & Hr); exists []; simpl;
      rewrite Hr at 1; rewrite Hr, skipn_length_app; reflexivity |]).
  - discriminate.
  - apply IH in H. destruct H as (a & ->). exists (h :: a). reflexivity.
Qed.

Lemma cio_multi_spec : forall subs s, contains_in_order_multi s subs = true <-> InOrder s subs.
Proof.
  induction subs as [| x t IH]; intros s; cbn [contains_in_order_multi].
  - split; [constructor | auto].
  - split.
    + intros H. destruct (after_first x s) as [r |] eqn:E; [| discriminate].
      apply after_first_sound in E. destruct E as (a & ->). constructor. now apply IH.
    + intros H. inversion H; subst. destruct (after_first_found x b a) as (c & ->).
      apply IH. now apply InOrder_prepend.
Qed.

Lemma contains_str_spec x : forall s, contains_str x s = true <-> exists a b, s = a ++ x ++ b.
Proof.
  induction s as [| h s IH]; simpl.
  - rewrite orb_false_r, is_prefix_spec. split.
    + intros (r & Hr). exists [], r. exact Hr.
    + intros (a & b & H). symmetry in H. apply app_eq_nil in H. destruct H as [-> H].
      apply app_eq_nil in H. destruct H as [-> ->]. exists []. reflexivity.
  - rewrite orb_true_iff, is_prefix_spec, IH. split.
    + intros [(r & Hr) | (a & b & ->)]; [exists [], r; exact Hr | exists (h :: a), b; reflexivity].
    + intros (a & b & H). destruct a as [| h' a]; [left; exists b; exact H | right].
      inversion H; subst. eauto.
Qed.

Lemma contains_in_order_spec subs s : contains_in_order s subs = true <-> InOrder s subs.
Proof.
  unfold contains_in_order. destruct subs as [| x [| y t]]; try apply cio_multi_spec.
  rewrite contains_str_spec. split.
  - intros (a & b & ->). constructor. constructor.
  - intros H. inversion H; subst. eauto.
Qed.

Lemma cio_nil_spec subs s : (isnil subs || contains_in_order s subs) = true <-> InOrder s subs.
Proof.
  rewrite <- contains_in_order_spec. destruct subs; simpl; [| tauto]. split; auto.
Qed.

Section Matcher.
Variable F : rune -> rune -> bool.
Variable NL TL : bytes -> bytes.
Notation ML := (ML F).
Notation smm := (smm F NL).

Lemma is_match_any_eq x : is_match_any x = true -> x = RStar RAny.
Proof. destruct x; simpl; try discriminate. destruct x; simpl; try discriminate. reflexivity. Qed.

Lemma is_cs_literal_eq x : is_cs_literal x = true -> exists rs, x = RLit false rs.
Proof. destruct x; simpl; try discriminate. destruct fold; try discriminate. eauto. Qed.

Lemma mc_cons x y t :
  middle_contains (x :: y :: t) =
  match x with RLit false rs => rs :: middle_contains (y :: t) | _ => middle_contains (y :: t) end.
Proof. reflexivity. Qed.

Lemma mc_necessary : forall t b e s, ML b e (RConcat t) s -> InOrder s (middle_contains t).
Proof.
  induction t as [| x [| y t'] IH]; intros b e s H.
  - constructor.
  - constructor.
  - apply ML_concat_cons in H. destruct H as (s1 & s2 & -> & H1 & H2). apply IH in H2.
    rewrite mc_cons.
    destruct x as [ | | f rs | | | | | | | | | | | | ]; try (apply InOrder_prepend; exact H2).
    destruct f; [apply InOrder_prepend; exact H2 |].
    apply ML_lit_cs in H1. subst s1. change (rs ++ s2) with ([] ++ rs ++ s2). now constructor.
Qed.

Lemma prefix_necessary rs t b e s : ML b e (RConcat (RLit false rs :: t)) s -> is_prefix rs s = true.
Proof.
  intros H. apply ML_concat_cons in H. destruct H as (s1 & s2 & -> & H1 & _).
  apply ML_lit_cs in H1. subst. apply is_prefix_spec. eauto.
Qed.

Lemma suffix_necessary rs l b e s : l <> [] -> last l RNoMatch = RLit false rs ->
  ML b e (RConcat l) s -> is_suffix rs s = true.
Proof.
  intros Hne Hl H. rewrite (app_removelast_last RNoMatch Hne), Hl in H.
  apply ML_concat_app in H. destruct H as (s1 & s2 & -> & _ & H2).
  rewrite ML_concat_single in H2. apply ML_lit_cs in H2. subst. apply is_suffix_spec. eauto.
Qed.

(* ---- trueMatcher + containsInOrder is exact. simple_mid's flag says that the element before
   is a literal; then the list goes on with a wildcard, so the literals found in order can be
   told apart by what the wildcards between them match. *)
Lemma mc_snoc x m z :
  middle_contains ((x :: m) ++ [z]) =
  match x with RLit false rs => rs :: middle_contains (m ++ [z]) | _ => middle_contains (m ++ [z]) end.
Proof. destruct m; reflexivity. Qed.

Lemma simple_mid_sufficient : forall m prev, simple_mid m prev = true ->
  forall b e s, InOrder s (middle_contains (m ++ [RStar RAny])) ->
  ML b e (RConcat ((if prev then [] else [RStar RAny]) ++ m ++ [RStar RAny])) s.
Proof.
  induction m as [| x t IH]; intros prev H b e s Hio; simpl in H.
  - destruct prev; cbn [app].
    + apply ML_concat_single, ML_star_any.
    + apply ML_concat_cons. exists s, []. rewrite app_nil_r. split; auto.
      split; [apply ML_star_any | apply ML_concat_single, ML_star_any].
  - rewrite mc_snoc in Hio. destruct (is_match_any x) eqn:Ea.
    + apply is_match_any_eq in Ea. subst x. specialize (IH false H).
      destruct prev; cbn [app] in *.
      * apply IH. exact Hio.
      * apply ML_concat_cons. exists [], s. split; auto. split; [apply ML_star_any | apply IH; exact Hio].
    + destruct (is_cs_literal x) eqn:El; [| discriminate]. destruct prev; [discriminate |].
      destruct (is_cs_literal_eq _ El) as (rs & ->). cbn iota in Hio.
      inversion Hio as [| a x0 b0 t0 Hio']; subst.
      cbn [app]. apply ML_concat_cons. exists a, (rs ++ b0). split; auto. split; [apply ML_star_any |].
      apply ML_concat_cons. exists rs, b0. split; auto. split; [now apply ML_lit_cs |].
      exact (IH true H _ _ b0 Hio').
Qed.
Lemma new_multi_cs_sem n vals s : smm (new_multi NL true n vals) s = true <-> In s vals.
Proof.
  unfold new_multi. rewrite <- mem_str_In.
  destruct (n <? min_equal_multi_threshold); [rewrite smm_slice_cs | rewrite smm_map_cs, orb_false_r]; reflexivity.
Qed.

Lemma forallb_tl {A} (f : A -> bool) l : forallb f l = true -> forallb f (tl l) = true.
Proof. destruct l; simpl; auto. intros H. apply andb_true_iff in H. tauto. Qed.

Lemma map_strip_wf l : forallb wf_csb l = true -> forallb wf_csb (map strip l) = true.
Proof.
  induction l as [| a l IH]; simpl; auto. intros H. apply andb_true_iff in H. destruct H as [Ha H].
  rewrite (wf_strip a Ha). simpl. now apply IH.
Qed.

(* the three pre-filters of a top-level concatenation (case-sensitive fragment) *)
Definition pre_holds (prefix suffix : str) (contains : list str) (s : str) : bool :=
  (isnil prefix || is_prefix prefix s) && (isnil suffix || is_suffix suffix s) &&
  (isnil contains || contains_in_order s contains).

Definition oc_of (sub : list re) : bool * str * str * list str :=
  match sub with
  | [] => (false, [], [], [])
  | x :: t =>
      let '(ci, prefix) := match lit_of x with Some (f, rs) => (f, rs) | None => (false, []) end in
      let suffix := match lit_of (last sub RNoMatch) with Some (false, rs) => rs | _ => [] end in
      (ci, prefix, suffix, middle_contains t)
  end.

Lemma optimize_concat_eq l : optimize_concat l = oc_of (strip_anchors (map strip l)).
Proof. reflexivity. Qed.

Lemma suffix_ok sub s : sub <> [] -> ML true true (RConcat sub) s ->
  (isnil (match lit_of (last sub RNoMatch) with Some (false, rs) => rs | _ => [] end)
   || is_suffix (match lit_of (last sub RNoMatch) with Some (false, rs) => rs | _ => [] end) s) = true.
Proof.
  intros Hne HM. destruct (lit_of (last sub RNoMatch)) as [[[|] rs'] |] eqn:El; try reflexivity.
  apply lit_of_some in El. rewrite (suffix_necessary rs' sub _ _ _ Hne El HM). apply orb_true_r.
Qed.

Lemma contains_ok x t s : ML true true (RConcat (x :: t)) s ->
  (isnil (middle_contains t) || contains_in_order s (middle_contains t)) = true.
Proof.
  intros HM. apply ML_concat_cons in HM. destruct HM as (s1 & s2 & -> & _ & H2).
  apply cio_nil_spec, InOrder_prepend. eapply mc_necessary. exact H2.
Qed.

Lemma pre_necessary sub ci prefix suffix contains s :
  forallb wf_csb sub = true -> oc_of sub = (ci, prefix, suffix, contains) ->
  ci = false /\ (ML true true (RConcat sub) s -> pre_holds prefix suffix contains s = true).
Proof.
  intros Hwf H. destruct sub as [| x t]; unfold oc_of in H.
  - inversion H; subst. split; auto.
  - assert (Hx : wf_csb x = true) by (simpl in Hwf; apply andb_true_iff in Hwf; tauto).
    assert (Hne : x :: t <> []) by discriminate.
    destruct (lit_of x) as [[f rs] |] eqn:Elx; injection H as <- <- <- <-.
    + apply lit_of_some in Elx. subst x. simpl in Hx. apply andb_true_iff in Hx. destruct Hx as [Hf _].
      apply negb_true_iff in Hf. subst f. split; [reflexivity |]. intros HM. unfold pre_holds.
      apply andb_true_iff; split; [apply andb_true_iff; split |];
        [rewrite (prefix_necessary rs t _ _ _ HM); apply orb_true_r
        | apply (suffix_ok _ s Hne HM) | apply (contains_ok _ t s HM)].
    + split; [reflexivity |]. intros HM. unfold pre_holds.
      apply andb_true_iff; split; [apply andb_true_iff; split |];
        [reflexivity | apply (suffix_ok _ s Hne HM) | apply (contains_ok _ t s HM)].
Qed.

Lemma pre_exact sub ci prefix suffix contains s :
  is_simple_concat (RConcat sub) = true ->
  oc_of sub = (ci, prefix, suffix, contains) ->
  prefix = [] /\ suffix = [] /\
  ((isnil contains || contains_in_order s contains) = true <-> ML true true (RConcat sub) s).
Proof.
  intros Hs H. simpl in Hs.
  destruct (len sub <? 2) eqn:El; [discriminate |].
  apply andb_true_iff in Hs. destruct Hs as [Hs Hmid]. apply andb_true_iff in Hs. destruct Hs as [Hhd Hlast].
  destruct sub as [| x t]; [discriminate |]. simpl in Hhd. apply is_match_any_eq in Hhd. subst x.
  assert (Ht : t <> []). { intros ->. discriminate. }
  assert (Hlast' : last (RStar RAny :: t) RNoMatch = last t RNoMatch) by (destruct t; [congruence | reflexivity]).
  rewrite Hlast' in Hlast. apply is_match_any_eq in Hlast.
  unfold oc_of in H. rewrite Hlast', Hlast in H. simpl in H.
  injection H as Hci Hp Hsuf Hc. subst ci prefix suffix contains.
  split; auto. split; auto.
  rewrite cio_nil_spec. split.
  - intros Hio. simpl in Hmid. rewrite (app_removelast_last RNoMatch Ht), Hlast in Hio |- *.
    exact (simple_mid_sufficient _ _ Hmid true true s Hio).
  - intros HM. apply ML_concat_cons in HM. destruct HM as (s1 & s2 & -> & _ & H2).
    apply mc_necessary in H2. now apply InOrder_prepend.
Qed.
Definition top_frm (p1 p3 : re) (ci : bool) (prefix suffix : str) (contains : list str) : frm :=
  let '(matches, cs) := find_set_matches p3 in
  let p4 := clear_begin_end p3 in
  let set := if cs then matches else [] in
  let sm0 := if 1 <? len matches then Some (new_multi NL cs (len matches) matches) else None in
  let sm1 := match sm0 with
             | Some _ => sm0
             | None => if is_simple_concat p4 then Some STrue else string_matcher_from_regexp NL TL p4
             end in
  mkFrm (Some p1) set sm1 ci prefix suffix contains.

(* compileMatchStringFunction when the set is not a single string and there is no
   case-insensitive prefix: the pre-filters, then the matcher or the regexp; without
   pre-filters the code skips them, which is the same *)
Lemma match_string_tail p1 set sm prefix suffix contains s : (forall x, set <> [x]) ->
  match_string F NL (mkFrm (Some p1) set sm false prefix suffix contains) s =
  pre_holds prefix suffix contains s && match sm with Some m => smm m s | None => re_match F p1 s end.
Proof.
  intros Hset. unfold match_string, pre_holds.
  cbn [f_set f_prefix f_suffix f_contains f_sm f_ci andb re_fallback f_re].
  destruct set as [| a [| b l]]; [| now destruct (Hset a) |];
    (destruct sm; [destruct prefix, suffix, contains; reflexivity | now rewrite andb_false_r]).
Qed.

Lemma tail_sem p1 set sm prefix suffix contains s (R : Prop) :
  (forall x, set <> [x]) ->
  ((match sm with Some m => smm m s | None => re_match F p1 s end) = true <-> R) ->
  (R -> pre_holds prefix suffix contains s = true) ->
  match_string F NL (mkFrm (Some p1) set sm false prefix suffix contains) s = true <-> R.
Proof.
  intros Hset HV Hpre. rewrite match_string_tail, andb_true_iff by exact Hset.
  split; [intros [_ H]; now apply HV | intros H; split; [now apply Hpre | now apply HV]].
Qed.

(* what compileMatchStringFunction needs of the pre-filters: they reject no match, and when the
   trueMatcher shortcut is taken there is no prefix or suffix and the contains filter decides *)
Definition pre_ok (p3 : re) (prefix suffix : str) (contains : list str) (s : str) : Prop :=
  (Matches F p3 s -> pre_holds prefix suffix contains s = true) /\
  (is_simple_concat (clear_begin_end p3) = true ->
   prefix = [] /\ suffix = [] /\
   ((isnil contains || contains_in_order s contains) = true <-> Matches F p3 s)).

Lemma top_core p1 p3 prefix suffix contains s :
  wf_csb p3 = true -> (Matches F p1 s <-> Matches F p3 s) -> pre_ok p3 prefix suffix contains s ->
  match_string F NL (top_frm p1 p3 false prefix suffix contains) s = true <-> Matches F p3 s.
Proof.
  intros Hwf H13 [Hpre Hexact]. unfold top_frm, find_set_matches.
  set (p4 := clear_begin_end p3) in *.
  assert (Hwf4 : wf_csb p4 = true) by (apply cbe_wf; exact Hwf).
  assert (H43 : Matches F p4 s <-> Matches F p3 s) by apply cbe_sem.
  destruct (fsm p4 []) as [matches cs] eqn:Ef.
  assert (Hset : matches <> [] -> cs = true /\ (Matches F p4 s <-> In s matches)).
  { intros Hne. pose proof (proj2 (fsm_wf p4 Hwf4 [])) as Hc. rewrite Ef in Hc.
    assert (cs = true) by exact (Hc Hne). subst cs. split; auto. now apply fsm_top_exact. }
  destruct matches as [| x [| y t]].
  - assert (E : (if cs then @nil str else []) = []) by (destruct cs; reflexivity).
    cbn [len length Z.of_nat Z.ltb Z.compare]. rewrite E.
    destruct (is_simple_concat p4) eqn:Esim.
    + destruct (Hexact eq_refl) as (-> & -> & Hex).
      rewrite match_string_tail, andb_true_r by (intros x; discriminate). exact Hex.
    + apply tail_sem; [intros x; discriminate | | exact Hpre].
      destruct (string_matcher_from_regexp NL TL p4) as [m |] eqn:Em.
      * rewrite (smfr_correct F NL TL p4 m Hwf4 Em s). exact H43.
      * rewrite re_match_correct. exact H13.
  - assert (Hne1 : [x] <> []) by discriminate.
    destruct (Hset Hne1) as [-> Hin].
    unfold match_string. cbn [f_set]. rewrite str_eqb_eq, <- H43, Hin. simpl.
    split; [intros ->; auto | intros [-> | []]; auto].
  - assert (Hne2 : x :: y :: t <> []) by discriminate.
    destruct (Hset Hne2) as [-> Hin].
    assert (E1 : 1 <? len (x :: y :: t) = true).
    { apply Z.ltb_lt. unfold len. cbn [length]. lia. }
    rewrite E1. apply tail_sem; [intros x0; discriminate | | exact Hpre].
    rewrite new_multi_cs_sem, <- H43. symmetry. exact Hin.
Qed.

Lemma pre_holds_nil s : pre_holds [] [] [] s = true.
Proof. reflexivity. Qed.

Lemma Matches_strip r s : Matches F (strip r) s <-> Matches F r s.
Proof. unfold Matches. now rewrite strip_lower. Qed.

Lemma wf_strip_top r : wf_csb r = true -> wf_csb (strip r) = true.
Proof. apply wf_strip. Qed.

(* what NewFastRegexMatcher does with the outermost node: a concatenation loses its captures
   and gives the pre-filters, anything else is kept *)
Definition top_split (p2 : re) : re * (bool * str * str * list str) :=
  match p2 with
  | RConcat l => (RConcat (map strip l), optimize_concat l)
  | _ => (p2, (false, [], [], []))
  end.

Lemma new_frm_split pat ast : optimize_alternating_literals NL pat = None ->
  new_frm NL TL pat ast =
  let p1 := optimize_alt_simple_contains ast in
  let '(p3, (ci, prefix, suffix, contains)) := top_split (strip p1) in
  top_frm p1 p3 ci prefix suffix contains.
Proof. intros H. unfold new_frm, new_frm_gen. rewrite H. reflexivity. Qed.

Lemma top_split_sem p2 s : Matches F (fst (top_split p2)) s <-> Matches F p2 s.
Proof. destruct p2; try reflexivity. apply (ML_concat_map_strip F true true). Qed.

Lemma is_simple_concat_cbe p : (forall l, p <> RConcat l) -> is_simple_concat (clear_begin_end p) = false.
Proof.
  intros H. destruct p; try reflexivity; try (simpl; destruct (_ || _); reflexivity).
  exfalso. eapply H. reflexivity.
Qed.

Lemma top_split_spec p2 s : wf_csb p2 = true ->
  let '(p3, (ci, prefix, suffix, contains)) := top_split p2 in
  ci = false /\ wf_csb p3 = true /\ pre_ok p3 prefix suffix contains s.
Proof.
  intros Hwf.
  destruct p2;
    try (cbn [top_split]; split; [reflexivity |]; split; [exact Hwf |]; split; [intros _; reflexivity |];
         intros Hs; rewrite is_simple_concat_cbe in Hs by (intros; discriminate); discriminate).
  cbn [top_split]. simpl in Hwf. rewrite optimize_concat_eq.
  set (sub0 := map strip l). set (sub := strip_anchors sub0).
  assert (Hwf0 : forallb wf_csb sub0 = true) by (apply map_strip_wf; exact Hwf).
  assert (Hwfs : forallb wf_csb sub = true) by (apply wf_strip_anchors; exact Hwf0).
  destruct (oc_of sub) as [[[ci prefix] suffix] contains] eqn:Eoc.
  destruct (pre_necessary sub ci prefix suffix contains s Hwfs Eoc) as [Hci Hnec].
  split; [exact Hci |]. split; [exact Hwf0 |]. split.
  - intros HM. apply Hnec. now apply strip_anchors_sem.
  - intros Hsim. destruct sub0 as [| x [| y t]] eqn:E0.
    + simpl in Hsim. discriminate.
    + simpl in Hsim. destruct (is_begin x || is_end x); simpl in Hsim; discriminate.
    + rewrite cbe_concat2 in Hsim. fold sub in Hsim.
      destruct (pre_exact sub ci prefix suffix contains s Hsim Eoc) as (Hp & Hs & Hex).
      split; auto. split; auto. rewrite Hex.
      rewrite <- (cbe_sem F (RConcat (x :: y :: t)) s), cbe_concat2. fold sub. reflexivity.
Qed.

Theorem new_frm_correct pat ast s :
  wf_csb ast = true ->
  optimize_alternating_literals NL pat = None ->
  optimize_alt_simple_contains ast = ast ->
  match_string F NL (new_frm NL TL pat ast) s = true <-> Matches F ast s.
Proof.
  intros Hwf Hopt Hoasc. rewrite new_frm_split by exact Hopt. rewrite Hoasc. cbv zeta.
  pose proof (top_split_spec (strip ast) s (wf_strip ast Hwf)) as Hc.
  pose proof (top_split_sem (strip ast) s) as H3. rewrite Matches_strip in H3.
  destruct (top_split (strip ast)) as [p3 [[[ci prefix] suffix] contains]]. cbn [fst] in H3.
  destruct Hc as (-> & Hwf3 & Hok).
  rewrite <- H3. apply top_core; auto. symmetry. exact H3.
Qed.
Definition wrap (b : re) : re := RConcat [RStar RAny; b; RStar RAny].

Lemma scl_some x b : simple_contains_lit x = Some b -> x = wrap b /\ is_cs_literal b = true.
Proof.
  unfold simple_contains_lit. destruct x; try discriminate.
  destruct l as [| a [| b' [| c [| ? ?]]]]; try discriminate.
  destruct (is_cs_literal b') eqn:Eb; simpl; [| discriminate].
  destruct (is_match_any a) eqn:Ea; simpl; [| discriminate].
  destruct (is_match_any c) eqn:Ec; simpl; [| discriminate].
  intros H. inversion H; subst. apply is_match_any_eq in Ea. apply is_match_any_eq in Ec. subst.
  split; auto.
Qed.

Lemma all_some_scl : forall l lits, all_some (map simple_contains_lit l) = Some lits ->
  l = map wrap lits /\ Forall (fun b => is_cs_literal b = true) lits.
Proof.
  intros l lits H. apply all_some_Forall2 in H.
  induction H as [| x b l lits Hx _ [-> IH]]; [split; constructor |].
  destruct (scl_some _ _ Hx) as [-> Hb]. split; [reflexivity | constructor; auto].
Qed.

Lemma wrap_sem b0 e0 x s : indep F x ->
  (ML b0 e0 (wrap x) s <-> exists s1 s2 s3, s = s1 ++ s2 ++ s3 /\ ML true true x s2).
Proof.
  intros Hind. unfold wrap. rewrite ML_concat_cons. split.
  - intros (s1 & s' & -> & _ & H2). apply ML_concat_cons in H2.
    destruct H2 as (s2 & s3 & -> & H2 & _). exists s1, s2, s3. split; auto. eapply Hind; eauto.
  - intros (s1 & s2 & s3 & -> & H2). exists s1, (s2 ++ s3). split; auto. split; [apply ML_star_any |].
    apply ML_concat_cons. exists s2, s3. split; auto. split; [eapply Hind; eauto |].
    apply ML_concat_single. apply ML_star_any.
Qed.

Lemma lit_indep x : is_cs_literal x = true -> indep F x.
Proof.
  intros H. destruct (is_cs_literal_eq _ H) as (rs & ->). intros b e b' e' t Ht.
  apply ML_lit_cs in Ht. now apply ML_lit_cs.
Qed.

Lemma alt_wrap_sem : forall lits, Forall (fun b => is_cs_literal b = true) lits ->
  forall b e s, ML b e (RAlt (map wrap lits)) s <-> ML b e (wrap (RAlt lits)) s.
Proof.
  intros lits Hl b e s. rewrite (wrap_sem b e (RAlt lits) s (indep_alt F _ (Forall_impl _ lit_indep Hl))).
  induction Hl as [| x l Hx Hl IH].
  - simpl. rewrite ML_alt_nil. split; [tauto |]. intros (s1 & s2 & s3 & _ & H). now apply ML_alt_nil in H.
  - cbn [map]. rewrite ML_alt_cons, IH, (wrap_sem b e x s (lit_indep x Hx)). split.
    + intros [(s1 & s2 & s3 & -> & H) | (s1 & s2 & s3 & -> & H)]; exists s1, s2, s3; split; auto;
        apply ML_alt_cons; auto.
    + intros (s1 & s2 & s3 & -> & H). apply ML_alt_cons in H. destruct H as [H | H]; [left | right]; eauto 6.
Qed.

Theorem oasc_sem r s : Matches F (optimize_alt_simple_contains r) s <-> Matches F r s.
Proof.
  unfold optimize_alt_simple_contains. destruct r; try reflexivity.
  destruct (all_some (map simple_contains_lit l)) as [lits |] eqn:E; [| reflexivity].
  destruct (1 <? len lits); [| reflexivity].
  destruct (all_some_scl _ _ E) as [-> Hl]. symmetry. apply (alt_wrap_sem lits Hl true true s).
Qed.

Lemma oasc_wf r : wf_csb r = true -> wf_csb (optimize_alt_simple_contains r) = true.
Proof.
  unfold optimize_alt_simple_contains. destruct r; auto.
  destruct (all_some (map simple_contains_lit l)) as [lits |] eqn:E; auto.
  destruct (1 <? len lits); auto.
  destruct (all_some_scl _ _ E) as [-> Hl]. simpl. intros H. rewrite andb_true_r.
  clear E Hl. induction lits as [| b lits IH]; simpl in *; auto.
  apply andb_true_iff in H. destruct H as [Hb H]. rewrite andb_true_r in Hb. rewrite Hb. simpl. now apply IH.
Qed.

Lemma oasc_idem r : optimize_alt_simple_contains (optimize_alt_simple_contains r) = optimize_alt_simple_contains r.
Proof.
  destruct r; try reflexivity.
  remember (optimize_alt_simple_contains (RAlt l)) as q eqn:Eq.
  unfold optimize_alt_simple_contains in Eq.
  destruct (all_some (map simple_contains_lit l)) as [lits |] eqn:E.
  - destruct (1 <? len lits) eqn:E1; subst q; [reflexivity |].
    unfold optimize_alt_simple_contains. now rewrite E, E1.
  - subst q. unfold optimize_alt_simple_contains. now rewrite E.
Qed.

Theorem new_frm_correct_full pat ast s :
  wf_csb ast = true ->
  optimize_alternating_literals NL pat = None ->
  match_string F NL (new_frm NL TL pat ast) s = true <-> Matches F ast s.
Proof.
  intros Hwf Hopt.
  assert (E : new_frm NL TL pat ast = new_frm NL TL pat (optimize_alt_simple_contains ast)).
  { unfold new_frm, new_frm_gen. rewrite Hopt, oasc_idem. reflexivity. }
  rewrite E, <- (oasc_sem ast s).
  apply new_frm_correct; auto; [now apply oasc_wf | apply oasc_idem].
Qed.
Theorem new_frm_set_exact pat ast :
  optimize_alternating_literals NL pat = None ->
  set_matches (new_frm NL TL pat ast) <> [] ->
  forall s, Matches F ast s <-> In s (set_matches (new_frm NL TL pat ast)).
Proof.
  intros Hopt. rewrite new_frm_split by exact Hopt. cbv zeta.
  pose proof (fun s => top_split_sem (strip (optimize_alt_simple_contains ast)) s) as Hsem.
  destruct (top_split (strip (optimize_alt_simple_contains ast))) as [p3 [[[ci prefix] suffix] contains]].
  cbn [fst] in Hsem. unfold top_frm, set_matches, find_set_matches.
  destruct (fsm (clear_begin_end p3) []) as [ms cs] eqn:Ef. destruct cs; cbn [f_set]; [| congruence].
  intros Hne s. rewrite <- (oasc_sem ast s), <- (Matches_strip _ s), <- Hsem, <- (cbe_sem F p3 s).
  now apply fsm_top_exact.
Qed.

Lemma nodup_str_In x : forall l, In x (nodup_str l) <-> In x l.
Proof.
  induction l as [| a l IH]; simpl; [tauto |].
  destruct (mem_str a l) eqn:E.
  - rewrite IH. split; auto. intros [<- | H]; auto. now apply mem_str_In.
  - simpl. rewrite IH. tauto.
Qed.

Lemma split_bar_nobar : forall s cur, existsb (fun c => c =? 124) s = false -> split_bar s cur = [rev cur ++ s].
Proof.
  induction s as [| c s IH]; intros cur H; simpl.
  - now rewrite app_nil_r.
  - simpl in H. apply orb_false_iff in H. destruct H as [Hc Hs]. rewrite Hc, (IH _ Hs). simpl.
    now rewrite <- app_assoc.
Qed.

Lemma split_bar_nonempty : forall s cur, split_bar s cur <> [].
Proof.
  induction s as [| c s IH]; intros cur; simpl; [discriminate |].
  destruct (c =? 124); [discriminate | apply IH].
Qed.

Lemma split_bar_len1 : forall s cur, len (split_bar s cur) = 1 -> existsb (fun c => c =? 124) s = false.
Proof.
  induction s as [| c s IH]; intros cur H; simpl in *; auto.
  destruct (c =? 124) eqn:Ec; simpl.
  - exfalso. pose proof (split_bar_nonempty s []) as Hn. unfold len in H. simpl in H.
    destruct (split_bar s []); [congruence | simpl in H; lia].
  - eapply IH; eauto.
Qed.

Theorem altlit_correct pat m set :
  optimize_alternating_literals NL pat = Some (m, set) ->
  (forall s, smm m s = true <-> In s (split_bar pat [])) /\
  (set <> [] -> forall s, In s set <-> In s (split_bar pat [])).
Proof.
  unfold optimize_alternating_literals. destruct (isnil pat) eqn:En.
  - destruct pat; [| discriminate]. intros H. inversion H; subst. split; [| congruence].
    intros s. simpl. destruct s; simpl; split; intros H0; auto; try discriminate.
    destruct H0 as [H0 | []]. discriminate.
  - destruct (len (split_bar pat []) =? 1) eqn:E1.
    + destruct (literal_str pat); [| discriminate]. intros H. inversion H; subst.
      apply Z.eqb_eq in E1. apply split_bar_len1 in E1. rewrite (split_bar_nobar pat [] E1). simpl.
      split; [| intros _]; intros s; cbn [FastRegex.smm]; rewrite ?str_eqb_eq; simpl; intuition congruence.
    + destruct (forallb literal_str (split_bar pat [])); [| discriminate]. intros H. inversion H; subst.
      split; [intros s; apply new_multi_cs_sem |].
      unfold new_multi. destruct (len (split_bar pat []) <? min_equal_multi_threshold).
      * simpl. tauto.
      * cbn [multi_set_matches isnil negb].
        destruct (max_set_matches <=? len (nodup_str (split_bar pat []))); cbn [orb]; [congruence |].
        intros _ s0. apply nodup_str_In.
Qed.
End Matcher.
