(* proof/BlockFmtProofs.v — lemmas and proofs about model/BlockFmt.v (property C24). *)
From Coq Require Import List NArith ZArith Lia Bool Sorting.Sorted.
From Verif Require Import lib.Int64 lib.Bytes lib.Varint model.BlockFmt.
Import ListNotations.
Open Scope N_scope.

(* ================================================================ lists, sub, alter *)
Lemma blen_app {A} (a b : list A) : blen (a ++ b) = blen a + blen b.
Proof. unfold blen. rewrite app_length. lia. Qed.

Lemma blen_cons {A} (x : A) l : blen (x :: l) = 1 + blen l.
Proof. unfold blen. simpl length. lia. Qed.

(* a chunk record's body is the encoding byte and the data: extra = 1 in the frames below *)
Lemma blen_cons_pred {A} (x : A) l : 1 <= blen (x :: l) /\ blen (x :: l) - 1 = blen l.
Proof. rewrite blen_cons. lia. Qed.

Lemma skipn_blen_app (p r : list N) : skipn (N.to_nat (blen p)) (p ++ r) = r.
Proof.
  unfold blen. rewrite Nnat.Nat2N.id. rewrite skipn_app, skipn_all, Nat.sub_diag. reflexivity.
Qed.

Lemma firstn_blen_app (m s : list N) : firstn (N.to_nat (blen m)) (m ++ s) = m.
Proof.
  unfold blen. rewrite Nnat.Nat2N.id. rewrite firstn_app, firstn_all, Nat.sub_diag. simpl. apply app_nil_r.
Qed.

Lemma sub_mid (p m s : list N) : sub (p ++ m ++ s) (blen p) (blen m) = m.
Proof. unfold sub. rewrite skipn_blen_app. apply firstn_blen_app. Qed.

Lemma sub_mid_add (p a m s : list N) : sub (p ++ a ++ m ++ s) (blen p + blen a) (blen m) = m.
Proof. rewrite <- blen_app, app_assoc. apply sub_mid. Qed.

Lemma alter_length pos b l : length (alter pos b l) = length l.
Proof. revert pos; induction l as [|x l IH]; intros [|p]; simpl; auto. Qed.

Lemma alter_app_r (p l : list N) pos b : alter (length p + pos) b (p ++ l) = p ++ alter pos b l.
Proof. induction p as [|x p IH]; simpl; auto. rewrite IH. reflexivity. Qed.

Lemma alter_app_l (l s : list N) pos b : (pos < length l)%nat -> alter pos b (l ++ s) = alter pos b l ++ s.
Proof.
  revert pos; induction l as [|x l IH]; intros pos H; simpl in *; [lia|].
  destruct pos; simpl; auto. rewrite IH by lia. reflexivity.
Qed.

Lemma alter_bytes_ok pos b l : bytes_ok l -> b < 256 -> bytes_ok (alter pos b l).
Proof.
  unfold bytes_ok. revert pos; induction l as [|x l IH]; intros pos Hl Hb; [destruct pos; simpl; constructor|].
  inversion Hl as [|? ? Hx Hl']; subst. destruct pos as [|pos]; cbn [alter]; constructor.
  - exact Hb.
  - exact Hl'.
  - exact Hx.
  - apply IH; assumption.
Qed.

(* ================================================================ big endian *)
Lemma be32_at_mid (p s : list N) c : c < 4294967296 -> be32_at (p ++ put_be32 c ++ s) (blen p) = Some c.
Proof.
  intros H. unfold be32_at. rewrite skipn_blen_app. unfold put_be32.
  rewrite be_take_enc. change (256 ^ N.of_nat 4) with 4294967296.
  rewrite N.mod_small by exact H. reflexivity.
Qed.

Lemma be_take_some n : forall acc l, (n <= length l)%nat -> exists x r, be_take n acc l = Some (x, r).
Proof.
  induction n as [|n IH]; intros acc l H; [simpl; eauto|].
  destruct l as [|b l]; [simpl in H; lia|]. cbn [be_take]. apply IH. simpl in H. lia.
Qed.

Lemma be_take_bound n : forall acc l x r, bytes_ok l -> be_take n acc l = Some (x, r) ->
  acc * 256 ^ N.of_nat n <= x < (acc + 1) * 256 ^ N.of_nat n.
Proof.
  induction n as [|n IH]; intros acc l x r Hl H.
  - simpl in H. inversion H; subst. change (256 ^ N.of_nat 0) with 1. lia.
  - destruct l as [|b l]; [discriminate|]. cbn [be_take] in H.
    inversion Hl as [|? ? Hb Hl']; subst.
    specialize (IH _ _ _ _ Hl' H). unfold byte_ok in Hb.
    rewrite Nnat.Nat2N.inj_succ, N.pow_succ_r'. nia.
Qed.

(* big-endian decoding is injective: another byte among the n read gives another number *)
Lemma be_take_alter n : forall acc l pos b x x' r r',
  bytes_ok l -> b < 256 -> (pos < n)%nat -> (n <= length l)%nat -> nth pos l 0 <> b ->
  be_take n acc l = Some (x, r) -> be_take n acc (alter pos b l) = Some (x', r') -> x <> x'.
Proof.
  induction n as [|n IH]; intros acc l pos b x x' r r' Hl Hb Hp Hn Hne H H'; [lia|].
  destruct l as [|y l]; [simpl in Hn; lia|].
  inversion Hl as [|? ? Hy Hl']; subst. unfold byte_ok in Hy.
  destruct pos as [|pos].
  - simpl in Hne. cbn [alter be_take] in H'. cbn [be_take] in H.
    pose proof (be_take_bound _ _ _ _ _ Hl' H) as B1.
    pose proof (be_take_bound _ _ _ _ _ Hl' H') as B2.
    set (P := 256 ^ N.of_nat n) in *.
    destruct (N.lt_trichotomy y b) as [Hlt|[Heq|Hlt]]; [| exfalso; apply Hne; exact Heq |].
    + assert ((acc * 256 + y + 1) * P <= (acc * 256 + b) * P) by (apply N.mul_le_mono_r; lia). lia.
    + assert ((acc * 256 + b + 1) * P <= (acc * 256 + y) * P) by (apply N.mul_le_mono_r; lia). lia.
  - cbn [alter be_take] in H'. cbn [be_take] in H. simpl in Hne, Hn.
    apply (IH (acc * 256 + y) l pos b x x' r r' Hl' Hb); [lia | lia | exact Hne | exact H | exact H'].
Qed.

(* on exactly n bytes be_take n ignores what follows *)
Lemma be_take_app n : forall acc l t, length l = n ->
  be_take n acc (l ++ t) = match be_take n acc l with Some (x, _) => Some (x, t) | None => None end.
Proof.
  induction n as [|n IH]; intros acc [|b l] t H; try discriminate H; [reflexivity|].
  cbn [app be_take]. apply IH. injection H as H. exact H.
Qed.

(* ================================================================ uvarint in a 5 byte window *)
Lemma uv_enc_fuel_len : forall k f x, (1 <= k)%nat -> (k <= f)%nat -> x < 128 ^ N.of_nat k ->
  (1 <= length (uv_enc_fuel f x) <= k)%nat.
Proof.
  induction k as [|k IH]; intros f x Hk Hf Hx; [lia|].
  destruct f as [|f]; [lia|]. cbn [uv_enc_fuel].
  destruct (x <? 128) eqn:E; [simpl; lia|].
  apply N.ltb_ge in E. simpl length.
  destruct k as [|k'].
  - change (128 ^ N.of_nat 1) with 128 in Hx. lia.
  - assert (x / 128 < 128 ^ N.of_nat (S k')).
    { apply N.div_lt_upper_bound; [discriminate|].
      rewrite Nnat.Nat2N.inj_succ, N.pow_succ_r' in Hx. exact Hx. }
    specialize (IH f (x / 128) ltac:(lia) ltac:(lia) H). lia.
Qed.

Definition two35 : N := 34359738368.

Lemma put_uvarint_len5 x : x < two35 -> (1 <= length (put_uvarint x) <= 5)%nat.
Proof.
  intros H. unfold put_uvarint. apply uv_enc_fuel_len; try lia.
  change (128 ^ N.of_nat 5) with 34359738368. exact H.
Qed.

Lemma put_uvarint_bytes_ok x : bytes_ok (put_uvarint x).
Proof.
  unfold put_uvarint. generalize 10%nat. intros f. revert x.
  induction f as [|f IH]; intros x; cbn [uv_enc_fuel]; [constructor|].
  destruct (x <? 128) eqn:E.
  - apply N.ltb_lt in E. constructor; [unfold byte_ok; lia|constructor].
  - constructor; [|apply IH]. unfold byte_ok.
    pose proof (N.mod_lt x 128 ltac:(discriminate)). lia.
Qed.

(* the window reader finds the writer's prefix: value and number of bytes *)
Lemma uvarint5_put (p rest : list N) x :
  x < two35 -> (5 <= length (put_uvarint x ++ rest))%nat ->
  uvarint5 (p ++ put_uvarint x ++ rest) (blen p) = Some (x, blen (put_uvarint x)).
Proof.
  intros Hx Hlen. unfold uvarint5, sub. rewrite skipn_blen_app.
  pose proof (put_uvarint_len5 x Hx) as Hl.
  change (N.to_nat 5) with 5%nat.
  rewrite firstn_app.
  rewrite firstn_all2 by lia.
  rewrite get_put_uvarint by (unfold u64_ok, two64N, two35 in *; lia).
  f_equal. f_equal. rewrite app_length in Hlen.
  unfold blen. rewrite firstn_length. lia.
Qed.

(* ================================================================ frames with a uvarint length *)
(* the common shape of NewDecbufUvarintAt (extra = 0) and ChunkOrIterable (extra = 1):
   uvarint l | extra + l bytes | crc32 of those bytes *)
Section Framed.
Variable crc : list N -> N.

Definition framed_at (extra : N) (bs : list N) (off : N) : rres (list N) :=
  let len := blen bs in
  if len <? off + 5 then RErr RSize else
  match uvarint5 bs off with
  | None => RErr RVarint
  | Some (l, n) =>
      if len <? off + n + (extra + l) + 4 then RErr RSize else
      let b := sub bs (off + n) (extra + l) in
      match be32_at bs (off + n + (extra + l)) with
      | Some c => if crc b =? c then ROk b else RErr RCrc
      | None => RErr RPanic
      end
  end.

Lemma decbuf_uvarint_at_framed bs off : decbuf_uvarint_at crc bs off = framed_at 0 bs off.
Proof. unfold decbuf_uvarint_at, framed_at. reflexivity. Qed.

Lemma chunk_at_framed seg start :
  chunk_at crc seg start =
  match framed_at 1 seg start with
  | ROk [] => RErr RPanic
  | ROk (enc :: data) => if valid_enc enc then ROk (enc, data) else RErr REnc
  | RErr e => RErr e
  end.
Proof.
  unfold chunk_at, framed_at.
  destruct (blen seg <? start + 5); [reflexivity|].
  destruct (uvarint5 seg start) as [[l n]|]; [|reflexivity].
  replace (start + n + 1 + l + 4) with (start + n + (1 + l) + 4) by lia.
  destruct (blen seg <? start + n + (1 + l) + 4); [reflexivity|].
  replace (start + n + 1 + l) with (start + n + (1 + l)) by lia.
  destruct (be32_at seg (start + n + (1 + l))) as [c|]; [|reflexivity].
  destruct (crc (sub seg (start + n) (1 + l)) =? c); reflexivity.
Qed.

(* Where the reader looks: behind the uvarint of l0 it takes extra + l0 bytes as the body and
   compares their checksum with the four bytes that follow, whatever these two pieces hold. *)
Lemma framed_at_layout extra l0 body sum p s :
  l0 < two35 -> blen body = extra + l0 -> length sum = 4%nat ->
  framed_at extra (p ++ put_uvarint l0 ++ body ++ sum ++ s) (blen p) =
  match be_take 4 0 sum with
  | Some (c, _) => if crc body =? c then ROk body else RErr RCrc
  | None => RErr RPanic
  end.
Proof.
  intros Hl Hb Hs. unfold framed_at. set (pre := put_uvarint l0).
  pose proof (put_uvarint_len5 l0 Hl) as Hpl. fold pre in Hpl.
  assert (Hlen : blen (p ++ pre ++ body ++ sum ++ s) = blen p + blen pre + blen body + 4 + blen s).
  { rewrite !blen_app. unfold blen at 4. rewrite Hs. lia. }
  assert (Hpre : 1 <= blen pre <= 5) by (unfold blen; lia).
  rewrite Hlen. destruct (N.ltb_spec (blen p + blen pre + blen body + 4 + blen s) (blen p + 5)); [lia|].
  unfold pre at 1. rewrite uvarint5_put by (exact Hl || (fold pre; rewrite !app_length, Hs; lia)).
  fold pre. rewrite <- Hb.
  destruct (N.ltb_spec (blen p + blen pre + blen body + 4 + blen s) (blen p + blen pre + blen body + 4)); [lia|].
  rewrite sub_mid_add. unfold be32_at.
  replace (p ++ pre ++ body ++ sum ++ s) with ((p ++ pre ++ body) ++ sum ++ s) by (rewrite <- !app_assoc; reflexivity).
  replace (blen p + blen pre + blen body) with (blen (p ++ pre ++ body)) by (rewrite !blen_app; lia).
  rewrite skipn_blen_app, be_take_app by exact Hs.
  destruct (be_take 4 0 sum) as [[c r]|]; reflexivity.
Qed.

(* what the writers produce: uvarint(len body - extra) | body | be32 (crc body) *)
Definition frame (extra : N) (body : list N) : list N :=
  put_uvarint (blen body - extra) ++ body ++ put_be32 (crc body).

Hypothesis crc_range : forall l, crc l < 4294967296.

Lemma be_take_crc body : be_take 4 0 (put_be32 (crc body)) = Some (crc body, []).
Proof.
  rewrite <- (app_nil_r (put_be32 _)). unfold put_be32. rewrite be_take_enc.
  change (256 ^ N.of_nat 4) with 4294967296. rewrite N.mod_small by apply crc_range. reflexivity.
Qed.

Lemma framed_at_frame extra body p s :
  extra <= blen body -> blen body - extra < two35 ->
  framed_at extra (p ++ frame extra body ++ s) (blen p) = ROk body.
Proof.
  intros He Hl. unfold frame. rewrite <- !app_assoc.
  rewrite framed_at_layout, be_take_crc, N.eqb_refl by (exact Hl || lia || apply be_enc_length).
  reflexivity.
Qed.

(* ---- corruption: any single byte altered in the body or in the stored checksum *)
Hypothesis crc_detects : forall l pos b,
  bytes_ok l -> b < 256 -> (pos < length l)%nat -> nth pos l 0 <> b -> crc (alter pos b l) <> crc l.

Lemma framed_at_alter extra body p s pos b :
  extra <= blen body -> blen body - extra < two35 -> bytes_ok body -> b < 256 ->
  let pre := put_uvarint (blen body - extra) in
  let rec := frame extra body in
  (length pre <= pos < length rec)%nat ->
  nth pos rec 0 <> b ->
  framed_at extra (alter (length p + pos) b (p ++ rec ++ s)) (blen p) = RErr RCrc.
Proof.
  intros He Hl Hbody Hb pre rec Hpos Hne. unfold rec, frame in *. fold pre in Hpos, Hne |- *.
  assert (Hc4 : length (put_be32 (crc body)) = 4%nat) by apply be_enc_length.
  rewrite !app_length, Hc4 in Hpos.
  (* the altered byte lies behind the prefix, at q in body ++ checksum *)
  set (q := (pos - length pre)%nat).
  assert (Hq : nth q (body ++ put_be32 (crc body)) 0 <> b)
    by (intro E; apply Hne; rewrite app_nth2 by lia; exact E).
  rewrite alter_app_r, alter_app_l by (rewrite !app_length, Hc4; lia).
  replace pos with (length pre + q)%nat by lia. rewrite alter_app_r.
  destruct (Nat.ltb_spec q (length body)) as [Hlt|Hge].
  - (* the body is altered, the stored sum is intact *)
    rewrite alter_app_l, <- !app_assoc by exact Hlt. unfold pre.
    rewrite framed_at_layout, be_take_crc
      by (exact Hl || exact Hc4 || (unfold blen in *; rewrite alter_length; lia)).
    destruct (N.eqb_spec (crc (alter q b body)) (crc body)) as [Ec|]; [|reflexivity].
    exfalso. apply (crc_detects body q b Hbody Hb Hlt); [|exact Ec].
    intro E. apply Hq. rewrite app_nth1 by exact Hlt. exact E.
  - (* the stored sum is altered, the body is intact: big-endian decoding is injective *)
    replace q with (length body + (q - length body))%nat by lia.
    rewrite alter_app_r, <- !app_assoc. unfold pre.
    rewrite framed_at_layout by (exact Hl || lia || (rewrite alter_length; exact Hc4)).
    destruct (be_take 4 0 (alter (q - length body) b (put_be32 (crc body)))) as [[c' r']|] eqn:Ebt.
    + destruct (N.eqb_spec (crc body) c') as [Ec|]; [|reflexivity]. exfalso.
      refine (be_take_alter 4 0 (put_be32 (crc body)) (q - length body) b _ _ _ _
                (be_enc_bytes_ok _ _) Hb _ _ _ (be_take_crc body) Ebt Ec); try lia.
      intro E. apply Hq. rewrite app_nth2 by lia. exact E.
    + destruct (be_take_some 4 0 (alter (q - length body) b (put_be32 (crc body)))) as (x & r & Hx);
        [rewrite alter_length; lia | congruence].
Qed.

End Framed.

(* the two writers of such frames *)
Lemma enc_chunk_record_frame crc enc data : enc_chunk_record crc enc data = frame crc 1 (enc :: data).
Proof.
  unfold enc_chunk_record, frame. rewrite (proj2 (blen_cons_pred enc data)). reflexivity.
Qed.

Lemma frame_uvarint_frame crc content : frame_uvarint crc content = frame crc 0 content.
Proof. unfold frame_uvarint, frame. rewrite N.sub_0_r. reflexivity. Qed.

(* ================================================================ series entries: content round trip *)
Lemma lift_ok {A} (a : A) : lift (Ok a) = ROk a.
Proof. reflexivity. Qed.

Lemma add64_comm a b : add64 a b = add64 b a.
Proof. unfold add64. f_equal. lia. Qed.

(* int64(uint64(d)) + base, where d was computed as x - base with wrap-around, is x again *)
Lemma delta_restore base x : int64 x -> add64 (to_i64 (to_u64 (sub64 x base))) base = x.
Proof.
  intros H. rewrite to_i64_to_u64. unfold sub64 at 1. rewrite wrap64_idem.
  rewrite add64_comm. apply delta64_restore. exact H.
Qed.

Lemma sym_index_lookup syms s i : sym_index syms s = Some i -> lookup_sym syms i = ROk s.
Proof.
  revert i; induction syms as [|x r IH]; intros i H; [discriminate|].
  cbn [sym_index] in H. unfold lookup_sym.
  destruct (bytes_eqb x s) eqn:E.
  - apply bytes_eqb_eq in E. inversion H; subst. rewrite blen_cons.
    destruct (1 + blen r <=? 0) eqn:E1; [apply N.leb_le in E1; lia|]. reflexivity.
  - destruct (sym_index r s) as [j|] eqn:Ej; [|discriminate]. inversion H; subst.
    specialize (IH j eq_refl). unfold lookup_sym in IH.
    rewrite blen_cons.
    destruct (blen r <=? j) eqn:E2; [discriminate|]. apply N.leb_gt in E2.
    destruct (1 + blen r <=? j + 1) eqn:E3; [apply N.leb_le in E3; lia|].
    replace (N.to_nat (j + 1)) with (S (N.to_nat j)) by lia. cbn [nth_error]. exact IH.
Qed.

Lemma sym_index_bound syms s i : sym_index syms s = Some i -> i < blen syms.
Proof.
  revert i; induction syms as [|x r IH]; intros i H; [discriminate|].
  cbn [sym_index] in H. rewrite blen_cons. destruct (bytes_eqb x s).
  - inversion H. lia.
  - destruct (sym_index r s) as [j|]; [|discriminate]. inversion H. specialize (IH j eq_refl). lia.
Qed.

Lemma label_refs_length syms : forall ls lr, label_refs syms ls = Some lr -> length lr = length ls.
Proof.
  induction ls as [|[n v] ls IH]; intros lr H; cbn [label_refs] in H.
  - injection H as <-. reflexivity.
  - destruct (sym_index syms n), (sym_index syms v), (label_refs syms ls); try discriminate.
    injection H as <-. cbn [length]. f_equal. apply IH. reflexivity.
Qed.

(* every element is encoded by at least one byte (what makes "fuel = bytes left" enough) *)
Lemma flat_map_len_le {A} (f : A -> list N) l : (forall x, f x <> []) -> (length l <= length (flat_map f l))%nat.
Proof.
  intros Hf. induction l as [|x l IH]; [apply Nat.le_refl|]. cbn [flat_map length]. rewrite app_length.
  specialize (Hf x). destruct (f x); [congruence|]. cbn [length]. lia.
Qed.

Lemma enc_label_refs_len lr : (length lr <= length (enc_label_refs lr))%nat.
Proof.
  apply flat_map_len_le. intros [i j] E. apply app_eq_nil in E. exact (put_uvarint_nonempty i (proj1 E)).
Qed.

Lemma enc_chunks_rest_len : forall cs t0 r0, (length cs <= length (enc_chunks_rest t0 r0 cs))%nat.
Proof.
  induction cs as [|c cs IH]; intros t0 r0; [simpl; lia|].
  cbn [enc_chunks_rest]. rewrite !app_length.
  specialize (IH (cm_max c) (to_i64 (cm_ref c))).
  pose proof (put_uvarint_nonempty (to_u64 (sub64 (cm_min c) t0))) as H1.
  destruct (put_uvarint (to_u64 (sub64 (cm_min c) t0))); [congruence|]. simpl length. lia.
Qed.

(* labels and chunk metas take at least a byte each *)
Lemma enc_series_content_len lr cs :
  blen lr <= blen (enc_series_content lr cs) /\ blen cs <= blen (enc_series_content lr cs).
Proof.
  unfold enc_series_content, enc_chunks. rewrite !blen_app. pose proof (enc_label_refs_len lr).
  split; [unfold blen; lia|]. destruct cs as [|c cs]; [unfold blen; cbn [length]; lia|].
  rewrite !blen_app. pose proof (enc_chunks_rest_len cs (cm_max c) (to_i64 (cm_ref c))).
  pose proof (put_varint_nonempty (cm_min c)). destruct (put_varint (cm_min c)); [congruence|].
  unfold blen in *. cbn [length]. lia.
Qed.

Section SeriesRT.
Variable syms : list bstr.
Hypothesis syms_small : blen syms <= 4294967296.     (* uint32 symbol references *)

Lemma dec_labels_enc : forall ls lr fuel rest,
  label_refs syms ls = Some lr -> (length ls <= fuel)%nat ->
  dec_labels (lookup_sym syms) fuel (Z.of_nat (length ls)) (enc_label_refs lr ++ rest) = ROk (ls, rest).
Proof.
  induction ls as [|[n v] ls IH]; intros lr fuel rest Hlr Hf.
  - simpl in Hlr. inversion Hlr; subst. destruct fuel; reflexivity.
  - cbn [label_refs] in Hlr.
    destruct (sym_index syms n) as [i|] eqn:Ei; [|discriminate].
    destruct (sym_index syms v) as [j|] eqn:Ej; [|discriminate].
    destruct (label_refs syms ls) as [t|] eqn:Et; [|discriminate].
    inversion Hlr; subst lr. clear Hlr.
    destruct fuel as [|f]; [simpl in Hf; lia|].
    cbn [dec_labels].
    destruct (Z.leb_spec (Z.of_nat (length ((n, v) :: ls))) 0); [cbn [length] in *; lia|].
    cbn [enc_label_refs flat_map]. rewrite <- !app_assoc.
    pose proof (sym_index_bound _ _ _ Ei) as Bi. pose proof (sym_index_bound _ _ _ Ej) as Bj.
    rewrite !dbind_uvarint32 by lia. unfold dret.
    rewrite (sym_index_lookup _ _ _ Ei), (sym_index_lookup _ _ _ Ej). cbn [rbind].
    replace (Z.of_nat (length ((n, v) :: ls)) - 1)%Z with (Z.of_nat (length ls)) by (simpl length; lia).
    fold (enc_label_refs t).
    rewrite (IH t f rest eq_refl) by (simpl in Hf; lia). reflexivity.
Qed.

Definition cmeta_ok (c : cmeta) : Prop := u64_ok (cm_ref c) /\ int64 (cm_min c) /\ int64 (cm_max c).

Lemma dec_chunks_rest_enc : forall cs fuel t0 ref0 rest,
  Forall cmeta_ok cs -> int64 ref0 -> (length cs <= fuel)%nat ->
  dec_chunks_rest fuel (Z.of_nat (length cs)) t0 ref0 (enc_chunks_rest t0 ref0 cs ++ rest) = ROk cs.
Proof.
  induction cs as [|c cs IH]; intros fuel t0 ref0 rest Hok Hr Hf.
  - destruct fuel; reflexivity.
  - inversion Hok as [|? ? [Hu [Hmin Hmax]] Hok']; subst.
    destruct fuel as [|f]; [simpl in Hf; lia|].
    cbn [dec_chunks_rest].
    destruct (Z.leb_spec (Z.of_nat (length (c :: cs))) 0); [cbn [length] in *; lia|].
    cbn [enc_chunks_rest]. rewrite <- !app_assoc.
    rewrite !dbind_uvarint, dbind_varint by (apply to_u64_ok || apply sub64_range). unfold dret.
    rewrite (delta_restore t0 (cm_min c) Hmin).
    rewrite (delta_restore (cm_min c) (cm_max c) Hmax).
    rewrite (delta64_restore ref0 (to_i64 (cm_ref c)) (to_i64_range _)).
    rewrite (to_u64_to_i64 _ Hu).
    replace (Z.of_nat (length (c :: cs)) - 1)%Z with (Z.of_nat (length cs)) by (simpl length; lia).
    rewrite (IH f (cm_max c) (to_i64 (cm_ref c)) rest Hok' (to_i64_range _)) by (simpl in Hf; lia).
    cbn [rbind]. destruct c; reflexivity.
Qed.

Lemma dec_chunks_enc cs :
  Forall cmeta_ok cs -> blen cs < 9223372036854775808 ->
  dec_chunks (enc_chunks cs) = ROk cs.
Proof.
  intros Hok Hlen. unfold dec_chunks, enc_chunks.
  rewrite d_uvarint_int_put by exact Hlen.
  destruct cs as [|c cs].
  - reflexivity.
  - inversion Hok as [|? ? [Hu [Hmin Hmax]] Hok']; subst.
    destruct (Z.eqb_spec (Z.of_N (blen (c :: cs))) 0); [rewrite blen_cons in *; lia|].
    rewrite <- ?app_assoc.
    rewrite dbind_varint, !dbind_uvarint by (exact Hmin || exact Hu || apply to_u64_ok). unfold dret.
    rewrite (delta_restore (cm_min c) (cm_max c) Hmax).
    replace (Z.of_N (blen (c :: cs)) - 1)%Z with (Z.of_nat (length cs)) by (unfold blen; simpl length; lia).
    rewrite <- (app_nil_r (enc_chunks_rest _ _ cs)).
    rewrite (dec_chunks_rest_enc cs _ (cm_max c) (to_i64 (cm_ref c)) [] Hok' (to_i64_range _)).
    + cbn [rbind]. rewrite (to_u64_to_i64 _ Hu). destruct c; reflexivity.
    + rewrite app_nil_r. pose proof (enc_chunks_rest_len cs (cm_max c) (to_i64 (cm_ref c))). lia.
Qed.

(* Decoder.Series on the bytes AddSeries put into buf2 *)
Lemma dec_series_enc ls lr cs :
  label_refs syms ls = Some lr ->
  Forall cmeta_ok cs -> blen ls < 9223372036854775808 -> blen cs < 9223372036854775808 ->
  dec_series (lookup_sym syms) (enc_series_content lr cs) = ROk (ls, cs).
Proof.
  intros Hlr Hok Hl Hc. unfold dec_series, enc_series_content.
  pose proof (label_refs_length syms ls lr Hlr) as Hlen.
  rewrite d_uvarint_int_put by (unfold blen in *; rewrite Hlen; exact Hl).
  replace (Z.of_N (blen lr)) with (Z.of_nat (length ls)) by (unfold blen; rewrite Hlen; lia).
  rewrite (dec_labels_enc ls lr _ (enc_chunks cs) Hlr)
    by (pose proof (enc_label_refs_len lr); rewrite app_length; lia).
  cbn [rbind]. rewrite (dec_chunks_enc cs Hok Hc). reflexivity.
Qed.
End SeriesRT.

(* ================================================================ frames with a BE32 length (NewDecbufAt) *)
Section BE32Frame.
Variable crc : list N -> N.
Hypothesis crc_range : forall l, crc l < 4294967296.

Lemma put_be32_blen x : blen (put_be32 x) = 4.
Proof. unfold blen, put_be32. rewrite be_enc_length. reflexivity. Qed.

Lemma decbuf_at_frame content p s :
  blen content < 4294967296 ->
  decbuf_at crc (p ++ frame_be32 crc content ++ s) (blen p) = ROk content.
Proof.
  intros Hl. unfold decbuf_at, frame_be32. rewrite <- !app_assoc.
  set (L := put_be32 (blen content)). set (C := put_be32 (crc content)).
  assert (HL : blen L = 4) by apply put_be32_blen.
  assert (HC : blen C = 4) by apply put_be32_blen.
  assert (Hlen : blen (p ++ L ++ content ++ C ++ s) = blen p + 4 + blen content + 4 + blen s)
    by (rewrite !blen_app, HL, HC; lia).
  rewrite Hlen.
  destruct (_ <? blen p + 4) eqn:E1; [apply N.ltb_lt in E1; lia|].
  pose proof (be32_at_mid p (content ++ C ++ s) (blen content) Hl) as HB. fold L in HB. rewrite HB.
  destruct (_ <? blen p + 4 + blen content + 4) eqn:E2; [apply N.ltb_lt in E2; lia|].
  rewrite <- HL, sub_mid_add.
  replace (p ++ L ++ content ++ C ++ s) with ((p ++ L ++ content) ++ C ++ s) by (rewrite <- !app_assoc; reflexivity).
  replace (blen p + blen L + blen content) with (blen (p ++ L ++ content)) by (rewrite !blen_app; lia).
  unfold C. rewrite be32_at_mid, N.eqb_refl by apply crc_range. reflexivity.
Qed.
End BE32Frame.

(* ================================================================ postings *)
Lemma flat_map_be32_blen refs : blen (flat_map put_be32 refs) = 4 * blen refs.
Proof.
  induction refs as [|r refs IH]; [reflexivity|].
  cbn [flat_map]. rewrite blen_app, blen_cons, IH.
  unfold blen, put_be32. rewrite be_enc_length. lia.
Qed.

Lemma dec_postings_enc refs :
  Forall (fun r => r < 4294967296) refs -> blen refs < 4294967296 ->
  dec_postings (enc_postings_content refs) = ROk refs.
Proof.
  intros H Hl. unfold dec_postings, enc_postings_content.
  rewrite d_be32_put by exact Hl.
  rewrite flat_map_be32_blen, N.eqb_refl. cbn [negb].
  unfold blen. rewrite Nnat.Nat2N.id.
  rewrite <- (app_nil_r (flat_map put_be32 refs)).
  rewrite (drepeat_flat_map d_be32 put_be32 _ d_be32_put refs [] H). reflexivity.
Qed.

(* ================================================================ symbols *)
Definition bs_lt (a b : list N) : Prop := bs_ltb a b = true.

Lemma bs_ltb_irrefl a : bs_ltb a a = false.
Proof. induction a as [|x a IH]; simpl; auto. rewrite N.ltb_irrefl. exact IH. Qed.

Lemma bs_ltb_cons x a y b : bs_ltb (x :: a) (y :: b) = true <-> x < y \/ (x = y /\ bs_ltb a b = true).
Proof.
  cbn [bs_ltb]. destruct (N.ltb_spec x y); [intuition|]. destruct (N.ltb_spec y x).
  - split; [discriminate|lia].
  - split; [intros E; right; split; [lia|exact E] | intros [?|[_ E]]; [lia|exact E]].
Qed.

Lemma bs_ltb_trans : forall a b c, bs_ltb a b = true -> bs_ltb b c = true -> bs_ltb a c = true.
Proof.
  induction a as [|x a IH]; intros [|y b] [|z c] H1 H2; try discriminate; [reflexivity|].
  rewrite bs_ltb_cons in *. destruct H1 as [H1|[-> H1]], H2 as [H2|[-> H2]]; [left; lia..|].
  right. split; [reflexivity | exact (IH b c H1 H2)].
Qed.

Lemma symbols_sortedb_sorted : forall l last,
  symbols_sortedb last l = true ->
  StronglySorted bs_lt l /\ (forall p, last = Some p -> Forall (bs_lt p) l).
Proof.
  induction l as [|s l IH]; intros last H.
  - split; [constructor|intros; constructor].
  - cbn [symbols_sortedb] in H. apply andb_true_iff in H as [H1 H2].
    destruct (IH (Some s) H2) as [Hs Hf]. specialize (Hf s eq_refl).
    split.
    + constructor; assumption.
    + intros p ->. constructor; [exact H1|].
      eapply Forall_impl; [|exact Hf]. intros a Ha. unfold bs_lt in *. eapply bs_ltb_trans; eauto.
Qed.

Lemma strongly_sorted_nodup l : StronglySorted bs_lt l -> NoDup l.
Proof.
  induction 1 as [|a l Hs IH Hf]; constructor; auto.
  intro Hin. rewrite Forall_forall in Hf. specialize (Hf a Hin). unfold bs_lt in Hf.
  rewrite bs_ltb_irrefl in Hf. discriminate.
Qed.

Lemma dec_symbols_loop_enc : forall l fuel rest,
  Forall (fun s => blen s < 9223372036854775808) l -> (length l <= fuel)%nat ->
  dec_symbols_loop fuel (blen l) (flat_map put_uvarint_bytes l ++ rest) = ROk l.
Proof.
  induction l as [|s l IH]; intros fuel rest H Hf.
  - destruct fuel; reflexivity.
  - inversion H as [|? ? Hs H']; subst.
    destruct fuel as [|f]; [simpl in Hf; lia|].
    cbn [dec_symbols_loop]. rewrite blen_cons.
    destruct (1 + blen l =? 0) eqn:E; [apply N.eqb_eq in E; lia|].
    cbn [flat_map]. rewrite <- app_assoc.
    rewrite d_uvarint_bytes_put by exact Hs.
    replace (1 + blen l - 1) with (blen l) by lia.
    rewrite (IH f rest H') by (simpl in Hf; lia). reflexivity.
Qed.

Lemma dec_symbols_enc l :
  Forall (fun s => blen s < 9223372036854775808) l -> blen l < 4294967296 ->
  dec_symbols (enc_symbols_content l) = ROk l.
Proof.
  intros H Hl. unfold dec_symbols, enc_symbols_content.
  rewrite d_be32_put by exact Hl.
  rewrite <- (app_nil_r (flat_map put_uvarint_bytes l)).
  apply dec_symbols_loop_enc; [exact H|].
  rewrite app_nil_r. pose proof (flat_map_len_le _ l put_uvarint_bytes_nonempty). lia.
Qed.

(* ================================================================ the property theorems *)
Section Main.
Variable crc : list N -> N.
Hypothesis crc_range : forall l, crc l < 4294967296.

Theorem chunk_record_roundtrip enc data pre suf :
  valid_enc enc = true -> blen data < two35 ->
  chunk_at crc (pre ++ enc_chunk_record crc enc data ++ suf) (blen pre) = ROk (enc, data).
Proof.
  intros Hv Hl. destruct (blen_cons_pred enc data) as [H1 Hd].
  rewrite chunk_at_framed, enc_chunk_record_frame, (framed_at_frame crc crc_range 1 (enc :: data) pre suf), Hv
    by (exact H1 || (rewrite Hd; exact Hl)).
  reflexivity.
Qed.

Theorem series_entry_roundtrip syms ls cs entry pre suf id :
  blen syms <= 4294967296 ->
  enc_series_entry crc syms ls cs = Some entry ->
  Forall cmeta_ok cs ->
  blen entry < two35 ->
  blen pre = id * 16 ->
  series_at crc syms (pre ++ entry ++ suf) id = ROk (ls, cs).
Proof.
  intros Hs He Hok Hl Hp. unfold enc_series_entry in He.
  destruct (label_refs syms ls) as [lr|] eqn:Elr; [|discriminate]. inversion He; subst entry. clear He.
  unfold series_at. rewrite <- Hp. rewrite decbuf_uvarint_at_framed, frame_uvarint_frame.
  set (content := enc_series_content lr cs) in *.
  assert (Hc : blen content < two35).
  { rewrite frame_uvarint_frame in Hl. unfold frame in Hl. rewrite !blen_app in Hl. lia. }
  rewrite (framed_at_frame crc crc_range 0 content pre suf) by (rewrite ?N.sub_0_r; [lia|exact Hc] || lia).
  cbn [rbind]. unfold content.
  pose proof (label_refs_length syms ls lr Elr) as Hlr.
  destruct (enc_series_content_len lr cs) as [Hb1 Hb2]. unfold content in Hc.
  unfold two35 in Hc.
  apply dec_series_enc; try assumption; unfold blen in *; [rewrite <- Hlr|]; clear - Hb1 Hb2 Hc; lia.
Qed.

Theorem postings_roundtrip refs pre suf :
  Forall (fun r => r < 4294967296) refs -> 4 + 4 * blen refs < 4294967296 ->
  postings_at crc (pre ++ enc_postings crc refs ++ suf) (blen pre) = ROk refs.
Proof.
  intros H Hl. unfold postings_at, enc_postings.
  rewrite (decbuf_at_frame crc crc_range).
  - cbn [rbind]. apply dec_postings_enc; [exact H|lia].
  - unfold enc_postings_content. rewrite blen_app, flat_map_be32_blen, put_be32_blen. exact Hl.
Qed.

Theorem symbols_roundtrip l bs pre suf :
  enc_symbols crc l = Some bs ->
  Forall (fun s => blen s < 9223372036854775808) l ->
  blen l < 4294967296 -> blen (enc_symbols_content l) < 4294967296 ->
  read_symbols crc (pre ++ bs ++ suf) (blen pre) = ROk l.
Proof.
  intros He Hs Hl Hc. unfold enc_symbols in He.
  destruct (symbols_sortedb None l); [|discriminate]. inversion He; subst bs.
  unfold read_symbols. rewrite (decbuf_at_frame crc crc_range) by exact Hc.
  cbn [rbind]. apply dec_symbols_enc; assumption.
Qed.

Theorem symbols_sorted_unique l bs :
  enc_symbols crc l = Some bs -> StronglySorted bs_lt l /\ NoDup l.
Proof.
  intros He. unfold enc_symbols in He.
  destruct (symbols_sortedb None l) eqn:E; [|discriminate].
  destruct (symbols_sortedb_sorted l None E) as [Hs _].
  split; [exact Hs | apply strongly_sorted_nodup; exact Hs].
Qed.

(* ---- corruption *)
Hypothesis crc_detects : forall l pos b,
  bytes_ok l -> b < 256 -> (pos < length l)%nat -> nth pos l 0 <> b -> crc (alter pos b l) <> crc l.

Theorem chunk_corruption_detected enc data pre suf pos b :
  blen data < two35 -> bytes_ok (enc :: data) -> b < 256 ->
  let rec := enc_chunk_record crc enc data in
  (length (put_uvarint (blen data)) <= pos < length rec)%nat ->       (* enc, data and crc bytes *)
  nth pos rec 0 <> b ->
  chunk_at crc (alter (length pre + pos) b (pre ++ rec ++ suf)) (blen pre) = RErr RCrc.
Proof.
  intros Hl Hok Hb rec Hpos Hne. destruct (blen_cons_pred enc data) as [H1 Hd].
  rewrite chunk_at_framed. unfold rec in *. rewrite enc_chunk_record_frame in *.
  rewrite (framed_at_alter crc crc_range crc_detects 1 (enc :: data) pre suf pos b);
    [reflexivity | rewrite ?Hd; assumption ..].
Qed.

Theorem series_corruption_detected syms content pre suf id pos b :
  blen content < two35 -> bytes_ok content -> b < 256 ->
  blen pre = id * 16 ->
  let rec := frame_uvarint crc content in
  (length (put_uvarint (blen content)) <= pos < length rec)%nat ->    (* content and crc bytes *)
  nth pos rec 0 <> b ->
  series_at crc syms (alter (length pre + pos) b (pre ++ rec ++ suf)) id = RErr RCrc.
Proof.
  intros Hl Hok Hb Hp rec Hpos Hne. unfold series_at. rewrite <- Hp.
  rewrite decbuf_uvarint_at_framed. unfold rec in *. rewrite frame_uvarint_frame in *.
  rewrite (framed_at_alter crc crc_range crc_detects 0 content pre suf pos b);
    [reflexivity | rewrite ?N.sub_0_r; (assumption || lia) ..].
Qed.
End Main.

(* ================================================================ non-vacuity of the checksum hypotheses *)
(* a checksum that provably satisfies both Section hypotheses (range, detects every single byte
   alteration): the byte sum modulo 2^32.  CRC-32C satisfies them too (it detects every burst
   of at most 32 bits) but that fact is an oracle assumption, not proved here. *)
Definition bsum (l : list N) : N := fold_right N.add 0 l.
Definition sum32 (l : list N) : N := bsum l mod 4294967296.

Lemma sum32_range l : sum32 l < 4294967296.
Proof. unfold sum32. apply N.mod_lt. discriminate. Qed.

Lemma bsum_alter : forall l pos b, (pos < length l)%nat -> bsum (alter pos b l) + nth pos l 0 = bsum l + b.
Proof.
  induction l as [|x l IH]; intros pos b H; [simpl in H; lia|].
  destruct pos as [|pos]; cbn [alter bsum fold_right nth].
  - fold (bsum l). lia.
  - fold (bsum l). fold (bsum (alter pos b l)). specialize (IH pos b ltac:(simpl in H; lia)). lia.
Qed.

Lemma sum32_detects l pos b :
  bytes_ok l -> b < 256 -> (pos < length l)%nat -> nth pos l 0 <> b -> sum32 (alter pos b l) <> sum32 l.
Proof.
  intros Hl Hb Hp Hne. unfold sum32.
  pose proof (bsum_alter l pos b Hp) as E.
  assert (Ho : nth pos l 0 < 256).
  { unfold bytes_ok in Hl. rewrite Forall_forall in Hl. apply Hl. apply nth_In. exact Hp. }
  set (o := nth pos l 0) in *. set (s' := bsum (alter pos b l)) in *. set (s := bsum l) in *.
  intro Heq.
  pose proof (N.div_mod s' 4294967296 ltac:(discriminate)) as D1.
  pose proof (N.div_mod s 4294967296 ltac:(discriminate)) as D2.
  pose proof (N.mod_lt s 4294967296 ltac:(discriminate)) as M2.
  rewrite Heq in D1. nia.
Qed.

(* ================================================================ the length prefix *)
(* the value of a uvarint without shift and accumulator *)
Fixpoint uvv (n : nat) (bs : list N) : option (N * list N) :=
  match n with
  | O => None
  | S n' =>
      match bs with
      | [] => None
      | b :: r =>
          if b <? 128 then (if Nat.eqb n' 0 && (1 <? b) then None else Some (b, r))
          else match uvv n' r with Some (v, r') => Some ((b - 128) + 128 * v, r') | None => None end
      end
  end.

Lemma uv_dec_aux_uvv : forall n s acc w,
  uv_dec_aux n s acc w = match uvv n w with Some (v, r) => Some (acc + v * 2 ^ s, r) | None => None end.
Proof.
  induction n as [|n IH]; intros s acc w; [reflexivity|].
  destruct w as [|b r]; [reflexivity|]. cbn [uv_dec_aux uvv].
  destruct (b <? 128) eqn:E.
  - destruct (Nat.eqb n 0 && (1 <? b)); reflexivity.
  - rewrite IH. destruct (uvv n r) as [[v r']|]; [|reflexivity].
    f_equal. f_equal. rewrite N.pow_add_r. change (2 ^ 7) with 128. lia.
Qed.

Lemma uvv_len : forall n w v r, uvv n w = Some (v, r) -> (length r < length w)%nat.
Proof.
  induction n as [|n IH]; intros w v r H; [discriminate|].
  destruct w as [|b t]; [discriminate|]. cbn [uvv] in H.
  destruct (b <? 128).
  - destruct (Nat.eqb n 0 && (1 <? b)); [discriminate|]. inversion H; subst. simpl. lia.
  - destruct (uvv n t) as [[v' r']|] eqn:E; [|discriminate]. inversion H; subst.
    specialize (IH _ _ _ E). simpl. lia.
Qed.

(* what is decoded from a window is decoded from any extension of it *)
Lemma uvv_app : forall n w t v r, uvv n w = Some (v, r) -> uvv n (w ++ t) = Some (v, r ++ t).
Proof.
  induction n as [|n IH]; intros [|b w] t v r H; try discriminate H. cbn [uvv app] in *.
  destruct (b <? 128).
  - destruct (Nat.eqb n 0 && (1 <? b)); [discriminate|]. injection H as <- <-. reflexivity.
  - destruct (uvv n w) as [[v' r']|] eqn:E; [|discriminate]. rewrite (IH _ t _ _ E).
    injection H as <- <-. reflexivity.
Qed.

(* same value and same number of consumed bytes => same consumed bytes *)
Lemma uvv_inj : forall n w1 w2 v r1 r2 pos,
  bytes_ok w1 -> bytes_ok w2 ->
  uvv n w1 = Some (v, r1) -> uvv n w2 = Some (v, r2) ->
  (length w1 - length r1 = length w2 - length r2)%nat -> (pos < length w1 - length r1)%nat ->
  nth pos w1 0 = nth pos w2 0.
Proof.
  induction n as [|n IH]; intros w1 w2 v r1 r2 pos H1 H2 E1 E2 Hk Hp; [discriminate|].
  destruct w1 as [|b1 t1]; [discriminate|]. destruct w2 as [|b2 t2]; [discriminate|].
  inversion H1 as [|? ? Hb1 H1']; subst. inversion H2 as [|? ? Hb2 H2']; subst.
  unfold byte_ok in *. cbn [uvv] in E1, E2. cbn [length] in Hk, Hp.
  destruct (N.ltb_spec b1 128) as [L1|L1], (N.ltb_spec b2 128) as [L2|L2].
  - destruct (Nat.eqb n 0 && (1 <? b1)); [discriminate|].
    destruct (Nat.eqb n 0 && (1 <? b2)); [discriminate|].
    injection E1 as <- <-. injection E2 as -> _. destruct pos; [reflexivity|lia].
  - destruct (Nat.eqb n 0 && (1 <? b1)); [discriminate|]. injection E1 as <- <-.
    destruct (uvv n t2) as [[v2 r2']|] eqn:U2; [|discriminate]. injection E2 as _ <-.
    pose proof (uvv_len _ _ _ _ U2). lia.
  - destruct (Nat.eqb n 0 && (1 <? b2)); [discriminate|]. injection E2 as <- <-.
    destruct (uvv n t1) as [[v1 r1']|] eqn:U1; [|discriminate]. injection E1 as _ <-.
    pose proof (uvv_len _ _ _ _ U1). lia.
  - destruct (uvv n t1) as [[v1 r1']|] eqn:U1; [|discriminate].
    destruct (uvv n t2) as [[v2 r2']|] eqn:U2; [|discriminate].
    assert (A1 : b1 - 128 + 128 * v1 = v) by congruence. assert (B1 : b2 - 128 + 128 * v2 = v) by congruence.
    assert (r1' = r1) by congruence. assert (r2' = r2) by congruence. subst r1' r2'. clear E1 E2.
    destruct (N.div_mod_unique 128 v1 v2 (b1 - 128) (b2 - 128)) as [-> Hb]; [lia..|].
    assert (b1 = b2) as -> by lia.
    pose proof (uvv_len _ _ _ _ U1). pose proof (uvv_len _ _ _ _ U2).
    destruct pos as [|pos]; [reflexivity|]. cbn [nth].
    apply (IH t1 t2 v2 r1 r2 pos H1' H2' U1 U2); lia.
Qed.

Lemma nth_alter_same : forall l pos b, (pos < length l)%nat -> nth pos (alter pos b l) 0 = b.
Proof.
  induction l as [|x l IH]; intros pos b H; [simpl in H; lia|].
  destruct pos; simpl; auto. apply IH. simpl in H. lia.
Qed.

Lemma get_uvarint_app w t x r : get_uvarint w = Some (x, r) -> get_uvarint (w ++ t) = Some (x, r ++ t).
Proof.
  unfold get_uvarint. rewrite !uv_dec_aux_uvv. destruct (uvv 10 w) as [[v r0]|] eqn:U; [|discriminate].
  rewrite (uvv_app _ _ t _ _ U). intros E. injection E as <- <-. reflexivity.
Qed.

Lemma get_uvarint_len w x r : get_uvarint w = Some (x, r) -> (length r < length w)%nat.
Proof.
  unfold get_uvarint. rewrite uv_dec_aux_uvv. destruct (uvv 10 w) as [[v r0]|] eqn:U; [|discriminate].
  intros E. injection E as _ <-. exact (uvv_len _ _ _ _ U).
Qed.

(* altering a consumed byte changes the decoded value or the number of consumed bytes *)
Lemma get_uvarint_alter w x r pos b x' r' :
  bytes_ok w -> b < 256 -> get_uvarint w = Some (x, r) -> (pos < length w - length r)%nat ->
  nth pos w 0 <> b -> get_uvarint (alter pos b w) = Some (x', r') ->
  x' = x -> length r' <> length r.
Proof.
  unfold get_uvarint. rewrite !uv_dec_aux_uvv. intros Hw Hb E Hp Hne E' -> Hr.
  destruct (uvv 10 w) as [[v1 r1]|] eqn:U1; [|discriminate].
  destruct (uvv 10 (alter pos b w)) as [[v2 r2]|] eqn:U2; [|discriminate].
  injection E as E1 ->. injection E' as E2 ->. change (2 ^ 0) with 1 in *.
  assert (v2 = v1) by lia. subst v2. apply Hne.
  rewrite (uvv_inj 10 w (alter pos b w) v1 r r' pos Hw (alter_bytes_ok pos b w Hw Hb) U1 U2)
    by (rewrite ?alter_length; lia).
  apply nth_alter_same. lia.
Qed.

Section Prefix.
Variable crc : list N -> N.

(* Altering a byte of the length prefix: whatever the reader then returns as data comes from a
   DIFFERENT record extent (another length or another start) — it never re-reads the original
   extent.  (That the checksum over the other extent then matches the four bytes behind it is a
   2^-32 coincidence which no single-byte property of the CRC excludes; hence `_partial`.) *)
Lemma framed_at_alter_prefix extra body p s pos b d :
  extra <= blen body -> blen body - extra < two35 -> bytes_ok body -> bytes_ok s -> b < 256 ->
  let pre := put_uvarint (blen body - extra) in
  (pos < length pre)%nat -> nth pos pre 0 <> b ->
  let file' := alter (length p + pos) b (p ++ frame crc extra body ++ s) in
  framed_at crc extra file' (blen p) = ROk d ->
  exists l' n', uvarint5 file' (blen p) = Some (l', n') /\ (l', n') <> (blen body - extra, blen pre).
Proof.
  intros He Hl Hbody Hs Hb pre Hpos Hne file' Hd.
  unfold framed_at in Hd.
  destruct (N.ltb_spec (blen file') (blen p + 5)) as [|E5]; [discriminate|].
  destruct (uvarint5 file' (blen p)) as [[l' n']|] eqn:EU; [|discriminate].
  exists l', n'. split; [reflexivity|]. intro Heq. injection Heq as -> ->. clear Hd.
  set (rest := body ++ put_be32 (crc body) ++ s).
  assert (Hf' : file' = p ++ alter pos b (pre ++ rest)).
  { unfold file', frame, rest. fold pre. rewrite <- !app_assoc. apply alter_app_r. }
  assert (Hok : bytes_ok (pre ++ rest)).
  { unfold bytes_ok, rest. rewrite !Forall_app. repeat split;
      [apply put_uvarint_bytes_ok | exact Hbody | apply be_enc_bytes_ok | exact Hs]. }
  assert (Hlen5 : (5 <= length (pre ++ rest))%nat).
  { rewrite Hf' in E5. unfold blen in E5. rewrite app_length, alter_length in E5. lia. }
  (* the reader's 5 byte window, and the same decoding on everything behind the prefix *)
  unfold uvarint5, sub in EU. rewrite Hf', skipn_blen_app in EU. change (N.to_nat 5) with 5%nat in EU.
  destruct (get_uvarint (firstn 5 (alter pos b (pre ++ rest)))) as [[x r']|] eqn:EW; [|discriminate].
  assert (x = blen body - extra) as -> by congruence. assert (Hn : 5 - blen r' = blen pre) by congruence.
  clear EU.
  pose proof (get_uvarint_len _ _ _ EW) as Hr'. rewrite firstn_length in Hr'.
  apply (get_uvarint_app _ (skipn 5 (alter pos b (pre ++ rest)))) in EW. rewrite firstn_skipn in EW.
  refine (get_uvarint_alter (pre ++ rest) _ rest pos b _ _ Hok Hb _ _ _ EW eq_refl _).
  - apply get_put_uvarint. unfold u64_ok, two64N, two35 in *. lia.
  - rewrite app_length. lia.
  - rewrite app_nth1 by exact Hpos. exact Hne.
  - rewrite app_length, skipn_length, alter_length, app_length in *. unfold blen in Hn. lia.
Qed.
End Prefix.

Section PrefixMain.
Variable crc : list N -> N.

Theorem chunk_length_prefix_partial enc data pre suf pos b r :
  blen data < two35 -> bytes_ok (enc :: data) -> bytes_ok suf -> b < 256 ->
  (pos < length (put_uvarint (blen data)))%nat -> nth pos (put_uvarint (blen data)) 0 <> b ->
  let file' := alter (length pre + pos) b (pre ++ enc_chunk_record crc enc data ++ suf) in
  chunk_at crc file' (blen pre) = ROk r ->
  exists l' n', uvarint5 file' (blen pre) = Some (l', n') /\
                (l', n') <> (blen data, blen (put_uvarint (blen data))).
Proof.
  intros Hl Hok Hs Hb Hpos Hne file' Hr. unfold file' in *. clear file'.
  rewrite chunk_at_framed in Hr.
  rewrite enc_chunk_record_frame in *.
  match type of Hr with context [framed_at crc 1 ?f (blen pre)] =>
    destruct (framed_at crc 1 f (blen pre)) as [d|e] eqn:E end; [|discriminate].
  destruct (blen_cons_pred enc data) as [H1 Hd].
  pose proof (framed_at_alter_prefix crc 1 (enc :: data) pre suf pos b d) as P.
  cbv zeta in P. rewrite Hd in P. apply P; assumption.
Qed.

Theorem series_length_prefix_partial syms content pre suf id pos b r :
  blen content < two35 -> bytes_ok content -> bytes_ok suf -> b < 256 ->
  blen pre = id * 16 ->
  (pos < length (put_uvarint (blen content)))%nat -> nth pos (put_uvarint (blen content)) 0 <> b ->
  let file' := alter (length pre + pos) b (pre ++ frame_uvarint crc content ++ suf) in
  series_at crc syms file' id = ROk r ->
  exists l' n', uvarint5 file' (blen pre) = Some (l', n') /\
                (l', n') <> (blen content, blen (put_uvarint (blen content))).
Proof.
  intros Hl Hok Hs Hb Hp Hpos Hne file' Hr. unfold file' in *. clear file'.
  unfold series_at in Hr. rewrite <- Hp in Hr. rewrite decbuf_uvarint_at_framed in Hr.
  rewrite frame_uvarint_frame in *.
  match type of Hr with context [framed_at crc 0 ?f (blen pre)] =>
    destruct (framed_at crc 0 f (blen pre)) as [d|e] eqn:E end; [|discriminate].
  pose proof (framed_at_alter_prefix crc 0 content pre suf pos b d) as P.
  cbv zeta in P. rewrite N.sub_0_r in P. apply P; (assumption || lia).
Qed.
End PrefixMain.

(* ================================================================ LabelNamesFor and failing postings *)
(* index.Reader.LabelNamesFor never calls postings.Err(): whether the iterator stopped because it
   was exhausted or because it failed makes no difference to the answer *)
Theorem label_names_for_ignores_failure crc r ids e :
  label_names_for crc r ids (Some e) = label_names_for crc r ids None.
Proof. reflexivity. Qed.

(* so the statement "a failed postings iterator makes LabelNamesFor report an error" is false:
   an iterator that fails before delivering anything yields the empty list of names *)
Theorem label_names_for_refuted :
  exists crc r ids e res, label_names_for crc r ids (Some e) = ROk res.
Proof.
  exists (fun _ => 0), (mkIR [] (mkTOC 0 0 0 0 0 0) [] []), [], RCrc, []. reflexivity.
Qed.
