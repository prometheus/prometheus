(* proof/LimitRatioProofs.v — lemmas about model/LimitRatio.v (C34).
   Float reasoning goes through Flocq's bridge between Coq's primitive floats and its
   IEEE-754 formalisation (Flocq.IEEE754.PrimFloat: Prim2B, add_equiv, sub_equiv, ltb_equiv, ...),
   which rests on the standard library's FloatAxioms; real-number arithmetic by lra. *)
From Coq Require Import ZArith Reals Floats Bool List Lia Lra.
From Flocq Require Import Core BinarySingleNaN PrimFloat Plus_error Sterbenz.
From Verif Require Import model.LimitRatio.
Import ListNotations.
Local Open Scope R_scope.

Notation pfloat := PrimFloat.float.
#[local] Existing Instance Flocq.IEEE754.PrimFloat.Hprec.
#[local] Existing Instance Flocq.IEEE754.PrimFloat.Hmax.
Notation bf := (binary_float prec emax).
Notation pnan := PrimFloat.is_nan.
Notation bnan x := (BinarySingleNaN.is_nan (Prim2B x)).
Notation top := (bpow radix2 emax).
Notation rnd := (round radix2 (fexp prec emax) (round_mode mode_NE)).
Notation format := (generic_format radix2 (fexp prec emax)).

Definition RR (x : pfloat) : R := B2R (Prim2B x).
Definition fin (x : pfloat) : Prop := is_finite (Prim2B x) = true.

Lemma Rlt_bool_iff a b : Rlt_bool a b = true <-> a < b.
Proof. case Rlt_bool_spec; split; intros; try lra; try discriminate; auto. Qed.
Lemma Rle_bool_iff a b : Rle_bool a b = true <-> a <= b.
Proof. case Rle_bool_spec; split; intros; try lra; try discriminate; auto. Qed.
Lemma Req_bool_iff a b : Req_bool a b = true <-> a = b.
Proof. case Req_bool_spec; split; intros; try lra; try discriminate; auto. Qed.

(* ---------- the order of binary64 in real numbers ----------
   Comparison of two floats that are not NaN is comparison of their images under [ext], which
   sends the infinities beyond every finite value; a comparison with a NaN is false.  All order
   reasoning below (NaN and infinities included) is real arithmetic through these lemmas.
   They test for NaN on the Flocq side ([bnan]): relating it to PrimFloat.is_nan ([is_nan_equiv])
   costs the axiom FloatAxioms.eqb_spec, which facts about < and <= alone (monotone) do without. *)
Definition Bext (x : bf) : R :=
  match x with
  | B754_infinity s => if s then - top else top
  | _ => B2R x
  end.
Definition ext (x : pfloat) : R := Bext (Prim2B x).

Lemma Bcompare_ext (x y : bf) :
  Bcompare x y = if BinarySingleNaN.is_nan x || BinarySingleNaN.is_nan y then None
                 else Some (Rcompare (Bext x) (Bext y)).
Proof.
  pose proof (abs_B2R_lt_emax _ _ x) as Hx. apply Rabs_lt_inv in Hx.
  pose proof (abs_B2R_lt_emax _ _ y) as Hy. apply Rabs_lt_inv in Hy.
  destruct x as [sx|[|]| |sx mx ex Bx], y as [sy|[|]| |sy my ey By];
    try (apply Bcompare_correct; reflexivity);
    cbn [Bcompare B2SF SFcompare BinarySingleNaN.is_nan orb Bext B2R] in *; try reflexivity;
    f_equal; case Rcompare_spec; intro; (reflexivity || exfalso; lra).
Qed.

Lemma ltb_ext x y : PrimFloat.ltb x y = negb (bnan x || bnan y) && Rlt_bool (ext x) (ext y).
Proof.
  rewrite ltb_equiv.
  change (Bltb (Prim2B x) (Prim2B y))
    with (match Bcompare (Prim2B x) (Prim2B y) with Some Lt => true | _ => false end).
  rewrite Bcompare_ext. now destruct (_ || _).
Qed.
Lemma leb_ext x y : PrimFloat.leb x y = negb (bnan x || bnan y) && Rle_bool (ext x) (ext y).
Proof.
  rewrite leb_equiv.
  change (Bleb (Prim2B x) (Prim2B y))
    with (match Bcompare (Prim2B x) (Prim2B y) with Some (Lt | Eq) => true | _ => false end).
  rewrite Bcompare_ext. now destruct (_ || _).
Qed.
Lemma eqb_ext x y : PrimFloat.eqb x y = negb (bnan x || bnan y) && Req_bool (ext x) (ext y).
Proof.
  rewrite eqb_equiv.
  change (Beqb (Prim2B x) (Prim2B y))
    with (match Bcompare (Prim2B x) (Prim2B y) with Some Eq => true | _ => false end).
  rewrite Bcompare_ext. now destruct (_ || _).
Qed.

Lemma ltb_iff x y : PrimFloat.ltb x y = true <-> bnan x = false /\ bnan y = false /\ ext x < ext y.
Proof. rewrite ltb_ext, andb_true_iff, negb_true_iff, orb_false_iff, Rlt_bool_iff. tauto. Qed.
Lemma leb_iff x y : PrimFloat.leb x y = true <-> bnan x = false /\ bnan y = false /\ ext x <= ext y.
Proof. rewrite leb_ext, andb_true_iff, negb_true_iff, orb_false_iff, Rle_bool_iff. tauto. Qed.
Lemma eqb_iff x y : PrimFloat.eqb x y = true <-> bnan x = false /\ bnan y = false /\ ext x = ext y.
Proof. rewrite eqb_ext, andb_true_iff, negb_true_iff, orb_false_iff, Req_bool_iff. tauto. Qed.

Lemma ext_fin x : fin x -> ext x = RR x.
Proof. unfold fin, ext, RR. now destruct (Prim2B x). Qed.
Lemma fin_not_nan x : fin x -> bnan x = false.
Proof. unfold fin. now destruct (Prim2B x). Qed.
Lemma fin_pnan x : fin x -> pnan x = false.
Proof. rewrite is_nan_equiv. apply fin_not_nan. Qed.
Lemma RR_lt_top x : - top < RR x < top.
Proof. apply Rabs_lt_inv, abs_B2R_lt_emax. Qed.
Lemma fin_of_ext x : bnan x = false -> - top < ext x < top -> fin x.
Proof.
  unfold fin, ext.
  destruct (Prim2B x) as [s|[|]| |s m e B]; cbn [BinarySingleNaN.is_nan is_finite Bext];
    intros; (reflexivity || discriminate || lra).
Qed.

Lemma P2B_zero : Prim2B zero = B754_zero false.
Proof. rewrite zero_equiv. apply Prim2B_B2Prim. Qed.
Lemma P2B_one : Prim2B one = Bone.
Proof. rewrite one_equiv. apply Prim2B_B2Prim. Qed.
Lemma P2B_inf : Prim2B infinity = B754_infinity false.
Proof. rewrite infinity_equiv. apply Prim2B_B2Prim. Qed.
Lemma P2B_ninf : Prim2B neg_infinity = B754_infinity true.
Proof. rewrite neg_infinity_equiv. apply Prim2B_B2Prim. Qed.
Lemma RR_zero : RR zero = 0.
Proof. unfold RR. rewrite P2B_zero. reflexivity. Qed.
Lemma RR_one : RR one = 1.
Proof. unfold RR. rewrite P2B_one. apply Bone_correct. Qed.
Lemma fin_zero : fin zero.
Proof. unfold fin. rewrite P2B_zero. reflexivity. Qed.
Lemma fin_one : fin one.
Proof. unfold fin. rewrite P2B_one. apply is_finite_Bone. Qed.
Lemma ext_zero : ext zero = 0.
Proof. rewrite (ext_fin _ fin_zero). apply RR_zero. Qed.
Lemma ext_inf : ext infinity = top.
Proof. unfold ext. now rewrite P2B_inf. Qed.
Lemma ext_ninf : ext neg_infinity = - top.
Proof. unfold ext. now rewrite P2B_ninf. Qed.
Lemma ext_bounds x : - top <= ext x <= top.
Proof.
  unfold ext. pose proof (abs_B2R_lt_emax _ _ (Prim2B x)) as H. apply Rabs_lt_inv in H.
  destruct (Prim2B x) as [s|[|]| |s m e B]; cbn [Bext B2R] in *; lra.
Qed.

Lemma ltb_R x y : fin x -> fin y -> PrimFloat.ltb x y = Rlt_bool (RR x) (RR y).
Proof. intros Hx Hy. rewrite ltb_equiv. now apply Bltb_correct. Qed.
Lemma leb_R x y : fin x -> fin y -> PrimFloat.leb x y = Rle_bool (RR x) (RR y).
Proof. intros Hx Hy. rewrite leb_equiv. now apply Bleb_correct. Qed.
Lemma eqb_R x y : fin x -> fin y -> PrimFloat.eqb x y = Req_bool (RR x) (RR y).
Proof. intros Hx Hy. rewrite eqb_equiv. now apply Beqb_correct. Qed.

Lemma between lo x hi :
  fin lo -> fin hi -> PrimFloat.leb lo x = true -> PrimFloat.leb x hi = true ->
  fin x /\ RR lo <= RR x <= RR hi.
Proof.
  intros Flo Fhi H1 H2. apply leb_iff in H1 as (_ & N & H1). apply leb_iff in H2 as (_ & _ & H2).
  rewrite (ext_fin lo Flo) in H1. rewrite (ext_fin hi Fhi) in H2.
  assert (F : fin x).
  { apply fin_of_ext; [exact N|]. pose proof (RR_lt_top lo). pose proof (RR_lt_top hi). lra. }
  rewrite (ext_fin x F) in H1, H2. auto.
Qed.

Lemma dom_r r :
  PrimFloat.leb zero r = true -> PrimFloat.leb r one = true -> fin r /\ 0 <= RR r <= 1.
Proof. rewrite <- RR_zero, <- RR_one. apply between; [apply fin_zero|apply fin_one]. Qed.

Lemma dom_off off :
  PrimFloat.leb zero off = true -> PrimFloat.ltb off one = true -> fin off /\ 0 <= RR off < 1.
Proof.
  intros H0 H1.
  assert (H1' : PrimFloat.leb off one = true).
  { apply leb_iff. apply ltb_iff in H1. intuition lra. }
  destruct (dom_r off H0 H1') as [F B]. rewrite (ltb_R off one F fin_one), RR_one in H1.
  apply Rlt_bool_iff in H1. split; [exact F|lra].
Qed.

Lemma ars_iff r off :
  add_ratio_sample r off = true <->
  (PrimFloat.leb zero r = true /\ PrimFloat.ltb off r = true) \/
  (PrimFloat.ltb r zero = true /\ PrimFloat.leb (PrimFloat.add one r) off = true).
Proof. unfold add_ratio_sample. now rewrite orb_true_iff, !andb_true_iff. Qed.

(* raising the ratio never deselects: for all binary64 values, NaN and infinities included *)
Lemma monotone r1 r2 off :
  PrimFloat.leb zero r1 = true -> PrimFloat.leb r1 r2 = true ->
  add_ratio_sample r1 off = true -> add_ratio_sample r2 off = true.
Proof.
  rewrite !ars_iff, !leb_iff, !ltb_iff, ext_zero. intros H0 H12 [Hs|Hs]; [left|exfalso]; intuition lra.
Qed.

Lemma format_RR x : format (RR x).
Proof. apply generic_format_B2R. Qed.
Lemma format_one : format 1.
Proof. rewrite <- RR_one. apply format_RR. Qed.
Lemma format_m1 : format (-1).
Proof. apply generic_format_opp. apply format_one. Qed.

Lemma rnd_bounds a lo hi : format lo -> format hi -> lo <= a <= hi -> lo <= rnd a <= hi.
Proof.
  intros Flo Fhi [H1 H2]. split.
  - rewrite <- (round_generic radix2 (fexp prec emax) (round_mode mode_NE) lo Flo).
    apply round_le; [typeclasses eauto .. | exact H1].
  - rewrite <- (round_generic radix2 (fexp prec emax) (round_mode mode_NE) hi Fhi).
    apply round_le; [typeclasses eauto .. | exact H2].
Qed.

Lemma small_no_overflow a : -1 <= a <= 1 -> Rlt_bool (Rabs (rnd a)) top = true.
Proof.
  intros Ha. apply Rlt_bool_true, Rabs_lt.
  pose proof (rnd_bounds a (-1) 1 format_m1 format_one Ha).
  assert (2 < top) by (change 2 with (bpow radix2 1); apply bpow_lt; reflexivity). lra.
Qed.

Lemma add_R x y :
  fin x -> fin y -> -1 <= RR x + RR y <= 1 ->
  fin (PrimFloat.add x y) /\ RR (PrimFloat.add x y) = rnd (RR x + RR y).
Proof.
  intros Fx Fy Hs. unfold fin, RR. rewrite add_equiv.
  generalize (Bplus_correct prec emax _ _ mode_NE (Prim2B x) (Prim2B y) Fx Fy).
  fold (RR x) (RR y). rewrite (small_no_overflow _ Hs). intros (H1 & H2 & _). auto.
Qed.

Lemma sub_R x y :
  fin x -> fin y -> -1 <= RR x - RR y <= 1 ->
  fin (PrimFloat.sub x y) /\ RR (PrimFloat.sub x y) = rnd (RR x - RR y).
Proof.
  intros Fx Fy Hs. unfold fin, RR. rewrite sub_equiv.
  generalize (Bminus_correct prec emax _ _ mode_NE (Prim2B x) (Prim2B y) Fx Fy).
  fold (RR x) (RR y). rewrite (small_no_overflow _ Hs). intros (H1 & H2 & _). auto.
Qed.

Lemma complement_R r :
  fin r -> 0 <= RR r <= 1 ->
  fin (complement r) /\ RR (complement r) = rnd (RR r - 1) /\ -1 <= RR (complement r) <= 0.
Proof.
  intros Hf Hr. destruct (sub_R r one Hf fin_one) as [F E]; rewrite RR_one in *; [lra|].
  fold (complement r) in F, E. rewrite E. split; [exact F|]. split; [reflexivity|].
  apply rnd_bounds; auto using format_m1, generic_format_0. lra.
Qed.

Lemma complement_neg r : fin r -> 0 <= RR r < 1 -> RR (complement r) < 0.
Proof.
  intros Hf Hr. destruct (complement_R r Hf) as (_ & E & B); [lra|].
  assert (Hn : rnd (RR r - 1) <> 0).
  { unfold Rminus. apply round_plus_neq_0; try typeclasses eauto.
    apply format_RR. apply format_m1. lra. }
  lra.
Qed.

Lemma boundary_R r :
  fin r -> 0 <= RR r <= 1 ->
  fin (complement_boundary r) /\
  RR (complement_boundary r) = rnd (1 + rnd (RR r - 1)) /\
  0 <= RR (complement_boundary r) <= 1.
Proof.
  intros Hf Hr. destruct (complement_R r Hf Hr) as (Fc & Ec & Bc).
  destruct (add_R one (complement r) fin_one Fc) as [F E]; rewrite RR_one in *; [lra|].
  fold (complement_boundary r) in F, E. rewrite E, <- Ec. split; [exact F|]. split; [reflexivity|].
  apply rnd_bounds; auto using format_one, generic_format_0. lra.
Qed.

Lemma ars_nonneg r off :
  fin r -> fin off -> 0 <= RR r ->
  add_ratio_sample r off = Rlt_bool (RR off) (RR r).
Proof.
  intros Hr Ho H0. unfold add_ratio_sample.
  rewrite (leb_R zero r fin_zero Hr), (ltb_R r zero Hr fin_zero), (ltb_R off r Ho Hr), RR_zero.
  rewrite (proj2 (Rle_bool_iff 0 (RR r)) H0). rewrite (Rlt_bool_false (RR r) 0) by lra.
  simpl. apply orb_false_r.
Qed.

Lemma ars_neg c off :
  fin c -> fin off -> fin (PrimFloat.add one c) -> RR c < 0 ->
  add_ratio_sample c off = Rle_bool (RR (PrimFloat.add one c)) (RR off).
Proof.
  intros Hc Ho H1c H0. unfold add_ratio_sample.
  rewrite (leb_R zero c fin_zero Hc), (ltb_R c zero Hc fin_zero), (leb_R _ off H1c Ho), RR_zero.
  rewrite (proj2 (Rlt_bool_iff (RR c) 0) H0). rewrite (Rle_bool_false 0 (RR c)) by lra.
  reflexivity.
Qed.

(* the complementary ratio selects the offsets at or above the boundary; for r = 1 the
   complement is 0, which selects nothing, and the boundary is 1, above every offset *)
Lemma ars_complement r off :
  fin r -> 0 <= RR r <= 1 -> fin off -> 0 <= RR off < 1 ->
  add_ratio_sample (complement r) off = Rle_bool (RR (complement_boundary r)) (RR off).
Proof.
  intros Hfr Hr Hfo Ho.
  destruct (complement_R r Hfr Hr) as (Hfc & HRc & _). destruct (boundary_R r Hfr Hr) as (Hfb & HRb & _).
  destruct (Rlt_dec (RR r) 1) as [Hlt|Hge].
  - apply ars_neg; auto. apply complement_neg; auto. lra.
  - assert (Hc0 : RR (complement r) = 0).
    { rewrite HRc. replace (RR r - 1) with 0 by lra. apply round_0. typeclasses eauto. }
    rewrite (ars_nonneg _ off Hfc Hfo) by lra. rewrite HRb, <- HRc, Hc0, Rplus_0_r.
    rewrite (round_generic radix2 (fexp prec emax) (round_mode mode_NE) 1 format_one).
    rewrite Rlt_bool_false, Rle_bool_false by lra. reflexivity.
Qed.

Lemma in_gap_R r off :
  fin r -> fin off -> 0 <= RR r <= 1 ->
  in_gap r off =
  (Rle_bool (RR r) (RR off) && Rlt_bool (RR off) (RR (complement_boundary r))) ||
  (Rle_bool (RR (complement_boundary r)) (RR off) && Rlt_bool (RR off) (RR r)).
Proof.
  intros Hfr Hfo Hr. destruct (boundary_R r Hfr Hr) as (Hfb & _ & _).
  unfold in_gap.
  now rewrite (leb_R r off Hfr Hfo), (ltb_R off _ Hfo Hfb), (leb_R _ off Hfb Hfo), (ltb_R off r Hfo Hfr).
Qed.

(* a below x and a at or above y disagree exactly when a lies between x and y *)
Lemma xor_gap a x y :
  xorb (Rlt_bool a x) (Rle_bool y a) =
  negb (Rle_bool x a && Rlt_bool a y || Rle_bool y a && Rlt_bool a x).
Proof.
  destruct (Rlt_bool_spec a x), (Rle_bool_spec y a), (Rle_bool_spec x a), (Rlt_bool_spec a y);
    simpl; try reflexivity; exfalso; lra.
Qed.

(* exact characterisation of where the partition holds: for r in [0,1] and an offset in
   [0,1), exactly one of r and r - 1 selects the offset iff the offset is not between the
   two boundaries *)
Lemma partition_iff_not_in_gap r off :
  PrimFloat.leb zero r = true -> PrimFloat.leb r one = true ->
  PrimFloat.leb zero off = true -> PrimFloat.ltb off one = true ->
  xorb (add_ratio_sample r off) (add_ratio_sample (complement r) off) = negb (in_gap r off).
Proof.
  intros Hr0 Hr1 Ho0 Ho1.
  destruct (dom_r r Hr0 Hr1) as [Hfr Hr]. destruct (dom_off off Ho0 Ho1) as [Hfo Ho].
  rewrite (in_gap_R r off Hfr Hfo Hr), (ars_nonneg r off Hfr Hfo (proj1 Hr)),
    (ars_complement r off Hfr Hr Hfo Ho).
  apply xor_gap.
Qed.

(* when the complement is exact, fl(1 + fl(r - 1)) = r, there is no gap *)
Lemma partition_partial r off :
  PrimFloat.leb zero r = true -> PrimFloat.leb r one = true ->
  PrimFloat.leb zero off = true -> PrimFloat.ltb off one = true ->
  PrimFloat.eqb (complement_boundary r) r = true ->
  xorb (add_ratio_sample r off) (add_ratio_sample (complement r) off) = true.
Proof.
  intros Hr0 Hr1 Ho0 Ho1 He.
  rewrite (partition_iff_not_in_gap r off Hr0 Hr1 Ho0 Ho1).
  destruct (dom_r r Hr0 Hr1) as [Hfr Hr]. destruct (dom_off off Ho0 Ho1) as [Hfo Ho].
  destruct (boundary_R r Hfr Hr) as (Hfb & _ & _).
  rewrite (eqb_R _ r Hfb Hfr) in He. apply Req_bool_iff in He.
  rewrite (in_gap_R r off Hfr Hfo Hr), He.
  destruct (Rle_bool_spec (RR r) (RR off)), (Rlt_bool_spec (RR off) (RR r));
    simpl; try reflexivity; exfalso; lra.
Qed.

Definition half : PrimFloat.float := 0x1p-1%float.

Lemma RR_half : RR half = / 2 /\ fin half.
Proof.
  unfold RR, fin, Prim2B. rewrite B2R_SF2B, is_finite_SF2B.
  replace (Prim2SF half) with (S754_finite false 4503599627370496 (-53)) by (vm_compute; reflexivity).
  split; [|reflexivity].
  unfold SF2R, F2R. simpl. lra.
Qed.

Lemma upper_half_exact r :
  PrimFloat.leb half r = true -> PrimFloat.leb r one = true ->
  PrimFloat.leb zero r = true /\ PrimFloat.eqb (complement_boundary r) r = true.
Proof.
  intros H0 H1. destruct RR_half as [Hh Hfh].
  destruct (between half r one Hfh fin_one H0 H1) as [Hf Hr]. rewrite Hh, RR_one in Hr.
  split.
  { rewrite (leb_R zero r fin_zero Hf), RR_zero. apply Rle_bool_iff. lra. }
  destruct (boundary_R r Hf) as (Hfb & HRb & _); [lra|].
  rewrite (eqb_R _ r Hfb Hf), HRb.
  (* Sterbenz: r - 1 is exact for r in [1/2, 1] *)
  assert (Hs : format (RR r - 1)).
  { apply sterbenz; try typeclasses eauto. apply format_RR. apply format_one. lra. }
  rewrite (round_generic radix2 (fexp prec emax) (round_mode mode_NE) (RR r - 1) Hs).
  replace (1 + (RR r - 1)) with (RR r) by ring.
  rewrite (round_generic radix2 (fexp prec emax) (round_mode mode_NE) (RR r) (format_RR r)).
  apply Req_bool_true. reflexivity.
Qed.

(* for every ratio in the upper half the complement is exact (Sterbenz), so the partition holds *)
Lemma partition_upper_half r off :
  PrimFloat.leb half r = true -> PrimFloat.leb r one = true ->
  PrimFloat.leb zero off = true -> PrimFloat.ltb off one = true ->
  xorb (add_ratio_sample r off) (add_ratio_sample (complement r) off) = true.
Proof.
  intros H0 H1 Ho0 Ho1. destruct (upper_half_exact r H0 H1). now apply partition_partial.
Qed.

(* the partition property is false of the faithful model *)
Definition in01b (x : pfloat) : bool := PrimFloat.leb zero x && PrimFloat.leb x one.

Lemma partition_refuted_both :
  let r := 0x1.999999999999ap-4%float in let off := 0x1.9999999999998p-4%float in
  in01b r = true /\ PrimFloat.leb zero off = true /\ PrimFloat.ltb off one = true /\
  add_ratio_sample r off = true /\ add_ratio_sample (complement r) off = true.
Proof. vm_compute. repeat split. Qed.

Lemma partition_refuted_neither :
  let r := 0x1.3333333333333p-2%float in let off := 0x1.3333333333333p-2%float in
  in01b r = true /\ PrimFloat.leb zero off = true /\ PrimFloat.ltb off one = true /\
  add_ratio_sample r off = false /\ add_ratio_sample (complement r) off = false.
Proof. vm_compute. repeat split. Qed.

(* second shape: the largest hashes map to the offset 1.0, which no ratio of [0,1] selects *)
Lemma offset_one_reachable : sample_offset (2 ^ 64 - 1) = one /\ sample_offset (2 ^ 64 - 1024) = one
                             /\ PrimFloat.ltb (sample_offset (2 ^ 64 - 1025)) one = true.
Proof. vm_compute. repeat split. Qed.

Lemma offset_one_unselected r :
  PrimFloat.leb zero r = true -> PrimFloat.leb r one = true ->
  add_ratio_sample r one = false.
Proof.
  intros H0 H1. destruct (dom_r r H0 H1) as [Hf Hr].
  rewrite (ars_nonneg r one Hf fin_one (proj1 Hr)), RR_one. apply Rlt_bool_false. lra.
Qed.

Lemma offset_one_refuted :
  add_ratio_sample one (sample_offset (2 ^ 64 - 1)) = false /\
  add_ratio_sample (complement one) (sample_offset (2 ^ 64 - 1)) = false.
Proof. vm_compute. split; reflexivity. Qed.

Lemma no_nan_in fs f : existsb pnan fs = false -> In f fs -> pnan f = false.
Proof.
  intros Hn Hf. apply not_true_is_false. intros N.
  rewrite (proj2 (existsb_exists pnan fs)) in Hn by eauto. discriminate.
Qed.

Lemma fin_neg_one : fin neg_one /\ RR neg_one = -1.
Proof.
  unfold fin, RR, neg_one. rewrite opp_equiv, P2B_one. rewrite is_finite_Bopp, B2R_Bopp, Bone_correct.
  split. apply is_finite_Bone. reflexivity.
Qed.

Lemma clamp_id f : fin f -> -1 <= RR f <= 1 -> clamp f = f.
Proof.
  intros Hf Hr. destruct fin_neg_one as [Hfm Hm]. unfold clamp.
  rewrite (ltb_R f neg_one Hf Hfm), Hm, (Rlt_bool_false (RR f) (-1)) by lra.
  now rewrite (ltb_R one f fin_one Hf), RR_one, (Rlt_bool_false 1 (RR f)) by lra.
Qed.

Section Vector.
  Variable L P : Type.
  Variable hash : L -> Z.
  Notation limit_ratio := (limit_ratio L P hash).
  Notation step_select := (step_select L P hash).
  Notation selects := (selects L hash).

  Lemma step_is_instant f v : pnan f = false -> limit_ratio f v = Selected (step_select f v).
  Proof.
    intros N. unfold LimitRatio.limit_ratio, LimitRatio.step_select.
    destruct (PrimFloat.eqb f zero); [reflexivity|]. now rewrite N.
  Qed.

  Lemma selected_is_step f v a : limit_ratio f v = Selected a -> a = step_select f v.
  Proof.
    unfold LimitRatio.limit_ratio, LimitRatio.step_select.
    destruct (PrimFloat.eqb f zero); [|destruct (pnan f)]; congruence.
  Qed.

  (* a step keeps the samples whose label set passes a test that does not see the sample *)
  Definition keeps (f : pfloat) (l : L) : bool := negb (PrimFloat.eqb f zero) && selects (clamp f) l.

  Lemma step_select_filter f v : step_select f v = filter (fun s => keeps f (fst s)) v.
  Proof.
    unfold LimitRatio.step_select, keeps. destruct (PrimFloat.eqb f zero); [|reflexivity].
    induction v; auto.
  Qed.

  Lemma in_step_select f v s : In s (step_select f v) <-> In s v /\ keeps f (fst s) = true.
  Proof. rewrite step_select_filter. apply filter_In. Qed.

  (* on a ratio of [-1,1] and offsets >= 0 a step is exactly the filter by the sampler
     (the early return for r == 0 agrees with the sampler, which selects nothing for +-0) *)
  Lemma step_select_sampler f v :
    fin f -> -1 <= RR f <= 1 ->
    (forall s, In s v -> fin (sample_offset (hash (fst s))) /\ 0 <= RR (sample_offset (hash (fst s)))) ->
    step_select f v = filter (fun s => selects f (fst s)) v.
  Proof.
    intros Hf Hr Hv. rewrite step_select_filter. apply filter_ext_in. intros s Hs.
    unfold keeps. rewrite (clamp_id f Hf Hr), (eqb_R f zero Hf fin_zero), RR_zero.
    case Req_bool_spec; intros Hz; [|reflexivity].
    destruct (Hv s Hs) as [Hfo Ho]. unfold LimitRatio.selects.
    rewrite (ars_nonneg f _ Hf Hfo) by lra. symmetry. apply Rlt_bool_false. lra.
  Qed.

  Lemma step_partition r v :
    PrimFloat.leb zero r = true -> PrimFloat.leb r one = true ->
    (forall s, In s v ->
       let off := sample_offset (hash (fst s)) in
       PrimFloat.leb zero off = true /\ PrimFloat.ltb off one = true /\ in_gap r off = false) ->
    pnan r = false /\ pnan (complement r) = false /\
    forall s, In s v -> (In s (step_select r v) <-> ~ In s (step_select (complement r) v)).
  Proof.
    intros Hr0 Hr1 Hv. destruct (dom_r r Hr0 Hr1) as [Hfr Hr].
    destruct (complement_R r Hfr Hr) as (Hfc & _ & Hcb).
    split; [now apply fin_pnan|]. split; [now apply fin_pnan|].
    assert (Hoffs : forall s, In s v ->
              fin (sample_offset (hash (fst s))) /\ 0 <= RR (sample_offset (hash (fst s)))).
    { intros s Hs. destruct (Hv s Hs) as (A & B & _). destruct (dom_off _ A B) as [F O]. split; [exact F|lra]. }
    rewrite !step_select_sampler by (auto; lra).
    intros s Hs. rewrite !filter_In. destruct (Hv s Hs) as (A & B & G).
    generalize (partition_iff_not_in_gap r _ Hr0 Hr1 A B). rewrite G. unfold LimitRatio.selects.
    destruct (add_ratio_sample r _), (add_ratio_sample (complement r) _); simpl; intros E;
      try discriminate E; intuition discriminate.
  Qed.

End Vector.

(* math.Max / math.Min on non-NaN arguments: an upper / lower bound of both, and not NaN *)
Lemma go_max_ub x y :
  pnan x = false -> pnan y = false ->
  pnan (go_max x y) = false /\ ext x <= ext (go_max x y) /\ ext y <= ext (go_max x y).
Proof.
  intros Nx Ny. unfold go_max.
  destruct (PrimFloat.eqb x infinity || PrimFloat.eqb y infinity).
  { rewrite ext_inf. split; [reflexivity|split; apply ext_bounds]. }
  rewrite Nx, Ny. simpl.
  destruct (PrimFloat.eqb x zero && PrimFloat.eqb y zero) eqn:Z.
  { apply andb_prop in Z as [Zx%eqb_iff Zy%eqb_iff]. destruct (get_sign x); intuition lra. }
  rewrite ltb_ext, <- !is_nan_equiv, Ny, Nx. simpl. case Rlt_bool_spec; intuition lra.
Qed.

Lemma go_min_lb x y :
  pnan x = false -> pnan y = false ->
  pnan (go_min x y) = false /\ ext (go_min x y) <= ext x /\ ext (go_min x y) <= ext y.
Proof.
  intros Nx Ny. unfold go_min.
  destruct (PrimFloat.eqb x neg_infinity || PrimFloat.eqb y neg_infinity).
  { rewrite ext_ninf. split; [reflexivity|split; apply ext_bounds]. }
  rewrite Nx, Ny. simpl.
  destruct (PrimFloat.eqb x zero && PrimFloat.eqb y zero) eqn:Z.
  { apply andb_prop in Z as [Zx%eqb_iff Zy%eqb_iff]. destruct (get_sign x); intuition lra. }
  rewrite ltb_ext, <- !is_nan_equiv, Nx, Ny. simpl. case Rlt_bool_spec; intuition lra.
Qed.

(* folding an operation that returns a non-NaN bound of both arguments (in the order [le]:
   Rle for a maximum, its converse for a minimum) over a NaN-free list bounds the initial
   value and every element *)
Section FoldBound.
  Variable op : pfloat -> pfloat -> pfloat.
  Variable le : R -> R -> Prop.
  Hypothesis le_refl : forall a, le a a.
  Hypothesis le_trans : forall a b c, le a b -> le b c -> le a c.
  Hypothesis op_bound : forall x y, pnan x = false -> pnan y = false ->
    pnan (op x y) = false /\ le (ext x) (ext (op x y)) /\ le (ext y) (ext (op x y)).

  Lemma fold_bound fs : forall acc,
    pnan acc = false -> existsb pnan fs = false ->
    le (ext acc) (ext (fold_left op fs acc)) /\
    forall f, In f fs -> le (ext f) (ext (fold_left op fs acc)).
  Proof.
    induction fs as [|a fs IH]; simpl; intros acc Na Hn.
    - split; [apply le_refl|intros f []].
    - apply orb_false_elim in Hn as [Nf Hn].
      destruct (op_bound acc a Na Nf) as (Nm & L1 & L2).
      destruct (IH _ Nm Hn) as (L' & Hall).
      split; [eauto|]. intros f [<-|Hf]; eauto.
  Qed.
End FoldBound.

(* the early return of rangeEvalAgg fires only when every step's ratio is +-0 *)
Lemma params_zero_all fs :
  existsb pnan fs = false ->
  PrimFloat.eqb (params_max fs) zero = true -> PrimFloat.eqb (params_min fs) zero = true ->
  forall f, In f fs -> PrimFloat.eqb f zero = true.
Proof.
  intros Hn (_ & _ & Hmax)%eqb_iff (_ & _ & Hmin)%eqb_iff f Hf.
  destruct (fold_bound go_max Rle Rle_refl Rle_trans go_max_ub fs (PrimFloat.opp max_float64) eq_refl Hn) as [_ Hub].
  destruct (fold_bound go_min (fun a b => b <= a) Rle_refl (fun a b c H1 H2 => Rle_trans c b a H2 H1)
              go_min_lb fs max_float64 eq_refl Hn) as [_ Hlb].
  specialize (Hub f Hf). specialize (Hlb f Hf). fold (params_max fs) in Hub. fold (params_min fs) in Hlb.
  apply eqb_iff. rewrite <- !is_nan_equiv. split; [exact (no_nan_in fs f Hn Hf)|]. split; [reflexivity|]. lra.
Qed.

(* a NaN argument, or an accumulator that is NaN or +Inf, makes math.Max return NaN or +Inf *)
Lemma go_max_sticky x y :
  x = nan \/ x = infinity \/ pnan y = true -> go_max x y = nan \/ go_max x y = infinity.
Proof.
  unfold go_max. destruct (PrimFloat.eqb x infinity || PrimFloat.eqb y infinity) eqn:E; [auto|].
  intros [->|[->|N]]; [auto|discriminate E|]. rewrite N, orb_true_r. auto.
Qed.

Lemma fold_max_sticky fs : forall acc,
  (acc = nan \/ acc = infinity) \/ existsb pnan fs = true ->
  fold_left go_max fs acc = nan \/ fold_left go_max fs acc = infinity.
Proof.
  induction fs as [|a fs IH]; simpl; intros acc [H|H]; [exact H|discriminate H|..]; apply IH.
  - left. apply go_max_sticky. tauto.
  - destruct (pnan a) eqn:Na; [left; apply go_max_sticky; auto|right; exact H].
Qed.

Section Range.
  Variable L P : Type.
  Variable hash : L -> Z.
  Notation limit_ratio_range := (limit_ratio_range L P hash).
  Notation step_select := (step_select L P hash).

  (* a range query with a step-varying ratio is the per-step map of the instant semantics:
     the whole-range early return (all ratios zero) changes nothing *)
  Lemma range_is_per_step fs vs :
    length fs = length vs -> existsb pnan fs = false ->
    limit_ratio_range fs vs =
    RSelected (map (fun fv => step_select (fst fv) (snd fv)) (combine fs vs)).
  Proof.
    intros Hl Hn. unfold LimitRatio.limit_ratio_range. rewrite Hn.
    destruct (PrimFloat.eqb (params_max fs) zero && PrimFloat.eqb (params_min fs) zero) eqn:E; [|reflexivity].
    apply andb_prop in E as [E1 E2].
    pose proof (params_zero_all fs Hn E1 E2) as Hz. f_equal.
    clear E1 E2 Hn. revert vs Hl. induction fs as [|f fs IH]; intros [|v vs] Hl; try discriminate; simpl; auto.
    f_equal.
    - unfold LimitRatio.step_select. now rewrite (Hz f (or_introl eq_refl)).
    - apply IH; [intros g Hg; apply Hz; now right|]. now injection Hl.
  Qed.

  (* and it is an error iff some step's ratio is NaN *)
  Lemma range_nan fs vs : existsb pnan fs = true -> limit_ratio_range fs vs = RErrNaN.
  Proof.
    intros Hn. unfold LimitRatio.limit_ratio_range. rewrite Hn.
    unfold params_max. destruct (fold_max_sticky fs (PrimFloat.opp max_float64)) as [-> | ->]; auto.
  Qed.

  Lemma combine_map_l {A B C} (g : A -> B) (l : list A) (l' : list C) :
    combine (map g l) l' = map (fun ab => (g (fst ab), snd ab)) (combine l l').
  Proof. revert l'. induction l; intros [|c l']; simpl; auto. now rewrite IHl. Qed.

  Lemma in_combine_l_fs {A B} (l : list A) (l' : list B) a b : In (a, b) (combine l l') -> In a l.
  Proof. apply in_combine_l. Qed.

End Range.

(* ratios of [0,1] and their complements are finite, hence not NaN *)
Lemma ratios_no_nan fs :
  (forall f, In f fs -> PrimFloat.leb zero f = true /\ PrimFloat.leb f one = true) ->
  existsb pnan fs = false /\ existsb pnan (map complement fs) = false.
Proof.
  intros Hdom.
  assert (Hfin : forall f, In f fs -> fin f /\ fin (complement f)).
  { intros f Hf. destruct (Hdom f Hf) as [A B]. destruct (dom_r f A B) as [F R].
    split; [exact F|]. now destruct (complement_R f F R). }
  split; apply not_true_is_false.
  - intros (f & Hf & Nf)%existsb_exists.
    rewrite (fin_pnan f (proj1 (Hfin f Hf))) in Nf. discriminate.
  - intros (c & (f & <- & Hf)%in_map_iff & Nc)%existsb_exists.
    rewrite (fin_pnan _ (proj2 (Hfin f Hf))) in Nc. discriminate.
Qed.

