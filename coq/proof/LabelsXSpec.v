(* proof/LabelsXSpec.v — the executable specification machine used by [holds] (corr/CorrC39.v:
   m_set / m_del / m_of on strictly sorted association lists) really is the finite-map
   semantics the theorems are stated in ([lkp], [upd]). *)
From Coq Require Import List ZArith Bool Lia.
From Verif Require Import model.LabelsX proof.LabelsXProofs proof.LabelsXMerge corr.CorrC39.
Import ListNotations.
Open Scope Z_scope.

Lemma lookup_is_lkp ls k : CorrC39.lookup ls k = lkp ls k.
Proof. induction ls as [|[n v] t IH]; simpl; auto; try (rewrite IH; auto). Qed.

Lemma str_cmp_eqb n k : str_eqb n k = match str_cmp n k with Eq => true | _ => false end.
Proof. reflexivity. Qed.

Lemma lkp_m_set k n v m : lkp (m_set n v m) k = if str_eqb n k then Some v else lkp m k.
Proof.
  induction m as [|[k0 w] t IH]; cbn [m_set]; [reflexivity|].
  destruct (str_cmp n k0) eqn:C.
  - apply str_cmp_eq in C. subst k0. cbn [lkp]. destruct (str_eqb n k); auto.
  - reflexivity.
  - cbn [lkp]. rewrite IH. destruct (str_eqb k0 k) eqn:E1, (str_eqb n k) eqn:E2; auto.
    apply str_eqb_eq in E1, E2. subst. rewrite str_cmp_refl in C. discriminate.
Qed.
Lemma has_name_m_set k n v m : has_name k (m_set n v m) = str_eqb n k || has_name k m.
Proof. rewrite !has_name_lkp, lkp_m_set. destruct (str_eqb n k); reflexivity. Qed.
Lemma m_set_sorted n v m : strictly_sorted m = true -> strictly_sorted (m_set n v m) = true.
Proof.
  induction m as [|[k0 w] t IH]; intros Hs; cbn [m_set]; auto.
  destruct (str_cmp n k0) eqn:C.
  - apply str_cmp_eq in C. subst k0. destruct t; auto.
  - change (str_ltb n k0 && strictly_sorted ((k0, w) :: t) = true). apply andb_true_intro. split; [unfold str_ltb; rewrite C; auto | exact Hs].
  - apply sorted_cons_all; [apply IH; eapply sorted_tail; eauto|].
    intros k Hk. rewrite has_name_m_set in Hk. cbn [fst]. apply orb_prop in Hk. destruct Hk as [Hk|Hk].
    + apply str_eqb_eq in Hk. subst k. unfold str_ltb. rewrite (str_cmp_antisym n k0), C. reflexivity.
    + apply (sorted_lt_all (k0, w) t Hs k Hk).
Qed.

Lemma m_del_spec n m : strictly_sorted m = true ->
  strictly_sorted (m_del n m) = true /\ forall k, lkp (m_del n m) k = if str_eqb n k then None else lkp m k.
Proof.
  intros Hs. unfold m_del. split; [apply filter_sorted; auto|]. intros k.
  rewrite (lkp_filter (fun x => negb (str_eqb x n))). rewrite (str_eqb_sym k n). destruct (str_eqb n k); auto.
Qed.

Lemma m_of_fold ls : forall acc, nodup_names ls = true -> strictly_sorted acc = true ->
  strictly_sorted (fold_left (fun m x => m_set (fst x) (snd x) m) ls acc) = true /\
  forall k, lkp (fold_left (fun m x => m_set (fst x) (snd x) m) ls acc) k
            = match lkp ls k with Some v => Some v | None => lkp acc k end.
Proof.
  induction ls as [|[n v] t IH]; intros acc Hn Ha; cbn [fold_left]; [auto|].
  simpl in Hn. apply andb_prop in Hn. destruct Hn as [Hx Hn]. apply negb_true_iff in Hx. cbn [fst snd] in *.
  destruct (IH (m_set n v acc) Hn (m_set_sorted n v acc Ha)) as (S & Lk). split; auto.
  intros k. rewrite Lk, lkp_m_set. cbn [lkp]. destruct (str_eqb n k) eqn:E; auto.
  apply str_eqb_eq in E. subst k. rewrite (lkp_none t n Hx). auto.
Qed.
Lemma m_of_spec ls : nodup_names ls = true ->
  strictly_sorted (m_of ls) = true /\ forall k, lkp (m_of ls) k = lkp ls k.
Proof.
  intros Hn. destruct (m_of_fold ls [] Hn eq_refl) as (S & Lk). split; auto.
  intros k. unfold m_of. rewrite Lk. destruct (lkp ls k); auto.
Qed.

(* all three at once, in the vocabulary of [holds] *)
Lemma spec_machine_is_map :
  (forall n v m, strictly_sorted m = true ->
     strictly_sorted (m_set n v m) = true /\ forall k, CorrC39.lookup (m_set n v m) k = upd (CorrC39.lookup m) n (Some v) k) /\
  (forall n m, strictly_sorted m = true ->
     strictly_sorted (m_del n m) = true /\ forall k, CorrC39.lookup (m_del n m) k = upd (CorrC39.lookup m) n None k) /\
  (forall ls, nodup_names ls = true ->
     strictly_sorted (m_of ls) = true /\ forall k, CorrC39.lookup (m_of ls) k = CorrC39.lookup ls k).
Proof.
  split; [|split].
  - intros n v m Hs. split; [apply m_set_sorted; auto|]. intros k. unfold upd. rewrite !lookup_is_lkp. apply lkp_m_set.
  - intros n m Hs. destruct (m_del_spec n m Hs) as (S & Lk). split; auto; intros k; unfold upd; rewrite !lookup_is_lkp; apply Lk.
  - intros ls Hn. destruct (m_of_spec ls Hn) as (S & Lk). split; auto; intros k; rewrite !lookup_is_lkp; apply Lk.
Qed.

(* a symbol-table rebuild (Range -> ScratchBuilder.Add -> Labels, as Head.RebuildSymbolTable)
   leaves every label set unchanged *)
Lemma rebuild_identity ls : all_short ls ->
  rebuild1 I_string (enc ls) = Ok (enc ls) /\ rebuild1 I_slice ls = Ok ls /\ rebuild1 I_dedupe ls = Ok ls.
Proof.
  intros H. unfold rebuild1. cbn [l_range l_of_adds I_string I_slice I_dedupe bind]. split; [|split; reflexivity].
  unfold st_range. rewrite st_range_enc by auto. cbn [bind]. apply encode_labels_enc; auto.
Qed.
