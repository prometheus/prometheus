(* proof/HistChunkCounter.v — the counter path: expandIntSpansAndBuckets /
   expandFloatSpansAndBuckets (cnt_go) and adjustForInserts.  Whenever the expansion answers
   "appendable", the forward inserts, the backward inserts and the adjusted spans describe one
   common widened layout. *)
From Coq Require Import List ZArith Bool Lia.
From Verif Require Import model.HistChunk proof.HistChunkProofs proof.HistChunkIns proof.HistChunkMaps.
Import ListNotations.
Open Scope Z_scope.

Lemma zseq_one m : zseq m 1 = [m].
Proof. rewrite zseq_cons by lia. rewrite zseq_nil by lia. reflexivity. Qed.

Lemma flush_app i P : flush i [] ++ P = flush i P.
Proof. unfold flush. destruct (0 <? i_num i); reflexivity. Qed.

Lemma ins_idxs_app P Q : ins_idxs (P ++ Q) = ins_idxs P ++ ins_idxs Q.
Proof. unfold ins_idxs. now rewrite flat_map_app. Qed.

Lemma ins_idxs_flush pi P : 0 <= i_num pi -> ins_idxs (flush pi P) = zseq (i_bidx pi) (i_num pi) ++ ins_idxs P.
Proof.
  intros H. unfold flush. destruct (Z.ltb_spec 0 (i_num pi)); [reflexivity|]. now rewrite zseq_nil by lia.
Qed.

(* M merges the index lists ix and O, keeping the order of each *)
Inductive interleave : list Z -> list Z -> list Z -> Prop :=
| il_nil : interleave [] [] []
| il_left m M ix O : interleave M ix O -> interleave (m :: M) (m :: ix) O
| il_right m M ix O : interleave M ix O -> interleave (m :: M) ix (m :: O).

Lemma interleave_in M ix O x : interleave M ix O -> In x ix \/ In x O -> In x M.
Proof. induction 1; cbn; intuition. Qed.

Lemma adj_merge_interleave M l j : interleave M l j ->
  forall lo fuel, incr lo M -> (length M < fuel)%nat -> adj_merge fuel l j = Ok M.
Proof.
  induction 1 as [|m M l j H IH|m M l j H IH]; intros lo fuel HM Hf;
    (destruct fuel as [|f]; [cbn in Hf; lia|]); [reflexivity| |];
    destruct HM as [_ HM]; cbn [length] in Hf; specialize (IH m f HM ltac:(lia));
    pose proof (fun x Hx => incr_In _ _ x HM (interleave_in _ _ _ x H Hx)) as Hlt; cbn [adj_merge].
  - (* m comes from l: an index of j in front of it would be smaller than m *)
    destruct j as [|x j']; [|destruct (Z.ltb_spec x m) as [L|_]; [specialize (Hlt x (or_intror (or_introl eq_refl))); lia|]];
      now rewrite IH.
  - destruct l as [|b l']; [|destruct (Z.ltb_spec m b) as [_|L]; [|specialize (Hlt b (or_introl (or_introl eq_refl))); lia]];
      now rewrite IH.
Qed.

(* what the counter path maintains for each side beyond [lays]: every emitted insert is
   non-empty, and the bucket indices of the inserts (the pending one included) are, in order,
   exactly the indices O of M that the side lacks *)
Definition side (pi : ins) (P : list ins) (M ix : list Z) : Prop :=
  lays pi P M ix /\ Forall (fun y => 1 <= i_num y) P /\
  exists O, ins_idxs P = zseq (i_bidx pi) (i_num pi) ++ O /\ interleave M ix O.

Lemma side_end pi : 0 <= i_num pi -> side pi (flush pi []) [] [].
Proof.
  intros H. split; [now apply lays_self|]. split.
  - unfold flush. destruct (Z.ltb_spec 0 (i_num pi)); repeat constructor. lia.
  - exists []. rewrite ins_idxs_flush by assumption. split; [reflexivity|constructor].
Qed.

Lemma side_take pi P' M' ix' m :
  0 <= i_num pi -> side (mkIns (i_pos pi + 1) 0 (i_bidx pi)) P' M' ix' ->
  side pi (flush pi P') (m :: M') (m :: ix').
Proof.
  intros Hn (L & N1 & O & EO & IO). cbn [i_num i_bidx] in EO. rewrite zseq_nil in EO by lia.
  split; [now apply lays_take|]. split.
  - unfold flush. destruct (Z.ltb_spec 0 (i_num pi)); [constructor; [lia|]|]; assumption.
  - exists O. rewrite ins_idxs_flush, EO by assumption. split; [reflexivity|now constructor].
Qed.

(* a bucket m of the other stream is missing on this side: addInsert *)
Lemma side_skip pi e1 pi1 P' M' ix m :
  0 <= i_num pi -> incr m ix -> add_insert pi m = (e1, pi1) -> side pi1 P' M' ix ->
  side pi (e1 ++ P') (m :: M') ix.
Proof.
  intros Hn Hix Hadd (L & N1 & O & EO & IO).
  assert (IO' : interleave (m :: M') ix (m :: O)) by now constructor.
  destruct pi as [p n b]. unfold add_insert in Hadd. cbn [i_pos i_num i_bidx] in *.
  destruct (Z.eqb_spec n 0) as [->|Hn0]; [|destruct (Z.eqb_spec (b + n) m) as [Hc|Hc]];
    injection Hadd as <- <-; cbn [i_pos i_num i_bidx app] in *.
  - (* first insert of a streak *)
    split; [apply (lays_skip _ (mkIns p 1 m)); cbn [i_pos i_num]; auto; lia|]. split; [assumption|].
    exists (m :: O). cbn [i_bidx i_num]. rewrite EO, zseq_one, zseq_nil by lia. auto.
  - (* continues the streak *)
    split; [apply (lays_skip _ (mkIns p (n + 1) b)); cbn [i_pos i_num]; auto; lia|]. split; [assumption|].
    exists (m :: O). cbn [i_bidx i_num]. rewrite EO, zseq_snoc, <- app_assoc, Hc by lia. auto.
  - (* not contiguous: the pending insert is emitted, a new streak starts *)
    destruct L as (LB & G & IN & _ & _). cbn [i_pos i_num] in *. split; [|split].
    + repeat split; try discriminate.
      * constructor; [cbn; lia|assumption].
      * intros va v Hlen. rewrite lay_skip by assumption.
        exact (ins_same_pos p v va n b P' _ ltac:(lia) (G va v Hlen)).
      * intros x Hx. right. auto.
    + constructor; [cbn; lia|assumption].
    + exists (m :: O). cbn [ins_idxs flat_map i_bidx i_num]. fold (ins_idxs P'). rewrite EO, zseq_one. auto.
Qed.

Lemma add_insert_nonneg pi m e pi1 : add_insert pi m = (e, pi1) -> 0 <= i_num pi -> 0 <= i_num pi1.
Proof.
  unfold add_insert. destruct (_ =? 0); [|destruct (_ =? m)]; intros [= <- <-]; cbn; lia.
Qed.

(* one recursive call of cnt_go: its result, if "appendable", is extended on both sides *)
Lemma cnt_call (X : res (option (list ins * list ins))) u w (G0 G : list ins -> list ins -> Prop) :
  (exists r0, X = Ok r0 /\ forall F0 Bk0, r0 = Some (F0, Bk0) -> G0 F0 Bk0) ->
  (forall F0 Bk0, G0 F0 Bk0 -> G (u ++ F0) (w ++ Bk0)) ->
  exists r, (r0 <- X ;; match r0 with None => Ok None | Some (F0, Bk0) => Ok (Some (u ++ F0, w ++ Bk0)) end) = Ok r /\
            forall F Bk, r = Some (F, Bk) -> G F Bk.
Proof.
  intros (r0 & -> & H0) H. cbn [bind]. destruct r0 as [[F0 Bk0]|]; eexists; (split; [reflexivity|]); [|discriminate].
  intros F Bk [= <- <-]. auto.
Qed.

Section Cnt.
  Variable gt : Z -> Z -> bool.
  Variable is_zero : Z -> bool.

  (* with enough fuel the expansion terminates without panic, and when it answers "appendable"
     both insert lists are laid out on one merged index list M *)
  Lemma cnt_go_spec fuel : forall A B ai bi lo,
    (length A + length B < fuel)%nat -> 0 <= i_num ai -> 0 <= i_num bi ->
    incr lo (map fst A) -> incr lo (map fst B) ->
    exists r, cnt_go gt is_zero fuel A B ai bi = Ok r /\
      forall F Bk, r = Some (F, Bk) ->
        exists M, incr lo M /\ side ai F M (map fst A) /\ side bi Bk M (map fst B).
  Proof.
    induction fuel as [|f IH]; intros A B ai bi lo Hf Hai Hbi HA HB; [lia|].
    assert (Stop : exists r, Ok None = Ok r /\
              forall F Bk, r = Some (F, Bk) ->
                exists M, incr lo M /\ side ai F M (map fst A) /\ side bi Bk M (map fst B))
      by (eexists; split; [reflexivity|discriminate]).
    (* the chunk lacks bucket b of the sample *)
    assert (MoveB : forall b B', incr b (map fst A) -> incr b (map fst B') -> lo < b ->
              (length A + length B' < f)%nat -> forall e1 ai1, add_insert ai b = (e1, ai1) ->
              exists r, (r <- cnt_go gt is_zero f A B' ai1 (mkIns (i_pos bi + 1) 0 (i_bidx bi)) ;;
                         match r with None => Ok None | Some (F0, Bk0) => Ok (Some (e1 ++ F0, flush bi [] ++ Bk0)) end) = Ok r /\
                forall F Bk, r = Some (F, Bk) ->
                  exists M, incr lo M /\ side ai F M (map fst A) /\ side bi Bk M (b :: map fst B')).
    { intros b B' HA' HB' Hlo Hl e1 ai1 Eadd.
      eapply cnt_call; [apply (IH _ _ _ _ b); eauto using add_insert_nonneg; cbn; lia|].
      intros F0 Bk0 (M' & IM & SA & SB). exists (b :: M'). rewrite flush_app.
      split; [now split|]. split; [eapply side_skip; eauto|now apply side_take]. }
    (* the sample lacks bucket a of the chunk *)
    assert (MoveA : forall a A', incr a (map fst A') -> incr a (map fst B) -> lo < a ->
              (length A' + length B < f)%nat -> forall e1 bi1, add_insert bi a = (e1, bi1) ->
              exists r, (r <- cnt_go gt is_zero f A' B (mkIns (i_pos ai + 1) 0 (i_bidx ai)) bi1 ;;
                         match r with None => Ok None | Some (F0, Bk0) => Ok (Some (flush ai [] ++ F0, e1 ++ Bk0)) end) = Ok r /\
                forall F Bk, r = Some (F, Bk) ->
                  exists M, incr lo M /\ side ai F M (a :: map fst A') /\ side bi Bk M (map fst B)).
    { intros a A' HA' HB' Hlo Hl e1 bi1 Eadd.
      eapply cnt_call; [apply (IH _ _ _ _ a); eauto using add_insert_nonneg; cbn; lia|].
      intros F0 Bk0 (M' & IM & SA & SB). exists (a :: M'). rewrite flush_app.
      split; [now split|]. split; [now apply side_take|eapply side_skip; eauto]. }
    cbn [cnt_go advance].
    destruct A as [|[a ca] A']; destruct B as [|[b cb] B']; cbn [map fst length] in *.
    - eexists. split; [reflexivity|]. intros F Bk [= <- <-]. exists []. auto using side_end.
    - destruct HB as [HB1 HB2], (add_insert ai b) as [e1 ai1] eqn:Eadd. eapply MoveB; eauto; lia.
    - destruct HA as [HA1 HA2]. destruct (is_zero ca); [|exact Stop].
      destruct (add_insert bi a) as [e1 bi1] eqn:Eadd. eapply MoveA; eauto; lia.
    - destruct HA as [HA1 HA2], HB as [HB1 HB2].
      destruct (Z.eqb_spec a b) as [<-|Hab]; [|destruct (Z.ltb_spec a b)].
      + (* the same bucket in both *)
        destruct (gt ca cb); [exact Stop|].
        eapply cnt_call; [apply (IH A' B' _ _ a); auto; cbn; lia|].
        intros F0 Bk0 (M' & IM & SA & SB). exists (a :: M'). rewrite !flush_app.
        split; [now split|]. split; now apply side_take.
      + destruct (is_zero ca); [|exact Stop]. destruct (add_insert bi a) as [e1 bi1] eqn:Eadd.
        eapply MoveA; eauto; [split; [lia|auto]|cbn [length]; lia].
      + destruct (add_insert ai b) as [e1 ai1] eqn:Eadd.
        eapply MoveB; eauto; [split; [lia|auto]|cbn [length]; lia].
  Qed.
End Cnt.

Lemma interleave_length M ix O : interleave M ix O -> length M = (length ix + length O)%nat.
Proof. induction 1; cbn; lia. Qed.

Lemma existsb_num_false P : Forall (fun y => 1 <= i_num y) P -> existsb (fun x => i_num x <=? 0) P = false.
Proof.
  induction 1 as [|y P Hy _ IH]; [reflexivity|]. simpl. rewrite IH.
  destruct (Z.leb_spec (i_num y) 0); [lia|reflexivity].
Qed.

Lemma adjust_correct lo b Bk M :
  Z.of_nat (length (idxs b)) = count_spans b -> incr lo M -> side (mkIns 0 0 0) Bk M (idxs b) ->
  exists sp, adjust_for_inserts b Bk = Ok sp /\ idxs sp = M /\ count_spans sp = Z.of_nat (length M).
Proof.
  intros Lb HM ((_ & _ & _ & E1 & _) & N1 & O & EO & IO). cbn [i_bidx i_num] in EO.
  rewrite zseq_nil in EO by lia. cbn [app] in EO.
  unfold adjust_for_inserts. destruct Bk as [|y Bk'].
  - exists b. now rewrite (E1 eq_refl).
  - rewrite (existsb_num_false _ N1), EO.
    rewrite (adj_merge_interleave M _ _ IO lo) by (rewrite ?(interleave_length _ _ _ IO); auto).
    cbn [bind]. exists (spans_of M). auto using idxs_spans_of, count_spans_of.
Qed.

Lemma zip_counts_fst ix : forall cs r, zip_counts ix cs = Ok r -> map fst r = ix.
Proof.
  induction ix as [|i ix IH]; intros cs r E; [destruct cs; now injection E as <-|].
  destruct cs as [|c cs]; [discriminate|]. cbn [zip_counts] in E.
  destruct (zip_counts ix cs) eqn:E'; cbn [bind] in E; try discriminate.
  injection E as <-. cbn. f_equal. eauto.
Qed.

Lemma zip_counts_ok ix : forall cs, (length ix <= length cs)%nat -> exists r, zip_counts ix cs = Ok r.
Proof.
  induction ix as [|i ix IH]; intros cs H; [exists []; now destruct cs|].
  destruct cs as [|c cs]; [cbn in H; lia|]. destruct (IH cs ltac:(cbn in H; lia)) as (r & E).
  cbn [zip_counts]. rewrite E. cbn [bind]. eauto.
Qed.

(* the call of cnt_go that expand_counts makes once both sides are zipped with their counts *)
Lemma cnt_go_zipped k ia ib ca cb A B lo :
  zip_counts ia ca = Ok A -> zip_counts ib cb = Ok B -> incr lo ia -> incr lo ib ->
  exists r, cnt_go (val_gt k) (val_zero k) (S (length ia + length ib)) A B (mkIns 0 0 0) (mkIns 0 0 0) = Ok r /\
    forall F Bk, r = Some (F, Bk) ->
      exists M, incr lo M /\ side (mkIns 0 0 0) F M ia /\ side (mkIns 0 0 0) Bk M ib.
Proof.
  intros EA EB. rewrite <- (zip_counts_fst _ _ _ EA), <- (zip_counts_fst _ _ _ EB), !map_length.
  intros Hia Hib. apply cnt_go_spec; auto; cbn; lia.
Qed.

(* The counter path on any two span lists with increasing bucket indices.  Whenever
   expandIntSpansAndBuckets / expandFloatSpansAndBuckets answers "ok" for chunk layout a and a
   new sample with layout b, there is ONE widened index list M such that
   - M = a's buckets if there are no forward inserts, M = b's buckets if there are no backward
     inserts, and adjustForInserts(b, backward) yields spans for exactly M (so in every branch
     of AppendHistogram the spans given to recode / recodeHistogram enumerate M);
   - the forward inserts widen ANY bucket slice laid out on a (every stored sample) to M and the
     backward inserts ANY slice laid out on b (the new sample), for delta and absolute encodings,
     filling the output exactly and preserving the absolute bucket map. *)
Theorem expand_counts_widens k a b ab bb F Bk lo :
  incr lo (idxs a) -> incr lo (idxs b) -> Z.of_nat (length (idxs b)) = count_spans b ->
  expand_counts k a b ab bb = Ok (Some (F, Bk)) ->
  exists M,
    incr lo M /\ incl (idxs a) M /\ incl (idxs b) M /\
    (F = [] -> M = idxs a) /\ (Bk = [] -> M = idxs b) /\
    (exists sp, adjust_for_inserts b Bk = Ok sp /\ idxs sp = M /\ count_spans sp = Z.of_nat (length M)) /\
    (forall k', widens k' F M (idxs a)) /\ (forall k', widens k' Bk M (idxs b)).
Proof.
  intros Hia Hib Lb H. unfold expand_counts in H.
  destruct (zip_counts (idxs a) (abs_counts k ab)) as [A| |] eqn:EA; cbn [bind] in H; try discriminate.
  destruct (zip_counts (idxs b) (abs_counts k bb)) as [B| |] eqn:EB; cbn [bind] in H; try discriminate.
  destruct (cnt_go_zipped k _ _ _ _ A B lo EA EB Hia Hib) as (r & E & Sp).
  rewrite E in H. injection H as ->.
  destruct (Sp _ _ eq_refl) as (M & IM & SA & SB). exists M.
  pose proof SA as ((_ & _ & INA & E1A & _) & _). pose proof SB as ((_ & _ & INB & E1B & _) & _).
  repeat split; eauto using adjust_correct, lays_widens, (proj1 SA), (proj1 SB).
Qed.

(* the counter-path expansion never diverges, and panics only on a bucket slice shorter than
   its spans (excluded for valid histograms) *)
Theorem expand_counts_ok k a b ab bb lo :
  incr lo (idxs a) -> incr lo (idxs b) ->
  (length (idxs a) <= length ab)%nat -> (length (idxs b) <= length bb)%nat ->
  exists r, expand_counts k a b ab bb = Ok r.
Proof.
  intros Hia Hib La Lb. unfold expand_counts.
  destruct (zip_counts_ok (idxs a) (abs_counts k ab)) as (A & EA); [now rewrite abs_counts_length|].
  destruct (zip_counts_ok (idxs b) (abs_counts k bb)) as (B & EB); [now rewrite abs_counts_length|].
  rewrite EA, EB. cbn [bind].
  destruct (cnt_go_zipped k _ _ _ _ A B lo EA EB Hia Hib) as (r & E & _). eauto.
Qed.

Theorem expand_counts_correct k a b ab bb F Bk :
  wf_spans a -> wf_spans b ->
  expand_counts k a b ab bb = Ok (Some (F, Bk)) ->
  exists M,
    (exists lo, incr lo M) /\ incl (idxs a) M /\ incl (idxs b) M /\
    (F = [] -> M = idxs a) /\ (Bk = [] -> M = idxs b) /\
    (exists sp, adjust_for_inserts b Bk = Ok sp /\ idxs sp = M /\ count_spans sp = Z.of_nat (length M)) /\
    (forall k' buckets, Z.of_nat (length buckets) = count_spans a ->
       exists out, insert_go (is_deltas k') buckets F (Z.of_nat (length M)) = Ok out /\
                   length out = length M /\
                   forall i, lookup i (combine M (abs_counts k' out)) = lookup i (bucket_alist k' a buckets)) /\
    (forall k' buckets, Z.of_nat (length buckets) = count_spans b ->
       exists out, insert_go (is_deltas k') buckets Bk (Z.of_nat (length M)) = Ok out /\
                   length out = length M /\
                   forall i, lookup i (combine M (abs_counts k' out)) = lookup i (bucket_alist k' b buckets)).
Proof.
  intros Ha Hb H.
  destruct (wf_common a b Ha Hb) as (lo & Hia & Hib & La & Lb).
  destruct (expand_counts_widens k a b ab bb F Bk _ Hia Hib Lb H)
    as (M & IM & IA & IB & EA & EB & AD & WF & WB).
  exists M. repeat split; eauto; intros k' buckets Hlen; [apply WF|apply WB]; lia.
Qed.

Theorem expand_counts_total k a b ab bb :
  wf_spans a -> wf_spans b ->
  Z.of_nat (length ab) = count_spans a -> Z.of_nat (length bb) = count_spans b ->
  exists r, expand_counts k a b ab bb = Ok r.
Proof.
  intros Ha Hb La Lb.
  destruct (wf_common a b Ha Hb) as (lo & Hia & Hib & Ea & Eb).
  apply (expand_counts_ok k a b ab bb _ Hia Hib); lia.
Qed.
