(* proof/SendLoopProofs.v — proofs about model/SendLoop.v (property C46). *)
From Coq Require Import List ZArith Bool Lia Arith.
From Verif Require Import model.SendLoop.
Import ListNotations.
Open Scope Z_scope.

(* ------------------------------------------------------------------ subsequences *)

Inductive Subseq : list Z -> list Z -> Prop :=
| ss_nil : forall l, Subseq [] l
| ss_skip : forall l1 y l2, Subseq l1 l2 -> Subseq l1 (y :: l2)
| ss_take : forall x l1 l2, Subseq l1 l2 -> Subseq (x :: l1) (x :: l2).

Lemma Subseq_refl : forall l, Subseq l l.
Proof. induction l; [apply ss_nil | apply ss_take; auto]. Qed.

Lemma Subseq_tail : forall x l1 l2, Subseq (x :: l1) l2 -> Subseq l1 l2.
Proof.
  intros x l1 l2; revert x l1; induction l2 as [|y l2 IH]; intros x l1 H; inversion H; subst.
  - constructor. eapply IH; eauto.
  - constructor; auto.
Qed.

Lemma Subseq_trans : forall a b c, Subseq a b -> Subseq b c -> Subseq a c.
Proof.
  intros a b c Hab Hbc; revert a Hab; induction Hbc; intros a Hab.
  - inversion Hab; constructor.
  - constructor; auto.
  - inversion Hab; subst.
    + constructor.
    + constructor; auto.
    + apply ss_take; auto.
Qed.

Lemma Subseq_app : forall a b c d, Subseq a b -> Subseq c d -> Subseq (a ++ c) (b ++ d).
Proof.
  intros a b c d Hab Hcd; induction Hab; simpl.
  - induction l; simpl; auto. constructor; auto.
  - constructor; auto.
  - apply ss_take; auto.
Qed.

Lemma Subseq_skipn : forall n l, Subseq (skipn n l) l.
Proof.
  induction n; intros l; simpl.
  - apply Subseq_refl.
  - destruct l; [constructor|]. constructor; auto.
Qed.

Lemma Subseq_app_r : forall a b, Subseq b (a ++ b).
Proof. induction a; simpl; intros; [apply Subseq_refl | constructor; auto]. Qed.

Lemma Subseq_nil_app : forall a b c, Subseq (a ++ c) (a ++ b ++ c).
Proof. intros. apply Subseq_app; [apply Subseq_refl | apply Subseq_app_r]. Qed.

Lemma subseqb_complete : forall l2 l1, Subseq l1 l2 -> subseqb l1 l2 = true.
Proof.
  induction l2 as [|y l2 IH]; intros l1 H.
  - inversion H; reflexivity.
  - destruct l1 as [|x l1]; [reflexivity|]. simpl.
    destruct (x =? y) eqn:E.
    + apply IH. inversion H; subst; auto. eapply Subseq_tail; eauto.
    + apply IH. inversion H; subst; auto. rewrite Z.eqb_refl in E; discriminate.
Qed.

Lemma subseqb_sound : forall l2 l1, subseqb l1 l2 = true -> Subseq l1 l2.
Proof.
  induction l2 as [|y l2 IH]; intros l1 H.
  - destruct l1; [constructor | discriminate].
  - destruct l1 as [|x l1]; [constructor|]. simpl in H.
    destruct (x =? y) eqn:E.
    + apply Z.eqb_eq in E; subst. apply ss_take; auto.
    + constructor; auto.
Qed.

(* ------------------------------------------------------------------ flights *)

Definition nfl (a : actor) (fs : list flight) : nat :=
  length (filter (fun f => actor_eqb (f_actor f) a) fs).

Definition arrived_count (want : bool) (fs : list flight) : Z :=
  fold_right (fun f acc => match f_stat f with
                           | Arrived ok => if Bool.eqb ok want then len (f_batch f) + acc else acc
                           | Transit => acc end) 0 fs.

Lemma actor_eqb_refl : forall a, actor_eqb a a = true.
Proof. destruct a; reflexivity. Qed.

Lemma actor_eqb_eq : forall a b, actor_eqb a b = true -> a = b.
Proof. destruct a, b; simpl; congruence. Qed.

Lemma nfl_app : forall a fs gs, nfl a (fs ++ gs) = (nfl a fs + nfl a gs)%nat.
Proof. intros; unfold nfl; rewrite filter_app; apply app_length. Qed.

Lemma flight_count_app : forall fs gs, flight_count (fs ++ gs) = flight_count fs + flight_count gs.
Proof. induction fs; simpl; intros; [lia | rewrite IHfs; lia]. Qed.

Lemma arrived_count_app : forall w fs gs, arrived_count w (fs ++ gs) = arrived_count w fs + arrived_count w gs.
Proof.
  induction fs as [|f fs IH]; simpl; intros; [lia|]. rewrite IH.
  destruct (f_stat f) as [|o]; [lia|]. destruct (Bool.eqb o w); lia.
Qed.

Lemma transit_app : forall fs gs, transit_alerts (fs ++ gs) = transit_alerts fs ++ transit_alerts gs.
Proof. intros; apply flat_map_app. Qed.

Lemma log_count_app : forall w l b ok, log_count w (l ++ [(b, ok)]) = log_count w l + (if Bool.eqb ok w then len b else 0).
Proof. induction l as [|e l IH]; simpl; intros. - destruct (Bool.eqb ok w); lia. - rewrite IH. destruct (Bool.eqb (snd e) w); lia. Qed.

Lemma log_alerts_app : forall l b ok, log_alerts (l ++ [(b, ok)]) = log_alerts l ++ b.
Proof. intros; unfold log_alerts; rewrite flat_map_app; simpl; rewrite app_nil_r; reflexivity. Qed.

Lemma has_flight_nfl : forall a fs, has_flight a fs = false <-> nfl a fs = 0%nat.
Proof.
  intros a fs; unfold has_flight, nfl; induction fs as [|f r IH]; simpl; [tauto|].
  destruct (actor_eqb (f_actor f) a); simpl; [split; discriminate | exact IH].
Qed.

(* The flight of [a], if there is one, is the first of its actor: removing and marking it act at
   that place; whether marking overtakes an older request is a question about what precedes it. *)
Lemma flight_split : forall a fs f, find_flight a fs = Some f ->
  f_actor f = a /\ exists pre post, fs = pre ++ f :: post /\ nfl a pre = 0%nat
    /\ remove_flight a fs = pre ++ post
    /\ forall ok, arrive_flight a ok fs =
         (pre ++ mkF (f_actor f) (f_batch f) (Arrived ok) :: post,
          existsb (fun g => match f_stat g with Transit => true | _ => false end) pre).
Proof.
  intros a fs; induction fs as [|g r IH]; simpl; intros f H; [discriminate|].
  destruct (actor_eqb (f_actor g) a) eqn:E.
  - injection H as <-. split; [apply actor_eqb_eq, E|]. exists [], r. auto.
  - destruct (IH f H) as (Ha & pre & post & -> & Hn & Hr & Hm). split; [exact Ha|].
    exists (g :: pre), post. unfold nfl in *. simpl. rewrite E, Hr. repeat split; auto.
    intros ok. rewrite Hm. destruct (f_stat g); reflexivity.
Qed.

Lemma loop_flight_count_all : forall fs, nfl Drainer fs = 0%nat -> loop_flight_count fs = flight_count fs.
Proof.
  unfold nfl; induction fs as [|f r IH]; simpl; intros H; auto.
  destruct (f_actor f); simpl in *; [rewrite IH; auto | discriminate].
Qed.

Lemma next_batch_split : forall c q b q', next_batch c q = (b, q') -> b ++ q' = q /\ (length b <= maxb c)%nat.
Proof.
  intros c q b q'; unfold next_batch. destruct (Nat.ltb (maxb c) (length q)) eqn:E; intros H; inversion H; subst.
  - split; [apply firstn_skipn|]. rewrite firstn_length; lia.
  - split; [apply app_nil_r|]. apply Nat.ltb_ge in E; lia.
Qed.

Lemma added_app : forall a b, added (a ++ b) = added a ++ added b.
Proof. intros; unfold added; apply flat_map_app. Qed.

Lemma nfl_cons : forall a f fs, nfl a (f :: fs) = ((if actor_eqb (f_actor f) a then 1 else 0) + nfl a fs)%nat.
Proof. intros. unfold nfl. simpl. destruct (actor_eqb (f_actor f) a); reflexivity. Qed.

Lemma nfl_one : forall a f, nfl a [f] = if actor_eqb (f_actor f) a then 1%nat else 0%nat.
Proof. intros. rewrite nfl_cons. unfold nfl. simpl. lia. Qed.

(* what marking / removing a's flight does to the measures of the list of flights *)
Lemma arrive_spec : forall a ok fs x b, find_flight a fs = Some (mkF x b Transit) ->
  let fs' := fst (arrive_flight a ok fs) in
  (forall a', nfl a' fs' = nfl a' fs) /\ flight_count fs' = flight_count fs
  /\ (forall w, arrived_count w fs' = arrived_count w fs + (if Bool.eqb ok w then len b else 0))
  /\ (forall P : list alert -> Prop,
       Forall (fun f => P (f_batch f)) fs -> Forall (fun f => P (f_batch f)) fs' /\ P b)
  /\ ((nfl Loop fs + nfl Drainer fs <= 1)%nat -> snd (arrive_flight a ok fs) = false).
Proof.
  intros a ok fs x b Ef. destruct (flight_split _ _ _ Ef) as (Ha & pre & post & -> & _ & _ & Hm).
  rewrite Hm. simpl. repeat split.
  - intros a'. rewrite !nfl_app, !nfl_cons. reflexivity.
  - rewrite !flight_count_app. reflexivity.
  - intros w. rewrite !arrived_count_app. simpl. destruct (Bool.eqb ok w); lia.
  - apply Forall_app in H. destruct H as [H1 H2]. inversion H2; subst. apply Forall_app. auto.
  - apply Forall_app in H. destruct H as [_ H2]. inversion H2; auto.
  - (* a lone request has nothing to overtake *)
    rewrite !nfl_app, !nfl_cons. simpl in Ha. subst x. simpl. destruct pre as [|g pre]; [reflexivity|].
    rewrite !nfl_cons. destruct a, (f_actor g); simpl; lia.
Qed.

Lemma remove_spec : forall a fs f, find_flight a fs = Some f ->
  let fs' := remove_flight a fs in
  f_actor f = a
  /\ (forall a', nfl a' fs = (nfl a' fs' + if actor_eqb a a' then 1 else 0)%nat)
  /\ flight_count fs = flight_count fs' + len (f_batch f)
  /\ (forall w, arrived_count w fs = arrived_count w fs' +
        match f_stat f with Arrived ok => if Bool.eqb ok w then len (f_batch f) else 0 | Transit => 0 end)
  /\ forall P : flight -> Prop, Forall P fs -> Forall P fs'.
Proof.
  intros a fs f Ef. destruct (flight_split _ _ _ Ef) as (Ha & pre & post & -> & _ & Hr & _).
  rewrite Hr. simpl. rewrite <- Ha. repeat split.
  - intros a'. rewrite !nfl_app, nfl_cons. lia.
  - rewrite !flight_count_app. simpl. lia.
  - intros w. rewrite !arrived_count_app. simpl. destruct (f_stat f) as [|o]; [lia|]. destruct (Bool.eqb o w); lia.
  - intros P H. apply Forall_app in H. destruct H as [H1 H2]. inversion H2; subst. apply Forall_app. auto.
Qed.

Definition run_from (c : cfg) (s : st) (ops : list op) : st := fold_left (step c) ops s.

Lemma run_snoc : forall c ops o, run c (ops ++ [o]) = step c (run c ops) o.
Proof. intros; unfold run; rewrite fold_left_app; reflexivity. Qed.

(* generic lifting of an invariant indexed by the ops performed so far *)
Lemma run_ind (c : cfg) (P : list op -> st -> Prop) :
  P [] init -> (forall ops s o, P ops s -> P (ops ++ [o]) (step c s o)) -> forall ops, P ops (run c ops).
Proof.
  intros H0 HS ops; induction ops as [|o ops IH] using rev_ind; [exact H0|].
  rewrite run_snoc; apply HS; exact IH.
Qed.

Definition size_ok (c : cfg) (b : list alert) : Prop := (0 < length b <= maxb c)%nat.

(* Control state and counters.  Each goroutine has at most one request in flight, the draining
   one exactly while it waits (DWait); the conservation equations of the property; what stop()
   wrote off covers the queue it left behind. *)
Record Inv (c : cfg) (s : st) : Prop := {
  i_loop : (nfl Loop (flights s) <= 1)%nat;
  i_drn : nfl Drainer (flights s) = match dp s with DWait => 1%nat | _ => 0%nat end;
  i_nodrain : drain c = false -> dp s = DIdle \/ dp s = DDone;
  i_done : dp s = DDone -> drain c = true -> queue s = [];
  i_idle : stopped s = false -> dp s = DIdle;
  i_flights : Forall (fun f => size_ok c (f_batch f)) (flights s);
  i_log : Forall (fun e => size_ok c (fst e)) (log s);
  i_num : accepted s = sent s + errors s + ovf s + len (queue s) + flight_count (flights s)
          /\ dropped s = ovf s + errors s + stopdrop s
          /\ sent s + arrived_count true (flights s) = log_count true (log s)
          /\ log_count false (log s) <= errors s + arrived_count false (flights s)
          /\ 0 <= ovf s /\ 0 <= stopdrop s /\ 0 <= errors s /\ 0 <= sent s;
  i_nodrop : stopped s = false \/ drain c = true -> stopdrop s = 0;
  i_stopq : stopped s = true -> drain c = false -> len (queue s) <= stopdrop s;
  i_inorder : drain c = false -> reordered s = false }.

Lemma Inv_init : forall c, Inv c init.
Proof. intros; constructor; simpl; auto; try lia; discriminate. Qed.

Lemma Inv_step : forall c s o, Inv c s -> Inv c (step c s o).
Proof.
  intros c s o I. pose proof I as [L1 D1 ND DN ID FB FL NUM NS SQ NR].
  destruct o as [al | a | a ok | a | | ]; simpl.
  - (* Add *)
    unfold do_add. destruct (stopped s) eqn:Es; [exact I|]. specialize (ID eq_refl).
    constructor; simpl; auto; try (rewrite ID; discriminate); try discriminate.
    unfold len in *. rewrite app_length, !skipn_length. lia.
  - (* Take *)
    unfold do_take. destruct (take_enabled s a) eqn:Et; simpl; [|exact I].
    destruct (next_batch c (queue s)) as [b q'] eqn:En.
    destruct (next_batch_split _ _ _ _ En) as [Hsp Hlen].
    assert (Hl : len (queue s) = len b + len q') by (rewrite <- Hsp; unfold len; rewrite app_length; lia).
    assert (Hq' : queue s = [] -> q' = []) by (rewrite <- Hsp; intros H; apply app_eq_nil in H; apply H).
    assert (Hdp : match a with Loop => nfl Loop (flights s) = 0%nat
                             | Drainer => dp s = DGo /\ stopped s = true /\ drain c = true end).
    { destruct a; simpl in Et.
      - apply andb_true_iff in Et. destruct Et as [Hnf _]. apply has_flight_nfl, negb_true_iff, Hnf.
      - destruct (dp s) eqn:Ed; try discriminate. repeat split.
        + destruct (stopped s); auto. specialize (ID eq_refl). discriminate.
        + destruct (drain c); auto. destruct (ND eq_refl); discriminate. }
    destruct b as [|x b].
    + (* nothing to send: only the queue variable and the drainer's pc are written *)
      simpl in Hsp. subst q'.
      destruct a; [|destruct Hdp as (Ed & Hst & Hdr); rewrite Ed in D1];
        constructor; simpl; auto; try discriminate; try congruence.
    + assert (Hsz : size_ok c (x :: b)) by (unfold size_ok; simpl in *; lia).
      assert (Hlen0 : 0 <= len q' /\ 0 <= len (x :: b)) by (unfold len; lia).
      destruct a; [|destruct Hdp as (Ed & Hst & Hdr); rewrite Ed in D1];
        constructor; simpl; rewrite ?nfl_app, ?nfl_one, ?flight_count_app, ?arrived_count_app; simpl;
        auto; try discriminate; try congruence; try lia.
      all: try (intros H1 H2; specialize (SQ H1 H2); lia).
      all: apply Forall_app; split; [assumption | constructor; [assumption | constructor]].
  - (* Arrive *)
    unfold do_arrive. destruct (find_flight a (flights s)) as [[x b [|o]]|] eqn:Ef; try exact I.
    destruct (arrive_spec a ok _ _ _ Ef) as (Hn & Hc & Ha & HF & Hov).
    destruct (arrive_flight a ok (flights s)) as [fs' ov]. simpl in Hn, Hc, Ha, HF, Hov.
    destruct (HF _ FB) as [FB' Hb].
    constructor; simpl; rewrite ?Hn, ?Hc, ?Ha, ?log_count_app; auto.
    + apply Forall_app; split; [assumption | constructor; [assumption | constructor]].
    + destruct ok; simpl; lia.
    + intros Hd. rewrite (NR Hd), Hov; [reflexivity|]. rewrite D1. destruct (ND Hd) as [-> | ->]; lia.
  - (* Respond *)
    unfold do_respond. destruct (find_flight a (flights s)) as [[x b stt]|] eqn:Ef; [|exact I].
    destruct (remove_spec _ _ _ Ef) as (Hx & Hn & Hc & Ha & HF). simpl in Hx, Hc, Ha. subst x.
    pose proof (Hn Loop) as HnL. pose proof (Hn Drainer) as HnD. pose proof (Ha true) as Hat. pose proof (Ha false) as Haf.
    assert (Hb : 0 <= len b) by (unfold len; lia).
    destruct a; simpl in HnL, HnD.
    + constructor; simpl; auto; try lia. destruct stt as [|[|]]; simpl in *; lia.
    + assert (Ed : dp s = DWait) by (destruct (dp s); auto; lia). rewrite Ed in D1.
      assert (Hdr : drain c = true) by (destruct (drain c); auto; destruct (ND eq_refl); congruence).
      assert (Hst : stopped s = true) by (destruct (stopped s); auto; specialize (ID eq_refl); congruence).
      constructor; simpl; auto; try lia; try discriminate; try congruence.
      destruct stt as [|[|]]; simpl in *; lia.
  - (* Stop *)
    unfold do_stop. destruct (stopped s) eqn:Es; [exact I|]. specialize (ID eq_refl). rewrite ID in D1.
    assert (Hq : 0 <= len (queue s)) by (unfold len; lia). specialize (NS (or_introl eq_refl)).
    destruct (drain c) eqn:Ed; constructor; simpl; auto; try discriminate; try congruence; try lia.
    intros [H|H]; congruence.
  - (* DrainCheck *)
    unfold do_draincheck. destruct (dp s) eqn:Ed; try exact I.
    assert (Hdr : drain c = true) by (destruct (drain c); auto; destruct (ND eq_refl); discriminate).
    assert (Hst : stopped s = true) by (destruct (stopped s); auto; discriminate (ID eq_refl)).
    destruct (queue s) eqn:Eq; constructor; simpl; auto; try discriminate; try congruence.
Qed.

Lemma Inv_run : forall c ops, Inv c (run c ops).
Proof.
  intros c ops. apply (run_ind c (fun _ s => Inv c s)); [apply Inv_init | intros; apply Inv_step; auto].
Qed.

(* ------------------------------------------------------------------ order *)

Definition InvS (ops : list op) (s : st) : Prop :=
  reordered s = false ->
  Subseq (log_alerts (log s) ++ transit_alerts (flights s) ++ queue s) (added ops).

Lemma no_transit : forall fs,
  existsb (fun g => match f_stat g with Transit => true | _ => false end) fs = false -> transit_alerts fs = [].
Proof.
  induction fs as [|g r IH]; simpl; intros H; [reflexivity|].
  destruct (f_stat g); [discriminate | exact (IH H)].
Qed.

Lemma InvS_step : forall c ops s o, InvS ops s -> InvS (ops ++ [o]) (step c s o).
Proof.
  intros c ops s o I. unfold InvS in *. rewrite added_app.
  destruct o as [al | a | a ok | a | | ]; simpl; rewrite ?app_nil_r.
  - unfold do_add. destruct (stopped s) eqn:Es.
    + intros Hr. eapply Subseq_trans; [apply (I Hr)|].
      rewrite <- (app_nil_r (added ops)) at 1. apply Subseq_app; [apply Subseq_refl | constructor].
    + simpl. intros Hr. rewrite !app_assoc. apply Subseq_app; [|apply Subseq_skipn].
      eapply Subseq_trans; [|apply (I Hr)].
      rewrite <- !app_assoc. apply Subseq_app; [apply Subseq_refl|].
      apply Subseq_app; [apply Subseq_refl | apply Subseq_skipn].
  - unfold do_take. destruct (take_enabled s a); simpl; [|auto].
    destruct (next_batch c (queue s)) as [b q'] eqn:En.
    destruct (next_batch_split _ _ _ _ En) as [Hsp _].
    destruct b as [|x b]; simpl; intros Hr.
    + simpl in Hsp; subst q'. auto.
    + rewrite transit_app. simpl. rewrite app_nil_r, <- app_assoc, Hsp. auto.
  - unfold do_arrive. destruct (find_flight a (flights s)) as [[x b [|o]]|] eqn:Ef; auto.
    destruct (flight_split _ _ _ Ef) as (_ & pre & post & Hfs & _ & _ & Hm). rewrite Hm. simpl.
    intros Hr. apply orb_false_iff in Hr. destruct Hr as [Hr Hov]. specialize (I Hr).
    rewrite Hfs, !transit_app, (no_transit _ Hov) in I. simpl in I.
    rewrite !transit_app, (no_transit _ Hov), log_alerts_app. simpl. rewrite <- !app_assoc in *. exact I.
  - unfold do_respond. destruct (find_flight a (flights s)) as [[x b stt]|] eqn:Ef; auto.
    destruct (flight_split _ _ _ Ef) as (_ & pre & post & Hfs & _ & Hr & _). rewrite Hr. simpl.
    intros Hro. eapply Subseq_trans; [|apply (I Hro)]. rewrite Hfs, !transit_app.
    repeat (apply Subseq_app; try apply Subseq_refl). simpl. apply Subseq_app_r.
  - unfold do_stop. destruct (stopped s); auto. destruct (drain c); simpl; auto.
  - unfold do_draincheck. destruct (dp s); auto.
Qed.

Lemma InvS_run : forall c ops, InvS ops (run c ops).
Proof.
  intros c ops. apply (run_ind c InvS).
  - intros _. simpl. constructor.
  - intros; apply InvS_step; auto.
Qed.

Lemma subseq_of_prefix : forall a b c, Subseq (a ++ b) c -> Subseq a c.
Proof.
  intros a b c H. eapply Subseq_trans; [|exact H].
  rewrite <- (app_nil_r a) at 1. apply Subseq_app; [apply Subseq_refl | constructor].
Qed.

Theorem subsequence : forall c ops, reordered (run c ops) = false ->
  subseqb (log_alerts (log (run c ops))) (added ops) = true.
Proof.
  intros c ops Hr. apply subseqb_complete. eapply subseq_of_prefix. apply (InvS_run c ops Hr).
Qed.

Definition InvR (c : cfg) (s : st) : Prop := drain c = false -> reordered s = false.

Lemma no_reorder_nodrain : forall c ops, drain c = false -> reordered (run c ops) = false.
Proof. intros c ops. apply (Inv_run c ops). Qed.

(* ------------------------------------------------------------------ consequences of the invariant *)

Theorem batch_bound : forall c ops, batches_ok c (log (run c ops)) = true.
Proof.
  intros c ops. pose proof (i_log _ _ (Inv_run c ops)) as FL.
  unfold batches_ok. apply forallb_forall. intros e He.
  rewrite Forall_forall in FL. specialize (FL _ He). unfold size_ok in FL.
  apply andb_true_iff; split; [apply Nat.ltb_lt | apply Nat.leb_le]; lia.
Qed.

Theorem accounting : forall c ops, let s := run c ops in
  accepted s = sent s + errors s + ovf s + len (queue s) + flight_count (flights s)
  /\ dropped s = ovf s + errors s + stopdrop s
  /\ sent s + arrived_count true (flights s) = log_count true (log s)
  /\ log_count false (log s) <= errors s + arrived_count false (flights s)
  /\ (stopped s = false -> accepted s = sent s + dropped s + len (queue s) + flight_count (flights s)).
Proof.
  intros c ops s. destruct (Inv_run c ops) as [_ _ _ _ _ _ _ NUM NS _]. fold s in NUM, NS.
  repeat split; try apply NUM. intros H. specialize (NS (or_introl H)). lia.
Qed.

Lemma finished_inv : forall s, finished s = true -> stopped s = true /\ dp s = DDone /\ flights s = [].
Proof.
  intros s H. unfold finished in H. apply andb_true_iff in H; destruct H as [H H3].
  apply andb_true_iff in H; destruct H as [H1 H2].
  destruct (dp s); try discriminate. destruct (flights s); try discriminate. auto.
Qed.

Theorem drain_complete : forall c ops, let s := run c ops in drain c = true -> dp s = DDone ->
  queue s = [] /\ nfl Drainer (flights s) = 0%nat
  /\ accepted s = sent s + dropped s + loop_flight_count (flights s).
Proof.
  intros c ops s Hdr Hd. destruct (Inv_run c ops) as [_ D1 _ DN _ _ _ NUM NS _]. fold s in D1, DN, NUM, NS.
  rewrite Hd in D1. specialize (DN Hd Hdr). specialize (NS (or_intror Hdr)).
  rewrite (loop_flight_count_all _ D1). rewrite DN in *. unfold len in NUM. simpl in NUM.
  repeat split; auto. lia.
Qed.

Theorem every_loss_counted : forall c ops, let s := run c ops in finished s = true ->
  accepted s <= sent s + dropped s
  /\ (drain c = true -> accepted s = sent s + dropped s /\ queue s = [])
  /\ sent s = log_count true (log s).
Proof.
  intros c ops s Hf. destruct (finished_inv _ Hf) as (Hs & Hd & Hfl).
  pose proof (drain_complete c ops) as DC. cbv zeta in DC. destruct (Inv_run c ops) as [_ _ _ _ _ _ _ NUM _ SQ].
  fold s in DC, NUM, SQ. rewrite Hfl in *. simpl in *.
  split; [|split; [|lia]].
  - destruct (drain c); [destruct (DC eq_refl Hd) as (_ & _ & ->); lia | specialize (SQ Hs eq_refl); lia].
  - intros Hdr. destruct (DC Hdr Hd) as (Hq & _ & ->). split; [lia | exact Hq].
Qed.

(* ------------------------------------------------------------------ oldest first *)

Theorem add_oldest_first : forall c s al, stopped s = false ->
  let s' := step c s (Add al) in
  exists d : nat,
    queue s' = skipn d (queue s ++ al)
    /\ length (queue s') = Nat.min (cap c) (length (queue s) + length al)
    /\ dropped s' = dropped s + Z.of_nat d
    /\ log s' = log s /\ flights s' = flights s /\ sent s' = sent s /\ errors s' = errors s.
Proof.
  intros c s al Hs. simpl. unfold do_add. rewrite Hs. simpl.
  remember (length al - cap c)%nat as d1 eqn:Hd1.
  remember (length (queue s) + length (skipn d1 al) - cap c)%nat as d2 eqn:Hd2.
  exists (d1 + d2)%nat.
  assert (Hl : length (skipn d1 al) = (length al - d1)%nat) by apply skipn_length.
  repeat split; auto; try lia.
  - rewrite skipn_app.
    destruct (Nat.eq_dec d1 0) as [E|E].
    + rewrite E in *. simpl. replace (d2 - length (queue s))%nat with 0%nat by lia. reflexivity.
    + assert (H : d2 = length (queue s)) by lia.
      rewrite H. rewrite skipn_all. rewrite (skipn_all2 (queue s)) by lia. simpl.
      replace (d1 + length (queue s) - length (queue s))%nat with d1 by lia. reflexivity.
  - rewrite app_length, skipn_length, Hl. lia.
Qed.

(* ------------------------------------------------------------------ response status *)

Lemma status_ok_spec : forall st, status_ok st = true <-> 200 <= st < 300.
Proof.
  intros st. unfold status_ok. rewrite Z.eqb_eq. Z.to_euclidean_division_equations; lia.
Qed.

(* ------------------------------------------------------------------ witnesses *)

Definition cfg_w := mkCfg 6 2 true.
Definition ops_reorder : list op :=
  [Add [1;2;3;4]; Take Loop; Stop; DrainCheck; Take Drainer; Arrive Drainer true; Respond Drainer;
   DrainCheck; Arrive Loop true; Respond Loop].

Definition ops_overcount : list op := [Add [1;2;3]; Stop; Take Loop; Arrive Loop true; Respond Loop].

(* non-vacuity: a run that overflows, fails a delivery, drains on stop and finishes *)
Definition ops_nv : list op :=
  [Add [1;2;3;4;5]; Add [6;7;8]; Take Loop; Arrive Loop true; Add [9]; Respond Loop;
   Take Loop; Respond Loop; Stop; DrainCheck; Take Drainer; Arrive Drainer false; Respond Drainer;
   DrainCheck; Take Drainer; Arrive Drainer true; Respond Drainer; DrainCheck].

