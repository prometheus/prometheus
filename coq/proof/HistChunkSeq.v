(* proof/HistChunkSeq.v — the sequence-level round trip: chunk invariant, what appendHistogram
   (append_raw) and recode do to a chunk, one AppendHistogram call on either path, whole series. *)
From Coq Require Import List ZArith Bool Lia.
From Verif Require Import model.HistChunk proof.HistChunkProofs proof.HistChunkIns
  proof.HistChunkMaps proof.HistChunkCounter.
Import ListNotations.
Open Scope Z_scope.

(* spans whose bucket indices increase strictly (valid spans, and everything addBucket builds) *)
Definition ok_spans (l : list span) : Prop :=
  (exists lo, incr lo (idxs l)) /\ Forall (fun s => 0 <= s_len s) l.

Lemma wf_ok l : wf_spans l -> ok_spans l.
Proof. intros H. split; [now apply idxs_incr|now apply wf_spans_len]. Qed.

Lemma ok_spans_of lo M : incr lo M -> ok_spans (spans_of M).
Proof. intros H. split; [exists lo; now rewrite idxs_spans_of|apply spans_of_len]. Qed.

Lemma ok_count l : ok_spans l -> Z.of_nat (length (idxs l)) = count_spans l.
Proof. intros [_ H]. now apply idxs_from_length. Qed.

Definition zt_rel (x y : Z) : Prop := x = y \/ feq x y = true.

Lemma fnorm_idem z : fnorm (fnorm z) = fnorm z.
Proof. unfold fnorm. destruct (fis_zero z) eqn:E; [reflexivity|]. now rewrite E. Qed.

Lemma fnorm_rel z : 0 <= z -> zt_rel (fnorm z) z.
Proof.
  intros Hz. unfold fnorm, zt_rel. destruct (fis_zero z) eqn:E; [|now left]. right.
  unfold fis_zero in E. apply Z.eqb_eq in E. unfold feq, fnan, fkey. rewrite E.
  change (fmag 0) with 0. cbn [Z.ltb Z.compare negb andb].
  change (two63 <=? 0) with false. cbn iota. destruct (two63 <=? z); now rewrite ?Z.eqb_refl.
Qed.

Lemma map_fnorm_idem l : map fnorm (map fnorm l) = map fnorm l.
Proof. rewrite map_map. apply map_ext. intros; apply fnorm_idem. Qed.

Lemma map_fnorm_rel l : Forall (fun z => 0 <= z) l -> Forall2 zt_rel (map fnorm l) l.
Proof. induction 1; simpl; constructor; auto using fnorm_rel. Qed.

Lemma feq_sym a b : feq a b = feq b a.
Proof. unfold feq. rewrite (Z.eqb_sym (fkey a)). destruct (fnan a), (fnan b); reflexivity. Qed.

Lemma bounds_rel a b : bounds_match a b = true -> Forall2 zt_rel b a.
Proof.
  revert b. induction a as [|x a IH]; intros b H; destruct b as [|y b]; simpl in H; try discriminate; constructor.
  - right. rewrite feq_sym. now destruct (feq x y).
  - apply IH. now destruct (feq x y).
Qed.

Definition norm_layout (c : chunk) : Prop :=
  fnorm (c_zt c) = c_zt c /\
  (if c_schema c =? custom_schema then map fnorm (c_custom c) else []) = c_custom c.

Definition samp_ok (ps ns : list span) (s : samp) : Prop :=
  is_stale (sm_sum s) = true \/
  (Z.of_nat (length (sm_pb s)) = count_spans ps /\ Z.of_nat (length (sm_nb s)) = count_spans ns).

Record inv (c : chunk) : Prop := mkInv {
  inv_ne : c_samples c <> [];
  inv_ps : ok_spans (c_ps c);
  inv_ns : ok_spans (c_ns c);
  inv_norm : norm_layout c;
  inv_samples : Forall (samp_ok (c_ps c) (c_ns c)) (c_samples c);
  inv_apb : Z.of_nat (length (a_pb c)) = count_spans (c_ps c);
  inv_anb : Z.of_nat (length (a_nb c)) = count_spans (c_ns c);
  inv_stale : is_stale (a_sum c) = false ->
              Forall (fun s => is_stale (sm_sum s) = false) (c_samples c) }.

(* validity of an appended histogram as far as this layer cares (Histogram.Validate) *)
Definition valid_h (h : hist) : Prop :=
  0 <= h_zt h /\ Forall (fun z => 0 <= z) (h_custom h) /\
  (is_stale (h_sum h) = true \/
   (wf_spans (h_ps h) /\ wf_spans (h_ns h) /\
    Z.of_nat (length (h_pb h)) = count_spans (h_ps h) /\
    Z.of_nat (length (h_nb h)) = count_spans (h_ns h) /\
    (h_schema h <> custom_schema -> h_custom h = []))).

Definition same_scalars (x y : hist) : Prop :=
  h_schema x = h_schema y /\ h_zt x = h_zt y /\ h_custom x = h_custom y /\
  h_count x = h_count y /\ h_zcount x = h_zcount y /\ h_sum x = h_sum y.

(* a stored sample read back before and after its chunk was re-coded *)
Definition rd_eq (k : kind) (x y : Z * hist) : Prop :=
  fst x = fst y /\ same_scalars (snd x) (snd y) /\
  same_map k (h_ps (snd x)) (h_pb (snd x)) (h_ps (snd y)) (h_pb (snd y)) /\
  same_map k (h_ns (snd x)) (h_nb (snd x)) (h_ns (snd y)) (h_nb (snd y)).

(* a read-back sample against the histogram that was appended at time t *)
Definition sem (k : kind) (x : Z * hist) (t : Z) (h : hist) : Prop :=
  fst x = t /\
  if is_stale (h_sum h) then is_stale (h_sum (snd x)) = true
  else h_sum (snd x) = h_sum h /\ h_count (snd x) = h_count h /\ h_zcount (snd x) = h_zcount h /\
       h_schema (snd x) = h_schema h /\ zt_rel (h_zt (snd x)) (h_zt h) /\
       Forall2 zt_rel (h_custom (snd x)) (h_custom h) /\
       same_map k (h_ps (snd x)) (h_pb (snd x)) (h_ps h) (h_pb h) /\
       same_map k (h_ns (snd x)) (h_nb (snd x)) (h_ns h) (h_nb h).

Lemma rd_eq_refl k x : rd_eq k x x.
Proof. unfold rd_eq, same_scalars, same_map. intuition. Qed.

Lemma Forall2_rd_refl k l : Forall2 (rd_eq k) l l.
Proof. induction l; constructor; auto using rd_eq_refl. Qed.

Lemma rd_eq_sem k x y t h : rd_eq k x y -> sem k y t h -> sem k x t h.
Proof.
  intros (Ht & (S1 & S2 & S3 & S4 & S5 & S6) & Mp & Mn) [Hy Hs]. split; [congruence|].
  destruct (is_stale (h_sum h)); [now rewrite S6|].
  destruct Hs as (A1 & A2 & A3 & A4 & A5 & A6 & A7 & A8).
  rewrite S1, S2, S3, S4, S5, S6. repeat split; auto.
  - intros i. now rewrite Mp.
  - intros i. now rewrite Mn.
Qed.

Lemma copy_into_same dst src : Z.of_nat (length src) = Z.of_nat (length dst) -> copy_into dst src = src.
Proof.
  intros H. apply Nat2Z.inj in H. unfold copy_into. rewrite <- H, firstn_all, skipn_all2 by lia. apply app_nil_r.
Qed.
Lemma copy_into_nil dst : copy_into dst [] = dst.
Proof. unfold copy_into. now rewrite firstn_nil. Qed.

Lemma zeros_length l : Forall (fun s => 0 <= s_len s) l -> Z.of_nat (length (zeros (count_spans l))) = count_spans l.
Proof.
  intros H. unfold zeros. rewrite repeat_length. assert (0 <= count_spans l) by (induction H; simpl; lia). lia.
Qed.

(* a live sample into an empty chunk: it fixes the layout, with -0 normalised *)
Lemma fresh_live (c0 : chunk) t h :
  c_samples c0 = [] -> is_stale (h_sum h) = false ->
  ok_spans (h_ps h) -> ok_spans (h_ns h) ->
  Z.of_nat (length (h_pb h)) = count_spans (h_ps h) ->
  Z.of_nat (length (h_nb h)) = count_spans (h_ns h) ->
  let cu := if h_schema h =? custom_schema then map fnorm (h_custom h) else [] in
  let c' := append_raw c0 t h in
  inv c' /\ is_stale (a_sum c') = false /\ c_gauge c' = c_gauge c0 /\ c_schema c' = h_schema h /\
  c_zt c' = fnorm (h_zt h) /\ c_custom c' = cu /\ c_ps c' = h_ps h /\ c_ns c' = h_ns h /\
  read_chunk c' = [(t, mkH (if c_gauge c0 then HGauge else HUnknown) (h_schema h) (fnorm (h_zt h)) cu
                           (h_count h) (h_zcount h) (h_sum h) (h_ps h) (h_ns h) (h_pb h) (h_nb h))].
Proof.
  intros E0 Es Op On Lp Ln. unfold append_raw. rewrite E0, Es. cbn zeta.
  rewrite !copy_into_same by (rewrite zeros_length; [assumption|apply Op || apply On]).
  split; [|unfold read_chunk, read_samp; cbn; rewrite Es; repeat split; assumption].
  constructor; cbn [c_samples c_ps c_ns c_zt c_schema c_custom a_pb a_nb a_sum]; try assumption.
  - discriminate.
  - split; cbn [c_zt c_schema c_custom]; [apply fnorm_idem|].
    destruct (h_schema h =? custom_schema); [apply map_fnorm_idem|reflexivity].
  - constructor; [right; cbn [sm_pb sm_nb]; auto|constructor].
  - intros _. constructor; [exact Es|constructor].
Qed.

Lemma fresh_chunk k (c0 : chunk) t h :
  c_samples c0 = [] -> valid_h h ->
  let c' := append_raw c0 t h in
  inv c' /\ exists x, read_chunk c' = [x] /\ sem k x t h.
Proof.
  intros E0 (Hzt & Hcu & V). destruct (is_stale (h_sum h)) eqn:Es.
  - (* staleness marker *)
    unfold append_raw. rewrite E0, Es. cbn zeta. split.
    + constructor; cbn; try (split; [exists 0; exact I|constructor]); try reflexivity;
        [discriminate|split; reflexivity|constructor; [now left|constructor]|congruence].
    + eexists. split; [reflexivity|]. unfold read_samp, sem. cbn. rewrite !Es. now split.
  - destruct V as [V|(Wp & Wn & Lp & Ln & Hc)]; [congruence|].
    destruct (fresh_live c0 t h E0 Es (wf_ok _ Wp) (wf_ok _ Wn) Lp Ln) as (I' & _ & _ & _ & _ & _ & _ & _ & R).
    split; [exact I'|]. eexists. split; [exact R|]. unfold sem. cbn. rewrite Es.
    repeat split; auto using fnorm_rel.
    destruct (Z.eqb_spec (h_schema h) custom_schema) as [E|E]; [now apply map_fnorm_rel|].
    rewrite (Hc E). constructor.
Qed.

Definition lay_eq (c' c : chunk) (ps ns : list span) : Prop :=
  c_gauge c' = c_gauge c /\ c_schema c' = c_schema c /\ c_zt c' = c_zt c /\ c_custom c' = c_custom c /\
  c_ps c' = ps /\ c_ns c' = ns.

Definition live_read (c : chunk) (t : Z) (h : hist) (ps ns : list span) : Z * hist :=
  (t, mkH (if c_gauge c then HGauge else HUnknown) (c_schema c) (c_zt c) (c_custom c)
          (h_count h) (h_zcount h) (h_sum h) ps ns (h_pb h) (h_nb h)).

Lemma append_live c t h :
  inv c -> is_stale (h_sum h) = false -> is_stale (a_sum c) = false ->
  Z.of_nat (length (h_pb h)) = count_spans (c_ps c) ->
  Z.of_nat (length (h_nb h)) = count_spans (c_ns c) ->
  let c' := append_raw c t h in
  inv c' /\ lay_eq c' c (c_ps c) (c_ns c) /\ is_stale (a_sum c') = false /\
  read_chunk c' = read_chunk c ++ [live_read c t h (c_ps c) (c_ns c)].
Proof.
  intros I Es Ea Lp Ln. destruct I as [Ine Ips Ins Inorm Isam Iapb Ianb Istale].
  unfold append_raw. rewrite Es. destruct (c_samples c) as [|s0 rest] eqn:E0; [congruence|]. cbn zeta.
  rewrite !copy_into_same by congruence.
  split; [|split; [|split]].
  - constructor; cbn [c_samples c_ps c_ns c_zt c_schema c_custom a_pb a_nb a_sum]; try assumption.
    + destruct rest; discriminate.
    + apply Forall_app. split; [assumption|]. constructor; [right; cbn [sm_pb sm_nb]; auto|constructor].
    + intros _. apply Forall_app. split; [now apply Istale|]. constructor; [exact Es|constructor].
  - unfold lay_eq. cbn. repeat split; reflexivity.
  - exact Es.
  - unfold read_chunk. cbn [c_samples]. rewrite E0, map_app. f_equal.
    cbn [map]. unfold read_samp, live_read. cbn. now rewrite Es.
Qed.

Lemma append_stale c t h :
  inv c -> is_stale (h_sum h) = true ->
  let c' := append_raw c t h in
  inv c' /\ read_chunk c' = read_chunk c ++ [(t, empty_hist (h_sum h))].
Proof.
  intros I Es. destruct I as [Ine Ips Ins Inorm Isam Iapb Ianb Istale].
  unfold append_raw. rewrite Es. destruct (c_samples c) as [|s0 rest] eqn:E0; [congruence|]. cbn zeta.
  cbn [empty_hist h_count h_zcount h_sum h_pb h_nb]. rewrite !copy_into_nil. split.
  - constructor; cbn [c_samples c_ps c_ns c_zt c_schema c_custom a_pb a_nb a_sum]; try assumption.
    + destruct rest; discriminate.
    + apply Forall_app. split; [assumption|]. constructor; [now left|constructor].
    + congruence.
  - unfold read_chunk. cbn [c_samples]. rewrite E0, map_app. f_equal.
    cbn [map]. unfold read_samp. cbn [sm_sum sm_t]. now rewrite Es.
Qed.

(* the insert list P (applied only if non-empty, as recode / recodeHistogram do) takes any bucket
   slice laid out on the spans [from] to one laid out on [sp], keeping its map *)
Definition relays (k : kind) (P : list ins) (from sp : list span) : Prop :=
  forall b, Z.of_nat (length b) = count_spans from ->
    exists out, (if nonempty P then insert_go (is_deltas k) b P (count_spans sp) else Ok b) = Ok out /\
                Z.of_nat (length out) = count_spans sp /\ same_map k sp out from b.

Section Recode.
  Variables (k : kind) (c : chunk) (pFw nFw : list ins) (ps' ns' : list span).
  Hypothesis Ic : inv c.
  Hypothesis Ops : ok_spans ps'.
  Hypothesis Ons : ok_spans ns'.
  Hypothesis TP : relays k pFw (c_ps c) ps'.
  Hypothesis TN : relays k nFw (c_ns c) ns'.

  Definition tgt (a : chunk) : Prop := inv a /\ lay_eq a c ps' ns' /\ is_stale (a_sum a) = false.

  Definition live_ok (s : samp) : Prop :=
    is_stale (sm_sum s) = false /\
    Z.of_nat (length (sm_pb s)) = count_spans (c_ps c) /\ Z.of_nat (length (sm_nb s)) = count_spans (c_ns c).

  (* one stored sample re-appended to the chunk under construction (empty at first) *)
  Lemma recode_step a s :
    tgt a \/ (c_samples a = [] /\ c_gauge a = c_gauge c) -> live_ok s ->
    exists a', recode_one k pFw nFw ps' ns' (Ok a) (read_samp c s) = Ok a' /\ tgt a' /\
               exists x, read_chunk a' = read_chunk a ++ [x] /\ rd_eq k x (read_samp c s).
  Proof.
    intros Ha (Es & Lp & Ln).
    destruct (TP _ Lp) as (op & Ep & Lop & Mp). destruct (TN _ Ln) as (on & En & Lon & Mn).
    unfold recode_one, read_samp. rewrite Es. cbn [bind h_pb h_nb]. rewrite Ep, En. cbn [bind].
    set (h2 := with_layout _ ps' ns' op on).
    assert (Es2 : is_stale (h_sum h2) = false) by exact Es.
    destruct Ic as [_ _ _ [Nz Nc] _ _ _ _]. eexists. split; [reflexivity|].
    destruct Ha as [(Ia & (G1 & G2 & G3 & G4 & G5 & G6) & Sa)|[E0 Eg]].
    - destruct (append_live a (sm_t s) h2 Ia Es2 Sa) as (I' & (L1 & L2 & L3 & L4 & L5 & L6) & S' & R');
        [subst h2; cbn [with_layout h_pb h_nb]; congruence..|].
      split; [split; [exact I'|split; [unfold lay_eq; repeat split; congruence|exact S']]|].
      eexists. split; [exact R'|]. unfold live_read, rd_eq, same_scalars. cbn.
      rewrite G2, G3, G4, G5, G6. repeat split; assumption.
    - destruct (fresh_live a (sm_t s) h2 E0 Es2) as (I' & S' & F1 & F2 & F3 & F4 & F5 & F6 & R'); auto.
      cbn [h2 with_layout h_zt h_schema h_custom h_ps h_ns h_pb h_nb h_count h_zcount h_sum] in *.
      rewrite Nz in *. rewrite Nc in *.
      split; [split; [exact I'|split; [unfold lay_eq; repeat split; congruence|exact S']]|].
      eexists. split; [rewrite R'; unfold read_chunk; now rewrite E0|].
      unfold rd_eq, same_scalars. cbn. repeat split; assumption.
  Qed.

  Lemma recode_fold l : forall a,
    tgt a \/ (c_samples a = [] /\ c_gauge a = c_gauge c) -> Forall live_ok l ->
    exists a', fold_left (recode_one k pFw nFw ps' ns') (map (read_samp c) l) (Ok a) = Ok a' /\
               (l <> [] -> tgt a') /\
               exists L, read_chunk a' = read_chunk a ++ L /\ Forall2 (rd_eq k) L (map (read_samp c) l).
  Proof.
    induction l as [|s l IH]; intros a Ha Hl.
    - exists a. split; [reflexivity|]. split; [congruence|]. exists []. rewrite app_nil_r. split; [reflexivity|constructor].
    - inversion Hl as [|? ? Hs Hl']; subst.
      destruct (recode_step a s Ha Hs) as (a1 & E1 & T1 & x & R1 & Q1).
      destruct (IH a1 (or_introl T1) Hl') as (a' & E' & T' & L & R' & Q').
      exists a'. cbn [map fold_left]. rewrite E1. split; [exact E'|]. split.
      + intros _. destruct l; [cbn in E'; inversion E'; subst; exact T1|apply T'; discriminate].
      + exists (x :: L). rewrite R', R1, <- app_assoc. split; [reflexivity|]. constructor; assumption.
  Qed.

  Lemma recode_correct :
    Forall (fun s => is_stale (sm_sum s) = false) (c_samples c) ->
    exists c'', recode k c pFw nFw ps' ns' = Ok c'' /\ tgt c'' /\
                Forall2 (rd_eq k) (read_chunk c'') (read_chunk c).
  Proof.
    intros Hlive. unfold recode.
    assert (Hl : Forall live_ok (c_samples c)).
    { pose proof (inv_samples c Ic) as Hs. rewrite Forall_forall in *. intros s Hin.
      specialize (Hs s Hin). specialize (Hlive s Hin). destruct Hs as [Hs|[H1 H2]]; [congruence|].
      repeat split; assumption. }
    destruct (recode_fold (c_samples c) (empty_chunk (c_gauge c)) (or_intror (conj eq_refl eq_refl)) Hl)
      as (c'' & E & T & L & R & Q).
    exists c''. split; [exact E|]. split; [apply T, (inv_ne c Ic)|].
    change (read_chunk (empty_chunk (c_gauge c))) with (@nil (Z * hist)) in R. cbn [app] in R. now rewrite R.
  Qed.
End Recode.

(* the caller's histogram after the call is the same histogram *)
Definition input_same (k : kind) (h1 h : hist) : Prop :=
  h_hint h1 = h_hint h /\ same_scalars h1 h /\
  (is_stale (h_sum h) = true \/
   (same_map k (h_ps h1) (h_pb h1) (h_ps h) (h_pb h) /\ same_map k (h_ns h1) (h_nb h1) (h_ns h) (h_nb h))).

Definition step_ok (k : kind) (c : chunk) (t : Z) (h : hist) (r : hist * outcome) : Prop :=
  input_same k (fst r) h /\
  match snd r with
  | Same c' | Recoded c' =>
      inv c' /\ exists L x, read_chunk c' = L ++ [x] /\ Forall2 (rd_eq k) L (read_chunk c) /\ sem k x t h
  | NewChunk c' => inv c' /\ exists x, read_chunk c' = [x] /\ sem k x t h
  end.

Lemma input_same_refl k h : input_same k h h.
Proof. unfold input_same, same_scalars, same_map. intuition. Qed.

Lemma new_chunk_ok k g c t h : valid_h h -> step_ok k c t h (h, NewChunk (append_raw (empty_chunk g) t h)).
Proof.
  intros V. split; [apply input_same_refl|]. exact (fresh_chunk k (empty_chunk g) t h eq_refl V).
Qed.

Lemma stale_ok k c t h : inv c -> is_stale (h_sum h) = true -> step_ok k c t h (h, Same (append_raw c t h)).
Proof.
  intros Ic Es. split; [apply input_same_refl|]. destruct (append_stale c t h Ic Es) as (I' & R').
  split; [exact I'|]. exists (read_chunk c). eexists. split; [exact R'|]. split; [apply Forall2_rd_refl|].
  split; [reflexivity|]. now rewrite Es.
Qed.

(* the chunk and the sample agree on everything but the layout *)
Definition compatible (c : chunk) (h : hist) : Prop :=
  is_stale (h_sum h) = false /\ is_stale (a_sum c) = false /\ h_schema h = c_schema c /\
  feq (h_zt h) (c_zt c) = true /\ Forall2 zt_rel (c_custom c) (h_custom h).

(* one side (positive or negative): forward inserts F for the chunk's spans a, backward inserts B
   for the sample's spans b, one merged index list M *)
Definition merged (k : kind) (a b : list span) (F B : list ins) (M : list Z) : Prop :=
  (exists lo, incr lo M) /\ (F = [] -> M = idxs a) /\ (B = [] -> M = idxs b) /\
  widens k F M (idxs a) /\ widens k B M (idxs b).

(* spans that enumerate M *)
Definition spans_for (sp : list span) (M : list Z) : Prop :=
  idxs sp = M /\ count_spans sp = Z.of_nat (length M) /\ ok_spans sp.

Lemma spans_for_self sp : ok_spans sp -> spans_for sp (idxs sp).
Proof. intro O. split; [reflexivity|]. split; [symmetry; now apply ok_count|exact O]. Qed.

Lemma widen_slice k P M from sp :
  ok_spans from -> widens k P M (idxs from) -> (P = [] -> M = idxs from) -> spans_for sp M ->
  relays k P from sp.
Proof.
  intros Of W Pnil (Hi & Hc & _) b Lb. rewrite Hc. destruct P as [|y P'].
  - exists b. rewrite (Pnil eq_refl), (ok_count _ Of). repeat split; [assumption|].
    intros i. unfold bucket_alist. now rewrite Hi, (Pnil eq_refl).
  - destruct (W b) as (out & E & Lo & Mo); [pose proof (ok_count _ Of); lia|]. exists out.
    repeat split; [exact E|lia|]. intros i. unfold bucket_alist at 1. rewrite Hi. apply Mo.
Qed.

Lemma custom_ok c h :
  (h_schema h =? custom_schema) && negb (bounds_match (h_custom h) (c_custom c)) = false ->
  (h_schema h <> custom_schema -> h_custom h = []) -> norm_layout c -> h_schema h = c_schema c ->
  Forall2 zt_rel (c_custom c) (h_custom h).
Proof.
  intros Ecu Hc [_ Nc] Esch. destruct (Z.eqb_spec (h_schema h) custom_schema) as [E|E].
  - cbn [andb] in Ecu. apply bounds_rel. now destruct (bounds_match (h_custom h) (c_custom c)).
  - rewrite (Hc E). rewrite <- Esch in Nc. destruct (Z.eqb_spec (h_schema h) custom_schema); [contradiction|].
    rewrite <- Nc. constructor.
Qed.

Lemma orb_nonempty_false {A} (x y : list A) : nonempty x || nonempty y = false -> x = [] /\ y = [].
Proof. destruct x, y; simpl; intros; try discriminate; auto. Qed.

(* the common tail of AppendHistogram: the sample, laid out on spans sp1 with buckets b1 that
   enumerate the merged layout and keep its map, goes behind the recoded (or untouched) chunk *)
Lemma finish_ok k c t h i Mp Mn sp1p sp1n b1p b1n :
  inv c -> compatible c h ->
  merged k (c_ps c) (h_ps h) (pF i) (pB i) Mp -> merged k (c_ns c) (h_ns h) (nF i) (nB i) Mn ->
  spans_for sp1p Mp -> Z.of_nat (length b1p) = count_spans sp1p -> same_map k sp1p b1p (h_ps h) (h_pb h) ->
  spans_for sp1n Mn -> Z.of_nat (length b1n) = count_spans sp1n -> same_map k sp1n b1n (h_ns h) (h_nb h) ->
  exists r, finish k c t (with_layout h sp1p sp1n b1p b1n) i = Ok r /\ step_ok k c t h r.
Proof.
  intros Ic (Es & Ea & Esch & Ezt & Hcu) (_ & FPn & _ & WFp & _) (_ & FNn & _ & WFn & _)
         Sp L1p M1p Sn L1n M1n.
  set (h1 := with_layout h sp1p sp1n b1p b1n).
  assert (Hin : input_same k h1 h) by (unfold input_same, same_scalars; cbn; auto 10).
  unfold finish. destruct (nonempty (pF i) || nonempty (nF i)) eqn:EF.
  - (* forward inserts: the chunk is recoded *)
    destruct (recode_correct k c (pF i) (nF i) sp1p sp1n Ic (proj2 (proj2 Sp)) (proj2 (proj2 Sn))
                (widen_slice k _ Mp _ sp1p (inv_ps c Ic) WFp FPn Sp)
                (widen_slice k _ Mn _ sp1n (inv_ns c Ic) WFn FNn Sn)
                (inv_stale c Ic Ea)) as (c2 & ER & (I2 & (G1 & G2 & G3 & G4 & G5 & G6) & S2) & Q).
    cbn [h1 with_layout h_ps h_ns]. rewrite ER. cbn [bind]. fold h1.
    destruct (append_live c2 t h1 I2 Es S2) as (I' & _ & _ & R'); [cbn; congruence..|].
    eexists. split; [reflexivity|]. split; [exact Hin|]. split; [exact I'|].
    eexists. eexists. split; [exact R'|]. split; [exact Q|].
    unfold sem, live_read. cbn. rewrite Es, G2, G3, G4, G5, G6. repeat split; auto.
    right. now rewrite feq_sym.
  - (* none: the sample's layout is the chunk's *)
    destruct (orb_nonempty_false _ _ EF) as [EP EN]. specialize (FPn EP). specialize (FNn EN).
    destruct Sp as (Ip & Cp & _), Sn as (In_ & Cn & _).
    destruct (append_live c t h1 Ic Es Ea) as (I' & _ & _ & R');
      [cbn; rewrite L1p, Cp, FPn; apply ok_count, (inv_ps c Ic)
      |cbn; rewrite L1n, Cn, FNn; apply ok_count, (inv_ns c Ic)|].
    eexists. split; [reflexivity|]. split; [exact Hin|]. split; [exact I'|].
    exists (read_chunk c). eexists. split; [exact R'|]. split; [apply Forall2_rd_refl|].
    unfold sem, live_read. cbn. rewrite Es. repeat split; auto.
    + right. now rewrite feq_sym.
    + intros j. unfold bucket_alist at 1. rewrite <- FPn, <- Ip. apply M1p.
    + intros j. unfold bucket_alist at 1. rewrite <- FNn, <- In_. apply M1n.
Qed.

Lemma with_layout_id h : with_layout h (h_ps h) (h_ns h) (h_pb h) (h_nb h) = h.
Proof. destruct h; reflexivity. Qed.

(* the backward step, then the common tail.  spP/spN are the spans recodeHistogram is given;
   they matter only if there are backward inserts *)
Lemma live_step k c t h i Mp Mn spP spN :
  inv c -> compatible c h -> wf_spans (h_ps h) -> wf_spans (h_ns h) ->
  Z.of_nat (length (h_pb h)) = count_spans (h_ps h) -> Z.of_nat (length (h_nb h)) = count_spans (h_ns h) ->
  merged k (c_ps c) (h_ps h) (pF i) (pB i) Mp -> merged k (c_ns c) (h_ns h) (nF i) (nB i) Mn ->
  (nonempty (pB i) || nonempty (nB i) = true -> spans_for spP Mp /\ spans_for spN Mn) ->
  exists r, (h1 <- (if nonempty (pB i) || nonempty (nB i)
                    then recode_hist k (with_layout h spP spN (h_pb h) (h_nb h)) (pB i) (nB i) else Ok h) ;;
             finish k c t h1 i) = Ok r /\ step_ok k c t h r.
Proof.
  intros Ic Hc Wp Wn Lp Ln MP MN Hsp.
  pose proof MP as (_ & _ & BPn & _ & WBp). pose proof MN as (_ & _ & BNn & _ & WBn).
  destruct (nonempty (pB i) || nonempty (nB i)) eqn:EB.
  - (* some backward inserts: the sample is widened *)
    destruct (Hsp eq_refl) as [Sp Sn].
    destruct (widen_slice k _ Mp _ spP (wf_ok _ Wp) WBp BPn Sp (h_pb h) Lp) as (b1p & E1p & L1p & M1p).
    destruct (widen_slice k _ Mn _ spN (wf_ok _ Wn) WBn BNn Sn (h_nb h) Ln) as (b1n & E1n & L1n & M1n).
    unfold recode_hist. cbn [with_layout h_pb h_nb h_ps h_ns]. rewrite E1p, E1n. cbn [bind].
    now apply (finish_ok k c t h i Mp Mn).
  - (* none: the sample is appended as it is *)
    destruct (orb_nonempty_false _ _ EB) as [EP EN]. cbn [bind].
    replace (finish k c t h i) with (finish k c t (with_layout h (h_ps h) (h_ns h) (h_pb h) (h_nb h)) i)
      by now rewrite with_layout_id.
    apply (finish_ok k c t h i Mp Mn); auto; try (intro; reflexivity);
      rewrite ?(BPn EP), ?(BNn EN); now apply spans_for_self, wf_ok.
Qed.

Definition gauge_out (k : kind) (c : chunk) (h : hist) (r : res (option (inserts4 * list span * list span))) : Prop :=
  r = Ok None \/
  (is_stale (h_sum h) = true /\ r = Ok (Some (mkI4 [] [] [] [], [], []))) \/
  exists i Mp Mn, r = Ok (Some (i, spans_of Mp, spans_of Mn)) /\ compatible c h /\
    merged k (c_ps c) (h_ps h) (pF i) (pB i) Mp /\ merged k (c_ns c) (h_ns h) (nF i) (nB i) Mn.

Lemma both_merged k a b : ok_spans a -> ok_spans b ->
  exists F B M, expand_both a b = Ok (F, B, spans_of M) /\ merged k a b F B M.
Proof.
  intros [[la Hia] _] [[lb Hib] _]. unfold expand_both.
  destruct (incr_common la lb _ _ Hia Hib) as [Hia' Hib'].
  destruct (both_go_widens _ _ _ Hia' Hib') as (F & B & M & E & IM & _ & EA & EB & WF & WB).
  rewrite E. cbn [bind]. exists F, B, M. unfold merged. eauto 10.
Qed.

Lemma appendable_gauge_out k c h : inv c -> valid_h h -> c_gauge c = true ->
  gauge_out k c h (appendable_gauge c h).
Proof.
  intros Ic (Hzt & Hcu & V) Eg. unfold appendable_gauge. rewrite Eg. cbn [negb].
  destruct (is_stale (h_sum h)) eqn:Es; [right; left; now split|].
  destruct V as [V|(Wp & Wn & Lp & Ln & Hc)]; [congruence|].
  destruct (is_stale (a_sum c)) eqn:Ea; [now left|].
  destruct (Z.eqb_spec (h_schema h) (c_schema c)) as [Esch|Esch]; cbn [negb orb]; [|now left].
  destruct (feq (h_zt h) (c_zt c)) eqn:Ezt; cbn [negb]; [|now left].
  destruct (_ && negb (bounds_match _ _)) eqn:Ecu; [now left|].
  destruct (both_merged k (c_ps c) (h_ps h) (inv_ps c Ic) (wf_ok _ Wp)) as (pFw & pBk & Mp & EP & MP).
  destruct (both_merged k (c_ns c) (h_ns h) (inv_ns c Ic) (wf_ok _ Wn)) as (nFw & nBk & Mn & EN & MN).
  rewrite EP, EN. cbn [bind]. right; right. exists (mkI4 pFw nFw pBk nBk), Mp, Mn.
  refine (conj eq_refl (conj _ (conj MP MN))). repeat split; auto.
  eapply custom_ok; eauto. exact (inv_norm c Ic).
Qed.

Definition counter_out (k : kind) (c : chunk) (h : hist) (r : res (option inserts4)) : Prop :=
  r = Ok None \/
  (is_stale (h_sum h) = true /\ r = Ok (Some (mkI4 [] [] [] []))) \/
  exists i Mp Mn spa sna, r = Ok (Some i) /\ compatible c h /\
    merged k (c_ps c) (h_ps h) (pF i) (pB i) Mp /\ merged k (c_ns c) (h_ns h) (nF i) (nB i) Mn /\
    adjust_for_inserts (h_ps h) (pB i) = Ok spa /\ spans_for spa Mp /\
    adjust_for_inserts (h_ns h) (nB i) = Ok sna /\ spans_for sna Mn.

Lemma adjust_len b Bk sp : Forall (fun s => 0 <= s_len s) b -> adjust_for_inserts b Bk = Ok sp ->
  Forall (fun s => 0 <= s_len s) sp.
Proof.
  intros Hb H. unfold adjust_for_inserts in H. destruct Bk; [now injection H as <-|].
  destruct (existsb _ _); [discriminate|]. destruct (adj_merge _ _ _); try discriminate.
  injection H as <-. apply spans_of_len.
Qed.

Lemma counts_merged k a b ab bb :
  ok_spans a -> ok_spans b ->
  Z.of_nat (length ab) = count_spans a -> Z.of_nat (length bb) = count_spans b ->
  exists r, expand_counts k a b ab bb = Ok r /\
    forall F Bk, r = Some (F, Bk) ->
      exists M sp, merged k a b F Bk M /\ adjust_for_inserts b Bk = Ok sp /\ spans_for sp M.
Proof.
  intros Oa Ob La Lb. pose proof (ok_count _ Oa) as Ca. pose proof (ok_count _ Ob) as Cb.
  destruct Oa as [[la Hia] _], Ob as [[lb Hib] Hlb].
  destruct (incr_common la lb _ _ Hia Hib) as [Hia' Hib'].
  destruct (expand_counts_ok k a b ab bb _ Hia' Hib') as [r E]; [lia..|].
  exists r. split; [exact E|]. intros F Bk ->.
  destruct (expand_counts_widens k a b ab bb F Bk _ Hia' Hib' Cb E)
    as (M & IM & _ & _ & EA & EB & (sp & AD & Is & Cs) & WF & WB).
  exists M, sp. split; [unfold merged; eauto 10|]. split; [exact AD|]. split; [exact Is|]. split; [exact Cs|].
  split; [exists (Z.min la lb); now rewrite Is|exact (adjust_len _ _ _ Hlb AD)].
Qed.

Lemma appendable_out k c h : inv c -> valid_h h -> c_gauge c = false ->
  counter_out k c h (appendable k c h).
Proof.
  intros Ic (Hzt & Hcu & V) Eg. unfold appendable. rewrite Eg.
  (* the hint is only tested for an explicit reset *)
  assert (Hm : forall T, counter_out k c h T ->
                         counter_out k c h (match h_hint h with HReset => Ok None | _ => T end))
    by (intros T HT; destruct (h_hint h); auto; now left).
  apply Hm.
  destruct (is_stale (h_sum h)) eqn:Es; [right; left; now split|].
  destruct V as [V|(Wp & Wn & Lp & Ln & Hc)]; [congruence|].
  destruct (is_stale (a_sum c)) eqn:Ea; [now left|].
  destruct (cnt_lt k (h_count h) (a_cnt c)); [now left|].
  destruct (Z.eqb_spec (h_schema h) (c_schema c)) as [Esch|Esch]; cbn [negb orb]; [|now left].
  destruct (feq (h_zt h) (c_zt c)) eqn:Ezt; cbn [negb]; [|now left].
  destruct (_ && negb (bounds_match _ _)) eqn:Ecu; [now left|].
  destruct (cnt_lt k (h_zcount h) (a_zcnt c)); [now left|].
  destruct (counts_merged k (c_ps c) (h_ps h) (a_pb c) (h_pb h) (inv_ps c Ic) (wf_ok _ Wp) (inv_apb c Ic) Lp)
    as (rp & EP & SP). rewrite EP. cbn [bind]. destruct rp as [[fp bp]|]; [|now left].
  destruct (counts_merged k (c_ns c) (h_ns h) (a_nb c) (h_nb h) (inv_ns c Ic) (wf_ok _ Wn) (inv_anb c Ic) Ln)
    as (rn & EN & SN). rewrite EN. cbn [bind]. destruct rn as [[fn bn]|]; [|now left].
  destruct (SP _ _ eq_refl) as (Mp & spa & MP & AP & TP), (SN _ _ eq_refl) as (Mn & sna & MN & AN & TN).
  right; right. exists (mkI4 fp fn bp bn), Mp, Mn, spa, sna.
  refine (conj eq_refl (conj _ (conj MP (conj MN (conj AP (conj TP (conj AN TN))))))). repeat split; auto.
  eapply custom_ok; eauto. exact (inv_norm c Ic).
Qed.

Lemma valid_live h : valid_h h -> is_stale (h_sum h) = false ->
  wf_spans (h_ps h) /\ wf_spans (h_ns h) /\
  Z.of_nat (length (h_pb h)) = count_spans (h_ps h) /\ Z.of_nat (length (h_nb h)) = count_spans (h_ns h).
Proof. intros (_ & _ & [V|V]) Es; [congruence|tauto]. Qed.

Theorem gauge_step k c t h :
  inv c -> valid_h h -> is_gauge_hint h = true ->
  exists r, append k c t h = Ok r /\ step_ok k c t h r.
Proof.
  intros Ic V Hg. unfold append. destruct (c_samples c) as [|s0 rest] eqn:E0; [destruct (inv_ne c Ic E0)|].
  rewrite Hg. cbn [negb].
  destruct (c_gauge c) eqn:Eg;
    [|unfold appendable_gauge; rewrite Eg; eexists; split; [reflexivity|now apply new_chunk_ok]].
  destruct (appendable_gauge_out k c h Ic V Eg) as [E|[(Es & E)|(i & Mp & Mn & E & Hc & MP & MN)]];
    rewrite E; cbn [bind].
  - eexists. split; [reflexivity|now apply new_chunk_ok].
  - eexists. split; [reflexivity|now apply stale_ok].
  - destruct (valid_live h V (proj1 Hc)) as (Wp & Wn & Lp & Ln).
    apply (live_step k c t h i Mp Mn); auto. intros _.
    destruct MP as [[lop IMp] _], MN as [[lon IMn] _]. unfold spans_for.
    rewrite !idxs_spans_of, !count_spans_of. eauto 10 using ok_spans_of.
Qed.

Theorem counter_step k c t h :
  inv c -> valid_h h -> is_gauge_hint h = false ->
  exists r, append k c t h = Ok r /\ step_ok k c t h r.
Proof.
  intros Ic V Hg. unfold append. destruct (c_samples c) as [|s0 rest] eqn:E0; [destruct (inv_ne c Ic E0)|].
  rewrite Hg. cbn [negb].
  destruct (c_gauge c) eqn:Eg;
    [unfold appendable; rewrite Eg; eexists; split; [reflexivity|now apply new_chunk_ok]|].
  destruct (appendable_out k c h Ic V Eg)
    as [E|[(Es & E)|(i & Mp & Mn & spa & sna & E & Hc & MP & MN & AP & TP & AN & TN)]]; rewrite E; cbn [bind].
  - eexists. split; [reflexivity|now apply new_chunk_ok].
  - eexists. split; [reflexivity|now apply stale_ok].
  - destruct (valid_live h V (proj1 Hc)) as (Wp & Wn & Lp & Ln).
    rewrite <- negb_orb. destruct (nonempty (pF i) || nonempty (nF i)) eqn:ENF; cbn [negb].
    + (* forward and backward inserts: the sample's spans are adjusted *)
      rewrite AP, AN. cbn [bind fst snd]. apply (live_step k c t h i Mp Mn); auto.
    + (* no forward inserts: the sample takes over the chunk's spans *)
      destruct (orb_nonempty_false _ _ ENF) as [EP EN]. cbn [bind fst snd].
      apply (live_step k c t h i Mp Mn); auto. intros _.
      destruct MP as (_ & FPn & _), MN as (_ & FNn & _). rewrite (FPn EP), (FNn EN).
      split; apply spans_for_self; [exact (inv_ps c Ic)|exact (inv_ns c Ic)].
Qed.

Theorem append_step k c t h :
  inv c -> valid_h h -> exists r, append k c t h = Ok r /\ step_ok k c t h r.
Proof.
  intros Ic V. destruct (is_gauge_hint h) eqn:Hg; [now apply gauge_step|now apply counter_step].
Qed.

Lemma append_empty k c0 t h :
  c_samples c0 = [] -> valid_h h ->
  exists c', append k c0 t h = Ok (h, Same c') /\ inv c' /\ exists x, read_chunk c' = [x] /\ sem k x t h.
Proof.
  intros E0 V. unfold append. rewrite E0. eexists. split; [reflexivity|].
  apply (fresh_chunk k); [reflexivity|assumption].
Qed.

Definition sem_op (k : kind) (x : Z * hist) (o : op) : Prop := sem k x (o_t o) (o_h o).

Lemma read_series_app a b : read_series (a ++ b) = read_series a ++ read_series b.
Proof. unfold read_series. apply flat_map_app. Qed.

Lemma read_series_one c : read_series [c] = read_chunk c.
Proof. unfold read_series. simpl. apply app_nil_r. Qed.

Lemma Forall2_rd_sem k L R O :
  Forall2 (rd_eq k) L R -> Forall2 (sem_op k) R O -> Forall2 (sem_op k) L O.
Proof.
  intros H. revert O. induction H as [|x y L R Hxy _ IH]; intros O HO; inversion HO; subst; constructor.
  - unfold sem_op in *. eapply rd_eq_sem; eauto.
  - auto.
Qed.

(* a chunk c' that reads L ++ [x] takes the place behind the chunks pre: L are samples already
   accounted for (none for a new chunk, the open chunk's for an appended or recoded one), x is
   the sample of o *)
Lemma series_snoc k pre c' L x done o :
  Forall inv pre -> inv c' -> read_chunk c' = L ++ [x] ->
  Forall2 (sem_op k) (read_series pre ++ L) done -> sem k x (o_t o) (o_h o) ->
  Forall inv (pre ++ [c']) /\ Forall2 (sem_op k) (read_series (pre ++ [c'])) (done ++ [o]).
Proof.
  intros Ipre I' R' Hpre S'. split.
  - apply Forall_app. split; [assumption|constructor; [assumption|constructor]].
  - rewrite read_series_app, read_series_one, R', app_assoc.
    apply Forall2_app; [assumption|constructor; [exact S'|constructor]].
Qed.

Lemma series_step k cs done o :
  Forall inv cs -> Forall2 (sem_op k) (read_series cs) done -> valid_h (o_h o) ->
  exists cs', step k (Ok cs) o = Ok cs' /\ Forall inv cs' /\
              Forall2 (sem_op k) (read_series cs') (done ++ [o]).
Proof.
  intros Icss Hsem V. unfold step. cbn [bind].
  (* the sample opens a new chunk behind the chunks cs *)
  assert (Hnew : forall c' x, inv c' -> read_chunk c' = [x] -> sem k x (o_t o) (o_h o) ->
            Forall inv (cs ++ [c']) /\ Forall2 (sem_op k) (read_series (cs ++ [c'])) (done ++ [o]))
    by (intros c' x I' R' S'; apply (series_snoc k cs c' [] x); auto; now rewrite app_nil_r).
  assert (Hcut : exists cs', (r <- append k (empty_chunk false) (o_t o) (o_h o) ;;
                         match snd r with Same c | NewChunk c | Recoded c => Ok (cs ++ [c]) end) = Ok cs' /\
                        Forall inv cs' /\ Forall2 (sem_op k) (read_series cs') (done ++ [o])).
  { destruct (append_empty k (empty_chunk false) (o_t o) (o_h o) eq_refl V) as (c' & E & I' & x & R' & S').
    rewrite E. cbn [bind snd]. eexists. split; [reflexivity|]. now apply (Hnew c' x). }
  destruct cs as [|last before _] using rev_ind; [exact Hcut|].
  rewrite rev_unit, rev_involutive.
  destruct (o_cut o); [exact Hcut|].
  destruct (proj1 (Forall_app _ _ _) Icss) as [Ibef Ilast]. inversion Ilast as [|? ? Il _]; subst.
  destruct (append_step k last (o_t o) (o_h o) Il V) as ([h1 out] & E & _ & Sout).
  rewrite E. cbn [bind snd] in *.
  (* appended to, or recoded: the open chunk is replaced *)
  assert (Hrep : forall c', inv c' /\ (exists L x, read_chunk c' = L ++ [x] /\ Forall2 (rd_eq k) L (read_chunk last) /\
                                                   sem k x (o_t o) (o_h o)) ->
            exists cs', Ok (before ++ [c']) = Ok cs' /\ Forall inv cs' /\
                        Forall2 (sem_op k) (read_series cs') (done ++ [o])).
  { intros c' (I' & L & x & R' & Q & S'). eexists. split; [reflexivity|].
    apply (series_snoc k before c' L x); auto.
    rewrite read_series_app, read_series_one in Hsem.
    destruct (Forall2_app_inv_l _ _ Hsem) as (d1 & d2 & H1 & H2 & ->).
    apply Forall2_app; [assumption|]. eapply Forall2_rd_sem; eauto. }
  destruct out as [c'|c'|c']; [now apply Hrep| |now apply Hrep].
  destruct Sout as (I' & x & R' & S'). eexists. split; [reflexivity|]. now apply (Hnew c' x).
Qed.

Theorem run_roundtrip k ops :
  Forall (fun o => valid_h (o_h o)) ops ->
  exists cs, run k ops = Ok cs /\ Forall inv cs /\ Forall2 (sem_op k) (read_series cs) ops.
Proof.
  intros V. unfold run.
  assert (G : forall ops cs done, Forall inv cs -> Forall2 (sem_op k) (read_series cs) done ->
                Forall (fun o => valid_h (o_h o)) ops ->
                exists cs', fold_left (step k) ops (Ok cs) = Ok cs' /\ Forall inv cs' /\
                            Forall2 (sem_op k) (read_series cs') (done ++ ops)).
  { clear. induction ops as [|o ops IH]; intros cs done Ic Hs V.
    - exists cs. rewrite app_nil_r. auto.
    - inversion V as [|? ? Vo Vr]; subst.
      destruct (series_step k cs done o Ic Hs Vo) as (cs1 & E1 & I1 & S1).
      cbn [fold_left]. rewrite E1.
      destruct (IH cs1 (done ++ [o]) I1 S1 Vr) as (cs' & E' & I' & S').
      exists cs'. rewrite <- app_assoc in S'. auto. }
  exact (G ops [] [] (Forall_nil _) (Forall2_nil _) V).
Qed.

(* the caller's histogram: whatever AppendHistogram does to it, it stays the same histogram *)
Theorem append_input_same k c t h r :
  inv c \/ c_samples c = [] -> valid_h h -> append k c t h = Ok r -> input_same k (fst r) h.
Proof.
  intros [Ic|E0] V E.
  - destruct (append_step k c t h Ic V) as (r' & E' & S & _). rewrite E in E'. inversion E'; subst. exact S.
  - destruct (append_empty k c t h E0 V) as (c' & E' & _). rewrite E in E'. inversion E'; subst. apply input_same_refl.
Qed.
