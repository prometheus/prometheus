(* proof/FanoutProofs.v — lemmas and proofs about model/Fanout.v (property C54). *)
From Coq Require Import List ZArith Bool Arith Lia.
From Verif Require Import model.Fanout.
Import ListNotations.
Open Scope Z_scope.

Lemma merge_series_nil_r : forall a, merge_series a [] = a.
Proof. destruct a; reflexivity. Qed.

Lemma merge_series_nil_l : forall b, merge_series [] b = b.
Proof. reflexivity. Qed.

Lemma first_fail_final : forall c e, first_fail c = Some e -> final_err c = Some e.
Proof. unfold first_fail; intros c e; destruct (yielded c); [auto | discriminate]. Qed.

Lemma yielded_no_err : forall c, final_err c = None -> yielded c = sc_series c.
Proof.
  unfold final_err, yielded; intros c.
  destruct (sc_fail c) as [[n e]|]; auto.
  destruct (n <=? length (sc_series c))%nat eqn:E; [discriminate|].
  intros _. apply firstn_all2. apply Nat.leb_gt in E. lia.
Qed.

Lemma map_const_length : forall A B C (c : C) (l : list A) (l' : list B),
  length l = length l' -> map (fun _ => c) l = map (fun _ => c) l'.
Proof. induction l; intros [|? l'] H; try discriminate; simpl; f_equal; auto. Qed.

Lemma all_some_nth : forall A (l : list (option A)) es j o,
  all_some l = Some es -> nth_error l j = Some o -> exists s, o = Some s /\ nth_error es j = Some s.
Proof.
  induction l as [|[x|] l IH]; intros es j o; simpl; try discriminate.
  - intros _. destruct j; discriminate.
  - destruct (all_some l) as [r|] eqn:E; [|discriminate]. intros [= <-].
    destruct j as [|j]; simpl; [intros [= <-]; eauto | now apply IH].
Qed.

(* a partial function mapped over s, s+1, ... succeeds when it does at every index, and each result
   keeps what is known of it *)
Lemma all_some_seq : forall B (f : nat -> option B) (P : nat -> B -> Prop) n s,
  (forall a, (s <= a < s + n)%nat -> exists y, f a = Some y /\ P a y) ->
  exists ys, all_some (map f (seq s n)) = Some ys /\ length ys = n /\
             forall a y, nth_error ys a = Some y -> P (s + a)%nat y.
Proof.
  induction n as [|n IH]; intros s H.
  - exists []. repeat split. intros [|a]; discriminate.
  - destruct (H s) as (y & Hy & Py); [lia|].
    destruct (IH (S s)) as (ys & A & L & N); [intros a Ha; apply H; lia|].
    exists (y :: ys). cbn [seq map all_some]. rewrite Hy, A. repeat split; [simpl; lia|].
    intros [|a] y'; simpl; [intros [= <-]; now rewrite Nat.add_0_r | rewrite <- Nat.add_succ_comm; auto].
Qed.

(* a set fails, if at all, at Select / at its first Next *)
Definition early_only (c : setcfg) : Prop := forall e, final_err c = Some e -> first_fail c = Some e.
(* a set fails at a later step: after having yielded at least one series *)
Definition late_failure (c : setcfg) : Prop := exists e, final_err c = Some e /\ first_fail c = None.

Definition no_late (q : qcfg) : Prop :=
  match q with QOk sels _ _ => Forall early_only sels | _ => True end.
Definition creatable (q : qcfg) : Prop := match q with QCreateFail _ => False | _ => True end.
Definition wf (nsel : nat) (q : qcfg) : Prop :=
  match q with QOk s _ _ => length s = nsel | _ => True end.

Lemma wf_q_iff : forall n q, wf_q n q = true <-> wf n q.
Proof. intros n [| |s lv ln]; simpl; try tauto. apply Nat.eqb_eq. Qed.

Lemma find_first_fail_none : forall cs,
  existsb (fun c => is_some (final_err c)) cs = false -> find_first_fail cs = None.
Proof.
  induction cs as [|c r IH]; simpl; auto.
  intros H. apply orb_false_iff in H as [H1 H2].
  destruct (final_err c) eqn:E; [discriminate|].
  destruct (first_fail c) eqn:F; [apply first_fail_final in F; congruence | auto].
Qed.

Lemma find_first_fail_some : forall cs,
  Forall early_only cs -> existsb (fun c => is_some (final_err c)) cs = true ->
  exists e ws, find_first_fail cs = Some (e, ws).
Proof.
  induction cs as [|c r IH]; simpl; [discriminate|].
  intros HF H. inversion_clear HF as [|? ? Hc Hr].
  destruct (first_fail c) eqn:E; [eauto|].
  destruct (final_err c) eqn:E2; [apply Hc in E2; congruence | auto].
Qed.

Lemma existsb_final_false : forall cs a c,
  existsb (fun c => is_some (final_err c)) cs = false -> nth_error cs a = Some c -> final_err c = None.
Proof.
  intros cs a c H Hn. apply nth_error_In in Hn.
  destruct (final_err c) eqn:E; auto.
  enough (existsb (fun c => is_some (final_err c)) cs = true) by congruence.
  apply existsb_exists. exists c. now rewrite E.
Qed.

(* all-or-nothing: the effective set of a failed secondary yields nothing and has no error;
   the one of a secondary that failed nowhere yields its whole set *)
Lemma sec_eff_at_spec : forall sels lv ln curr a c rest,
  no_late (QOk sels lv ln) -> nth_error sels a = Some c ->
  exists s, sec_eff_at sels curr a = Some s /\ e_err s = None /\
            merge_all (e_yield s :: rest) = merge_all (contrib a (QOk sels lv ln) ++ rest).
Proof.
  intros sels lv ln curr a c rest HN Hn. simpl in HN.
  unfold sec_eff_at, contrib. rewrite Hn. simpl sec_failed. simpl set_at. rewrite Hn.
  destruct (existsb (fun c => is_some (final_err c)) sels) eqn:EX.
  - destruct (find_first_fail_some _ HN EX) as (e & ws & F). rewrite F.
    eexists; split; [reflexivity|].
    destruct (a =? curr)%nat; simpl; auto.
  - rewrite (find_first_fail_none _ EX).
    pose proof (existsb_final_false _ _ _ EX Hn) as FE.
    pose proof (yielded_no_err _ FE) as Y.
    eexists; split; [reflexivity|].
    destruct (yielded c) eqn:E; simpl.
    + rewrite <- Y. auto.
    + rewrite E, FE, <- Y. auto.
Qed.

Definition eff_of (a : nat) (sc : qcfg * nat) : option eset := sec_eff_at (sels_of (fst sc)) (snd sc) a.

Lemma effs_spec : forall nsel a secs currs,
  (a < nsel)%nat ->
  Forall (wf nsel) secs -> Forall creatable secs -> Forall no_late secs ->
  length currs = length (live_secs secs) ->
  exists es, all_some (map (eff_of a) (combine (live_secs secs) currs)) = Some es
             /\ length es = length (live_secs secs)
             /\ flat_map (fun s => opt_list (e_err s)) es = []
             /\ merge_all (map e_yield es) = merge_all (flat_map (contrib a) secs).
Proof.
  intros nsel a secs. induction secs as [|q secs IH]; intros currs Ha HW HC HN HL.
  - exists []. simpl. auto.
  - inversion_clear HW as [|? ? W1 W2]; inversion_clear HC as [|? ? C1 C2]; inversion_clear HN as [|? ? N1 N2].
    destruct q as [|e|sels lv ln].
    + (* noop querier: dropped by fanout.Querier; selects nothing *)
      simpl in HL |- *. destruct (IH currs Ha W2 C2 N2 HL) as (es & A & B & C & D).
      exists es. repeat split; auto.
    + destruct C1.
    + simpl in HL. destruct currs as [|cu currs]; [discriminate|]. injection HL as HL.
      destruct (IH currs Ha W2 C2 N2 HL) as (es & A & B & C & D).
      simpl in W1.
      destruct (nth_error sels a) as [c|] eqn:Hn; [|apply nth_error_None in Hn; lia].
      destruct (sec_eff_at_spec sels lv ln cu a c (map e_yield es) N1 Hn) as (s & S1 & S2 & S3).
      exists (s :: es). simpl live_secs. simpl combine. simpl map.
      unfold eff_of at 1. simpl fst. simpl snd. simpl sels_of. rewrite S1.
      fold (eff_of a). repeat split.
      * cbn [all_some]. rewrite A. reflexivity.
      * simpl. auto.
      * simpl. rewrite S2. simpl. auto.
      * rewrite S3. simpl flat_map.
        unfold merge_all in *. rewrite !fold_right_app. rewrite D. reflexivity.
Qed.

(* what Select number a owes: the primary's error if its set pc fails, else no error and the
   merge of pc with what the healthy secondaries hold *)
Definition sel_ok (pc : setcfg) (secs : list qcfg) (a : nat) (r : selres) : Prop :=
  match final_err pc with
  | Some e => r_errs r = [e]
  | None => r_errs r = [] /\ r_series r = expected_series pc secs a
  end.

Lemma select_res_spec : forall nsel a p secs currs pc,
  (a < nsel)%nat -> creatable p ->
  Forall (wf nsel) secs -> Forall creatable secs -> Forall no_late secs ->
  length currs = length (live_secs secs) ->
  set_at p a = Some pc ->
  exists r, select_res p (combine (live_secs secs) currs) a = Some r /\ sel_ok pc secs a r.
Proof.
  intros nsel a p secs currs pc Ha HCp HW HC HN HL HP.
  destruct (effs_spec nsel a secs currs Ha HW HC HN HL) as (es & A & B & C & D).
  unfold eff_of in A. unfold sel_ok, expected_series. cbn [merge_all fold_right]. fold (merge_all (flat_map (contrib a) secs)).
  rewrite <- D. clear D.
  destruct p as [|e|ps plv pln]; [| destruct HCp |]; simpl in HP.
  - injection HP as <-. cbn [final_err empty_set sc_fail sc_series].
    unfold select_res.
    destruct (combine (live_secs secs) currs) as [|x l] eqn:EC.
    + simpl in A. injection A as <-. eexists; split; [reflexivity|]. simpl. auto.
    + rewrite A. eexists; split; [reflexivity|]. unfold merged_res. cbn [r_errs r_series app].
      rewrite C. auto.
  - unfold select_res.
    destruct (combine (live_secs secs) currs) as [|x l] eqn:EC.
    + simpl in A. injection A as <-. rewrite HP. cbn [option_map].
      eexists; split; [reflexivity|]. unfold raw_res. cbn [r_errs r_series map merge_all fold_right].
      destruct (final_err pc) eqn:FE; cbn [opt_list]; auto.
      split; auto. rewrite merge_series_nil_r. apply yielded_no_err; auto.
    + rewrite A, HP. cbn [option_map].
      eexists; split; [reflexivity|]. unfold merged_res.
      destruct (first_fail pc) eqn:FF.
      * rewrite (first_fail_final _ _ FF). reflexivity.
      * cbn [r_errs r_series]. rewrite C, app_nil_r.
        destruct (final_err pc) eqn:FE; cbn [opt_list]; auto.
        split; auto. cbn [app merge_all fold_right]. rewrite (yielded_no_err _ FE). reflexivity.
Qed.

(* the error of a failed secondary (failed at Select / at a first Next) is among the warnings
   of the set that triggered its Once, unless the primary failed at the first Next there *)
Lemma warn_reported : forall p secs currs j sels lv ln cu e ws r,
  nth_error (combine (live_secs secs) currs) j = Some (QOk sels lv ln, cu) ->
  find_first_fail sels = Some (e, ws) ->
  select_res p (combine (live_secs secs) currs) cu = Some r ->
  (forall pc, set_at p cu = Some pc -> first_fail pc = None) ->
  In e (r_warns r).
Proof.
  intros p secs currs j sels lv ln cu e ws r Hj FF SR HP.
  destruct (combine (live_secs secs) currs) as [|x l] eqn:EC; [destruct j; discriminate|].
  unfold select_res in SR.
  destruct (all_some (map (fun sc : qcfg * nat => sec_eff_at (sels_of (fst sc)) (snd sc) cu) (x :: l))) as [es|] eqn:A;
    [|destruct p; discriminate].
  assert (HE : In e (flat_map e_warns es)).
  { destruct (all_some_nth _ _ es j _ A (map_nth_error _ _ _ Hj)) as (s & S1 & S2).
    cbn [fst snd sels_of] in S1. unfold sec_eff_at in S1. rewrite FF in S1.
    destruct (nth_error sels cu); [|discriminate]. rewrite Nat.eqb_refl in S1. injection S1 as <-.
    apply in_flat_map. exists (EWarn (ws ++ [e])). split; [eapply nth_error_In; eauto|].
    simpl. apply in_or_app. simpl. auto. }
  destruct p as [|e0|ps plv pln]; try (injection SR as <-; exact HE).
  destruct (nth_error ps cu) as [pc|] eqn:EP; [|discriminate]. cbn [option_map] in SR. injection SR as <-.
  unfold merged_res. rewrite (HP pc) by (simpl; auto). cbn [r_warns]. apply in_or_app. auto.
Qed.

Lemma merge_strings_cons : forall x a y b,
  merge_strings (x :: a) (y :: b) =
  if x =? y then x :: merge_strings a b
  else if x <? y then x :: merge_strings a (y :: b) else y :: merge_strings (x :: a) b.
Proof. reflexivity. Qed.

Lemma in_merge_strings : forall a b v, In v (merge_strings a b) <-> In v a \/ In v b.
Proof.
  induction a as [|x a IHa]; [simpl; tauto|].
  induction b as [|y b IHb]; intros v; [simpl; tauto|].
  rewrite merge_strings_cons. destruct (Z.eqb_spec x y) as [->|_]; [|destruct (x <? y)]; simpl.
  - rewrite IHa. tauto.
  - rewrite IHa. simpl. tauto.
  - rewrite IHb. simpl. tauto.
Qed.

Lemma merge_results_step : forall f qs, (2 <= length qs)%nat ->
  merge_results (S f) qs =
  let i := Nat.div (length qs) 2 in
  match merge_results f (firstn i qs) with
  | None => None
  | Some (s1, w1, Some e) => Some ([], w1, Some e)
  | Some (s1, w1, None) =>
      match merge_results f (skipn i qs) with
      | None => None
      | Some (s2, w2, Some e) => Some ([], w1 ++ w2, Some e)
      | Some (s2, w2, None) => Some (merge_strings s1 s2, w1 ++ w2, None)
      end
  end.
Proof. intros f [|q1 [|q2 qs]] H; cbn [length] in H; try lia. reflexivity. Qed.

Fixpoint first_err (qs : list lres) : option Z :=
  match qs with [] => None | (_, _, Some e) :: _ => Some e | (_, _, None) :: r => first_err r end.

Lemma first_err_app : forall l1 l2,
  first_err (l1 ++ l2) = match first_err l1 with Some e => Some e | None => first_err l2 end.
Proof. induction l1 as [|[[v w] [e|]] l1 IH]; simpl; auto. Qed.

Definition lvals (q : lres) := fst (fst q).
Definition lwarns (q : lres) := snd (fst q).

(* what mergeResults owes its caller: the error of the first failing query, otherwise the union
   of the values and the union of the warnings *)
Definition merged_ok (qs : list lres) (r : lres) : Prop :=
  match first_err qs with
  | Some e => snd r = Some e
  | None => snd r = None
            /\ (forall v, In v (lvals r) <-> exists q, In q qs /\ In v (lvals q))
            /\ (forall w, In w (lwarns r) <-> exists q, In q qs /\ In w (lwarns q))
  end.

Lemma ex_in_app : forall A (P : A -> Prop) l1 l2,
  (exists q, In q (l1 ++ l2) /\ P q) <-> (exists q, In q l1 /\ P q) \/ (exists q, In q l2 /\ P q).
Proof.
  intros A P l1 l2. split.
  - intros (q & I & J). apply in_app_or in I as [I|I]; eauto.
  - intros [(q & I & J)|(q & I & J)]; exists q; rewrite in_app_iff; auto.
Qed.

Lemma merged_ok_nil : merged_ok [] ([], [], None).
Proof. unfold merged_ok. simpl. repeat split; try tauto; intros (q & [] & _). Qed.

Lemma merged_ok_one : forall q, merged_ok [q] q.
Proof.
  intros [[v w] [e|]]; unfold merged_ok; simpl; [reflexivity|]. split; [reflexivity|].
  split; intros x; (split; [intros H; exists (v, w, @None Z); simpl; auto | intros (q & [<-|[]] & H); exact H]).
Qed.

(* one level of the divide and conquer *)
Lemma merged_ok_app : forall l1 l2 r1 r2, merged_ok l1 r1 -> merged_ok l2 r2 ->
  merged_ok (l1 ++ l2)
    match r1, r2 with
    | (s1, w1, Some e), _ => ([], w1, Some e)
    | (s1, w1, None), (s2, w2, Some e) => ([], w1 ++ w2, Some e)
    | (s1, w1, None), (s2, w2, None) => (merge_strings s1 s2, w1 ++ w2, None)
    end.
Proof.
  intros l1 l2 [[s1 w1] e1] [[s2 w2] e2]. unfold merged_ok. rewrite first_err_app.
  destruct (first_err l1) as [e|]; simpl.
  - now intros -> _.
  - intros (-> & V1 & W1). destruct (first_err l2) as [e|]; simpl.
    + now intros ->.
    + intros (-> & V2 & W2). unfold lvals, lwarns in *. cbn [fst snd] in *.
      split; [reflexivity|]. split; intros x; [rewrite in_merge_strings, V1, V2 | rewrite in_app_iff, W1, W2];
        symmetry; apply ex_in_app.
Qed.

Lemma merge_results_spec : forall fuel qs, (length qs < fuel)%nat ->
  exists r, merge_results fuel qs = Some r /\ merged_ok qs r.
Proof.
  induction fuel as [|f IH]; intros qs HL; [lia|].
  destruct (le_lt_dec 2 (length qs)) as [L2|L2].
  - rewrite merge_results_step by exact L2. cbv zeta. set (i := Nat.div (length qs) 2).
    assert (Hi : (1 <= i < length qs)%nat).
    { split; [change 1%nat with (Nat.div 2 2); apply Nat.div_le_mono; lia | apply Nat.div_lt; lia]. }
    destruct (IH (firstn i qs)) as (r1 & -> & M1); [rewrite firstn_length; lia|].
    destruct (IH (skipn i qs)) as (r2 & -> & M2); [rewrite skipn_length; lia|].
    pose proof (merged_ok_app _ _ _ _ M1 M2) as M. rewrite firstn_skipn in M.
    destruct r1 as [[s1 w1] [e1|]], r2 as [[s2 w2] [e2|]]; eexists; (split; [reflexivity | exact M]).
  - destruct qs as [|q1 [|q2 qs]]; [| |simpl in L2; lia].
    + exists ([], [], None). split; [reflexivity | apply merged_ok_nil].
    + exists q1. split; [reflexivity | apply merged_ok_one].
Qed.

(* mergeGenericQuerier.LabelValues / LabelNames drop values and warnings on an error *)
Lemma merged_label_spec : forall qs, exists r, merged_label qs = Some r /\ merged_ok qs r.
Proof.
  intros qs. unfold merged_label.
  destruct (merge_results_spec (S (length qs)) qs) as ([[v w] [e|]] & -> & M); [lia| |]; eexists; (split; [reflexivity|]);
    [|exact M].
  unfold merged_ok in *. destruct (first_err qs); [exact M | destruct M as [M _]; discriminate M].
Qed.

Definition label_selector (sel : qcfg -> option lblcfg) : Prop :=
  forall q, match q with QOk _ _ _ => exists l, sel q = Some l | _ => sel q = None end.

Lemma lv_of_selector : label_selector lv_of.
Proof. intros [| |s lv ln]; simpl; eauto. Qed.
Lemma ln_of_selector : label_selector ln_of.
Proof. intros [| |s lv ln]; simpl; eauto. Qed.

Lemma all_some_live : forall sel secs, label_selector sel ->
  exists ls, all_some (map sel (live_secs secs)) = Some ls /\
             (forall l, In l ls <-> exists s, In s secs /\ sel s = Some l).
Proof.
  intros sel secs HS. induction secs as [|q secs (ls & A & B)].
  - exists []. simpl. split; auto. intros l; split; [tauto|]. intros (s & [] & _).
  - pose proof (HS q) as Hq. destruct q as [|e|sels lv ln]; simpl live_secs.
    1-2: exists ls; split; auto; intros l; rewrite B; split;
      [intros (s & I & J); exists s; simpl; auto | intros (s & [<-|I] & J); [congruence|eauto]].
    destruct Hq as (l0 & Hq). exists (l0 :: ls). cbn [map all_some]. rewrite Hq, A. split; auto.
    intros l. simpl. rewrite B. split.
    + intros [<-|(s & I & J)]; eauto.
    + intros (s & [<-|I] & J); [left; congruence|right; eauto].
Qed.

(* the call is mergeResults over the primary's answer and the secondaries' wrapped answers; the
   shortcuts for zero or one querier give what mergeResults would *)
Lemma label_res_merged : forall sel p secs ls,
  all_some (map sel (live_secs secs)) = Some ls ->
  exists r, label_res sel p (live_secs secs) = Some r /\
            merged_ok (opt_list (option_map lq_raw (sel p)) ++ map lq_sec ls) r.
Proof.
  intros sel p secs ls A. unfold label_res.
  destruct (sel p) as [pl|]; destruct (live_secs secs) as [|s [|s2 ss]]; cbn [option_map opt_list app].
  2,3,6: rewrite A; apply merged_label_spec.
  - simpl in A. injection A as <-. eexists; split; [reflexivity | apply merged_ok_one].
  - simpl in A. injection A as <-. eexists; split; [reflexivity | apply merged_ok_nil].
  - cbn [map all_some] in A. destruct (sel s) as [l|]; [|discriminate]. injection A as <-.
    eexists; split; [reflexivity | apply merged_ok_one].
Qed.

Definition lbl_of (sel : qcfg -> option lblcfg) (q : qcfg) : lblcfg :=
  match sel q with Some l => l | None => mkLbl [] None [] end.

Lemma first_err_secs : forall ls, first_err (map lq_sec ls) = None.
Proof. induction ls as [|l ls IH]; simpl; auto. unfold lq_sec at 1. destruct (l_fail l); auto. Qed.

(* a primary that is no querier answers like one that knows nothing *)
Lemma ex_in_prim : forall (f : lres -> list Z) sel p qs x, f ([], [], None) = [] ->
  (exists q, In q (opt_list (option_map lq_raw (sel p)) ++ qs) /\ In x (f q)) <->
  (exists q, In q (lq_raw (lbl_of sel p) :: qs) /\ In x (f q)).
Proof.
  intros f sel p qs x Hf. unfold lbl_of. destruct (sel p); [reflexivity|]. cbn [option_map opt_list app]. split.
  - intros (q & I & J). exists q. split; [now right | exact J].
  - intros (q & [<-|I] & J); [|eauto]. unfold lq_raw in J. cbn in J. rewrite Hf in J. destruct J.
Qed.

Theorem label_res_spec : forall sel p secs, label_selector sel ->
  exists r, label_res sel p (live_secs secs) = Some r /\
    match l_fail (lbl_of sel p) with
    | Some e => snd r = Some e                         (* the primary fails: the call fails *)
    | None =>
        snd r = None
        /\ (forall v, In v (lvals r) <->
                      In v (l_vals (lbl_of sel p)) \/
                      exists s l, In s secs /\ sel s = Some l /\ l_fail l = None /\ In v (l_vals l))
        /\ (forall s l e, In s secs -> sel s = Some l -> l_fail l = Some e -> In e (lwarns r))
        /\ (forall w, In w (l_warns (lbl_of sel p)) -> In w (lwarns r))
    end.
Proof.
  intros sel p secs HS.
  destruct (all_some_live sel secs HS) as (ls & A & B).
  destruct (label_res_merged sel p secs ls A) as (r & R & M). exists r. split; [exact R|].
  unfold merged_ok in M. rewrite first_err_app, first_err_secs in M.
  assert (E : first_err (opt_list (option_map lq_raw (sel p))) = l_fail (lbl_of sel p)).
  { unfold lbl_of. destruct (sel p) as [l|]; [|reflexivity]. unfold lq_raw. simpl. now destruct (l_fail l). }
  rewrite E in M. destruct (l_fail (lbl_of sel p)) eqn:PF; [exact M|].
  destruct M as (S0 & SV & SW). split; [exact S0|].
  assert (Hsec : forall s l, In s secs -> sel s = Some l ->
                             In (lq_sec l) (lq_raw (lbl_of sel p) :: map lq_sec ls))
    by (intros s l I1 I2; right; apply in_map, B; eauto).
  assert (Hraw : lq_raw (lbl_of sel p) = (l_vals (lbl_of sel p), l_warns (lbl_of sel p), None))
    by (unfold lq_raw; now rewrite PF).
  split; [|split].
  - intros v. rewrite SV, (ex_in_prim lvals) by reflexivity. split.
    + intros (q & [<-|I] & J); [left; now rewrite Hraw in J|].
      apply in_map_iff in I as (l & <- & I). apply B in I as (s & I1 & I2).
      unfold lq_sec, lvals in J. destruct (l_fail l) eqn:LF; [destruct J|]. right. exists s, l. auto.
    + intros [I|(s & l & I1 & I2 & I3 & I4)].
      * exists (lq_raw (lbl_of sel p)). split; [now left | now rewrite Hraw].
      * exists (lq_sec l). split; [eauto|]. unfold lq_sec. now rewrite I3.
  - intros s l e I1 I2 I3. apply SW, (ex_in_prim lwarns); [reflexivity|]. exists (lq_sec l). split; [eauto|].
    unfold lq_sec, lwarns. rewrite I3. simpl. apply in_or_app. simpl. auto.
  - intros w I. apply SW, (ex_in_prim lwarns); [reflexivity|].
    exists (lq_raw (lbl_of sel p)). split; [now left | now rewrite Hraw].
Qed.

Lemma first_create_fail_none : forall secs i, Forall creatable secs -> first_create_fail secs i = None.
Proof.
  induction secs as [|q secs IH]; intros i H; simpl; auto.
  inversion_clear H as [|? ? H1 H2]. destruct q; simpl in H1; try tauto; auto.
Qed.

Lemma create_none : forall p secs, creatable p -> Forall creatable secs -> create p secs = None.
Proof.
  intros p secs Hp Hs. unfold create.
  destruct p; simpl in Hp; try tauto; rewrite first_create_fail_none; auto.
Qed.

Lemma set_at_wf : forall nsel p a, wf nsel p -> creatable p -> (a < nsel)%nat ->
  exists pc, set_at p a = Some pc.
Proof.
  intros nsel [|e|ps lv ln] a W C Ha; simpl in *; eauto; try tauto.
  destruct (nth_error ps a) eqn:E; eauto. apply nth_error_None in E. lia.
Qed.

Theorem query_partial : forall p secs nsel currs,
  wf nsel p -> Forall (wf nsel) secs -> creatable p -> Forall creatable secs ->
  Forall no_late secs -> length currs = length (live_secs secs) ->
  exists rs lv ln,
    query p secs nsel currs = ROk rs lv ln (map is_ok (p :: secs)) /\ length rs = nsel /\
    forall a r, nth_error rs a = Some r -> exists pc, set_at p a = Some pc /\ sel_ok pc secs a r.
Proof.
  intros p secs nsel currs Wp Ws Cp Cs Ns HL.
  unfold query.
  assert (forallb (wf_q nsel) (p :: secs) = true) as WF.
  { apply forallb_forall. intros q [<-|I]; apply wf_q_iff; auto.
    rewrite Forall_forall in Ws. auto. }
  rewrite WF. cbn [negb]. rewrite (create_none _ _ Cp Cs).
  rewrite HL, Nat.eqb_refl. cbn [negb].
  destruct (all_some_seq _ (select_res p (combine (live_secs secs) currs))
              (fun a r => exists pc, set_at p a = Some pc /\ sel_ok pc secs a r) nsel 0) as (rs & -> & R2 & R3).
  { intros a Ha. destruct (set_at_wf nsel p a Wp Cp) as (pc & Hpc); [lia|].
    destruct (select_res_spec nsel a p secs currs pc) as (r & Hr & Spec); eauto. lia. }
  destruct (label_res_spec lv_of p secs lv_of_selector) as (lv & -> & _).
  destruct (label_res_spec ln_of p secs ln_of_selector) as (ln & -> & _).
  exists rs, lv, ln. auto.
Qed.

Definition rb_call (c : appcfg) : list entry * endcall :=
  ([], if ac_rollback c then ERollbackFail else ERollbackOk).

Definition is_rollback (e : endcall) : Prop := e = ERollbackOk \/ e = ERollbackFail.

Lemma fan_commit_after_error : forall cs bufs e0, length bufs = length cs ->
  fan_commit (Some e0) cs bufs = (map rb_call cs, Some e0).
Proof.
  induction cs as [|c cs IH]; intros [|b bufs] e0 HL; simpl in *; try discriminate; auto.
  rewrite IH by lia. reflexivity.
Qed.

(* Commit returns nil exactly when every appender committed, and then every buffer is stored *)
Lemma fan_commit_nil : forall cs bufs ends, length bufs = length cs ->
  fan_commit None cs bufs = (ends, None) ->
  ends = map (fun b => (b, ECommitOk)) bufs /\ Forall (fun c => ac_commit c = false) cs.
Proof.
  induction cs as [|c cs IH]; intros [|b bufs] ends HL; simpl in *; try discriminate.
  - intros [= <-]. auto.
  - destruct (ac_commit c) eqn:E.
    + rewrite fan_commit_after_error by lia. intros [= _ ?].
    + destruct (fan_commit None cs bufs) as [r e] eqn:F. intros [= <- ->].
      destruct (IH bufs r) as [-> H]; auto.
Qed.

(* the first failing Commit: everything before committed, everything after is rolled back and
   stores nothing; the error returned is the one of that Commit *)
Lemma fan_commit_error : forall cs bufs ends e, length bufs = length cs ->
  fan_commit None cs bufs = (ends, Some e) ->
  exists pre c post,
    cs = pre ++ c :: post /\ Forall (fun c => ac_commit c = false) pre /\ ac_commit c = true /\
    e = e_commit c /\
    ends = map (fun b => (b, ECommitOk)) (firstn (length pre) bufs) ++ ([], ECommitFail) :: map rb_call post.
Proof.
  induction cs as [|c cs IH]; intros [|b bufs] ends e HL; simpl in *; try discriminate.
  destruct (ac_commit c) eqn:E.
  - rewrite fan_commit_after_error by lia. intros [= <- <-].
    exists [], c, cs. simpl. auto.
  - destruct (fan_commit None cs bufs) as [r e'] eqn:F. intros [= <- ->].
    destruct (IH bufs r e) as (pre & c' & post & -> & P1 & P2 & P3 & P4); auto.
    exists (c :: pre), c', post. simpl. rewrite P4. repeat split; auto.
Qed.

Lemma fan_commit_length : forall cs bufs err, length bufs = length cs ->
  length (fst (fan_commit err cs bufs)) = length cs.
Proof.
  induction cs as [|c cs IH]; intros [|b bufs] err HL; simpl in *; try discriminate; auto.
  injection HL as HL. destruct err; [|destruct (ac_commit c)];
    match goal with |- context [fan_commit ?e cs bufs] => specialize (IH bufs e HL); destruct (fan_commit e cs bufs) end;
    simpl in *; now f_equal.
Qed.

Lemma fan_commit_primary_fails : forall p secs bp bs, ac_commit p = true -> length bs = length secs ->
  fan_commit None (p :: secs) (bp :: bs) = (([], ECommitFail) :: map rb_call secs, Some (e_commit p)).
Proof.
  intros p secs bp bs H HL. simpl. rewrite H. rewrite fan_commit_after_error by auto. reflexivity.
Qed.

Lemma fan_rollback_calls : forall cs err, exists e, fan_rollback err cs = (map rb_call cs, e).
Proof.
  induction cs as [|c cs IH]; intros err; simpl; eauto.
  match goal with |- context [fan_rollback ?e cs] => destruct (IH e) as (e' & ->) end.
  eauto.
Qed.

Lemma map_rb_fst : forall cs, Forall (fun en : list entry * endcall => fst en = []) (map rb_call cs).
Proof. induction cs; simpl; constructor; auto. Qed.

Lemma map_rb_calls : forall cs, Forall is_rollback (map snd (map rb_call cs)).
Proof.
  induction cs as [|c cs IH]; simpl; constructor; auto.
  unfold is_rollback. destruct (ac_rollback c); auto.
Qed.

Definition grows (old new : list entry) : Prop := exists d, new = old ++ d.

Lemma grows_refl : forall l, grows l l.
Proof. intros l; exists []; rewrite app_nil_r; auto. Qed.
Lemma grows_trans : forall a b c, grows a b -> grows b c -> grows a c.
Proof. intros a b c [d1 ->] [d2 ->]. exists (d1 ++ d2). rewrite app_assoc. auto. Qed.

Lemma Forall2_grows_refl : forall a, Forall2 grows a a.
Proof. induction a; constructor; auto using grows_refl. Qed.

Lemma Forall2_grows_trans : forall a b c, Forall2 grows a b -> Forall2 grows b c -> Forall2 grows a c.
Proof.
  intros a b c H. revert c. induction H; intros c' H2; inversion H2; subst; constructor; eauto using grows_trans.
Qed.

Lemma Forall_grows : forall (P : list entry -> Prop) a b,
  (forall o n, grows o n -> P o -> P n) -> Forall2 grows a b -> Forall P a -> Forall P b.
Proof.
  intros P a b M H. induction H; intros F; inversion F; subst; constructor; eauto.
Qed.

Lemma app_secs_spec : forall i x ref cs bufs bufs' e, length bufs = length cs ->
  app_secs i x ref cs bufs = (bufs', e) ->
  length bufs' = length bufs /\ Forall2 grows bufs bufs' /\
  (e = None -> Forall2 (fun old new => new = old ++ [(x, ref)]) bufs bufs').
Proof.
  induction cs as [|c cs IH]; intros [|b bufs] bufs' e HL; simpl in *; try discriminate.
  - intros [= <- <-]. auto.
  - destruct (mem_nat i (ac_fail c)).
    + intros [= <- <-]. repeat split; try discriminate. apply Forall2_grows_refl.
    + destruct (app_secs i x ref cs bufs) as [br e'] eqn:F. intros [= <- <-].
      destruct (IH bufs br e') as (A & B & C); auto.
      repeat split; [simpl; lia | constructor; auto; eexists; eauto | intros ->; constructor; auto].
Qed.

(* an Append that returns nil has put the sample at the end of every appender's buffer; any
   Append only extends buffers *)
Lemma fan_append_spec : forall v2 p secs i x bufs bufs' ref e,
  length bufs = S (length secs) ->
  fan_append v2 p secs i x bufs = (bufs', (ref, e)) ->
  length bufs' = length bufs /\ Forall2 grows bufs bufs' /\
  (e = None -> Forall (fun new => exists r, In (x, r) new) bufs').
Proof.
  intros v2 p secs i x [|bp bs] bufs' ref e HL; simpl in HL; [discriminate|]. injection HL as HL.
  unfold fan_append. destruct (mem_nat i (ac_fail p)).
  - intros [= <- <- <-]. repeat split; try discriminate. apply Forall2_grows_refl.
  - destruct (app_secs i x (prim_ref x) secs bs) as [bs' e'] eqn:F.
    destruct (app_secs_spec _ _ _ _ _ _ _ HL F) as (A & B & C).
    intros [= <- E]. repeat split; [simpl; lia | constructor; auto; eexists; eauto |].
    intros ->. destruct e'; [discriminate|]. specialize (C eq_refl).
    constructor. { exists 0. apply in_or_app. right. simpl. auto. }
    clear -C. induction C as [|o n ? ? H]; constructor; auto.
    subst n. exists (prim_ref x). apply in_or_app. right. simpl. auto.
Qed.

Lemma fan_appends_spec : forall v2 p secs xs i bufs bufs' ress,
  length bufs = S (length secs) ->
  fan_appends v2 p secs i xs bufs = (bufs', ress) ->
  length bufs' = length bufs /\ Forall2 grows bufs bufs' /\ length ress = length xs /\
  forall k x ref, nth_error xs k = Some x -> nth_error ress k = Some (ref, None) ->
                  Forall (fun new => exists r, In (x, r) new) bufs'.
Proof.
  induction xs as [|x xs IH]; intros i bufs bufs' ress HL; simpl.
  - intros [= <- <-]. repeat split; auto using Forall2_grows_refl. intros [|k]; discriminate.
  - destruct (fan_append v2 p secs i x bufs) as [bufs1 [ref1 e1]] eqn:F1.
    destruct (fan_appends v2 p secs (S i) xs bufs1) as [bufs2 ress2] eqn:F2.
    intros [= <- <-].
    destruct (fan_append_spec _ _ _ _ _ _ _ _ _ HL F1) as (A1 & B1 & C1).
    destruct (IH (S i) bufs1 bufs2 ress2) as (A2 & B2 & L2 & C2); [lia|auto|].
    repeat split; [lia | eauto using Forall2_grows_trans | simpl; lia |].
    intros [|k] x' ref; simpl; [|apply C2].
    intros [= <-] [= -> ->]. apply (Forall_grows _ bufs1 bufs2); auto.
    intros o n [d ->] [r I]. exists r. apply in_or_app. auto.
Qed.

Definition store_step (sd : list entry * (list entry * endcall)) : list entry := fst sd ++ fst (snd sd).

Lemma stores_unchanged : forall stores ends, length ends = length stores ->
  Forall (fun en => fst en = []) ends -> map store_step (combine stores ends) = stores.
Proof.
  induction stores as [|s stores IH]; intros [|en ends] HL HF; simpl in *; try discriminate; auto.
  inversion HF as [|? ? H1 H2]; subst. unfold store_step at 1. simpl. rewrite H1, app_nil_r, IH; auto.
Qed.

Lemma stores_grow : forall stores ends, length ends = length stores ->
  Forall2 grows stores (map store_step (combine stores ends)).
Proof.
  induction stores as [|s stores IH]; intros [|en ends] HL; simpl in *; try discriminate; constructor; auto.
  eexists; reflexivity.
Qed.

Lemma stores_committed : forall (Q : list entry -> Prop) stores bufs, length bufs = length stores ->
  Forall Q bufs ->
  Forall2 (fun old new => exists d, new = old ++ d /\ Q d) stores
          (map store_step (combine stores (map (fun b => (b, ECommitOk)) bufs))).
Proof.
  induction stores as [|s stores IH]; intros [|b bufs] HL HF; simpl in *; try discriminate; constructor;
    inversion_clear HF; [eexists; split; [reflexivity|auto] | apply IH; auto].
Qed.

(* one appender session from ANY state of the stores (hence every state reachable by a history
   of sessions) *)
Theorem session_spec : forall stores s stores' res,
  length stores = S (length (ss_secs s)) ->
  run_session stores s = (stores', res) ->
  length stores' = length stores /\ sr_stores res = stores' /\ Forall2 grows stores stores' /\
  length (sr_appends res) = length (ss_samples s) /\
  (* a committed append reaches the primary and every secondary *)
  (ss_commit s = true -> sr_end res = None ->
     Forall (fun c => c = ECommitOk) (sr_calls res) /\
     forall k x ref, nth_error (ss_samples s) k = Some x ->
                     nth_error (sr_appends res) k = Some (ref, None) ->
       Forall2 (fun old new => exists d, new = old ++ d /\ exists r, In (x, r) d) stores stores') /\
  (* Commit fails whenever some appender's commit fails, ... *)
  (ss_commit s = true -> forall e, sr_end res = Some e ->
     exists pre c post, ss_prim s :: ss_secs s = pre ++ c :: post /\ ac_commit c = true /\ e = e_commit c /\
       Forall (fun c => ac_commit c = false) pre /\
       map Some (sr_calls res) = map (fun _ => Some ECommitOk) pre ++ Some ECommitFail :: map (fun c => Some (snd (rb_call c))) post) /\
  (* ... and if the primary's commit fails no secondary commits: all are rolled back, nothing is stored *)
  (ss_commit s = true -> ac_commit (ss_prim s) = true ->
     sr_end res = Some (e_commit (ss_prim s)) /\ stores' = stores /\
     exists calls, sr_calls res = ECommitFail :: calls /\ Forall is_rollback calls) /\
  (* Rollback rolls everyone back *)
  (ss_commit s = false -> stores' = stores /\ Forall is_rollback (sr_calls res)).
Proof.
  intros stores s stores' res HL. unfold run_session.
  set (cs := ss_prim s :: ss_secs s).
  destruct (fan_appends (ss_v2 s) (ss_prim s) (ss_secs s) 0 (ss_samples s) (map (fun _ => []) cs)) as [bufs ares] eqn:FA.
  assert (length (map (fun _ : appcfg => @nil entry) cs) = S (length (ss_secs s))) as L0 by (rewrite map_length; reflexivity).
  destruct (fan_appends_spec _ _ _ _ _ _ _ _ L0 FA) as (A1 & A2 & A3 & A4).
  rewrite L0 in A1.
  assert (length bufs = length cs) as LB by (simpl; lia).
  destruct (ss_commit s) eqn:SC.
  - pose proof (fan_commit_length cs bufs None LB) as LE.
    destruct (fan_commit None cs bufs) as [ends e] eqn:FC. cbn [fst] in LE.
    fold store_step. intros [= <- <-]. cbn [sr_stores sr_end sr_calls sr_appends].
    replace (length cs) with (length stores) in LE by (simpl; lia).
    split; [rewrite map_length, combine_length; lia|].
    split; [reflexivity|].
    split; [apply stores_grow; auto|].
    split; [auto|].
    split; [|split; [|split; [|discriminate]]].
    + intros _ ->. destruct (fan_commit_nil _ _ _ LB FC) as [-> _]. split.
      * rewrite map_map. apply Forall_map, Forall_forall. reflexivity.
      * intros k x ref Hx Hr. apply stores_committed; [simpl in *; lia|]. eapply A4; eauto.
    + intros _ e0 ->. destruct (fan_commit_error _ _ _ _ LB FC) as (pre & c & post & E1 & P1 & P2 & P3 & ->).
      exists pre, c, post. repeat split; auto.
      rewrite !map_app. cbn [map]. rewrite !map_map. cbn [snd]. f_equal.
      apply map_const_length, firstn_length_le. rewrite LB, E1, app_length. lia.
    + intros _ PF. unfold cs in FC. destruct bufs as [|bp bs]; [simpl in LB; discriminate|].
      rewrite fan_commit_primary_fails in FC by (auto; simpl in LB; lia). injection FC as <- <-.
      split; [reflexivity|]. split.
      * apply stores_unchanged; auto. constructor; auto. apply map_rb_fst.
      * cbn [map snd]. eexists; split; [reflexivity|]. apply map_rb_calls.
  - destruct (fan_rollback_calls cs None) as (e & FR). rewrite FR.
    fold store_step. intros [= <- <-]. cbn [sr_stores sr_end sr_calls sr_appends].
    assert (map store_step (combine stores (map rb_call cs)) = stores) as U.
    { apply stores_unchanged; [rewrite map_length; simpl; lia | apply map_rb_fst]. }
    change (map rb_call cs) with (rb_call (ss_prim s) :: map rb_call (ss_secs s)) in U. rewrite U.
    split; [auto|]. split; [auto|]. split; [apply Forall2_grows_refl|]. split; [auto|].
    split; [discriminate|]. split; [discriminate|]. split; [discriminate|].
    intros _. split; [auto|apply (map_rb_calls cs)].
Qed.

(* every session of every history is a run_session step from stores of the right shape, so
   session_spec applies to all of them *)
Lemma history_spec : forall n ss stores,
  length stores = n -> Forall (fun s => S (length (ss_secs s)) = n) ss ->
  Forall2 (fun s res => exists st st', length st = n /\ run_session st s = (st', res))
          ss (run_sessions stores ss).
Proof.
  intros n. induction ss as [|s ss IH]; intros stores HL HF; simpl; [constructor|].
  inversion_clear HF as [|? ? H1 H2].
  destruct (run_session stores s) as [st res] eqn:R.
  constructor; [eauto|].
  apply IH; auto.
  destruct (session_spec _ _ _ _ (eq_trans HL (eq_sym H1)) R) as (L & _). lia.
Qed.

Definition wit_prim : qcfg :=
  QOk [mkSet [mkSer 0 [(0, 0); (10, 10)]; mkSer 3 [(20, 3020)]] None []] (mkLbl [0; 4] None []) (mkLbl [0; 1] None []).
(* a secondary failing at its second Next *)
Definition wit_sec_late : qcfg :=
  QOk [mkSet [mkSer 1 [(0, 1000); (30, 1030)]; mkSer 3 [(10, 3010); (20, 3020)]; mkSer 5 [(40, 5040)]]
             (Some (1%nat, 2101)) []] (mkLbl [1; 4] None []) (mkLbl [0; 1] None []).
(* a secondary failing at its first Next and at LabelValues, and a healthy one *)
Definition wit_sec_first : qcfg :=
  QOk [mkSet [mkSer 1 [(0, 1000)]; mkSer 3 [(10, 3010)]] (Some (0%nat, 2101)) [2102]]
      (mkLbl [1; 4] (Some 2051) []) (mkLbl [0; 1] None []).
Definition wit_sec_ok : qcfg :=
  QOk [mkSet [mkSer 3 [(10, 3010); (30, 3030)]; mkSer 7 [(50, 7050)]] None []]
      (mkLbl [2] None []) (mkLbl [0; 1] None []).
