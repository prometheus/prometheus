(* proof/RateProofs.v — proofs about model/Rate.v (property C30): extrapolatedRate against the
   separately written [doc_change] / [doc_rate] for any window and any oracle, the bounds on the
   extrapolation under [fge_ok], irate / idelta, and resets / changes as one generic count of
   adjacent pairs. *)
From Coq Require Import List ZArith QArith Qabs Bool Sorted Lia Lqa.
From Verif Require Import model.Rate lib.SortedList.
Import ListNotations.
Open Scope Z_scope.

Lemma Qltb_true x y : Qltb x y = true <-> (x < y)%Q.
Proof.
  unfold Qltb. rewrite negb_true_iff. split; intro H.
  - apply Qnot_le_lt. intro C. apply Qle_bool_iff in C. congruence.
  - destruct (Qle_bool y x) eqn:E; auto. apply Qle_bool_iff in E. lra.
Qed.
Lemma Qltb_false x y : Qltb x y = false <-> (y <= x)%Q.
Proof. unfold Qltb. rewrite negb_false_iff. apply Qle_bool_iff. Qed.
Lemma Qle_bool_false x y : Qle_bool x y = false <-> (y < x)%Q.
Proof. rewrite <- (Qltb_true y x). symmetry. apply negb_true_iff. Qed.

Lemma Qdiv_nonneg a b : (0 <= a -> 0 <= b -> 0 <= a / b)%Q.
Proof.
  intros Ha Hb. unfold Qdiv. apply Qmult_le_0_compat; auto. apply Qinv_le_0_compat; auto.
Qed.

Lemma ms_nonneg z : 0 <= z -> (0 <= ms z)%Q.
Proof.
  intro H. unfold ms. apply Qdiv_nonneg; [| discriminate].
  change 0%Q with (inject_Z 0). rewrite <- Zle_Qle. exact H.
Qed.
Lemma ms_pos z : 0 < z -> (0 < ms z)%Q.
Proof.
  intro H. unfold ms. apply Qlt_shift_div_l; [reflexivity|].
  rewrite Qmult_0_l. change 0%Q with (inject_Z 0). rewrite <- Zlt_Qlt. exact H.
Qed.
Lemma ms_le a b : a <= b -> (ms a <= ms b)%Q.
Proof.
  intro H. unfold ms, Qdiv. apply Qmult_le_compat_r; [| discriminate].
  rewrite <- Zle_Qle. exact H.
Qed.
Lemma ms_plus a b : (ms a + ms b == ms (a + b))%Q.
Proof. unfold ms. rewrite inject_Z_plus. field. Qed.

Lemma avg_nonneg S n : 0 <= S -> (0 <= avg_dur S n)%Q.
Proof.
  intro H. unfold avg_dur. destruct (0 <? n) eqn:E; [| apply Qle_refl].
  apply Qdiv_nonneg; [apply ms_nonneg; auto|].
  change 0%Q with (inject_Z 0). rewrite <- Zle_Qle. apply Z.ltb_lt in E. lia.
Qed.

Lemma last_Forall {A} (P : A -> Prop) first rest :
  Forall P (first :: rest) -> P (last rest first).
Proof.
  revert first. induction rest as [|b l IH]; intros first H; apply Forall_cons_iff in H as [Ha H]; [exact Ha|].
  rewrite last_cons. now apply IH.
Qed.
Lemma sorted_first_lt_last first rest :
  StronglySorted lt_T (first :: rest) -> rest <> [] -> sT first < sT (last rest first).
Proof.
  intros H Hne. apply StronglySorted_inv in H as [_ H]. destruct rest as [|b l]; [congruence|].
  rewrite last_cons. exact (last_Forall _ _ _ H).
Qed.
Lemma sorted_first_le_last first rest :
  StronglySorted lt_T (first :: rest) -> sT first <= sT (last rest first).
Proof.
  intro H. destruct rest as [|b l]; [simpl; lia|].
  apply Z.lt_le_incl, sorted_first_lt_last; [exact H | discriminate].
Qed.

Lemma window_valid ss rs re : StronglySorted lt_T ss -> valid_window (window ss rs re) rs re.
Proof.
  intro H. split; [now apply StronglySorted_filter|].
  unfold window. rewrite Forall_forall. intros x Hx. apply filter_In in Hx.
  destruct Hx as [_ Hx]. unfold in_window in Hx. apply andb_true_iff in Hx. lia.
Qed.
Lemma window_nonneg ss rs re : nonneg ss -> nonneg (window ss rs re).
Proof. apply Forall_filter. Qed.

(* removing the start timestamps changes neither the timestamps nor the values *)
Lemma eff_T b w : map sT (eff b w) = map sT w.
Proof. destruct b; simpl; auto. rewrite map_map. reflexivity. Qed.
Lemma eff_valid b w rs re : valid_window w rs re -> valid_window (eff b w) rs re.
Proof.
  destruct b; simpl; auto. intros [Hs Hf]. split; [|now apply Forall_map].
  now apply (StronglySorted_map strip_st lt_T lt_T).
Qed.
Lemma eval_window_valid b ss rs re :
  StronglySorted lt_T ss -> valid_window (eff b (window ss rs re)) rs re.
Proof. intro H. apply eff_valid, window_valid, H. Qed.
Lemma eff_nonneg b w : nonneg w -> nonneg (eff b w).
Proof. destruct b; simpl; auto. intro H. now apply Forall_map. Qed.

Lemma reset_correction_telescopes first rest :
  (sV (last rest first) - sV first + reset_corr first rest == Qsum (increments first rest))%Q.
Proof.
  revert first. induction rest as [| cur tl IH]; intro first.
  - simpl. ring.
  - rewrite last_cons. simpl. specialize (IH cur).
    destruct (is_reset first cur); unfold Qsum in *; simpl; rewrite <- IH; ring.
Qed.

Lemma not_reset_le p c : is_reset p c = false -> (sV p <= sV c)%Q.
Proof. intro H. apply orb_false_iff in H as [H _]. now apply Qltb_false. Qed.

Lemma increments_nonneg first rest :
  nonneg (first :: rest) -> Forall (fun x => (0 <= x)%Q) (increments first rest).
Proof.
  revert first. induction rest as [| cur tl IH]; intros first H; simpl; [constructor|].
  apply Forall_cons_iff in H as [Hf Hr]. constructor; [| apply IH; auto].
  apply Forall_cons_iff in Hr as [Hc _].
  destruct (is_reset first cur) eqn:E; [exact Hc | apply not_reset_le in E; lra].
Qed.
Lemma Qsum_nonneg l : Forall (fun x => (0 <= x)%Q) l -> (0 <= Qsum l)%Q.
Proof. induction 1; unfold Qsum in *; simpl; [apply Qle_refl|]. lra. Qed.
Lemma counter_result_nonneg first rest :
  nonneg (first :: rest) -> (0 <= sV (last rest first) - sV first + reset_corr first rest)%Q.
Proof.
  intro H. rewrite reset_correction_telescopes. apply Qsum_nonneg, increments_nonneg, H.
Qed.

Lemma Qltb_compat a b c d : (a == c)%Q -> (b == d)%Q -> Qltb a b = Qltb c d.
Proof. intros H1 H2. unfold Qltb. now rewrite H1, H2. Qed.

Section Oracle.
  Variable fge : Z -> Z -> Z -> bool.

  Lemma extend_nonneg gap S n : 0 <= gap -> 0 <= S -> (0 <= extend fge gap S n)%Q.
  Proof.
    intros Hg HS. unfold extend.
    destruct (fge _ _ _); [apply Qdiv_nonneg; [now apply avg_nonneg | discriminate] | now apply ms_nonneg].
  Qed.

  Lemma finish_nonneg is_rate result SI dStart dEnd_ms S n range_ms :
    (0 <= result)%Q -> (0 <= SI)%Q -> (0 <= dStart)%Q -> 0 <= dEnd_ms -> 0 <= S -> 0 < range_ms ->
    (0 <= finish fge is_rate result SI dStart dEnd_ms S n range_ms)%Q.
  Proof.
    intros Hr HSI HdS HdE HS Hrg. unfold finish. fold (extend fge dEnd_ms S n).
    assert (Hend := extend_nonneg dEnd_ms S n HdE HS).
    apply Qmult_le_0_compat; auto.
    assert (Hf : (0 <= (if Qeq_bool SI 0 then 1 else (SI + dStart + extend fge dEnd_ms S n) / SI))%Q).
    { destruct (Qeq_bool SI 0); [discriminate|]. apply Qdiv_nonneg; auto. lra. }
    destruct is_rate; auto. apply Qdiv_nonneg; auto. apply ms_nonneg. lia.
  Qed.

  Lemma extrapolated_rate_nonneg is_rate w rs re range_ms v :
    valid_window w rs re -> nonneg w -> 0 < range_ms ->
    extrapolated_rate fge true is_rate w rs re range_ms = Some v -> (0 <= v)%Q.
  Proof.
    intros [Hs Hw] Hnn Hrg. destruct w as [| first rest]; [discriminate|].
    pose proof (counter_result_nonneg first rest Hnn) as Hres.
    pose proof (sorted_first_le_last first rest Hs) as Hfl.
    pose proof (last_Forall _ _ _ Hw) as Hlast. cbv beta in Hlast.
    apply Forall_cons_iff in Hw as [Hfirst _]. apply Forall_cons_iff in Hnn as [Hv0 _].
    unfold extrapolated_rate. cbv zeta. simpl andb.
    destruct (negb (sST first =? 0) && (rs <? sST first) && (sST first <? sT first)) eqn:EST.
    - intros [= <-]. apply andb_true_iff in EST as [_ E3]. apply Z.ltb_lt in E3.
      apply finish_nonneg; try lia; try lra. apply ms_nonneg. lia.
    - destruct (Z.of_nat (length rest) =? 0); [discriminate|]. intros [= <-].
      set (S := sT (last rest first) - sT first) in *. set (n := Z.of_nat (length rest)) in *.
      fold (extend fge (sT first - rs) S n).
      assert (Hd0 := extend_nonneg (sT first - rs) S n ltac:(lia) ltac:(lia)).
      apply finish_nonneg; try lia; auto; [apply ms_nonneg; lia|].
      set (result := (sV (last rest first) - sV first + reset_corr first rest)%Q) in *.
      destruct (Qltb 0 result && Qle_bool 0 (sV first)) eqn:Ez; [|now destruct (Qltb (extend _ _ _ _) _)].
      apply andb_true_iff in Ez as [Ez1 _]. apply Qltb_true in Ez1.
      destruct (Qltb (_ * _) _); auto.
      apply Qmult_le_0_compat; [apply ms_nonneg; lia|]. apply Qdiv_nonneg; lra.
  Qed.

  Lemma finish_rate_increase result SI dStart dEnd_ms S n range_ms :
    0 < range_ms ->
    (finish fge false result SI dStart dEnd_ms S n range_ms ==
     finish fge true result SI dStart dEnd_ms S n range_ms * ms range_ms)%Q.
  Proof.
    intro Hr. pose proof (ms_pos _ Hr) as Hp. unfold finish. cbv zeta. field. lra.
  Qed.

  Lemma increase_is_rate_times_range w rs re range_ms :
    0 < range_ms ->
    match extrapolated_rate fge true true w rs re range_ms,
          extrapolated_rate fge true false w rs re range_ms with
    | Some r, Some i => (i == r * ms range_ms)%Q
    | None, None => True
    | _, _ => False
    end.
  Proof.
    intro Hr. destruct w as [| first rest]; simpl; auto.
    destruct (negb (sST first =? 0) && (rs <? sST first) && (sST first <? sT first)).
    - apply finish_rate_increase; auto.
    - destruct (Z.of_nat (length rest) =? 0); auto. apply finish_rate_increase; auto.
  Qed.

  Lemma finish_increase result SI dStart dEnd_ms S n range_ms : ~ (SI == 0)%Q ->
    (finish fge false result SI dStart dEnd_ms S n range_ms ==
     result * ((dStart + SI + extend fge dEnd_ms S n) / SI))%Q.
  Proof.
    intro H. unfold finish, extend. destruct (Qeq_bool SI 0) eqn:E; [apply Qeq_bool_iff in E; contradiction|].
    field. exact H.
  Qed.

  Lemma matches_doc_change is_counter w rs re range_ms :
    StronglySorted lt_T w ->
    oeq (extrapolated_rate fge is_counter false w rs re range_ms)
        (doc_change fge is_counter w rs re).
  Proof.
    intro Hs. destruct w as [| first rest]; [exact I|].
    pose proof (reset_correction_telescopes first rest) as Htel.
    pose proof (sorted_first_le_last first rest Hs) as Hfl.
    unfold extrapolated_rate, doc_change. cbv zeta.
    set (lst := last rest first) in *. set (n := Z.of_nat (length rest)) in *.
    set (S := sT lst - sT first) in *.
    destruct (is_counter && negb (sST first =? 0) && (rs <? sST first) && (sST first <? sT first)) eqn:EST.
    - (* start timestamp inside the range *)
      apply andb_true_iff in EST as [EST E3]. apply Z.ltb_lt in E3.
      do 2 apply andb_true_iff in EST as [EST _]. subst is_counter.
      assert (Hpos : (0 < ms (sT lst - sST first))%Q) by (apply ms_pos; lia).
      unfold oeq. rewrite finish_increase, <- Htel by lra. field. lra.
    - destruct (n =? 0) eqn:En; [exact I|].
      assert (Hne : rest <> []) by (intros ->; discriminate).
      pose proof (sorted_first_lt_last first rest Hs Hne) as Hlt. fold lst in Hlt.
      assert (Hpos : (0 < ms S)%Q) by (apply ms_pos; unfold S; lia).
      unfold oeq. rewrite finish_increase by lra. fold (extend fge (sT first - rs) S n).
      set (d0 := extend fge (sT first - rs) S n).
      destruct is_counter; simpl andb; [|reflexivity].
      set (result := (sV lst - sV first + reset_corr first rest)%Q) in *.
      set (inc := Qsum (increments first rest)) in *.
      rewrite (Qltb_compat 0 result 0 inc (Qeq_refl 0) Htel).
      destruct (Qltb 0 inc && Qle_bool 0 (sV first)) eqn:Ecl.
      + (* the zero point: min written with < on one side and <= on the other *)
        apply andb_true_iff in Ecl as [Ei _]. apply Qltb_true in Ei.
        assert (Hdz : (ms S * (sV first / result) == ms S * sV first / inc)%Q) by (rewrite Htel; field; lra).
        unfold Qminq.
        destruct (Qltb (ms S * (sV first / result)) d0) eqn:E1;
          destruct (Qle_bool d0 (ms S * sV first / inc)) eqn:E2;
          [apply Qltb_true in E1; apply Qle_bool_iff in E2; lra | | |
           apply Qltb_false in E1; apply Qle_bool_false in E2; lra];
          rewrite ?Hdz, Htel; reflexivity.
      + rewrite (proj2 (Qltb_false d0 d0)), Htel by apply Qle_refl. reflexivity.
  Qed.

  Lemma matches_doc_rate w rs re range_ms :
    StronglySorted lt_T w -> 0 < range_ms ->
    oeq (extrapolated_rate fge true true w rs re range_ms) (doc_rate fge w rs re range_ms).
  Proof.
    intros Hs Hr. pose proof (matches_doc_change true w rs re range_ms Hs) as Hd.
    pose proof (increase_is_rate_times_range w rs re range_ms Hr) as Hi.
    unfold doc_rate.
    destruct (extrapolated_rate fge true true w rs re range_ms) as [r|];
      destruct (extrapolated_rate fge true false w rs re range_ms) as [i|];
      destruct (doc_change fge true w rs re) as [d|]; simpl in *; try contradiction; auto.
    rewrite <- Hd, Hi. pose proof (ms_pos _ Hr) as Hp. field. lra.
  Qed.

  Hypothesis Hfge : fge_ok fge.

  Lemma extend_bounds gap S n :
    0 <= gap -> 0 <= S -> 0 <= n ->
    (0 <= extend fge gap S n /\ extend fge gap S n <= ms gap /\ extend fge gap S n <= thr S n)%Q.
  Proof.
    intros Hg HS Hn. destruct (Hfge gap S n Hg HS Hn) as [H1 H2].
    pose proof (avg_nonneg S n HS) as Ha. pose proof (ms_nonneg gap Hg) as Hm.
    assert (Hh : (avg_dur S n / 2 == avg_dur S n * (1 # 2))%Q) by reflexivity.
    unfold extend, thr in *. destruct (fge gap S n) eqn:E; rewrite ?Hh.
    - assert (Hle : (avg_dur S n * (11 # 10) <= ms gap)%Q).
      { apply Qnot_lt_le. intro C. specialize (H2 C). congruence. }
      repeat split; lra.
    - assert (Hle : (ms gap <= avg_dur S n * (11 # 10))%Q).
      { apply Qnot_lt_le. intro C. specialize (H1 C). congruence. }
      repeat split; lra.
  Qed.

  Lemma doc_change_decomposed is_counter first rest rs re :
    st_path is_counter first rs = false -> rest <> [] ->
    doc_change fge is_counter (first :: rest) rs re =
    Some (doc_inc is_counter first rest *
          ((doc_left fge is_counter first rest rs + ms (sT (last rest first) - sT first)
            + doc_right fge first rest re) / ms (sT (last rest first) - sT first)))%Q.
  Proof.
    intros Hst Hne. unfold doc_change, st_path in *. rewrite Hst.
    destruct rest as [|b l]; [congruence|]. now destruct is_counter.
  Qed.

  (* the left extension is the threshold-limited one, cut at the counter's zero point *)
  Lemma doc_left_bounds is_counter first rest rs :
    let S := sT (last rest first) - sT first in
    let left0 := extend fge (sT first - rs) S (Z.of_nat (length rest)) in
    let left := doc_left fge is_counter first rest rs in
    (0 <= left0 -> 0 <= ms S ->
     0 <= left /\ left <= left0 /\
     (is_counter = true -> 0 < doc_inc true first rest -> 0 <= sV first ->
      left <= ms S * sV first / doc_inc true first rest))%Q.
  Proof.
    intros S left0 left H0 HS. unfold left, doc_left. fold S left0. cbv zeta.
    destruct (is_counter && Qltb 0 (doc_inc is_counter first rest) && Qle_bool 0 (sV first)) eqn:E.
    - apply andb_true_iff in E as [E E3]. apply andb_true_iff in E as [-> E2].
      apply Qltb_true in E2. apply Qle_bool_iff in E3.
      assert (Hz : (0 <= ms S * sV first / doc_inc true first rest)%Q).
      { apply Qdiv_nonneg; [| lra]. apply Qmult_le_0_compat; lra. }
      unfold Qminq. destruct (Qle_bool _ _) eqn:Em;
        [apply Qle_bool_iff in Em | apply Qle_bool_false in Em]; repeat split; auto; lra.
    - repeat split; try lra. intros -> Hi Hv. exfalso.
      apply Qltb_true in Hi. apply Qle_bool_iff in Hv. rewrite Hi, Hv in E. discriminate.
  Qed.

  Lemma extrapolation_bounds is_counter first rest rs re :
    valid_window (first :: rest) rs re -> rest <> [] ->
    let covered := ms (sT (last rest first) - sT first) in
    let left := doc_left fge is_counter first rest rs in
    let right := doc_right fge first rest re in
    let S := sT (last rest first) - sT first in
    let n := Z.of_nat (length rest) in
    (0 <= left /\ left <= ms (sT first - rs) /\ left <= thr S n /\
     0 <= right /\ right <= ms (re - sT (last rest first)) /\ right <= thr S n /\
     left + covered + right <= ms (re - rs) /\
     (is_counter = true -> 0 < doc_inc true first rest -> 0 <= sV first ->
      0 <= sV first - doc_inc true first rest / covered * left))%Q.
  Proof.
    intros [Hs Hw] Hne. cbv zeta.
    pose proof (sorted_first_lt_last first rest Hs Hne) as Hlt.
    pose proof (last_Forall _ _ _ Hw) as Hlast. cbv beta in Hlast.
    apply Forall_cons_iff in Hw as [Hfirst _].
    set (lst := last rest first) in *.
    set (S := sT lst - sT first) in *. set (n := Z.of_nat (length rest)) in *.
    destruct (extend_bounds (sT first - rs) S n ltac:(lia) ltac:(lia) ltac:(lia)) as [L0 [L1 L2]].
    destruct (extend_bounds (re - sT lst) S n ltac:(lia) ltac:(lia) ltac:(lia)) as [R0 [R1 R2]].
    assert (Hcov : (0 < ms S)%Q) by (apply ms_pos; lia).
    destruct (doc_left_bounds is_counter first rest rs L0 ltac:(fold lst S; lra)) as [Hl0 [Hl1 Hl2]].
    fold lst S n in Hl1, Hl2. unfold doc_right. fold lst S n.
    repeat split; try lra.
    - assert (Hsum : (ms (sT first - rs) + ms S + ms (re - sT lst) == ms (re - rs))%Q).
      { rewrite !ms_plus. now replace (sT first - rs + S + (re - sT lst)) with (re - rs) by lia. }
      lra.
    - intros Hc Hi Hv. specialize (Hl2 Hc Hi Hv).
      set (inc := doc_inc true first rest) in *. set (left := doc_left fge is_counter first rest rs) in *.
      assert (Hk : (0 < inc / ms S)%Q) by (apply Qlt_shift_div_l; lra).
      assert (Hm : (inc / ms S * left <= inc / ms S * (ms S * sV first / inc))%Q) by now apply Qmult_le_l.
      assert (Hs' : (inc / ms S * (ms S * sV first / inc) == sV first)%Q) by (field; lra).
      lra.
  Qed.

  (* with a usable start timestamp nothing is added on the left and the covered interval
     starts at that timestamp, which lies inside the range *)
  Lemma st_path_bounds first rest rs re :
    valid_window (first :: rest) rs re -> st_path true first rs = true ->
    let covered := ms (sT (last rest first) - sST first) in
    let right := doc_right fge first rest re in
    (0 < covered /\ 0 <= right /\ covered + right <= ms (re - rs) /\
     doc_change fge true (first :: rest) rs re =
       Some ((sV first + Qsum (increments first rest)) * ((covered + right) / covered)))%Q.
  Proof.
    intros [Hs Hw] Hst. cbv zeta.
    pose proof (sorted_first_le_last first rest Hs) as Hfl.
    pose proof (last_Forall _ _ _ Hw) as Hlast. cbv beta in Hlast.
    unfold st_path in Hst. pose proof Hst as Hst'.
    apply andb_true_iff in Hst as [Hst E3]. apply Z.ltb_lt in E3.
    apply andb_true_iff in Hst as [_ E2]. apply Z.ltb_lt in E2.
    set (lst := last rest first) in *.
    destruct (extend_bounds (re - sT lst) (sT lst - sT first) (Z.of_nat (length rest))
                ltac:(lia) ltac:(lia) ltac:(lia)) as [R0 [R1 R2]].
    unfold doc_right. fold lst.
    repeat split; auto.
    - apply ms_pos. lia.
    - assert (Hle : (ms (sT lst - sST first) + ms (re - sT lst) <= ms (re - rs))%Q)
        by (rewrite ms_plus; apply ms_le; lia).
      lra.
    - unfold doc_change. rewrite Hst'. reflexivity.
  Qed.
End Oracle.

Lemma fge_exact_ok : fge_ok fge_exact.
Proof.
  intros d S n _ _ _. unfold fge_exact. split; intro H.
  - apply Qle_bool_iff. lra.
  - apply Qle_bool_false. auto.
Qed.

Lemma instant_value_last_two is_rate pre p l :
  instant_value is_rate (pre ++ [p; l]) =
  if sT l - sT p =? 0 then None
  else let v := if negb is_rate || negb (is_reset p l) then (sV l - sV p)%Q else sV l in
       Some (if is_rate then (v / ms (sT l - sT p))%Q else v).
Proof. unfold instant_value. rewrite rev_app_distr. reflexivity. Qed.

Lemma instant_value_short is_rate w : (length w < 2)%nat -> instant_value is_rate w = None.
Proof.
  intro H. destruct w as [| a [| b w']]; try reflexivity. simpl in H. lia.
Qed.

Lemma irate_nonneg pre p l v :
  StronglySorted lt_T (pre ++ [p; l]) -> nonneg (pre ++ [p; l]) ->
  instant_value true (pre ++ [p; l]) = Some v -> (0 <= v)%Q.
Proof.
  intros Hs Hn.
  apply StronglySorted_app in Hs as (_ & Hs & _). apply StronglySorted_inv in Hs as [_ Hlt].
  apply Forall_cons_iff in Hlt as [Hlt _]. unfold lt_T in Hlt.
  apply Forall_app in Hn as [_ Hn]. apply Forall_cons_iff in Hn as [Hp Hn].
  apply Forall_cons_iff in Hn as [Hl _].
  rewrite instant_value_last_two. destruct (sT l - sT p =? 0) eqn:E; [discriminate|].
  cbv zeta. simpl orb. intros [= <-].
  apply Qdiv_nonneg; [| apply ms_nonneg; lia].
  destruct (is_reset p l) eqn:Er; simpl; [exact Hl | apply not_reset_le in Er; lra].
Qed.

Definition reset_pair (pr : sample * sample) : bool := is_reset (fst pr) (snd pr).
Definition change_pair (pr : sample * sample) : bool := negb (Qeq_bool (sV (snd pr)) (sV (fst pr))).

(* a counter that adds one for every adjacent pair satisfying [p] *)
Section Counting.
  Variable p : sample * sample -> bool.
  Variable cnt : sample -> list sample -> Z.
  Hypothesis cnt_nil : forall a, cnt a [] = 0.
  Hypothesis cnt_cons : forall a c tl, cnt a (c :: tl) = (if p (a, c) then 1 else 0) + cnt c tl.

  Lemma count_filter first rest : cnt first rest = Z.of_nat (length (filter p (adjacent first rest))).
  Proof.
    revert first. induction rest as [| cur tl IH]; intro first; simpl; [apply cnt_nil|].
    rewrite cnt_cons, IH. destruct (p (first, cur)); simpl length; lia.
  Qed.

  Lemma count_bounds first rest : 0 <= cnt first rest <= Z.of_nat (length rest).
  Proof.
    rewrite count_filter. replace (length rest) with (length (adjacent first rest)).
    - generalize (adjacent first rest). induction l as [|a l IH]; simpl; [lia|]. destruct (p a); simpl length; lia.
    - revert first. induction rest; intro; simpl; auto.
  Qed.

  Lemma count_zero_iff first rest :
    cnt first rest = 0 <-> Forall (fun pr => p pr = false) (adjacent first rest).
  Proof.
    revert first. induction rest as [| cur tl IH]; intro first; simpl; [now rewrite cnt_nil|].
    rewrite cnt_cons, Forall_cons_iff, <- IH. pose proof (count_bounds cur tl).
    destruct (p (first, cur)); intuition (lia || congruence).
  Qed.
End Counting.

Lemma count_resets_cons a c tl :
  count_resets a (c :: tl) = (if reset_pair (a, c) then 1 else 0) + count_resets c tl.
Proof. reflexivity. Qed.
Lemma count_changes_cons a c tl :
  count_changes a (c :: tl) = (if change_pair (a, c) then 1 else 0) + count_changes c tl.
Proof. unfold change_pair. simpl. now destruct (Qeq_bool (sV c) (sV a)). Qed.

Lemma resets_le_changes_no_st first rest :
  Forall (fun s => sST s = 0) rest -> count_resets first rest <= count_changes first rest.
Proof.
  revert first. induction rest as [| cur tl IH]; intros first H; simpl; [lia|].
  apply Forall_cons_iff in H as [Hc Ht]. specialize (IH cur Ht).
  unfold is_reset. rewrite Hc. change (st_reset (sST first) (sT first) 0 (sT cur)) with false.
  rewrite orb_false_r.
  destruct (Qltb (sV cur) (sV first)) eqn:E; destruct (Qeq_bool (sV cur) (sV first)) eqn:E2; try lia.
  apply Qltb_true in E. apply Qeq_bool_iff in E2. lra.
Qed.

Lemma no_changes_iff first rest :
  count_changes first rest = 0 <-> Forall (fun s => (sV s == sV first)%Q) rest.
Proof.
  rewrite (count_zero_iff change_pair count_changes (fun _ => eq_refl) count_changes_cons).
  revert first. induction rest as [| cur tl IH]; intro first; simpl; [split; constructor|].
  rewrite !Forall_cons_iff, IH. unfold change_pair. simpl. rewrite negb_false_iff, Qeq_bool_iff.
  split; intros [E H]; (split; [exact E|]); revert H; apply Forall_impl; intros s Hs; rewrite Hs; [|symmetry]; exact E.
Qed.
