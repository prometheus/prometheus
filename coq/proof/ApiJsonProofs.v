(* proof/ApiJsonProofs.v — lemmas and proofs about model/ApiJson.v (property C51). *)
From Coq Require Import List ZArith NArith Bool Lia String.
From Verif Require Import lib.Int64 model.ApiJson.
Import ListNotations.
Open Scope Z_scope.

Lemma digit_is_digit d : 0 <= d <= 9 -> is_digit (digit d) = true.
Proof.
  intros H. unfold is_digit, digit.
  apply andb_true_iff; split; apply N.leb_le; lia.
Qed.

Lemma digit_val d : 0 <= d <= 9 -> Z.of_N (digit d) - 48 = d.
Proof. intros H. unfold digit. lia. Qed.

Lemma digit_not0 d : 1 <= d <= 9 -> (digit d =? 48)%N = false.
Proof. intros H. unfold digit. apply N.eqb_neq. lia. Qed.

Lemma is_digit_not c k : is_digit c = true -> (k < 48)%N -> (c =? k)%N = false.
Proof.
  unfold is_digit. intros H Hk. apply andb_true_iff in H as [H1 _].
  apply N.leb_le in H1. apply N.eqb_neq. lia.
Qed.

Lemma digits_val_app a b acc : digits_val acc (a ++ b) = digits_val (digits_val acc a) b.
Proof. revert acc. induction a as [|c a IH]; intros acc; simpl; auto. Qed.

Lemma pdigits_lt10 k n : n < 10 -> pdigits (S k) n = [digit n].
Proof. intros H. cbn [pdigits]. destruct (Z.ltb_spec n 10); [reflexivity | lia]. Qed.

Lemma pdigits_ge10 k n : 10 <= n -> pdigits (S k) n = pdigits k (n / 10) ++ [digit (n mod 10)].
Proof. intros H. cbn [pdigits]. destruct (Z.ltb_spec n 10); [lia | reflexivity]. Qed.

Definition all_digits (l : bytes) : Prop := Forall (fun c => is_digit c = true) l.

Lemma pd_digits fuel : forall n, 0 <= n -> all_digits (pdigits fuel n).
Proof.
  induction fuel as [|f IH]; intros n Hn; [constructor|].
  destruct (Z.ltb_spec n 10); [rewrite pdigits_lt10 | rewrite pdigits_ge10]; try assumption.
  - repeat constructor. apply digit_is_digit. lia.
  - apply Forall_app. split; [apply IH | repeat constructor; apply digit_is_digit];
      Z.div_mod_to_equations; lia.
Qed.

Lemma pd_val fuel : forall n acc, 0 <= n < 10 ^ Z.of_nat fuel ->
  digits_val acc (pdigits fuel n) = acc * 10 ^ Z.of_nat (List.length (pdigits fuel n)) + n.
Proof.
  induction fuel as [|f IH]; intros n acc Hn.
  - change (10 ^ Z.of_nat 0) with 1 in Hn. cbn [pdigits digits_val List.length]. change (10 ^ Z.of_nat 0) with 1. lia.
  - rewrite Nat2Z.inj_succ, Z.pow_succ_r in Hn by lia.
    destruct (Z.ltb_spec n 10); [rewrite pdigits_lt10 | rewrite pdigits_ge10]; try assumption.
    + cbn [digits_val List.length]. rewrite digit_val by lia. change (10 ^ Z.of_nat 1) with 10. lia.
    + pose proof (Z.div_mod n 10 ltac:(lia)) as Hd. pose proof (Z.mod_pos_bound n 10 ltac:(lia)) as Hm.
      rewrite digits_val_app, app_length, IH by lia.
      cbn [digits_val List.length]. rewrite digit_val by lia.
      rewrite Nat2Z.inj_add, Z.pow_add_r by lia. change (10 ^ Z.of_nat 1) with 10. nia.
Qed.

(* the printed integer starts with a digit; with a non-zero digit when it has several *)
Lemma pd_head fuel : forall n, 0 < n < 10 ^ Z.of_nat fuel ->
  exists c r, pdigits fuel n = c :: r /\ is_digit c = true /\ (c =? 48)%N = false.
Proof.
  induction fuel as [|f IH]; intros n Hn; [simpl in Hn; lia|].
  rewrite Nat2Z.inj_succ, Z.pow_succ_r in Hn by lia.
  destruct (Z.ltb_spec n 10); [rewrite pdigits_lt10 | rewrite pdigits_ge10]; try assumption.
  - exists (digit n), []. repeat split; [apply digit_is_digit | apply digit_not0]; lia.
  - destruct (IH (n / 10)) as (c & r & -> & Hc & H0); [Z.div_mod_to_equations; lia|].
    exists c, (r ++ [digit (n mod 10)]). auto.
Qed.

Lemma pd_int_ok n : 0 <= n < 10 ^ 20 -> int_ok (pdigits 20 n) = true.
Proof.
  intros Hn. destruct (Z.ltb_spec n 10); [now rewrite pdigits_lt10|]. rewrite pdigits_ge10 by assumption.
  destruct (pd_head 19 (n / 10)) as (c & r & -> & _ & H0).
  { change (10 ^ Z.of_nat 19) with (10 ^ 19). change (10 ^ 20) with (10 * 10 ^ 19) in Hn.
    Z.div_mod_to_equations. lia. }
  simpl. destruct (r ++ [digit (n mod 10)]) eqn:Er; [destruct r; discriminate | now rewrite H0].
Qed.

Lemma pd_nonempty n : 0 <= n -> exists c r, pdigits 20 n = c :: r /\ is_digit c = true.
Proof.
  intros Hn. pose proof (pd_digits 20 n Hn) as Hd. destruct (pdigits 20 n) as [|c r] eqn:E.
  - destruct (Z.ltb_spec n 10); [rewrite pdigits_lt10 in E | rewrite pdigits_ge10 in E]; try assumption;
      [discriminate|]. destruct (pdigits 19 (n / 10)); discriminate.
  - exists c, r. split; auto. now inversion Hd.
Qed.

Lemma take_digits_app ds r :
  all_digits ds -> (r = [] \/ exists c r', r = c :: r' /\ is_digit c = false) ->
  take_digits (ds ++ r) = (ds, r).
Proof.
  intros Hd Hr. induction Hd as [|c ds Hc Hd IH]; simpl.
  - destruct Hr as [->|(c & r' & -> & Hc)]; simpl; auto. rewrite Hc. reflexivity.
  - rewrite Hc, IH. reflexivity.
Qed.

(* the fraction part written after the integer seconds, for 0 <= fr < 1000 *)
Definition frac_part (fraction : Z) : bytes :=
  if fraction =? 0 then []
  else [46%N] ++ (if fraction <? 100 then [48%N] else [])
              ++ (if fraction <? 10 then [48%N] else [])
              ++ write_int64 fraction.

(* always three digits: the padding makes up for the digits WriteInt64 does not write *)
Lemma frac_part_digits fr : 0 < fr < 1000 ->
  frac_part fr = 46%N :: [digit (fr / 100); digit (fr / 10 mod 10); digit (fr mod 10)].
Proof.
  intros H. unfold frac_part, write_int64.
  destruct (Z.eqb_spec fr 0); [lia|]. destruct (Z.ltb_spec fr 0); [lia|].
  destruct (Z.ltb_spec fr 10); destruct (Z.ltb_spec fr 100); try lia.
  - rewrite pdigits_lt10 by assumption.
    rewrite (Z.div_small fr 100), (Z.div_small fr 10), (Z.mod_small fr 10) by lia. reflexivity.
  - rewrite pdigits_ge10, pdigits_lt10 by (Z.div_mod_to_equations; lia).
    rewrite (Z.div_small fr 100), (Z.mod_small (fr / 10) 10) by (Z.div_mod_to_equations; lia). reflexivity.
  - rewrite pdigits_ge10 by assumption. rewrite pdigits_ge10, pdigits_lt10 by (Z.div_mod_to_equations; lia).
    rewrite Z.div_div by lia. reflexivity.
Qed.

Lemma parse_unsigned_ts sg a : 0 <= a <= maxInt64 ->
  exists m k, parse_unsigned sg (pdigits 20 (a / 1000) ++ frac_part (a mod 1000)) = Some (m, k)
              /\ m * 1000 = sg * a * 10 ^ k /\ (k = 0 \/ k = 3).
Proof.
  intros Ha. unfold maxInt64 in Ha.
  assert (Hq : 0 <= a / 1000 < 10 ^ 20)
    by (change (10 ^ 20) with 100000000000000000000; Z.div_mod_to_equations; lia).
  pose proof (pd_digits 20 (a / 1000) (proj1 Hq)) as Hdig.
  pose proof (pd_int_ok (a / 1000) Hq) as Hok.
  pose proof (pd_val 20 (a / 1000) 0 Hq) as Hval. rewrite Z.mul_0_l, Z.add_0_l in Hval.
  unfold parse_unsigned.
  destruct (Z.eqb_spec (a mod 1000) 0) as [E0|E0].
  - unfold frac_part. rewrite E0. change (0 =? 0) with true. cbn iota.
    rewrite (take_digits_app _ []) by auto. rewrite Hok, Hval.
    exists (sg * (a / 1000)), 0. split; [reflexivity|]. split; [|auto]. Z.div_mod_to_equations. lia.
  - rewrite frac_part_digits by (Z.div_mod_to_equations; lia).
    set (d1 := a mod 1000 / 100). set (d2 := a mod 1000 / 10 mod 10). set (d3 := a mod 1000 mod 10).
    assert (Hd : 0 <= d1 <= 9 /\ 0 <= d2 <= 9 /\ 0 <= d3 <= 9 /\ a mod 1000 = d1 * 100 + d2 * 10 + d3)
      by (unfold d1, d2, d3; Z.div_mod_to_equations; lia).
    destruct Hd as (H1 & H2 & H3 & Hrec).
    rewrite take_digits_app; auto.
    2:{ right. eexists _, _. split; [reflexivity|reflexivity]. }
    rewrite Hok. change ((46 =? 46)%N) with true. cbn iota.
    assert (Htd : take_digits [digit d1; digit d2; digit d3] = ([digit d1; digit d2; digit d3], [])).
    { rewrite <- (app_nil_r [digit d1; digit d2; digit d3]) at 1. apply take_digits_app; auto.
      repeat constructor; apply digit_is_digit; auto. }
    rewrite Htd, Hval. cbn [digits_val List.length]. rewrite !digit_val by auto.
    eexists _, 3. split; [reflexivity|]. split; [|auto].
    change (10 ^ 3) with 1000. Z.div_mod_to_equations. lia.
Qed.

Lemma marshal_timestamp_nonneg t : 0 <= t ->
  marshal_timestamp t = pdigits 20 (t / 1000) ++ frac_part (t mod 1000).
Proof.
  intros Ht. unfold marshal_timestamp, godiv, gorem.
  destruct (Z.ltb_spec t 0); [lia|]. rewrite Z.quot_div_nonneg, Z.rem_mod_nonneg by lia.
  unfold write_int64 at 1.
  now rewrite (proj2 (Z.ltb_ge (t / 1000) 0)) by (apply Z.div_pos; lia).
Qed.

Lemma marshal_timestamp_neg t : minInt64 < t < 0 ->
  marshal_timestamp t = 45%N :: pdigits 20 ((- t) / 1000) ++ frac_part ((- t) mod 1000).
Proof.
  intros Ht. unfold marshal_timestamp, godiv, gorem.
  destruct (Z.ltb_spec t 0); [|lia].
  unfold neg64. rewrite wrap64_id by (unfold int64, minInt64, maxInt64 in *; lia).
  rewrite Z.quot_div_nonneg, Z.rem_mod_nonneg by lia.
  unfold write_int64 at 1.
  now rewrite (proj2 (Z.ltb_ge (- t / 1000) 0)) by (apply Z.div_pos; lia).
Qed.

(* C51, timestamps: for every int64 t except MinInt64 the bytes written by MarshalTimestamp are a
   JSON number whose exact value m/10^k is t/1000. *)
Theorem timestamp_roundtrip t : minInt64 < t <= maxInt64 ->
  exists m k, parse_number (marshal_timestamp t) = Some (m, k) /\ m * 1000 = t * 10 ^ k /\ (k = 0 \/ k = 3).
Proof.
  intros Ht. destruct (Z.ltb_spec t 0) as [Hneg|Hpos].
  - rewrite marshal_timestamp_neg by lia. unfold parse_number. change ((45 =? 45)%N) with true. cbn iota.
    destruct (parse_unsigned_ts (-1) (- t)) as (m & k & Hp & Hm & Hk).
    { unfold minInt64, maxInt64 in *. lia. }
    exists m, k. split; [exact Hp|]. split; [lia|exact Hk].
  - rewrite marshal_timestamp_nonneg by lia.
    destruct (pd_nonempty (t / 1000)) as (c & r & Hc & Hd). { apply Z.div_pos; lia. }
    destruct (parse_unsigned_ts 1 t) as (m & k & Hp & Hm & Hk). { lia. }
    unfold parse_number. rewrite Hc in *. cbn [app].
    rewrite (is_digit_not c 45) by (auto; reflexivity).
    exists m, k. split; [exact Hp|]. split; [lia|exact Hk].
Qed.

(* MinInt64: t = -t wraps, the output is not a number at all (outside the API's time range). *)
Lemma timestamp_minint64_garbage :
  marshal_timestamp minInt64 = s2b "--9223372036854775.00-808" /\ parse_number (marshal_timestamp minInt64) = None.
Proof. split; vm_compute; reflexivity. Qed.

Lemma api_min_val : api_min_ms = -9223309901257974000.
Proof. vm_compute. reflexivity. Qed.
Lemma api_max_val : api_max_ms = 9223309901257974999.
Proof. vm_compute. reflexivity. Qed.

Lemma api_range_in_domain t : in_api_range t = true -> minInt64 < t <= maxInt64.
Proof.
  unfold in_api_range. rewrite api_min_val, api_max_val. intros H. apply andb_true_iff in H as [H1 H2].
  apply Z.leb_le in H1, H2. unfold minInt64, maxInt64. lia.
Qed.

Section FloatRoundTrip.
Variable fmt : Z -> fmtk -> bytes.
Variable parse : bytes -> option Z.               (* strconv.ParseFloat *)
Hypothesis fmt_plain : forall f k, forallb plain_char (fmt f k) = true.
Hypothesis fmt_rt : forall f k, exists f', parse (fmt f k) = Some f' /\ fsame f f' = true.

Lemma unquote_quote body : forallb plain_char body = true -> unquote ([34%N] ++ body ++ [34%N]) = Some body.
Proof.
  intros H. unfold unquote. cbn [app]. change ((34 =? 34)%N) with true. cbn iota.
  rewrite rev_app_distr. cbn [rev app]. change ((34 =? 34)%N) with true. cbn iota.
  rewrite rev_involutive, H. reflexivity.
Qed.

Theorem float_roundtrip f :
  exists s f', unquote (marshal_float fmt f) = Some s /\ parse s = Some f' /\ fsame f f' = true.
Proof.
  unfold marshal_float. destruct (fmt_rt f (choose_fmt f)) as (f' & Hp & Hs).
  exists (fmt f (choose_fmt f)), f'. split; [|auto]. apply unquote_quote, fmt_plain.
Qed.
End FloatRoundTrip.

Lemma choose_fmt_spec f :
  choose_fmt f = if fnan f then FmtF
                 else if fabs f =? 0 then FmtF
                 else if (fabs f <? c_1em6) || (c_1e21 <=? fabs f) then FmtE else FmtF.
Proof.
  unfold choose_fmt, fne, flt, fge, fnan, fzero, fkey, fsign.
  assert (Ha : 0 <= fabs f < two63) by (unfold fabs; apply Z.mod_pos_bound; reflexivity).
  assert (Haa : fabs (fabs f) = fabs f) by (unfold fabs in *; rewrite Z.mod_small; auto).
  rewrite Haa.
  replace (two63 <=? fabs f) with false by (symmetry; apply Z.leb_gt; lia).
  change (two63 <=? c_1em6) with false. change (two63 <=? c_1e21) with false. change (two63 <=? 0) with false.
  change (fabs 0) with 0. change (inf_bits <? 0) with false.
  change (inf_bits <? fabs c_1em6) with false. change (inf_bits <? fabs c_1e21) with false.
  destruct (inf_bits <? fabs f) eqn:En; cbn.
  - reflexivity.
  - destruct (fabs f =? 0); reflexivity.
Qed.

(* Two different timestamps inside the API's time range get the same float64(T)/1000 and hence
   the same bytes, whatever the float formatting does: the scalar encoding is not injective. *)
Lemma scalar_ts_collision :
  in_api_range 9007199254741020 = true /\ in_api_range 9007199254741021 = true /\
  scalar_ts_bits 9007199254741020 = scalar_ts_bits 9007199254741021.
Proof. repeat split; vm_compute; reflexivity. Qed.