(* proof/PromqlAggProofs.v — proofs about model/PromqlAgg.v (property C29).
   Grouping and the rightSigs map are lookups in association lists keyed by label sets
   ([assoc_labels]); SUM / AVG / STDVAR are read backwards from a finite result (a finite float
   result forces finite operands and the exact relation between them); vector matching without
   fill modifiers is one theorem for every cardinality ([vector_binop_nofill]); TOPK / BOTTOMK
   is a heap invariant ([kinv]) over an abstract order, instantiated twice. *)
From Coq Require Import List ZArith NArith QArith Qabs Bool Lia Permutation Sorted Lqa Qround.
From Verif Require Import model.PromqlAgg lib.SortedList lib.LexOrder.
Import ListNotations.
Open Scope Z_scope.

Lemma str_eqb_eq : forall a b, str_eqb a b = true <-> a = b.
Proof. exact (eqb_list_eq N.eqb N.eqb_eq). Qed.

Lemma labels_eqb_eq : forall a b, labels_eqb a b = true <-> a = b.
Proof.
  induction a as [|[n v] a IH]; destruct b as [|[n' v'] b]; simpl; try easy.
  unfold label_eqb. simpl. rewrite !andb_true_iff, !str_eqb_eq, IH.
  split; [intros [[-> ->] ->] | intros [= -> -> ->]]; auto.
Qed.

Lemma labels_eqb_spec a b : reflect (a = b) (labels_eqb a b).
Proof. apply iff_reflect. symmetry. apply labels_eqb_eq. Qed.

Lemma labels_eqb_refl a : labels_eqb a a = true.
Proof. now apply labels_eqb_eq. Qed.

Lemma labels_eqb_sym a b : labels_eqb a b = labels_eqb b a.
Proof. destruct (labels_eqb_spec a b), (labels_eqb_spec b a); congruence. Qed.

Lemma mem_labels_spec l ls : reflect (In l ls) (mem_labels l ls).
Proof. apply iff_reflect. symmetry. apply (existsb_eqb_In labels_eqb labels_eqb_eq). Qed.

Lemma has_dup_labels_NoDup l : has_dup_labels l = false <-> NoDup l.
Proof.
  induction l as [|a l IH]; simpl; [split; [constructor | reflexivity]|].
  rewrite orb_false_iff, IH, NoDup_cons_iff.
  destruct (mem_labels_spec a l); intuition congruence.
Qed.

Lemma assoc_labels_In {A} k (l : list (labels * A)) a : assoc_labels k l = Some a -> In (k, a) l.
Proof.
  induction l as [|[k' a'] l IH]; simpl; [discriminate|].
  destruct (labels_eqb_spec k k') as [->|_]; [intros [= ->]; now left | right; auto].
Qed.

Lemma assoc_labels_None {A} k (l : list (labels * A)) : assoc_labels k l = None <-> ~ In k (map fst l).
Proof.
  induction l as [|[k' a] l IH]; simpl; [tauto|].
  destruct (labels_eqb_spec k k') as [->|Hne]; [split; [discriminate | tauto]|].
  rewrite IH. intuition congruence.
Qed.

Lemma assoc_labels_NoDup {A} k a (l : list (labels * A)) :
  NoDup (map fst l) -> In (k, a) l -> assoc_labels k l = Some a.
Proof.
  induction l as [|[k' a'] l IH]; simpl; [easy|]. rewrite NoDup_cons_iff. intros [Hn Hd] [[= -> ->]|Hin].
  - now rewrite labels_eqb_refl.
  - destruct (labels_eqb_spec k k') as [->|_]; [|auto].
    exfalso. apply Hn. now apply (in_map fst) in Hin.
Qed.

Section Groups.
Context {A : Type}.
Variable key : A -> labels.

Lemma groups_of_snoc : forall v s,
  groups_of key (v ++ [s]) = add_to_group (groups_of key v) (key s) s.
Proof. intros. unfold groups_of. now rewrite fold_left_app. Qed.

Lemma add_to_group_keys : forall (acc : list (labels * list A)) k s,
  map fst (add_to_group acc k s) =
  if mem_labels k (map fst acc) then map fst acc else map fst acc ++ [k].
Proof.
  induction acc as [|[k' m] acc IH]; intros k s; simpl; [reflexivity|].
  destruct (labels_eqb k k'); simpl; [reflexivity|].
  rewrite IH. now destruct (mem_labels k (map fst acc)).
Qed.

Lemma assoc_add_to_group (acc : list (labels * list A)) k0 s k :
  assoc_labels k (add_to_group acc k0 s) =
  if labels_eqb k k0
  then Some (match assoc_labels k0 acc with Some m => m ++ [s] | None => [s] end)
  else assoc_labels k acc.
Proof.
  induction acc as [|[k' m] acc IH]; simpl; [reflexivity|].
  destruct (labels_eqb_spec k0 k') as [->|Hne]; simpl.
  - now destruct (labels_eqb k k').
  - rewrite IH. destruct (labels_eqb_spec k k') as [->|_]; [|reflexivity].
    now destruct (labels_eqb_spec k' k0) as [->|_].
Qed.

Lemma uniq_keys_snoc : forall ks k,
  uniq_keys (ks ++ [k]) = if mem_labels k (uniq_keys ks) then uniq_keys ks else uniq_keys ks ++ [k].
Proof. intros. unfold uniq_keys. now rewrite fold_left_app. Qed.

Lemma groups_of_keys : forall v, map fst (groups_of key v) = uniq_keys (map key v).
Proof.
  induction v as [|s v IH] using rev_ind; [reflexivity|].
  rewrite groups_of_snoc, add_to_group_keys, IH, map_app. symmetry. apply uniq_keys_snoc.
Qed.

Lemma uniq_keys_NoDup : forall ks, NoDup (uniq_keys ks).
Proof.
  induction ks as [|k ks IH] using rev_ind; [constructor|].
  rewrite uniq_keys_snoc. destruct (mem_labels_spec k (uniq_keys ks)); [assumption | now apply NoDup_snoc].
Qed.

Lemma uniq_keys_In : forall ks k, In k (uniq_keys ks) <-> In k ks.
Proof.
  induction ks as [|k0 ks IH] using rev_ind; intro k; [reflexivity|].
  rewrite uniq_keys_snoc, in_app_iff. simpl.
  destruct (mem_labels_spec k0 (uniq_keys ks)) as [Hin|_]; [|rewrite in_app_iff, IH; simpl; tauto].
  apply IH in Hin. rewrite IH. intuition congruence.
Qed.

Lemma groups_of_lookup v k :
  assoc_labels k (groups_of key v) =
  match filter (fun s => labels_eqb (key s) k) v with [] => None | ms => Some ms end.
Proof.
  induction v as [|s v IH] using rev_ind; [reflexivity|].
  rewrite groups_of_snoc, assoc_add_to_group, filter_app. simpl. rewrite (labels_eqb_sym (key s) k).
  destruct (labels_eqb_spec k (key s)) as [->|_]; rewrite IH.
  - now destruct (filter _ v).
  - now rewrite app_nil_r.
Qed.

(* the groups are exactly the classes of the projected label set, each with its members in
   input order, and the groups appear in the order of their first member *)
Lemma groups_of_partition : forall v,
  let gs := groups_of key v in
  NoDup (map fst gs) /\
  map fst gs = uniq_keys (map key v) /\
  (forall s, In s v -> In (key s) (map fst gs)) /\
  (forall k ms, In (k, ms) gs ->
     ms <> [] /\ ms = filter (fun s => labels_eqb (key s) k) v).
Proof.
  intro v. cbv zeta.
  assert (Hnd : NoDup (map fst (groups_of key v))) by (rewrite groups_of_keys; apply uniq_keys_NoDup).
  split; [exact Hnd|]. split; [apply groups_of_keys|]. split.
  - intros s Hs. rewrite groups_of_keys. apply uniq_keys_In. now apply in_map.
  - intros k ms Hin. apply (assoc_labels_NoDup _ _ _ Hnd) in Hin. rewrite groups_of_lookup in Hin.
    destruct (filter _ v); [discriminate|]. injection Hin as <-. now split.
Qed.
End Groups.

Lemma flat_map_app_perm : forall {A B} (f g : A -> list B) l,
  Permutation (flat_map (fun a => f a ++ g a) l) (flat_map f l ++ flat_map g l).
Proof.
  intros A B f g l. induction l as [|a l IH]; simpl; [reflexivity|].
  rewrite <- !app_assoc. apply Permutation_app_head.
  eapply Permutation_trans; [apply Permutation_app_head; exact IH|].
  rewrite !app_assoc. apply Permutation_app_tail. apply Permutation_app_comm.
Qed.

Lemma flat_map_filter {A B} (p : A -> bool) (f : A -> list B) l :
  flat_map f (filter p l) = flat_map (fun a => if p a then f a else []) l.
Proof. induction l as [|a l IH]; simpl; [reflexivity|]. destruct (p a); simpl; now rewrite IH. Qed.

(* enumerating the matched pairs of two lists by the second list first gives a permutation of the
   enumeration by the first list *)
Lemma flat_map_swap {A B C} (p : A -> B -> bool) (f : A -> B -> list C) la lb :
  Permutation (flat_map (fun b => flat_map (fun a => f a b) (filter (fun a => p a b) la)) lb)
              (flat_map (fun a => flat_map (fun b => f a b) (filter (fun b => p a b) lb)) la).
Proof.
  induction la as [|a0 la IH]; cbn [flat_map filter].
  - now rewrite flat_map_nil.
  - rewrite flat_map_filter. etransitivity; [|apply Permutation_app_head, IH].
    etransitivity; [|apply flat_map_app_perm].
    apply Permutation_refl'. apply flat_map_ext. intro b. now destruct (p a0 b).
Qed.

Lemma injZ_nonzero : forall n, 1 <= n -> ~ inject_Z n == 0.
Proof. intros n Hn E. unfold Qeq in E. simpl in E. lia. Qed.

Lemma fins_map_FFin xs : fins (map FFin xs) = xs.
Proof. induction xs as [|x xs IH]; simpl; [reflexivity | now rewrite IH]. Qed.

Lemma qsum_app1 : forall l x, qsum (l ++ [x]) == qsum l + x.
Proof. induction l as [|a l IH]; intro x; simpl; [ring | rewrite IH; ring]. Qed.
Lemma qlen_app1 : forall l (x : Q), qlen (l ++ [x]) == qlen l + 1.
Proof.
  intros l x. unfold qlen. rewrite app_length, Nat2Z.inj_add, inject_Z_plus. reflexivity.
Qed.

Lemma pair_eq {A B} (p : A * B) a b : fst p = a -> snd p = b -> p = (a, b).
Proof. destruct p. simpl. congruence. Qed.

Definition qsq (l : list Q) : Q := qsum (map (fun x => x * x)%Q l).

Lemma qsq_app1 : forall l x, qsq (l ++ [x]) == qsq l + x * x.
Proof. intros l x. unfold qsq. rewrite map_app. apply qsum_app1. Qed.

(* one step of Welford's recurrence keeps mean = S/n and M2 = SQ - S^2/n, where S and SQ are the
   sum and the sum of squares of the n values seen *)
Lemma welford_step (S SQ n x m q m' q' : Q) : ~ n == 0 -> ~ n + 1 == 0 ->
  m == S / n -> q == SQ - S * S / n ->
  m' == m + (x - m) / (n + 1) -> q' == q + (x - m) * (x - m') ->
  m' == (S + x) / (n + 1) /\ q' == SQ + x * x - (S + x) * (S + x) / (n + 1).
Proof.
  intros Hn Hn1 Em Eq Em' Eq'. split; [rewrite Em', Em | rewrite Eq', Em', Eq, Em]; field; auto.
Qed.

Lemma qsum_sq_shift : forall l c,
  qsum (map (fun x => (x - c) * (x - c))%Q l) == qsq l - (2 # 1) * c * qsum l + qlen l * c * c.
Proof.
  induction l as [|a l IH]; intro c.
  - unfold qsq, qlen. simpl. ring.
  - change (a :: l) with ([a] ++ l) at 4. unfold qsq, qlen in *. rewrite app_length, Nat2Z.inj_add, inject_Z_plus.
    cbn [map qsum fold_right app length]. fold (qsum (map (fun x => (x - c) * (x - c))%Q l)).
    fold (qsum (map (fun x => x * x)%Q l)). fold (qsum l). rewrite IH. simpl. ring.
Qed.

Section Arith.
Variable ovf : Q -> bool.

Lemma rnd_fin : forall q r, rnd ovf q = FFin r -> r == q.
Proof. intros q r. unfold rnd. destruct (ovf q); [discriminate|]. intros [= <-]. apply Qred_correct. Qed.

(* a finite result has finite operands: NaN and the infinities are absorbing *)
Lemma fadd_fin_inv : forall a b r, fadd ovf a b = FFin r ->
  exists x y, a = FFin x /\ b = FFin y /\ r == x + y.
Proof.
  intros [| s | x] [| t | y] r H; simpl in H; try discriminate.
  - destruct (Bool.eqb s t); discriminate.
  - exists x, y. repeat split. now apply rnd_fin.
Qed.

Lemma fsub_fin_inv : forall a b r, fsub ovf a b = FFin r ->
  exists x y, a = FFin x /\ b = FFin y /\ r == x - y.
Proof.
  intros a [| t | y] r H; apply fadd_fin_inv in H as (x & y' & -> & [= <-] & Hr).
  exists x, y. repeat split. exact Hr.
Qed.

Lemma fsub_fin : forall x y r, fsub ovf (FFin x) (FFin y) = FFin r -> r == x - y.
Proof. intros x y r H. now apply fsub_fin_inv in H as (? & ? & [= <-] & [= <-] & H). Qed.

Lemma fmul_fin_inv : forall a b r, fmul ovf a b = FFin r ->
  exists x y, a = FFin x /\ b = FFin y /\ r == x * y.
Proof.
  intros [| s | x] [| t | y] r H; simpl in H; try discriminate.
  - destruct (Qeq_bool y 0); discriminate.
  - destruct (Qeq_bool x 0); discriminate.
  - exists x, y. repeat split. now apply rnd_fin.
Qed.

Lemma fdiv_fin_inv : forall a y r, fdiv ovf a (FFin y) = FFin r ->
  exists x, a = FFin x /\ ~ y == 0 /\ r == x / y.
Proof.
  intros [| s | x] y r H; simpl in H; try discriminate.
  exists x. split; [reflexivity|]. destruct (Qeq_bool y 0) eqn:E.
  - destruct (Qeq_bool x 0); discriminate.
  - split; [intro Hy; apply Qeq_bool_iff in Hy; congruence | now apply rnd_fin].
Qed.

(* kahansum.Inc: when the new sum and compensation are both finite, so were the arguments, and
   sum + compensation is exactly the old sum + compensation + increment *)
Lemma kahan_inc_fin_inv inc sum c t' c' :
  kahan_inc ovf inc sum c = (FFin t', FFin c') ->
  exists i s c0, inc = FFin i /\ sum = FFin s /\ c = FFin c0 /\ t' + c' == s + c0 + i.
Proof.
  unfold kahan_inc. intros [= Ht Hc]. rewrite Ht in Hc. cbn [is_inf] in Hc.
  apply fadd_fin_inv in Ht as (s & i & -> & -> & Ht).
  exists i, s.
  destruct (fge _ _);
    apply fadd_fin_inv in Hc as (c0 & y & -> & Hy & Hc);
    apply fadd_fin_inv in Hy as (d & ? & Hd & [= <-] & Hy);
    apply fsub_fin_inv in Hd as (? & ? & [= <-] & [= <-] & Hd);
    exists c0; repeat split; rewrite Hc, Hy, Hd; ring.
Qed.

(* SUM: a finite Kahan-compensated sum is the exact sum of its (then finite) inputs *)
Lemma sum_fold_fin : forall vs st t c,
  fold_left (sum_step ovf) vs st = (FFin t, FFin c) ->
  exists t0 c0, st = (FFin t0, FFin c0) /\ t + c == t0 + c0 + qsum (fins vs).
Proof.
  induction vs as [|v vs IH]; intros st t c H; simpl in H.
  - exists t, c. split; [exact H | simpl; ring].
  - apply IH in H as (t1 & c1 & H & E).
    apply kahan_inc_fin_inv in H as (i & t0 & c0 & -> & Ht & Hc & E1).
    exists t0, c0. split; [now apply pair_eq|].
    change (qsum (fins (FFin i :: vs))) with (i + qsum (fins vs))%Q. rewrite E, E1. ring.
Qed.

Lemma agg_sum_fin v vs r : agg_sum ovf v vs = FFin r -> r == qsum (fins (v :: vs)).
Proof.
  unfold agg_sum. cbv zeta. intro H.
  apply fadd_fin_inv in H as (t & c & Ht & Hc & Hr).
  apply (pair_eq _ _ _ Ht), sum_fold_fin in Hc as (x & ? & [= -> <-] & E).
  change (qsum (fins (FFin x :: vs))) with (x + qsum (fins vs))%Q. rewrite Hr, E. ring.
Qed.

(* AVG: direct Kahan sum, switching to the incremental mean when the sum would overflow.
   [avg_rep st S]: the accumulator is finite and stands for the exact sum S (value +
   compensation before the switch, (mean + compensation) * count after it) *)
Definition avg_rep (st : avgst) (S : Q) : Prop :=
  exists t c, (if a_incr st then a_mean st else a_val st) = FFin t /\ a_c st = FFin c /\
              (t + c) * (if a_incr st then inject_Z (a_cnt st) else 1) == S.

Lemma avg_rep_eq st S S' : avg_rep st S -> S == S' -> avg_rep st S'.
Proof. intros (t & c & Ht & Hc & E) H. exists t, c. now rewrite E. Qed.

(* the incremental-mean update: mean' = mean * n/(n+1) + f/(n+1), Kahan-compensated *)
Lemma incr_core_inv n f mean0 c0 m' c' :
  let q := fdiv ovf (fz n) (fz (n + 1)) in
  kahan_inc ovf (fdiv ovf f (fz (n + 1))) (fmul ovf q mean0) (fmul ovf q c0) = (FFin m', FFin c') ->
  exists x m c, f = FFin x /\ mean0 = FFin m /\ c0 = FFin c /\
                (m' + c') * inject_Z (n + 1) == (m + c) * inject_Z n + x.
Proof.
  intros q H. apply kahan_inc_fin_inv in H as (i & a & b & Hi & Ha & Hb & E).
  apply fdiv_fin_inv in Hi as (x & -> & Hn1 & Hi).
  apply fmul_fin_inv in Ha as (qq & m & Hq & -> & Ha). rewrite Hq in Hb.
  apply fmul_fin_inv in Hb as (? & c & [= <-] & -> & Hb).
  apply fdiv_fin_inv in Hq as (? & [= <-] & _ & Hq).
  exists x, m, c. repeat split. rewrite E, Ha, Hb, Hi, Hq. field. exact Hn1.
Qed.

Lemma avg_step_inv st f S :
  avg_rep (avg_step ovf st f) S -> exists x, f = FFin x /\ avg_rep st (S - x).
Proof.
  intros (t' & c' & Ht & Hc & E). unfold avg_rep. unfold avg_step in Ht, Hc, E.
  replace (a_cnt st + 1 - 1) with (a_cnt st) in * by lia.
  destruct (a_incr st).
  - cbn [a_incr a_mean a_c a_cnt] in *.
    apply (pair_eq _ _ _ Ht), incr_core_inv in Hc as (x & m & c & -> & Hm & Hc & E1).
    exists x. split; [reflexivity|]. exists m, c. repeat split; try assumption. rewrite <- E, E1. ring.
  - destruct (is_inf (fst (kahan_inc ovf f (a_val st) (a_c st)))); cbn [a_incr a_mean a_val a_c a_cnt] in *.
    + apply (pair_eq _ _ _ Ht), incr_core_inv in Hc as (x & m & c & -> & Hm & Hc & E1).
      apply fdiv_fin_inv in Hm as (t & Ht0 & Hn & Hm).
      apply fdiv_fin_inv in Hc as (c0 & Hc0 & _ & Hc).
      exists x. split; [reflexivity|]. exists t, c0. repeat split; try assumption.
      rewrite <- E, E1, Hm, Hc. field. exact Hn.
    + apply (pair_eq _ _ _ Ht), kahan_inc_fin_inv in Hc as (x & t & c & -> & Hv & Hc & E1).
      exists x. split; [reflexivity|]. exists t, c. repeat split; try assumption. rewrite <- E, E1. ring.
Qed.

Lemma avg_step_cnt st f : a_cnt (avg_step ovf st f) = a_cnt st + 1.
Proof. unfold avg_step. now destruct (if a_incr st then None else _). Qed.

Lemma avg_fold_inv : forall vs st S,
  avg_rep (fold_left (avg_step ovf) vs st) S ->
  avg_rep st (S - qsum (fins vs)) /\
  a_cnt (fold_left (avg_step ovf) vs st) = a_cnt st + Z.of_nat (length (fins vs)).
Proof.
  induction vs as [|v vs IH]; intros st S H; simpl fold_left in *.
  - split; [|simpl; lia]. apply (avg_rep_eq _ _ _ H). simpl. ring.
  - apply IH in H as (H & Hcnt). apply avg_step_inv in H as (x & -> & H).
    change (fins (FFin x :: vs)) with (x :: fins vs). split.
    + apply (avg_rep_eq _ _ _ H). simpl. ring.
    + rewrite Hcnt, avg_step_cnt. simpl length. lia.
Qed.

Lemma avg_final_inv st r : avg_final ovf st = FFin r -> avg_rep st (r * inject_Z (a_cnt st)).
Proof.
  intro H. unfold avg_final in H. unfold avg_rep. destruct (a_incr st).
  - apply fadd_fin_inv in H as (m & c & Hm & Hc & Hr). exists m, c. now rewrite Hr.
  - apply fadd_fin_inv in H as (a & b & Ha & Hb & Hr).
    apply fdiv_fin_inv in Ha as (t & Ht & Hn & Ha).
    apply fdiv_fin_inv in Hb as (c & Hc & _ & Hb).
    exists t, c. repeat split; try assumption. rewrite Hr, Ha, Hb. field. exact Hn.
Qed.

(* whenever the result is finite it is the exact mean, wherever the switch happened *)
Lemma agg_avg_fin v vs r : agg_avg ovf v vs = FFin r -> r == qmean (fins (v :: vs)).
Proof.
  unfold agg_avg. intro H. apply avg_final_inv, avg_fold_inv in H as ((x & ? & Hx & [= <-] & E) & Hcnt).
  cbn [avg_init a_incr a_val a_c a_cnt] in Hx, E, Hcnt. subst v. rewrite Hcnt in E.
  change (fins (FFin x :: vs)) with (x :: fins vs). unfold qmean, qlen. simpl length.
  rewrite Nat2Z.inj_succ, <- Z.add_1_l. simpl qsum.
  assert (Hn : ~ inject_Z (1 + Z.of_nat (length (fins vs))) == 0) by (apply injZ_nonzero; lia).
  setoid_replace x with (r * inject_Z (1 + Z.of_nat (length (fins vs))) - qsum (fins vs))%Q by (rewrite <- E; ring).
  field. exact Hn.
Qed.

Definition var_good (st : varst) (l : list Q) : Prop :=
  v_cnt st = Z.of_nat (length l) /\ 1 <= v_cnt st /\
  exists m q, v_mean st = FFin m /\ v_m2 st = FFin q /\
              m == qsum l / qlen l /\ q == qsq l - qsum l * qsum l / qlen l.

Lemma var_fold_m2_fin : forall vs st q',
  v_m2 (fold_left (var_step ovf) vs st) = FFin q' -> exists q, v_m2 st = FFin q.
Proof.
  induction vs as [|v vs IH]; intros st q' H; [eauto|].
  apply IH in H as (q & H). apply fadd_fin_inv in H as (q0 & ? & H & _). eauto.
Qed.

Lemma var_step_good st l f q' :
  var_good st l -> v_m2 (var_step ovf st f) = FFin q' ->
  exists x, f = FFin x /\ var_good (var_step ovf st f) (l ++ [x]).
Proof.
  intros (Hc & H1 & m & q & Hm & Hq & Em & Eq) H. unfold var_good, var_step in *.
  cbn [v_m2 v_cnt v_mean] in *. rewrite Hm, Hq in *. set (n := v_cnt st) in *.
  assert (H0 := H).
  apply fadd_fin_inv in H as (? & p & [= <-] & Hp & Eq').
  apply fmul_fin_inv in Hp as (d & e & Hd & He & Hp).
  apply fsub_fin_inv in He as (x & m' & -> & Hm' & He). assert (Hm'0 := Hm').
  rewrite Hd in Hm'. apply fsub_fin in Hd.
  apply fadd_fin_inv in Hm' as (? & dd & [= <-] & Hdd & Em').
  apply fdiv_fin_inv in Hdd as (? & [= <-] & Hn1 & Hdd).
  exists x. split; [reflexivity|].
  split; [rewrite app_length; simpl; lia|]. split; [lia|]. exists m', q'. do 2 (split; [assumption|]).
  assert (Hlen : qlen l == inject_Z n) by (unfold qlen; now rewrite <- Hc).
  rewrite inject_Z_plus, <- Hlen in Hn1, Hdd.
  rewrite qsum_app1, qsq_app1, qlen_app1.
  apply welford_step with (m := m) (q := q); try assumption.
  - rewrite Hlen. apply injZ_nonzero, H1.
  - now rewrite Em', Hdd, Hd.
  - now rewrite Eq', Hp, Hd, He.
Qed.

Lemma var_fold_good : forall vs st l q',
  var_good st l -> v_m2 (fold_left (var_step ovf) vs st) = FFin q' ->
  var_good (fold_left (var_step ovf) vs st) (l ++ fins vs).
Proof.
  induction vs as [|v vs IH]; intros st l q' Hg H; simpl in *.
  - now rewrite app_nil_r.
  - destruct (var_fold_m2_fin _ _ _ H) as (q & Hq).
    destruct (var_step_good _ _ _ _ Hg Hq) as (x & -> & Hg').
    change (fins (FFin x :: vs)) with ([x] ++ fins vs). rewrite app_assoc. eauto.
Qed.

(* STDVAR: for every overflow oracle, a finite result is the population variance
   sum((x - mean)^2) / n of its (then finite) inputs *)
Lemma agg_stdvar_fin v vs r : agg_stdvar ovf v vs = FFin r -> r == qvar (fins (v :: vs)).
Proof.
  unfold agg_stdvar. cbv zeta. intro H.
  apply fdiv_fin_inv in H as (q' & Hq' & Hn & Hr).
  destruct (var_fold_m2_fin _ _ _ Hq') as (q0 & H0).
  destruct v as [| |x]; try discriminate.
  assert (Hg : var_good (var_init (FFin x)) [x]).
  { split; [reflexivity|]. split; [simpl; lia|].
    exists x, 0%Q. cbn [var_init v_mean v_m2]. repeat split; unfold qsq, qlen; simpl; field. }
  destruct (var_fold_good _ _ _ _ Hg Hq') as (Hc & _ & m & q & _ & Hq & _ & Eq).
  rewrite Hq in Hq'. injection Hq' as <-.
  change (fins (FFin x :: vs)) with (x :: fins vs). cbn [app] in *.
  assert (Hlen : qlen (x :: fins vs) == inject_Z (v_cnt (fold_left (var_step ovf) vs (var_init (FFin x)))))
    by (unfold qlen; now rewrite <- Hc).
  unfold qvar. rewrite qsum_sq_shift. unfold qmean. rewrite Hr, Eq, Hlen. field. exact Hn.
Qed.

End Arith.

Lemma mem_labels_map : forall {A} (f : A -> labels) x l,
  mem_labels x (map f l) = existsb (fun t => labels_eqb x (f t)) l.
Proof. intros A f x l. unfold mem_labels. induction l as [|a l IH]; simpl; [reflexivity | now rewrite IH]. Qed.

(* VectorAnd / VectorOr / VectorUnless (including their empty-operand short-circuits) compute
   exactly the documented set operations on join signatures *)
Lemma vector_set_spec : forall op on names lhs rhs,
  vector_set op on names lhs rhs = check_same (spec_set op on names lhs rhs).
Proof.
  intros op on names lhs rhs. unfold vector_set, spec_set. f_equal.
  destruct op.
  - destruct lhs as [|l lhs]; [reflexivity|]. destruct rhs as [|r rhs].
    + simpl existsb. symmetry. now apply filter_none.
    + apply filter_ext. intro s. apply mem_labels_map.
  - destruct lhs as [|l lhs].
    + simpl. now rewrite filter_all.
    + destruct rhs as [|r rhs]; [simpl; now rewrite app_nil_r|].
      f_equal. apply filter_ext. intro s. f_equal. apply mem_labels_map.
  - destruct lhs as [|l lhs]; [reflexivity|]. destruct rhs as [|r rhs].
    + simpl existsb. simpl negb. symmetry. now apply filter_all.
    + apply filter_ext. intro s. f_equal. apply mem_labels_map.
Qed.

(* the rightSigs map is built iff no two series of the "one" side share a signature, and then
   lists those series with their signatures, in order *)
Lemma build_right_eq sigf : forall rhs acc, NoDup (map fst acc) ->
  build_right sigf rhs acc =
  if has_dup_labels (map fst acc ++ map (fun r : sample => sigf (fst r)) rhs) then None
  else Some (acc ++ map (fun r : sample => (sigf (fst r), r)) rhs).
Proof.
  induction rhs as [|r rhs IH]; intros acc Hnd; simpl.
  - rewrite !app_nil_r. now rewrite (proj2 (has_dup_labels_NoDup _) Hnd).
  - destruct (assoc_labels (sigf (fst r)) acc) eqn:E.
    + apply assoc_labels_In, (in_map fst) in E.
      destruct (has_dup_labels _) eqn:D; [reflexivity|].
      apply has_dup_labels_NoDup, NoDup_remove_2 in D. exfalso. apply D, in_or_app. now left.
    + apply assoc_labels_None in E.
      rewrite IH, map_app, <- !app_assoc by (rewrite map_app; now apply NoDup_snoc). reflexivity.
Qed.

(* in a duplicate-free association list built from the "one" side, the lookup finds exactly the
   series with that signature *)
Lemma assoc_filter : forall (sigf : labels -> labels) sg (rhs : list sample),
  NoDup (map (fun r : sample => sigf (fst r)) rhs) ->
  filter (fun r : sample => labels_eqb sg (sigf (fst r))) rhs =
  match assoc_labels sg (map (fun r : sample => (sigf (fst r), r)) rhs) with
  | Some r => [r] | None => [] end.
Proof.
  induction rhs as [|r rhs IH]; intro Hnd; [reflexivity|]. simpl in *.
  apply NoDup_cons_iff in Hnd as [Hnot Hnd].
  destruct (labels_eqb_spec sg (sigf (fst r))) as [->|_]; [|now apply IH].
  f_equal. apply filter_none. intros a Ha.
  destruct (labels_eqb_spec (sigf (fst r)) (sigf (fst a))) as [E|_]; [|reflexivity].
  exfalso. apply Hnot. rewrite E. now apply (in_map (fun r : sample => sigf (fst r))).
Qed.

Section Binop.
Variable ovf : Q -> bool.

(* the documented (left, right) pair of an element of the engine's "many" side and its match *)
Definition orient (m : matching) (a b : sample) : sample * sample :=
  match m_card m with OneToMany => (b, a) | _ => (a, b) end.

Definition pair_out (op : bop) (rb : bool) (m : matching) (p : sample * sample) : list sample :=
  let x := spec_pair_out ovf op rb m p in
  if snd x then [(snd (fst (fst x)), snd (fst x))] else [].

(* the documented outputs of all pairs of equal join signature, enumerated by the first list;
   [pr] says which element of a pair is the left operand *)
Definition matched_out (op : bop) (rb : bool) (m : matching) (pr : sample -> sample -> sample * sample)
           (many one : list sample) : list sample :=
  let sigf := signature (m_on m) (m_labels m) in
  flat_map (fun a : sample =>
    flat_map (fun b => pair_out op rb m (pr a b))
             (filter (fun b : sample => labels_eqb (sigf (fst a)) (sigf (fst b))) one)) many.

Lemma matched_out_nil op rb m pr many one : many = [] \/ one = [] -> matched_out op rb m pr many one = [].
Proof. intros [->| ->]; [reflexivity | now apply flat_map_nil]. Qed.

Lemma do_binop_out op rb m st ls rs sg st' :
  do_binop ovf op rb m st ls rs sg = inr st' ->
  b_out st' = b_out st ++ pair_out op rb m (orient m ls rs).
Proof.
  unfold do_binop, pair_out, spec_pair_out, orient.
  destruct (m_card m); cbn [fst snd];
    (destruct (mem_labels _ _); [discriminate|]);
    destruct (snd (elem_binop _ _ _ _)), rb; intros [= <-]; cbn [b_out negb andb orb];
    now rewrite ?app_nil_r.
Qed.

Lemma lhs_loop_out op rb m sigf rmap : forall many st st',
  lhs_loop ovf op rb m sigf rmap None many st = inr st' ->
  b_out st' = b_out st ++
    flat_map (fun a => match assoc_labels (sigf (fst a)) rmap with
                       | Some b => pair_out op rb m (orient m a b) | None => [] end) many.
Proof.
  induction many as [|a many IH]; intros st st' H; simpl in H.
  - injection H as <-. now rewrite app_nil_r.
  - cbn [flat_map]. destruct (assoc_labels (sigf (fst a)) rmap) as [b|]; [|now apply IH].
    destruct (do_binop ovf op rb m st a b _) as [e|st1] eqn:Ed; [discriminate|].
    now rewrite (IH _ _ H), (do_binop_out _ _ _ _ _ _ _ _ Ed), <- app_assoc.
Qed.

(* Matching without fill modifiers, for every cardinality: whenever the engine returns a vector,
   the "one" side has no two series with the same signature (unless an operand is empty) and the
   vector lists, in the order of the "many" side (the left one unless group_right), the documented
   output of each element paired with its match. *)
Lemma vector_binop_nofill op rb m lhs rhs out :
  m_fill_l m = None -> m_fill_r m = None ->
  vector_binop ovf op rb m lhs rhs = RVec out ->
  let swapped := match m_card m with OneToMany => true | _ => false end in
  let many := if swapped then rhs else lhs in
  let one := if swapped then lhs else rhs in
  out = matched_out op rb m (orient m) many one /\
  has_dup_labels (map fst out) = false /\
  (lhs = [] \/ rhs = [] \/
   NoDup (map (fun b : sample => signature (m_on m) (m_labels m) (fst b)) one)).
Proof.
  intros Hfl Hfr H swapped many one. unfold vector_binop in H. rewrite Hfl, Hfr in H.
  fold swapped in H. set (sigf := signature (m_on m) (m_labels m)) in *.
  destruct lhs as [|l0 lhs], rhs as [|r0 rhs]; cbn [andb orb] in H.
  1-3: injection H as <-; split; [|split; [reflexivity | tauto]];
       symmetry; apply matched_out_nil; unfold many, one; destruct swapped; tauto.
  fold many one in H. rewrite build_right_eq in H by constructor. cbn [map app] in H.
  destruct (has_dup_labels _) eqn:D; [destruct swapped; discriminate|].
  apply has_dup_labels_NoDup in D.
  destruct (lhs_loop _ _ _ _ _ _ _ _ _) as [e|st] eqn:El; [discriminate|].
  apply lhs_loop_out in El. unfold check_same in H.
  destruct (has_dup_labels (map fst (b_out st))) eqn:Ed; [discriminate|]. injection H as <-.
  split; [|split; [exact Ed | right; right; exact D]].
  rewrite El. cbn [b_out app]. apply flat_map_ext. intro a. fold sigf.
  rewrite (assoc_filter sigf _ one D). now destruct (assoc_labels _ _); cbn [flat_map]; rewrite ?app_nil_r.
Qed.

Lemma spec_binop_out_nofill op rb m lhs rhs :
  m_fill_l m = None -> m_fill_r m = None ->
  spec_binop_out ovf op rb m lhs rhs = matched_out op rb m pair lhs rhs.
Proof.
  intros Hfl Hfr. unfold spec_binop_out, spec_pairs, matched_out. rewrite Hfl, Hfr, !app_nil_r.
  induction lhs as [|l lhs IH]; [reflexivity|].
  cbn [flat_map]. rewrite map_app, flat_map_app, IH. f_equal.
  now rewrite !flat_map_concat_map, !map_map.
Qed.

(* the engine enumerates the pairs of group_right by the right operand, the documentation by
   the left one *)
Lemma matched_out_swap op rb m lhs rhs :
  Permutation (matched_out op rb m (fun r l => (l, r)) rhs lhs) (matched_out op rb m pair lhs rhs).
Proof.
  unfold matched_out. set (sigf := signature (m_on m) (m_labels m)).
  rewrite <- (flat_map_swap (fun l r : sample => labels_eqb (sigf (fst l)) (sigf (fst r)))
                            (fun l r => pair_out op rb m (l, r))).
  apply Permutation_refl'. apply flat_map_ext. intro r. f_equal.
  apply filter_ext. intro l. apply labels_eqb_sym.
Qed.

Lemma do_binop_err : forall op rb m st ls rs sg e,
  do_binop ovf op rb m st ls rs sg = inl e -> e = ErrManyToOne \/ e = ErrGroupUnique.
Proof.
  intros op rb m st ls rs sg e H. unfold do_binop in H.
  destruct (m_card m); destruct (mem_labels _ _);
    try (injection H as <-; tauto);
    destruct (negb _ && negb _); discriminate.
Qed.

Lemma lhs_loop_err op rb m sigf rmap fill : forall many st e,
  lhs_loop ovf op rb m sigf rmap fill many st = inl e -> e = ErrManyToOne \/ e = ErrGroupUnique.
Proof.
  induction many as [|a many IH]; intros st e H; simpl in H; [discriminate|].
  destruct (match assoc_labels _ rmap with Some rs => Some rs | None => _ end) as [rs|]; [|eauto].
  destruct (do_binop ovf op rb m st a rs _) as [e'|st1] eqn:Ed; [|eauto].
  injection H as <-. eapply do_binop_err, Ed.
Qed.

Lemma rhs_fill_loop_err op rb m sigf fv : forall one st e,
  rhs_fill_loop ovf op rb m sigf fv one st = inl e -> e = ErrManyToOne \/ e = ErrGroupUnique.
Proof.
  induction one as [|a one IH]; intros st e H; simpl in H; [discriminate|].
  destruct (match m_card m with OneToOne => _ | _ => _ end); [eauto|].
  destruct (do_binop ovf op rb m st _ a _) as [e'|st1] eqn:Ed; [|eauto].
  injection H as <-. eapply do_binop_err, Ed.
Qed.

(* the many-to-many error is raised only if two series of the "one" side share a signature *)
Lemma vector_binop_dup_error : forall op rb m lhs rhs,
  m_card m <> OneToMany ->
  vector_binop ovf op rb m lhs rhs = RErr ErrDupRight ->
  has_dup_labels (map (fun r : sample => signature (m_on m) (m_labels m) (fst r)) rhs) = true.
Proof.
  intros op rb m lhs rhs Hcard H. unfold vector_binop in H.
  destruct (_ || _); [discriminate|].
  replace (match m_card m with OneToMany => true | _ => false end) with false in H
    by (destruct (m_card m); [reflexivity | reflexivity | contradiction]).
  rewrite build_right_eq in H by constructor. cbn [map app] in H.
  destruct (has_dup_labels _); [reflexivity|]. exfalso.
  assert (Hne : forall e, e = ErrManyToOne \/ e = ErrGroupUnique -> RErr e <> RErr ErrDupRight)
    by (intros e [->| ->]; discriminate).
  assert (Hcs : forall v, check_same v <> RErr ErrDupRight)
    by (intro v; unfold check_same; destruct (has_dup_labels _); discriminate).
  destruct (lhs_loop _ _ _ _ _ _ _ _ _) as [e|st] eqn:El; [now apply lhs_loop_err, Hne in El|].
  destruct (m_fill_l m); [|now apply Hcs in H].
  destruct (rhs_fill_loop _ _ _ _ _ _ _ _) as [e|st'] eqn:Er; [now apply rhs_fill_loop_err, Hne in Er|].
  now apply Hcs in H.
Qed.

(* ... and whenever both operands are non-empty and two right-hand series share a join signature,
   the operation fails with it (one-to-one and group_left) *)
Lemma vector_binop_dup_complete : forall op rb m lhs rhs,
  m_card m <> OneToMany -> lhs <> [] -> rhs <> [] ->
  has_dup_labels (map (fun r : sample => signature (m_on m) (m_labels m) (fst r)) rhs) = true ->
  vector_binop ovf op rb m lhs rhs = RErr ErrDupRight.
Proof.
  intros op rb m lhs rhs Hcard Hl Hr Hdup. unfold vector_binop.
  destruct lhs as [|l0 lhs]; [contradiction|]. destruct rhs as [|r0 rhs]; [contradiction|].
  cbn [andb orb].
  replace (match m_card m with OneToMany => true | _ => false end) with false
    by (destruct (m_card m); [reflexivity | reflexivity | contradiction]).
  rewrite build_right_eq by constructor. cbn [map app] in *. now rewrite Hdup.
Qed.
End Binop.

Lemma fcmp_opp : forall a b, fcmp b a = option_map CompOpp (fcmp a b).
Proof.
  intros [|[]|x] [|[]|y]; simpl; try reflexivity.
  now rewrite <- Qcompare_antisym.
Qed.

Lemma fgt_flt : forall a b, fgt a b = flt b a.
Proof. intros a b. unfold fgt, flt. rewrite (fcmp_opp a b). now destruct (fcmp a b) as [[]|]. Qed.
Lemma fge_fle : forall a b, fge a b = fle b a.
Proof. intros a b. unfold fge, fle. rewrite (fcmp_opp a b). now destruct (fcmp a b) as [[]|]. Qed.

Lemma fle_refl : forall a, is_nan a = false -> fle a a = true.
Proof.
  intros [|[]|x] H; try discriminate; try reflexivity.
  unfold fle, fcmp. now rewrite (proj1 (Qeq_alt x x) (Qeq_refl x)).
Qed.

Lemma fle_nonnan : forall a b, fle a b = true -> is_nan a = false /\ is_nan b = false.
Proof. intros [|[]|x] [|[]|y] H; try discriminate; now split. Qed.
Lemma flt_nonnan : forall a b, flt a b = true -> is_nan a = false /\ is_nan b = false.
Proof. intros [|[]|x] [|[]|y] H; try discriminate; now split. Qed.

Lemma flt_fle : forall a b, flt a b = true -> fle a b = true.
Proof. intros a b. unfold flt, fle. now destruct (fcmp a b) as [[]|]. Qed.

Lemma fle_trans : forall a b c, fle a b = true -> fle b c = true -> fle a c = true.
Proof.
  intros [|[]|x] [|[]|y] [|[]|z]; try discriminate; try reflexivity.
  unfold fle, fcmp.
  destruct (Qcompare_spec x y), (Qcompare_spec y z), (Qcompare_spec x z); try easy; lra.
Qed.

Lemma not_flt_fle : forall a b, is_nan a = false -> is_nan b = false -> flt a b = false -> fle b a = true.
Proof.
  intros a b Ha Hb. rewrite <- fge_fle. unfold flt, fge.
  destruct a as [|[]|x], b as [|[]|y]; try discriminate; try reflexivity. cbn [fcmp]. now destruct (x ?= y)%Q.
Qed.

Lemma fle_total : forall a b, is_nan a = false -> is_nan b = false -> fle a b = true \/ fle b a = true.
Proof.
  intros a b Ha Hb. destruct (flt a b) eqn:E; [left; now apply flt_fle | right; now apply not_flt_fle].
Qed.

(* MAX / MIN: a fold that replaces the current value when the next one beats it (or the
   current one is NaN).  The result is one of the values; as soon as one value is not NaN the
   result is not NaN and bounds every non-NaN value *)
Section Extreme.
Variable beats : fval -> fval -> bool.   (* [beats cur f]: f replaces the non-NaN cur *)
Variable le : fval -> fval -> bool.      (* [le a b]: b is at least as extreme as a *)
Hypothesis beats_le : forall a b, beats a b = true -> is_nan b = false /\ le a b = true.
Hypothesis not_beats_le : forall a b,
  is_nan a = false -> is_nan b = false -> beats a b = false -> le b a = true.
Hypothesis le_refl : forall a, is_nan a = false -> le a a = true.
Hypothesis le_trans : forall a b c, le a b = true -> le b c = true -> le a c = true.

Let step (cur f : fval) : fval := if beats cur f || is_nan cur then f else cur.

Lemma step_bounds cur f y : cur = y \/ f = y -> is_nan y = false ->
  is_nan (step cur f) = false /\ le y (step cur f) = true.
Proof.
  intros Hy Hn. unfold step. destruct (beats cur f) eqn:Eb; simpl.
  - destruct (beats_le _ _ Eb) as [Hf Hle]. destruct Hy as [<-|<-]; auto.
  - destruct (is_nan cur) eqn:Ec; destruct Hy as [<-|<-]; auto; congruence.
Qed.

Lemma extreme_spec : forall xs x,
  let r := fold_left step xs x in
  In r (x :: xs) /\
  (forall y, In y (x :: xs) -> is_nan y = false -> is_nan r = false /\ le y r = true).
Proof.
  induction xs as [|f xs IH]; intro x; cbn [fold_left].
  - split; [now left|]. intros y [<-|[]] Hy. auto.
  - destruct (IH (step x f)) as [Hin Hb]. split.
    + destruct Hin as [Hin|Hin]; [|now right; right].
      rewrite <- Hin. unfold step. destruct (_ || _); simpl; auto.
    + intros y Hy Hn. apply or_assoc in Hy as [Hy|Hy]; [|apply Hb; [now right | exact Hn]].
      destruct (step_bounds x f y Hy Hn) as [Hs Hle].
      destruct (Hb _ (or_introl eq_refl) Hs) as [Hr Hle']. split; [exact Hr|].
      exact (le_trans _ _ _ Hle Hle').
Qed.
End Extreme.

Lemma agg_max_spec : forall x xs,
  let r := agg_max x xs in
  In r (x :: xs) /\
  (forall y, In y (x :: xs) -> is_nan y = false -> is_nan r = false /\ fle y r = true).
Proof.
  intros x xs. apply (extreme_spec flt fle); auto using fle_refl, not_flt_fle.
  - intros a b H. split; [apply (flt_nonnan _ _ H) | now apply flt_fle].
  - exact fle_trans.
Qed.

Lemma agg_min_spec : forall x xs,
  let r := agg_min x xs in
  In r (x :: xs) /\
  (forall y, In y (x :: xs) -> is_nan y = false -> is_nan r = false /\ fle r y = true).
Proof.
  intros x xs. apply (extreme_spec fgt (fun a b => fle b a)); auto using fle_refl.
  - intros a b H. rewrite fgt_flt in H. split; [apply (flt_nonnan _ _ H) | now apply flt_fle].
  - intros a b Ha Hb H. rewrite fgt_flt in H. now apply not_flt_fle.
  - intros a b c H1 H2. exact (fle_trans _ _ _ H2 H1).
Qed.

(* NaN as the worst value: topk_ge, botk_ge (and, read backwards, nf_le) extend an order on
   the non-NaN values by ranking NaN below everything *)
Section NanWorst.
Variable le : fval -> fval -> bool.   (* [le a b]: a is at least as good as b *)
Hypothesis le_total : forall a b, is_nan a = false -> is_nan b = false -> le a b = true \/ le b a = true.
Hypothesis le_trans : forall a b c, le a b = true -> le b c = true -> le a c = true.

Let ge (a b : fval) : bool := is_nan b || (negb (is_nan a) && le a b).

Lemma nan_worst_total a b : ge a b = true \/ ge b a = true.
Proof.
  unfold ge. destruct (is_nan a) eqn:Ha, (is_nan b) eqn:Hb; simpl; auto.
Qed.

Lemma nan_worst_trans a b c : ge a b = true -> ge b c = true -> ge a c = true.
Proof.
  unfold ge. destruct (is_nan c); [reflexivity|]. destruct (is_nan b); [discriminate|].
  destruct (is_nan a); [discriminate|]. simpl. apply le_trans.
Qed.
End NanWorst.

Lemma fge_total a b : is_nan a = false -> is_nan b = false -> fge a b = true \/ fge b a = true.
Proof. intros Ha Hb. rewrite !fge_fle. now apply fle_total. Qed.
Lemma fge_trans a b c : fge a b = true -> fge b c = true -> fge a c = true.
Proof. rewrite !fge_fle. intros H1 H2. exact (fle_trans _ _ _ H2 H1). Qed.

(* insertion before the first element that must come later: [insert_sample] (the final sort
   of topk) and [insert_by] (the sort of quantile) are both this function *)
Section Insertion.
Context {A : Type}.
Variable lt : A -> A -> bool.   (* [lt x y]: x must come before y *)

Fixpoint ins (x : A) (l : list A) : list A :=
  match l with
  | [] => [x]
  | y :: r => if lt x y then x :: l else y :: ins x r
  end.

Lemma ins_perm x l : Permutation (ins x l) (x :: l).
Proof.
  induction l as [|y l IH]; simpl; [reflexivity|].
  destruct (lt x y); [reflexivity|].
  eapply Permutation_trans; [apply perm_skip; exact IH | apply perm_swap].
Qed.

Variable le : A -> A -> Prop.
Hypothesis lt_le : forall x y, lt x y = true -> le x y.
Hypothesis not_lt_le : forall x y, lt x y = false -> le y x.

Lemma ins_sorted x l : Sorted le l -> Sorted le (ins x l).
Proof.
  induction l as [|y l IH]; intro Hs; simpl; [repeat constructor|].
  destruct (lt x y) eqn:E; [constructor; [assumption | constructor; auto]|].
  apply Sorted_inv in Hs as [Hs Hhd]. constructor; [now apply IH|].
  destruct l as [|z l]; simpl; [constructor; auto|].
  destruct (lt x z); constructor; auto. now apply HdRel_inv in Hhd.
Qed.
End Insertion.

Lemma insert_sample_ins before x l :
  insert_sample before x l =
  ins (fun a b : sample => before (snd a) (snd b) && negb (before (snd b) (snd a))) x l.
Proof. induction l as [|y l IH]; simpl; [|rewrite IH]; reflexivity. Qed.

Lemma insert_by_ins less x l :
  insert_by less x l = ins (fun a b => negb (less b a || negb (less a b))) x l.
Proof. induction l as [|y l IH]; simpl; [reflexivity|]. rewrite IH. now destruct (_ || _). Qed.

Lemma replace_nth_swap {A} n (s d : A) : forall l, (n < length l)%nat ->
  Permutation (nth n l d :: replace_nth n s l) (s :: l).
Proof.
  induction n as [|n IH]; intros [|y l] Hn; simpl in *; try lia; [apply perm_swap|].
  rewrite perm_swap, IH by lia. apply perm_swap.
Qed.

Section TopK.
Variable ge : fval -> fval -> bool.       (* documented order: [ge a b] = a is at least as good as b *)
Variable less : fval -> fval -> bool.     (* the heap's Less *)
Variable better : fval -> fval -> bool.   (* the replacement test of the series loop *)
Variable before : fval -> fval -> bool.   (* the final sort *)
Hypothesis ge_total : forall a b, ge a b = true \/ ge b a = true.
Hypothesis ge_trans : forall a b c, ge a b = true -> ge b c = true -> ge a c = true.
Hypothesis less_strict : forall a b, less a b && negb (less b a) = negb (ge a b).
Hypothesis better_strict : forall m s, better m s = negb (ge m s).
Hypothesis before_strict : forall a b, before a b && negb (before b a) = negb (ge b a).

Lemma ge_refl : forall a, ge a a = true.
Proof. intro a. now destruct (ge_total a a). Qed.

Lemma not_ge_ge : forall a b, ge a b = false -> ge b a = true.
Proof. intros a b H. destruct (ge_total a b) as [H'|H']; [congruence | assumption]. Qed.

Definition gk_step (k : Z) (heap : list sample) (s : sample) : list sample :=
  if Z.of_nat (length heap) <? k then heap ++ [s]
  else match heap with
       | [] => heap
       | h0 :: r =>
           let mi := min_index less O (snd h0) 1%nat r in
           let m := snd (nth mi heap h0) in
           if better m (snd s) then replace_nth mi s heap else heap
       end.

(* scanning [l] after [pre] with the best of [pre] in hand yields the index of a minimum *)
Lemma min_index_spec : forall l pre best bv d,
  (best < length pre)%nat -> snd (nth best pre d) = bv ->
  (forall s, In s pre -> ge (snd s) bv = true) ->
  let j := min_index less best bv (length pre) l in
  (j < length (pre ++ l))%nat /\
  forall s, In s (pre ++ l) -> ge (snd s) (snd (nth j (pre ++ l) d)) = true.
Proof.
  induction l as [|s l IH]; intros pre best bv d Hb Hv Hall; simpl.
  - rewrite app_nil_r. split; [assumption|]. intros s Hs. rewrite Hv. now apply Hall.
  - replace (pre ++ s :: l) with ((pre ++ [s]) ++ l) by (now rewrite <- app_assoc).
    replace (S (length pre)) with (length (pre ++ [s])) by (rewrite app_length; simpl; lia).
    assert (Hlen : (length pre < length (pre ++ [s]))%nat) by (rewrite app_length; simpl; lia).
    rewrite less_strict. destruct (ge (snd s) bv) eqn:E; simpl; apply IH.
    + lia.
    + now rewrite app_nth1.
    + intros s' Hs'. apply in_app_iff in Hs' as [Hs'|[<-|[]]]; auto.
    + exact Hlen.
    + rewrite app_nth2, Nat.sub_diag by lia. reflexivity.
    + apply not_ge_ge in E. intros s' Hs'. apply in_app_iff in Hs' as [Hs'|[<-|[]]]; [|apply ge_refl].
      eapply ge_trans; [now apply Hall | exact E].
Qed.

(* the heap holds min(k, seen) of the series seen so far, and none of the others is better than
   any of them *)
Definition kinv (k : Z) (seen heap : list sample) : Prop :=
  exists rest, Permutation seen (heap ++ rest) /\
               Z.of_nat (length heap) = Z.min k (Z.of_nat (length seen)) /\
               forall s u, In s heap -> In u rest -> ge (snd s) (snd u) = true.

Lemma gk_step_inv : forall k seen heap s, 1 <= k ->
  kinv k seen heap -> kinv k (seen ++ [s]) (gk_step k heap s).
Proof.
  intros k seen heap s Hk (rest & Hp & Hl & Hge). unfold gk_step.
  assert (Hlen := Permutation_length Hp). rewrite app_length in Hlen.
  destruct (Z.of_nat (length heap) <? k) eqn:E.
  - apply Z.ltb_lt in E. destruct rest; [|simpl in Hlen; lia].
    exists []. rewrite app_nil_r in *. split; [now apply Permutation_app_tail|].
    split; [rewrite !app_length; simpl; lia | intros ? ? _ []].
  - apply Z.ltb_ge in E. destruct heap as [|h0 r]; [simpl in *; lia|].
    destruct (min_index_spec r [h0] O (snd h0) h0) as [Hmi Hmin];
      [simpl; lia | reflexivity | intros ? [<-|[]]; apply ge_refl |].
    cbn [length app] in Hmi, Hmin. cbv zeta.
    set (heap := h0 :: r) in *. set (mi := min_index less 0 (snd h0) 1 r) in *.
    set (x := nth mi heap h0) in *. rewrite better_strict.
    destruct (ge (snd x) (snd s)) eqn:Eb; simpl.
    + exists (rest ++ [s]). rewrite app_assoc, app_length. split; [now apply Permutation_app_tail|].
      split; [change (length [s]) with 1%nat; lia|]. intros s' u Hs' Hu.
      apply in_app_iff in Hu as [Hu|[<-|[]]]; [now apply Hge|]. eauto.
    + apply not_ge_ge in Eb. assert (Hsw := replace_nth_swap mi s h0 heap Hmi). fold x in Hsw.
      exists (x :: rest). split; [|split].
      * rewrite <- (Permutation_cons_append seen s), <- (Permutation_middle _ rest x), Hp.
        now rewrite !app_comm_cons, Hsw.
      * apply Permutation_length in Hsw. rewrite app_length. simpl in *. lia.
      * intros s' u Hs' Hu. assert (Hx : In x heap) by now apply nth_In.
        destruct (Permutation_in _ Hsw (or_intror Hs')) as [<-|Hh]; destruct Hu as [<-|Hu]; eauto.
Qed.

Lemma gk_fold_inv : forall k l seen heap, 1 <= k ->
  kinv k seen heap -> kinv k (seen ++ l) (fold_left (gk_step k) l heap).
Proof.
  induction l as [|s l IH]; intros seen heap Hk H; simpl.
  - now rewrite app_nil_r.
  - replace (seen ++ s :: l) with ((seen ++ [s]) ++ l) by (now rewrite <- app_assoc).
    apply IH; [assumption | now apply gk_step_inv].
Qed.

Definition sge (a b : sample) : Prop := ge (snd a) (snd b) = true.

Lemma sort_samples_perm : forall l, Permutation (sort_samples before l) l.
Proof.
  induction l as [|x l IH]; simpl; [reflexivity|].
  rewrite insert_sample_ins, ins_perm. now constructor.
Qed.

Lemma sort_samples_sorted : forall l, Sorted sge (sort_samples before l).
Proof.
  induction l as [|x l IH]; simpl; [constructor|].
  rewrite insert_sample_ins. apply ins_sorted; [| |exact IH]; intros a b; rewrite before_strict; unfold sge.
  - intro H. apply negb_true_iff in H. now apply not_ge_ge.
  - apply negb_false_iff.
Qed.

Lemma gk_select : forall k members, 1 <= k ->
  let out := sort_samples before (fold_left (gk_step k) members []) in
  Sorted sge out /\
  Z.of_nat (length out) = Z.min k (Z.of_nat (length members)) /\
  exists rest, Permutation members (out ++ rest) /\
               forall s u, In s out -> In u rest -> ge (snd s) (snd u) = true.
Proof.
  intros k members Hk out.
  assert (H0 : kinv k [] []).
  { exists []. split; [reflexivity|]. split; [simpl; lia | intros ? ? []]. }
  apply (gk_fold_inv k members [] [] Hk) in H0 as (rest & Hp & Hl & Hge). simpl in Hp, Hl.
  assert (Hperm := sort_samples_perm (fold_left (gk_step k) members [])). fold out in Hperm.
  split; [apply sort_samples_sorted|]. split.
  - rewrite (Permutation_length Hperm). exact Hl.
  - exists rest. split; [now rewrite Hperm|].
    intros s u Hs Hu. apply Hge; [|assumption]. eapply Permutation_in; [exact Hperm | exact Hs].
Qed.
End TopK.

(* the hypotheses of the TopK section hold for topk and for bottomk.  The heap's Less, the
   replacement test and the final sort are boolean combinations of one IEEE comparison of two
   values: split on NaN / +-Inf / finite, and on that comparison in the finite case *)
Ltac fcmp_cases :=
  intros [|[]|x] [|[]|y]; try reflexivity;
  cbv [topk_ge topk_less topk_before botk_ge botk_less botk_before fge fle flt fgt fcmp is_nan];
  rewrite <- ?(Qcompare_antisym x y); now destruct (x ?= y)%Q.

Lemma topk_ge_total : forall a b, topk_ge a b = true \/ topk_ge b a = true.
Proof. exact (nan_worst_total fge fge_total). Qed.
Lemma topk_ge_trans : forall a b c, topk_ge a b = true -> topk_ge b c = true -> topk_ge a c = true.
Proof. exact (nan_worst_trans fge fge_trans). Qed.
Lemma topk_less_strict : forall a b, topk_less a b && negb (topk_less b a) = negb (topk_ge a b).
Proof. fcmp_cases. Qed.
Definition topk_better (m s : fval) : bool := flt m s || (is_nan m && negb (is_nan s)).
Lemma topk_better_strict : forall m s, topk_better m s = negb (topk_ge m s).
Proof. unfold topk_better. fcmp_cases. Qed.
Lemma topk_before_strict : forall a b, topk_before a b && negb (topk_before b a) = negb (topk_ge b a).
Proof. fcmp_cases. Qed.

Lemma botk_ge_total : forall a b, botk_ge a b = true \/ botk_ge b a = true.
Proof. exact (nan_worst_total fle fle_total). Qed.
Lemma botk_ge_trans : forall a b c, botk_ge a b = true -> botk_ge b c = true -> botk_ge a c = true.
Proof. exact (nan_worst_trans fle fle_trans). Qed.
Lemma botk_less_strict : forall a b, botk_less a b && negb (botk_less b a) = negb (botk_ge a b).
Proof. fcmp_cases. Qed.
Definition botk_better (m s : fval) : bool := fgt m s || (is_nan m && negb (is_nan s)).
Lemma botk_better_strict : forall m s, botk_better m s = negb (botk_ge m s).
Proof. unfold botk_better. fcmp_cases. Qed.
Lemma botk_before_strict : forall a b, botk_before a b && negb (botk_before b a) = negb (botk_ge b a).
Proof. fcmp_cases. Qed.

Lemma elem_binop_arith ovf op a b : is_cmp op = false -> snd (elem_binop ovf op a b) = true.
Proof. now destruct op. Qed.
Lemma elem_binop_cmp ovf op a b : is_cmp op = true -> fst (elem_binop ovf op a b) = a.
Proof. now destruct op. Qed.

Lemma vector_scalar_spec : forall ovf op rb swap sc v,
  (rb = true -> is_cmp op = true) ->   (* the parser rejects bool on arithmetic operators *)
  vector_scalar_binop ovf op rb swap sc v = check_same (spec_vs ovf op rb swap sc v).
Proof.
  intros ovf op rb swap sc v Hrb. unfold vector_scalar_binop, spec_vs, changes_schema. f_equal.
  apply flat_map_ext. intros [l f]. cbn [fst snd].
  destruct (is_cmp op) eqn:Ec; cbn [negb andb orb].
  - destruct rb; [now rewrite orb_true_r|]. rewrite orb_false_r.
    destruct (snd (elem_binop _ _ _ _)); [|reflexivity].
    destruct swap; [reflexivity|]. now rewrite elem_binop_cmp.
  - destruct rb; [now discriminate Hrb|]. now rewrite elem_binop_arith.
Qed.

Lemma filter_map_length : forall {A B} (f : A -> B) (p : B -> bool) l,
  length (filter p (map f l)) = length (filter (fun a => p (f a)) l).
Proof.
  intros A B f p l. induction l as [|a l IH]; simpl; [reflexivity|].
  destruct (p (f a)); simpl; now rewrite IH.
Qed.

(* every output series of count_values carries the exact number of input series whose
   value-labelled, projected label set it is; the count is never zero *)
Lemma count_values_exact : forall fmt wo g vl v out,
  agg_count_values fmt wo g vl v = RVec out ->
  let keyof (s : sample) := group_key wo (if wo then g else vl :: g) (lset vl (fmt (snd s)) (fst s)) in
  (forall s, In s v -> In (keyof s) (map fst out)) /\
  forall k c, In (k, c) out ->
    c = fz (Z.of_nat (length (filter (fun s => labels_eqb (keyof s) k) v))) /\
    (1 <= length (filter (fun s => labels_eqb (keyof s) k) v))%nat.
Proof.
  intros fmt wo g vl v out H keyof. unfold agg_count_values, check_same in H.
  set (g' := if wo then g else vl :: g) in *.
  set (withv := map (fun s : sample => lset vl (fmt (snd s)) (fst s)) v) in *.
  destruct (has_dup_labels _); [discriminate|]. injection H as <-.
  destruct (groups_of_partition (fun m : labels => group_key wo g' m) withv) as (_ & _ & Hcov & Hmem).
  rewrite map_map. split.
  - intros s Hs. apply Hcov. now apply (in_map (fun s : sample => lset vl (fmt (snd s)) (fst s))).
  - intros k c Hin. apply in_map_iff in Hin as ([k' ms] & [= -> <-] & Hin).
    destruct (Hmem _ _ Hin) as [Hne Hms]. cbn [snd].
    assert (Hlen : length ms = length (filter (fun s => labels_eqb (keyof s) k) v))
      by (rewrite Hms; apply filter_map_length).
    rewrite <- Hlen. split; [reflexivity|]. destruct ms; [contradiction | simpl; lia].
Qed.

(* the order quantile() sorts by: NaN first, then ascending *)
Definition nf_le (a b : fval) : bool := is_nan a || (negb (is_nan b) && fle a b).

Lemma heap_less_nf_le : forall a b, heap_less a b = true -> nf_le a b = true.
Proof.
  intros a b H. unfold heap_less, nf_le in *. destruct (is_nan a); [reflexivity|]. simpl in *.
  destruct (flt_nonnan _ _ H) as [_ Hb]. rewrite Hb. simpl. now apply flt_fle.
Qed.

Lemma not_heap_less_nf_le : forall a b, heap_less a b = false -> nf_le b a = true.
Proof.
  intros a b H. unfold heap_less, nf_le in *. apply orb_false_iff in H as [Ha Hlt].
  destruct (is_nan b) eqn:Hb; [reflexivity|]. rewrite Ha. simpl. now apply not_flt_fle.
Qed.

Lemma sort_by_spec : forall l,
  Permutation (sort_by heap_less l) l /\ Sorted (fun a b => nf_le a b = true) (sort_by heap_less l).
Proof.
  unfold sort_by. induction l as [|x l [IHp IHs]] using rev_ind; [split; [reflexivity | constructor]|].
  rewrite fold_left_app. cbn [fold_left]. rewrite insert_by_ins. split.
  - now rewrite ins_perm, IHp, Permutation_cons_append.
  - apply ins_sorted; [| |exact IHs]; intros a b H.
    + apply negb_true_iff, orb_false_iff in H as [_ H]. now apply heap_less_nf_le, negb_false_iff.
    + apply negb_false_iff, orb_true_iff in H as [H|H];
        [now apply heap_less_nf_le | now apply not_heap_less_nf_le, negb_true_iff].
Qed.

Lemma qfloor_Qfloor : forall q, qfloor q = Qfloor q.
Proof. intros [n d]. reflexivity. Qed.

(* quantile(phi, values) for 0 <= phi <= 1: the values are sorted NaN-first ascending, the rank
   phi*(n-1) is split into its integral part lo (0 <= lo <= n-1) and weight 0 <= w < 1, and the
   result is the value at that rank, s[lo], when w = 0, and s[lo]*(1-w) + s[min(n-1, lo+1)]*w
   computed in float arithmetic otherwise *)
Lemma quantile_spec : forall ovf (q : Q) (vals : list fval),
  vals <> [] -> (0 <= q)%Q -> (q <= 1)%Q ->
  let s := sort_by heap_less vals in
  let n := Z.of_nat (length vals) in
  let rank := (q * inject_Z (n - 1))%Q in
  let lo := qfloor rank in
  let hi := Z.min (n - 1) (lo + 1) in
  let w := (rank - inject_Z lo)%Q in
  Permutation s vals /\ Sorted (fun a b => nf_le a b = true) s /\
  0 <= lo <= n - 1 /\ lo <= hi <= n - 1 /\ (0 <= w)%Q /\ (w < 1)%Q /\
  quantile ovf (FFin q) vals =
    (if Qeq_bool w 0 then nth (Z.to_nat lo) s FNaN
     else fadd ovf (fmul ovf (nth (Z.to_nat lo) s FNaN) (FFin (1 - w)))
                   (fmul ovf (nth (Z.to_nat hi) s FNaN) (FFin w))).
Proof.
  intros ovf q vals Hne Hq0 Hq1 s n rank lo hi w.
  destruct (sort_by_spec vals) as [Hp Hs]. split; [exact Hp|]. split; [exact Hs|].
  assert (Hn : (0 <= inject_Z (n - 1))%Q).
  { rewrite <- (Zle_Qle 0). unfold n. destruct vals; [contradiction | cbn [length]; lia]. }
  assert (Hr0 : (0 <= rank)%Q) by now apply Qmult_le_0_compat.
  assert (Hr1 : (rank <= inject_Z (n - 1))%Q).
  { unfold rank. rewrite <- (Qmult_1_l (inject_Z (n - 1))) at 2. now apply Qmult_le_compat_r. }
  assert (Hfl : (inject_Z lo <= rank)%Q) by (unfold lo; rewrite qfloor_Qfloor; apply Qfloor_le).
  assert (Hfu : (rank < inject_Z (lo + 1))%Q) by (unfold lo; rewrite qfloor_Qfloor; apply Qlt_floor).
  assert (Hlo0 : 0 <= lo) by (apply Z.lt_succ_r; unfold Z.succ; rewrite Zlt_Qlt; change (inject_Z 0) with 0%Q; lra).
  assert (Hlo1 : lo <= n - 1) by (rewrite Zle_Qle; lra).
  rewrite inject_Z_plus in Hfu. change (inject_Z 1) with 1%Q in Hfu.
  split; [lia|]. split; [unfold hi; lia|]. split; [unfold w; lra|]. split; [unfold w; lra|].
  unfold quantile. destruct vals as [|v0 vals']; [contradiction|].
  replace (Qltb q 0) with false by (symmetry; unfold Qltb; apply negb_false_iff; now apply Qle_bool_iff).
  replace (Qltb 1 q) with false by (symmetry; unfold Qltb; apply negb_false_iff; now apply Qle_bool_iff).
  fold n. fold rank. fold lo. rewrite (Z.max_r 0 lo) by assumption. reflexivity.
Qed.

(* a whole-numbered rank designates the value at that rank: phi = 1 the last element of the
   NaN-first ascending order (the maximum), phi = 0 the first one *)
Lemma quantile_whole_rank ovf q vals i :
  vals <> [] -> (0 <= q)%Q -> (q <= 1)%Q ->
  (q * inject_Z (Z.of_nat (length vals) - 1) == inject_Z (Z.of_nat i))%Q ->
  quantile ovf (FFin q) vals = nth i (sort_by heap_less vals) FNaN.
Proof.
  intros Hne Hq0 Hq1 Hz.
  destruct (quantile_spec ovf q vals Hne Hq0 Hq1) as (_ & _ & _ & _ & _ & _ & E).
  assert (Hlo : qfloor (q * inject_Z (Z.of_nat (length vals) - 1)) = Z.of_nat i)
    by (rewrite qfloor_Qfloor, Hz; apply Qfloor_Z).
  rewrite E, Hlo, Nat2Z.id. now rewrite (proj2 (Qeq_bool_iff _ 0)) by (rewrite Hz; ring).
Qed.

Lemma k_group_limitk : forall k (members : list sample), 0 <= k ->
  let out := k_group ALimitk k members in
  Z.of_nat (length out) = Z.min k (Z.of_nat (length members)) /\
  exists rest, members = out ++ rest.
Proof.
  intros k members Hk. unfold k_group. split.
  - rewrite firstn_length. lia.
  - exists (skipn (Z.to_nat k) members). symmetry. apply firstn_skipn.
Qed.
