(* proof/PostingsMoreProofs.v — C16: ordering of Select results, label-value / label-name
   queries, merging with limits (model/Postings.v). *)
From Coq Require Import List ZArith NArith Bool Lia Sorted.
From Verif Require Import lib.SortedList lib.LexOrder model.Postings proof.PostingsProofs.
Import ListNotations.
Open Scope Z_scope.

Lemma str_cmp_antisym : forall a b, str_cmp b a = CompOpp (str_cmp a b).
Proof. exact (lex_cmp_antisym N.compare N.compare_antisym). Qed.

Lemma str_cmp_trans : forall a b c, str_cmp a b = Lt -> str_cmp b c = Lt -> str_cmp a c = Lt.
Proof. exact (lex_cmp_lt_trans N.compare N.compare_eq_iff N.lt_trans). Qed.

Lemma lex_le_trans {A} (cmp : A -> A -> comparison) :
  (forall x y, cmp x y = Eq <-> x = y) -> (forall x y z, cmp x y = Lt -> cmp y z = Lt -> cmp x z = Lt) ->
  forall a b c, lex_cmp cmp a b <> Gt -> lex_cmp cmp b c <> Gt -> lex_cmp cmp a c <> Gt.
Proof.
  intros Heq Htr a b c H1 H2.
  destruct (lex_cmp cmp a b) eqn:E1; [|destruct (lex_cmp cmp b c) eqn:E2|congruence].
  - apply (lex_cmp_eq cmp Heq) in E1. subst. assumption.
  - apply (lex_cmp_eq cmp Heq) in E2. subst. rewrite E1. discriminate.
  - rewrite (lex_cmp_lt_trans cmp Heq Htr a b c E1 E2). discriminate.
  - congruence.
Qed.

(* labels.Compare is a total preorder whose Eq is equality of the flattened label list *)
Definition labels_le (a b : labels) : Prop := labels_cmp a b <> Gt.

Lemma labels_le_trans : forall a b c, labels_le a b -> labels_le b c -> labels_le a c.
Proof.
  intros a b c. exact (lex_le_trans str_cmp str_cmp_eq str_cmp_trans (flat a) (flat b) (flat c)).
Qed.

Lemma labels_lt_le : forall a b, labels_ltb a b = true -> labels_le a b.
Proof. unfold labels_ltb, labels_le. intros a b H. destruct (labels_cmp a b); congruence. Qed.

Lemma labels_cmp_antisym : forall a b, labels_cmp b a = CompOpp (labels_cmp a b).
Proof. intros a b. exact (lex_cmp_antisym str_cmp str_cmp_antisym (flat a) (flat b)). Qed.

Lemma labels_nlt_ge : forall a b, labels_ltb a b = false -> labels_le b a.
Proof.
  unfold labels_ltb, labels_le. intros a b H. rewrite labels_cmp_antisym.
  destruct (labels_cmp a b); simpl; congruence.
Qed.

Lemma ins_series_sorted : forall x l, StronglySorted labels_le (map s_labels l) ->
  StronglySorted labels_le (map s_labels (ins_series x l)).
Proof.
  induction l as [|y r IH]; simpl; intros H; [repeat constructor|].
  pose proof (StronglySorted_inv H) as [Hr Hy].
  destruct (labels_ltb (s_labels x) (s_labels y)) eqn:E; simpl; constructor; auto.
  - apply labels_lt_le in E. constructor; [exact E|]. apply (Forall_impl _ (fun z => labels_le_trans _ _ z E) Hy).
  - apply Forall_forall. intros z Hz. apply in_map_iff in Hz as [s [<- Hs]].
    apply ins_series_In in Hs as [<-|Hs]; [apply labels_nlt_ge, E|].
    apply (proj1 (Forall_forall _ _) Hy), in_map, Hs.
Qed.

Lemma sort_series_sorted : forall l, StronglySorted labels_le (map s_labels (sort_series l)).
Proof. induction l as [|x l IH]; [constructor|]. apply ins_series_sorted, IH. Qed.

Lemma first_common_cons : forall x a y b, first_common (x :: a) (y :: b) =
  match x ?= y with
  | Lt => first_common a (y :: b) | Gt => first_common (x :: a) b | Eq => Some x
  end.
Proof. reflexivity. Qed.

Lemma first_common_hd : forall a b, first_common a b = hd_error (isect a b).
Proof.
  apply list2_ind.
  - intros [|y b]; reflexivity.
  - intros [|x a]; reflexivity.
  - intros x a y b I1 I2 I3. rewrite first_common_cons, isect_cons.
    destruct (x ?= y); [reflexivity|exact I1|exact I3].
Qed.

Lemma first_common_iff : forall a b, SS a -> SS b ->
  ((exists r, first_common a b = Some r) <-> exists z, In z a /\ In z b).
Proof.
  intros a b Ha Hb. rewrite first_common_hd. destruct (isect_spec a b Ha Hb) as [_ I].
  destruct (isect a b) as [|r l]; split.
  - intros [r [=]].
  - intros [z Hz]. apply I in Hz. destruct Hz.
  - intros _. exists r. apply I. left. reflexivity.
  - intros _. exists r. reflexivity.
Qed.

Lemma ins_key_In : forall y l x, In x (ins_key y l) <-> In x (y :: l).
Proof.
  induction l as [|z l IH]; intros x; simpl; [reflexivity|].
  destruct (fst y <? fst z); [reflexivity|]. simpl. rewrite IH. simpl.
  split; intros [H|[H|H]]; auto.
Qed.

Lemma find_intersecting_In : forall p cands v,
  In v (find_intersecting p cands) <->
  exists c, In c cands /\ fst c = v /\ exists r, first_common p (snd c) = Some r.
Proof.
  intros p cands v. unfold find_intersecting. split.
  - intros H. apply in_map_iff in H as [[r v'] [<- H]]. apply (proj1 (fold_ins_In _ ins_key ins_key_In _ _)) in H.
    apply in_flat_map in H as [c [Hc H]]. exists c. split; [exact Hc|].
    destruct (first_common p (snd c)) as [r'|]; [|destruct H]. destruct H as [[= <- <-]|[]]. eauto.
  - intros [c [Hc [<- [r F]]]]. apply in_map_iff. exists (r, fst c). split; [reflexivity|].
    apply (fold_ins_In _ ins_key ins_key_In), in_flat_map. exists c. split; [exact Hc|].
    rewrite F. left. reflexivity.
Qed.

Lemma filtered_In : forall name ms l v,
  In v (fold_left (fun vs m => if str_eqb (m_name m) name then filter (matches m) vs else vs) ms l) <->
  In v l /\ forall m, In m ms -> m_name m = name -> matches m v = true.
Proof.
  intros name. induction ms as [|m ms IH]; intros l v; simpl.
  - split; [intros H; split; [exact H|intros m []]|intros [H _]; exact H].
  - rewrite IH. destruct (str_eqb_spec (m_name m) name) as [E|E].
    + rewrite filter_In. split.
      * intros [[H1 H2] H3]. split; [exact H1|]. intros m' [<-|Hm] Hn; auto.
      * intros [H1 H2]. auto 6.
    + split; intros [H1 H2]; (split; [exact H1|]); [|auto]. intros m' [<-|Hm] Hn; [destruct (E Hn)|auto].
Qed.

Lemma truncate_sub : forall (A : Type) n (l : list A) x, In x (truncate n l) -> In x l.
Proof.
  intros A n l x. unfold truncate. destruct (_ && _); [apply in_firstn|auto].
Qed.

Section LabelQueries.
Variable st : store.
Hypothesis WF : store_wfb st = true.
Variable ms : list matcher.
Hypothesis Hnn : ms <> [].
Hypothesis Hne : forall m, In m ms -> m_name m <> [].
Hypothesis Hoc : forall m, In m ms -> oracle_consistent st m.
Variable name : str.
Hypothesis Hname : name <> [].

(* the specification: values of [name] on stored series satisfying every matcher *)
Definition value_of_matching (v : str) : Prop :=
  exists s, In s (st_series st) /\ lfind name (s_labels s) = Some v /\ series_matches ms s.

Let F := fold_left (fun vs m => if str_eqb (m_name m) name then filter (matches m) vs else vs)
                   ms (label_values_raw st name).

Lemma spec_in_F : forall v, value_of_matching v -> In v F.
Proof.
  intros v [s [Hs [Hv Hm]]]. apply filtered_In. split.
  - apply (val_in_lvs st WF s _ _ Hs). rewrite ix_val_ne; assumption.
  - intros m Hm' Hn. specialize (Hm m Hm'). unfold lget in Hm. rewrite Hn, Hv in Hm. exact Hm.
Qed.

Lemma In_ix_postings1 : forall v s, In s (st_series st) ->
  (In (s_ref s) (ix_postings st name [v]) <-> lfind name (s_labels s) = Some v).
Proof.
  intros v s Hs. destruct (sem_ix_postings st WF name [v]) as [_ [_ S]]. rewrite (S s Hs).
  unfold has_val. rewrite (ix_val_ne s name Hname). destruct (lfind name (s_labels s)) as [w|]; simpl.
  - rewrite orb_false_r, str_eqb_eq. split; congruence.
  - split; discriminate.
Qed.

(* labelValuesWithMatchers without a limit returns exactly the values of matching series;
   with a limit it returns some of them *)
Theorem lvwm_exact : forall limit,
  exists vs, label_values_with_matchers st name limit ms = Ok vs /\
    (forall v, In v vs -> value_of_matching v) /\
    (limit = 0 -> forall v, value_of_matching v -> In v vs).
Proof.
  intros limit. unfold label_values_with_matchers. fold F.
  destruct (is_nil F) eqn:EF.
  { exists []. split; [reflexivity|]. split; [intros v []|].
    intros _ v Hv. apply spec_in_F in Hv. destruct F; [exact Hv|discriminate EF]. }
  destruct (existsb (fun m => negb (str_eqb (m_name m) name)) ms) eqn:EO; simpl.
  - (* matchers on other labels: intersect with PostingsForMatchers *)
    destruct (pfm_exact st ms WF Hnn Hne Hoc) as [p [E [PS [PR PM]]]]. rewrite E.
    set (cands := map (fun v => (v, ix_postings st name [v])) F).
    assert (SPEC : forall v, In v (find_intersecting p cands) <-> value_of_matching v).
    { intros v. rewrite find_intersecting_In. split.
      - intros [c [Hc [<- Hr]]]. apply in_map_iff in Hc as [v [<- _]].
        apply first_common_iff in Hr as [r [R1 R2]];
          [|exact PS|apply (sem_ix_postings st WF name [v])].
        destruct (PR r R1) as [s [Hs <-]]. exists s. split; [exact Hs|].
        split; [apply In_ix_postings1|apply PM]; assumption.
      - intros Hv. pose proof (spec_in_F v Hv) as HF. destruct Hv as [s [Hs [Hv Hm]]].
        exists (v, ix_postings st name [v]). split; [apply in_map_iff; eauto|]. split; [reflexivity|].
        apply first_common_iff; [exact PS|apply (sem_ix_postings st WF name [v])|].
        exists (s_ref s). split; [apply PM|apply In_ix_postings1]; assumption. }
    eexists. split; [reflexivity|]. split.
    + intros v Hv. apply SPEC. destruct (0 <? limit); [apply in_firstn in Hv|]; exact Hv.
    + intros -> v Hv. apply SPEC, Hv.
  - (* only matchers on [name]: the filtered value table *)
    eexists. split; [reflexivity|]. split.
    + intros v Hv. apply truncate_sub, filtered_In in Hv as [H1 H2].
      destruct wf_parts with (1 := WF) as [_ [W _]]. destruct (W name v H1) as [s [Hs Hv]].
      rewrite (ix_val_ne s name Hname) in Hv. exists s. split; [exact Hs|]. split; [exact Hv|].
      intros m Hm. unfold lget.
      destruct (str_eqb_spec (m_name m) name) as [En|NE]; [rewrite En, Hv; auto|].
      exfalso. rewrite (proj2 (existsb_exists _ ms)) in EO; [discriminate EO|].
      exists m. split; [exact Hm|]. destruct (str_eqb_spec (m_name m) name) as [e|_]; [destruct (NE e)|reflexivity].
    + intros -> v Hv. apply spec_in_F, Hv.
Qed.

Lemma ins_str_u_In : forall y l x, In x (ins_str_u y l) <-> In x (y :: l).
Proof.
  induction l as [|z l IH]; intros x; simpl; [reflexivity|].
  destruct (str_cmp z y) eqn:E; [|simpl; rewrite IH; simpl|]; [|split; intros [H|[H|H]]; auto|reflexivity].
  apply str_cmp_eq in E as ->. split; [auto|intros [<-|H]; [left; reflexivity|exact H]].
Qed.

End LabelQueries.

Lemma merge_str_In : forall a b x, In x (merge_str a b) <-> In x a \/ In x b.
Proof. exact (gmerge_In str str_cmp (fun x y => proj1 (str_cmp_eq x y))). Qed.

Lemma truncate_len : forall (A : Type) n (l : list A), 0 < n -> Z.of_nat (length (truncate n l)) <= n.
Proof.
  intros A n l Hn. unfold truncate. destruct (Z.ltb_spec 0 n) as [_|]; [simpl|lia].
  destruct (Z.ltb_spec n (Z.of_nat (length l))); [|lia]. rewrite firstn_length. lia.
Qed.

Lemma truncate_nonpos : forall (A : Type) n (l : list A), n <= 0 -> truncate n l = l.
Proof. intros A n l Hn. unfold truncate. destruct (Z.ltb_spec 0 n); [lia|reflexivity]. Qed.

Lemma merge_results_S : forall f limit rs, (2 <= length rs)%nat ->
  merge_results (S f) limit rs =
  match merge_results f limit (firstn (length rs / 2) rs),
        merge_results f limit (skipn (length rs / 2) rs) with
  | Some s1, Some s2 => Some (truncate limit (merge_str (truncate limit s1) (truncate limit s2)))
  | _, _ => None
  end.
Proof. intros f limit [|r1 [|r2 rest]] H; [simpl in H; lia..|reflexivity]. Qed.

Definition merged_ok (limit : Z) (rs : list (list str)) (r : list str) : Prop :=
  (forall x, In x r -> exists l, In l rs /\ In x l) /\
  (limit <= 0 -> forall l x, In l rs -> In x l -> In x r) /\
  (0 < limit -> (forall l, In l rs -> Z.of_nat (length l) <= limit) -> Z.of_nat (length r) <= limit).

Lemma merged_two : forall limit rs1 rs2 s1 s2, merged_ok limit rs1 s1 -> merged_ok limit rs2 s2 ->
  merged_ok limit (rs1 ++ rs2) (truncate limit (merge_str (truncate limit s1) (truncate limit s2))).
Proof.
  intros limit rs1 rs2 s1 s2 [A1 [B1 _]] [A2 [B2 _]]. split; [|split].
  - intros x Hx. apply truncate_sub, merge_str_In in Hx as [Hx|Hx]; apply truncate_sub in Hx;
      [destruct (A1 x Hx) as [l [Hl Hxl]]|destruct (A2 x Hx) as [l [Hl Hxl]]];
      exists l; (split; [apply in_or_app; auto|exact Hxl]).
  - intros Hl l x Hin Hx. rewrite !truncate_nonpos by exact Hl. apply merge_str_In.
    apply in_app_or in Hin as [Hin|Hin]; [left; eapply B1|right; eapply B2]; eassumption.
  - intros Hl _. apply truncate_len, Hl.
Qed.

Lemma merge_results_props : forall fuel limit rs, (length rs < fuel)%nat ->
  exists r, merge_results fuel limit rs = Some r /\ merged_ok limit rs r.
Proof.
  induction fuel as [|f IH]; intros limit rs Hf; [lia|].
  destruct (le_lt_dec 2 (length rs)) as [L2|L2].
  - rewrite (merge_results_S f limit rs L2). set (i := (length rs / 2)%nat).
    assert (D : (0 < i < length rs)%nat)
      by (split; [apply Nat.div_str_pos|apply Nat.div_lt]; lia).
    destruct (IH limit (firstn i rs)) as [s1 [-> M1]]; [rewrite firstn_length; lia|].
    destruct (IH limit (skipn i rs)) as [s2 [-> M2]]; [rewrite skipn_length; lia|].
    eexists. split; [reflexivity|]. rewrite <- (firstn_skipn i rs) at 1. apply merged_two; assumption.
  - destruct rs as [|r1 [|r2 rest]]; [| |simpl in L2; lia]; eexists; (split; [reflexivity|]); split.
    + intros x [].
    + split; [intros _ l x []|intros H _; simpl; lia].
    + intros x Hx. exists r1. split; [left; reflexivity|exact Hx].
    + split; [intros _ l x [<-|[]] Hx; exact Hx|]. intros _ H. apply H. left. reflexivity.
Qed.

(* FINDING (matchers on the empty label name).  The index keeps the pseudo pair ""="" (allPostingsKey) on every series.  A matcher whose
   label name is "" therefore sees the value "" as *present*: {""=~".+"} takes the
   PostingsForAllLabelValues("") shortcut and selects every series, although the absent label
   "" has the value "" which ".+" does not match; {""!=""} takes the all-postings shortcut
   (which looks only at name and value, not at the type) and selects every series, although
   "" != "" is false.  Both selectors are accepted by the PromQL parser. *)
Definition bad_m_plus : matcher := mkM MRe [] dot_plus [([], false)] [].
Definition bad_m_ne : matcher := mkM MNe [] [] [] [].

Lemma empty_name_witness : forall m, oracle_consistent ex_st m ->
  postings_for_matchers ex_st [m] = Ok [1; 2; 3] ->
  matches m (lget (m_name m) [(ex_a, ex_x); (ex_b, ex_1)]) = false ->
  exists st ms p s,
    store_wfb st = true /\ ms <> [] /\
    (forall m, In m ms -> oracle_consistent st m) /\
    postings_for_matchers st ms = Ok p /\
    In s (st_series st) /\ In (s_ref s) p /\ ~ series_matches ms s.
Proof.
  intros m OC E M. exists ex_st, [m], [1; 2; 3], (mkS 1 [(ex_a, ex_x); (ex_b, ex_1)] [(10, 20)]).
  split; [reflexivity|]. split; [discriminate|]. split; [intros m' [<-|[]]; exact OC|].
  split; [exact E|]. split; [left; reflexivity|]. split; [left; reflexivity|].
  intros H. exact (eq_true_false_abs _ (H m (or_introl eq_refl)) M).
Qed.

Lemma empty_name_ne_refuted :
  exists st ms p s,
    store_wfb st = true /\ ms <> [] /\
    (forall m, In m ms -> oracle_consistent st m) /\
    postings_for_matchers st ms = Ok p /\
    In s (st_series st) /\ In (s_ref s) p /\ ~ series_matches ms s.
Proof. apply (empty_name_witness bad_m_ne); try reflexivity. apply oc_not_regex. reflexivity. Qed.
