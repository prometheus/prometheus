(* proof/RemoteReadProofs.v — proofs about model/RemoteRead.v (C42). *)
From Coq Require Import List ZArith Bool NArith Lia Sorted.
From Verif Require Import lib.Int64 model.RemoteRead.
Import ListNotations.
Open Scope Z_scope.

(* ------------------------------------------------------------------ hypotheses of the theorems *)

(* timestamps strictly increasing (what any storage.Series iterator guarantees) *)
Definition ts_sorted (l : list sample) : Prop := StronglySorted (fun a b => s_t a < s_t b) l.
(* timestamps non-decreasing (enough for the streamed path) *)
Definition ts_nondecr (l : list sample) : Prop := StronglySorted (fun a b => s_t a <= s_t b) l.
(* no sample sits on the noTS sentinel (MaxInt64) *)
Definition below_noTS (l : list sample) : Prop := Forall (fun s => s_t s < noTS) l.
(* no float sample is the negative zero *)
Definition no_negzero (l : list sample) : Prop :=
  Forall (fun s => s_k s = KF -> s_v s <> neg_zero_bits) l.

Definition good_series (s : series) : Prop :=
  ts_sorted (ser_s s) /\ below_noTS (ser_s s) /\ no_negzero (ser_s s).

Definition total_samples (l : list series) : Z :=
  fold_right (fun s a => Z.of_nat (length (ser_s s)) + a) 0 l.

Definition with_ext (ext : labels) (s : series) : series := mkSer (merge_labels (ser_l s) ext) (ser_s s).

Lemma ts_sorted_nondecr l : ts_sorted l -> ts_nondecr l.
Proof.
  induction 1 as [|a l Hs IH Hf]; constructor; auto.
  eapply Forall_impl; [|exact Hf]. cbn; intros; lia.
Qed.

(* ------------------------------------------------------------------ strings and labels *)

Lemma str_cmp_refl a : str_cmp a a = Eq.
Proof. induction a as [|x a IH]; cbn; auto. rewrite N.compare_refl. exact IH. Qed.

Lemma str_eqb_refl a : str_eqb a a = true.
Proof. unfold str_eqb. now rewrite str_cmp_refl. Qed.

Lemma labels_eqb_refl a : labels_eqb a a = true.
Proof. induction a as [|[n v] a IH]; cbn; auto. now rewrite !str_eqb_refl, IH. Qed.

(* ------------------------------------------------------------------ sampled response *)

Lemma split_length l : (length (floats_of l) + length (hists_of l) = length l)%nat.
Proof. induction l as [|[t k v] l IH]; cbn; auto. destruct k; cbn; lia. Qed.

Lemma peek_lb l t : Forall (fun s => t < s_t s) l -> t < noTS ->
  t < peek_f (floats_of l) /\ t < peek_h (hists_of l).
Proof.
  induction l as [|[t' k v] l IH]; cbn; intros Hf Hn; auto.
  inversion Hf as [|? ? Hh Ht]; subst. cbn in Hh. destruct (IH Ht Hn). destruct k; cbn; auto.
Qed.

(* draining the client-side iterator over what ToQueryResult made of a series gives the series back *)
Lemma concrete_iter_roundtrip l : forall fuel,
  ts_sorted l -> below_noTS l -> (length l < fuel)%nat ->
  concrete_iter fuel (floats_of l) (hists_of l) = l.
Proof.
  induction l as [|[t k v] l IH]; intros fuel Hs Hb Hfu.
  - destruct fuel; [cbn in Hfu; lia|]. reflexivity.
  - destruct fuel as [|fuel]; [cbn in Hfu; lia|].
    inversion Hs as [|? ? Hs' Hlt]; subst. inversion Hb as [|? ? Ht Hb']; subst.
    cbn in Ht, Hlt.
    assert (Hfu' : (length l < fuel)%nat) by (cbn in Hfu; lia).
    destruct (peek_lb l t Hlt Ht) as [Hpf Hph].
    (* the iterator takes the float while it is older than the next histogram, else the histogram *)
    destruct k; cbn [floats_of hists_of s_k s_t s_v concrete_iter peek_f peek_h hist_sample];
      [destruct (Z.ltb_spec t (peek_h (hists_of l)))
      |destruct (Z.ltb_spec (peek_f (floats_of l)) t), (Z.ltb_spec t (peek_f (floats_of l))) ..];
      try lia; f_equal; apply IH; auto.
Qed.

Definition to_ts (s : series) : pbts := mkTS (ser_l s) (floats_of (ser_s s)) (hists_of (ser_s s)).

Lemma series_of_to_ts s : ts_sorted (ser_s s) -> below_noTS (ser_s s) -> series_of_ts (to_ts s) = s.
Proof.
  intros Hs Hb. destruct s as [l ss]. unfold series_of_ts, to_ts, iter_fuel. cbn [ts_l ts_f ts_h ser_l ser_s].
  f_equal. apply concrete_iter_roundtrip; auto. cbn in *. rewrite split_length. lia.
Qed.

Lemma total_samples_cons s ss :
  total_samples (s :: ss) = Z.of_nat (length (ser_s s)) + total_samples ss.
Proof. reflexivity. Qed.

Lemma total_samples_nonneg ss : 0 <= total_samples ss.
Proof. induction ss as [|x ss IH]; [cbn; lia|]. rewrite total_samples_cons. lia. Qed.

Lemma to_query_result_from_ok ss : forall n limit,
  limit <= 0 \/ n + total_samples ss <= limit ->
  to_query_result_from n limit ss = Ok (map to_ts ss).
Proof.
  induction ss as [|s ss IH]; intros n limit H; cbn; auto.
  assert (Hlen : 0 <= Z.of_nat (length (ser_s s))) by lia.
  pose proof (total_samples_nonneg ss) as Htot.
  rewrite total_samples_cons in H.
  destruct (Z.ltb_spec 0 limit), (Z.ltb_spec limit (n + Z.of_nat (length (ser_s s)))); try lia;
    (rewrite IH; [reflexivity | lia]).
Qed.

Lemma to_query_result_from_limit ss : forall n limit,
  0 < limit -> n <= limit -> limit < n + total_samples ss ->
  to_query_result_from n limit ss = ErrLimit.
Proof.
  induction ss as [|s ss IH]; intros n limit H0 Hn H; [cbn in *; lia|].
  rewrite total_samples_cons in H.
  cbn [to_query_result_from].
  destruct (Z.ltb_spec 0 limit), (Z.ltb_spec limit (n + Z.of_nat (length (ser_s s)))); try lia;
    cbn [andb]; [reflexivity | rewrite IH; auto; lia].
Qed.

Lemma floats_of_no_negzero l : no_negzero l ->
  map (fun p => (fst p, pb_double (snd p))) (floats_of l) = floats_of l.
Proof.
  induction 1 as [|[t k v] l Hh Hf IH]; cbn; auto.
  destruct k; cbn; auto. rewrite IH. f_equal. f_equal.
  unfold pb_double. cbn in Hh. destruct (v =? neg_zero_bits) eqn:E; auto.
  apply Z.eqb_eq in E. exfalso. now apply Hh.
Qed.

Lemma wire_roundtrip ext ss : Forall good_series ss ->
  map series_of_ts (map wire_ts (add_ext ext (map to_ts ss))) = map (with_ext ext) ss.
Proof.
  induction 1 as [|s ss [Hs [Hb Hz]] Hf IH]; cbn; auto.
  f_equal; [|exact IH].
  unfold wire_ts. cbn [ts_l ts_f ts_h to_ts].
  rewrite floats_of_no_negzero by auto.
  change (mkTS (merge_labels (ser_l s) ext) (floats_of (ser_s s)) (hists_of (ser_s s)))
    with (to_ts (with_ext ext s)).
  apply series_of_to_ts; auto.
Qed.

(* the sampled path is the identity (up to the external labels and the requested sort) *)
Theorem sampled_id : forall limit ext sortSeries ss,
  Forall good_series ss ->
  limit <= 0 \/ total_samples ss <= limit ->
  sampled_path limit ext sortSeries ss =
    Ok (let l := map (with_ext ext) ss in if sortSeries then sort_series l else l).
Proof.
  intros limit ext sortSeries ss Hg Hl. unfold sampled_path, to_query_result.
  rewrite to_query_result_from_ok by (destruct Hl; [left|right]; lia).
  unfold from_query_result. rewrite wire_roundtrip by auto. reflexivity.
Qed.

Theorem sampled_limit : forall limit ext sortSeries ss,
  0 < limit < total_samples ss -> sampled_path limit ext sortSeries ss = ErrLimit.
Proof.
  intros limit ext sortSeries ss H. unfold sampled_path, to_query_result.
  rewrite to_query_result_from_limit; auto; lia.
Qed.

(* sorting a label-sorted list changes nothing *)
Definition label_sorted (l : list series) : Prop :=
  StronglySorted (fun a b => labels_cmp (ser_l a) (ser_l b) <> Gt) l.

Lemma sort_series_sorted l : label_sorted l -> sort_series l = l.
Proof.
  induction 1 as [|s l Hs IH Hf]; cbn; auto. rewrite IH.
  destruct l as [|x r]; cbn; auto.
  inversion Hf as [|? ? Hx _]; subst.
  destruct (labels_cmp (ser_l s) (ser_l x)); auto. now exfalso.
Qed.

Corollary sampled_id_sorted : forall limit ext sortSeries ss,
  Forall good_series ss -> limit <= 0 \/ total_samples ss <= limit ->
  label_sorted (map (with_ext ext) ss) ->
  sampled_path limit ext sortSeries ss = Ok (map (with_ext ext) ss).
Proof.
  intros. rewrite sampled_id by auto. cbn. destruct sortSeries; auto. now rewrite sort_series_sorted.
Qed.

(* on a fresh iterator the seek probe answers correctly (it is not vacuous) *)
Example seek_fresh_example :
  seek_probe (floats_of [mkS 10 KF 1; mkS 20 KH 3; mkS 30 KF 2]) (hists_of [mkS 10 KF 1; mkS 20 KH 3; mkS 30 KF 2]) 0 15
  = Some (Some (seek_spec [mkS 10 KF 1; mkS 20 KH 3; mkS 30 KF 2] 0 15)).
Proof. vm_compute. reflexivity. Qed.

(* ------------------------------------------------------------------ streamed chunks: frames *)

Lemma frames_go_concat md rest : forall acc left, rest <> [] ->
  concat (frames_go md acc left rest) = acc ++ rest.
Proof.
  induction rest as [|c rest IH]; intros acc left Hne; [congruence|].
  cbn [frames_go]. destruct rest as [|c2 r].
  - cbn. now rewrite app_nil_r.
  - destruct (0 <? left - chunk_size c).
    + rewrite IH by congruence. now rewrite <- app_assoc.
    + cbn [concat]. rewrite IH by congruence. cbn. now rewrite <- app_assoc.
Qed.

Lemma frames_of_concat maxBytes lbls chs : concat (frames_of maxBytes lbls chs) = chs.
Proof.
  unfold frames_of. destruct chs as [|c r]; [reflexivity|].
  now rewrite frames_go_concat by congruence.
Qed.

Lemma frames_go_nonempty md rest : forall acc left,
  Forall (fun f => f <> []) (frames_go md acc left rest).
Proof.
  induction rest as [|c rest IH]; intros acc left; cbn [frames_go]; [constructor|].
  assert (Hne : acc ++ [c] <> []) by (destruct acc; cbn; congruence).
  destruct rest as [|c2 r].
  - constructor; auto.
  - destruct (0 <? left - chunk_size c); [apply IH|constructor; auto].
Qed.

Lemma frames_go_count md rest : forall acc left, rest <> [] -> frames_go md acc left rest <> [].
Proof.
  induction rest as [|c rest IH]; intros acc left Hne; [congruence|].
  cbn [frames_go]. destruct rest as [|c2 r]; [congruence|].
  destruct (0 <? left - chunk_size c); [apply IH; congruence|congruence].
Qed.

(* sizes are non-negative *)
Lemma sov_nonneg x : 0 <= sov x.
Proof. unfold sov. apply Z.div_pos; [|lia]. pose proof (Z.log2_nonneg (Z.lor (u64 x) 1)). lia. Qed.

Lemma chunk_size_nonneg c : 0 <= chunk_size c.
Proof.
  unfold chunk_size, varint_field_size, bytes_field_size.
  pose proof (sov_nonneg (c_min c)). pose proof (sov_nonneg (c_max c)).
  pose proof (sov_nonneg (c_enc c)). pose proof (sov_nonneg (c_len c)).
  destruct (c_min c =? 0), (c_max c =? 0), (c_enc c =? 0); destruct (0 <? c_len c) eqn:E;
    try apply Z.ltb_lt in E; lia.
Qed.

Definition total_size (chs : list chunk) : Z := fold_right (fun c a => chunk_size c + a) 0 chs.

Lemma total_size_cons c r : total_size (c :: r) = chunk_size c + total_size r.
Proof. reflexivity. Qed.

Lemma total_size_nonneg chs : 0 <= total_size chs.
Proof.
  induction chs as [|c r IH]; [cbn; lia|]. rewrite total_size_cons.
  pose proof (chunk_size_nonneg c). lia.
Qed.

(* a series whose chunks all fit below the frame budget is sent as one frame *)
Lemma frames_go_one md rest : forall acc left, rest <> [] -> total_size rest < left ->
  frames_go md acc left rest = [acc ++ rest].
Proof.
  induction rest as [|c rest IH]; intros acc left Hne Hsz; [congruence|].
  cbn [frames_go]. destruct rest as [|c2 r]; [reflexivity|].
  rewrite !total_size_cons in Hsz.
  pose proof (total_size_nonneg r). pose proof (chunk_size_nonneg c2).
  replace (0 <? left - chunk_size c) with true by (symmetry; apply Z.ltb_lt; lia).
  rewrite IH; [now rewrite <- app_assoc|congruence|].
  rewrite total_size_cons. lia.
Qed.

Lemma frames_of_one maxBytes lbls chs : chs <> [] ->
  total_size chs < max_data_length maxBytes lbls -> frames_of maxBytes lbls chs = [chs].
Proof. intros. unfold frames_of. now rewrite frames_go_one. Qed.

(* ------------------------------------------------------------------ streamed chunks: the client iterator *)

Lemma nondecr_app a b : ts_nondecr (a ++ b) ->
  ts_nondecr a /\ ts_nondecr b /\ Forall (fun x => Forall (fun y => s_t x <= s_t y) b) a.
Proof.
  induction a as [|x a IH]; cbn; intros H.
  - repeat split; auto; constructor.
  - inversion H as [|? ? Hs Hf]; subst. destruct (IH Hs) as [Ha [Hb Hab]].
    apply Forall_app in Hf. destruct Hf as [Hfa Hfb].
    repeat split; auto; constructor; auto.
Qed.

Lemma filter_above mint maxt l t : maxt < t -> Forall (fun y => t <= s_t y) l ->
  filter (in_range mint maxt) l = [].
Proof.
  intros Ht. induction 1 as [|y l Hy Hf IH]; cbn; auto.
  unfold in_range at 1. replace (s_t y <=? maxt) with false by (symmetry; apply Z.leb_gt; lia).
  rewrite andb_false_r. exact IH.
Qed.

Lemma scan_spec mint maxt cur : ts_nondecr cur ->
  fst (scan mint maxt cur) = filter (in_range mint maxt) cur /\
  (snd (scan mint maxt cur) = true -> exists s, In s cur /\ maxt < s_t s).
Proof.
  induction 1 as [|s cur Hs IH Hf]; cbn; [split; [auto|discriminate]|].
  destruct (maxt <? s_t s) eqn:E.
  - apply Z.ltb_lt in E. cbn. split.
    + unfold in_range at 1. replace (s_t s <=? maxt) with false by (symmetry; apply Z.leb_gt; lia).
      rewrite andb_false_r. symmetry. eapply filter_above; eauto.
    + intros _. exists s. auto.
  - apply Z.ltb_ge in E. destruct (scan mint maxt cur) as [r d] eqn:Es. cbn in IH.
    destruct IH as [IH1 IH2]. unfold in_range at 1.
    replace (s_t s <=? maxt) with true by (symmetry; apply Z.leb_le; lia). rewrite andb_true_r.
    destruct (mint <=? s_t s); cbn; (split; [now rewrite IH1|]);
      intros Hd; destruct (IH2 Hd) as [x [Hx Hlt]]; exists x; auto.
Qed.

Lemma chunked_iter_spec mint maxt chs : ts_nondecr (all_samples chs) ->
  chunked_iter mint maxt chs = filter (in_range mint maxt) (all_samples chs).
Proof.
  induction chs as [|c rest IH]; cbn [chunked_iter all_samples flat_map]; auto.
  intros H. apply nondecr_app in H. destruct H as [Hc [Hr Hcr]].
  destruct (scan_spec mint maxt (c_samples c) Hc) as [H1 H2].
  destruct (scan mint maxt (c_samples c)) as [r d]. cbn in H1, H2. subst r.
  rewrite filter_app. destruct d.
  - destruct (H2 eq_refl) as [x [Hx Hlt]].
    rewrite Forall_forall in Hcr. specialize (Hcr x Hx).
    erewrite (filter_above mint maxt (flat_map c_samples rest)); eauto. now rewrite app_nil_r.
  - f_equal. apply IH. exact Hr.
Qed.

Lemma all_samples_app a b : all_samples (a ++ b) = all_samples a ++ all_samples b.
Proof. unfold all_samples. apply flat_map_app. Qed.

Lemma chunked_iter_frames mint maxt fs : ts_nondecr (all_samples (concat fs)) ->
  concat (map (chunked_iter mint maxt) fs) = filter (in_range mint maxt) (all_samples (concat fs)).
Proof.
  induction fs as [|f fs IH]; cbn; auto.
  rewrite all_samples_app. intros H. apply nondecr_app in H. destruct H as [Hf [Hfs _]].
  rewrite filter_app, chunked_iter_spec by auto. f_equal. auto.
Qed.

(* per series: whatever the frame size, the samples the client yields for the frames of one
   series, taken together, are exactly the in-range samples of the series' chunks *)
Theorem chunked_series_samples : forall maxBytes lbls mint maxt chs,
  ts_nondecr (all_samples chs) ->
  concat (map (chunked_iter mint maxt) (frames_of maxBytes lbls chs))
  = filter (in_range mint maxt) (all_samples chs).
Proof.
  intros. rewrite chunked_iter_frames; now rewrite frames_of_concat.
Qed.

(* ------------------------------------------------------------------ streamed chunks: whole response *)

Fixpoint adj_distinct (l : list labels) : Prop :=
  match l with
  | a :: ((b :: _) as r) => labels_eqb a b = false /\ adj_distinct r
  | _ => True
  end.

Definition good_cseries (s : cseries) : Prop := ts_nondecr (all_samples (cs_c s)) /\ cs_c s <> [].

Definition head_differs (lbls : labels) (l : list series) : Prop :=
  match l with [] => True | s :: _ => labels_eqb lbls (ser_l s) = false end.

Lemma reassemble_frames mint maxt lbls tail : forall fs, fs <> [] ->
  head_differs lbls (reassemble tail) ->
  reassemble (map (fun f => mkSer lbls (chunked_iter mint maxt f)) fs ++ tail)
  = mkSer lbls (concat (map (chunked_iter mint maxt) fs)) :: reassemble tail.
Proof.
  induction fs as [|f fs IH]; intros Hne Hd; [congruence|].
  destruct fs as [|f2 fs].
  - cbn [map app concat reassemble]. rewrite app_nil_r.
    destruct (reassemble tail) as [|s' r']; auto. cbn in Hd. cbn [ser_l]. now rewrite Hd.
  - change (map (fun f => mkSer lbls (chunked_iter mint maxt f)) (f :: f2 :: fs) ++ tail)
      with (mkSer lbls (chunked_iter mint maxt f) ::
            (map (fun f => mkSer lbls (chunked_iter mint maxt f)) (f2 :: fs) ++ tail)).
    cbn [reassemble]. rewrite IH by (auto; congruence).
    cbn [ser_l ser_s]. rewrite labels_eqb_refl. reflexivity.
Qed.

Lemma client_chunked_app mint maxt a b :
  client_chunked mint maxt (a ++ b) = client_chunked mint maxt a ++ client_chunked mint maxt b.
Proof. unfold client_chunked. apply map_app. Qed.

(* when every series fits into one frame the client's series set IS the direct result *)
Definition fits (maxBytes : Z) (ext : labels) (s : cseries) : Prop :=
  total_size (cs_c s) < max_data_length maxBytes (merge_labels (cs_l s) ext).

Theorem chunked_id_one_frame : forall maxBytes ext mint maxt ss,
  Forall good_cseries ss -> Forall (fits maxBytes ext) ss ->
  chunked_path maxBytes ext mint maxt ss = map (trim_series mint maxt ext) ss.
Proof.
  intros maxBytes ext mint maxt ss Hg Hf. unfold chunked_path, stream_frames.
  induction Hg as [|s ss [Hs Hne] Hg IH]; [reflexivity|].
  inversion Hf as [|? ? Hfs Hf']; subst.
  cbn [flat_map map]. rewrite client_chunked_app, IH by auto.
  unfold stream_series, fits in *. rewrite frames_of_one by auto.
  unfold client_chunked at 1. cbn [map app f_l f_c].
  f_equal. unfold trim_series. f_equal. now apply chunked_iter_spec.
Qed.

(* ... and when a series does not fit, it is not: the client returns one entry per frame *)
Lemma chunked_split_refuted : exists maxBytes ext mint maxt ss,
  Forall good_cseries ss /\
  adj_distinct (map (fun s => merge_labels (cs_l s) ext) ss) /\
  Forall (fun s => Forall (fun c => chunk_size c < max_data_length maxBytes (merge_labels (cs_l s) ext)) (cs_c s)) ss /\
  chunked_path maxBytes ext mint maxt ss <> map (trim_series mint maxt ext) ss.
Proof.
  exists 60, [], 0, 100,
    [mkCS [([97%N], [98%N])] [mkC 1 2 1 30 [mkS 1 KF 5; mkS 2 KF 6]; mkC 3 4 1 30 [mkS 3 KF 7; mkS 4 KF 8];
                               mkC 5 6 1 30 [mkS 5 KF 7; mkS 6 KF 8]]].
  split; [|split; [|split]].
  - constructor; [|constructor]. split; [|discriminate]. cbn. repeat constructor; cbn; lia.
  - exact I.
  - repeat constructor; vm_compute; reflexivity.
  - intros H. apply (f_equal (@length _)) in H. vm_compute in H. discriminate.
Qed.

(* ------------------------------------------------------------------ non-vacuity witnesses *)

Example good_series_example :
  Forall good_series
    [mkSer [([97%N], [98%N])] [mkS 10 KF 4607182418800017408; mkS 20 KH 77; mkS 30 KFH 78; mkS 40 KF 0];
     mkSer [([97%N], [99%N])] []]
  /\ sampled_path 3 [([122%N], [49%N])] true
       [mkSer [([97%N], [98%N])] [mkS 10 KF 4607182418800017408; mkS 20 KH 77; mkS 30 KFH 78; mkS 40 KF 0]]
     = ErrLimit.
Proof.
  split; [|vm_compute; reflexivity].
  repeat constructor; cbn; try lia; try (unfold noTS, maxInt64; lia); try discriminate;
    intros _; unfold neg_zero_bits; lia.
Qed.

Definition ex_cseries : list cseries :=
  [mkCS [([97%N], [98%N])] [mkC 1 2 1 30 [mkS 1 KF 5; mkS 2 KF 6]; mkC 3 4 1 30 [mkS 3 KF 7; mkS 4 KF 8];
                             mkC 5 9 1 30 [mkS 5 KF 7; mkS 9 KF 8]];
   mkCS [([97%N], [99%N])] [mkC 2 2 2 50 [mkS 2 KH 1]]].

Example good_cseries_example :
  Forall good_cseries ex_cseries /\ adj_distinct (map (fun s => merge_labels (cs_l s) []) ex_cseries)
  /\ length (stream_frames 60 [] ex_cseries) = 3%nat
  /\ length (chunked_path 60 [] 2 5 ex_cseries) = 3%nat
  /\ Forall (fits 1000 []) ex_cseries.
Proof.
  split; [|split; [|split; [|split]]].
  - repeat constructor; cbn; try lia; discriminate.
  - split; [vm_compute; reflexivity|exact I].
  - vm_compute. reflexivity.
  - vm_compute. reflexivity.
  - repeat (constructor; [vm_compute; reflexivity|]). constructor.
Qed.

(* ------------------------------------------------------------------ read.go querier: external labels round trip *)

Lemma merge_labels_eq p s :
  merge_labels p s =
  match p, s with
  | [], _ => s
  | _, [] => p
  | (pn, pv) :: p', (sn, sv) :: s' =>
      match str_cmp pn sn with
      | Lt => (pn, pv) :: merge_labels p' s
      | Gt => (sn, sv) :: merge_labels p s'
      | Eq => (pn, pv) :: merge_labels p' s'
      end
  end.
Proof. destruct p as [|[pn pv] p']; destruct s as [|[sn sv] s']; reflexivity. Qed.

Definition keeps (names : list str) (p : label) : Prop := str_mem (fst p) names = false /\ snd p <> [].

Lemma strip_keep names l : Forall (keeps names) l -> strip_labels names l = l.
Proof.
  unfold strip_labels. induction 1 as [|[n v] l [Hn Hv] Hf IH]; cbn [filter fst snd]; auto.
  cbn in Hn, Hv. rewrite Hn. destruct v; [congruence|]. cbn [negb andb]. now rewrite IH.
Qed.

Lemma strip_drop names l : Forall (fun p => str_mem (fst p) names = true) l -> strip_labels names l = [].
Proof.
  unfold strip_labels. induction 1 as [|[n v] l Hn Hf IH]; cbn [filter fst snd]; auto.
  cbn in Hn. now rewrite Hn.
Qed.

Lemma strip_merge names p : Forall (keeps names) p -> forall s,
  Forall (fun x => str_mem (fst x) names = true) s ->
  strip_labels names (merge_labels p s) = p.
Proof.
  induction 1 as [|[pn pv] p' [Hn Hv] Hp IHp]; intros s Hs.
  - rewrite merge_labels_eq. now apply strip_drop.
  - induction Hs as [|[sn sv] s' Hsn Hs IHs].
    + rewrite merge_labels_eq. apply strip_keep. constructor; [split|]; auto.
    + rewrite merge_labels_eq. cbn in Hn, Hv, Hsn.
      destruct (str_cmp pn sn); unfold strip_labels at 1; cbn [filter fst snd]; rewrite ?Hn, ?Hsn;
        [| |exact IHs]; (destruct pv; [congruence|]); cbn [negb andb]; f_equal; apply IHp; auto.
Qed.

Lemma str_mem_self n l : In n l -> str_mem n l = true.
Proof.
  unfold str_mem. intros H. apply existsb_exists. exists n. split; auto. apply str_eqb_refl.
Qed.

Lemma ext_names_in (ext : labels) : Forall (fun x => str_mem (fst x) (map fst ext) = true) ext.
Proof. apply Forall_forall. intros x Hx. apply str_mem_self. now apply in_map. Qed.

Lemma added_names_all (ext : labels) mnames :
  Forall (fun l => str_mem (fst l) mnames = false) ext -> added_names ext mnames = map fst ext.
Proof.
  unfold added_names. induction 1 as [|x ext Hx Hf IH]; cbn; auto. rewrite Hx. cbn. now rewrite IH.
Qed.

(* stored series: no empty label value, no label named like an external label *)
Definition storable (ext : labels) (l : labels) : Prop := Forall (keeps (map fst ext)) l.

Lemma strip_with_ext ext ss : Forall (fun s => storable ext (ser_l s)) ss ->
  strip_series (map fst ext) (map (with_ext ext) ss) = ss.
Proof.
  unfold strip_series. induction 1 as [|[l sm] ss Hs Hf IH]; cbn [map]; auto. rewrite IH. f_equal.
  unfold with_ext. cbn [ser_l ser_s]. f_equal. apply strip_merge; auto. apply ext_names_in.
Qed.

Example querier_example :
  storable [([122%N], [49%N])] [([97%N], [98%N]); ([99%N], [100%N])] /\
  querier_path false 0 100 [([122%N], [49%N])] [[97%N]] true 0 100
     [mkSer [([97%N], [98%N])] [mkS 5 KF 1]] [] = Ok [mkSer [([97%N], [98%N])] [mkS 5 KF 1]].
Proof. split; [repeat constructor; discriminate|vm_compute; reflexivity]. Qed.

(* ------------------------------------------------------------------ frame budget *)

Lemma total_size_app a b : total_size (a ++ b) = total_size a + total_size b.
Proof.
  induction a as [|x a IH]; [change (total_size b = 0 + total_size b); lia|].
  cbn [app]. rewrite !total_size_cons, IH. lia.
Qed.

Definition within_budget (md : Z) (f : list chunk) : Prop :=
  removelast f = [] \/ total_size (removelast f) < md.

Lemma frames_go_budget md rest : forall acc left,
  left = md - total_size acc -> (acc = [] \/ total_size acc < md) ->
  Forall (within_budget md) (frames_go md acc left rest).
Proof.
  induction rest as [|c rest IH]; intros acc left Hl Hacc; cbn [frames_go]; [constructor|].
  assert (Hwb : within_budget md (acc ++ [c])).
  { unfold within_budget. rewrite removelast_last. destruct Hacc; auto. }
  destruct rest as [|c2 r]; [constructor; auto|].
  destruct (0 <? left - chunk_size c) eqn:E.
  - apply IH.
    + rewrite total_size_app, total_size_cons. change (total_size []) with 0. lia.
    + right. apply Z.ltb_lt in E. rewrite total_size_app, total_size_cons. change (total_size []) with 0. lia.
  - constructor; auto. apply IH; [change (total_size []) with 0; lia|auto].
Qed.

(* every frame holds a single chunk, or its chunks except the last stay below the budget
   (maxBytesInFrame minus the label sizes): "inaccuracy of at most one chunk" *)
Theorem frames_budget : forall maxBytes lbls chs,
  Forall (within_budget (max_data_length maxBytes lbls)) (frames_of maxBytes lbls chs).
Proof. intros. unfold frames_of. apply frames_go_budget; [change (total_size []) with 0; lia|auto]. Qed.
