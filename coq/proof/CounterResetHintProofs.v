(* proof/CounterResetHintProofs.v — proofs for C12 over model/CounterResetHint.v: the appendable
   cascade admits only admissible predecessors ([P]), so within a counter chunk earlier samples
   precede later ones ([pwo]); reads, the chained merge and query windows keep a marked sample next
   to such a predecessor. *)
From Coq Require Import List ZArith Bool Lia.
From Verif Require Import lib.SortedList model.CounterResetHint.
Import ListNotations.
Open Scope Z_scope.

(* strictly increasing bucket indices, all above lo *)
Fixpoint sorted_from (lo : Z) (l : list bk) : Prop :=
  match l with
  | [] => True
  | (i, _) :: r => lo < i /\ sorted_from i r
  end.
Definition srt (l : list bk) : Prop := exists lo, sorted_from lo l.
Definition nonneg (l : list bk) : Prop := Forall (fun b => 0 <= snd b) l.

Lemma sorted_from_weaken : forall l lo lo', lo' <= lo -> sorted_from lo l -> sorted_from lo' l.
Proof. destruct l as [|[i c] r]; simpl; intros; [auto|]. intuition lia. Qed.

Lemma srt_common : forall a b, srt a -> srt b -> exists lo, sorted_from lo a /\ sorted_from lo b.
Proof.
  intros a b [la Ha] [lb Hb]. exists (Z.min la lb).
  split; (eapply sorted_from_weaken; [|eassumption]); lia.
Qed.

Lemma get_below : forall l lo i, sorted_from lo l -> i <= lo -> get l i = 0.
Proof.
  induction l as [|[j c] r IH]; simpl; intros lo i Hs Hi; [reflexivity|].
  destruct Hs as [Hlt Hs]. destruct (Z.eqb_spec i j); [lia|]. eapply IH; [exact Hs|lia].
Qed.

Lemma get_nonneg : forall l i, nonneg l -> 0 <= get l i.
Proof.
  induction l as [|[j c] r IH]; simpl; intros i Hn; [lia|].
  inversion Hn; subst. simpl in *. destruct (i =? j); auto.
Qed.

Lemma get_cons i j c l : get ((j, c) :: l) i = if i =? j then c else get l i.
Proof. reflexivity. Qed.

(* walk and expand recurse like a merge of the two bucket lists *)
Lemma merge_ind (P : list bk -> list bk -> Prop) :
  (forall b, P [] b) ->
  (forall ai ac a', P a' [] -> P ((ai, ac) :: a') []) ->
  (forall ai ac a' bi bc b',
     (ai = bi -> P a' b') -> (ai < bi -> P a' ((bi, bc) :: b')) -> (bi < ai -> P ((ai, ac) :: a') b') ->
     P ((ai, ac) :: a') ((bi, bc) :: b')) ->
  forall a b, P a b.
Proof.
  intros H0 H1 H2. induction a as [|[ai ac] a' IHa]; [exact H0|].
  induction b as [|[bi bc] b' IHb]; [apply H1, IHa|]. apply H2; intros; (apply IHa || apply IHb).
Qed.

Lemma walk_nil_l : forall b, walk [] b = true.
Proof. destruct b; reflexivity. Qed.

Lemma walk_cons_nil : forall ai ac a', walk ((ai, ac) :: a') [] = if ac =? 0 then walk a' [] else false.
Proof. reflexivity. Qed.

Lemma walk_cons_cons : forall ai ac a' bi bc b',
  walk ((ai, ac) :: a') ((bi, bc) :: b') =
  if ai =? bi then (if ac >? bc then false else walk a' b')
  else if ai <? bi then (if ac =? 0 then walk a' ((bi, bc) :: b') else false)
  else walk ((ai, ac) :: a') b'.
Proof. reflexivity. Qed.

(* the verdict of expand*SpansAndBuckets: no bucket went down *)
Lemma walk_le : forall a b lo,
  sorted_from lo a -> sorted_from lo b -> nonneg b -> walk a b = true ->
  forall i, get a i <= get b i.
Proof.
  intros a b. pattern a, b. apply merge_ind; clear a b.
  - intros b lo _ _ Hn _ i. now apply get_nonneg.
  - intros ai ac a' IH lo [_ Ha] _ Hn Hw i. rewrite walk_cons_nil in Hw.
    destruct (Z.eqb_spec ac 0) as [->|]; [|discriminate].
    specialize (IH ai Ha I Hn Hw i). rewrite get_cons. simpl in *. destruct (i =? ai); lia.
  - intros ai ac a' bi bc b' IHeq IHlt IHgt lo [Hloa Ha] [Hlob Hb] Hn Hw i. rewrite walk_cons_cons in Hw.
    inversion Hn as [|? ? Hbc Hn']; subst. simpl in Hbc.
    destruct (Z.eqb_spec ai bi) as [<-|Hne]; [|destruct (Z.ltb_spec ai bi) as [Hlt|Hge]].
    + destruct (ac >? bc) eqn:E; [discriminate|].
      specialize (IHeq eq_refl ai Ha Hb Hn' Hw i). rewrite !get_cons. destruct (i =? ai); lia.
    + destruct (Z.eqb_spec ac 0) as [->|]; [|discriminate].
      specialize (IHlt Hlt ai Ha (conj Hlt Hb) Hn Hw i). rewrite (get_cons i ai).
      destruct (i =? ai); [now apply get_nonneg|exact IHlt].
    + assert (Ha2 : sorted_from bi ((ai, ac) :: a')) by (simpl; split; [lia|exact Ha]).
      specialize (IHgt ltac:(lia) bi Ha2 Hb Hn' Hw i). rewrite (get_cons i bi).
      destruct (Z.eqb_spec i bi) as [->|]; [|exact IHgt]. rewrite (get_below _ bi bi Ha2); lia.
Qed.

Lemma expand_nil_l : forall b, expand [] b = b.
Proof. destruct b; reflexivity. Qed.

Lemma expand_cons_nil : forall ai ac a', expand ((ai, ac) :: a') [] = (ai, 0) :: expand a' [].
Proof. reflexivity. Qed.

Lemma expand_cons_cons : forall ai ac a' bi bc b',
  expand ((ai, ac) :: a') ((bi, bc) :: b') =
  if ai =? bi then (bi, bc) :: expand a' b'
  else if ai <? bi then (ai, 0) :: expand a' ((bi, bc) :: b')
  else (bi, bc) :: expand ((ai, ac) :: a') b'.
Proof. reflexivity. Qed.

(* the union layout holds the sample's counts, stays sorted and non-negative *)
Lemma expand_props : forall a b lo,
  sorted_from lo a -> sorted_from lo b ->
  sorted_from lo (expand a b) /\ (forall i, get (expand a b) i = get b i) /\ (nonneg b -> nonneg (expand a b)).
Proof.
  intros a b. pattern a, b. apply merge_ind; clear a b.
  - intros b lo _ Hb. rewrite expand_nil_l. auto.
  - intros ai ac a' IH lo [Hlo Ha] _. rewrite expand_cons_nil.
    destruct (IH ai Ha I) as (S1 & G1 & N1). split; [now split|]. split.
    + intro i. rewrite get_cons, G1. now destruct (i =? ai).
    + intros _. constructor; [simpl; lia|]. apply N1. constructor.
  - intros ai ac a' bi bc b' IHeq IHlt IHgt lo [Hloa Ha] [Hlob Hb]. rewrite expand_cons_cons.
    destruct (Z.eqb_spec ai bi) as [<-|Hne]; [|destruct (Z.ltb_spec ai bi) as [Hlt|Hge]].
    + destruct (IHeq eq_refl ai Ha Hb) as (S1 & G1 & N1). split; [now split|]. split.
      * intro i. rewrite !get_cons, G1. reflexivity.
      * intro Hn. inversion Hn; subst. constructor; [assumption|now apply N1].
    + assert (Hb2 : sorted_from ai ((bi, bc) :: b')) by (simpl; auto).
      destruct (IHlt Hlt ai Ha Hb2) as (S1 & G1 & N1). split; [now split|]. split.
      * intro i. rewrite (get_cons i ai), G1. destruct (Z.eqb_spec i ai) as [->|]; [|reflexivity].
        now rewrite (get_below _ ai ai Hb2).
      * intro Hn. constructor; [simpl; lia|now apply N1].
    + assert (Ha2 : sorted_from bi ((ai, ac) :: a')) by (simpl; split; [lia|exact Ha]).
      destruct (IHgt ltac:(lia) bi Ha2 Hb) as (S1 & G1 & N1). split; [now split|]. split.
      * intro i. rewrite !get_cons, G1. reflexivity.
      * intro Hn. inversion Hn; subst. constructor; [assumption|now apply N1].
Qed.

Lemma zlist_eqb_eq : forall a b, zlist_eqb a b = true -> a = b.
Proof.
  induction a as [|x a IH]; destruct b as [|y b]; simpl; intros H; try discriminate; [reflexivity|].
  apply andb_true_iff in H. destruct H as [H1 H2]. apply Z.eqb_eq in H1. f_equal; auto.
Qed.

Lemma zlist_eqb_refl : forall a, zlist_eqb a a = true.
Proof. induction a; simpl; [reflexivity|]. rewrite Z.eqb_refl. assumption. Qed.

Definition valid (h : ahist) : Prop :=
  srt (a_pos h) /\ srt (a_neg h) /\ nonneg (a_pos h) /\ nonneg (a_neg h)
  /\ (a_schema h <> custom_schema -> a_custom h = []).

(* a is an admissible predecessor of the marked sample b *)
Definition P (a b : ahist) : Prop :=
  a_stale a = false
  /\ a_schema a = a_schema b /\ a_zth a = a_zth b /\ a_custom a = a_custom b
  /\ a_count a <= a_count b /\ a_zcount a <= a_zcount b
  /\ (forall i, get (a_pos a) i <= get (a_pos b) i)
  /\ (forall i, get (a_neg a) i <= get (a_neg b) i).

Lemma P_trans : forall a b c, P a b -> P b c -> P a c.
Proof.
  unfold P. intros a b c (A1 & A2 & A3 & A4 & A5 & A6 & A7 & A8) (B1 & B2 & B3 & B4 & B5 & B6 & B7 & B8).
  repeat split; try congruence; try lia; intro i; [specialize (A7 i); specialize (B7 i)|specialize (A8 i); specialize (B8 i)]; lia.
Qed.

Lemma buckets_le_intro : forall a b, (forall i, get a i <= get b i) -> buckets_le a b = true.
Proof.
  intros a b H. unfold buckets_le. apply forallb_forall. intros i _. apply Z.leb_le. apply H.
Qed.

Lemma P_pred_ok : forall a b, P a b -> pred_ok a b = true.
Proof.
  unfold P, pred_ok. intros a b (A1 & A2 & A3 & A4 & A5 & A6 & A7 & A8).
  rewrite A1, A2, A3, A4, !Z.eqb_refl, zlist_eqb_refl, (buckets_le_intro _ _ A7), (buckets_le_intro _ _ A8).
  apply Z.leb_le in A5, A6. now rewrite A5, A6.
Qed.

(* what the appender knows about the last sample `last` of its chunk *)
Definition inv (a : app) (last : ahist) : Prop :=
  ap_stale a = a_stale last
  /\ (ap_schema a <> custom_schema -> ap_custom a = [])
  /\ (a_stale last = false ->
        ap_schema a = a_schema last /\ ap_zth a = a_zth last /\ ap_custom a = a_custom last
        /\ ap_cnt a = a_count last /\ ap_zcnt a = a_zcount last
        /\ (forall i, get (ap_pos a) i = get (a_pos last) i)
        /\ (forall i, get (ap_neg a) i = get (a_neg last) i)
        /\ srt (ap_pos a) /\ srt (ap_neg a)).

(* The cascade: a non-stale sample is only appended to a counter chunk (okToAppend with
   NotCounterReset) when the last sample of the chunk is an admissible predecessor. *)
Lemma appendable_sound : forall a last h,
  inv a last -> valid h -> a_stale h = false ->
  appendable a h = (true, CNotReset) -> P last h.
Proof.
  intros a last h (I1 & I2 & I3) (V1 & V2 & V3 & V4 & V5) Hs Happ.
  unfold appendable in Happ.
  destruct ((0 <? ap_n a) && crh_eqb (ap_crh a) CGauge); [discriminate|].
  destruct (hint_eqb (a_hint h) HReset); [discriminate|].
  rewrite Hs in Happ.
  destruct (ap_stale a) eqn:Eas; [discriminate|].
  destruct (Z.ltb_spec (a_count h) (ap_cnt a)) as [|Ec]; [discriminate|].
  destruct (negb (a_schema h =? ap_schema a) || negb (a_zth h =? ap_zth a)) eqn:El; [discriminate|].
  destruct ((a_schema h =? custom_schema) && negb (zlist_eqb (a_custom h) (ap_custom a))) eqn:Ecu; [discriminate|].
  destruct (Z.ltb_spec (a_zcount h) (ap_zcnt a)) as [|Ez]; [discriminate|].
  destruct (walk (ap_pos a) (a_pos h)) eqn:Ewp; [|discriminate].
  destruct (walk (ap_neg a) (a_neg h)) eqn:Ewn; [|discriminate].
  rewrite orb_false_iff, !negb_false_iff, !Z.eqb_eq in El. destruct El as [El1 El2].
  destruct (I3 ltac:(congruence)) as (J1 & J2 & J3 & J4 & J5 & J6 & J7 & J8 & J9).
  assert (Hcust : a_custom last = a_custom h).
  { rewrite <- J3. destruct (Z.eqb_spec (a_schema h) custom_schema) as [Es|Es].
    - simpl in Ecu. apply negb_false_iff, zlist_eqb_eq in Ecu. congruence.
    - rewrite (V5 Es). apply I2. congruence. }
  unfold P. repeat split; try congruence; try lia; intro i.
  - rewrite <- J6. destruct (srt_common _ _ J8 V1) as (lo & S1 & S2). eapply walk_le; eauto.
  - rewrite <- J7. destruct (srt_common _ _ J9 V2) as (lo & S1 & S2). eapply walk_le; eauto.
Qed.

Lemma inv_first : forall c h, valid h -> inv (append_sample (app0 c) h) h.
Proof.
  intros c h (V1 & V2 & V3 & V4 & V5). unfold append_sample, app0, inv. simpl.
  destruct (a_stale h) eqn:Es; simpl.
  - split; [reflexivity|]. split; [auto|]. intro H; discriminate.
  - repeat split; auto.
Qed.

Lemma inv_next : forall a last h, 0 < ap_n a -> inv a last -> valid h ->
  (a_stale h = false -> P last h) -> inv (append_sample a h) h.
Proof.
  intros a last h Hn (I1 & I2 & I3) (V1 & V2 & V3 & V4 & V5) HP.
  unfold append_sample. rewrite (proj2 (Z.eqb_neq _ _)) by lia. destruct (a_stale h) eqn:Es.
  - unfold inv; simpl. rewrite Es. repeat split; auto; discriminate.
  - destruct (HP eq_refl) as (A1 & A2 & A3 & A4 & A5 & A6 & A7 & A8).
    destruct (I3 A1) as (J1 & J2 & J3 & J4 & J5 & J6 & J7 & J8 & J9).
    destruct (srt_common _ _ J8 V1) as (lop & Sp1 & Sp2).
    destruct (srt_common _ _ J9 V2) as (lon & Sn1 & Sn2).
    destruct (expand_props _ _ _ Sp1 Sp2) as (EP1 & EP2 & EP3).
    destruct (expand_props _ _ _ Sn1 Sn2) as (EN1 & EN2 & EN3).
    unfold inv; simpl. repeat split; auto; try congruence; [exists lop|exists lon]; assumption.
Qed.

(* every earlier sample of the list is an admissible predecessor of every later non-stale one *)
Fixpoint pwo (l : list sample) : Prop :=
  match l with
  | [] => True
  | a :: r => Forall (fun b => a_stale (snd b) = false -> P (snd a) (snd b)) r /\ pwo r
  end.

Lemma pwo_snoc : forall l b,
  pwo l -> Forall (fun a => a_stale (snd b) = false -> P (snd a) (snd b)) l -> pwo (l ++ [b]).
Proof.
  induction l as [|a r IH]; simpl; intros b Hp Hf; [split; constructor|].
  destruct Hp as [Hp1 Hp2]. inversion Hf; subst. split; [|now apply IH].
  apply Forall_app. split; [assumption|]. now constructor.
Qed.

Lemma pwo_snoc_inv : forall l b,
  pwo (l ++ [b]) -> Forall (fun a => a_stale (snd b) = false -> P (snd a) (snd b)) l.
Proof.
  induction l as [|a r IH]; simpl; intros b Hp; [constructor|].
  destruct Hp as [Hp1 Hp2]. constructor; [|now apply IH].
  apply Forall_app in Hp1. destruct Hp1 as [_ Hb]. now inversion Hb.
Qed.

Lemma pwo_split : forall l1 a l2 b l3,
  pwo (l1 ++ a :: l2 ++ b :: l3) -> a_stale (snd b) = false -> P (snd a) (snd b).
Proof.
  induction l1 as [|x l1 IH]; simpl; intros a l2 b l3 Hp Hs; [|destruct Hp as [_ Hp]; eauto].
  destruct Hp as [Hf _]. apply Forall_app in Hf. destruct Hf as [_ Hf]. inversion Hf; auto.
Qed.

Definition chunk_ok (c : chunk) : Prop := c_crh c = CGauge \/ pwo (c_samples c).

Definition open_ok (cur : app * list sample) : Prop :=
  0 < ap_n (fst cur) /\
  exists l0 t last, snd cur = l0 ++ [(t, last)] /\
    (ap_crh (fst cur) = CGauge \/ (pwo (snd cur) /\ inv (fst cur) last)).

Definition st_ok (s : sstate) : Prop :=
  Forall chunk_ok (st_done s) /\ match st_cur s with None => True | Some cur => open_ok cur end.

Lemma ap_crh_append : forall a h, ap_crh (append_sample a h) = ap_crh a.
Proof. intros a h. unfold append_sample. destruct (a_stale h), (ap_n a =? 0); reflexivity. Qed.

Lemma ap_n_append : forall a h, 0 <= ap_n a -> 0 < ap_n (append_sample a h).
Proof.
  intros a h Hn. unfold append_sample.
  destruct (a_stale h), (ap_n a =? 0) eqn:E; simpl; try lia.
Qed.

Lemma close_ok : forall s, st_ok s -> Forall chunk_ok (close_cur s).
Proof.
  intros s [Hd Hc]. unfold close_cur. destruct (st_cur s) as [[a ss]|]; [|assumption].
  constructor; [|assumption]. destruct Hc as (_ & l0 & t & last & E & [Hg|[Hp _]]); [now left|now right].
Qed.

Lemma start_ok : forall done c t h, Forall chunk_ok done -> valid h -> st_ok (start_chunk done c t h).
Proof.
  intros done c t h Hd Hv. split; [assumption|]. split; [apply ap_n_append; simpl; lia|].
  exists [], t, h. split; [reflexivity|]. right. split; [simpl; split; constructor|now apply inv_first].
Qed.

Lemma step_ok : forall k s cut t h, st_ok s -> valid h -> st_ok (step k s (cut, t, h)).
Proof.
  intros k s cut t h Hs Hv. pose proof (close_ok s Hs) as Hcl.
  destruct Hs as [Hd Hc]. unfold step. destruct (st_cur s) as [[a ss]|] eqn:Ecur; [|now apply start_ok].
  destruct cut; [now apply start_ok|].
  destruct Hc as (Hn & l0 & tl & last & Ess & Hor). simpl in Hn, Ess, Hor.
  assert (Hn' : 0 <? ap_n a = true) by (apply Z.ltb_lt; lia).
  destruct (is_gauge h) eqn:Eg.
  - destruct (appendable_gauge a h) eqn:Eag; [|now apply start_ok].
    split; [assumption|]. split; [apply ap_n_append; lia|].
    exists ss, t, h. split; [reflexivity|]. left. simpl. rewrite ap_crh_append.
    unfold appendable_gauge in Eag. rewrite Hn' in Eag. now destruct (ap_crh a).
  - destruct (appendable a h) as [ok c] eqn:Eapp.
    destruct (ok && crh_eqb c CNotReset) eqn:Eok; [|now apply start_ok].
    apply andb_true_iff in Eok. destruct Eok as [-> Ec]. destruct c; try discriminate.
    destruct Hor as [Hg|[Hp Hi]].
    { unfold appendable in Eapp. rewrite Hn', Hg in Eapp. discriminate. }
    assert (HP : a_stale h = false -> P last h) by (intro; eapply appendable_sound; eauto).
    split; [assumption|]. split; [apply ap_n_append; lia|].
    exists ss, t, h. split; [reflexivity|]. right. split; [|eapply inv_next; eauto]. simpl.
    (* every earlier sample precedes the last one, which precedes h *)
    apply pwo_snoc; [assumption|]. rewrite Ess in *. apply Forall_app. split; [|constructor; [exact HP|constructor]].
    apply pwo_snoc_inv in Hp. eapply Forall_impl; [|exact Hp]. simpl. intros x Hx Hst.
    specialize (HP Hst). eapply P_trans; [apply Hx, HP|exact HP].
Qed.

Lemma run_ok : forall k ops, Forall (fun op => valid (snd op)) ops -> Forall chunk_ok (run k ops).
Proof.
  intros k ops Hv. apply Forall_rev, close_ok.
  assert (G : forall s, st_ok s -> st_ok (fold_left (step k) ops s)).
  { induction Hv as [|[[cut t] h] ops Hh _ IH]; simpl; intros s Hs; [assumption|]. now apply IH, step_ok. }
  apply G. split; simpl; [constructor|exact I].
Qed.

Lemma marked_first : forall c s, marked (read_at c 1 s) = false.
Proof.
  intros c s. unfold read_at, marked. destruct (a_stale (snd s)) eqn:E; simpl; [reflexivity|].
  rewrite E. now destruct c.
Qed.

Lemma marked_gauge : forall n s, marked (read_at CGauge n s) = false.
Proof.
  intros n s. unfold read_at, marked. destruct (a_stale (snd s)) eqn:E; simpl; [reflexivity|]. now rewrite E.
Qed.

Lemma marked_stale : forall c n s, a_stale (snd s) = true -> marked (read_at c n s) = false.
Proof. intros c n s E. unfold read_at, marked. rewrite E. reflexivity. Qed.

Lemma read_at_h : forall c n s, a_stale (snd s) = false -> r_h (read_at c n s) = snd s.
Proof. intros c n s E. unfold read_at. rewrite E. reflexivity. Qed.

Fixpoint lastp (p : option rs) (l : list rs) : option rs :=
  match l with [] => p | x :: r => lastp (Some x) r end.

Lemma sound_from_app : forall l1 l2 p,
  sound_from p (l1 ++ l2) = sound_from p l1 && sound_from (lastp p l1) l2.
Proof.
  induction l1 as [|x l1 IH]; simpl; intros l2 p; [reflexivity|].
  rewrite IH. rewrite andb_assoc. reflexivity.
Qed.

(* The iterator of the hypothetical repair, with nothing dropped, is the chunk iterator: facts about
   reads are proved for [read_del] and hold for [read_chunk] as the case keep = everything. *)
Lemma marked_del_skipped : forall x, marked (del_at true x) = false.
Proof.
  intro x. unfold del_at. simpl. destruct (hint_eqb (r_hint x) HNotReset) eqn:E; unfold marked; simpl.
  - rewrite andb_false_r. reflexivity.
  - rewrite E. rewrite andb_false_r. reflexivity.
Qed.

Lemma del_at_h : forall sk x, r_h (del_at sk x) = r_h x.
Proof. intros sk x. unfold del_at. destruct (sk && hint_eqb (r_hint x) HNotReset); reflexivity. Qed.

Lemma read_from_del : forall c l n, read_from c n l = read_del (fun _ => true) c n false l.
Proof. induction l as [|s r IH]; intros n; simpl; [reflexivity|]. now rewrite IH. Qed.

Lemma read_chunks_del cs : concat (map read_chunk cs) = read_source_fixed (fun _ => true) cs.
Proof. unfold read_source_fixed, read_chunk. f_equal. apply map_ext. intros c. apply read_from_del. Qed.

Lemma read_del_sound : forall keep c l n sk p,
  1 <= n ->
  (c = CGauge \/ pwo l) ->
  (sk = false -> n <> 1 ->
     exists s0 x, p = Some x /\ (a_stale (snd s0) = false -> r_h x = snd s0) /\ (c = CGauge \/ pwo (s0 :: l))) ->
  sound_from p (read_del keep c n sk l) = true.
Proof.
  induction l as [|s r IH]; intros n sk p Hn Hl Hp; [reflexivity|].
  assert (Hr : c = CGauge \/ pwo r) by (destruct Hl as [G|[_ Hl]]; auto).
  simpl. destruct (keep (fst s)); [|apply IH; [lia|exact Hr|discriminate]].
  simpl. apply andb_true_iff. split.
  - destruct sk; [now rewrite marked_del_skipped|]. change (del_at false ?x) with x.
    destruct (Z.eq_dec n 1) as [->|E]; [now rewrite marked_first|].
    destruct (Hp eq_refl E) as (s0 & x & -> & Hx & [->|[Hf _]]); [now rewrite marked_gauge|].
    destruct (a_stale (snd s)) eqn:Es; [now rewrite marked_stale|].
    inversion Hf as [|y l0 Hy Hl0]; subst. specialize (Hy Es).
    destruct (marked (read_at c n s)); [|reflexivity].
    rewrite Hx by (destruct Hy; assumption). rewrite read_at_h by exact Es. now apply P_pred_ok.
  - apply IH; [lia|exact Hr|]. intros _ _. exists s, (del_at sk (read_at c n s)).
    split; [reflexivity|]. split; [|exact Hl]. intro Es. rewrite del_at_h. now apply read_at_h.
Qed.

Lemma source_sound : forall keep cs, Forall chunk_ok cs -> forall p, sound_from p (read_source_fixed keep cs) = true.
Proof.
  intros keep. unfold read_source_fixed. induction cs as [|c cs IH]; simpl; intros Hf p; [reflexivity|].
  inversion Hf; subst. rewrite sound_from_app, read_del_sound; [|lia|assumption|intros _ E; contradiction].
  now apply IH.
Qed.

(* the unrestricted read of a series built by AppendHistogram calls satisfies the property *)
Lemma read_sound : forall k ops, Forall (fun op => valid (snd op)) ops ->
  sound_list (concat (map read_chunk (run k ops))) = true.
Proof. intros k ops Hv. rewrite read_chunks_del. now apply source_sound, run_ok. Qed.

Fixpoint incr_from (lo : Z) (l : list rs) : Prop :=
  match l with
  | [] => True
  | x :: r => lo < r_t x /\ incr_from (r_t x) r
  end.
Definition incr_tail (l : list rs) : Prop :=
  match l with [] => True | x :: r => incr_from (r_t x) r end.

(* what the merge needs from each of its inputs: strictly increasing timestamps and the property
   for every sample but the first *)
Definition it_ok (l : list rs) : Prop := sound_tail l = true /\ incr_tail l.
Definition hel_ok (e : hel) : Prop := sound_from (Some (fst e)) (snd e) = true /\ incr_from (r_t (fst e)) (snd e).

Lemma it_ok_hel : forall x r, it_ok (x :: r) -> hel_ok (x, r).
Proof. intros x r [H1 H2]. split; assumption. Qed.

Lemma hel_it_ok : forall x r, hel_ok (x, r) -> it_ok r.
Proof.
  intros x r [H1 H2]. simpl in *. destruct r as [|y r]; [split; [reflexivity|exact I]|].
  simpl in *. apply andb_true_iff in H1. destruct H1 as [_ H1]. destruct H2 as [_ H2]. split; assumption.
Qed.

Lemma pick_ok : forall k all h y h',
  pick k all h = Some (y, h') -> Forall hel_ok h -> hel_ok y /\ Forall hel_ok h'.
Proof.
  intros k all h. revert k. induction h as [|x r IH]; simpl; intros k y h' Hp Hf; [discriminate|].
  inversion Hf as [|x0 l0 Hx Hr]; subst.
  destruct (is_min x all).
  - destruct k as [|k']; [inversion Hp; subst; auto|].
    destruct (pick k' all r) as [[y0 r0]|] eqn:E; inversion Hp; subst; [|auto].
    destruct (IH _ _ _ E Hr) as [A B]. auto.
  - destruct (pick k all r) as [[y0 r0]|] eqn:E; [|discriminate].
    inversion Hp; subst. destruct (IH _ _ _ E Hr) as [A B]. auto.
Qed.

Lemma sound_from_prev_h : forall l p q, r_h p = r_h q -> sound_from (Some p) l = sound_from (Some q) l.
Proof. destruct l as [|x l]; simpl; intros p q E; [reflexivity|]. rewrite E. reflexivity. Qed.

Lemma chain_at_changed : forall x, marked (chain_at false x) = false /\ r_h (chain_at false x) = r_h x.
Proof.
  intro x. unfold chain_at, marked. simpl. destruct (hint_eqb (r_hint x) HGauge) eqn:E; simpl.
  - split; [|reflexivity]. destruct (r_hint x); try discriminate. apply andb_false_r.
  - split; [apply andb_false_r|reflexivity].
Qed.

(* emitting x after an iterator change *)
Lemma emit_changed : forall pe x out',
  sound_from (Some x) out' = true -> sound_from pe (chain_at false x :: out') = true.
Proof.
  intros pe x out' H. simpl. destruct (chain_at_changed x) as [M Hh]. rewrite M. simpl.
  rewrite (sound_from_prev_h out' _ x Hh). exact H.
Qed.

Lemma chain_go_sound : forall fuel curr h last changed ch out pe,
  Forall hel_ok h -> it_ok curr ->
  (changed = false -> exists p, pe = Some p /\ r_t p = last /\ sound_from (Some p) curr = true /\ incr_from last curr) ->
  chain_go fuel curr h last changed ch = COk out ->
  sound_from pe out = true.
Proof.
  induction fuel as [|f IH]; intros curr h last changed ch out pe Hh Hc Hun Hgo; [discriminate|].
  (* popping the heap: shared by two branches *)
  assert (Hpop : forall h0, Forall hel_ok h0 ->
            (let '(k, ch') := next_choice ch in
             match pop k h0 with
             | None => COk []
             | Some ((x, rest), h') =>
                 if r_t x =? last then chain_go f rest h' last true ch'
                 else match chain_go f rest h' (r_t x) false ch' with
                      | COk out0 => COk (chain_at (negb true) x :: out0)
                      | COutOfFuel => COutOfFuel
                      end
             end) = COk out -> sound_from pe out = true).
  { intros h0 Hh0 Hr. destruct (next_choice ch) as [k ch']. unfold pop in Hr.
    destruct (pick k h0 h0) as [[[x rest] h']|] eqn:Ep; [|inversion Hr; reflexivity].
    destruct (pick_ok _ _ _ _ _ Ep Hh0) as [Hx Hh'].
    destruct (r_t x =? last) eqn:El.
    - eapply IH; [exact Hh'|eapply hel_it_ok; exact Hx| |exact Hr]. intro; discriminate.
    - destruct (chain_go f rest h' (r_t x) false ch') as [out0|] eqn:Eg; [|discriminate].
      inversion Hr; subst. simpl negb. apply emit_changed.
      eapply IH; [exact Hh'|eapply hel_it_ok; exact Hx| |exact Eg].
      intros _. exists x. destruct Hx as [Hx1 Hx2]. simpl in *. auto. }
  simpl in Hgo. destruct curr as [|x rest]; [exact (Hpop h Hh Hgo)|].
  pose proof (hel_it_ok _ _ (it_ok_hel _ _ Hc)) as Hrest.
  destruct (Z.eqb_spec (r_t x) last) as [El|El].
  - destruct changed; [eapply IH; [exact Hh|exact Hrest| |exact Hgo]; intro; discriminate|].
    destruct (Hun eq_refl) as (p & _ & _ & _ & Hi). simpl in Hi. lia.
  - (* emission of x from the current iterator *)
    assert (Hemit : match chain_go f rest h (r_t x) false ch with
                    | COk out0 => COk (chain_at (negb changed) x :: out0)
                    | COutOfFuel => COutOfFuel
                    end = COk out -> sound_from pe out = true).
    { intro Hr. destruct (chain_go f rest h (r_t x) false ch) as [out0|] eqn:Eg; [|discriminate].
      inversion Hr; subst. pose proof (it_ok_hel _ _ Hc) as [Hx1 Hx2]. simpl in Hx1, Hx2.
      assert (Hout : sound_from (Some x) out0 = true).
      { eapply IH; [exact Hh|exact Hrest| |exact Eg]. intros _. exists x. auto. }
      destruct changed; simpl negb; [now apply emit_changed|]. change (chain_at true x) with x.
      destruct (Hun eq_refl) as (p & -> & _ & Hs & _). simpl in Hs |- *.
      apply andb_true_iff in Hs. destruct Hs as [-> _]. exact Hout. }
    destruct (min_t h) as [nt|]; [|exact (Hemit Hgo)].
    destruct (r_t x <? nt); [exact (Hemit Hgo)|].
    apply (Hpop ((x, rest) :: h)); [|exact Hgo]. constructor; [apply it_ok_hel; exact Hc|exact Hh].
Qed.

(* ChainedSeriesMerge: whatever the heap's tie-breaking, the merged list satisfies the property
   (for every sample including the first) as soon as each input is increasing and satisfies it for
   all samples but its first *)
Lemma chain_sound : forall srcs ch out,
  Forall it_ok srcs -> chain srcs ch = COk out -> sound_list out = true.
Proof.
  intros srcs ch out Hf Hc. unfold chain in Hc. destruct srcs as [|s0 others]; [inversion Hc; reflexivity|].
  inversion Hf as [|s l H0 Ho]; subst.
  eapply chain_go_sound; [|exact H0| |exact Hc]; [|intro; discriminate].
  clear Hc Hf. induction Ho as [|[|x rest] r Hs _ IHo]; simpl; [constructor|exact IHo|].
  constructor; [now apply it_ok_hel|exact IHo].
Qed.

Fixpoint zincr (lo : Z) (l : list Z) : Prop :=
  match l with [] => True | t :: r => lo < t /\ zincr t r end.

Lemma incr_from_map : forall l lo, incr_from lo l <-> zincr lo (map r_t l).
Proof. induction l as [|x r IH]; simpl; intros lo; [tauto|]. now rewrite IH. Qed.

Lemma zincr_weaken : forall l lo lo', lo' <= lo -> zincr lo l -> zincr lo' l.
Proof. destruct l as [|x r]; simpl; intros; [auto|]. intuition lia. Qed.

Lemma zincr_filter : forall f l lo, zincr lo l -> zincr lo (filter f l).
Proof.
  induction l as [|x r IH]; simpl; intros lo H; [exact I|]. destruct H as [H1 H2].
  destruct (f x); simpl; [split; auto|]. eapply zincr_weaken; [|apply IH; exact H2]. lia.
Qed.

Lemma incr_from_lb : forall l lo x, incr_from lo l -> In x l -> lo < r_t x.
Proof.
  induction l as [|y r IH]; simpl; intros lo x H Hin; [contradiction|].
  destruct H as [H1 H2]. destruct Hin as [E|Hin]; [subst; assumption|].
  specialize (IH _ _ H2 Hin). lia.
Qed.

Lemma sound_from_tail : forall l p, sound_from p l = true -> sound_tail l = true.
Proof.
  destruct l as [|x r]; simpl; intros p H; [reflexivity|]. apply andb_true_iff in H. tauto.
Qed.

Lemma it_ok_intro lo l : incr_from lo l -> sound_tail l = true -> it_ok l.
Proof. intros Hi Hs. split; [exact Hs|]. destruct l; simpl in *; tauto. Qed.

Definition wf (mint maxt : Z) (r : rs) : bool := window mint maxt (r_t r).

Lemma filter_above : forall mint maxt l lo, maxt <= lo -> incr_from lo l -> filter (wf mint maxt) l = [].
Proof.
  induction l as [|x r IH]; simpl; intros lo Hlo H; [reflexivity|]. destruct H as [H1 H2].
  unfold wf at 1, window. rewrite (proj2 (Z.leb_gt (r_t x) maxt)), andb_false_r by lia. eapply IH; [|exact H2]. lia.
Qed.

Lemma window_keep_from : forall mint maxt l p lo,
  mint <= lo + 1 -> incr_from lo l -> sound_from p l = true ->
  sound_from p (filter (wf mint maxt) l) = true.
Proof.
  induction l as [|x r IH]; simpl; intros p lo Hlo H Hs; [reflexivity|]. destruct H as [H1 H2].
  apply andb_true_iff in Hs. destruct Hs as [Hs1 Hs2].
  unfold wf at 1, window. rewrite (proj2 (Z.leb_le _ _)) by lia. simpl.
  destruct (Z.leb_spec (r_t x) maxt) as [E2|E2].
  - simpl. rewrite Hs1. simpl. eapply IH; [|exact H2|exact Hs2]. lia.
  - rewrite (filter_above mint maxt r (r_t x)); [reflexivity|lia|assumption].
Qed.

(* a window [mint, maxt] over increasing timestamps: every sample but the first keeps an admissible
   predecessor *)
Lemma window_tail_sound : forall mint maxt l p lo,
  incr_from lo l -> sound_from p l = true -> sound_tail (filter (wf mint maxt) l) = true.
Proof.
  induction l as [|x r IH]; intros p lo H Hs; [reflexivity|].
  destruct (Z.leb_spec mint (r_t x)) as [E|E].
  - eapply sound_from_tail, (window_keep_from mint maxt (x :: r) p (r_t x - 1)); [lia| |exact Hs].
    simpl in *. destruct H. split; [lia|assumption].
  - simpl. unfold wf at 1, window. rewrite (proj2 (Z.leb_gt _ _)) by lia. simpl. simpl in H, Hs. destruct H as [H1 H2].
    apply andb_true_iff in Hs. destruct Hs as [_ Hs2]. eapply IH; eauto.
Qed.

Definition samples_of (cs : list chunk) : list sample := concat (map c_samples cs).

Lemma samples_of_snoc : forall cs c, samples_of (cs ++ [c]) = samples_of cs ++ c_samples c.
Proof. intros. unfold samples_of. rewrite map_app, concat_app. simpl. rewrite app_nil_r. reflexivity. Qed.

Lemma close_start : forall done c t h,
  samples_of (rev (close_cur (start_chunk done c t h))) = samples_of (rev done) ++ [(t, h)].
Proof. intros. simpl. rewrite samples_of_snoc. reflexivity. Qed.

Lemma step_samples : forall k s cut t h,
  samples_of (rev (close_cur (step k s (cut, t, h)))) = samples_of (rev (close_cur s)) ++ [(t, h)].
Proof.
  intros k s cut t h. unfold step. destruct (st_cur s) as [[a ss]|] eqn:Ec.
  2:{ rewrite close_start. unfold close_cur. rewrite Ec. reflexivity. }
  assert (Hin : forall a', samples_of (rev (close_cur (mkSt (st_done s) (Some (a', ss ++ [(t, h)]))))) =
                      samples_of (rev (close_cur s)) ++ [(t, h)]).
  { intro a'. unfold close_cur. rewrite Ec. simpl. rewrite !samples_of_snoc. simpl. rewrite app_assoc. reflexivity. }
  destruct cut; [apply close_start|].
  destruct (is_gauge h).
  - destruct (appendable_gauge a h); [apply Hin|apply close_start].
  - destruct (appendable a h) as [ok c]. destruct (ok && crh_eqb c CNotReset); [apply Hin|apply close_start].
Qed.

Definition op_sample (op : bool * Z * ahist) : sample := (snd (fst op), snd op).

Lemma run_samples : forall k ops, samples_of (run k ops) = map op_sample ops.
Proof.
  intros k ops. unfold run. change (map op_sample ops) with (samples_of (rev (close_cur st0)) ++ map op_sample ops).
  generalize st0. induction ops as [|[[cut t] h] ops IH]; intros s; [simpl; now rewrite app_nil_r|].
  cbn [fold_left map]. now rewrite IH, step_samples, <- app_assoc.
Qed.

Lemma read_del_times : forall keep c l n sk, map r_t (read_del keep c n sk l) = filter keep (map fst l).
Proof.
  induction l as [|s r IH]; simpl; intros n sk; [reflexivity|]. destruct (keep (fst s)); simpl; [|apply IH].
  rewrite IH. f_equal. unfold del_at, read_at. destruct (a_stale (snd s)); simpl; destruct (sk && _); reflexivity.
Qed.

Lemma source_times : forall keep cs, map r_t (read_source_fixed keep cs) = filter keep (map fst (samples_of cs)).
Proof.
  intros keep. unfold read_source_fixed, samples_of. induction cs as [|c cs IH]; simpl; [reflexivity|].
  rewrite !map_app, filter_app, IH, read_del_times. reflexivity.
Qed.

Lemma map_filter_comm {A B} (f : A -> B) p l : map f (filter (fun x => p (f x)) l) = filter p (map f l).
Proof. induction l as [|x l IH]; simpl; [reflexivity|]. destruct (p (f x)); simpl; now rewrite IH. Qed.

Lemma read_source_times : forall keep cs, map r_t (read_source keep cs) = filter keep (map fst (samples_of cs)).
Proof.
  intros keep cs. unfold read_source. now rewrite map_filter_comm, read_chunks_del, source_times, (filter_all (fun _ => true)).
Qed.

Definition op_time (op : bool * Z * ahist) : Z := snd (fst op).

(* whatever is kept of a series with increasing timestamps has increasing timestamps *)
Lemma kept_incr : forall k ops keep lo l, zincr lo (map op_time ops) ->
  map r_t l = filter keep (map fst (samples_of (run k ops))) -> incr_from lo l.
Proof.
  intros k ops keep lo l Hi E. apply incr_from_map. rewrite E, run_samples, map_map. now apply zincr_filter.
Qed.

Lemma run_incr : forall k ops lo, zincr lo (map op_time ops) ->
  incr_from lo (concat (map read_chunk (run k ops))).
Proof.
  intros k ops lo H. apply (kept_incr k ops (fun _ => true) lo); [exact H|].
  rewrite read_chunks_del. apply source_times.
Qed.

(* one source, range-restricted: all samples but the first are sound, and the source is a legal
   input of the chained merge *)
Lemma source_window : forall k ops mint maxt lo,
  Forall (fun op => valid (snd op)) ops -> zincr lo (map op_time ops) ->
  it_ok (read_source (window mint maxt) (run k ops)).
Proof.
  intros k ops mint maxt lo Hv Hi. apply (it_ok_intro lo).
  - apply (kept_incr k ops (window mint maxt)); [exact Hi|apply read_source_times].
  - apply (window_tail_sound mint maxt _ None lo); [now apply run_incr|now apply read_sound].
Qed.

(* one source read through the fixed DeletedIterator, any window and any tombstones: sound for
   every sample, and a legal input of the chained merge *)
Lemma source_ok : forall k ops keep lo,
  Forall (fun op => valid (snd op)) ops -> zincr lo (map op_time ops) ->
  sound_list (read_source_fixed keep (run k ops)) = true /\ it_ok (read_source_fixed keep (run k ops)).
Proof.
  intros k ops keep lo Hv Hi.
  assert (Hs : forall p, sound_from p (read_source_fixed keep (run k ops)) = true) by now apply source_sound, run_ok.
  split; [apply Hs|]. apply (it_ok_intro lo); [|exact (sound_from_tail _ _ (Hs None))].
  apply (kept_incr k ops keep); [exact Hi|apply source_times].
Qed.

(* the first sample of a chunk read is never marked: a query that starts at or before the first
   sample of the chunk its first result comes from is sound for the first sample too *)
Lemma sound_tail_first : forall l, sound_tail l = true ->
  match l with [] => True | x :: _ => marked x = false end -> sound_list l = true.
Proof.
  destruct l as [|x r]; simpl; intros H M; [reflexivity|]. unfold sound_list. simpl. rewrite M. exact H.
Qed.

Definition src := (kind * list (bool * Z * ahist))%type.
Definition src_ok (s : src) : Prop :=
  Forall (fun op => valid (snd op)) (snd s) /\ exists lo, zincr lo (map op_time (snd s)).
Definition src_read (mint maxt : Z) (s : src) : list rs :=
  read_source (window mint maxt) (run (fst s) (snd s)).

(* the same through the hypothetical repair of the DeletedIterator (not the code) *)
Definition src_read_fixed (keep : Z -> bool) (s : src) : list rs := read_source_fixed keep (run (fst s) (snd s)).

Lemma src_window_ok mint maxt s : src_ok s -> it_ok (src_read mint maxt s).
Proof. destruct s as [k ops]. intros [Hv [lo Hi]]. now apply (source_window k ops mint maxt lo). Qed.

(* Any source, any valid append history with increasing timestamps, read through the repaired
   DeletedIterator with any keep predicate (query window, tombstones): sound for EVERY sample. *)
Lemma src_fixed_ok keep s : src_ok s ->
  sound_list (src_read_fixed keep s) = true /\ it_ok (src_read_fixed keep s).
Proof. destruct s as [k ops]. intros [Hv [lo Hi]]. now apply (source_ok k ops keep lo). Qed.

Definition zth0 : Z := 4562254508917369340.   (* 0.001 *)
Definition hc (c : Z) : ahist := mkA HUnknown false 0 zth0 [] c 0 [(0, c)] [].
Definition opc (t c : Z) : bool * Z * ahist := (false, t, hc c).

Lemma hc_valid : forall c, 0 <= c -> valid (hc c).
Proof.
  intros c Hc. unfold valid, hc; simpl. repeat split.
  - exists (-1). simpl. split; [lia|exact I].
  - exists 0. exact I.
  - constructor; [simpl; lia|constructor].
  - constructor.
Qed.

Definition ops_grow : list (bool * Z * ahist) := [opc 1000 10; opc 2000 20; opc 3000 30; opc 4000 40; opc 5000 50].
Definition ops_reset : list (bool * Z * ahist) := [opc 1000 10; opc 2000 20; opc 3000 5; opc 4000 6; opc 5000 7].

Lemma ops_grow_ok : src_ok (KInt, ops_grow).
Proof.
  split; simpl.
  - unfold ops_grow, opc. repeat (constructor; [apply hc_valid; lia|]). constructor.
  - exists 0. simpl. unfold op_time. simpl. lia.
Qed.

Lemma ops_reset_ok : src_ok (KInt, ops_reset).
Proof.
  split; simpl.
  - unfold ops_reset, opc. repeat (constructor; [apply hc_valid; lia|]). constructor.
  - exists 0. simpl. unfold op_time. simpl. lia.
Qed.

(* a tombstone over the first sample of the second chunk of ops_reset (the reset): with it the sample
   after the deleted chunk start is marked although the counter went down *)
Definition keep_del (t : Z) : bool := negb ((2500 <=? t) && (t <=? 3500)).

Definition two_reads_fixed : list (list rs) :=
  [read_source_fixed (window 1000 3000) (run KInt ops_grow); read_source_fixed (window 3000 5000) (run KInt ops_grow)].
Definition two_reads : list (list rs) :=
  [read_source (window 1000 3000) (run KInt ops_grow); read_source (window 3000 5000) (run KInt ops_grow)].
