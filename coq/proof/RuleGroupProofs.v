(* proof/RuleGroupProofs.v — lemmas and proofs about model/RuleGroup.v (property C45). *)
From Coq Require Import List ZArith Bool Lia.
From Verif Require Import lib.SortedList model.RuleGroup.
Import ListNotations.
Open Scope Z_scope.

Lemma label_eqb_eq a b : label_eqb a b = true <-> a = b.
Proof.
  destruct a as [a1 a2], b as [b1 b2]; unfold label_eqb; cbn.
  rewrite andb_true_iff, !Z.eqb_eq. split; [intros [-> ->]; reflexivity | intros [= -> ->]; auto].
Qed.

Lemma lset_eqb_eq a b : lset_eqb a b = true <-> a = b.
Proof.
  revert b; induction a as [|x a IH]; intros [|y b]; cbn; try (split; congruence).
  rewrite andb_true_iff, label_eqb_eq, IH. split; [intros [-> ->]; reflexivity | intros [= -> ->]; auto].
Qed.

Lemma lset_eqb_spec a b : reflect (a = b) (lset_eqb a b).
Proof. apply iff_reflect. symmetry. apply lset_eqb_eq. Qed.

Lemma lset_eqb_refl a : lset_eqb a a = true.
Proof. now apply lset_eqb_eq. Qed.

Lemma val_eqb_eq a b : val_eqb a b = true <-> a = b.
Proof.
  destruct a, b; cbn; try (split; congruence).
  rewrite Z.eqb_eq. split; congruence.
Qed.

Lemma mem_In l ls : mem l ls = true <-> In l ls.
Proof. apply (existsb_eqb_In lset_eqb lset_eqb_eq). Qed.

Lemma rkey_eqb_eq a b : rkey_eqb a b = true <-> a = b.
Proof.
  destruct a as [a1 a2], b as [b1 b2]; unfold rkey_eqb; cbn.
  rewrite andb_true_iff, Z.eqb_eq, lset_eqb_eq. split; [intros [-> ->]; reflexivity | intros [= -> ->]; auto].
Qed.

Lemma rkey_eqb_spec a b : reflect (a = b) (rkey_eqb a b).
Proof. apply iff_reflect. symmetry. apply rkey_eqb_eq. Qed.

Lemma rkey_eqb_refl a : rkey_eqb a a = true.
Proof. now apply rkey_eqb_eq. Qed.

Lemma samples_put_same st l t v : samples (st_put st l t v) l = push (samples st l) t v.
Proof.
  induction st as [|[l' ss] st IH]; cbn.
  - now rewrite lset_eqb_refl.
  - destruct (lset_eqb l l') eqn:E; cbn; rewrite E; auto.
Qed.

Lemma samples_put_other st l t v l' : l' <> l -> samples (st_put st l t v) l' = samples st l'.
Proof.
  intros Hne. induction st as [|[l0 ss] st IH]; cbn.
  - now destruct (lset_eqb_spec l' l).
  - destruct (lset_eqb_spec l l0) as [<-|]; cbn; [now destruct (lset_eqb_spec l' l) | now rewrite IH].
Qed.

Lemma admission_ok_push ss t v : admission ss t v = AOk -> exists rest, push ss t v = (t, v) :: rest.
Proof.
  destruct ss as [|[t0 v0] ss]; cbn; intros H.
  - eexists; reflexivity.
  - destruct (t <? t0) eqn:E1; [discriminate|].
    destruct (t =? t0) eqn:E2.
    + destruct (val_eqb v v0) eqn:E3; [|discriminate].
      apply Z.eqb_eq in E2. apply val_eqb_eq in E3. subst. eexists; reflexivity.
    + eexists; reflexivity.
Qed.

Lemma push_incl ss t v s : In s ss -> In s (push ss t v).
Proof.
  destruct ss as [|[t0 v0] ss]; cbn; [tauto|].
  intros H. destruct (t =? t0); cbn; auto.
Qed.

Lemma st_append_spec st l t v st' r :
  st_append st l t v = (st', r) ->
  r = admission (samples st l) t v /\
  (r = AOk -> samples st' l = push (samples st l) t v /\ forall l', l' <> l -> samples st' l' = samples st l') /\
  (r <> AOk -> st' = st).
Proof.
  unfold st_append. destruct (admission (samples st l) t v) eqn:E; intros [= <- <-];
    (split; [reflexivity|]); split; try congruence; intros _.
  split; [apply samples_put_same | intros; now apply samples_put_other].
Qed.

Definition keeps (st st' : store) : Prop := forall s l, In s (samples st l) -> In s (samples st' l).

Definition newest (st : store) (l : lset) (qt z : Z) : Prop :=
  exists rest, samples st l = (qt, VNum z) :: rest.

(* st' comes from st by appends at qt: nothing is lost, and what was newest at qt stays newest
   (appends at the same timestamp never displace it) *)
Definition extends (qt : Z) (st st' : store) : Prop :=
  keeps st st' /\ forall l z, newest st l qt z -> newest st' l qt z.

Lemma keeps_refl st : keeps st st.
Proof. intros s l H. exact H. Qed.

Lemma keeps_trans a b c : keeps a b -> keeps b c -> keeps a c.
Proof. intros K1 K2 s l H. apply K2, K1, H. Qed.

Lemma extends_refl qt st : extends qt st st.
Proof. split; [apply keeps_refl | auto]. Qed.

Lemma extends_trans qt a b c : extends qt a b -> extends qt b c -> extends qt a c.
Proof. intros [K1 N1] [K2 N2]. split; [exact (keeps_trans _ _ _ K1 K2) | auto]. Qed.

Lemma st_append_keeps st l t v : keeps st (fst (st_append st l t v)).
Proof.
  intros s l' H. destruct (st_append st l t v) as [st' r] eqn:E. cbn.
  apply st_append_spec in E as (_ & Hok & Hrej).
  destruct r; try (now rewrite Hrej). destruct (Hok eq_refl) as [Hs Ho].
  destruct (lset_eqb_spec l' l) as [->|Hne]; [rewrite Hs; now apply push_incl | now rewrite Ho].
Qed.

Lemma st_append_extends st l qt v : extends qt st (fst (st_append st l qt v)).
Proof.
  split; [apply st_append_keeps|]. intros l0 z [rest Hn].
  destruct (st_append st l qt v) as [st' r] eqn:E. cbn. apply st_append_spec in E as (_ & Hok & Hrej).
  destruct r; try (rewrite Hrej by discriminate; now exists rest). destruct (Hok eq_refl) as [Hs Ho].
  unfold newest. destruct (lset_eqb_spec l0 l) as [->|Hne]; [|rewrite Ho; eauto].
  rewrite Hs, Hn. cbn. rewrite Z.eqb_refl. eauto.
Qed.

Lemma st_append_ok st l t v st' : st_append st l t v = (st', AOk) ->
  In (t, v) (samples st' l) /\ forall z, v = VNum z -> newest st' l t z.
Proof.
  intros E. apply st_append_spec in E as (Ha & Hok & _). destruct (Hok eq_refl) as [Hs _].
  destruct (admission_ok_push (samples st l) t v) as [rest Hr]; [congruence|].
  unfold newest. rewrite Hs, Hr. split; [now left | intros z ->; eauto].
Qed.

Lemma sel_sample_newest st l qt z : newest st l qt z -> sel_sample (samples st l) qt = Some z.
Proof.
  intros [rest Hn]. rewrite Hn. unfold sel_sample. cbn. rewrite Z.leb_refl.
  replace (qt - lookback <? qt) with true; auto.
  symmetry. apply Z.ltb_lt. unfold lookback. lia.
Qed.

Definition rec_lbl (a : arec) : lset := fst (fst (fst a)).
Definition rec_ts (a : arec) : Z := snd (fst (fst a)).
Definition rec_val (a : arec) : val := snd (fst a).
Definition rec_res (a : arec) : ares := snd a.

Definition triple (a : arec) := (rec_lbl a, rec_ts a, rec_val a).
Definition written (log : list arec) : list lset := map rec_lbl (filter (fun a => ares_ok (rec_res a)) log).
Definition is_marker (a : arec) : bool := match rec_val a with VStale => true | _ => false end.

(* both loops of an appender, over the result vector and over the vanished series, are this
   fold of Append calls at the evaluation's timestamp *)
Fixpoint append_all (st : store) (lvs : list (lset * val)) (qt : Z) : store * list arec :=
  match lvs with
  | [] => (st, [])
  | (l, v) :: rest =>
      let (st1, r) := st_append st l qt v in
      let (st2, log) := append_all st1 rest qt in
      (st2, (l, qt, v, r) :: log)
  end.

Lemma append_vec_all st vec qt :
  append_vec st vec qt =
  let (st', log) := append_all st (map (fun lz => (fst lz, VNum (snd lz))) vec) qt in (st', written log, log).
Proof.
  revert st. induction vec as [|[l z] vec IH]; intros st; cbn; [reflexivity|].
  destruct (st_append st l qt (VNum z)) as [st1 r]. rewrite IH.
  destruct (append_all st1 _ qt) as [st2 log]. unfold written. cbn. now destruct (ares_ok r).
Qed.

Lemma append_stale_all st ls qt : append_stale st ls qt = append_all st (map (fun l => (l, VStale)) ls) qt.
Proof.
  revert st. induction ls as [|l ls IH]; intros st; cbn; [reflexivity|].
  destruct (st_append st l qt VStale) as [st1 r]. now rewrite IH.
Qed.

Lemma append_all_log st lvs qt :
  map triple (snd (append_all st lvs qt)) = map (fun lv => (fst lv, qt, snd lv)) lvs.
Proof.
  revert st. induction lvs as [|[l v] lvs IH]; intros st; cbn; [reflexivity|].
  destruct (st_append st l qt v) as [st1 r]. specialize (IH st1).
  destruct (append_all st1 lvs qt). cbn in *. now f_equal.
Qed.

Lemma append_all_extends st lvs qt : extends qt st (fst (append_all st lvs qt)).
Proof.
  revert st. induction lvs as [|[l v] lvs IH]; intros st; cbn; [apply extends_refl|].
  pose proof (st_append_extends st l qt v) as K. destruct (st_append st l qt v) as [st1 r].
  specialize (IH st1). destruct (append_all st1 lvs qt). exact (extends_trans _ _ _ _ K IH).
Qed.

Lemma append_all_accepted st lvs qt a :
  let '(st', log) := append_all st lvs qt in
  In a log -> rec_res a = AOk ->
  In (rec_ts a, rec_val a) (samples st' (rec_lbl a)) /\
  forall z, rec_val a = VNum z -> newest st' (rec_lbl a) qt z.
Proof.
  revert st. induction lvs as [|[l v] lvs IH]; intros st; cbn; [intros []|].
  destruct (st_append st l qt v) as [st1 r] eqn:E. specialize (IH st1).
  pose proof (append_all_extends st1 lvs qt) as [K N]. destruct (append_all st1 lvs qt) as [st2 log].
  cbn in IH, K, N |- *. intros [<-|Ha] Hr; [|auto]. cbn in Hr |- *. subst r.
  destruct (st_append_ok _ _ _ _ _ E) as [H1 H2]. split; [now apply K | intros z Hz; apply N; auto].
Qed.

Lemma triple_stale log ls qt a :
  map triple log = map (fun l => (l, qt, VStale)) ls -> In a log -> rec_val a = VStale.
Proof.
  intros L Ha. apply (in_map triple) in Ha. rewrite L in Ha. apply in_map_iff in Ha as (l0 & E & _).
  unfold triple in E. now injection E as _ _ <-.
Qed.

Lemma vanished_spec prev ok l : In l (vanished prev ok) <-> In l prev /\ ~ In l ok.
Proof.
  unfold vanished. rewrite filter_In, negb_true_iff. split; intros [H1 H2]; split; auto.
  - intros Hin. apply mem_In in Hin. congruence.
  - destruct (mem l ok) eqn:E; auto. apply mem_In in E. contradiction.
Qed.

Lemma lget_lput_same l k v : lget (lput l k v) k = Some v.
Proof.
  induction l as [|[k' v'] l IH]; cbn.
  - now rewrite Z.eqb_refl.
  - destruct (k <? k') eqn:E1; cbn; [now rewrite Z.eqb_refl|].
    destruct (k =? k') eqn:E2; cbn; [now rewrite Z.eqb_refl | now rewrite E2].
Qed.

Lemma lget_lput_other l k v k' : k' <> k -> lget (lput l k v) k' = lget l k'.
Proof.
  intros Hne. apply Z.eqb_neq in Hne. induction l as [|[k0 v0] l IH]; cbn.
  - now rewrite Hne.
  - destruct (k <? k0) eqn:E1; cbn; [now rewrite Hne|].
    destruct (Z.eqb_spec k k0) as [<-|]; cbn; [now rewrite Hne | now rewrite IH].
Qed.

Lemma fold_lput_other kvs l k :
  ~ In k (map fst kvs) ->
  lget (fold_left (fun acc kv => lput acc (fst kv) (snd kv)) kvs l) k = lget l k.
Proof.
  revert l. induction kvs as [|[k0 v0] kvs IH]; intros l Hn; cbn; auto.
  rewrite IH by (intros H; apply Hn; right; exact H).
  apply lget_lput_other. intros ->. apply Hn. left; reflexivity.
Qed.

Lemma fold_lput_in kvs l k v :
  NoDup (map fst kvs) -> In (k, v) kvs ->
  lget (fold_left (fun acc kv => lput acc (fst kv) (snd kv)) kvs l) k = Some v.
Proof.
  revert l. induction kvs as [|[k0 v0] kvs IH]; intros l Hnd Hin; cbn; [destruct Hin|].
  inversion_clear Hnd as [|? ? Hn Hnd']. destruct Hin as [[= -> ->] | Hin]; [|now apply IH].
  rewrite fold_lput_other by exact Hn. apply lget_lput_same.
Qed.

Lemma relabel_name r l : ~ In name_label (map fst (r_labels r)) -> lget (relabel r l) name_label = Some (r_name r).
Proof. intros H. unfold relabel. rewrite fold_lput_other by exact H. apply lget_lput_same. Qed.

Lemma relabel_label r l k v : NoDup (map fst (r_labels r)) -> In (k, v) (r_labels r) -> lget (relabel r l) k = Some v.
Proof. intros Hnd Hin. unfold relabel. apply fold_lput_in; auto. Qed.

(* labels the rule does not set are those of the expression's sample *)
Lemma relabel_other r l k : k <> name_label -> ~ In k (map fst (r_labels r)) -> lget (relabel r l) k = lget l k.
Proof. intros H1 H2. unfold relabel. rewrite fold_lput_other by exact H2. apply lget_lput_other; auto. Qed.

Lemma rm_get_push_same m k p : rm_get (rm_push m k p) k <> [].
Proof.
  induction m as [|[k' q] m IH]; cbn.
  - rewrite rkey_eqb_refl. discriminate.
  - destruct (rkey_eqb k k') eqn:E; cbn; rewrite E; auto.
    destruct q; discriminate.
Qed.

Lemma rm_get_push_mono m k p k' : rm_get m k' <> [] -> rm_get (rm_push m k p) k' <> [].
Proof.
  induction m as [|[k0 q] m IH]; cbn; [congruence|].
  destruct (rkey_eqb k k0) eqn:E; cbn.
  - destruct (rkey_eqb k' k0); auto. destruct q; cbn; congruence.
  - destruct (rkey_eqb k' k0); auto.
Qed.

Lemma build_map_has from m0 r p :
  In (r, p) from \/ rm_get m0 (rkey_of r) <> [] ->
  rm_get (fold_left (fun m rp => rm_push m (rkey_of (fst rp)) (snd rp)) from m0) (rkey_of r) <> [].
Proof.
  revert m0. induction from as [|[r0 p0] from IH]; intros m0 [H | H]; cbn.
  - destruct H.
  - exact H.
  - destruct H as [[= -> ->] | H]; apply IH; [right; apply rm_get_push_same | now left].
  - apply IH. right. now apply rm_get_push_mono.
Qed.

Lemma rm_get_pop_other m k k' : k' <> k -> rm_get (rm_pop m k) k' = rm_get m k'.
Proof.
  intros Hne. induction m as [|[k0 q] m IH]; cbn; auto.
  destruct (rkey_eqb_spec k k0) as [<-|]; cbn; [now destruct (rkey_eqb_spec k' k) | now rewrite IH].
Qed.

Lemma rm_get_push_other m k p k' : k' <> k -> rm_get (rm_push m k p) k' = rm_get m k'.
Proof.
  intros Hne. induction m as [|[k0 q] m IH]; cbn.
  - now destruct (rkey_eqb_spec k' k).
  - destruct (rkey_eqb_spec k k0) as [<-|]; cbn; [now destruct (rkey_eqb_spec k' k) | now rewrite IH].
Qed.

Lemma match_rules_other m rules k :
  ~ In k (map rkey_of rules) -> rm_get (snd (match_rules m rules)) k = rm_get m k.
Proof.
  revert m. induction rules as [|r rs IH]; intros m Hn; cbn; auto.
  assert (Hk : k <> rkey_of r) by (intros ->; apply Hn; left; reflexivity).
  assert (Hn' : ~ In k (map rkey_of rs)) by (intros H; apply Hn; right; exact H).
  destruct (rm_get m (rkey_of r)) as [|p q].
  - specialize (IH m Hn'). destruct (match_rules m rs) as [out m']. exact IH.
  - specialize (IH (rm_pop m (rkey_of r)) Hn'). destruct (match_rules (rm_pop m (rkey_of r)) rs) as [out m'].
    cbn in *. rewrite IH. now apply rm_get_pop_other.
Qed.

Lemma match_rules_rules m rules : map fst (fst (match_rules m rules)) = rules.
Proof.
  revert m. induction rules as [|r rs IH]; intros m; cbn; auto.
  destruct (rm_get m (rkey_of r)) as [|p q].
  - specialize (IH m). destruct (match_rules m rs); cbn in *. now f_equal.
  - specialize (IH (rm_pop m (rkey_of r))). destruct (match_rules (rm_pop m (rkey_of r)) rs); cbn in *. now f_equal.
Qed.

(* series of an old rule whose (name, labels) no longer occurs go to staleSeries; so do the
   series that were already waiting there *)
Lemma copy_state_removed newrules from r p l :
  In (r, p) (g_rules from) -> ~ In (rkey_of r) (map rkey_of newrules) -> In l p ->
  In l (snd (copy_state newrules from)).
Proof.
  intros Hin Hnk Hl. unfold copy_state.
  pose proof (match_rules_other (build_map (g_rules from)) newrules (rkey_of r) Hnk) as K.
  destruct (match_rules (build_map (g_rules from)) newrules) as [matched m']. cbn in *.
  apply in_or_app. right. apply in_flat_map. exists (r, p). split; auto. cbn.
  destruct (rm_get m' (rkey_of r)) eqn:E; auto.
  exfalso. symmetry in K. exact (build_map_has (g_rules from) [] r p (or_introl Hin) K).
Qed.

Lemma copy_state_keeps_stale newrules from l :
  In l (g_stale from) -> In l (snd (copy_state newrules from)).
Proof.
  intros H. unfold copy_state.
  destruct (match_rules (build_map (g_rules from)) newrules) as [matched m']. cbn.
  apply in_or_app. left; exact H.
Qed.

Lemma copy_state_rules newrules from : map fst (fst (copy_state newrules from)) = newrules.
Proof.
  unfold copy_state.
  pose proof (match_rules_rules (build_map (g_rules from)) newrules) as K.
  destruct (match_rules (build_map (g_rules from)) newrules) as [matched m']. exact K.
Qed.

Lemma find_set_same gs gid g : find_group (set_group gs gid g) gid = Some g.
Proof.
  induction gs as [|[i g0] gs IH]; cbn.
  - now rewrite Z.eqb_refl.
  - destruct (i =? gid) eqn:E; cbn; [now rewrite Z.eqb_refl | now rewrite E].
Qed.

Lemma find_del_same gs gid : find_group (del_group gs gid) gid = None.
Proof.
  unfold del_group. induction gs as [|[i g0] gs IH]; cbn; auto.
  destruct (i =? gid) eqn:E; cbn; auto. now rewrite E.
Qed.

Lemma load_group_offset old rules off lim : g_offset (load_group old rules off lim) = off.
Proof. unfold load_group. destruct old as [from|]; [destruct (copy_state rules from)|]; reflexivity. Qed.

Section WithQuery.
Variable qf : store -> expr -> Z -> vector.

Lemma eval_rule_failed st r prev qt limit :
  rule_eval qf st r qt limit = None -> eval_rule qf st r prev qt limit = (st, prev, None).
Proof. unfold eval_rule. intros ->. reflexivity. Qed.

Lemma eval_rule_ok st r prev qt limit vec :
  rule_eval qf st r qt limit = Some vec ->
  exists st' log1 log2,
    eval_rule qf st r prev qt limit = (st', written log1, Some (log1 ++ log2)) /\
    map triple log1 = map (fun lz => (fst lz, qt, VNum (snd lz))) vec /\
    map triple log2 = map (fun l => (l, qt, VStale)) (vanished prev (written log1)) /\
    (forall a, In a (log1 ++ log2) -> rec_res a = AOk -> In (rec_ts a, rec_val a) (samples st' (rec_lbl a))) /\
    (forall a z, In a log1 -> rec_res a = AOk -> rec_val a = VNum z -> newest st' (rec_lbl a) qt z) /\
    extends qt st st'.
Proof.
  intros Hr. unfold eval_rule. rewrite Hr, append_vec_all.
  set (lvs := map (fun lz => (fst lz, VNum (snd lz))) vec).
  pose proof (append_all_log st lvs qt) as L1. pose proof (append_all_extends st lvs qt) as X1.
  pose proof (fun a => append_all_accepted st lvs qt a) as A1.
  destruct (append_all st lvs qt) as [st1 log1]. cbn [fst snd] in *. rewrite append_stale_all.
  set (ls := map (fun l => (l, VStale)) (vanished prev (written log1))).
  pose proof (append_all_log st1 ls qt) as L2. pose proof (append_all_extends st1 ls qt) as X2.
  pose proof (fun a => append_all_accepted st1 ls qt a) as A2.
  destruct (append_all st1 ls qt) as [st2 log2]. cbn [fst snd] in *.
  unfold lvs in L1. unfold ls in L2. rewrite map_map in L1, L2.
  exists st2, log1, log2. split; [reflexivity|]. split; [exact L1|]. split; [exact L2|].
  split; [|split; [|exact (extends_trans _ _ _ _ X1 X2)]]; destruct X2 as [K2 N2].
  - intros a Ha Hres. apply in_app_or in Ha as [Ha|Ha]; [apply K2; now apply (A1 a) | now apply (A2 a)].
  - intros a z Ha Hres Hv. apply N2. now apply (A1 a Ha Hres).
Qed.

Lemma eval_rule_extends st r prev qt limit : extends qt st (fst (fst (eval_rule qf st r prev qt limit))).
Proof.
  destruct (rule_eval qf st r qt limit) as [vec|] eqn:E.
  - destruct (eval_rule_ok st r prev qt limit vec E) as (st' & l1 & l2 & -> & _ & _ & _ & _ & X). exact X.
  - rewrite (eval_rule_failed st r prev qt limit E). apply extends_refl.
Qed.

Lemma rule_eval_vec st r qt limit vec :
  rule_eval qf st r qt limit = Some vec ->
  vec = map (fun lz => (relabel r (fst lz), snd lz)) (qf st (r_expr r) qt).
Proof.
  unfold rule_eval. destruct (has_dup _); [discriminate|]. destruct (_ && _); [discriminate|].
  now intros [= <-].
Qed.

Lemma eval_rules_app gid st qt limit i pre post :
  eval_rules qf gid st qt limit i (pre ++ post) =
  let '(st1, pre', ev1) := eval_rules qf gid st qt limit i pre in
  let '(st2, post', ev2) := eval_rules qf gid st1 qt limit (i + Z.of_nat (length pre)) post in
  (st2, pre' ++ post', ev1 ++ ev2).
Proof.
  revert st i. induction pre as [|[r prev] pre IH]; intros st i.
  - cbn [app eval_rules length Z.of_nat]. rewrite Z.add_0_r.
    destruct (eval_rules qf gid st qt limit i post) as [[a b] c]. reflexivity.
  - cbn [app eval_rules].
    destruct (eval_rule qf st r prev qt limit) as [[st1 prev1] apps].
    rewrite IH.
    destruct (eval_rules qf gid st1 qt limit (i + 1) pre) as [[st2 pre'] ev1].
    replace (i + 1 + Z.of_nat (length pre)) with (i + Z.of_nat (length ((r, prev) :: pre)))
      by (cbn [length]; lia).
    destruct (eval_rules qf gid st2 qt limit _ post) as [[st3 post'] ev2]. reflexivity.
Qed.

(* the rules of one evaluation only extend the store, and what the earlier rules wrote
   successfully is the newest sample of its series in the store the next rule is evaluated against *)
Lemma eval_rules_visible gid st qt limit i rules :
  let '(st', _, evs) := eval_rules qf gid st qt limit i rules in
  extends qt st st' /\
  (forall j log a z, In (EvRule gid j (Some log)) evs -> In a log -> rec_res a = AOk -> rec_val a = VNum z ->
                     newest st' (rec_lbl a) qt z).
Proof.
  revert st i. induction rules as [|[r prev] rules IH]; intros st i; cbn [eval_rules].
  - split; [apply extends_refl | intros j log a z []].
  - pose proof (eval_rule_extends st r prev qt limit) as X.
    destruct (eval_rule qf st r prev qt limit) as [[st1 prev1] apps] eqn:E1. cbn in X.
    specialize (IH st1 (i + 1)).
    destruct (eval_rules qf gid st1 qt limit (i + 1) rules) as [[st2 rs2] evs].
    destruct IH as [X2 IH2]. split; [exact (extends_trans _ _ _ _ X X2)|].
    intros j log a z [[= <- ->]|Hev] Ha Hres Hv; [|eapply IH2; eauto].
    destruct (rule_eval qf st r qt limit) as [vec|] eqn:Er.
    + destruct (eval_rule_ok st r prev qt limit vec Er) as (st' & l1 & l2 & He & _ & L2 & _ & Hn & _).
      rewrite He in E1. injection E1 as <- <- <-. apply X2.
      apply in_app_or in Ha as [Ha|Ha]; [eapply Hn; eauto|].
      (* a marker is not a number *)
      rewrite (triple_stale _ _ _ _ L2 Ha) in Hv. discriminate Hv.
    + rewrite (eval_rule_failed st r prev qt limit Er) in E1. discriminate E1.
Qed.

Lemma cleanup_nil gid st qt : cleanup gid st [] qt = (st, []).
Proof. reflexivity. Qed.

Lemma cleanup_cons gid st l ls qt :
  exists st' log, cleanup gid st (l :: ls) qt = (st', [EvCleanup gid log]) /\
                  map triple log = map (fun l => (l, qt, VStale)) (l :: ls) /\
                  (forall a, In a log -> rec_res a = AOk -> In (rec_ts a, rec_val a) (samples st' (rec_lbl a))).
Proof.
  unfold cleanup. rewrite append_stale_all.
  pose proof (append_all_log st (map (fun l => (l, VStale)) (l :: ls)) qt) as L.
  pose proof (fun a => append_all_accepted st (map (fun l => (l, VStale)) (l :: ls)) qt a) as A.
  destruct (append_all st _ qt) as [st' log]. cbn [fst snd] in *. rewrite map_map in L.
  exists st', log. split; [reflexivity|]. split; [exact L|]. intros a Ha Hr. now apply (A a).
Qed.

Lemma cleanup_extends gid st stale qt : extends qt st (fst (cleanup gid st stale qt)).
Proof.
  unfold cleanup. destruct stale as [|l0 ls]; [apply extends_refl|]. rewrite append_stale_all.
  pose proof (append_all_extends st (map (fun l => (l, VStale)) (l0 :: ls)) qt) as X.
  now destruct (append_all st _ qt).
Qed.

Lemma group_eval_stale_reset gid st g ts : g_stale (snd (fst (group_eval qf gid st g ts))) = [].
Proof.
  unfold group_eval.
  destruct (eval_rules qf gid st (ts - g_offset g) (g_limit g) 0 (g_rules g)) as [[st1 rs] evs].
  destruct (cleanup gid st1 (g_stale g) (ts - g_offset g)) as [st2 evc]. reflexivity.
Qed.

Lemma eval_rules_no_cleanup gid st qt limit i rules g' log :
  ~ In (EvCleanup g' log) (snd (eval_rules qf gid st qt limit i rules)).
Proof.
  revert st i. induction rules as [|[r prev] rules IH]; intros st i; cbn [eval_rules]; [intros []|].
  destruct (eval_rule qf st r prev qt limit) as [[st1 prev1] apps].
  specialize (IH st1 (i + 1)).
  destruct (eval_rules qf gid st1 qt limit (i + 1) rules) as [[st2 rs2] evs]. cbn in *.
  intros [H | H]; [discriminate | auto].
Qed.

(* the series waiting in staleSeries are all marked at the evaluation's timestamp by one
   cleanup appender, whose accepted markers are in the store *)
Lemma group_eval_marks gid st g ts l :
  In l (g_stale g) ->
  let '(st', g', evs) := group_eval qf gid st g ts in
  exists log, In (EvCleanup gid log) evs /\
              map triple log = map (fun l => (l, ts - g_offset g, VStale)) (g_stale g) /\
              (forall a, In a log -> rec_res a = AOk -> In (rec_ts a, rec_val a) (samples st' (rec_lbl a))) /\
              g_stale g' = [].
Proof.
  intros Hl. unfold group_eval.
  destruct (eval_rules qf gid st (ts - g_offset g) (g_limit g) 0 (g_rules g)) as [[st1 rs] evs].
  destruct (g_stale g) as [|l0 ls] eqn:Es; [destruct Hl|].
  destruct (cleanup_cons gid st1 l0 ls (ts - g_offset g)) as (st' & log & Hc & Hm & Hs).
  rewrite Hc. exists log. split; [apply in_or_app; right; left; reflexivity|]. auto.
Qed.

(* ... and only once: with nothing waiting, an evaluation opens no cleanup appender *)
Lemma group_eval_no_cleanup gid st g ts g' log :
  g_stale g = [] -> ~ In (EvCleanup g' log) (snd (group_eval qf gid st g ts)).
Proof.
  intros Hs. unfold group_eval. rewrite Hs.
  pose proof (eval_rules_no_cleanup gid st (ts - g_offset g) (g_limit g) 0 (g_rules g) g' log) as K.
  destruct (eval_rules qf gid st (ts - g_offset g) (g_limit g) 0 (g_rules g)) as [[st1 rs] evs].
  cbn in *. now rewrite app_nil_r.
Qed.

Lemma results_named st r qt limit vec l z :
  rule_eval qf st r qt limit = Some vec -> In (l, z) vec ->
  ~ In name_label (map fst (r_labels r)) -> NoDup (map fst (r_labels r)) ->
  lget l name_label = Some (r_name r) /\ forall k v, In (k, v) (r_labels r) -> lget l k = Some v.
Proof.
  intros H Hin Hn Hnd. apply rule_eval_vec in H. subst vec.
  apply in_map_iff in Hin as ([l0 z0] & [= <- <-] & _). cbn.
  split; [now apply relabel_name | intros; now apply relabel_label].
Qed.

Lemma order_dependency gid st qt limit pre r prev post :
  exists st1 pre' ev1,
    eval_rules qf gid st qt limit 0 pre = (st1, pre', ev1) /\
    (exists rest, snd (eval_rules qf gid st qt limit 0 (pre ++ (r, prev) :: post)) =
                  ev1 ++ EvRule gid (Z.of_nat (length pre)) (snd (eval_rule qf st1 r prev qt limit)) :: rest) /\
    (forall j log a z, In (EvRule gid j (Some log)) ev1 -> In a log -> rec_res a = AOk -> rec_val a = VNum z ->
        sel_sample (samples st1 (rec_lbl a)) qt = Some z).
Proof.
  pose proof (eval_rules_visible gid st qt limit 0 pre) as V.
  rewrite eval_rules_app.
  destruct (eval_rules qf gid st qt limit 0 pre) as [[st1 pre'] ev1].
  exists st1, pre', ev1. split; [reflexivity|]. destruct V as [_ V2]. split.
  - cbn [eval_rules]. rewrite Z.add_0_l.
    destruct (eval_rule qf st1 r prev qt limit) as [[st2 prev2] apps].
    destruct (eval_rules qf gid st2 qt limit (Z.of_nat (length pre) + 1) post) as [[st3 post'] ev2].
    cbn. eexists. reflexivity.
  - intros. apply sel_sample_newest. eapply V2; eauto.
Qed.

Lemma removed_rule_marked s gid from rules off lim r p l ts :
  find_group (s_groups s) gid = Some from ->
  In (r, p) (g_rules from) -> ~ In (rkey_of r) (map rkey_of rules) -> In l p ->
  let s1 := fst (step qf s (OpLoad gid rules off lim)) in
  let s2 := fst (step qf s1 (OpEval gid ts)) in
  (exists log, In (EvCleanup gid log) (snd (step qf s1 (OpEval gid ts))) /\
               In (l, ts - off, VStale) (map triple log) /\
               (forall a, In a log -> rec_res a = AOk ->
                          In (rec_ts a, rec_val a) (samples (s_store s2) (rec_lbl a)))) /\
  (forall ts' g' log', ~ In (EvCleanup g' log') (snd (step qf s2 (OpEval gid ts')))).
Proof.
  intros Hf Hin Hnk Hl. cbn [step fst]. rewrite Hf. cbn [s_groups s_store].
  rewrite find_set_same.
  set (g1 := load_group (Some from) rules off lim).
  assert (Hst : In l (g_stale g1)).
  { unfold g1, load_group. pose proof (copy_state_removed rules from r p l Hin Hnk Hl) as K.
    destruct (copy_state rules from) as [rs stale]. exact K. }
  assert (Hoff : g_offset g1 = off) by apply load_group_offset.
  pose proof (group_eval_marks gid (s_store s) g1 ts l Hst) as M.
  pose proof (group_eval_no_cleanup gid) as N.
  destruct (group_eval qf gid (s_store s) g1 ts) as [[st' g'] evs] eqn:E.
  destruct M as (log & M1 & M2 & M3 & M4). cbn [fst snd s_groups s_store]. split.
  - exists log. split; [exact M1|]. split; [|exact M3].
    rewrite M2, Hoff. now apply in_map with (f := fun l => (l, ts - off, VStale)).
  - intros ts' g'' log'. rewrite find_set_same.
    specialize (N st' g' ts' g'' log' M4).
    destruct (group_eval qf gid st' g' ts') as [[st3 g3] evs3]. exact N.
Qed.

Lemma removed_group_marked s gid g ts l r p :
  find_group (s_groups s) gid = Some g -> In (r, p) (g_rules g) -> In l p ->
  let s' := fst (step qf s (OpRemove gid ts)) in
  exists log, snd (step qf s (OpRemove gid ts)) = [EvCleanup gid log] /\
              map triple log = map (fun l => (l, ts - g_offset g, VStale)) (g_stale g ++ flat_map snd (g_rules g)) /\
              In (l, ts - g_offset g, VStale) (map triple log) /\
              (forall a, In a log -> rec_res a = AOk -> In (rec_ts a, rec_val a) (samples (s_store s') (rec_lbl a))) /\
              find_group (s_groups s') gid = None.
Proof.
  intros Hf Hin Hl. cbn [step]. rewrite Hf.
  assert (Hall : In l (g_stale g ++ flat_map snd (g_rules g))).
  { apply in_or_app. right. apply in_flat_map. exists (r, p). auto. }
  destruct (g_stale g ++ flat_map snd (g_rules g)) as [|l0 ls] eqn:Es; [destruct Hall|].
  destruct (cleanup_cons gid (s_store s) l0 ls (ts - g_offset g)) as (st' & log & Hc & Hm & Hs).
  rewrite Hc. cbn [fst snd s_store s_groups]. exists log. split; [reflexivity|]. split; [exact Hm|].
  split; [rewrite Hm; now apply in_map with (f := fun l => (l, ts - g_offset g, VStale))|].
  split; [exact Hs | apply find_del_same].
Qed.

Lemma step_keeps s o : keeps (s_store s) (s_store (fst (step qf s o))).
Proof.
  destruct o as [l0 t v | gid rules off lim | gid ts | gid ts]; cbn [step].
  - pose proof (st_append_keeps (s_store s) l0 t v) as K. now destruct (st_append (s_store s) l0 t v).
  - apply keeps_refl.
  - destruct (find_group (s_groups s) gid) as [g|]; [|apply keeps_refl]. unfold group_eval.
    pose proof (eval_rules_visible gid (s_store s) (ts - g_offset g) (g_limit g) 0 (g_rules g)) as V.
    destruct (eval_rules qf gid (s_store s) (ts - g_offset g) (g_limit g) 0 (g_rules g)) as [[st1 rs] evs].
    pose proof (cleanup_extends gid st1 (g_stale g) (ts - g_offset g)) as [K2 _].
    destruct (cleanup gid st1 (g_stale g) (ts - g_offset g)) as [st2 evc].
    exact (keeps_trans _ _ _ (proj1 (proj1 V)) K2).
  - destruct (find_group (s_groups s) gid) as [g|]; [|apply keeps_refl].
    pose proof (cleanup_extends gid (s_store s) (g_stale g ++ flat_map snd (g_rules g)) (ts - g_offset g)) as [K _].
    now destruct (cleanup gid (s_store s) _ (ts - g_offset g)).
Qed.

Lemma run_from_keeps s ops : keeps (s_store s) (s_store (fst (run_from qf s ops))).
Proof.
  revert s. induction ops as [|o ops IH]; intros s; cbn [run_from]; [apply keeps_refl|].
  pose proof (step_keeps s o) as K. destruct (step qf s o) as [s1 e1]. specialize (IH s1).
  destruct (run_from qf s1 ops) as [s2 e2]. exact (keeps_trans _ _ _ K IH).
Qed.

Lemma run_from_app s a b :
  run_from qf s (a ++ b) =
  let (s1, e1) := run_from qf s a in let (s2, e2) := run_from qf s1 b in (s2, e1 ++ e2).
Proof.
  revert s. induction a as [|o a IH]; intros s; cbn [app run_from].
  - destruct (run_from qf s b). reflexivity.
  - destruct (step qf s o) as [s1 e1]. rewrite IH.
    destruct (run_from qf s1 a) as [s2 e2]. destruct (run_from qf s2 b) as [s3 e3].
    rewrite app_assoc. reflexivity.
Qed.

Lemma history_append_only ops1 ops2 x l :
  In x (samples (s_store (fst (run qf ops1))) l) -> In x (samples (s_store (fst (run qf (ops1 ++ ops2)))) l).
Proof.
  unfold run. rewrite run_from_app. destruct (run_from qf init ops1) as [s1 e1].
  pose proof (run_from_keeps s1 ops2 x l) as K. destruct (run_from qf s1 ops2). exact K.
Qed.

End WithQuery.

Definition before (bs : list (list nat)) (i j : nat) : Prop :=
  exists pre b mid c post, bs = pre ++ b :: mid ++ c :: post /\ In i b /\ In j c.

Lemma before_cross xs ys i j : In i (concat xs) -> In j (concat ys) -> before (xs ++ ys) i j.
Proof.
  intros Hi Hj. apply in_concat in Hi as (b & Hb & Hib). apply in_concat in Hj as (c & Hc & Hjc).
  apply in_split in Hb as (p1 & p2 & ->). apply in_split in Hc as (q1 & q2 & ->).
  exists p1, b, (p2 ++ q1), c, q2. split; [|auto]. now rewrite <- !app_assoc.
Qed.

Lemma before_app_l xs ys i j : before xs i j -> before (xs ++ ys) i j.
Proof.
  intros (pre & b & mid & c & post & -> & H). exists pre, b, mid, c, (post ++ ys). split; [|exact H].
  rewrite <- app_assoc. cbn. now rewrite <- app_assoc.
Qed.

Lemma before_app_r xs ys i j : before ys i j -> before (xs ++ ys) i j.
Proof.
  intros (pre & b & mid & c & post & -> & H). exists (xs ++ pre), b, mid, c, post. split; [|exact H].
  now rewrite app_assoc.
Qed.

Lemma one_batch_in b x : In x b -> one_batch b = [b].
Proof. destruct b; [intros []|reflexivity]. Qed.

Lemma in_one_batch (b : list nat) x : In x b -> In x (concat (one_batch b)).
Proof. intros H. rewrite (one_batch_in _ _ H). cbn. now rewrite app_nil_r. Qed.

Lemma in_singletons (l : list nat) x : In x l -> In x (concat (map (fun i => [i]) l)).
Proof. intros H. apply in_concat. exists [x]. split; [now apply in_map with (f := fun i => [i]) | now left]. Qed.

Lemma in_filter_seq (P : nat -> bool) n i : (i < n)%nat -> P i = true -> In i (filter P (seq 0 n)).
Proof. intros H Hp. apply filter_In. split; [apply in_seq; lia | exact Hp]. Qed.

Lemma seq_split a n i : (a <= i < a + n)%nat ->
  seq a n = seq a (i - a) ++ i :: seq (S i) (a + n - S i).
Proof.
  intros H. replace n with ((i - a) + S (a + n - S i))%nat at 1 by lia.
  rewrite seq_app. f_equal. cbn [seq]. replace (a + (i - a))%nat with i by lia. reflexivity.
Qed.

Lemma filter_seq_split (P : nat -> bool) a n i : (a <= i < a + n)%nat -> P i = true ->
  filter P (seq a n) = filter P (seq a (i - a)) ++ i :: filter P (seq (S i) (a + n - S i)).
Proof.
  intros H Hp. rewrite (seq_split a n i H) at 1. rewrite filter_app. cbn [filter]. rewrite Hp. reflexivity.
Qed.

(* the one-by-one batches keep the order of the rules *)
Lemma before_singletons (P : nat -> bool) n i j : (i < j < n)%nat -> P i = true -> P j = true ->
  before (map (fun i => [i]) (filter P (seq 0 n))) i j.
Proof.
  intros H Hi Hj.
  rewrite (filter_seq_split P 0 n i), (filter_seq_split P (S i) (0 + n - S i) j) by (auto; lia).
  rewrite map_app. cbn [map]. rewrite map_app. cbn [map].
  do 5 eexists. split; [reflexivity | split; now left].
Qed.

Lemma nth_error_firstn_In {A} (l : list A) i j x : (i < j)%nat -> nth_error l i = Some x -> In x (firstn j l).
Proof.
  revert i j. induction l as [|y l IH]; intros i j Hlt H; [destruct i; discriminate|].
  destruct j; [lia|]. destruct i; cbn in *.
  - injection H as ->. now left.
  - right. eapply IH; eauto. lia.
Qed.

Lemma nth_error_skipn_In {A} (l : list A) i j x : (i < j)%nat -> nth_error l j = Some x -> In x (skipn (S i) l).
Proof.
  revert i j. induction l as [|y l IH]; intros i j Hlt H; [destruct j; discriminate|].
  destruct j; [lia|]. cbn in H. destruct i; cbn [skipn].
  - eapply nth_error_In; eauto.
  - apply (IH i j); [lia | exact H].
Qed.

Lemma batches_respect rules i j ri rj :
  (i < j)%nat -> nth_error rules i = Some ri -> nth_error rules j = Some rj -> dep_on rj ri = true ->
  before (split_batches rules) i j.
Proof.
  intros Hlt Hi Hj Hd.
  assert (Hjn : (j < length rules)%nat) by (apply nth_error_Some; congruence).
  (* j has a dependency and i a dependent, so i is in the first or in a middle batch and j in a
     middle or in the last one *)
  assert (Dj : has_dependency rules j = true).
  { unfold has_dependency. rewrite Hj. apply existsb_exists. exists ri. split; auto.
    eapply nth_error_firstn_In; eauto. }
  assert (Ti : has_dependent rules i = true).
  { unfold has_dependent. rewrite Hi. apply existsb_exists. exists rj. split; auto.
    eapply nth_error_skipn_In; eauto. }
  unfold split_batches.
  destruct (has_dependency rules i) eqn:Di; destruct (has_dependent rules j) eqn:Tj.
  - apply before_app_r, before_app_l, before_singletons; try lia; cbv beta; [now rewrite Di, Ti | now rewrite Dj, Tj].
  - apply before_app_r, before_cross; [apply in_singletons | apply in_one_batch];
      apply in_filter_seq; try lia; cbv beta; [now rewrite Di, Ti | now rewrite Dj, Tj].
  - apply before_cross; [apply in_one_batch | rewrite concat_app; apply in_or_app; left; apply in_singletons];
      apply in_filter_seq; try lia; cbv beta; [now rewrite Di | now rewrite Dj, Tj].
  - apply before_cross; [apply in_one_batch | rewrite concat_app; apply in_or_app; right; apply in_one_batch];
      apply in_filter_seq; try lia; cbv beta; [now rewrite Di | now rewrite Dj, Tj].
Qed.

(* every rule is in some batch *)
Lemma batches_cover rules i : (i < length rules)%nat -> In i (concat (split_batches rules)).
Proof.
  intros H. unfold split_batches. rewrite !concat_app, !in_app_iff.
  destruct (has_dependency rules i) eqn:D; [destruct (has_dependent rules i) eqn:T|].
  - right; left. apply in_singletons, in_filter_seq; [exact H | cbv beta; now rewrite D, T].
  - right; right. apply in_one_batch, in_filter_seq; [exact H | cbv beta; now rewrite D, T].
  - left. apply in_one_batch, in_filter_seq; [exact H | cbv beta; now rewrite D].
Qed.
