(* proof/CompactRaceClose.v — second invariant of model/CompactRace.v: block release vs. pending
   readers (no use after close), reader registrations belong to live queriers (progress). *)
From Coq Require Import List ZArith Bool Lia.
From Verif Require Import model.CompactRace proof.CompactRaceProofs.
Import ListNotations.
Open Scope Z_scope.

Definition fresh3 (s : state) (i : Z) : Prop :=
  ~ In i (to_close s) /\ ~ In i (closing s) /\ ~ In i (closed s).

Definition pc2_fact (s : state) : Prop :=
  match pc s with
  | HWritten bs _ | OWritten _ bs | VWritten bs _ => forall b, In b bs -> fresh3 s (b_id b)
  | BWritten b ps => fresh3 s (b_id b) /\ ~ In (b_id b) ps /\ to_close s = []
  | _ => True
  end.

Definition has_q (s : state) (a : Z) : Prop := exists x, In x (queriers s) /\ q_id x = a.

Record Inv2 (s : state) : Prop := mkInv2 {
  k_failed : failed s = false;
  k_blocks : forall b, In b (db_blocks s) -> fresh3 s (b_id b);
  k_pending : forall x b, In x (queriers s) -> In b (q_blocks x) -> In (q_id x, b_id b) (pending s);
  k_open : forall x b, In x (queriers s) -> In b (q_blocks x) -> ~ In (b_id b) (closed s);
  k_sub : forall x b, In x (queriers s) -> q_stage x <> Done -> In b (q_blocks x) -> In b (db_blocks s);
  k_closing : forall i, In i (closing s) -> In i (to_close s);
  k_pc : pc2_fact s;
  k_iso : forall a lo hi, In (a, lo, hi) (iso s) -> has_q s a;
  k_rd : forall a r, In (a, r) (ooo_reads s) -> has_q s a;
  k_pd : forall a i, In (a, i) (pending s) -> has_q s a
}.

Lemma not_in_all_ids s i : memZ i (all_ids s) = false ->
  ~ In i (map b_id (db_blocks s)) /\ fresh3 s i.
Proof.
  intros H. apply memZ_false in H. unfold all_ids in H. rewrite !in_app_iff in H. unfold fresh3. tauto.
Qed.

(* Only the program counter and fields the invariant does not read change.  Inv2 reads s through
   its fields: with both states taken apart the equations identify them. *)
Lemma inv2_frame s s' :
  failed s' = failed s -> db_blocks s' = db_blocks s -> to_close s' = to_close s -> closing s' = closing s ->
  closed s' = closed s -> pending s' = pending s -> queriers s' = queriers s -> iso s' = iso s ->
  ooo_reads s' = ooo_reads s -> pc2_fact s' -> Inv2 s -> Inv2 s'.
Proof.
  intros E1 E2 E3 E4 E5 E6 E7 E8 E9 PF I. destruct I.
  constructor; unfold fresh3, has_q in *; rewrite ?E1, ?E2, ?E3, ?E4, ?E5, ?E6, ?E7, ?E8, ?E9; auto.
Qed.

(* the goal left is pc2_fact of the new state *)
Ltac frame2 s := apply (inv2_frame s); [reflexivity .. | | assumption].

Lemma pc2_fact_mono s s' :
  pc s' = pc s -> (forall i, fresh3 s i -> fresh3 s' i) -> (to_close s = [] -> to_close s' = []) ->
  pc2_fact s -> pc2_fact s'.
Proof.
  unfold pc2_fact. intros -> F T. destruct (pc s); auto.
  intros (A & B & D). auto.
Qed.


Lemma inv2_swap s bs tc p :
  let s' := set_pc (set_blocks s bs tc) p in
  Inv2 s -> all_done s = true ->
  (forall b, In b bs -> fresh3 s' (b_id b)) -> (forall i, In i (closing s) -> In i tc) -> pc2_fact s' ->
  Inv2 s'.
Proof.
  intros s' I AD FB CL PF. destruct I. constructor; auto.
  intros x b Hx St. exfalso. apply St. exact (all_done_spec s AD x Hx).
Qed.

Lemma inv2_ESwapped s s' : Inv2 s -> step s ESwapped = Some s' -> Inv2 s'.
Proof.
  intros I H. cbn [step] in H. destruct (all_done s) eqn:AD; try discriminate.
  pose proof (k_pc _ I) as PF. unfold pc2_fact in PF.
  assert (AP : forall bs p, (forall b, In b bs -> fresh3 s (b_id b)) -> pc2_fact (set_pc s p) ->
            Inv2 (set_pc (set_blocks s (db_blocks s ++ bs) (to_close s)) p)).
  { intros bs p FB PP. apply inv2_swap; auto; [|apply (k_closing _ I)].
    intros b Hb. apply in_app_or in Hb. destruct Hb as [Hb|Hb]; [exact (k_blocks _ I b Hb)|exact (FB b Hb)]. }
  destruct (pc s) eqn:P; try discriminate; inv H.
  - apply AP; [exact PF|exact Logic.I].
  - apply AP; [exact PF|exact Logic.I].
  - (* the parents are handed to deleteBlocks; nothing was being released before *)
    destruct PF as (F1 & F2 & F3). apply inv2_swap; auto; [| |exact Logic.I].
    + intros b' Hb. unfold fresh3; cbn. apply in_app_or in Hb. destruct Hb as [Hb|[<-|[]]].
      * apply filter_In in Hb. destruct Hb as [Hb M]. apply negb_true_iff, memZ_false in M.
        destruct (k_blocks _ I b' Hb) as (_ & A & B). auto.
      * destruct F1 as (_ & A & B). auto.
    + intros i Hi. apply (k_closing _ I) in Hi. rewrite F3 in Hi. destruct Hi.
  - apply AP; [exact PF|exact Logic.I].
Qed.

Lemma inv2_closing s tc cg cd :
  let s' := set_closing s tc cg cd in
  Inv2 s -> (forall i, fresh3 s i -> fresh3 s' i) -> (to_close s = [] -> tc = []) ->
  (forall i, In i cg -> In i tc) ->
  (forall x b, In x (queriers s) -> In b (q_blocks x) -> ~ In (b_id b) cd) ->
  Inv2 s'.
Proof.
  intros s' I FR TC CL OP. destruct I. constructor; auto.
  apply (pc2_fact_mono s); auto.
Qed.

Lemma inv2_EBlockClosing s s' id : Inv2 s -> step s (EBlockClosing id) = Some s' -> Inv2 s'.
Proof.
  intros I H. cbn [step] in H.
  apply guard_some in H as [G ->]. apply andb_true_iff in G. destruct G as [G1 G2]. apply memZ_true in G1.
  apply inv2_closing; auto.
  - intros i (A & B & D). repeat split; auto. intros [<-|?]; auto.
  - intros i [<-|Hi]; [exact G1|apply (k_closing _ I), Hi].
  - apply (k_open _ I).
Qed.

Lemma inv2_EBlockClosed s s' id : Inv2 s -> step s (EBlockClosed id) = Some s' -> Inv2 s'.
Proof.
  intros I H. cbn [step] in H.
  destruct (memZ id (closing s) && negb (existsb (fun p => snd p =? id) (pending s))) eqn:G; try discriminate.
  apply andb_true_iff in G. destruct G as [G1 G2]. apply memZ_true in G1. apply negb_true_iff in G2.
  set (keep := fun x => negb (x =? id)) in *.
  set (s1 := set_closing s (filter keep (to_close s)) (filter keep (closing s)) (id :: closed s)).
  assert (I1 : Inv2 s1).
  { apply inv2_closing; auto.
    - intros i (A & B & D). split; [|split]; cbn.
      + intros Hi. apply filter_In in Hi. apply A, Hi.
      + intros Hi. apply filter_In in Hi. apply B, Hi.
      + intros [<-|Hd]; auto.
    - intros ->. reflexivity.
    - intros i Hi. apply filter_In in Hi. apply filter_In. split; [apply (k_closing _ I)|]; tauto.
    - (* the wait returned: no reader of block id is registered, and queriers register their blocks *)
      intros x b Hx Hb [E|Hc]; [|exact (k_open _ I x b Hx Hb Hc)].
      assert (existsb (fun p : Z * Z => snd p =? id) (pending s) = true); [|congruence].
      apply existsb_exists. exists (q_id x, b_id b). split; [exact (k_pending _ I x b Hx Hb)|]. cbn. rewrite E. apply Z.eqb_refl. }
  inv H. destruct (pc s) eqn:P; auto.
  destruct (filter keep (to_close s)); auto.
  frame2 s1. exact Logic.I.
Qed.


Lemma inv2_EQBegin s s' q mint maxt : Inv2 s -> step s (EQBegin q mint maxt) = Some s' -> Inv2 s'.
Proof.
  intros I H. cbn [step] in H.
  destruct (negb (existsb (fun x => q_id x =? q) (queriers s)) && (mint <=? maxt)) eqn:G; try discriminate.
  set (bs := filter (block_overlaps mint maxt) (db_blocks s)) in *.
  assert (BS : forall b, In b bs -> In b (db_blocks s) /\ fresh3 s (b_id b)).
  { intros b Hb. apply filter_In in Hb. split; [|apply (k_blocks _ I)]; tauto. }
  (* startRead succeeds: no block of db.blocks is closing or closed *)
  assert (NB : existsb (fun b => memZ (b_id b) (closing s) || memZ (b_id b) (closed s)) bs = false).
  { destruct (existsb _ bs) eqn:E; auto. exfalso. apply existsb_exists in E. destruct E as (b & Hb & E).
    destruct (BS b Hb) as (_ & _ & B & D).
    apply orb_true_iff in E. destruct E as [E|E]; apply memZ_true in E; auto. }
  rewrite NB in H. inv H.
  assert (HQ : forall nq a, has_q s a -> exists x, In x (nq :: queriers s) /\ q_id x = a)
    by (intros nq a (x & Hx & E); exists x; split; [right|]; assumption).
  destruct I. constructor; cbn; auto.
  - intros x b [<-|Hx] Hb; apply in_or_app; [left; apply in_map_iff; exists b|right]; auto.
  - intros x b [<-|Hx] Hb; [apply (BS b Hb)|eauto].
  - intros x b [<-|Hx] St Hb; [apply (BS b Hb)|eauto].
  - intros a lo hi Hi. apply HQ. eauto.
  - intros a r Hi. apply HQ. eauto.
  - intros a i Hi. apply in_app_or in Hi. destruct Hi as [Hi|Hi]; [|apply HQ; eauto].
    apply in_map_iff in Hi. destruct Hi as (b & E & _). inv E. eexists. split; [left; reflexivity|reflexivity].
Qed.

(* x, in creation, moves to its next stage x'; its new registrations are its own *)
Lemma inv2_replace s x x' i o :
  Inv2 s -> In x (queriers s) -> q_id x' = q_id x -> q_blocks x' = q_blocks x -> q_stage x <> Done ->
  (forall e, In e i -> In e (iso s) \/ fst (fst e) = q_id x) ->
  (forall e, In e o -> In e (ooo_reads s) \/ fst e = q_id x) ->
  Inv2 (set_readers s i o (pending s) (x' :: others s (q_id x))).
Proof.
  intros I Hx Ei Eb St HI HO.
  assert (OT : forall y, In y (x' :: others s (q_id x)) ->
            exists y0, In y0 (queriers s) /\ q_id y = q_id y0 /\ q_blocks y = q_blocks y0 /\
                       (q_stage y <> Done -> q_stage y0 <> Done)).
  { intros y [<-|Hy]; [exists x; auto|]. apply in_others in Hy. exists y. tauto. }
  assert (HQ : forall a, has_q s a \/ a = q_id x -> exists y, In y (x' :: others s (q_id x)) /\ q_id y = a).
  { intros a H. destruct (Z.eq_dec a (q_id x)) as [->|N]; [exists x'; split; [left|]; auto|].
    destruct H as [(y & Hy & E)|E]; [|contradiction]. exists y. split; [|exact E].
    right. apply in_others. split; congruence. }
  destruct I. constructor; cbn; auto.
  - intros y b Hy Hb. destruct (OT y Hy) as (y0 & H0 & E1 & E2 & _). rewrite E1. rewrite E2 in Hb. eauto.
  - intros y b Hy Hb. destruct (OT y Hy) as (y0 & H0 & E1 & E2 & _). rewrite E2 in Hb. eauto.
  - intros y b Hy Sy Hb. destruct (OT y Hy) as (y0 & H0 & E1 & E2 & E3). rewrite E2 in Hb. eauto.
  - intros a lo hi Hi. apply HQ. destruct (HI _ Hi); eauto.
  - intros a r Hi. apply HQ. destruct (HO _ Hi); eauto.
  - intros a j Hi. apply HQ. eauto.
Qed.

Lemma inv2_EQOpenHead s s' q : Inv2 s -> step s (EQOpenHead q) = Some s' -> Inv2 s'.
Proof.
  intros I H. cbn [step] in H.
  destruct (find_q s q) as [x|] eqn:F; try discriminate. apply find_q_some in F. destruct F as [Fx <-].
  destruct (q_stage x) eqn:St; try discriminate. apply guard_some in H as [G ->].
  apply inv2_replace; auto; [congruence|].
  intros e [<-|He]; auto.
Qed.

Lemma inv2_EQFinish s s' q : Inv2 s -> step s (EQFinish q) = Some s' -> Inv2 s'.
Proof.
  intros I H. apply step_EQFinish_regs in H.
  destruct H as (x & i & o & from & oref & Hx & <- & St & -> & HI & HO).
  apply inv2_replace; auto.
Qed.

Lemma inv2_EQIter s s' q : Inv2 s -> step s (EQIter q) = Some s' -> Inv2 s'.
Proof.
  intros I H. cbn [step] in H.
  destruct (find_q s q) as [x|] eqn:F; try discriminate. apply find_q_some in F. destruct F as [Fx Fq].
  destruct (q_stage x); try discriminate.
  assert (NB : existsb (fun b => memZ (b_id b) (closed s)) (q_blocks x) = false).
  { destruct (existsb _ (q_blocks x)) eqn:E; auto. exfalso. apply existsb_exists in E. destruct E as (b & Hb & E).
    apply memZ_true in E. eapply (k_open _ I); eauto. }
  rewrite NB in H. inv H. auto.
Qed.

Lemma inv2_EQClose s s' q : Inv2 s -> step s (EQClose q) = Some s' -> Inv2 s'.
Proof.
  intros I H. cbn [step] in H.
  destruct (find_q s q) as [x|] eqn:F; try discriminate. apply find_q_some in F. destruct F as [Fx <-].
  destruct (q_stage x); try discriminate. inv H.
  assert (OTH : forall a, a <> q_id x -> has_q s a -> exists y, In y (others s (q_id x)) /\ q_id y = a).
  { intros a N (y & Hy & E). exists y. split; auto. apply in_others. split; auto. congruence. }
  assert (NE : forall (a : Z), negb (a =? q_id x) = true -> a <> q_id x).
  { intros a M. apply negb_true_iff, Z.eqb_neq in M. exact M. }
  destruct I. constructor; cbn; auto.
  - intros y b Hy Hb. apply in_others in Hy. destruct Hy as [Hy N]. apply in_drop_fst; auto.
  - intros y b Hy Hb. apply in_others in Hy. destruct Hy as [Hy N]. eauto.
  - intros y b Hy Sy Hb. apply in_others in Hy. destruct Hy as [Hy N]. eauto.
  - intros a lo hi Hi. apply filter_In in Hi. destruct Hi as [Hi M]. apply OTH; eauto.
  - intros a r Hi. apply filter_In in Hi. destruct Hi as [Hi M]. apply OTH; eauto.
  - intros a i Hi. apply filter_In in Hi. destruct Hi as [Hi M]. apply OTH; eauto.
Qed.

(* a maintenance step that moves the program counter to a state about which pc2_fact says nothing,
   and changes no other field the invariant reads: H is inverted (its guard, if any, is not needed) *)
Ltac quiet s H :=
  destruct (pc s); try discriminate H; try (destruct (to_close s); try discriminate H);
  first [apply guard_some in H as [_ ->] | injection H as <-]; frame2 s; exact Logic.I.

Lemma step_inv2 s s' e : Inv2 s -> step s e = Some s' -> Inv2 s'.
Proof.
  intros I H. destruct e; try (cbn [step] in H).
  - (* EHWritten *)
    destruct (pc s) eqn:P; try discriminate. apply guard_some in H as [G ->].
    frame2 s. unfold pc2_fact; cbn. apply andb_prop in G as [_ G3].
    destruct id; intros b Hb; [destruct Hb as [<-|[]] | destruct Hb]. cbn.
    apply negb_true_iff in G3. apply not_in_all_ids in G3. tauto.
  - eapply inv2_ESwapped; eauto.
  - eapply inv2_EBlockClosing; eauto.
  - eapply inv2_EBlockClosed; eauto.
  - quiet s H.
  - quiet s H.
  - quiet s H.
  - quiet s H.
  - (* EGcDone *)
    destruct (pc s); try discriminate; apply gc_done_some in H as [-> _]; frame2 s; exact Logic.I.
  - quiet s H.
  - quiet s H.
  - (* EOWritten *)
    destruct (pc s); try discriminate. apply guard_some in H as [G ->].
    apply andb_prop in G as [G _]. apply andb_prop in G as [G _]. apply andb_prop in G as [G1 _].
    frame2 s. unfold pc2_fact; cbn. intros b Hb. unfold fresh_ids in G1. rewrite forallb_forall in G1.
    specialize (G1 (b_id b) (in_map b_id _ _ Hb)). apply negb_true_iff in G1. apply not_in_all_ids in G1. tauto.
  - quiet s H.
  - quiet s H.
  - quiet s H.
  - (* EBWritten *)
    destruct (pc s); try discriminate. apply guard_some in H as [G ->].
    apply andb_prop in G as [G G5]. apply andb_prop in G as [G _]. apply andb_prop in G as [G G3].
    apply andb_prop in G as [_ G2].
    frame2 s. unfold pc2_fact; cbn. apply negb_true_iff in G3. apply not_in_all_ids in G3. destruct G3 as [N F].
    split; auto. split.
    + intros Hp. apply N. rewrite forallb_forall in G2. apply memZ_true. apply G2; auto.
    + destruct (to_close s); auto; discriminate.
  - (* EVWritten *)
    destruct (pc s) eqn:P; try discriminate; apply guard_some in H as [G ->];
      [|apply andb_prop in G as [G _]]; apply andb_prop in G as [G _]; apply andb_prop in G as [_ G2];
      frame2 s; unfold pc2_fact; cbn; intros b [<-|[]]; cbn;
      apply negb_true_iff in G2; apply not_in_all_ids in G2; tauto.
  - quiet s H.
  - quiet s H.
  - eapply inv2_EQBegin; eauto.
  - eapply inv2_EQOpenHead; eauto.
  - eapply inv2_EQFinish; eauto.
  - eapply inv2_EQIter; eauto.
  - eapply inv2_EQClose; eauto.
Qed.

Lemma inv2_init s : wf_init s = true -> Inv2 s.
Proof.
  intros W. apply wf_init_spec in W.
  destruct W as [Wpc _ Wfail Wq Wiso Wrd Wpd Wtc Wcl _ _ _ _ Wblocks].
  constructor; unfold fresh3, has_q, pc2_fact; rewrite ?Wq, ?Wiso, ?Wrd, ?Wpd, ?Wtc, ?Wcl, ?Wpc;
    try exact Wfail; try exact Logic.I; try (intros; contradiction).
  intros b Hb. repeat split; auto. apply Wblocks, Hb.
Qed.

Lemma run_inv2 tr : forall s s' outs, Inv2 s -> run s tr = Some (s', outs) -> Inv2 s'.
Proof.
  induction tr as [|e tr IH]; intros s s' outs I H; cbn in H.
  - inv H. auto.
  - destruct (step s e) as [s1|] eqn:S1; try discriminate.
    destruct (run s1 tr) as [[sf o1]|] eqn:R1; try discriminate. inv H.
    exact (IH s1 s' o1 (step_inv2 _ _ _ I S1) R1).
Qed.

Theorem no_use_after_close : forall s0 tr s outs,
  wf_init s0 = true -> run s0 tr = Some (s, outs) ->
  failed s = false /\
  (forall x b, In x (queriers s) -> In b (q_blocks x) -> ~ In (b_id b) (closed s)).
Proof.
  intros s0 tr s outs W R. pose proof (run_inv2 tr s0 s outs (inv2_init s0 W) R) as I.
  split; [apply (k_failed _ I) | apply (k_open _ I)].
Qed.

Lemma quiescent_regs s : Inv2 s -> queriers s = [] -> iso s = [] /\ ooo_reads s = [] /\ pending s = [].
Proof.
  intros I Q.
  assert (N : forall a, ~ has_q s a) by (intros a (x & Hx & _); rewrite Q in Hx; exact Hx).
  split; [|split].
  - destruct (iso s) as [|[[a lo] hi] l] eqn:E; auto. destruct (N a). apply (k_iso _ I a lo hi). rewrite E. left; auto.
  - destruct (ooo_reads s) as [|[a r] l] eqn:E; auto. destruct (N a). apply (k_rd _ I a r). rewrite E. left; auto.
  - destruct (pending s) as [|[a r] l] eqn:E; auto. destruct (N a). apply (k_pd _ I a r). rewrite E. left; auto.
Qed.

Lemma next_wait_closing s id cl : closing s = id :: cl -> next_wait s = Some (EBlockClosed id).
Proof. unfold next_wait. intros ->. destruct (pc s), (to_close s); reflexivity. Qed.

Theorem progress : forall s0 tr s outs,
  wf_init s0 = true -> run s0 tr = Some (s, outs) -> queriers s = [] ->
  forall e, next_wait s = Some e -> step s e <> None.
Proof.
  intros s0 tr s outs W R Q e H. pose proof (run_inv2 tr s0 s outs (inv2_init s0 W) R) as I.
  destruct (quiescent_regs s I Q) as (ISO & RD & PD).
  assert (AD : all_done s = true) by (unfold all_done; rewrite Q; reflexivity).
  destruct (closing s) as [|id cl] eqn:CL; [unfold next_wait in H; rewrite CL in H|].
  - (* every wait is on registrations, and there are none *)
    destruct (pc s) eqn:P; try discriminate H; try (destruct (to_close s); discriminate H);
      try (injection H as <-; cbn [step]; rewrite ?P, ?AD, ?ISO, ?RD; discriminate).
    + destruct (to_close s) eqn:TC; [|discriminate H]. destruct (0 <? L) eqn:GL; inv H.
      cbn [step]. rewrite P, TC, GL, AD. discriminate.
    + injection H as <-. cbn [step]. rewrite P, ISO, Z.leb_refl. discriminate.
  - (* Block.Close's reader wait *)
    rewrite (next_wait_closing s id cl CL) in H. injection H as <-.
    cbn [step]. rewrite CL, PD. cbn. rewrite Z.eqb_refl. discriminate.
Qed.
