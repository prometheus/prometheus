(* proof/PromqlSelectProofs.v — proofs about model/PromqlSelect.v (C28): the memoized iterator
   under the invariant MI and the buffered iterator on a fresh series compute the instant and the
   range selection of the specification; subquery steps are the multiples of the interval in the
   window; from these engine_eq_spec, and hints_cover for the storage hints. *)
From Coq Require Import List ZArith Bool Lia ZifyBool.
From Verif Require Import lib.Int64 lib.SortedList model.PromqlSelect.
Import ListNotations.
Open Scope Z_scope.

Fixpoint take_while {A} (f : A -> bool) (l : list A) : list A :=
  match l with
  | [] => []
  | x :: r => if f x then x :: take_while f r else []
  end.

Lemma tw_dw {A} (f : A -> bool) l : take_while f l ++ drop_while f l = l.
Proof. induction l as [|x r IH]; simpl; auto. destruct (f x); simpl; congruence. Qed.

Lemma tw_all {A} (f : A -> bool) l : Forall (fun x => f x = true) (take_while f l).
Proof. induction l as [|x r IH]; simpl; auto. destruct (f x) eqn:E; auto. Qed.

Lemma dw_head {A} (f : A -> bool) l c r : drop_while f l = c :: r -> f c = false.
Proof.
  induction l as [|x l IH]; simpl; try discriminate.
  destruct (f x) eqn:E; auto. intros H; inversion H; subst; auto.
Qed.

Lemma dw_dw {A} (f g : A -> bool) l :
  (forall x, f x = true -> g x = true) -> drop_while g (drop_while f l) = drop_while g l.
Proof.
  intros Himp. induction l as [|x r IH]; simpl; auto.
  destruct (f x) eqn:E; simpl; [|reflexivity]. rewrite (Himp _ E). auto.
Qed.

Lemma tw_tw {A} (f g : A -> bool) l :
  (forall x, f x = true -> g x = true) ->
  take_while g l = take_while f l ++ take_while g (drop_while f l).
Proof.
  intros Himp. induction l as [|x r IH]; simpl; auto.
  destruct (f x) eqn:E; simpl; [|reflexivity]. rewrite (Himp _ E). simpl. congruence.
Qed.

Lemma dw_nop {A} (f : A -> bool) l : Forall (fun x => f x = false) l -> drop_while f l = l.
Proof. destruct l; simpl; auto. intros H; inversion H; subst. now rewrite H2. Qed.

Lemma tw_nil {A} (f : A -> bool) l : Forall (fun x => f x = false) l -> take_while f l = [].
Proof. destruct l; simpl; auto. intros H; inversion H; subst. now rewrite H2. Qed.

Lemma last_opt_app {A} (l : list A) x : last_opt (l ++ [x]) = Some x.
Proof.
  induction l as [|y r IH]; simpl; auto.
  destruct (r ++ [x]) eqn:E; [destruct r; discriminate|]. exact IH.
Qed.

Lemma last_opt_cons {A} (x : A) l : l <> [] -> last_opt (x :: l) = last_opt l.
Proof. destruct l; simpl; congruence. Qed.

Lemma last_opt_app2 {A} (a b : list A) : b <> [] -> last_opt (a ++ b) = last_opt b.
Proof.
  intros Hb. induction a as [|x a IH]; simpl; auto.
  destruct (a ++ b) eqn:E; [destruct a; simpl in E; congruence|exact IH].
Qed.

Lemma last_opt_none {A} (l : list A) : last_opt l = None -> l = [].
Proof.
  induction l as [|x r IH]; auto. simpl. destruct r; try discriminate. intros H. specialize (IH H). discriminate.
Qed.

Lemma last_opt_split {A} (l : list A) p : last_opt l = Some p -> exists l', l = l' ++ [p].
Proof.
  induction l as [|x r IH]; simpl; try discriminate.
  destruct r as [|y r'].
  - intros H; inversion H; subst. now exists [].
  - intros H. destruct (IH H) as [l' E]. exists (x :: l'). simpl. now rewrite E.
Qed.

Lemma last_opt_in {A} (l : list A) p : last_opt l = Some p -> In p l.
Proof. intros H. apply last_opt_split in H as [l' ->]. apply in_or_app. right. now left. Qed.

(* lists strictly ascending by a key: series by s_t, point lists by p_t *)

Fixpoint ksorted {A} (key : A -> Z) (l : list A) : Prop :=
  match l with
  | [] => True
  | x :: r => Forall (fun y => key x < key y) r /\ ksorted key r
  end.

Notation ssorted := (ksorted s_t).
Notation psorted := (ksorted p_t).

Lemma ksorted_app {A} (key : A -> Z) a b :
  ksorted key (a ++ b) ->
  ksorted key a /\ ksorted key b /\ Forall (fun x => Forall (fun y => key x < key y) b) a.
Proof.
  induction a as [|x a IH]; simpl.
  - intros H; repeat split; auto.
  - intros [H1 H2]. destruct (IH H2) as (Ha & Hb & Hab).
    apply Forall_app in H1 as [H1a H1b]. repeat split; auto.
Qed.

Lemma ksorted_filter {A} (key : A -> Z) f l : ksorted key l -> ksorted key (filter f l).
Proof.
  induction l as [|x r IH]; simpl; auto. intros [H1 H2]. destruct (f x); auto.
  split; auto. now apply Forall_filter.
Qed.

Lemma ksorted_map {A B} (ka : A -> Z) (kb : B -> Z) (g : A -> B) l :
  (forall x, kb (g x) = ka x) -> ksorted ka l -> ksorted kb (map g l).
Proof.
  intros Hk. induction l as [|x r IH]; simpl; auto. intros [H1 H2]. split; auto.
  apply Forall_forall. intros y Hy. apply in_map_iff in Hy as (s & <- & Hs).
  rewrite Forall_forall in H1. rewrite !Hk. auto.
Qed.

Lemma ksorted_last_max {A} (key : A -> Z) l s :
  ksorted key l -> last_opt l = Some s -> forall x, In x l -> key x <= key s.
Proof.
  intros Hs Hl x Hx. apply last_opt_split in Hl as [l' ->].
  apply ksorted_app in Hs as (_ & _ & H). apply in_app_or in Hx as [Hx|[<-|[]]]; [|lia].
  rewrite Forall_forall in H. specialize (H _ Hx). inversion H; subst. lia.
Qed.

Lemma sortedb_ssorted l : sortedb l = true <-> ssorted l.
Proof.
  induction l as [|x r IH]; simpl; [tauto|].
  destruct r as [|y r'].
  - split; auto. intros _. split; constructor.
  - rewrite andb_true_iff, IH. split.
    + intros [H1 H2]. split; auto. constructor; [lia|].
      destruct H2 as [Hy _]. eapply Forall_impl; [|exact Hy]. simpl. intros; lia.
    + intros [H1 H2]. inversion H1; subst. split; [lia|auto].
Qed.

Definition tlt (a : Z) (s : sample) : bool := s_t s <? a.
Notation tw a l := (take_while (tlt a) l).
Notation dw a l := (drop_while (tlt a) l).

Lemma tw_lt a l : Forall (fun s => s_t s < a) (tw a l).
Proof. eapply Forall_impl; [|apply tw_all]. unfold tlt. simpl. intros; lia. Qed.

Lemma ssorted_dw a l : ssorted l -> ssorted (dw a l).
Proof. intros Hs. rewrite <- (tw_dw (tlt a) l) in Hs. now apply ksorted_app in Hs as (_ & H & _). Qed.

Lemma ssorted_dw_ge a l : ssorted l -> Forall (fun s => a <= s_t s) (dw a l).
Proof.
  intros Hs. pose proof (ssorted_dw a l Hs) as Hd.
  destruct (dw a l) as [|c r] eqn:E; auto.
  apply dw_head in E. unfold tlt in E. destruct Hd as [Hcr _].
  constructor; [lia|]. eapply Forall_impl; [|exact Hcr]. simpl; intros; lia.
Qed.

Lemma tlt_mono a b : a <= b -> forall x, tlt a x = true -> tlt b x = true.
Proof. unfold tlt. intros; lia. Qed.

(* the window (lo, hi] of a sorted series, through its split at hi *)
Definition inwin (lo hi : Z) (s : sample) : bool := (lo <? s_t s) && (s_t s <=? hi).

(* of a sorted list that ends at or after hi, only the first element can be in a window ending at hi *)
Lemma filter_tail_ge (p : sample -> bool) hi l :
  ssorted l -> Forall (fun s => hi <= s_t s) l -> (forall s, hi < s_t s -> p s = false) ->
  filter p l = match l with c :: _ => if p c then [c] else [] | [] => [] end.
Proof.
  intros Hs Hge Hp. destruct l as [|c r]; auto. simpl.
  destruct Hs as [Hcr _]. inversion Hge; subst.
  rewrite (filter_none p r); [reflexivity|].
  intros s Hcs%(Forall_in Hcr). apply Hp. lia.
Qed.

(* the latest sample at or before [ref]: the head of (dw ref) if it sits exactly at ref, else the
   last of (tw ref) *)
Definition latest_le (ref : Z) (l : list sample) : option sample :=
  match dw ref l with
  | c :: _ => if s_t c =? ref then Some c else last_opt (tw ref l)
  | [] => last_opt (tw ref l)
  end.

Lemma filter_inwin_tw lo hi l :
  ssorted l -> Forall (fun s => s_t s < hi) l ->
  last_opt (filter (inwin lo hi) l) =
  match last_opt l with Some p => if lo <? s_t p then Some p else None | None => None end.
Proof.
  intros Hs Hlt. destruct (last_opt l) as [p|] eqn:E.
  - apply last_opt_split in E as [l' ->].
    apply ksorted_app in Hs as (_ & _ & Hl'). apply Forall_app in Hlt as [_ Hp].
    inversion Hp; subst. rewrite filter_app. simpl.
    unfold inwin at 2. destruct (lo <? s_t p) eqn:E1; simpl.
    + replace (s_t p <=? hi) with true by lia. apply last_opt_app.
    + rewrite app_nil_r. rewrite filter_none; auto.
      intros s Hsp%(Forall_in Hl'). inversion Hsp; subst. unfold inwin. lia.
  - apply last_opt_none in E; subst. reflexivity.
Qed.

Lemma spec_instant_latest lookback l ref :
  ssorted l -> 0 < lookback ->
  last_opt (filter (inwin (ref - lookback) ref) l) =
  match latest_le ref l with
  | Some p => if ref - lookback <? s_t p then Some p else None
  | None => None
  end.
Proof.
  intros Hs Hlb. unfold latest_le.
  pose proof (tw_lt ref l) as Htw.
  pose proof (ssorted_dw_ge ref l Hs) as Hdw.
  rewrite <- (tw_dw (tlt ref) l) at 1. rewrite filter_app.
  rewrite <- (tw_dw (tlt ref) l) in Hs. apply ksorted_app in Hs as (Hs1 & Hs2 & _).
  rewrite (filter_tail_ge _ ref (dw ref l)); auto; [|intros; unfold inwin; lia].
  destruct (dw ref l) as [|c r]; [rewrite app_nil_r; now apply filter_inwin_tw|].
  inversion Hdw; subst. unfold inwin at 2. destruct (s_t c =? ref) eqn:Ec.
  - replace ((ref - lookback <? s_t c) && (s_t c <=? ref)) with true by lia.
    replace (ref - lookback <? s_t c) with true by lia. apply last_opt_app.
  - replace ((ref - lookback <? s_t c) && (s_t c <=? ref)) with false by lia.
    rewrite app_nil_r. now apply filter_inwin_tw.
Qed.

Lemma memo_loop_cons2 t c n r last prev :
  memo_loop t (c :: n :: r) last prev =
  if t <=? s_t n then (n :: r, s_t n, Some c) else memo_loop t (n :: r) (s_t n) (Some c).
Proof. reflexivity. Qed.

Lemma memo_loop_spec t c rest last prev :
  exists l', memo_loop t (c :: rest) last prev = (dw t rest, l', last_opt (c :: tw t rest)) /\
             (forall n r', dw t rest = n :: r' -> l' = s_t n).
Proof.
  revert c last prev. induction rest as [|n r IH]; intros c last prev.
  - exists last. split; auto. discriminate.
  - rewrite memo_loop_cons2. cbn [drop_while take_while]. rewrite Z.leb_antisym. fold (tlt t n).
    destruct (tlt t n); cbn [negb].
    + destruct (IH n (s_t n) (Some c)) as (l' & H1 & H2). exists l'. now rewrite H1.
    + exists (s_t n). split; [reflexivity|]. now intros n0 r' [= <- _].
Qed.

Section Memo.
Variable series : list sample.
Hypothesis Hsorted : ssorted series.
Hypothesis Hmin : Forall (fun s => minInt64 < s_t s) series.

(* state of the memoized iterator after a Seek to R, or of a new one (R below every sample,
   lastTime still unset); B bounds the (forgotten) samples before R when no previous element is
   buffered *)
Definition MI (R B : Z) (m : memo) : Prop :=
  m_rest m = dw R series /\ minInt64 < B /\
  (forall c r, m_rest m = c :: r -> m_last m = s_t c \/ m_last m = minInt64 /\ R <= B) /\
  match m_prev m with
  | Some p => last_opt (tw R series) = Some p
  | None => Forall (fun s => s_t s < B) (tw R series)
  end.

Lemma new_MI delta : MI (minInt64 + 1) (minInt64 + 1) (memo_new delta series).
Proof.
  assert (H : Forall (fun x => tlt (minInt64 + 1) x = false) series).
  { eapply Forall_impl; [|exact Hmin]. intros a Ha. cbv beta in Ha. unfold tlt. lia. }
  unfold MI, memo_new; cbn [m_rest m_last m_prev]. rewrite (dw_nop _ _ H), (tw_nil _ _ H).
  repeat split; auto; lia.
Qed.

Definition seek2 (t delta : Z) (m1 : memo) : memo :=
  match m_rest m1 with
  | [] => m1
  | _ :: _ =>
      if t <=? m_last m1 then m1
      else let '(r, l, p) := memo_loop t (m_rest m1) (m_last m1) (m_prev m1) in mkMemo r l p delta
  end.

Lemma split_mono R ref :
  R <= ref ->
  dw ref series = dw ref (dw R series) /\ tw ref series = tw R series ++ tw ref (dw R series).
Proof.
  intros Hle. split.
  - symmetry. apply dw_dw. now apply tlt_mono.
  - apply tw_tw. now apply tlt_mono.
Qed.

(* the part of Seek after the optional reset, on a state whose lastTime is set *)
Lemma seek2_MI R B ref delta m1 :
  MI R B m1 -> (forall c r, m_rest m1 = c :: r -> m_last m1 = s_t c) -> R <= ref ->
  MI ref B (seek2 ref delta m1) /\ (m_delta m1 = delta -> m_delta (seek2 ref delta m1) = delta).
Proof.
  intros (H1 & HB & _ & H3) H2 Hle. destruct (split_mono R ref Hle) as [Hd Ht].
  unfold seek2, MI. rewrite <- H1 in Hd, Ht. destruct (m_rest m1) as [|c r] eqn:Er.
  - (* exhausted *)
    simpl in Hd, Ht. rewrite app_nil_r in Ht.
    rewrite Er, Hd, Ht. repeat split; auto; discriminate.
  - specialize (H2 c r eq_refl). cbn [drop_while take_while] in Hd, Ht.
    destruct (ref <=? m_last m1) eqn:E.
    + replace (tlt ref c) with false in Hd, Ht by (unfold tlt; lia). rewrite app_nil_r in Ht.
      rewrite Er, Hd, Ht. repeat split; auto. intros c0 r0 [= <- _]. auto.
    + replace (tlt ref c) with true in Hd, Ht by (unfold tlt; lia).
      destruct (memo_loop_spec ref c r (m_last m1) (m_prev m1)) as (l' & -> & HL2).
      cbn [m_rest m_last m_prev m_delta]. rewrite Hd, Ht. repeat split; auto.
      * intros c0 r0 E0. left. eauto.
      * destruct (last_opt (c :: tw ref r)) as [p|] eqn:Ep.
        -- rewrite last_opt_app2 by discriminate. exact Ep.
        -- apply last_opt_none in Ep. discriminate.
Qed.

Lemma MI_weaken R B B' m : MI R B m -> B <= B' -> MI R B' m.
Proof.
  intros (H1 & HB & H2 & H3) Hle. split; [exact H1|]. split; [lia|]. split.
  - intros c r Er. destruct (H2 c r Er) as [|[]]; auto. right. split; [assumption|lia].
  - destruct (m_prev m); auto. eapply Forall_impl; [|exact H3]. simpl; intros; lia.
Qed.

Lemma seek_MI R B ref m :
  MI R B m -> R <= ref -> B <= ref - m_delta m -> 0 <= m_delta m ->
  MI ref (ref - m_delta m) (memo_seek ref m) /\ m_delta (memo_seek ref m) = m_delta m.
Proof.
  intros HM Hle HB Hd. pose proof HM as (H1 & HB0 & H2 & H3).
  change (memo_seek ref m) with
    (seek2 ref (m_delta m)
       (if negb (is_nil (m_rest m)) && (m_last m <? ref - m_delta m) then
          let r := it_seek (ref - m_delta m) (m_rest m) in
          mkMemo r (match r with [] => m_last m | c :: _ => s_t c end) None (m_delta m)
        else m)).
  destruct (negb (is_nil (m_rest m)) && (m_last m <? ref - m_delta m)) eqn:E.
  - (* the seek advanced more than delta: the iterator is reset at ref - delta *)
    destruct (m_rest m) as [|c r] eqn:Er; [discriminate|]. apply Z.ltb_lt in E.
    assert (HR : R <= ref - m_delta m).
    { symmetry in H1. apply dw_head, Z.ltb_ge in H1. destruct (H2 c r eq_refl); lia. }
    cbv zeta. unfold it_seek. change (fun s => s_t s <? ref - m_delta m) with (tlt (ref - m_delta m)).
    rewrite H1, (dw_dw (tlt R)) by now apply tlt_mono.
    set (r0 := dw (ref - m_delta m) series).
    assert (HM0 : MI (ref - m_delta m) (ref - m_delta m)
                    (mkMemo r0 (match r0 with [] => m_last m | c0 :: _ => s_t c0 end) None (m_delta m))).
    { unfold MI; cbn [m_rest m_last m_prev]. split; [reflexivity|]. split; [lia|].
      split; [intros c0 r1 ->; auto|apply tw_lt]. }
    destruct (seek2_MI _ _ ref (m_delta m) _ HM0) as [HM' Hdel];
      [cbn [m_rest m_last]; now intros c0 r1 ->|lia|].
    split; [exact HM'|now apply Hdel].
  - destruct (seek2_MI R B ref (m_delta m) m HM) as [HM' Hdel]; [|exact Hle|].
    + (* no reset: lastTime is not the unset value, which is below ref - delta *)
      intros c r Er. destruct (H2 c r Er) as [|Hu]; auto. rewrite Er in E. apply Z.ltb_ge in E. lia.
    + split; [now apply (MI_weaken ref B)|now apply Hdel].
Qed.

(* what vectorSelectorSingle does after the Seek *)
Definition select_after (lookback ref : Z) (m' : memo) : option sample :=
  let peek :=
    match memo_peek_prev m' with
    | Some p => if s_t p <=? ref - lookback then None else Some p
    | None => None
    end in
  let pick :=
    match m_rest m' with
    | c :: _ => if ref <? s_t c then peek else Some c
    | [] => peek
    end in
  match pick with
  | Some s => if s_stale s then None else Some s
  | None => None
  end.

Lemma select_after_spec lookback ref B m' :
  0 < lookback -> MI ref B m' -> B <= ref - lookback + 1 ->
  select_after lookback ref m' = spec_instant lookback series ref.
Proof.
  intros Hlb (H1 & _ & _ & H3) HB.
  unfold spec_instant.
  change (fun s : sample => (ref - lookback <? s_t s) && (s_t s <=? ref)) with (inwin (ref - lookback) ref).
  rewrite spec_instant_latest by assumption.
  unfold select_after, latest_le. rewrite H1.
  (* PeekPrev is the last sample before ref, if the lookback reaches it *)
  assert (Hpeek :
    match memo_peek_prev m' with
    | Some p => if s_t p <=? ref - lookback then None else Some p
    | None => None
    end =
    match last_opt (tw ref series) with
    | Some p => if ref - lookback <? s_t p then Some p else None
    | None => None
    end).
  { unfold memo_peek_prev. destruct (m_prev m') as [p|].
    - rewrite H3. apply last_opt_in in H3.
      assert (In p series) by (rewrite <- (tw_dw (tlt ref) series); apply in_or_app; auto).
      rewrite Forall_forall in Hmin. specialize (Hmin _ H).
      replace (s_t p =? minInt64) with false by lia.
      rewrite Z.leb_antisym. now destruct (ref - lookback <? s_t p).
    - destruct (last_opt (tw ref series)) as [p|] eqn:E; auto.
      apply last_opt_in in E. rewrite Forall_forall in H3. specialize (H3 _ E).
      now replace (ref - lookback <? s_t p) with false by lia. }
  rewrite Hpeek.
  pose proof (ssorted_dw_ge ref series Hsorted) as Hge.
  destruct (dw ref series) as [|c r]; [now destruct (last_opt (tw ref series)) as [p|]; [destruct (_ <? _)|]|].
  inversion Hge; subst. destruct (s_t c =? ref) eqn:Ec.
  - replace (ref <? s_t c) with false by lia. now replace (ref - lookback <? s_t c) with true by lia.
  - replace (ref <? s_t c) with true by lia.
    now destruct (last_opt (tw ref series)) as [p|]; [destruct (_ <? _)|].
Qed.

(* a fresh iterator (first step of an evaluator), delta = lookback or lookback - 1 *)
Lemma vss_fresh lookback delta offset ts :
  0 < lookback -> lookback - 1 <= delta -> minInt64 < ts - offset - delta ->
  snd (vector_selector_single lookback (memo_new delta series) offset ts) =
  spec_instant lookback series (ts - offset).
Proof.
  intros Hlb Hd Hm.
  destruct (seek_MI _ _ (ts - offset) _ (new_MI delta)) as [HM _]; cbn [m_delta memo_new]; try lia.
  apply (select_after_spec lookback (ts - offset) _ _ Hlb HM). cbn [m_delta memo_new]. lia.
Qed.

(* one memoized iterator threaded through ascending evaluation times *)
Fixpoint ascending (l : list Z) : Prop :=
  match l with
  | [] => True
  | x :: r => match r with [] => True | y :: _ => x <= y end /\ ascending r
  end.

Definition out_point (isTs : bool) (t : Z) (s : sample) : point :=
  if isTs then mkP t KF (s_t s) else mkP t (s_k s) (s_id s).

Definition spec_steps (lookback : Z) (isTs : bool) (offset : Z) (ts : list Z) : list point :=
  flat_map (fun t => match spec_instant lookback series (t - offset) with
                     | Some s => [out_point isTs t s] | None => [] end) ts.

Lemma eval_steps_MI lookback isTs offset ts : forall m R B,
  0 < lookback -> lookback - 1 <= m_delta m -> 0 <= m_delta m ->
  MI R B m -> ascending ts ->
  match ts with t :: _ => R <= t - offset /\ B <= t - offset - m_delta m | [] => True end ->
  eval_steps lookback isTs m offset ts = spec_steps lookback isTs offset ts.
Proof.
  induction ts as [|t r IH]; intros m R B Hlb Hd Hd0 HM Hasc Hfirst; [reflexivity|].
  cbn [eval_steps spec_steps flat_map].
  change (vector_selector_single lookback m offset t)
    with (memo_seek (t - offset) m, select_after lookback (t - offset) (memo_seek (t - offset) m)).
  destruct Hfirst as [HR HB]. destruct (seek_MI R B (t - offset) m HM HR HB Hd0) as [HM' Hdel].
  rewrite (select_after_spec lookback (t - offset) (t - offset - m_delta m) _ Hlb HM') by lia.
  destruct Hasc as [Hh Hasc].
  assert (IH' : eval_steps lookback isTs (memo_seek (t - offset) m) offset r = spec_steps lookback isTs offset r).
  { eapply IH; eauto; try (rewrite Hdel; lia).
    destruct r as [|y r']; auto. rewrite Hdel. lia. }
  destruct (spec_instant lookback series (t - offset)) as [s|]; [|exact IH'].
  unfold out_point. destruct isTs; cbn [app]; now rewrite IH'.
Qed.

Lemma eval_steps_fresh lookback isTs delta offset ts :
  0 < lookback -> lookback - 1 <= delta -> ascending ts ->
  match ts with t :: _ => minInt64 < t - offset - delta | [] => True end ->
  eval_steps lookback isTs (memo_new delta series) offset ts = spec_steps lookback isTs offset ts.
Proof.
  intros Hlb Hd Hasc Hfirst.
  refine (eval_steps_MI lookback isTs offset ts (memo_new delta series) _ _ Hlb Hd _ (new_MI delta) Hasc _);
    cbn [m_delta memo_new]; [lia|]. destruct ts; auto. lia.
Qed.

End Memo.

Lemma buf_loop_cons2 t delta c n r last buf :
  buf_loop t delta (c :: n :: r) last buf =
  if t <=? s_t n then (n :: r, s_t n, ring_add delta buf c)
  else buf_loop t delta (n :: r) (s_t n) (ring_add delta buf c).
Proof. reflexivity. Qed.

Lemma buf_loop_spec t delta c rest last buf :
  exists l', buf_loop t delta (c :: rest) last buf =
             (dw t rest, l', fold_left (ring_add delta) (c :: tw t rest) buf).
Proof.
  revert c last buf. induction rest as [|n r IH]; intros c last buf.
  - exists last. reflexivity.
  - rewrite buf_loop_cons2. cbn [drop_while take_while]. rewrite Z.leb_antisym. fold (tlt t n).
    destruct (tlt t n); cbn [negb]; [|now exists (s_t n)].
    destruct (IH n (s_t n) (ring_add delta buf c)) as (l' & H1). exists l'. now rewrite H1.
Qed.

(* the ring drops nothing while all samples lie within delta of each other *)
Lemma ring_keep lo hi delta l : forall buf,
  hi - lo <= delta ->
  Forall (fun x => lo <= s_t x < hi) buf -> Forall (fun x => lo <= s_t x < hi) l ->
  fold_left (ring_add delta) l buf = buf ++ l.
Proof.
  induction l as [|s l IH]; intros buf Hd Hb Hl; simpl; [now rewrite app_nil_r|].
  inversion Hl; subst.
  assert (Hbs : Forall (fun x => lo <= s_t x < hi) (buf ++ [s])) by (apply Forall_app; auto).
  unfold ring_add. rewrite dw_nop, IH, <- app_assoc; auto.
  eapply Forall_impl; [|exact Hbs]. simpl. intros; lia.
Qed.

Definition winp (mint maxt : Z) (s : sample) : bool :=
  (mint <? s_t s) && (s_t s <=? maxt) && negb (s_stale s).

(* Seek(maxt) on a new iterator with delta = maxt - mint: the buffer holds the samples of
   [mint, maxt), the rest starts at maxt *)
Lemma buf_seek_fresh r series maxt :
  ssorted series -> 0 < r -> minInt64 < maxt - r ->
  b_rest (buf_seek maxt (buf_new r series)) = dw maxt (dw (maxt - r) series) /\
  b_buf (buf_seek maxt (buf_new r series)) = tw maxt (dw (maxt - r) series).
Proof.
  intros Hs Hr Hmin. set (mint := maxt - r) in *.
  pose proof (ssorted_dw_ge mint series Hs) as Hge. pose proof (ssorted_dw mint series Hs) as Hsd.
  unfold buf_seek, buf_new. cbn [b_rest b_last b_buf b_delta]. fold mint.
  replace (minInt64 <? mint) with true by lia. rewrite andb_true_r.
  destruct series as [|s0 series']; [auto|]. cbn [is_nil negb b_rest b_last b_buf b_delta]. unfold it_seek.
  change (fun s : sample => s_t s <? mint) with (tlt mint).
  destruct (dw mint (s0 :: series')) as [|c rest]; [auto|]. cbn [b_rest b_last b_buf].
  inversion Hge; subst. cbn [drop_while take_while]. unfold tlt at 1 3.
  destruct (maxt <=? s_t c) eqn:Ec.
  - replace (s_t c <? maxt) with false by lia. auto.
  - replace (s_t c <? maxt) with true by lia.
    destruct (buf_loop_spec maxt r c rest (s_t c) []) as (l' & ->). cbn [b_buf b_rest]. split; [reflexivity|].
    apply (ring_keep mint maxt r _ []); [lia|constructor|].
    constructor; [lia|]. destruct Hsd as [Hcr _].
    pose proof (tw_lt maxt rest) as Htw. apply Forall_forall. intros x Hx.
    rewrite Forall_forall in Htw, Hcr. specialize (Htw _ Hx).
    assert (In x rest) by (rewrite <- (tw_dw (tlt maxt) rest); apply in_or_app; now left).
    specialize (Hcr _ H). lia.
Qed.

Lemma mis_fresh r series maxt :
  ssorted series -> 0 <= r -> minInt64 < maxt - r ->
  matrix_iter_slice (buf_new r series) (maxt - r) maxt = spec_window r series maxt.
Proof.
  intros Hs Hr Hmin. unfold spec_window.
  change (fun s : sample => (maxt - r <? s_t s) && (s_t s <=? maxt) && negb (s_stale s))
    with (winp (maxt - r) maxt).
  unfold matrix_iter_slice. destruct (maxt - r =? maxt) eqn:E0.
  { symmetry. apply filter_none. intros s _. unfold winp. lia. }
  destruct (buf_seek_fresh r series maxt Hs) as [-> ->]; try lia.
  set (mint := maxt - r) in *.
  (* the series in three parts: before mint, [mint, maxt), from maxt on *)
  pose proof (ssorted_dw mint series Hs) as Hsd.
  rewrite <- (tw_dw (tlt mint) series) at 3. rewrite <- (tw_dw (tlt maxt) (dw mint series)) at 3.
  rewrite !filter_app, (filter_none _ (tw mint series)).
  2:{ intros s Hlt%(Forall_in (tw_lt _ _)). unfold winp. lia. }
  cbn [app]. f_equal.
  - apply filter_ext_in. intros x Hx. pose proof (tw_lt maxt (dw mint series)) as Htw.
    rewrite Forall_forall in Htw. specialize (Htw _ Hx). unfold winp. lia.
  - rewrite (filter_tail_ge _ maxt); auto using ssorted_dw, ssorted_dw_ge; [|intros; unfold winp; lia].
    destruct (dw maxt (dw mint series)) as [|c rest] eqn:Ed; [reflexivity|].
    apply dw_head in Ed. unfold tlt in Ed. unfold winp.
    destruct (s_t c =? maxt) eqn:Ec; [replace ((mint <? s_t c) && (s_t c <=? maxt)) with true by lia|
                                      replace ((mint <? s_t c) && (s_t c <=? maxt)) with false by lia]; reflexivity.
Qed.

(* Go's truncating division followed by the `start <= x` correction is floor division *)
Lemma sub_start_floor T suboff range interval :
  0 < interval ->
  sub_start T suboff range interval = interval * ((T - suboff - range) / interval + 1).
Proof.
  intros Hi. unfold sub_start, godiv. set (x := T - suboff - range).
  pose proof (Z.quot_rem' x interval) as Hq.
  pose proof (Z.div_mod x interval ltac:(lia)) as Hd.
  pose proof (Z.mod_pos_bound x interval Hi) as Hm.
  (* the remainder of truncating division has the sign of x *)
  assert (Hr : (0 <= x -> 0 <= Z.rem x interval < interval) /\
               (x < 0 -> - interval < Z.rem x interval <= 0)).
  { split; intros; [apply Z.rem_bound_pos|apply Z.rem_bound_pos_neg]; lia. }
  set (q := Z.quot x interval) in *. set (d := x / interval) in *.
  destruct (interval * q <=? x) eqn:E.
  - assert (q = d) by nia. lia.
  - assert (q = d + 1) by nia. lia.
Qed.

Lemma steps_eq_spec T suboff range interval :
  0 < interval ->
  steps (sub_start T suboff range interval) (T - suboff) interval =
  spec_sub_times interval (T - suboff - range) (T - suboff).
Proof.
  intros Hi. rewrite sub_start_floor by assumption. unfold steps, spec_sub_times.
  set (f := interval * ((T - suboff - range) / interval + 1)).
  destruct (T - suboff <? f) eqn:E; auto.
  unfold godiv. rewrite Z.quot_div_nonneg by lia. reflexivity.
Qed.

Lemma spec_sub_times_in step lo hi u :
  0 < step ->
  In u (spec_sub_times step lo hi) <-> (lo < u <= hi /\ u mod step = 0).
Proof.
  intros Hs. unfold spec_sub_times.
  pose proof (Z.div_mod lo step ltac:(lia)) as Hd.
  pose proof (Z.mod_pos_bound lo step Hs) as Hm.
  set (d := lo / step) in *. set (f := step * (d + 1)).
  assert (Hf : lo < f <= lo + step) by (unfold f; nia).
  destruct (hi <? f) eqn:E.
  - split; [intros []|]. intros [[H1 H2] H3].
    apply Z.mod_divide in H3; [|lia]. destruct H3 as [j Hj]. subst u. unfold f in *.
    assert (j < d + 1) by nia. assert (j * step <= step * d) by nia. lia.
  - pose proof (Z.div_mod (hi - f) step ltac:(lia)) as Hd2.
    pose proof (Z.mod_pos_bound (hi - f) step Hs) as Hm2.
    assert (Hn : 0 <= (hi - f) / step) by (apply Z.div_pos; lia).
    rewrite in_map_iff. split.
    + intros (k & Hk & Hin). apply in_seq in Hin. subst u. split; [nia|].
      unfold f. replace (step * (d + 1) + Z.of_nat k * step) with ((d + 1 + Z.of_nat k) * step) by ring.
      apply Z_mod_mult.
    + intros [[H1 H2] H3]. apply Z.mod_divide in H3; [|lia]. destruct H3 as [j Hj]. subst u.
      assert (Hj1 : d + 1 <= j) by (unfold f in *; nia).
      exists (Z.to_nat (j - (d + 1))). split; [rewrite Z2Nat.id by lia; unfold f; ring|].
      apply in_seq. split; [lia|]. simpl.
      assert (j - (d + 1) <= (hi - f) / step) by (apply Z.div_le_lower_bound; [lia|]; unfold f; nia).
      lia.
Qed.

(* strictly ascending lists of times *)
Fixpoint zsorted (l : list Z) : Prop :=
  match l with
  | [] => True
  | x :: r => Forall (fun y => x < y) r /\ zsorted r
  end.

Lemma spec_sub_times_sorted step lo hi : 0 < step -> zsorted (spec_sub_times step lo hi).
Proof.
  intros Hs. unfold spec_sub_times. destruct (hi <? _); simpl; auto.
  generalize 0%nat. induction (Z.to_nat _) as [|n IH]; intros k0; simpl; auto. split; auto.
  apply Forall_forall. intros y Hy. apply in_map_iff in Hy as (k & <- & Hk). apply in_seq in Hk. nia.
Qed.

Lemma zsorted_ascending l : zsorted l -> ascending l.
Proof.
  induction l as [|x r IH]; simpl; auto. intros [H1 H2]. split; auto.
  destruct r; auto. inversion H1; subst. lia.
Qed.

Lemma len_split w : (length (floats_of w) + length (hists_of w))%nat = length w.
Proof.
  induction w as [|p w IH]; simpl; auto. destruct (p_k p); simpl; lia.
Qed.

Lemma rfn_agree f T w : psorted w -> call_rfn f T w = spec_rfn f T w.
Proof.
  intros Hs. unfold call_rfn, spec_rfn. destruct w as [|p0 w0]; auto.
  cbv beta iota. assert (Hne : p0 :: w0 <> []) by discriminate.
  revert Hs Hne. generalize (p0 :: w0). intros w Hs Hne. destruct f.
  - cbn [apply_rfn]. now rewrite len_split.
  - (* last_over_time: the later of the last float and the last histogram is the last point *)
    destruct (last_opt w) as [p|] eqn:El; [|apply last_opt_none in El; contradiction].
    apply last_opt_split in El as [w' ->].
    apply ksorted_app in Hs as (_ & _ & Hlt). rewrite Forall_forall in Hlt.
    unfold apply_rfn, floats_of, hists_of. rewrite !filter_app. simpl filter.
    destruct (p_k p) eqn:Ek; simpl kind_eqb; cbv iota; rewrite app_nil_r, last_opt_app.
    + destruct (last_opt (filter _ w')) as [h|] eqn:Eh; auto.
      apply last_opt_in, filter_In in Eh as [Hin _]. specialize (Hlt _ Hin). inversion Hlt; subst.
      now replace (p_t h <? p_t p) with true by lia.
    + destruct (last_opt (filter _ w')) as [fl|] eqn:Ef; auto.
      apply last_opt_in, filter_In in Ef as [Hin _]. specialize (Hlt _ Hin). inversion Hlt; subst.
      now replace (p_t p <? p_t fl) with false by lia.
  - reflexivity.
Qed.

Definition spec_inner_pts (c : cfg) (series : list sample) (i : inner) (ts : list Z) : list point :=
  flat_map (fun u => match spec_inner c series i u with Some p => [p] | None => [] end) ts.

(* a selector with @: evaluated once at the first step, the point (if any) repeated at every step *)
Lemma at_steps series lb isTs delta off start r :
  ssorted series -> Forall (fun s => minInt64 < s_t s) series ->
  0 < lb -> lb - 1 <= delta -> minInt64 < start - off - delta ->
  match eval_steps lb isTs (memo_new delta series) off [start] with
  | p :: _ => map (fun t => mkP t (p_k p) (p_v p)) (start :: r)
  | [] => []
  end =
  flat_map (fun u => match spec_instant lb series (start - off) with
                     | Some s => [out_point isTs u s] | None => [] end) (start :: r).
Proof.
  intros Hs Hmin Hlb Hd Hg. rewrite (eval_steps_fresh series Hs Hmin) by (simpl; auto).
  unfold spec_steps. cbn [flat_map]. rewrite app_nil_r.
  destruct (spec_instant lb series (start - off)) as [s|]; [|now rewrite flat_map_nil].
  rewrite flat_map_singleton. now destruct isTs.
Qed.

Lemma eval_inner_spec c series i off ts :
  ssorted series -> Forall (fun s => minInt64 < s_t s) series -> 0 < c_lookback c ->
  zsorted ts ->
  match i with
  | IVSel o None | ITs o None => off = o
  | IVSel o (Some a) => match ts with start :: _ => start - off = a - o | [] => True end
  | ITs _ (Some _) => True
  end ->
  match ts with t :: _ => minInt64 + c_lookback c < eff t (inner_off i) (inner_at i) | [] => True end ->
  eval_inner c series i off ts = spec_inner_pts c series i ts.
Proof.
  intros Hs Hmin Hlb Hts Hoff Hg. unfold spec_inner_pts.
  destruct ts as [|start r]; [reflexivity|]. apply zsorted_ascending in Hts.
  unfold eval_inner.
  (* either way the engine side becomes the flat_map of the specification, up to its body *)
  destruct i as [o [a|]|o [a|]]; cbn [inner_at inner_off] in *; unfold eff in Hg.
  1: rewrite (at_steps series), Hoff by (auto; lia).
  3: rewrite (at_steps series) by (auto; lia); replace (start - (o + (start - a))) with (a - o) by lia.
  2, 4: subst off; rewrite (eval_steps_fresh series Hs Hmin) by (auto; lia).
  all: apply flat_map_ext; intros u; unfold spec_inner, eff; now destruct (spec_instant _ _ _).
Qed.

(* no evaluation time is within a window of math.MinInt64 (the iterators' "unset" sentinel) *)
Definition min_guard (c : cfg) (q : query) : Prop :=
  match q with
  | QInner i => minInt64 + c_lookback c < eff (c_ts c) (inner_off i) (inner_at i)
  | QRange r off a | QRangeFn _ r off a => minInt64 + r < eff (c_ts c) off a
  | QSub i r _ off a | QSubFn _ i r _ off a =>
      minInt64 + r < eff (c_ts c) off a /\
      minInt64 + c_lookback c + r < eff (eff (c_ts c) off a) (inner_off i) (inner_at i)
  | _ => True
  end.

Lemma eff_at_offset T off a : T - at_offset T off a 0 = eff T off a.
Proof. unfold at_offset, eff. destruct a; lia. Qed.

Lemma steps_head s e i t r : steps s e i = t :: r -> t = s.
Proof.
  unfold steps. destruct (e <? s); [discriminate|].
  destruct (Z.to_nat (godiv (e - s) i + 1)); simpl; [discriminate|].
  intros H; inversion H. lia.
Qed.

Lemma sub_interval_pos c step : 0 < c_defstep c -> 0 <= step -> 0 < sub_interval c step.
Proof. intros. unfold sub_interval. destruct (step =? 0) eqn:E; lia. Qed.

Lemma run_subquery_spec c series i r step off a :
  ssorted series -> Forall (fun s => minInt64 < s_t s) series ->
  0 < c_lookback c -> 0 < c_defstep c -> 0 < r -> 0 <= step ->
  minInt64 + c_lookback c + r < eff (eff (c_ts c) off a) (inner_off i) (inner_at i) ->
  run_subquery c series i r step off a = spec_sub c series i r step off a.
Proof.
  intros Hs Hmin Hlb Hds Hr Hst Hg.
  pose proof (sub_interval_pos c step Hds Hst) as Hi.
  unfold run_subquery, spec_sub.
  set (T := c_ts c) in *. set (suboff := at_offset T off a 0) in *.
  set (interval := sub_interval c step) in *.
  set (start := sub_start T suboff r interval) in *.
  assert (Hte : T - suboff = eff T off a) by apply eff_at_offset.
  pose proof (steps_eq_spec T suboff r interval Hi) as Hsteps. fold start in Hsteps.
  pose proof (steps_head start (T - suboff) interval) as Hhead.
  rewrite Hsteps in *. rewrite Hte in *.
  set (ts := spec_sub_times interval (eff T off a - r) (eff T off a)) in *.
  assert (Hin : forall t, In t ts -> eff T off a - r < t).
  { intros t Ht. apply spec_sub_times_in in Ht; auto. lia. }
  apply eval_inner_spec; auto.
  - now apply spec_sub_times_sorted.
  - destruct i as [o [a1|]|o [a1|]]; cbn [inner_off inner_at]; auto.
    destruct ts as [|t0 r0] eqn:Ets; auto. specialize (Hhead _ _ eq_refl). subst t0.
    unfold at_offset. lia.
  - destruct ts as [|t0 r0] eqn:Ets; auto. specialize (Hin t0 (or_introl eq_refl)).
    unfold eff in *. destruct (inner_at i); lia.
Qed.

Lemma inner_pts_sorted c series i ts :
  zsorted ts ->
  psorted (spec_inner_pts c series i ts) /\ Forall (fun p => In (p_t p) ts) (spec_inner_pts c series i ts).
Proof.
  unfold spec_inner_pts. induction ts as [|u r IH]; simpl; auto. intros [H1 H2].
  destruct (IH H2) as [IH1 IH2].
  assert (IH2' : Forall (fun p => u = p_t p \/ In (p_t p) r)
                   (flat_map (fun u0 => match spec_inner c series i u0 with Some p => [p] | None => [] end) r)).
  { eapply Forall_impl; [|exact IH2]. simpl; auto. }
  destruct (spec_inner c series i u) as [p|] eqn:E; simpl; auto.
  assert (Hp : p_t p = u).
  { unfold spec_inner in E. destruct i; destruct (spec_instant _ _ _); inversion E; reflexivity. }
  split; [split; auto|constructor; auto].
  apply Forall_forall. intros y Hy. rewrite Forall_forall in IH2. specialize (IH2 _ Hy).
  rewrite Forall_forall in H1. rewrite Hp. auto.
Qed.

Lemma pt_smp_id l : map pt_of (map smp_of l) = l.
Proof. induction l as [|p r IH]; simpl; auto. rewrite IH. destruct p; reflexivity. Qed.

Theorem engine_eq_spec c q series :
  sortedb series = true -> Forall (fun s => minInt64 < s_t s) series ->
  wf_query c q = true -> modelled q = true -> min_guard c q ->
  engine_eval c q series = spec_eval c q series.
Proof.
  intros Hsb%sortedb_ssorted Hmin Hwf Hmod Hg.
  unfold wf_query in Hwf. apply andb_prop in Hwf as [Hwf Hwq]. apply andb_prop in Hwf as [Hlb Hds].
  apply Z.ltb_lt in Hlb, Hds.
  destruct q as [i|r off a|f r off a|i r step off a|f i r step off a| |]; try discriminate Hmod;
    cbn [min_guard] in Hg; unfold engine_eval, spec_eval.
  - (* instant selector / timestamp() *)
    rewrite (eval_inner_spec c series i _ [c_ts c]); auto.
    + unfold spec_inner_pts. cbn [flat_map]. rewrite app_nil_r.
      destruct (spec_inner c series i (c_ts c)); reflexivity.
    + simpl; auto.
    + destruct i as [o [a1|]|o [a1|]]; cbn [inner_off inner_at at_offset]; auto. lia.
  - (* m[r] *)
    apply Z.ltb_lt in Hwq. rewrite eff_at_offset, mis_fresh; auto; lia.
  - apply Z.ltb_lt in Hwq. rewrite eff_at_offset, mis_fresh; auto; try lia. f_equal. apply rfn_agree.
    apply (ksorted_map s_t); auto. now apply ksorted_filter.
  - (* subquery *)
    apply andb_prop in Hwq as [Hr%Z.ltb_lt Hst%Z.leb_le].
    f_equal. apply run_subquery_spec; auto; tauto.
  - apply andb_prop in Hwq as [Hr%Z.ltb_lt Hst%Z.leb_le]. destruct Hg as [Hg1 Hg2].
    rewrite run_subquery_spec, eff_at_offset; auto.
    pose proof (sub_interval_pos c step Hds Hst) as Hi.
    unfold spec_sub.
    set (te := eff (c_ts c) off a) in *.
    set (ts := spec_sub_times (sub_interval c step) (te - r) te).
    fold (spec_inner_pts c series i ts).
    destruct (inner_pts_sorted c series i ts (spec_sub_times_sorted _ _ _ Hi)) as [Hps Hpin].
    set (pts := spec_inner_pts c series i ts) in *.
    rewrite mis_fresh; try lia; [|now apply (ksorted_map p_t)].
    (* evalSubquery: every point of the subquery lies in the window of the range function *)
    unfold spec_window. rewrite filter_all, pt_smp_id; [f_equal; now apply rfn_agree|].
    intros s (p & <- & Hp)%in_map_iff. apply (Forall_in Hpin) in Hp.
    apply spec_sub_times_in in Hp; auto. simpl. lia.
Qed.

Lemma filter_filter_imp {A} (p q : A -> bool) l :
  (forall x, p x = true -> q x = true) -> filter p (filter q l) = filter p l.
Proof.
  intros Himp. rewrite filter_filter. apply filter_ext. intros x.
  destruct (p x) eqn:Ep; [rewrite (Himp x Ep); reflexivity|apply andb_false_r].
Qed.

Lemma spec_instant_restrict lb h series te :
  fst h <= te - lb + 1 -> te <= snd h ->
  spec_instant lb (restrict h series) te = spec_instant lb series te.
Proof.
  intros H1 H2. unfold spec_instant, restrict. rewrite filter_filter_imp; auto. intros; lia.
Qed.

Lemma spec_window_restrict r h series te :
  fst h <= te - r + 1 -> te <= snd h ->
  spec_window r (restrict h series) te = spec_window r series te.
Proof.
  intros H1 H2. unfold spec_window, restrict. rewrite filter_filter_imp; auto. intros; lia.
Qed.

Lemma spec_inner_restrict c h series i u :
  fst h <= eff u (inner_off i) (inner_at i) - c_lookback c + 1 ->
  eff u (inner_off i) (inner_at i) <= snd h ->
  spec_inner c (restrict h series) i u = spec_inner c series i u.
Proof.
  intros H1 H2. destruct i; cbn [inner_off inner_at] in *; unfold spec_inner;
    rewrite spec_instant_restrict; auto.
Qed.

Lemma spec_sub_restrict c series i r step off a :
  0 < c_defstep c -> 0 <= step ->
  spec_sub c (restrict (hints c (QSub i r step off a)) series) i r step off a =
  spec_sub c series i r step off a.
Proof.
  intros Hds Hst. pose proof (sub_interval_pos c step Hds Hst) as Hi.
  unfold spec_sub. apply flat_map_ext_in. intros u Hu.
  apply spec_sub_times_in in Hu; auto. destruct Hu as [[Hu1 Hu2] _].
  rewrite spec_inner_restrict; auto; unfold hints, eff in *; destruct (inner_at i); destruct a; cbn [fst snd]; lia.
Qed.

Lemma spec_sub2_restrict c series f1 i r1 s1 off1 a1 r2 s2 off2 a2 :
  0 < c_defstep c -> 0 <= s1 -> 0 <= s2 ->
  spec_sub2 c (restrict (hints c (QSub2 f1 i r1 s1 off1 a1 r2 s2 off2 a2)) series) f1 i r1 s1 off1 a1 r2 s2 off2 a2 =
  spec_sub2 c series f1 i r1 s1 off1 a1 r2 s2 off2 a2.
Proof.
  intros Hds Hs1 Hs2.
  pose proof (sub_interval_pos c s2 Hds Hs2) as Hi2.
  unfold spec_sub2. apply flat_map_ext_in. intros u2 Hu2.
  apply spec_sub_times_in in Hu2; auto. destruct Hu2 as [[Hu2a Hu2b] _].
  replace (spec_sub (mkCfg u2 (c_lookback c) (c_defstep c))
             (restrict (hints c (QSub2 f1 i r1 s1 off1 a1 r2 s2 off2 a2)) series) i r1 s1 off1 a1)
    with (spec_sub (mkCfg u2 (c_lookback c) (c_defstep c)) series i r1 s1 off1 a1); [reflexivity|].
  unfold spec_sub. cbn [c_ts]. apply flat_map_ext_in. intros u1 Hu1.
  assert (Hi1 : 0 < sub_interval (mkCfg u2 (c_lookback c) (c_defstep c)) s1)
    by (apply sub_interval_pos; auto).
  apply spec_sub_times_in in Hu1; auto. destruct Hu1 as [[Hu1a Hu1b] _].
  rewrite spec_inner_restrict; auto; cbn [c_lookback]; unfold hints, eff in *;
    destruct (inner_at i); destruct a1; destruct a2; cbn [fst snd]; lia.
Qed.

Theorem hints_cover c q series :
  wf_query c q = true ->
  spec_eval c q (restrict (hints c q) series) = spec_eval c q series.
Proof.
  intros Hwf. unfold wf_query in Hwf. apply andb_prop in Hwf as [Hwf Hwq]. apply andb_prop in Hwf as [Hlb Hds].
  destruct q as [i|r off a|f r off a|i r step off a|f i r step off a
                |f1 i r1 s1 off1 a1 r2 s2 off2 a2|f2 f1 i r1 s1 off1 a1 r2 s2 off2 a2]; unfold spec_eval.
  2, 3: rewrite spec_window_restrict; auto; unfold hints, eff;
      replace (r =? 0) with false by lia; destruct a; cbn [fst snd]; lia.
  - rewrite spec_inner_restrict; auto; unfold hints, eff; destruct (inner_at i); cbn [fst snd];
      rewrite ?Z.eqb_refl; lia.
  - rewrite spec_sub_restrict; auto; lia.
  - change (hints c (QSubFn f i r step off a)) with (hints c (QSub i r step off a)).
    rewrite spec_sub_restrict; auto; lia.
  - rewrite spec_sub2_restrict; auto; lia.
  - change (hints c (QSub2Fn f2 f1 i r1 s1 off1 a1 r2 s2 off2 a2)) with (hints c (QSub2 f1 i r1 s1 off1 a1 r2 s2 off2 a2)).
    rewrite spec_sub2_restrict; auto; lia.
Qed.

(* the engine, fed by a storage that returns exactly the hinted range, computes the documented
   selection over the full series *)
Theorem engine_on_storage_spec c q series :
  sortedb series = true -> Forall (fun s => minInt64 < s_t s) series ->
  wf_query c q = true -> modelled q = true -> min_guard c q ->
  engine_on_storage c q series = spec_eval c q series.
Proof.
  intros Hsb Hmin Hwf Hmod Hg. unfold engine_on_storage.
  rewrite engine_eq_spec; auto.
  - now apply hints_cover.
  - apply sortedb_ssorted, ksorted_filter. now apply sortedb_ssorted.
  - now apply Forall_filter.
Qed.

Lemma ssorted_time_inj l a b : ssorted l -> In a l -> In b l -> s_t a = s_t b -> a = b.
Proof.
  induction l as [|x r IH]; simpl; [tauto|]. intros [H1 H2] [Ha|Ha] [Hb|Hb] E; subst; auto.
  - rewrite Forall_forall in H1. specialize (H1 _ Hb). lia.
  - rewrite Forall_forall in H1. specialize (H1 _ Ha). lia.
Qed.

Lemma spec_instant_meaning lookback series te s :
  sortedb series = true -> 0 < lookback ->
  (spec_instant lookback series te = Some s <->
   In s series /\ te - lookback < s_t s <= te /\ s_stale s = false /\
   forall s', In s' series -> s_t s' <= te -> s_t s' <= s_t s).
Proof.
  intros Hsb%sortedb_ssorted Hlb. unfold spec_instant.
  set (W := fun s0 : sample => (te - lookback <? s_t s0) && (s_t s0 <=? te)).
  assert (HW : forall x, In x (filter W series) <-> In x series /\ te - lookback < s_t x <= te).
  { intros x. rewrite filter_In. unfold W. intuition lia. }
  pose proof (ksorted_filter s_t W series Hsb) as Hsf.
  destruct (last_opt (filter W series)) as [s0|] eqn:El.
  - pose proof (ksorted_last_max s_t _ _ Hsf El) as Hmax. apply last_opt_in, HW in El as [Hin0 Hw0]. split.
    + destruct (s_stale s0) eqn:Est; [discriminate|]. intros [= <-]. repeat split; auto; try lia.
      intros s' Hs' Hle. destruct (Z_lt_le_dec (te - lookback) (s_t s')); [|lia].
      apply Hmax, HW. auto.
    + intros (Hin & Hw & Hst & Hmx).
      assert (s0 = s); [|subst s0; now rewrite Hst].
      apply (ssorted_time_inj series); auto.
      pose proof (Hmax s (proj2 (HW s) (conj Hin Hw))). pose proof (Hmx s0 Hin0 ltac:(lia)). lia.
  - split; [discriminate|]. intros (Hin & Hw & _). apply last_opt_none in El.
    assert (Hf : In s (filter W series)) by (apply HW; auto). rewrite El in Hf. contradiction.
Qed.
