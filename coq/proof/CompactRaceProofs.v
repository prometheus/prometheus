(* proof/CompactRaceProofs.v — C06_exactly_once.  What the definitions of model/CompactRace.v compute
   (membership tests, wf_init, the three ways DB.Querier can finish); the invariant, with its frame
   lemmas; its preservation by every step; the theorems. *)
From Coq Require Import List ZArith Bool Lia.
From Verif Require Import lib.SortedList model.CompactRace.
Import ListNotations.
Open Scope Z_scope.

Ltac inv H := inversion H; subst; clear H.

Lemma guard_some b s s' : guard b s = Some s' -> b = true /\ s' = s.
Proof. unfold guard; destruct b; intros H; inv H; auto. Qed.

Lemma in_blocks_samples x bs : In x (blocks_samples bs) <-> exists b, In b bs /\ In x (b_samples b).
Proof. unfold blocks_samples; rewrite in_flat_map; tauto. Qed.

Lemma in_ooo_samples x om : In x (ooo_samples om) <-> exists c, In c om /\ In x (oc_samples c).
Proof. unfold ooo_samples; rewrite in_flat_map; tauto. Qed.

Lemma blocks_samples_app a b : blocks_samples (a ++ b) = blocks_samples a ++ blocks_samples b.
Proof. unfold blocks_samples; apply flat_map_app. Qed.

Lemma memZ_true x l : memZ x l = true <-> In x l.
Proof. apply (existsb_eqb_In Z.eqb Z.eqb_eq). Qed.

Lemma memZ_false x l : memZ x l = false <-> ~ In x l.
Proof. apply (existsb_eqb_notin Z.eqb Z.eqb_eq). Qed.

Lemma sample_eqb_eq a b : sample_eqb a b = true <-> a = b.
Proof.
  unfold sample_eqb; destruct a, b; simpl; rewrite !andb_true_iff, !Z.eqb_eq; split.
  - intros [[? ?] ?]; subst; auto.
  - intros H; inv H; auto.
Qed.

Lemma mem_sample_true x l : mem_sample x l = true <-> In x l.
Proof. apply (existsb_eqb_In sample_eqb sample_eqb_eq). Qed.

Lemma ooo_samples_map L om :
  ooo_samples (map (fun c => mkOC (Some L) (oc_samples c)) om) = ooo_samples om.
Proof. unfold ooo_samples; induction om; simpl; auto; rewrite IHom; auto. Qed.

Lemma ooo_samples_filter f om x : In x (ooo_samples (filter f om)) -> In x (ooo_samples om).
Proof.
  rewrite !in_ooo_samples. intros (c & Hc & Hx). apply filter_In in Hc. exists c; tauto.
Qed.

Lemma in_block_range_true lo hi x : in_block_range lo hi x = true <-> lo <= s_t x < hi.
Proof. unfold in_block_range; rewrite andb_true_iff, Z.leb_le, Z.ltb_lt; tauto. Qed.

Lemma in_range_true lo hi x : in_range lo hi x = true <-> lo <= s_t x <= hi.
Proof. unfold in_range; rewrite andb_true_iff, !Z.leb_le; tauto. Qed.

Lemma block_wf_overlap b x lo hi :
  block_wf b = true -> In x (b_samples b) -> lo <= s_t x <= hi -> block_overlaps lo hi b = true.
Proof.
  unfold block_wf, block_overlaps; intros W I R.
  rewrite forallb_forall in W; apply W in I; apply in_block_range_true in I.
  apply andb_true_intro. split; [apply Z.leb_le|apply Z.ltb_lt]; lia.
Qed.

Lemma find_q_some s q x : find_q s q = Some x -> In x (queriers s) /\ q_id x = q.
Proof. unfold find_q; intros H; apply find_some in H; destruct H as [? E]; apply Z.eqb_eq in E; auto. Qed.

Lemma in_others s q x : In x (others s q) <-> In x (queriers s) /\ q_id x <> q.
Proof.
  unfold others; rewrite filter_In, negb_true_iff, Z.eqb_neq; tauto.
Qed.

Lemma all_done_spec s : all_done s = true -> forall x, In x (queriers s) -> q_stage x = Done.
Proof.
  unfold all_done; rewrite forallb_forall; intros H x I; apply H in I; destruct (q_stage x); auto; discriminate.
Qed.

Lemma in_drop_fst {A} (q a : Z) (b : A) l :
  In (a, b) l -> a <> q -> In (a, b) (filter (fun r => negb (fst r =? q)) l).
Proof. intros H N. apply filter_In. split; [exact H|]. cbn. apply negb_true_iff, Z.eqb_neq, N. Qed.

Lemma in_drop_fst3 (q a b c : Z) l :
  In (a, b, c) l -> a <> q -> In (a, b, c) (filter (fun r => negb (fst (fst r) =? q)) l).
Proof. intros H N. apply filter_In. split; [exact H|]. cbn. apply negb_true_iff, Z.eqb_neq, N. Qed.

Lemma gc_done_some s hi om lower nm no p s' :
  gc_done s hi om lower nm no p = Some s' ->
  s' = set_pc (set_ooo (set_head s hi nm) om no) p /\ lower <= nm /\
  (forall x, In x hi -> nm <= s_t x) /\ (forall x, In x (ooo_samples om) -> no <= s_t x).
Proof.
  unfold gc_done. intros H. apply guard_some in H as [G ->].
  apply andb_prop in G as [G G3]. apply andb_prop in G as [G1 G2]. rewrite forallb_forall in G2, G3.
  split; [reflexivity|]. split; [apply Z.leb_le, G1|]. split; intros x Hx; apply Z.leb_le; auto.
Qed.


Record Quiescent (s : state) : Prop := {
  w_pc : pc s = Idle;
  w_flag : trunc_flag s = false;
  w_failed : failed s = false;
  w_queriers : queriers s = [];
  w_iso : iso s = [];
  w_reads : ooo_reads s = [];
  w_pending : pending s = [];
  w_to_close : to_close s = [];
  w_closing : closing s = [];
  w_head : forall x, In x (head_ino s) -> head_mint s <= s_t x;
  w_ooo : forall x, In x (ooo_samples (ooo_mem s)) -> ooo_mint s <= s_t x <= ooo_maxt s;
  w_refs : forall c, In c (ooo_mem s) -> chunk_visible (gc_ref s) c = true;
  w_gc : 0 <= gc_ref s;
  w_blocks : forall b, In b (db_blocks s) -> block_wf b = true /\ ~ In (b_id b) (closed s)
}.

Lemma wf_init_spec s : wf_init s = true -> Quiescent s.
Proof.
  unfold wf_init. intros H.
  apply andb_prop in H as [H W10]. apply andb_prop in H as [H W9]. apply andb_prop in H as [H W8].
  apply andb_prop in H as [H W7]. apply andb_prop in H as [H W6]. apply andb_prop in H as [H W5].
  apply andb_prop in H as [H W4]. apply andb_prop in H as [H W3]. apply andb_prop in H as [W1 W2].
  apply negb_true_iff in W2, W3. rewrite forallb_forall in W5, W6, W7, W9, W10.
  destruct (pc s) eqn:E1; try discriminate W1.
  destruct (queriers s) eqn:E2; [|discriminate W4]. destruct (iso s) eqn:E3; [|discriminate W4].
  destruct (ooo_reads s) eqn:E4; [|discriminate W4]. destruct (pending s) eqn:E5; [|discriminate W4].
  destruct (to_close s) eqn:E6; [|discriminate W4]. destruct (closing s) eqn:E7; [|discriminate W4].
  constructor; auto.
  - intros x Hx. apply Z.leb_le, W5, Hx.
  - intros x Hx. apply W6 in Hx. apply andb_prop in Hx as [A B]. split; apply Z.leb_le; assumption.
  - apply Z.leb_le, W8.
  - intros b Hb. split; [apply W9, Hb|]. apply memZ_false, negb_true_iff, W10, Hb.
Qed.

Lemma if_some {A} (b : bool) (a c r : A) : (if b then Some a else Some c) = Some r -> r = if b then a else c.
Proof. destruct b; intros H; injection H as <-; reflexivity. Qed.


Definition done_q (x : querier) (from oref : option Z) : querier :=
  mkQ (q_id x) (q_mint x) (q_maxt x) Done (q_blocks x) (q_hm x) (q_ooo x) (q_hashead x) (q_gc x) from oref.

(* x, in creation, is replaced by its open form; i and o are the isolation registrations afterwards *)
Definition finished (s : state) (x : querier) (i : list (Z * Z * Z)) (o : list (Z * Z))
    (from oref : option Z) : state :=
  set_readers s i o (pending s) (done_q x from oref :: others s (q_id x)).

Definition drop_iso (s : state) (q : Z) : list (Z * Z * Z) :=
  filter (fun r => negb (fst (fst r) =? q)) (iso s).

(* What IsQuerierCollidingWithTruncation makes of the head querier of x: the isolation registrations
   left (besides the one of an out-of-order querier), the lowest time the in-order part reads (None:
   the head querier is closed and not reopened), and the lowest time an out-of-order querier's
   in-order part reads. *)
Inductive head_finish (s : state) (x : querier) : list (Z * Z * Z) -> option Z -> Z -> Prop :=
| hf_clear : (trunc_flag s = true -> trunc_time s <= q_mint x) ->
    head_finish s x (iso s) (Some (q_mint x)) (Z.max (q_hm x) (q_mint x))
| hf_below : trunc_flag s = true -> q_maxt x < trunc_time s ->
    head_finish s x (drop_iso s (q_id x)) None (trunc_time s)
| hf_across : trunc_flag s = true -> q_mint x < trunc_time s <= q_maxt x ->
    head_finish s x ((q_id x, trunc_time s, q_maxt x) :: drop_iso s (q_id x)) (Some (trunc_time s)) (trunc_time s).

Lemma step_EQFinish_cases s q s' :
  step s (EQFinish q) = Some s' ->
  exists x, In x (queriers s) /\ q_id x = q /\
    ((q_stage x = Begun /\ q_hashead x = false /\ s' = finished s x (iso s) (ooo_reads s) None None) \/
     (q_stage x = Opened /\ exists i inner im, head_finish s x i inner im /\
        s' = if q_ooo x
             then finished s x ((q, im, q_maxt x) :: i) ((q, q_gc x) :: ooo_reads s) (Some im) (Some (q_gc x))
             else finished s x i (ooo_reads s) inner None)).
Proof.
  cbn [step]. destruct (find_q s q) as [x|] eqn:F; [|discriminate].
  apply find_q_some in F. destruct F as [Fx <-]. intros H. exists x. split; [exact Fx|]. split; [reflexivity|].
  destruct (q_stage x); [left|right|discriminate].
  - apply guard_some in H as [G ->]. apply negb_true_iff in G. auto.
  - split; [reflexivity|]. unfold colliding in H.
    destruct (trunc_flag s) eqn:FL.
    + destruct (Z.ltb_spec (q_maxt x) (trunc_time s)) as [C1|C1].
      * eexists _, _, _. split; [apply hf_below; auto|]. exact (if_some _ _ _ _ H).
      * destruct (Z.ltb_spec (q_mint x) (trunc_time s)) as [C2|C2].
        -- eexists _, _, _. split; [apply hf_across; auto|]. exact (if_some _ _ _ _ H).
        -- eexists _, _, _. split; [apply hf_clear; auto|]. exact (if_some _ _ _ _ H).
    + eexists _, _, _. split; [apply hf_clear; congruence|]. exact (if_some _ _ _ _ H).
Qed.

Lemma step_EQFinish_regs s q s' :
  step s (EQFinish q) = Some s' ->
  exists x i o from oref, In x (queriers s) /\ q_id x = q /\ q_stage x <> Done /\
    s' = finished s x i o from oref /\
    (forall e, In e i -> In e (iso s) \/ fst (fst e) = q) /\
    (forall e, In e o -> In e (ooo_reads s) \/ fst e = q).
Proof.
  intros H. apply step_EQFinish_cases in H. destruct H as (x & Hx & <- & H). exists x.
  destruct H as [(St & _ & ->)|(St & i & inner & im & HF & ->)].
  - eexists _, _, _, _. repeat split; eauto. congruence.
  - assert (HI : forall e, In e i -> In e (iso s) \/ fst (fst e) = q_id x).
    { destruct HF; intros e He; auto; [|destruct He as [<-|He]; [right; reflexivity|]];
        apply filter_In in He; left; apply He. }
    destruct (q_ooo x); eexists _, _, _, _; (split; [exact Hx|]); (split; [reflexivity|]);
      (split; [congruence|]); (split; [reflexivity|]); split; auto.
    + intros e [<-|He]; [right; reflexivity|auto].
    + intros e [<-|He]; [right; reflexivity|auto].
Qed.


Section Invariant.
Variable C : list sample.

Definition head_lb (s : state) : Z := match pc s with MinSet _ hm0 => hm0 | _ => head_mint s end.

Definition cov_head (s : state) (T : Z) : Prop :=
  forall x, In x (head_ino s) -> s_t x < T -> In x (blocks_samples (db_blocks s)).
Definition cov_ooo (s : state) : Prop :=
  forall x, In x (ooo_samples (ooo_mem s)) -> In x (blocks_samples (db_blocks s)).
Definition all_ref (s : state) (L : Z) : Prop := forall c, In c (ooo_mem s) -> oc_ref c = Some L.
Definition blocks_ok (bs : list block) : Prop :=
  forall b, In b bs -> block_wf b = true /\ forall y, In y (b_samples b) -> In y C.
Definition gen_ok (s : state) (L : Z) : Prop := gc_ref s < L \/ L = 0.

Definition pc_fact (s : state) : Prop :=
  match pc s with
  | Idle => trunc_flag s = false
  | HWritten bs T => trunc_flag s = false /\ blocks_ok bs /\
      (forall x, In x (head_ino s) -> s_t x < T -> In x (blocks_samples bs))
  | HReloaded T => trunc_flag s = false /\ cov_head s T
  | TimePub T => trunc_flag s = false /\ cov_head s T /\ trunc_time s = T /\ head_mint s < T
  | FlagSet T => trunc_flag s = true /\ cov_head s T /\ trunc_time s = T /\ head_mint s < T
  | Awaited T hm0 => trunc_flag s = true /\ cov_head s T /\ trunc_time s = T /\ head_mint s < T /\
      hm0 = head_mint s
  | MinSet T hm0 => trunc_flag s = true /\ cov_head s T /\ trunc_time s = T /\ head_mint s = T
  | Truncated T => trunc_flag s = true /\ trunc_time s = T
  | OStarted L => trunc_flag s = false /\ all_ref s L /\ gen_ok s L
  | OWritten L bs => trunc_flag s = false /\ all_ref s L /\ gen_ok s L /\ blocks_ok bs /\
      (forall x, In x (ooo_samples (ooo_mem s)) -> In x (blocks_samples bs))
  | OReloaded L => trunc_flag s = false /\ all_ref s L /\ gen_ok s L /\ cov_ooo s
  | GcPub L => trunc_flag s = false /\ all_ref s L /\ gc_ref s = L /\ cov_ooo s
  | OAwaited L => trunc_flag s = false /\ all_ref s L /\ gc_ref s = L /\ cov_ooo s
  | OTruncated L => trunc_flag s = false
  | BWritten b ps => trunc_flag s = false /\ blocks_ok [b] /\
      (forall b' y, In b' (db_blocks s) -> memZ (b_id b') ps = true -> In y (b_samples b') -> In y (b_samples b))
  | BReloaded => trunc_flag s = false
  (* the invariant below is about traces without stale-/selected-series compaction (no_view):
     its program-counter states are unreachable there *)
  | VWritten _ _ | VReloaded _ | VAwaited _ _ => False
  end.

(* what the reader waits have established about the open queriers: none reads the head below the
   truncation point T (unless it ends below the old minimum time), none reads an out-of-order
   chunk at or before generation L *)
Definition awaited (s : state) (x : querier) : Prop :=
  match pc s with
  | Awaited T hm0 | MinSet T hm0 => forall f, q_from x = Some f -> q_maxt x < hm0 \/ T <= f
  | OAwaited L => forall r, q_oooref x = Some r -> L <= r
  | _ => True
  end.

(* a committed sample is reachable by a querier created now *)
Definition covered (s : state) (x : sample) : Prop :=
  In x (blocks_samples (db_blocks s))
  \/ (In x (head_ino s) /\ head_mint s <= s_t x /\ (trunc_flag s = true -> trunc_time s <= s_t x))
  \/ (exists c, In c (ooo_mem s) /\ In x (oc_samples c) /\ chunk_visible (gc_ref s) c = true).

(* a committed sample of the range is reachable by the open querier q *)
Definition safe (s : state) (q : querier) : Prop :=
  forall y, In y C -> q_mint q <= s_t y <= q_maxt q ->
    In y (blocks_samples (q_blocks q))
    \/ (exists f, q_from q = Some f /\ In y (head_ino s) /\ f <= s_t y)
    \/ (exists r c, q_oooref q = Some r /\ In c (ooo_mem s) /\ chunk_visible r c = true /\ In y (oc_samples c)).

Definition mid_ok (s : state) (x : querier) : Prop :=
  q_blocks x = filter (block_overlaps (q_mint x) (q_maxt x)) (db_blocks s)
  /\ q_hm x <= head_mint s
  /\ q_gc x = gc_ref s
  /\ (q_ooo x = false -> forall y, In y (ooo_samples (ooo_mem s)) -> ~ (q_mint x <= s_t y <= q_maxt x))
  /\ q_hashead x = ((q_hm x <=? q_maxt x) || q_ooo x)
  /\ (q_stage x = Opened -> q_hashead x = true /\ In (q_id x, q_mint x, q_maxt x) (iso s)).

Definition done_ok (s : state) (x : querier) : Prop :=
  (forall y, In y (blocks_samples (q_blocks x)) -> In y C)
  /\ safe s x
  /\ (forall f, q_from x = Some f -> exists lo, lo <= f /\ In (q_id x, lo, q_maxt x) (iso s))
  /\ (forall r, q_oooref x = Some r -> In (q_id x, r) (ooo_reads s) /\ r <= gc_ref s)
  /\ awaited s x.

Definition q_ok (s : state) (x : querier) : Prop :=
  match q_stage x with Done => done_ok s x | _ => mid_ok s x end.

Lemma q_ok_done s x : q_stage x = Done -> q_ok s x = done_ok s x.
Proof. unfold q_ok; intros ->; auto. Qed.

Lemma q_ok_mid s x : q_stage x <> Done -> q_ok s x = mid_ok s x.
Proof. unfold q_ok; destruct (q_stage x); congruence. Qed.

Lemma q_ok_cases s x :
  q_ok s x -> (q_stage x <> Done /\ mid_ok s x) \/ (q_stage x = Done /\ done_ok s x).
Proof. unfold q_ok. destruct (q_stage x); intros H; [left|left|right]; split; auto; discriminate. Qed.

Record Inv (s : state) : Prop := mkInv {
  i_sub_head : forall x, In x (head_ino s) -> In x C;
  i_sub_ooo : forall x, In x (ooo_samples (ooo_mem s)) -> In x C;
  i_blocks : blocks_ok (db_blocks s);
  i_cov : forall x, In x C -> covered s x;
  i_hlb : forall x, In x (head_ino s) -> head_lb s <= s_t x;
  i_oor : forall x, In x (ooo_samples (ooo_mem s)) -> ooo_mint s <= s_t x <= ooo_maxt s;
  i_pc : pc_fact s;
  i_qs : forall x, In x (queriers s) -> q_ok s x
}.


Definition no_wait (p : cpc) : Prop :=
  match p with Awaited _ _ | MinSet _ _ | OAwaited _ => False | _ => True end.

Lemma awaited_no_wait s x : no_wait (pc s) -> awaited s x.
Proof. unfold awaited, no_wait. destruct (pc s); intros []; exact Logic.I. Qed.

(* x stays in order when the blocks and the gc reference stay, the head only shrinks from below, the
   out-of-order chunks only go, and x keeps its registrations.  What an open querier still reaches and
   what the waits say of it is the caller's business. *)
Lemma q_ok_mono s s' x :
  db_blocks s' = db_blocks s -> gc_ref s' = gc_ref s -> head_mint s <= head_mint s' ->
  (forall y, In y (ooo_samples (ooo_mem s')) -> In y (ooo_samples (ooo_mem s))) ->
  (forall lo hi, In (q_id x, lo, hi) (iso s) -> In (q_id x, lo, hi) (iso s')) ->
  (forall r, In (q_id x, r) (ooo_reads s) -> In (q_id x, r) (ooo_reads s')) ->
  (q_stage x = Done -> done_ok s x -> safe s' x /\ awaited s' x) ->
  q_ok s x -> q_ok s' x.
Proof.
  intros E1 E2 HM OO HI HO SF Q. apply q_ok_cases in Q. destruct Q as [[St M]|[St D]].
  - rewrite q_ok_mid by exact St. unfold mid_ok in *. rewrite E1, E2.
    destruct M as (M1 & M2 & M3 & M4 & M5 & M6).
    split; [exact M1|]. split; [lia|]. split; [exact M3|]. split; [|split; [exact M5|]].
    + intros E y Hy. apply (M4 E y (OO y Hy)).
    + intros O. destruct (M6 O) as [A B]. auto.
  - rewrite q_ok_done by exact St. destruct (SF St D) as [S1 S2]. unfold done_ok in *. rewrite E2.
    destruct D as (D1 & D2 & D3 & D4 & D5). split; [exact D1|]. split; [exact S1|]. split; [|split; [|exact S2]].
    + intros f Hf. destruct (D3 f Hf) as (lo & A & B). eauto.
    + intros r Hr. destruct (D4 r Hr) as [A B]. auto.
Qed.

Lemma inv_closing s tc cg cd : Inv s -> Inv (set_closing s tc cg cd).
Proof. intros []. constructor; assumption. Qed.

Lemma inv_failed s f : Inv s -> Inv (set_failed s f).
Proof. intros []. constructor; assumption. Qed.

Lemma hlb_nonminset s : (forall T h, pc s <> MinSet T h) -> head_lb s = head_mint s.
Proof. unfold head_lb; destruct (pc s); auto. intros H; exfalso; eapply H; eauto. Qed.

Lemma hlb_no_wait s : no_wait (pc s) -> head_lb s = head_mint s.
Proof. unfold head_lb, no_wait; destruct (pc s); auto. intros []. Qed.

Lemma hlb_of s (I : Inv s) x :
  (forall T h, pc s <> MinSet T h) -> In x (head_ino s) -> head_mint s <= s_t x.
Proof. intros N Hx. pose proof (i_hlb _ I x Hx) as H. rewrite hlb_nonminset in H; auto. Qed.

(* Only the program counter (not at MinSet before), the truncation time and the flag change.  What
   `covered` asks of a head sample under the new flag, and what a wait that has just returned says of
   the open queriers, is the caller's business. *)
Lemma inv_pc_trunc s t f p :
  let s' := set_pc (set_trunc s t f) p in
  Inv s -> pc_fact s' -> (forall T h, pc s <> MinSet T h) -> head_lb s' = head_mint s ->
  (forall x, In x (head_ino s) -> head_mint s <= s_t x -> (trunc_flag s = true -> trunc_time s <= s_t x) ->
     In x (blocks_samples (db_blocks s)) \/ (f = true -> t <= s_t x)) ->
  (forall x, In x (queriers s) -> q_stage x = Done -> done_ok s x -> awaited s' x) ->
  Inv s'.
Proof.
  intros s' I PF N HL CV AW. pose proof (hlb_of s I) as HM. destruct I.
  constructor; [assumption | assumption | assumption | | | assumption | exact PF | ].
  - intros x Hx. destruct (i_cov0 x Hx) as [?|[(H1 & H2 & H3)|?]]; [left; auto | | right; right; auto].
    destruct (CV x H1 H2 H3); [left; auto|right; left; auto].
  - intros x Hx. rewrite HL. auto.
  - intros x Hx. apply (q_ok_mono s); [reflexivity | reflexivity | apply Z.le_refl | auto | auto | auto | | auto].
    intros St D. split; [apply D|exact (AW x Hx St D)].
Qed.

Lemma inv_set_pc s p :
  Inv s -> pc_fact (set_pc s p) -> (forall T h, pc s <> MinSet T h) -> no_wait p -> Inv (set_pc s p).
Proof.
  intros I PF N NW. apply (inv_pc_trunc s (trunc_time s) (trunc_flag s) p I PF N).
  - apply (hlb_no_wait (set_pc s p)), NW.
  - intros x _ _ H. right. exact H.
  - intros x _ _ _. apply awaited_no_wait, NW.
Qed.

Lemma gc_done_inv s hi om nm no p :
  let s' := set_pc (set_ooo (set_head s hi nm) om no) p in
  Inv s -> no_wait p -> pc_fact s' -> incl hi (head_ino s) ->
  (forall x, In x (ooo_samples om) -> In x (ooo_samples (ooo_mem s))) ->
  head_mint s <= nm -> (forall x, In x hi -> nm <= s_t x) -> (forall x, In x (ooo_samples om) -> no <= s_t x) ->
  (forall x, covered s x -> covered s' x) ->
  (forall q, In q (queriers s) -> q_stage q = Done -> done_ok s q -> safe s' q) ->
  Inv s'.
Proof.
  intros s' I NW PF Hh Ho Hm Hn Hno CV SF. destruct I.
  constructor; [auto | auto | assumption | auto | | | exact PF | ].
  - rewrite (hlb_no_wait s' NW). exact Hn.
  - intros x Hx. split; [apply Hno, Hx|apply i_oor0, Ho, Hx].
  - intros x Hx. apply (q_ok_mono s); [reflexivity | reflexivity | exact Hm | exact Ho | auto | auto | | auto].
    intros St D. split; [exact (SF x Hx St D)|apply awaited_no_wait, NW].
Qed.

(* PF: what the invariant says at the program counter state named by P *)
Ltac pcf I P := let PF := fresh "PF" in
  pose proof (i_pc _ I) as PF; unfold pc_fact in PF; rewrite P in PF.

Lemma step_EHWritten s s' id mint maxt : Inv s -> step s (EHWritten id mint maxt) = Some s' -> Inv s'.
Proof.
  intros I H. cbn [step] in H. destruct (pc s) eqn:P; try discriminate.
  apply guard_some in H as [G ->].
  apply andb_prop in G as [G G3]. apply andb_prop in G as [G1 G2]. apply Z.leb_le in G1.
  pcf I P.
  apply inv_set_pc; [exact I | | rewrite P; discriminate | exact Logic.I].
  unfold pc_fact; cbn. split; auto. split.
  - destruct id; intros b Hb; [destruct Hb as [<-|[]] | destruct Hb]. cbn. split.
    + unfold block_wf; cbn. apply forallb_forall. intros x Hx. apply filter_In in Hx. tauto.
    + intros y Hy. apply filter_In in Hy. apply (i_sub_head _ I). tauto.
  - intros x Hx Ht.
    assert (Hf : In x (filter (in_block_range mint maxt) (head_ino s))).
    { apply filter_In. split; auto. apply in_block_range_true.
      assert (head_mint s <= s_t x) by (apply (hlb_of s I); auto; rewrite P; discriminate). lia. }
    destruct id.
    + cbn. rewrite app_nil_r. auto.
    + destruct (filter (in_block_range mint maxt) (head_ino s)); [destruct Hf | discriminate].
Qed.

Lemma step_EBlockClosing s s' id : Inv s -> step s (EBlockClosing id) = Some s' -> Inv s'.
Proof.
  intros I H. cbn [step] in H. apply guard_some in H as [G ->].
  apply inv_closing, I.
Qed.

Lemma step_EBlockClosed s s' id : Inv s -> step s (EBlockClosed id) = Some s' -> Inv s'.
Proof.
  intros I H. cbn [step] in H.
  destruct (memZ id (closing s) && negb (existsb (fun p => snd p =? id) (pending s))); try discriminate.
  inv H.
  set (s1 := set_closing s (filter (fun x => negb (x =? id)) (to_close s))
                (filter (fun x => negb (x =? id)) (closing s)) (id :: closed s)).
  assert (I1 : Inv s1) by apply inv_closing, I.
  destruct (pc s) eqn:P; auto.
  destruct (filter (fun x => negb (x =? id)) (to_close s)); auto.
  pcf I P. apply inv_set_pc; [exact I1 | exact PF | cbn; rewrite P; discriminate | exact Logic.I].
Qed.

Lemma step_ETimePub s s' : Inv s -> step s ETimePub = Some s' -> Inv s'.
Proof.
  intros I H. cbn [step] in H. destruct (pc s) eqn:P; try discriminate.
  destruct (to_close s); try discriminate.
  apply guard_some in H as [G ->]. apply Z.ltb_lt in G. pcf I P. destruct PF as [F1 F2].
  apply (inv_pc_trunc s); [exact I | | rewrite P; discriminate | reflexivity | | ].
  - unfold pc_fact; cbn. auto.
  - intros x _ _ _. right. cbn. rewrite F1. discriminate.
  - intros x _ _ _. exact Logic.I.
Qed.

Lemma step_EFlagSet s s' : Inv s -> step s EFlagSet = Some s' -> Inv s'.
Proof.
  intros I H. cbn [step] in H. destruct (pc s) eqn:P; try discriminate.
  inv H. pcf I P. destruct PF as (F1 & F2 & F3 & F4).
  apply (inv_pc_trunc s); [exact I | | rewrite P; discriminate | reflexivity | | ].
  - unfold pc_fact; cbn. auto.
  - (* a head sample below T is in the block already *)
    intros x Hx _ _. cbn. destruct (Z_lt_ge_dec (s_t x) T); [left; apply F2; auto | right; lia].
  - intros x _ _ _. exact Logic.I.
Qed.

Lemma step_EAwaited s s' : Inv s -> step s EAwaited = Some s' -> Inv s'.
Proof.
  intros I H. cbn [step] in H. destruct (pc s) eqn:P; try discriminate.
  apply guard_some in H as [G ->]. apply negb_true_iff in G. pcf I P. destruct PF as (F1 & F2 & F3 & F4).
  apply (inv_pc_trunc s); [exact I | | rewrite P; discriminate | reflexivity | | ].
  - unfold pc_fact; cbn. auto.
  - intros x _ _ H3. right. exact H3.
  - (* the wait returned: no registration of an open querier overlaps [head_mint, T-1] *)
    intros x Hx _ (_ & _ & R & _) f Hf. destruct (R f Hf) as (lo & L1 & L2).
    destruct (Z_lt_ge_dec (q_maxt x) (head_mint s)); [left; lia|].
    destruct (Z_lt_ge_dec f T); [|right; lia]. exfalso.
    assert (E : existsb (fun r : Z * Z * Z => let '(_, lo, hi) := r in (lo <=? T - 1) && (head_mint s <=? hi)) (iso s) = true).
    { apply existsb_exists. exists (q_id x, lo, q_maxt x). split; auto.
      apply andb_true_iff; split; apply Z.leb_le; lia. }
    congruence.
Qed.

Lemma step_EMinSet s s' : Inv s -> step s EMinSet = Some s' -> Inv s'.
Proof.
  intros I H. cbn [step] in H. destruct (pc s) eqn:P; try discriminate.
  inv H. pcf I P. destruct PF as (F1 & F2 & F3 & F4 & F5).
  pose proof (fun x => hlb_of s I x ltac:(rewrite P; discriminate)) as HL.
  destruct I as [Ih Io Ib Ic Il Ir Ip Iq]. constructor; cbn; [auto | auto | auto | | | auto | | ].
  - intros x Hx. unfold covered; cbn. destruct (Ic x Hx) as [?|[(?&?&?)|?]]; [left; auto | | right; right; auto].
    right; left. cbn. repeat split; auto. rewrite <- F3. auto.
  - unfold head_lb; cbn. subst hm0. auto.
  - unfold pc_fact; cbn. auto.
  - intros x Hx. apply (q_ok_mono s); [reflexivity | reflexivity | cbn; lia | auto | auto | auto | | apply Iq, Hx].
    intros _ (_ & D2 & _ & _ & D5). split; [exact D2|]. unfold awaited in *. rewrite P in D5. exact D5.
Qed.

Lemma step_EGcDone s s' nm no : Inv s -> step s (EGcDone nm no) = Some s' -> Inv s'.
Proof.
  intros I H. cbn [step] in H. destruct (pc s) eqn:P; try discriminate;
    apply gc_done_some in H as (-> & G1 & G2 & G3); pcf I P; destruct PF as (F1 & F2 & F3 & F4).
  - (* MinSet T hm0: the head below T goes *)
    assert (K : forall x, In x (head_ino s) -> T <= s_t x -> In x (filter (fun x => T <=? s_t x) (head_ino s)))
      by (intros x Hx Ht; apply filter_In; split; [exact Hx|apply Z.leb_le, Ht]).
    apply gc_done_inv; [exact I | exact Logic.I | split; assumption | | auto | lia | exact G2 | exact G3 | | ].
    + intros x Hx. apply filter_In in Hx. apply Hx.
    + intros x [?|[(H1 & H2 & H3)|?]]; [left; auto | | right; right; auto]. specialize (H3 F1).
      right; left. cbn. split; [apply K; auto; lia|]. split; [apply G2, K; auto; lia|intros _; lia].
    + (* an open querier that reads the head below T ends below the old minimum time *)
      intros q Hq St (_ & D2 & _ & _ & D5) y Hy Hr.
      destruct (D2 y Hy Hr) as [?|[(f & E1 & E2 & E3)|?]]; [left; auto | | right; right; auto].
      right; left. exists f. repeat split; auto. apply K; auto.
      unfold awaited in D5. rewrite P in D5. destruct (D5 f E1) as [A|A]; [|lia].
      pose proof (i_hlb _ I y E2) as B. unfold head_lb in B. rewrite P in B. lia.
  - (* OAwaited L: the chunks of generation L and before go *)
    apply gc_done_inv;
      [exact I | exact Logic.I | exact F1 | apply incl_refl | apply ooo_samples_filter | exact G1 | exact G2 | exact G3 | | ].
    + intros x [?|[(H1 & H2 & H3)|(c & H1 & H2 & H3)]]; [left; auto | | ].
      * right; left. split; auto.
      * right; right. exists c. split; [|split; auto]. apply filter_In. split; auto.
        unfold chunk_visible in H3. rewrite F3 in H3. destruct (oc_ref c); auto.
    + intros q Hq St (_ & D2 & _ & _ & D5) y Hy Hr.
      destruct (D2 y Hy Hr) as [?|[?|(r & c & E1 & E2 & E3 & E4)]]; [left; auto | right; left; auto | ].
      right; right. exists r, c. repeat split; auto. apply filter_In. split; auto.
      unfold awaited in D5. rewrite P in D5. pose proof (D5 r E1) as A.
      unfold chunk_visible in E3. destruct (oc_ref c); auto.
      apply Z.ltb_lt in E3. apply Z.ltb_lt. lia.
Qed.

Lemma step_EHeadDone s s' : Inv s -> step s EHeadDone = Some s' -> Inv s'.
Proof.
  intros I H. cbn [step] in H. destruct (pc s) eqn:P; try discriminate.
  - destruct (to_close s); try discriminate. apply guard_some in H as [G ->].
    pcf I P. destruct PF as (F1 & F2).
    apply inv_set_pc; [exact I | exact F1 | rewrite P; discriminate | exact Logic.I].
  - assert (E : s' = set_pc (set_trunc s (trunc_time s) false) Idle) by (destruct (to_close s); inv H; auto).
    subst s'. clear H.
    apply (inv_pc_trunc s); [exact I | reflexivity | rewrite P; discriminate | reflexivity | | ].
    + intros x _ _ _. right. discriminate.
    + intros x _ _ _. exact Logic.I.
Qed.

Lemma step_EOStart s s' L : Inv s -> step s (EOStart L) = Some s' -> Inv s'.
Proof.
  intros I H. cbn [step] in H. destruct (pc s) eqn:P; try discriminate.
  apply guard_some in H as [G ->].
  apply andb_prop in G as [G G3]. apply andb_prop in G as [G1 G2].
  pcf I P.
  assert (NE : forall c, In c (ooo_mem s) -> gc_ref s < L).
  { intros c Hc. destruct (ooo_mem s); [destruct Hc|]. apply Z.ltb_lt in G1.
    apply orb_true_iff in G2. destruct G2 as [G2|G2]; [apply Z.ltb_lt in G2; auto | apply Z.eqb_eq in G2; lia]. }
  pose proof (fun x => hlb_of s I x ltac:(rewrite P; discriminate)) as HL.
  destruct I as [Ih Io Ib Ic Il Ir Ip Iq]. constructor; cbn.
  - auto.
  - rewrite ooo_samples_map. auto.
  - auto.
  - intros x Hx. unfold covered; cbn. destruct (Ic x Hx) as [?|[?|(c & H1 & H2 & H3)]]; [left; auto | right; left; auto | ].
    right; right. exists (mkOC (Some L) (oc_samples c)). split; [|split; auto].
    + apply in_map_iff. exists c; auto.
    + unfold chunk_visible; cbn. apply Z.ltb_lt. eauto.
  - unfold head_lb; cbn. auto.
  - rewrite ooo_samples_map. auto.
  - unfold pc_fact; cbn. split; auto. split.
    + intros c Hc. apply in_map_iff in Hc. destruct Hc as (c0 & <- & _). auto.
    + unfold gen_ok; cbn. apply orb_true_iff in G2. destruct G2 as [G2|G2]; [left; apply Z.ltb_lt; auto | right; apply Z.eqb_eq; auto].
  - intros x Hx. apply (q_ok_mono s); [reflexivity | reflexivity | cbn; lia | cbn; rewrite ooo_samples_map; auto | auto | auto | | apply Iq, Hx].
    intros _ (_ & D2 & _ & D4 & _). split; [|exact Logic.I].
    (* every chunk gets the new reference L, above every reference an open querier holds *)
    intros y Hy Hr. destruct (D2 y Hy Hr) as [?|[?|(r & c & E1 & E2 & E3 & E4)]]; [left; auto | right; left; auto | ].
    right; right. exists r, (mkOC (Some L) (oc_samples c)). repeat split; auto.
    + apply in_map_iff. exists c; auto.
    + unfold chunk_visible; cbn. apply Z.ltb_lt. destruct (D4 r E1) as [_ A]. pose proof (NE c E2). lia.
Qed.

Lemma mk_oblock_ok om d :
  (forall x, In x (ooo_samples om) -> In x C) ->
  block_wf (mk_oblock om d) = true /\ forall y, In y (b_samples (mk_oblock om d)) -> In y C.
Proof.
  intros S. destruct d as [[id mint] maxt]. unfold mk_oblock, block_wf; cbn. split.
  - apply forallb_forall. intros x Hx. apply nodup_In in Hx. apply filter_In in Hx. tauto.
  - intros y Hy. apply nodup_In in Hy. apply filter_In in Hy. apply S; tauto.
Qed.

Lemma step_EOWritten s s' ds : Inv s -> step s (EOWritten ds) = Some s' -> Inv s'.
Proof.
  intros I H. cbn [step] in H. destruct (pc s) eqn:P; try discriminate.
  apply guard_some in H as [G ->].
  apply andb_prop in G as [_ G4].
  pcf I P. destruct PF as (F1 & F2 & F3).
  apply inv_set_pc; [exact I | | rewrite P; discriminate | exact Logic.I].
  unfold pc_fact; cbn. split; auto. split; auto. split; auto. split.
  - intros b Hb. apply in_map_iff in Hb. destruct Hb as (d & <- & _). apply mk_oblock_ok. apply (i_sub_ooo _ I).
  - intros x Hx. rewrite forallb_forall in G4. apply mem_sample_true. apply G4; auto.
Qed.

Lemma blocks_samples_incl_l a b x : In x (blocks_samples a) -> In x (blocks_samples (a ++ b)).
Proof. rewrite blocks_samples_app. intros; apply in_or_app; auto. Qed.
Lemma blocks_samples_incl_r a b x : In x (blocks_samples b) -> In x (blocks_samples (a ++ b)).
Proof. rewrite blocks_samples_app. intros; apply in_or_app; auto. Qed.

Lemma blocks_ok_app a b : blocks_ok a -> blocks_ok b -> blocks_ok (a ++ b).
Proof. unfold blocks_ok. intros A B x Hx. apply in_app_or in Hx. destruct Hx; auto. Qed.

(* db.blocks is replaced while every querier is open (none in creation): an open querier reads the
   blocks it captured.  The same when the gc reference is raised. *)
Lemma qs_swap s s' :
  all_done s = true -> no_wait (pc s') -> queriers s' = queriers s -> head_ino s' = head_ino s ->
  ooo_mem s' = ooo_mem s -> gc_ref s <= gc_ref s' -> iso s' = iso s -> ooo_reads s' = ooo_reads s ->
  (forall x, In x (queriers s) -> q_ok s x) -> forall x, In x (queriers s') -> q_ok s' x.
Proof.
  intros AD NW E0 E1 E2 E3 E4 E5 Q x Hx. rewrite E0 in Hx.
  pose proof (all_done_spec s AD x Hx) as St. specialize (Q x Hx).
  rewrite q_ok_done in * by auto. destruct Q as (Q1 & Q2 & Q3 & Q4 & _).
  unfold done_ok, safe in *. rewrite E1, E2, E4, E5.
  repeat split; auto; [apply Q4; auto | destruct (Q4 r H); lia | apply awaited_no_wait, NW].
Qed.

Lemma swap_inv s p bs :
  let s' := set_pc (set_blocks s (db_blocks s ++ bs) (to_close s)) p in
  Inv s -> all_done s = true -> (forall T h, pc s <> MinSet T h) -> no_wait p -> blocks_ok bs ->
  pc_fact s' -> Inv s'.
Proof.
  intros s' I AD N NW BO PF. pose proof (hlb_of s I) as HL.
  destruct I as [Ih Io Ib Ic Il Ir Ip Iq]. constructor; [exact Ih | exact Io | | | | exact Ir | exact PF | ].
  - apply blocks_ok_app; auto.
  - intros x Hx. unfold covered; cbn. destruct (Ic x Hx) as [?|[?|?]]; [left | right; left; auto | right; right; auto].
    apply blocks_samples_incl_l; auto.
  - intros x Hx. rewrite (hlb_no_wait s' NW). cbn. auto.
  - apply (qs_swap s s'); auto; cbn; lia.
Qed.

Lemma step_ESwapped s s' : Inv s -> step s ESwapped = Some s' -> Inv s'.
Proof.
  intros I H. cbn [step] in H. destruct (all_done s) eqn:AD; try discriminate.
  destruct (pc s) eqn:P; try discriminate; inv H.
  - pcf I P. destruct PF as (F1 & F2 & F3).
    apply swap_inv; auto; [rewrite P; discriminate | exact Logic.I |].
    unfold pc_fact; cbn. split; auto. intros x Hx Ht. apply blocks_samples_incl_r; auto.
  - pcf I P. destruct PF as (F1 & F2 & F3 & F4 & F5).
    apply swap_inv; auto; [rewrite P; discriminate | exact Logic.I |].
    unfold pc_fact; cbn. repeat split; auto. intros x Hx. apply blocks_samples_incl_r; auto.
  - (* BWritten: the parents leave db.blocks, the merged block holds their samples *)
    pcf I P. destruct PF as (F1 & F2 & F3).
    pose proof (fun x => hlb_of s I x ltac:(rewrite P; discriminate)) as HL.
    destruct I as [Ih Io Ib Ic Il Ir Ip Iq].
    constructor; [exact Ih | exact Io | | | exact HL | exact Ir | exact F1 | ].
    + apply blocks_ok_app; auto. intros b' Hb'. apply filter_In in Hb'. apply Ib; tauto.
    + intros x Hx. unfold covered; cbn. destruct (Ic x Hx) as [H1|[?|?]]; [left | right; left; auto | right; right; auto].
      apply in_blocks_samples in H1. destruct H1 as (b' & B1 & B2).
      destruct (memZ (b_id b') parents) eqn:M.
      * apply blocks_samples_incl_r. apply in_blocks_samples. exists b. split; [left; auto|]. eapply F3; eauto.
      * apply blocks_samples_incl_l. apply in_blocks_samples. exists b'. split; auto.
        apply filter_In. split; auto. rewrite M; auto.
    + apply (qs_swap s); auto; cbn; auto; lia.
  - (* VWritten: unreachable without view events *)
    pcf I P. contradiction.
Qed.

Lemma step_EGcPub s s' : Inv s -> step s EGcPub = Some s' -> Inv s'.
Proof.
  intros I H. cbn [step] in H. destruct (pc s) eqn:P; try discriminate.
  destruct (to_close s); try discriminate.
  apply guard_some in H as [G ->]. apply andb_true_iff in G. destruct G as [G1 AD]. apply Z.ltb_lt in G1.
  pcf I P. destruct PF as (F1 & F2 & F3 & F4).
  assert (GL : gc_ref s < L) by (destruct F3; lia).
  pose proof (fun x => hlb_of s I x ltac:(rewrite P; discriminate)) as HL.
  destruct I as [Ih Io Ib Ic Il Ir Ip Iq]. constructor; [exact Ih | exact Io | exact Ib | | exact HL | exact Ir | | ].
  - (* every chunk has reference L and is in a block *)
    intros x Hx. unfold covered; cbn. destruct (Ic x Hx) as [?|[?|(c & H1 & H2 & H3)]]; [left; auto | right; left; auto | ].
    left. apply F4. apply in_ooo_samples. exists c; auto.
  - unfold pc_fact; cbn. auto.
  - apply (qs_swap s); auto; cbn; auto; lia.
Qed.

Lemma step_EOAwaited s s' : Inv s -> step s EOAwaited = Some s' -> Inv s'.
Proof.
  intros I H. cbn [step] in H. destruct (pc s) eqn:P; try discriminate.
  apply guard_some in H as [G ->]. apply negb_true_iff in G.
  pcf I P. destruct PF as (F1 & F2 & F3 & F4).
  apply (inv_pc_trunc s); [exact I | | rewrite P; discriminate | reflexivity | | ].
  - unfold pc_fact; cbn. auto.
  - intros x _ _ H3. right. exact H3.
  - (* the wait returned: no open read registered below L *)
    intros x Hx _ (_ & _ & _ & Q4 & _) r Hr. destruct (Q4 r Hr) as [A _].
    destruct (Z_lt_ge_dec r L); [|lia]. exfalso.
    assert (E : existsb (fun r0 : Z * Z => snd r0 <? L) (ooo_reads s) = true).
    { apply existsb_exists. exists (q_id x, r). split; auto. cbn. apply Z.ltb_lt; auto. }
    congruence.
Qed.

Lemma step_EODone s s' : Inv s -> step s EODone = Some s' -> Inv s'.
Proof.
  intros I H. cbn [step] in H. destruct (pc s) eqn:P; try discriminate.
  - destruct (to_close s); try discriminate. apply guard_some in H as [G ->].
    pcf I P. destruct PF as (F1 & _).
    apply inv_set_pc; [exact I | exact F1 | rewrite P; discriminate | exact Logic.I].
  - assert (E : s' = set_pc s Idle) by (destruct (to_close s); inv H; auto). subst s'.
    pcf I P.
    apply inv_set_pc; [exact I | exact PF | rewrite P; discriminate | exact Logic.I].
Qed.

Lemma step_EBWritten s s' id ps mint maxt : Inv s -> step s (EBWritten id ps mint maxt) = Some s' -> Inv s'.
Proof.
  intros I H. cbn [step] in H. destruct (pc s) eqn:P; try discriminate.
  apply guard_some in H as [G ->].
  apply andb_prop in G as [G _]. apply andb_prop in G as [_ G4].
  pcf I P.
  apply inv_set_pc; [exact I | | rewrite P; discriminate | exact Logic.I].
  unfold pc_fact; cbn. split; auto. split.
  - intros b [<-|[]]. split; auto. cbn. intros y Hy. apply nodup_In in Hy.
    apply in_blocks_samples in Hy. destruct Hy as (b' & B1 & B2). apply filter_In in B1.
    destruct (i_blocks _ I b') as [_ A]; [tauto|]. auto.
  - intros b' y B1 B2 B3. cbn. apply nodup_In. apply in_blocks_samples. exists b'. split; auto.
    apply filter_In. auto.
Qed.


Lemma inv_readers s i o pd qs :
  Inv s -> (forall x, In x qs -> q_ok (set_readers s i o pd qs) x) -> Inv (set_readers s i o pd qs).
Proof. intros I Q. destruct I. constructor; assumption. Qed.

Lemma q_ok_other s i o pd qs q x :
  (forall a b c, In (a, b, c) (iso s) -> a <> q -> In (a, b, c) i) ->
  (forall a b, In (a, b) (ooo_reads s) -> a <> q -> In (a, b) o) ->
  q_id x <> q -> q_ok s x -> q_ok (set_readers s i o pd qs) x.
Proof.
  intros HI HO N. apply q_ok_mono; [reflexivity | reflexivity | apply Z.le_refl | auto | auto | auto | ].
  intros _ D. split; apply D.
Qed.

Lemma step_EQIter s s' q : Inv s -> step s (EQIter q) = Some s' -> Inv s'.
Proof.
  intros I H. cbn [step] in H. destruct (find_q s q); try discriminate.
  destruct (q_stage q0); try discriminate. inv H.
  destruct (existsb _ _); [apply inv_failed|]; exact I.
Qed.

Lemma step_EQClose s s' q : Inv s -> step s (EQClose q) = Some s' -> Inv s'.
Proof.
  intros I H. cbn [step] in H. destruct (find_q s q) eqn:F; try discriminate.
  destruct (q_stage q0); try discriminate. inv H.
  apply inv_readers; [exact I|]. intros x Hx. apply in_others in Hx. destruct Hx as [Hx N].
  apply (q_ok_other s _ _ _ _ q); [intros a b c; apply in_drop_fst3 | intros a b; apply in_drop_fst | exact N | apply (i_qs _ I x Hx)].
Qed.

Lemma step_EQBegin s s' q mint maxt : Inv s -> step s (EQBegin q mint maxt) = Some s' -> Inv s'.
Proof.
  intros I H. cbn [step] in H.
  destruct (negb (existsb (fun x => q_id x =? q) (queriers s)) && (mint <=? maxt)) eqn:G; try discriminate.
  set (bs := filter (block_overlaps mint maxt) (db_blocks s)) in *.
  set (ooo := (mint <=? ooo_maxt s) && (ooo_mint s <=? maxt)) in *.
  set (nq := mkQ q mint maxt Begun bs (head_mint s) ooo ((head_mint s <=? maxt) || ooo) (gc_ref s) None None) in *.
  set (s1 := set_readers s (iso s) (ooo_reads s) (map (fun b => (q, b_id b)) bs ++ pending s) (nq :: queriers s)) in *.
  assert (I1 : Inv s1).
  { apply inv_readers; [exact I|]. intros x [<-|Hx].
    - unfold q_ok, mid_ok; cbn. repeat split; auto; try lia; try discriminate.
      (* no out-of-order sample in range when the range misses [ooo_mint, ooo_maxt] *)
      intros E y Hy R. apply (i_oor _ I) in Hy. subst ooo. apply andb_false_iff in E.
      destruct E as [E|E]; apply Z.leb_gt in E; lia.
    - exact (i_qs _ I x Hx). }
  destruct (existsb _ bs); inv H; auto.
  apply inv_failed, I1.
Qed.

Lemma step_EQOpenHead s s' q : Inv s -> step s (EQOpenHead q) = Some s' -> Inv s'.
Proof.
  intros I H. cbn [step] in H. destruct (find_q s q) eqn:F; try discriminate.
  apply find_q_some in F. destruct F as [Fx Fq].
  destruct (q_stage q0) eqn:St; try discriminate.
  apply guard_some in H as [G ->].
  pose proof (i_qs _ I q0 Fx) as Q0. unfold q_ok in Q0. rewrite St in Q0.
  apply inv_readers; [exact I|]. intros x [<-|Hx].
  - unfold q_ok, mid_ok in *; cbn. destruct Q0 as (Q1 & Q2 & Q3 & Q4 & Q5 & Q6). repeat split; auto.
  - apply in_others in Hx. destruct Hx as [Hx N].
    apply (q_ok_other s _ _ _ _ q); [intros; right; assumption | auto | exact N | apply (i_qs _ I x Hx)].
Qed.

(* DB.Querier returns: x gets the registrations i / o, reads the head from `from` on and the
   out-of-order chunks after `oref` *)
Lemma finished_inv s x i o from oref :
  Inv s -> In x (queriers s) -> q_stage x <> Done -> mid_ok s x ->
  (forall a b c, In (a, b, c) (iso s) -> a <> q_id x -> In (a, b, c) i) ->
  (forall a b, In (a, b) (ooo_reads s) -> a <> q_id x -> In (a, b) o) ->
  (forall f, from = Some f ->
     (trunc_flag s = true -> trunc_time s <= f) /\ exists lo, lo <= f /\ In (q_id x, lo, q_maxt x) i) ->
  (forall r, oref = Some r -> In (q_id x, r) o /\ r = gc_ref s) ->
  (forall t, head_mint s <= t -> (trunc_flag s = true -> trunc_time s <= t) -> q_mint x <= t <= q_maxt x ->
     exists f, from = Some f /\ f <= t) ->
  (q_ooo x = true -> oref = Some (gc_ref s)) ->
  Inv (finished s x i o from oref).
Proof.
  intros I Hx St M HI HO RF RO HP OP.
  destruct M as (M1 & M2 & M3 & M4 & M5 & M6).
  apply inv_readers; [exact I|]. intros x' [<-|Hx'].
  - unfold q_ok, done_ok; cbn. split; [|split; [|split; [|split]]].
    + intros y Hy. rewrite M1 in Hy. apply in_blocks_samples in Hy. destruct Hy as (b & B1 & B2).
      apply filter_In in B1. destruct (i_blocks _ I b) as [_ A]; [tauto|]. auto.
    + (* a sample covered now is in a captured block, in the head part, or in a visible chunk *)
      unfold safe; cbn. intros y Hy R. destruct (i_cov _ I y Hy) as [H1|[(H1&H2&H3)|(c & H1 & H2 & H3)]].
      * left. rewrite M1. apply in_blocks_samples in H1. destruct H1 as (b & B1 & B2).
        apply in_blocks_samples. exists b. split; auto. apply filter_In. split; auto.
        destruct (i_blocks _ I b B1) as [W _]. eapply block_wf_overlap; eauto.
      * right; left. destruct (HP (s_t y) H2 H3 R) as (f & E1 & E2). exists f; auto.
      * right; right. destruct (q_ooo x) eqn:OO.
        -- exists (gc_ref s), c. repeat split; auto.
        -- exfalso. eapply (M4 eq_refl y); eauto. apply in_ooo_samples. exists c; auto.
    + intros f Hf. apply RF, Hf.
    + intros r Hr. destruct (RO r Hr) as [A ->]. split; [exact A|lia].
    + (* the waits that have returned saw the truncation flag / the published gc reference *)
      pose proof (i_pc _ I) as PF. unfold pc_fact in PF. unfold awaited; cbn.
      destruct (pc s); try exact Logic.I.
      * intros f Hf. right. destruct (RF f Hf) as [A _]. destruct PF as (F1 & _ & F3 & _). rewrite <- F3. auto.
      * intros f Hf. right. destruct (RF f Hf) as [A _]. destruct PF as (F1 & _ & F3 & _). rewrite <- F3. auto.
      * intros r Hr. destruct (RO r Hr) as [_ ->]. destruct PF as (_ & _ & F3 & _). lia.
  - apply in_others in Hx'. destruct Hx' as [Hx' N].
    apply (q_ok_other s _ _ _ _ (q_id x)); [exact HI | exact HO | exact N | apply (i_qs _ I x' Hx')].
Qed.

(* the same in terms of the head part (i, inner, im) of the finishing querier, see head_finish *)
Lemma finish_inv s x i inner im :
  Inv s -> In x (queriers s) -> q_stage x <> Done -> mid_ok s x ->
  (forall a b c, In (a, b, c) (iso s) -> a <> q_id x -> In (a, b, c) i) ->
  (forall f, inner = Some f -> (trunc_flag s = true -> trunc_time s <= f) /\ In (q_id x, f, q_maxt x) i) ->
  (forall t, q_hm x <= t -> (trunc_flag s = true -> trunc_time s <= t) -> q_mint x <= t <= q_maxt x ->
     exists f, inner = Some f /\ f <= t) ->
  (q_ooo x = true -> (trunc_flag s = true -> trunc_time s <= im) /\
     forall t, q_hm x <= t -> (trunc_flag s = true -> trunc_time s <= t) -> q_mint x <= t -> im <= t) ->
  Inv (if q_ooo x
       then finished s x ((q_id x, im, q_maxt x) :: i) ((q_id x, q_gc x) :: ooo_reads s) (Some im) (Some (q_gc x))
       else finished s x i (ooo_reads s) inner None).
Proof.
  intros I Hx St M HI HN HC HM. pose proof M as (_ & M2 & M3 & _).
  destruct (q_ooo x) eqn:OO; apply finished_inv; auto.
  - intros a b c H N. right. apply HI; auto.
  - intros a b H N. right. exact H.
  - intros f E. inv E. destruct (HM eq_refl) as [A _]. split; [exact A|]. exists f. split; [lia|left; reflexivity].
  - intros r E. inv E. split; [left; reflexivity|exact M3].
  - intros t T1 T2 T3. exists im. split; [reflexivity|]. destruct (HM eq_refl) as [_ A]. apply A; [lia | exact T2 | lia].
  - intros _. rewrite M3. reflexivity.
  - intros f E. destruct (HN f E) as [A B]. split; [exact A|]. exists f. split; [lia|exact B].
  - discriminate.
  - intros t T1 T2 T3. apply HC; [lia | exact T2 | exact T3].
  - congruence.
Qed.

Lemma step_EQFinish s s' q : Inv s -> step s (EQFinish q) = Some s' -> Inv s'.
Proof.
  intros I H. apply step_EQFinish_cases in H. destruct H as (x & Hx & <- & H).
  pose proof (i_qs _ I x Hx) as M.
  destruct H as [(St & G & ->)|(St & i & inner & im & HF & ->)].
  - (* no head part: the range ends below the head and does not overlap the out-of-order samples *)
    rewrite q_ok_mid in M by congruence. pose proof M as (_ & _ & _ & _ & M5 & _).
    rewrite G in M5. symmetry in M5. apply orb_false_iff in M5. destruct M5 as [M5 OO]. apply Z.leb_gt in M5.
    pose proof (finish_inv s x (iso s) None 0 I Hx ltac:(congruence) M) as R. rewrite OO in R. apply R.
    + auto.
    + discriminate.
    + intros t T1 _ T3. lia.
    + discriminate.
  - rewrite q_ok_mid in M by congruence. pose proof M as (_ & _ & _ & _ & _ & M6). destruct (M6 St) as [_ M8].
    destruct HF as [A|A B|A B]; (apply finish_inv; [exact I | exact Hx | congruence | exact M | | | | ]).
    + auto.
    + intros f E. inv E. split; [exact A | exact M8].
    + intros t _ _ T3. exists (q_mint x). split; [reflexivity|lia].
    + intros _. split; [intros F; specialize (A F); lia | intros; lia].
    + intros a b c. apply in_drop_fst3.
    + discriminate.
    + intros t _ T2 T3. specialize (T2 A). exfalso. lia.
    + intros _. split; [lia | intros t _ T2 _; exact (T2 A)].
    + intros a b c H N. right. apply in_drop_fst3; auto.
    + intros f E. inv E. split; [lia | left; reflexivity].
    + intros t _ T2 T3. exists (trunc_time s). split; [reflexivity | exact (T2 A)].
    + intros _. split; [lia | intros t _ T2 _; exact (T2 A)].
Qed.

Theorem step_inv s s' e : is_view e = false -> Inv s -> step s e = Some s' -> Inv s'.
Proof.
  intros NV. destruct e; try discriminate NV.
  - apply step_EHWritten.
  - apply step_ESwapped.
  - apply step_EBlockClosing.
  - apply step_EBlockClosed.
  - apply step_ETimePub.
  - apply step_EFlagSet.
  - apply step_EAwaited.
  - apply step_EMinSet.
  - apply step_EGcDone.
  - apply step_EHeadDone.
  - apply step_EOStart.
  - apply step_EOWritten.
  - apply step_EGcPub.
  - apply step_EOAwaited.
  - apply step_EODone.
  - apply step_EBWritten.
  - apply step_EQBegin.
  - apply step_EQOpenHead.
  - apply step_EQFinish.
  - apply step_EQIter.
  - apply step_EQClose.
Qed.

Lemma result_spec s x :
  Inv s -> In x (queriers s) -> q_stage x = Done ->
  NoDup (q_result s x) /\
  forall y, In y (q_result s x) <-> (In y C /\ q_mint x <= s_t y <= q_maxt x).
Proof.
  intros I Hx St. pose proof (i_qs _ I x Hx) as Q. rewrite q_ok_done in Q by auto.
  destruct Q as (Q1 & Q2 & _ & _). unfold q_result. split; [apply NoDup_nodup|].
  intros y. rewrite nodup_In, filter_In, in_range_true, !in_app_iff. split.
  - intros [[H|[H|H]] R]; split; auto.
    + destruct (q_from x); [|destruct H]. apply filter_In in H. apply (i_sub_head _ I); tauto.
    + destruct (q_oooref x); [|destruct H]. apply (i_sub_ooo _ I). eapply ooo_samples_filter; eauto.
  - intros [Hy R]. split; auto. destruct (Q2 y Hy R) as [H|[(f & E1 & E2 & E3)|(r & c & E1 & E2 & E3 & E4)]].
    + left; auto.
    + right; left. rewrite E1. apply filter_In. split; auto. apply Z.leb_le; auto.
    + right; right. rewrite E1. apply in_ooo_samples. exists c. split; auto. apply filter_In. auto.
Qed.

Definition out_ok (o : Z * Z * Z * list sample) : Prop :=
  let '(_, mint, maxt, res) := o in
  NoDup res /\ forall y, In y res <-> (In y C /\ mint <= s_t y <= maxt).

Lemma output_ok s s' e : Inv s -> step s e = Some s' -> forall o, In o (output s e) -> out_ok o.
Proof.
  intros I H o Ho. destruct e; cbn in Ho; try (destruct Ho).
  cbn [step] in H. destruct (find_q s q) as [x|] eqn:F; [|destruct Ho].
  destruct Ho as [<-|[]]. apply find_q_some in F. destruct F as [Fx _].
  destruct (q_stage x) eqn:St; try discriminate.
  unfold out_ok. apply result_spec; auto.
Qed.

Lemma run_inv tr : forall s s' outs, no_view tr = true -> Inv s -> run s tr = Some (s', outs) ->
  Inv s' /\ forall o, In o outs -> out_ok o.
Proof.
  induction tr as [|e tr IH]; intros s s' outs NV I H; cbn in H.
  - inv H. split; auto. intros o [].
  - cbn in NV. apply andb_true_iff in NV. destruct NV as [NV1 NV2]. apply negb_true_iff in NV1.
    destruct (step s e) as [s1|] eqn:S1; try discriminate.
    destruct (run s1 tr) as [[sf o1]|] eqn:R1; try discriminate. inv H.
    destruct (IH s1 s' o1 NV2 (step_inv _ _ _ NV1 I S1) R1) as [A B]. split; [exact A|].
    intros o Ho. apply in_app_or in Ho. destruct Ho as [Ho|Ho]; [|apply B; exact Ho].
    exact (output_ok s s1 e I S1 o Ho).
Qed.

End Invariant.

Lemma andb_split a b : a && b = true -> a = true /\ b = true.
Proof. apply andb_true_iff. Qed.

Lemma in_committed s x :
  In x (committed s) <->
  In x (blocks_samples (db_blocks s)) \/ In x (head_ino s) \/ In x (ooo_samples (ooo_mem s)).
Proof. unfold committed. rewrite !in_app_iff. reflexivity. Qed.

Lemma inv_init s : wf_init s = true -> Inv (committed s) s.
Proof.
  intros W. apply wf_init_spec in W.
  destruct W as [Wpc Wflag _ Wq _ _ _ _ _ Whead Wooo Wrefs _ Wblocks].
  constructor.
  - intros x Hx. apply in_committed. auto.
  - intros x Hx. apply in_committed. auto.
  - intros b Hb. split; [apply Wblocks, Hb|]. intros y Hy. apply in_committed. left.
    apply in_blocks_samples. exists b; auto.
  - intros x Hx. apply in_committed in Hx. destruct Hx as [Hx|[Hx|Hx]].
    + left; auto.
    + right; left. split; auto. split; [auto | rewrite Wflag; discriminate].
    + right; right. apply in_ooo_samples in Hx. destruct Hx as (c & H1 & H2). exists c. auto.
  - intros x Hx. unfold head_lb. rewrite Wpc. auto.
  - exact Wooo.
  - unfold pc_fact. rewrite Wpc. exact Wflag.
  - rewrite Wq. intros x [].
Qed.

Theorem exactly_once : forall s0 tr s outs,
  wf_init s0 = true -> no_view tr = true -> run s0 tr = Some (s, outs) ->
  forall q mint maxt res, In (q, mint, maxt, res) outs ->
    NoDup res /\ (forall x, In x res <-> (In x (committed s0) /\ mint <= s_t x <= maxt)).
Proof.
  intros s0 tr s outs W NV R q mint maxt res Ho.
  destruct (run_inv (committed s0) tr s0 s outs NV (inv_init s0 W) R) as [_ B].
  exact (B _ Ho).
Qed.

(* if no two committed samples share (series, timestamp), no (series, timestamp) is returned twice *)
Theorem exactly_once_keys : forall s0 tr s outs,
  wf_init s0 = true -> no_view tr = true -> run s0 tr = Some (s, outs) ->
  (forall a b, In a (committed s0) -> In b (committed s0) -> s_sid a = s_sid b -> s_t a = s_t b -> a = b) ->
  forall q mint maxt res, In (q, mint, maxt, res) outs ->
    NoDup (map (fun x => (s_sid x, s_t x)) res).
Proof.
  intros s0 tr s outs W NV R U q mint maxt res Ho.
  destruct (exactly_once s0 tr s outs W NV R q mint maxt res Ho) as [ND SP].
  assert (Sub : forall x, In x res -> In x (committed s0)) by (intros x Hx; apply SP in Hx; tauto).
  clear SP Ho. revert ND Sub. induction res as [|a r IHr]; intros ND Sub; cbn; constructor.
  - inv ND. intros Hin. apply in_map_iff in Hin. destruct Hin as (b & E & Hb). inv E.
    assert (b = a) by (apply U; auto; [apply Sub; right; auto | apply Sub; left; auto]). subst; auto.
  - inv ND. apply IHr; auto. intros x Hx. apply Sub; right; auto.
Qed.
