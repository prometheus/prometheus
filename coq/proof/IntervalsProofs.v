(* proof/IntervalsProofs.v — proofs about model/Intervals.v (tombstones.Intervals.Add).
   Route: (1) characterise the binary search on a false*/true* predicate; (2) split a
   canonical list L ++ M ++ R at the two thresholds used by Add and show that the model's
   mini/maxi are |L| and |M| (also when a search is skipped by the overflow guards);
   (3) show the result is L ++ [glue n M] ++ R; (4) prove canonicity and coverage of that. *)
From Coq Require Import List ZArith Bool Lia Arith Sorted.
From Verif Require Import lib.Int64 lib.SortedList model.Intervals.
Import ListNotations.
Open Scope Z_scope.

Lemma div2_bounds (i j : nat) : (i < j)%nat -> (i <= Nat.div2 (i + j) < j)%nat.
Proof.
  intros Hij. pose proof (Nat.div2_odd (i + j)) as E.
  destruct (Nat.odd (i + j)); cbn [Nat.b2n] in E; lia.
Qed.

Lemma bsearch_char (fuel : nat) : forall (i j : nat) (f : nat -> bool) (k : nat),
  (i <= k <= j)%nat -> (j - i < fuel)%nat ->
  (forall x, (i <= x < k)%nat -> f x = false) ->
  (forall x, (k <= x < j)%nat -> f x = true) ->
  bsearch fuel i j f = k.
Proof.
  induction fuel as [|fuel IH]; intros i j f k Hk Hfuel Hlo Hhi; [lia|].
  cbn [bsearch]. destruct (Nat.ltb_spec i j) as [Hij|Hij]; [|lia].
  cbv zeta. pose proof (div2_bounds i j Hij) as Hh. set (h := Nat.div2 (i + j)) in *.
  (* f h tells on which side of h the threshold k lies *)
  assert (Hside : if f h then (k <= h)%nat else (h < k)%nat).
  { destruct (Nat.le_gt_cases k h) as [Hle|Hlt]; [rewrite Hhi by lia; exact Hle|rewrite Hlo by lia; exact Hlt]. }
  destruct (f h); (apply IH; [lia|lia|intros x Hx; apply Hlo; lia|intros x Hx; apply Hhi; lia]).
Qed.

Lemma search_char (n : nat) (f : nat -> bool) (k : nat) :
  (k <= n)%nat ->
  (forall x, (x < k)%nat -> f x = false) ->
  (forall x, (k <= x < n)%nat -> f x = true) ->
  search n f = k.
Proof.
  intros Hk Hlo Hhi. unfold search. apply bsearch_char; [lia|lia| |]; intros x Hx; [apply Hlo|apply Hhi]; lia.
Qed.

Lemma at_app1 (L X : list interval) (i : nat) :
  (i < length L)%nat -> In (at_ (L ++ X) i) L.
Proof.
  intros Hi. unfold at_. rewrite app_nth1 by exact Hi. apply nth_In. exact Hi.
Qed.

Lemma at_app2 (L X : list interval) (i : nat) :
  (length L <= i < length L + length X)%nat -> In (at_ (L ++ X) i) X.
Proof.
  intros Hi. unfold at_. rewrite app_nth2 by lia. apply nth_In. lia.
Qed.

Lemma at_app_plus (L X : list interval) (i : nat) :
  at_ (L ++ X) (length L + i) = at_ X i.
Proof. unfold at_. apply app_nth2_plus. Qed.

(* both searches of Add: over X ++ Y (after a prefix), a test false on X and true on Y *)
Lemma search_split (p : interval -> bool) (pre X Y : list interval) :
  (forall a, In a X -> p a = false) -> (forall a, In a Y -> p a = true) ->
  search (length X + length Y) (fun i => p (at_ (pre ++ X ++ Y) (length pre + i))) = length X.
Proof.
  intros HX HY. apply search_char; [lia| |]; intros i Hi; rewrite at_app_plus.
  - apply HX, at_app1, Hi.
  - apply HY, at_app2. lia.
Qed.

Lemma nth_error_last (M : list interval) :
  M <> [] -> nth_error M (length M - 1) = Some (last M dummy).
Proof.
  induction M as [|a M IH]; intros Hne; [congruence|].
  destruct M as [|b M'].
  - reflexivity.
  - change (last (a :: b :: M') dummy) with (last (b :: M') dummy).
    rewrite <- IH by congruence.
    cbn [length]. replace (S (S (length M')) - 1)%nat with (S (S (length M') - 1)) by lia.
    reflexivity.
Qed.

Definition lt_iv (a b : interval) : Prop := imax a + 1 < imin b.

Fixpoint canonS (l : list interval) : Prop :=
  match l with
  | [] => True
  | a :: t => wf_iv a /\ Forall (lt_iv a) t /\ canonS t
  end.

Lemma canonS_iff (l : list interval) : canonS l <-> Forall wf_iv l /\ StronglySorted lt_iv l.
Proof.
  induction l as [|a t IH]; cbn [canonS].
  - split; [intros _; split; constructor|exact (fun _ => I)].
  - rewrite IH. split.
    + intros (Hw & Hf & Hwt & Hs). split; constructor; assumption.
    + intros [Hw Hs]. apply Forall_cons_iff in Hw as [Hw Hwt]. apply StronglySorted_inv in Hs as [Hs Hf]. tauto.
Qed.

Lemma canonical_canonS (l : list interval) : canonical l <-> canonS l.
Proof.
  induction l as [|a t IH].
  - cbn. tauto.
  - cbn [canonical canonS]. split.
    + intros (Hwa & Hhd & Ht). apply IH in Ht. split; [exact Hwa|]. split; [|exact Ht].
      destruct t as [|b t']; [constructor|].
      cbn [canonS] in Ht. destruct Ht as (Hwb & Hbt & _).
      constructor; [exact Hhd|].
      eapply Forall_impl; [|exact Hbt].
      intros c Hbc. unfold lt_iv in *. unfold wf_iv in Hwb. lia.
    + intros (Hwa & Hat & Ht). split; [exact Hwa|]. split; [|apply IH; exact Ht].
      destruct t as [|b t']; [exact I|]. apply Forall_inv in Hat. exact Hat.
Qed.

Lemma canonS_app (l1 l2 : list interval) :
  canonS (l1 ++ l2) <->
  canonS l1 /\ canonS l2 /\ (forall a b, In a l1 -> In b l2 -> lt_iv a b).
Proof. rewrite !canonS_iff, Forall_app, StronglySorted_app. tauto. Qed.

Lemma canonS_wf (l : list interval) : canonS l -> forall a, In a l -> wf_iv a.
Proof. intros H. apply Forall_forall, canonS_iff, H. Qed.

(* the last element of a canonical list is in it and has the largest imax *)
Lemma canonS_last (M : list interval) :
  canonS M -> M <> [] ->
  In (last M dummy) M /\ forall m, In m M -> imax m <= imax (last M dummy).
Proof.
  induction M as [|a M IH]; intros Hc Hne; [congruence|].
  destruct M as [|b M'].
  - cbn. split; [left; reflexivity|]. intros m [->|[]]. lia.
  - change (last (a :: b :: M') dummy) with (last (b :: M') dummy).
    destruct Hc as (Hwa & Hat & Hc).
    destruct (IH Hc ltac:(congruence)) as (Hin & Hmax).
    split; [right; exact Hin|].
    intros m [->|Hm]; [|apply Hmax; exact Hm].
    rewrite Forall_forall in Hat. specialize (Hat _ Hin).
    pose proof (canonS_wf _ Hc _ Hin) as Hwz.
    unfold lt_iv in Hat. unfold wf_iv in Hwz. lia.
Qed.

Lemma canonS_head (a : interval) (M : list interval) :
  canonS (a :: M) -> forall m, In m (a :: M) -> imin a <= imin m.
Proof.
  cbn [canonS]. intros (Hwa & Hat & _) m [->|Hm]; [lia|].
  rewrite Forall_forall in Hat. specialize (Hat _ Hm).
  unfold lt_iv in Hat. unfold wf_iv in Hwa. lia.
Qed.

(* split a canonical list at a decidable property that is monotone along the order *)
Lemma canonS_split (P : interval -> Prop) : (forall a, {P a} + {~ P a}) ->
  (forall a b, wf_iv a -> wf_iv b -> lt_iv a b -> P a -> P b) ->
  forall l, canonS l ->
  exists L R, l = L ++ R /\ (forall a, In a L -> ~ P a) /\ (forall a, In a R -> P a).
Proof.
  intros Hdec Hmono l. induction l as [|a t IH]; intros Hc.
  - exists [], []. repeat split; intros a [].
  - pose proof (canonS_wf _ Hc) as Hwf.
    cbn [canonS] in Hc. destruct Hc as (Hwa & Hat & Hct).
    destruct (Hdec a) as [Hpa|Hpa].
    + exists [], (a :: t). split; [reflexivity|]. split; [intros x []|].
      intros x [->|Hx]; [exact Hpa|].
      apply (Hmono a x); [exact Hwa|apply Hwf; right; exact Hx|apply (Forall_in Hat), Hx|exact Hpa].
    + destruct (IH Hct) as (L & R & Heq & HL & HR).
      exists (a :: L), R. split; [cbn [app]; rewrite Heq; reflexivity|]. split; [|exact HR].
      intros x [->|Hx]; [exact Hpa|apply HL; exact Hx].
Qed.

Definition glue (n : interval) (M : list interval) : interval :=
  match M with
  | [] => n
  | a :: _ => mkI (if imin n <? imin a then imin n else imin a)
                  (Z.max (imax n) (imax (last M dummy)))
  end.

(* L: before n with a gap; M: touching or overlapping n; R: after n with a gap *)
Record split3 (ivs : list interval) (n : interval) (L M R : list interval) : Prop := {
  s3_eq : ivs = L ++ M ++ R;
  s3_L  : forall a, In a L -> imax a + 1 < imin n;
  s3_MR : forall a, In a (M ++ R) -> imin n <= imax a + 1;
  s3_M  : forall a, In a M -> imin a <= imax n + 1;
  s3_R  : forall a, In a R -> imax n + 1 < imin a
}.

Lemma split3_exists (ivs : list interval) (n : interval) :
  canonS ivs -> exists L M R, split3 ivs n L M R.
Proof.
  intros Hc.
  destruct (canonS_split (fun a => imin n <= imax a + 1)) with (l := ivs)
    as (L & MR & -> & HL & HMR); [intros a; apply Z_le_dec| |exact Hc|].
  { unfold lt_iv, wf_iv. intros a b Hwa Hwb Hab Hpa. lia. }
  apply canonS_app in Hc as (_ & HcMR & _).
  destruct (canonS_split (fun a => imax n + 1 < imin a)) with (l := MR)
    as (M & R & -> & HM & HR); [intros a; apply Z_lt_dec| |exact HcMR|].
  { unfold lt_iv, wf_iv. intros a b Hwa Hwb Hab Hpa. lia. }
  exists L, M, R. constructor; [reflexivity| |exact HMR| |exact HR]; intros a Ha.
  - specialize (HL a Ha). lia.
  - specialize (HM a Ha). lia.
Qed.

Lemma add_shape (ivs : list interval) (n : interval) (L M R : list interval) :
  canonS ivs -> wf_iv n -> split3 ivs n L M R ->
  add ivs n = Ok (L ++ [glue n M] ++ R).
Proof.
  intros Hc Hwn [Heq HL HMR HM HR]. subst ivs.
  pose proof (canonS_wf _ Hc) as Hwf. clear Hc.
  assert (Hlen : length (L ++ M ++ R) = (length L + (length M + length R))%nat).
  { rewrite !app_length. reflexivity. }
  (* nothing lies below an interval that starts at MinInt64, nothing above one that ends at MaxInt64 *)
  assert (Hgmin : imin n = minInt64 -> L = []).
  { intros E. destruct L as [|a L']; [reflexivity|exfalso].
    specialize (HL a (or_introl eq_refl)). specialize (Hwf a (or_introl eq_refl)).
    unfold wf_iv, int64 in Hwf. lia. }
  assert (Hgmax : imax n = maxInt64 -> R = []).
  { intros E. destruct R as [|a R']; [reflexivity|exfalso].
    specialize (HR a (or_introl eq_refl)).
    specialize (Hwf a ltac:(rewrite !in_app_iff; right; right; left; reflexivity)).
    unfold wf_iv, int64 in Hwf. lia. }
  unfold add, add_gen. cbv beta iota zeta.
  (* the model's mini is |L|: the guard for MinInt64 skips a search that would give 0 *)
  set (mini := if imin n =? minInt64 then _ else _).
  assert (Hmini : mini = length L).
  { unfold mini. destruct (Z.eqb_spec (imin n) minInt64) as [Emin|Emin]; [rewrite (Hgmin Emin); reflexivity|].
    rewrite Hlen, <- app_length.
    apply (search_split (fun a => imax a >=? imin n - 1) [] L (M ++ R)); intros a Ha.
    - specialize (HL _ Ha). rewrite Z.geb_leb. apply Z.leb_gt. lia.
    - specialize (HMR _ Ha). rewrite Z.geb_leb. apply Z.leb_le. lia. }
  clearbody mini. subst mini.
  (* the model's maxi is |M|: the guard for MaxInt64 skips a search that would give all that is left *)
  set (maxi := if imax n =? maxInt64 then _ else _).
  assert (Hmaxi : maxi = length M).
  { unfold maxi. replace (length (L ++ M ++ R) - length L)%nat with (length M + length R)%nat by lia.
    destruct (Z.eqb_spec (imax n) maxInt64) as [Emax|Emax]; [rewrite (Hgmax Emax); cbn [length]; lia|].
    apply (search_split (fun a => imin a >? imax n + 1) L M R); intros a Ha.
    - specialize (HM _ Ha). rewrite Z.gtb_ltb. apply Z.ltb_ge. lia.
    - specialize (HR _ Ha). rewrite Z.gtb_ltb. apply Z.ltb_lt. lia. }
  clearbody maxi. subst maxi. clear HL HMR HM HR Hwf Hwn.
  destruct (Nat.eqb_spec (length (L ++ M ++ R)) 0) as [El0|El0].
  { (* empty input *)
    destruct L, M, R; try discriminate El0. reflexivity. }
  destruct (negb (imin n =? minInt64) && Nat.eqb (length L) (length (L ++ M ++ R))) eqn:Eapp.
  { (* append at the end *)
    apply andb_true_iff in Eapp as [_ Eapp]. apply Nat.eqb_eq in Eapp.
    destruct M, R; try (cbn [length] in *; lia).
    cbn [glue app]. rewrite !app_nil_r. reflexivity. }
  destruct (negb (imax n =? maxInt64) && Nat.eqb (length M) 0) eqn:Eins.
  { (* plain insertion *)
    apply andb_true_iff in Eins as [_ Eins]. apply Nat.eqb_eq in Eins.
    destruct M; [|cbn [length] in Eins; lia].
    cbn [glue app]. rewrite firstn_length_app, skipn_length_app. reflexivity. }
  (* merge: M is not empty, for else one of the two cases above applies *)
  destruct M as [|a M'].
  { exfalso. apply andb_false_iff in Eins as [Eins|Eins]; [|discriminate Eins].
    apply negb_false_iff, Z.eqb_eq, Hgmax in Eins. subst R.
    apply andb_false_iff in Eapp as [Eapp|Eapp].
    - apply negb_false_iff, Z.eqb_eq, Hgmin in Eapp. subst L. apply El0. reflexivity.
    - apply Nat.eqb_neq in Eapp. apply Eapp. rewrite !app_nil_r. reflexivity. }
  set (M := a :: M') in *.
  assert (Hn1 : nth_error (L ++ M ++ R) (length L) = Some a).
  { rewrite nth_error_app2, Nat.sub_diag by lia. reflexivity. }
  assert (Hn2 : nth_error (L ++ M ++ R) (length M + length L - 1) = Some (last M dummy)).
  { assert (length M > 0)%nat by (unfold M; cbn [length]; lia).
    rewrite nth_error_app2 by lia.
    replace (length M + length L - 1 - length L)%nat with (length M - 1)%nat by lia.
    rewrite nth_error_app1 by lia. apply nth_error_last. discriminate. }
  rewrite Hn1, Hn2.
  destruct (Nat.ltb_spec (length (L ++ M ++ R)) (length M + length L)) as [Hlt|Hge]; [lia|].
  rewrite firstn_length_app, (app_assoc L M R).
  replace (length M + length L)%nat with (length (L ++ M)) by (rewrite app_length; lia).
  rewrite skipn_length_app. reflexivity.
Qed.

Lemma glue_facts (n : interval) (L M R : list interval) :
  canonS (L ++ M ++ R) -> wf_iv n ->
  (forall a, In a L -> imax a + 1 < imin n) -> (forall a, In a M -> imin n <= imax a + 1) ->
  (forall a, In a M -> imin a <= imax n + 1) -> (forall a, In a R -> imax n + 1 < imin a) ->
  wf_iv (glue n M) /\
  (forall l, In l L -> lt_iv l (glue n M)) /\
  (forall r, In r R -> lt_iv (glue n M) r) /\
  (forall t, imin (glue n M) <= t <= imax (glue n M) <->
             Exists (fun i => imin i <= t <= imax i) M \/ imin n <= t <= imax n).
Proof.
  intros Hc Hwn HL HMn HM HR.
  destruct M as [|a M'].
  - cbn [glue]. split; [exact Hwn|]. split; [exact HL|]. split; [exact HR|].
    intros t. rewrite Exists_nil. tauto.
  - apply canonS_app in Hc as (_ & HcMR & HLMR).
    apply canonS_app in HcMR as (HcM & _ & HMR').
    destruct (canonS_last (a :: M') HcM ltac:(congruence)) as (Hzin & Hzmax).
    pose proof (canonS_head a M' HcM) as Hamin.
    set (z := last (a :: M') dummy) in *.
    assert (Hain : In a (a :: M')) by (left; reflexivity).
    pose proof (canonS_wf _ HcM a Hain) as Hwa. pose proof (canonS_wf _ HcM z Hzin) as Hwz.
    pose proof (HM a Hain) as HMa. pose proof (HM z Hzin) as HMz.
    pose proof (HMn a Hain) as HMna. pose proof (HMn z Hzin) as HMnz.
    pose proof (Hzmax a Hain) as Haz.
    cbn [glue]. fold z.
    replace (if imin n <? imin a then imin n else imin a) with (Z.min (imin n) (imin a))
      by (destruct (Z.ltb_spec (imin n) (imin a)); lia).
    unfold wf_iv, int64 in Hwa, Hwz, Hwn |- *. unfold lt_iv. cbn [imin imax].
    (* what is left is linear arithmetic over the ends of n, a and z *)
    split; [lia|]. split; [|split].
    + intros l Hl. specialize (HL l Hl).
      specialize (HLMR l a Hl (in_or_app _ _ _ (or_introl Hain))). unfold lt_iv in HLMR. lia.
    + intros r Hr. specialize (HR r Hr). specialize (HMR' z r Hzin Hr). unfold lt_iv in HMR'. lia.
    + intros t. rewrite Exists_exists. split.
      * intros Ht. destruct (Z.lt_ge_cases t (imin n)) as [Hlo|Hlo].
        -- left. exists a. split; [exact Hain|lia].
        -- destruct (Z.lt_ge_cases (imax n) t) as [Hhi|Hhi]; [|right; lia].
           left. exists z. split; [exact Hzin|lia].
      * intros [(m & Hm & Hmt)|Hnt]; [specialize (Hamin m Hm); specialize (Hzmax m Hm)|]; lia.
Qed.

Lemma glue_spec (ivs : list interval) (n : interval) (L M R : list interval) :
  canonS ivs -> wf_iv n -> split3 ivs n L M R ->
  canonS (L ++ [glue n M] ++ R) /\
  forall t, covered (L ++ [glue n M] ++ R) t <-> covered ivs t \/ imin n <= t <= imax n.
Proof.
  intros Hc Hwn [Heq HL HMR HM HR]. subst ivs.
  destruct (glue_facts n L M R Hc Hwn HL) as (Hwg & HLg & HgR & Hcov); [|exact HM|exact HR|].
  { intros a Ha. apply HMR, in_or_app. left. exact Ha. }
  apply canonS_app in Hc as (HcL & HcMR & HLMR). apply canonS_app in HcMR as (_ & HcR & _).
  split.
  - apply canonS_app. split; [exact HcL|]. split.
    + apply canonS_app. split; [|split].
      * cbn [canonS]. split; [exact Hwg|]. split; [constructor|exact I].
      * exact HcR.
      * intros x r [<-|[]] Hr. apply HgR. exact Hr.
    + intros l b Hl Hb. apply in_app_or in Hb. destruct Hb as [[<-|[]]|Hb].
      * apply HLg. exact Hl.
      * apply HLMR; [exact Hl|]. apply in_or_app. right. exact Hb.
  - intros t. unfold covered. rewrite !Exists_app, Exists_cons, Exists_nil, Hcov. tauto.
Qed.

Lemma add_spec ivs n : canonical ivs -> wf_iv n ->
  exists r, add ivs n = Ok r /\ canonical r /\
            forall t, covered r t <-> covered ivs t \/ imin n <= t <= imax n.
Proof.
  intros Hc Hwn. apply canonical_canonS in Hc.
  destruct (split3_exists ivs n Hc) as (L & M & R & Hs).
  destruct (glue_spec ivs n L M R Hc Hwn Hs) as (Hcr & Hcov).
  eexists. split; [apply (add_shape ivs n L M R Hc Hwn Hs)|].
  split; [apply canonical_canonS; exact Hcr|exact Hcov].
Qed.

(* Add of an interval lying strictly after the last one (with a gap) appends it *)
Lemma add_append l n : canonical (l ++ [n]) -> add l n = Ok (l ++ [n]).
Proof.
  intros Hc. apply canonical_canonS, canonS_app in Hc as (Hcl & Hcn & Hlt).
  rewrite (add_shape l n l [] []); [reflexivity|exact Hcl|apply Hcn|].
  constructor; [rewrite app_nil_r; reflexivity| |intros a []..].
  intros a Ha. apply (Hlt a n Ha). left. reflexivity.
Qed.

Lemma fold_add_spec : forall ns acc, canonical acc -> Forall wf_iv ns ->
  exists r, fold_add acc ns = Ok r /\ canonical r /\
            forall t, covered r t <-> covered acc t \/ Exists (fun n => imin n <= t <= imax n) ns.
Proof.
  induction ns as [|n ns IH]; intros acc Hc Hwf.
  - exists acc. split; [reflexivity|]. split; [exact Hc|].
    intros t. rewrite Exists_nil. tauto.
  - apply Forall_cons_iff in Hwf as [Hwn Hwns].
    destruct (add_spec acc n Hc Hwn) as (r1 & Hadd & Hc1 & Hcov1).
    destruct (IH r1 Hc1 Hwns) as (r & Hfold & Hcr & Hcovr).
    exists r. cbn [fold_add]. rewrite Hadd. split; [exact Hfold|]. split; [exact Hcr|].
    intros t. rewrite Hcovr, Hcov1, Exists_cons. tauto.
Qed.

Lemma adds_reachable : forall ns, Forall wf_iv ns ->
  exists r, fold_add [] ns = Ok r /\ canonical r /\
            forall t, covered r t <-> Exists (fun n => imin n <= t <= imax n) ns.
Proof.
  intros ns Hwf.
  destruct (fold_add_spec ns [] I Hwf) as (r & Hfold & Hcr & Hcov).
  exists r. split; [exact Hfold|]. split; [exact Hcr|].
  intros t. rewrite Hcov. unfold covered. rewrite Exists_nil. tauto.
Qed.

Lemma nonvacuous_example : canonical [mkI 1 2; mkI 10 20] /\ wf_iv (mkI 5 maxInt64).
Proof.
  unfold wf_iv, int64, minInt64, maxInt64. cbn [canonical imin imax].
  unfold wf_iv, int64, minInt64, maxInt64. cbn [imin imax]. lia.
Qed.

Lemma add_old_refuted : exists ivs n, canonical ivs /\ wf_iv n /\ add_old ivs n = Panic.
Proof.
  exists [mkI 1 2; mkI 10 20], (mkI 5 maxInt64).
  destruct nonvacuous_example as (Hc & Hw).
  split; [exact Hc|]. split; [exact Hw|]. vm_compute. reflexivity.
Qed.
