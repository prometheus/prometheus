(* proof/SnapshotProofs.v — property C23 over model/Snapshot.v.  An unusable snapshot makes Init the
   WAL-only restart; the exemplars after Init come from the snapshot in use or from the WAL; and
   for one series the snapshot path and the WAL replay show the same in-order samples
   ([series_equiv]).  The last rests on [incr], the greedy increasing subsequence memSeries.append
   selects from a sample log, and on what the replay keeps of a log ([replay_fold]). *)
From Coq Require Import List ZArith Bool Lia.
From Verif Require Import model.Snapshot lib.SortedList.
Import ListNotations.
Open Scope Z_scope.

Definition unusable (d : dstate) : Prop :=
  d_snap d = None \/
  exists s, d_snap d = Some s /\ (d_lastseg d < sn_idx s \/ sn_ok s = false \/ d_mm_ok d = false).

Lemma usable_unusable d : unusable d -> usable true d = None.
Proof.
  intros [H | (s & H & Hs)]; unfold usable; rewrite H; [reflexivity|].
  destruct Hs as [Hs | [Hs | Hs]].
  - apply Z.ltb_lt in Hs. now rewrite Hs.
  - rewrite Hs. now destruct (d_lastseg d <? sn_idx s).
  - rewrite Hs. destruct (d_lastseg d <? sn_idx s); [reflexivity|]. now destruct (sn_ok s).
Qed.

Lemma usable_snap enabled d s : usable enabled d = Some s -> d_snap d = Some s.
Proof.
  unfold usable. destruct enabled; [|discriminate]. destruct (d_snap d) as [s'|]; [|discriminate].
  destruct (_ <? _); [discriminate|]. destruct (sn_ok s'); [|discriminate]. now destruct (d_mm_ok d).
Qed.

Lemma fallback add d : unusable d -> open add true d = open add false d.
Proof.
  intros H. unfold open, open_at. rewrite (usable_unusable d H). reflexivity.
Qed.

(* the snapshot option switched off is the WAL-only restart whatever is on disk *)
Lemma open_off add d : open add false d = open add true (mkD (d_mv d) (d_lastseg d) (d_cp d) (d_wal d) (d_mm d) (d_mm_ok d) None (d_ooo d) (d_blk d) (d_univ d)).
Proof. reflexivity. Qed.

Section Exemplars.
Variable add_ex : list (Z * sample) -> Z * sample -> list (Z * sample).
Hypothesis add_incl : forall st e x, In x (add_ex st e) -> In x st \/ x = e.

Definition wal_exemplar (d : dstate) (x : Z * sample) : Prop :=
  exists e, In e (d_wal d) /\ w_rec e = WEx (fst x) (snd x).

Lemma fold_add_incl l : forall st x, In x (fold_left add_ex l st) -> In x st \/ In x l.
Proof.
  induction l as [|e l IH]; intros st x H; cbn in *; [now left|].
  apply IH in H. destruct H as [H | H]; [|now right; right].
  apply add_incl in H. destruct H as [H | ->]; [now left | now right; left].
Qed.

Lemma replay_ex mv es : forall h x,
  In x (h_ex (fold_left (replay_entry add_ex mv) es h)) ->
  In x (h_ex h) \/ exists e, In e es /\ w_rec e = WEx (fst x) (snd x).
Proof.
  induction es as [|e es IH]; intros h x H; cbn in *; [now left|].
  apply IH in H. destruct H as [H | (e' & He' & Hr)]; [|right; exists e'; auto].
  unfold replay_entry in H. destruct (w_rec e) as [l y | l iv | l y] eqn:Hrec; cbn in H.
  - now left.
  - destruct (snd iv <? mv); cbn in H; now left.
  - destruct (ts y <? mv); cbn in H; [now left|].
    apply add_incl in H. destruct H as [H | ->]; [now left|].
    right. exists e. split; [now left|]. exact Hrec.
Qed.

(* every exemplar present after Init comes from the snapshot (if it is used) or from an exemplar
   record of the WAL *)
Lemma open_exemplars enabled d x :
  In x (h_ex (open add_ex enabled d)) ->
  (exists s, usable enabled d = Some s /\ In x (sn_ex s)) \/ wal_exemplar d x.
Proof.
  unfold open, open_at. destruct (usable enabled d) as [s|] eqn:Hu; intros H.
  - apply replay_ex in H. destruct H as [H | (e & He & Hr)].
    + left. exists s. split; [reflexivity|]. cbn in H.
      apply fold_add_incl in H. destruct H as [[] | H]. apply filter_In in H. tauto.
    + right. exists e. split; [|exact Hr]. apply filter_In in He. tauto.
  - apply replay_ex in H. destruct H as [[] | (e & He & Hr)].
    right. exists e. split; [|exact Hr]. apply filter_In in He. tauto.
Qed.

(* along a history: whatever a restart restores was in the exemplar storage before the shutdown
   (snapshot taken at this Close), or in the storage when an older snapshot was taken, or is
   logged in the WAL (i.e. was accepted by an appender before the shutdown) *)
Lemma restart_exemplars s ec eo x :
  In x (h_ex (s_head (step add_ex s (Restart ec eo)))) ->
  (ec = true /\ In x (h_ex (s_head s))) \/
  (exists sn, s_snap s = Some sn /\ In x (sn_ex sn)) \/
  (exists e, In e (s_wal s) /\ w_rec e = WEx (fst x) (snd x)).
Proof.
  cbn [step s_head]. intros H. apply open_exemplars in H.
  destruct H as [(sn & Hu & Hx) | H]; [|right; right; exact H].
  apply usable_snap in Hu. cbn [durable d_snap] in Hu. unfold close in Hu. destruct ec.
  - left. split; [reflexivity|]. injection Hu as <-. exact Hx.
  - right. left. exists sn. auto.
Qed.
End Exemplars.

Lemma last_dflt {A} (l : list A) d d' : l <> [] -> last l d = last l d'.
Proof.
  induction l as [|a l IH]; intros H; [congruence|].
  destruct l as [|b l]; [reflexivity|]. cbn [last] in *. apply IH. discriminate.
Qed.

Lemma last_in {A} (l : list A) d : l <> [] -> In (last l d) l.
Proof. intros H. destruct (exists_last H) as (l' & z & ->). rewrite last_last. apply in_or_app. right. now left. Qed.

Lemma filter_filter_same {A} (f : A -> bool) l : filter f (filter f l) = filter f l.
Proof. apply filter_all. intros x Hx. apply filter_In in Hx. tauto. Qed.

(* memSeries.append keeps a sample iff it is above the newest one: from a log of samples the
   accepted ones are the greedy strictly increasing subsequence *)
Fixpoint incr (lo : Z) (w : list sample) : list sample :=
  match w with
  | [] => []
  | x :: r => if lo <? ts x then x :: incr (ts x) r else incr lo r
  end.

Fixpoint sinc (lo : Z) (l : list sample) : Prop :=
  match l with [] => True | x :: r => lo < ts x /\ sinc (ts x) r end.

Lemma incr_sinc w : forall lo, sinc lo (incr lo w).
Proof.
  induction w as [|x r IH]; intros lo; cbn; [exact I|].
  destruct (Z.ltb_spec lo (ts x)); [split; [assumption | apply IH] | apply IH].
Qed.

Lemma sinc_weaken l lo lo' : lo' <= lo -> sinc lo l -> sinc lo' l.
Proof. destruct l as [|x r]; intros H Hs; [exact I|]. destruct Hs; split; [lia | assumption]. Qed.

Lemma sinc_gt l : forall lo x, sinc lo l -> In x l -> lo < ts x.
Proof.
  induction l as [|y r IH]; intros lo x Hs Hx; [contradiction|].
  destruct Hs as [H1 H2]. destruct Hx as [<- | Hx]; [exact H1|]. specialize (IH _ _ H2 Hx). lia.
Qed.

(* [last_ts] hands its default down the list the way [sinc] hands down its lower bound *)
Lemma last_ts_cons x l d : last_ts (x :: l) d = last_ts l (ts x).
Proof. destruct l as [|y l]; [reflexivity|]. unfold last_ts. f_equal. apply (last_dflt (y :: l)). discriminate. Qed.

Lemma sinc_last_lb l : forall lo, sinc lo l -> lo <= last_ts l lo.
Proof.
  induction l as [|x r IH]; intros lo H; [apply Z.le_refl|].
  destruct H as [H1 H2]. rewrite last_ts_cons. apply IH in H2. lia.
Qed.

Lemma sinc_le_last l : forall lo d x, sinc lo l -> In x l -> ts x <= last_ts l d.
Proof.
  induction l as [|y r IH]; intros lo d x Hs Hx; [contradiction|].
  destruct Hs as [_ Hs]. rewrite last_ts_cons.
  destruct Hx as [<- | Hx]; [now apply sinc_last_lb | now apply (IH (ts y))].
Qed.

Lemma sinc_app a : forall lo b, sinc lo (a ++ b) -> sinc lo a /\ sinc (last_ts a lo) b.
Proof.
  induction a as [|z a IH]; intros lo b H; [now split|].
  destruct H as [H1 H2]. apply IH in H2. rewrite last_ts_cons. cbn. tauto.
Qed.

Lemma incr_raise w : forall lo lo', lo <= lo' -> incr lo' w = filter (fun x => lo' <? ts x) (incr lo w).
Proof.
  induction w as [|x r IH]; intros lo lo' Hle; cbn [incr]; [reflexivity|].
  destruct (Z.ltb_spec lo (ts x)); cbn [filter]; destruct (Z.ltb_spec lo' (ts x)); try lia.
  - f_equal. symmetry. apply filter_all. intros y Hy. apply (sinc_gt _ _ _ (incr_sinc r (ts x))) in Hy.
    apply Z.ltb_lt. lia.
  - apply IH. lia.
  - apply IH. lia.
Qed.

(* filtering the log by "t >= c" first does not change which of the remaining samples are accepted *)
Lemma incr_filter_ge c w : forall lo,
  filter (fun x => c <=? ts x) (incr lo w) = incr (Z.max lo (c - 1)) (filter (fun x => c <=? ts x) w).
Proof.
  induction w as [|x r IH]; intros lo; cbn [incr filter]; [reflexivity|].
  destruct (Z.ltb_spec lo (ts x)); cbn [filter]; destruct (Z.leb_spec c (ts x)); cbn [incr]; rewrite IH.
  - destruct (Z.ltb_spec (Z.max lo (c - 1)) (ts x)); [|lia]. do 2 f_equal. lia.
  - f_equal. lia.
  - destruct (Z.ltb_spec (Z.max lo (c - 1)) (ts x)); [lia | reflexivity].
  - reflexivity.
Qed.

Lemma newest_max_snoc mm M hc x : newest_max (mkMS mm M (hc ++ [x])) = ts x.
Proof.
  unfold newest_max. cbn [ms_hc]. destruct (hc ++ [x]) eqn:E; [now destruct hc|].
  rewrite <- E. unfold last_ts. now rewrite last_last.
Qed.

(* processWALSamples skips T <= mmMaxTime, then memSeries.append rejects T <= the newest sample.
   As long as mmMaxTime is not above the newest sample (resetSeriesWithMMappedChunks makes the two
   equal, and an accepted sample keeps it so) the first test is implied by the second: the replay
   appends to the head chunk the samples >= minValidTime accepted above the newest one and leaves
   the m-mapped chunks alone *)
Lemma replay_fold mv w : forall m, ms_mmMax m <= newest_max m ->
  fold_left (replay_sample mv) w m =
  mkMS (ms_mm m) (ms_mmMax m) (ms_hc m ++ incr (newest_max m) (filter (fun x => mv <=? ts x) w)).
Proof.
  induction w as [|x r IH]; intros m Hm; cbn [fold_left filter].
  - cbn [incr]. rewrite app_nil_r. now destruct m.
  - unfold replay_sample at 2. rewrite (Z.ltb_antisym mv (ts x)).
    destruct (mv <=? ts x); cbn [negb]; [|now apply IH].
    cbn [incr]. destruct (Z.ltb_spec (newest_max m) (ts x)).
    + destruct (Z.leb_spec (ts x) (ms_mmMax m)); [lia|]. destruct (Z.leb_spec (ts x) (newest_max m)); [lia|].
      rewrite IH; cbn [ms_mm ms_mmMax ms_hc]; rewrite newest_max_snoc.
      * now rewrite <- app_assoc.
      * lia.
    + destruct (ts x <=? ms_mmMax m); [now apply IH|].
      destruct (Z.leb_spec (ts x) (newest_max m)); [now apply IH | lia].
Qed.

(* a chunk file that stays below the snapshotted head chunk leaves it in place *)
Lemma attach_fold mm0 hc l : forall acc,
  (forall c, In c l -> hc = [] \/ cmax c < cmin hc) ->
  fold_left attach l (mkMS acc mm0 hc) = mkMS (acc ++ l) mm0 hc.
Proof.
  induction l as [|c l IH]; intros acc H; cbn [fold_left]; [now rewrite app_nil_r|].
  unfold attach at 2. cbn [ms_mm ms_mmMax ms_hc].
  assert ((if negb (is_nil hc) && (cmin hc <=? cmax c) then [] else hc) = hc) as ->.
  { destruct (H c (or_introl eq_refl)) as [-> | Hlt]; [reflexivity|].
    destruct (Z.leb_spec (cmin hc) (cmax c)); [lia | now rewrite andb_false_r]. }
  rewrite IH; [now rewrite <- app_assoc|]. intros c' Hc'. apply H. now right.
Qed.

Lemma in_chunk_le_cmax cs : forall lo c x, sinc lo (concat cs) -> In c cs -> In x c -> ts x <= cmax c.
Proof.
  induction cs as [|c1 cs IH]; intros lo c x Hs Hc Hx; [contradiction|].
  cbn [concat] in Hs. apply sinc_app in Hs. destruct Hs as [H1 H2].
  destruct Hc as [-> | Hc]; [exact (sinc_le_last _ _ _ _ H1 Hx) | exact (IH _ _ _ H2 Hc Hx)].
Qed.

(* mmMaxTime is the last timestamp of the loaded chunks taken together *)
Lemma mm_max_concat cs : (forall c, In c cs -> c <> []) -> mm_max cs = last_ts (concat cs) minInt64.
Proof.
  intros Hne. destruct cs as [|c0 k]; [reflexivity|].
  change (mm_max (c0 :: k)) with (cmax (last (c0 :: k) [])).
  assert (Hn : c0 :: k <> []) by discriminate. revert Hne Hn. generalize (c0 :: k). intros cs Hne Hn.
  destruct (exists_last Hn) as (l' & cz & ->).
  destruct (exists_last (Hne cz ltac:(apply in_or_app; right; now left))) as (cz' & z & ->).
  rewrite last_last, concat_app. cbn [concat]. rewrite app_nil_r, app_assoc.
  unfold cmax, last_ts. now rewrite !last_last.
Qed.

(* One series at a clean shutdown.  [old ++ keep] are its chunk files (oldest first; [old] lie
   entirely below minValidTime and are ignored by loadMmappedChunks, [keep] are loaded), [hc] is
   the snapshotted head chunk, [w] its sample records in the WAL.  Invariant of the running head:
   the chunks followed by the head chunk are exactly the samples memSeries.append accepted, i.e.
   the greedy increasing subsequence of the log.  Then the series restored from the snapshot and
   the series rebuilt by the WAL replay show the same in-order samples from minValidTime on. *)
Theorem series_equiv mv old keep hc w :
  concat (old ++ keep) ++ hc = incr minInt64 w ->
  (forall c, In c (old ++ keep) -> c <> []) ->
  (forall c, In c old -> cmax c < mv) ->
  (forall c, In c keep -> mv <= cmax c) ->
  let a := snap_series mv hc (old ++ keep) in
  let b := fold_left (replay_sample mv) w (wal_series mv (old ++ keep)) in
  ms_hc a = hc /\ ms_mm a = keep /\ ms_mm b = keep /\
  filter (fun x => mv <=? ts x) (io_samples a) = filter (fun x => mv <=? ts x) (io_samples b).
Proof.
  intros Hinv Hne Hold Hkeep a b.
  assert (Hload : load_chunks mv (old ++ keep) = keep).
  { unfold load_chunks. rewrite filter_app, filter_none, filter_all; [reflexivity| |].
    - intros c Hc. apply Z.leb_le. now apply Hkeep.
    - intros c Hc. apply Z.leb_gt. now apply Hold. }
  assert (Hnek : forall c, In c keep -> c <> []) by (intros c Hc; apply Hne, in_or_app; now right).
  (* the accepted samples are increasing: M, the last timestamp of the loaded chunks, separates
     them from the head chunk *)
  assert (Hs : sinc minInt64 (concat (old ++ keep) ++ hc)) by (rewrite Hinv; apply incr_sinc).
  rewrite concat_app, <- app_assoc in Hs. apply sinc_app in Hs. destruct Hs as [Hso Hs].
  apply (sinc_weaken _ _ minInt64 (sinc_last_lb _ _ Hso)), sinc_app in Hs. destruct Hs as [Hsk Hsh].
  set (M := last_ts (concat keep) minInt64) in Hsh.
  (* path a: no chunk file reaches the snapshotted head chunk, which is therefore kept *)
  assert (Ha : a = mkMS keep minInt64 hc).
  { unfold a, snap_series, snap_series_at. rewrite Hload. rewrite attach_fold; [reflexivity|].
    intros c Hc. destruct hc as [|y hc']; [now left|]. right.
    apply Z.le_lt_trans with M; [|apply (sinc_gt _ _ _ Hsh); now left].
    apply (sinc_le_last _ _ _ _ Hsk), in_concat. exists c. split; [exact Hc | apply last_in, Hnek, Hc]. }
  (* path b: the replayed head chunk *)
  assert (Hb : b = mkMS keep M (incr M (filter (fun x => mv <=? ts x) w))).
  { unfold b, wal_series, M. rewrite Hload, <- (mm_max_concat keep Hnek). apply replay_fold, Z.le_refl. }
  assert (Hrep : filter (fun x => mv <=? ts x) (incr M (filter (fun x => mv <=? ts x) w)) =
                 filter (fun x => mv <=? ts x) hc).
  { (* from mv on it does not matter that the log was cut at mv before the replay
       ([incr_filter_ge] both ways), and the replay above M selects the part above M of what the
       running head accepted ([incr_raise]) *)
    rewrite incr_filter_ge, filter_filter_same, <- incr_filter_ge.
    rewrite (incr_raise w minInt64 M (sinc_last_lb _ _ Hsk)), <- Hinv.
    rewrite concat_app, <- app_assoc, !filter_app.
    rewrite (filter_none _ (filter _ (concat old))).
    2:{ intros x Hx. apply filter_In, proj1, in_concat in Hx. destruct Hx as (c & Hc & Hx).
        apply Z.leb_gt. pose proof (in_chunk_le_cmax old _ c x Hso Hc Hx). specialize (Hold c Hc). lia. }
    rewrite (filter_none _ (concat keep)).
    2:{ intros x Hx. apply Z.ltb_ge. exact (sinc_le_last _ _ _ _ Hsk Hx). }
    rewrite (filter_all _ hc); [reflexivity|].
    intros y Hy. apply Z.ltb_lt. exact (sinc_gt _ _ _ Hsh Hy). }
  rewrite Ha, Hb. cbn [ms_hc ms_mm]. repeat split.
  unfold io_samples. cbn [ms_mm ms_hc]. now rewrite !filter_app, Hrep.
Qed.
