(* proof/DamageProofs.v — model/Damage.v (C04): a damaged segment is read as a prefix of its records
   (rd_prefix, rd_before); whatever is replayed, the head holds only declared series with samples that are
   on disk (replay_inv); what Open does by what its reads report (open_cases). *)
From Coq Require Import List ZArith Bool Lia.
From Verif Require Import model.Damage.
Import ListNotations.
Open Scope Z_scope.

Definition strip (l : list wrec) : list wrec :=
  filter (fun r => match r with ROther => false | _ => true end) l.

Lemma strip_app : forall a b, strip (a ++ b) = strip a ++ strip b.
Proof. intros. unfold strip. apply filter_app. Qed.

Lemma strip_cons : forall r l, strip (r :: l) = strip [r] ++ strip l.
Proof. intros r l. exact (strip_app [r] l). Qed.

Lemma strip_phantoms : forall b, strip (phantoms b) = [].
Proof. destruct b; reflexivity. Qed.

Lemma strip_in : forall r l, In r l -> r = ROther \/ In r (strip l).
Proof. intros r l H. destruct r; [right|right|right|left; reflexivity]; apply filter_In; auto. Qed.

(* a read stops with at most an empty record delivered, or delivers (after at most an empty
   record) the next record of the segment and goes on behind it *)
Lemma rd_nil : forall d o vend pos out st, rd d o vend pos [] = (out, st) -> exists ph, out = phantoms ph.
Proof.
  intros d o vend pos out st H. cbn [rd] in H.
  destruct d as [|off|off v]; try (injection H as <- <-; exists false; reflexivity).
  destruct ((pos <=? off) && (off <? vend)); [|injection H as <- <-; exists false; reflexivity].
  destruct (gap_byte pos vend off v) as [ph s|ph]; injection H as <- <-; exists ph; reflexivity.
Qed.

Lemma rd_cons : forall d o vend pos x rest out st,
  rd d o vend pos (x :: rest) = (out, st) ->
  (exists ph, out = phantoms ph) \/
  (exists ph out', out = phantoms ph ++ r_rec x :: out' /\ rd d o vend (r_end x) rest = (out', st)).
Proof.
  intros d o vend pos x rest out st H. cbn [rd] in H.
  destruct (hits d pos (r_end x)); [destruct (damaged_rec d o pos vend x) as [ph s|ph]|].
  - injection H as <- <-. left. exists ph. reflexivity.
  - destruct (rd d o vend (r_end x) rest) as [out' st']. injection H as <- <-. right. exists ph, out'. auto.
  - destruct (rd d o vend (r_end x) rest) as [out' st']. injection H as <- <-. right. exists false, out'. auto.
Qed.

(* the records delivered are, empty records aside, a prefix of the original records, all of them
   delivered *)
Lemma rd_prefix : forall d o vend recs pos out st,
  rd d o vend pos recs = (out, st) ->
  exists k, (k <= length recs)%nat /\ strip out = strip (map r_rec (firstn k recs)) /\
            (forall j r, (j < k)%nat -> nth_error recs j = Some r -> In (r_rec r) out).
Proof.
  assert (Stop : forall recs ph, exists k, (k <= length recs)%nat /\
            strip (phantoms ph) = strip (map r_rec (firstn k recs)) /\
            (forall j r, (j < k)%nat -> nth_error recs j = Some r -> In (r_rec r) (phantoms ph))).
  { intros recs ph. exists 0%nat. split; [lia|]. split; [apply strip_phantoms|intros; lia]. }
  induction recs as [|x rest IH]; intros pos out st H.
  - apply rd_nil in H. destruct H as [ph ->]. apply Stop.
  - apply rd_cons in H. destruct H as [[ph ->]|(ph & out' & -> & H)]; [apply Stop|].
    destruct (IH _ _ _ H) as (k & Hk & Hs & Hin).
    exists (S k). split; [cbn; lia|]. split.
    + rewrite strip_app, strip_phantoms. cbn [firstn map app].
      rewrite (strip_cons _ out'), (strip_cons _ (map r_rec (firstn k rest))), Hs. reflexivity.
    + intros j r Hj Hn. apply in_or_app. right. destruct j; cbn in Hn.
      * injection Hn as <-. left; reflexivity.
      * right. eapply Hin; eauto. lia.
Qed.

Lemma rd_in : forall d o vend recs pos out st,
  rd d o vend pos recs = (out, st) ->
  forall r, In r out -> r = ROther \/ In r (map r_rec recs).
Proof.
  intros d o vend recs pos out st H r Hr.
  destruct (rd_prefix _ _ _ _ _ _ _ H) as (k & _ & Hs & _).
  destruct (strip_in r out Hr) as [E|Hi]; [left; exact E|right].
  rewrite Hs in Hi. apply filter_In in Hi. destruct Hi as [Hi _].
  rewrite <- (firstn_skipn k recs), map_app. apply in_or_app. left. exact Hi.
Qed.

(* an undamaged segment reads back as its records, cleanly *)
Lemma rd_none : forall o vend recs pos, rd DNone o vend pos recs = (map r_rec recs, RClean).
Proof.
  induction recs as [|x rest IH]; intros pos; simpl; [reflexivity|].
  rewrite IH. reflexivity.
Qed.

Definition recs_of (segs : list (Z * seg)) : list wrec := flat_map (fun p => seg_contents (snd p)) segs.

Lemma read_log_in : forall segs out st,
  read_log segs = (out, st) -> forall r, In r out -> r = ROther \/ In r (recs_of segs).
Proof.
  induction segs as [|[i s] rest IH]; intros out st H r Hr; cbn [read_log] in H.
  - injection H as <- <-. destruct Hr.
  - destruct (read_seg s) as [o1 s1] eqn:E1.
    assert (Hs : In r o1 -> r = ROther \/ In r (recs_of ((i, s) :: rest))).
    { intros Hr1. destruct (rd_in _ _ _ _ _ _ _ E1 r Hr1); [left; assumption|right].
      apply in_or_app. left. assumption. }
    destruct s1; [destruct (read_log rest) as [o2 st2] eqn:E2|..]; injection H as <- <-; auto.
    apply in_app_or in Hr. destruct Hr as [Hr|Hr]; [auto|].
    destruct (IH _ _ eq_refl r Hr); [left; assumption|right]. apply in_or_app. right. assumption.
Qed.

(* a corrupt segment reported by read_log is one of the segments read *)
Lemma read_log_corrupt_idx : forall segs out idx kept,
  read_log segs = (out, LCorrupt idx kept) -> In idx (map fst segs).
Proof.
  induction segs as [|[i s] rest IH]; intros out idx kept H; cbn [read_log] in H; [discriminate|].
  destruct (read_seg s) as [o1 []]; try discriminate.
  - destruct (read_log rest) as [o2 st2] eqn:E2. injection H as <- ->. right. eapply IH; eauto.
  - injection H as <- <- <-. left; reflexivity.
Qed.

(* the chunks that iterate are chunks of the files *)
Lemma citer_incl : forall d ok cs pos, incl (fst (citer d ok pos cs)) cs.
Proof.
  induction cs as [|x rest IH]; intros pos; simpl; [apply incl_refl|].
  destruct (hits d pos (c_end x)).
  - destruct d; try destruct (_ <=? _); try destruct ok; apply incl_nil_l.
  - specialize (IH (c_end x)). destruct (citer d ok (c_end x) rest). apply incl_cons; [left; reflexivity|apply incl_tl, IH].
Qed.

Lemma read_cfile_incl : forall last f, incl (fst (read_cfile last f)) (cf_chunks f).
Proof.
  intros last f. unfold read_cfile. destruct (cf_dmg f) as [|off|off v]; [apply incl_refl| |].
  - destruct (off <? 4); [destruct (last && _); apply incl_nil_l|].
    destruct (off <? 8); [apply incl_nil_l|apply citer_incl].
  - destruct (off <? 5); [apply incl_nil_l|]. destruct (off <? 8); [apply incl_refl|].
    destruct (off <? cf_end f); [apply citer_incl|].
    destruct (off <? cf_end f + 24); [destruct (cf_crc_ok f)|]; apply incl_refl.
Qed.

Lemma load_chunks_incl : forall files cs fs rp,
  load_chunks files = ChOk cs fs rp -> incl cs (flat_map cf_chunks files).
Proof.
  induction files as [|f rest IH]; intros cs fs rp H; simpl in H.
  - injection H as <- _ _. apply incl_nil_l.
  - pose proof (read_cfile_incl match rest with [] => true | _ :: _ => false end f) as R.
    destruct (read_cfile _ f) as [o1 s1]. simpl in R |- *. destruct s1; try discriminate H.
    + destruct (load_chunks rest) as [cs2 fs2 rp2| | |] eqn:E2; try discriminate H.
      injection H as <- _ _. apply incl_app; [apply incl_appl, R|apply incl_appr, (IH _ _ _ eq_refl)].
    + destruct (existsb _ rest); [discriminate H|]. injection H as <- _ _. apply incl_nil_l.
    + injection H as <- _ _. apply incl_nil_l.
Qed.

Definition decls (rs : list wrec) : list (Z * Z) := flat_map (fun r => match r with RSeries l => l | _ => [] end) rs.
Definition smps (rs : list wrec) : list (Z * Z * Z) := flat_map (fun r => match r with RSamples l => l | _ => [] end) rs.
Definition chunk_triples (cs : list chunk) : list (Z * Z * Z) :=
  flat_map (fun c => map (fun p => (c_ref c, fst p, snd p)) (c_samples c)) cs.

Definition first_ref (cs : list chunk) : Z := fold_left (fun a c => Z.max a (c_ref c)) cs 0.

Definition replay (cs : list chunk) (mv cap lastmm : Z) (walrecs wblrecs : list wrec) : head :=
  fold_left (wbl_rec cap lastmm) wblrecs (fold_left (wal_rec cs mv) walrecs (mkH [] (first_ref cs) false)).

Section Inv.
Variable D : list (Z * Z).          (* series declarations that exist on disk *)
Variable S : list (Z * Z * Z).      (* (ref, t, v) that exist on disk, in a log record or in a chunk *)

Definition all_samples (s : mseries) : list (Z * Z) := s_mm s ++ s_in s ++ s_oomm s ++ s_ooh s.

Definition sinv (ref : Z) (s : mseries) : Prop :=
  In (ref, s_id s) D /\ forall p, In p (all_samples s) -> In (ref, fst p, snd p) S.

Definition hinv (h : head) : Prop := forall ref s, In (ref, s) (h_series h) -> sinv ref s.

Lemma lookup_in : forall A k (l : list (Z * A)) v, lookup k l = Some v -> In (k, v) l.
Proof.
  induction l as [|[k' v'] t IH]; intros v H; simpl in H; [discriminate|].
  destruct (k' =? k) eqn:E.
  - apply Z.eqb_eq in E. inversion H; subst. left; reflexivity.
  - right; auto.
Qed.

Lemma update_in : forall A k (v : A) l k' v', In (k', v') (update k v l) -> (k', v') = (k, v) \/ In (k', v') l.
Proof.
  induction l as [|[k0 v0] t IH]; intros k' v' H; simpl in H.
  - destruct H as [H|[]]. left; auto.
  - destruct (k0 =? k).
    + destruct H as [H|H]; [left; auto | right; right; auto].
    + destruct H as [H|H]; [right; left; auto|]. destruct (IH _ _ H); auto. right; right; auto.
Qed.

Lemma hinv_update : forall h ref s s', hinv h -> lookup ref (h_series h) = Some s -> s_id s' = s_id s ->
  (forall p, In p (all_samples s') -> In p (all_samples s) \/ In (ref, fst p, snd p) S) ->
  hinv (mkH (update ref s' (h_series h)) (h_last h) (h_unmod h)).
Proof.
  intros h ref s s' Hh El Ei Hsub r s0 Hin. simpl in Hin. apply update_in in Hin. destruct Hin as [E|Hin].
  - injection E as -> ->. destruct (Hh _ _ (lookup_in _ _ _ _ El)) as [Hd Hs]. split; [rewrite Ei; exact Hd|].
    intros p Hp. destruct (Hsub p Hp); auto.
  - apply Hh; auto.
Qed.

Lemma in_all : forall s p, In p (all_samples s) <-> In p (s_mm s) \/ In p (s_in s) \/ In p (s_oomm s) \/ In p (s_ooh s).
Proof.
  intros. unfold all_samples. rewrite !in_app_iff. tauto.
Qed.

Lemma all_or : forall s p x, (In p (s_mm s) \/ In p (s_in s) \/ In p (s_oomm s) \/ In p (s_ooh s)) \/ p = x ->
  In p (all_samples s) \/ p = x.
Proof. intros s p x [H|H]; [left; apply in_all; exact H|right; exact H]. Qed.

Lemma hinv_add : forall h ref s s' t v, hinv h -> lookup ref (h_series h) = Some s -> s_id s' = s_id s ->
  In (ref, t, v) S -> (forall p, In p (all_samples s') -> In p (all_samples s) \/ p = (t, v)) ->
  hinv (mkH (update ref s' (h_series h)) (h_last h) (h_unmod h)).
Proof.
  intros h ref s s' t v Hh El Ei Hx Hp. apply (hinv_update h ref s); auto.
  intros p H. destruct (Hp p H) as [A | ->]; auto.
Qed.

Lemma wal_sample_inv : forall mv h x, In x S -> hinv h -> hinv (wal_sample mv h x).
Proof.
  intros mv h [[ref t] v] Hx Hh. unfold wal_sample.
  destruct (t <? mv); auto.
  destruct (lookup ref (h_series h)) as [s|] eqn:E; auto.
  destruct (t <=? s_mmmax s); auto.
  destruct (last_t (s_in s)) as [t0|]; [destruct (t <=? t0); auto|];
    apply (hinv_add h ref s _ t v); auto; intros p Hp; apply in_all in Hp; cbn in Hp; apply all_or.
  - destruct Hp as [Hp|[Hp|Hp]]; [auto| |auto].
    apply in_app_or in Hp. destruct Hp as [Hp|[<-|[]]]; auto.
  - destruct Hp as [Hp|[[<-|[]]|Hp]]; auto.
Qed.

Lemma wbl_sample_inv : forall cap h x, In x S -> hinv h -> hinv (wbl_sample cap h x).
Proof.
  intros cap h [[ref t] v] Hx Hh. unfold wbl_sample.
  destruct (lookup ref (h_series h)) as [s|] eqn:E; auto.
  apply (hinv_add h ref s _ t v); auto; unfold ooo_insert;
    (destruct (existsb _ (s_ooh s)); [|destruct (Z.of_nat (length (s_ooh s)) >=? cap)]); try reflexivity;
    intros p Hp; apply in_all in Hp; cbn in Hp; apply all_or.
  - left. exact Hp.
  - (* the full out-of-order head chunk is m-mapped, the sample starts a new one *)
    destruct Hp as [Hp|[Hp|[Hp|[<-|[]]]]]; auto.
    apply in_app_or in Hp. destruct Hp; auto 6.
  - destruct Hp as [Hp|[Hp|[Hp|Hp]]]; auto.
    apply in_app_or in Hp. destruct Hp as [Hp|[<-|[]]]; auto 6.
Qed.

Lemma wbl_marker_inv : forall lm h x, hinv h -> hinv (wbl_marker lm h x).
Proof.
  intros lm h [ref mref] Hh. unfold wbl_marker.
  destruct (lm <? mref); auto.
  destruct (lookup ref (h_series h)) as [s|] eqn:E; auto.
  destruct (s_has_ooo s); auto.
  apply (hinv_update h ref s); auto. intros p Hp. apply in_all in Hp; cbn in Hp. left. apply in_all.
  destruct Hp as [Hp|[Hp|[Hp|[]]]]; auto.
Qed.

Lemma fold_inv : forall A (f : head -> A -> head) (P : A -> Prop) l h,
  (forall h x, P x -> hinv h -> hinv (f h x)) -> (forall x, In x l -> P x) -> hinv h -> hinv (fold_left f l h).
Proof.
  induction l as [|x t IH]; intros h Hf Hl Hh; simpl; auto.
  apply IH; auto.
  - intros; apply Hl; right; auto.
  - apply Hf; auto. apply Hl; left; auto.
Qed.

Lemma create_series_inv : forall cs mv h ref id,
  In (ref, id) D -> (forall x, In x (chunk_triples cs) -> In x S) -> hinv h -> hinv (create_series cs mv h ref id).
Proof.
  intros cs mv h ref id Hd Hc Hh. unfold create_series.
  destruct (lookup ref (h_series h)); [exact Hh|].
  destruct (has_id id (h_series h)); [exact Hh|].
  intros r s Hin. simpl in Hin. apply in_app_or in Hin. destruct Hin as [Hin|Hin]; [apply Hh; auto|].
  destruct Hin as [E|[]]. inversion E; subst. split; simpl; auto.
  intros p Hp. apply in_all in Hp; simpl in Hp.
  (* the samples of the new series are those of the chunks with its ref *)
  assert (Hch : forall ooo, In p (flat_map c_samples (chunks_of r ooo mv cs)) -> In (r, fst p, snd p) S).
  { intros ooo Hf. apply in_flat_map in Hf. destruct Hf as (c & Hcin & Hpc).
    unfold chunks_of in Hcin. apply filter_In in Hcin. destruct Hcin as [Hcin Hcond].
    apply andb_true_iff in Hcond. destruct Hcond as [Hcond _].
    apply andb_true_iff in Hcond. destruct Hcond as [Hr _]. apply Z.eqb_eq in Hr.
    apply Hc. unfold chunk_triples. apply in_flat_map. exists c. split; auto.
    apply in_map_iff. exists p. split; auto. rewrite Hr. reflexivity. }
  destruct Hp as [Hp|[[]|[Hp|[]]]]; eapply Hch; eauto.
Qed.

Section Replay.
Variables (R : list wrec).
Hypothesis HD : forall x, In x (decls R) -> In x D.
Hypothesis HS : forall x, In x (smps R) -> In x S.

Lemma wal_rec_inv : forall cs mv h r,
  (forall x, In x (chunk_triples cs) -> In x S) -> r = ROther \/ In r R -> hinv h -> hinv (wal_rec cs mv h r).
Proof.
  intros cs mv h r Hc [->|Hr] Hh; [exact Hh|]. destruct r as [l|l|l|]; simpl; auto.
  - apply fold_inv with (P := fun p => In p D); auto.
    + intros h0 [ref id] Hp Hh0. apply create_series_inv; auto.
    + intros x Hx. apply HD. apply in_flat_map. exists (RSeries l). auto.
  - apply fold_inv with (P := fun x => In x S); auto.
    + intros; apply wal_sample_inv; auto.
    + intros x Hx. apply HS. apply in_flat_map. exists (RSamples l). auto.
Qed.

Lemma wbl_rec_inv : forall cap lm h r, r = ROther \/ In r R -> hinv h -> hinv (wbl_rec cap lm h r).
Proof.
  intros cap lm h r [->|Hr] Hh; [exact Hh|]. destruct r as [l|l|l|]; simpl; auto.
  - apply fold_inv with (P := fun x => In x S); auto.
    + intros; apply wbl_sample_inv; auto.
    + intros x Hx. apply HS. apply in_flat_map. exists (RSamples l). auto.
  - apply fold_inv with (P := fun _ => True); auto.
    intros; apply wbl_marker_inv; auto.
Qed.
End Replay.

Lemma gc_inv : forall h, hinv h -> hinv (gc h).
Proof.
  intros h Hh r s Hin. simpl in Hin. apply filter_In in Hin. apply Hh. tauto.
Qed.

(* whatever is replayed: if the WAL records come from R and the WBL records from RB, whose
   declarations and samples are in D and S like the samples of the chunks, the head holds only
   series declared in D with samples from S *)
Lemma replay_inv : forall cs mv cap lm R RB wal wbl,
  (forall x, In x (chunk_triples cs) -> In x S) ->
  (forall x, In x (decls R) -> In x D) -> (forall x, In x (smps R) -> In x S) ->
  (forall x, In x (smps RB) -> In x S) ->
  (forall r, In r wal -> r = ROther \/ In r R) -> (forall r, In r wbl -> r = ROther \/ In r RB) ->
  hinv (replay cs mv cap lm wal wbl).
Proof.
  intros cs mv cap lm R RB wal wbl Hc Hd Hs Hb Hw Hl. unfold replay.
  apply fold_inv with (P := fun r => r = ROther \/ In r RB); auto.
  { intros h r Hr Hh. apply (wbl_rec_inv RB); auto. }
  apply fold_inv with (P := fun r => r = ROther \/ In r R); auto.
  { intros h r Hr Hh. apply (wal_rec_inv R); auto. }
  intros r s [].
Qed.

End Inv.

(* what is written on the (undamaged) disk *)
Definition disk_decls (d : disk) : list (Z * Z) := decls (recs_of (ckpt_recs d) ++ recs_of (d_wal d)).
Definition disk_samples (d : disk) : list (Z * Z * Z) :=
  smps (recs_of (ckpt_recs d) ++ recs_of (d_wal d)) ++ smps (recs_of (d_wbl d)) ++
  chunk_triples (flat_map cf_chunks (d_chunks d)).

Definition written (d : disk) (x : Z * Z * Z) : Prop :=
  In x (d_blocks d) \/
  exists ref, In (ref, fst (fst x)) (disk_decls d) /\ In (ref, snd (fst x), snd x) (disk_samples d).

Lemma decls_app : forall a b, decls (a ++ b) = decls a ++ decls b.
Proof. intros; unfold decls; apply flat_map_app. Qed.
Lemma smps_app : forall a b, smps (a ++ b) = smps a ++ smps b.
Proof. intros; unfold smps; apply flat_map_app. Qed.

Lemma chunk_triples_sub : forall cs all, (forall c, In c cs -> In c all) ->
  forall x, In x (chunk_triples cs) -> In x (chunk_triples all).
Proof.
  intros cs all H x Hx. unfold chunk_triples in *. apply in_flat_map in Hx. destruct Hx as (c & Hc & Hx).
  apply in_flat_map. exists c. split; auto.
Qed.

Lemma head_samples_written : forall d h, hinv (disk_decls d) (disk_samples d) h ->
  forall x, In x (head_samples h) -> written d x.
Proof.
  intros d h Hh x Hx. unfold head_samples in Hx. apply in_flat_map in Hx. destruct Hx as ([ref s] & Hin & Hx).
  simpl in Hx. unfold series_samples in Hx. apply in_map_iff in Hx. destruct Hx as (p & E & Hp).
  destruct (Hh _ _ Hin) as [Hd Hs]. right. exists ref. subst x. simpl. split; auto.
Qed.

Lemma repair_some : forall segs idx kept, In idx (map fst segs) -> exists w u, repair segs idx kept = (Some w, u).
Proof.
  intros segs idx kept Hin. unfold repair.
  assert (E : existsb (fun p : Z * seg => fst p =? idx) segs = true).
  { apply existsb_exists. apply in_map_iff in Hin. destruct Hin as (p & Hp & Hin).
    exists p. split; auto. apply Z.eqb_eq; auto. }
  rewrite E. eauto.
Qed.

Lemma new_segment_fst : forall segs i, In i (map fst segs) -> In i (map fst (new_segment segs)).
Proof. intros. unfold new_segment. rewrite map_app. apply in_or_app; auto. Qed.

(* What Open does, by what the reads report.  It succeeds in three ways (nothing to repair; the WBL
   repaired; the WAL repaired, and then the WBL is not replayed).  It fails in exactly two: a head chunk
   file with a broken header (then nothing but the two fresh empty segments changes), or an unreadable
   checkpoint — and then every WAL segment with an index above the checkpoint's bad segment has been
   deleted.  A WAL or WBL read error never makes it fail: the repair finds its segment. *)
Lemma open_cases : forall d,
  match open d with
  | OOk h d' k cr cl =>
    exists cs files crecs wrecs wst,
      load_chunks (d_chunks d) = ChOk cs files cr /\
      read_log (ckpt_recs d) = (crecs, LClean) /\ read_log (d_wal d) = (wrecs, wst) /\
      let rp := replay cs (d_minvalid d) (d_cap d) (last_mmref cs) (crecs ++ wrecs) in
      ((k = KNone /\ wst = LClean /\ exists brecs, read_log (d_wbl d) = (brecs, LClean) /\
          h = gc (rp brecs) /\ d_wal d' = new_segment (d_wal d)) \/
       (k = KWbl /\ wst = LClean /\ exists brecs idx kept, read_log (d_wbl d) = (brecs, LCorrupt idx kept) /\
          h = gc (rp brecs) /\ d_wal d' = new_segment (d_wal d)) \/
       (k = KWal /\ exists idx kept, wst = LCorrupt idx kept /\ h = gc (rp []) /\
          d_wbl d' = (if 0 <? d_cap d then new_segment (d_wbl d) else d_wbl d)))
  | OErr d' =>
    let wal1 := new_segment (d_wal d) in
    let wbl1 := if 0 <? d_cap d then new_segment (d_wbl d) else d_wbl d in
    d_blocks d' = d_blocks d /\ d_ckpt d' = d_ckpt d /\ d_wbl d' = wbl1 /\
    ((load_chunks (d_chunks d) = ChFail /\ d_wal d' = wal1 /\ d_chunks d' = d_chunks d) \/
     (exists crecs cidx kept, read_log (ckpt_recs d) = (crecs, LCorrupt cidx kept) /\
        d_wal d' = filter (fun p => fst p <=? cidx) wal1))
  | OOracle | OUnmod => True
  end.
Proof.
  intros d. unfold open.
  destruct (load_chunks (d_chunks d)) as [cs files crep| | |] eqn:Ec; try exact I.
  2:{ cbn. repeat split; auto. }
  destruct (read_log (ckpt_recs d)) as [crecs [|cidx ckept| |]] eqn:Eck; try exact I.
  2:{ unfold repair. destruct (existsb _ _); [exact I|]. cbn. repeat split; auto. right. exists crecs, cidx, ckept. auto. }
  destruct (read_log (d_wal d)) as [wrecs [|idx kept| |]] eqn:Ew; try exact I.
  - destruct (read_log (d_wbl d)) as [brecs [|idx kept| |]] eqn:Eb; try exact I.
    + exists cs, files, crecs, wrecs, LClean. unfold replay. rewrite fold_left_app.
      repeat split. left. repeat split. exists brecs. repeat split.
    + destruct (repair_some (if 0 <? d_cap d then new_segment (d_wbl d) else d_wbl d) idx kept) as (w & u & ->).
      { apply read_log_corrupt_idx in Eb. destruct (0 <? d_cap d); auto. apply new_segment_fst, Eb. }
      exists cs, files, crecs, wrecs, LClean. unfold replay. rewrite fold_left_app.
      repeat split. right. left. repeat split. exists brecs, idx, kept. repeat split.
  - destruct (repair_some (new_segment (d_wal d)) idx kept) as (w & u & ->).
    { apply new_segment_fst, (read_log_corrupt_idx _ _ _ _ Ew). }
    exists cs, files, crecs, wrecs, (LCorrupt idx kept). unfold replay. rewrite fold_left_app.
    repeat split. right. right. split; [reflexivity|]. exists idx, kept. repeat split.
Qed.

Theorem open_no_invention : forall d h d' k cr cl,
  open d = OOk h d' k cr cl -> forall x, In x (contents d h) -> written d x.
Proof.
  intros d h d' k cr cl H x Hx. unfold contents in Hx. apply in_app_or in Hx.
  destruct Hx as [Hx|Hx]; [left; auto|].
  apply (head_samples_written d h); [|exact Hx].
  pose proof (open_cases d) as Hk. rewrite H in Hk.
  destruct Hk as (cs & files & crecs & wrecs & wst & Ec & Eck & Ew & Hk).
  (* in all three cases the head is a replay of delivered WAL and WBL records *)
  assert (Hh : exists brecs, h = gc (replay cs (d_minvalid d) (d_cap d) (last_mmref cs) (crecs ++ wrecs) brecs) /\
                 forall r, In r brecs -> r = ROther \/ In r (recs_of (d_wbl d))).
  { destruct Hk as [(_ & _ & brecs & Eb & -> & _)|[(_ & _ & brecs & idx & kept & Eb & -> & _)|(_ & idx & kept & _ & -> & _)]];
      [exists brecs|exists brecs|exists []]; (split; [reflexivity|]);
      [apply (read_log_in _ _ _ Eb)|apply (read_log_in _ _ _ Eb)|intros r []]. }
  destruct Hh as (brecs & -> & Hb). apply gc_inv.
  apply replay_inv with (R := recs_of (ckpt_recs d) ++ recs_of (d_wal d)) (RB := recs_of (d_wbl d)); auto;
    unfold disk_samples.
  - intros y Hy. apply in_or_app. right. apply in_or_app. right.
    apply (chunk_triples_sub cs); [exact (load_chunks_incl _ _ _ _ Ec)|exact Hy].
  - intros y Hy. apply in_or_app. left. exact Hy.
  - intros y Hy. apply in_or_app. right. apply in_or_app. left. exact Hy.
  - intros r Hr. apply in_app_or in Hr.
    destruct Hr as [Hr|Hr]; [destruct (read_log_in _ _ _ Eck r Hr)|destruct (read_log_in _ _ _ Ew r Hr)]; auto;
      right; apply in_or_app; auto.
Qed.

(* replay ignores empty / unknown records *)
Lemma replay_wal_strip : forall cs mv recs h,
  fold_left (wal_rec cs mv) recs h = fold_left (wal_rec cs mv) (strip recs) h.
Proof.
  induction recs as [|r t IH]; intros h; simpl; auto.
  destruct r; simpl; auto.
Qed.
Lemma replay_wbl_strip : forall cap lm recs h,
  fold_left (wbl_rec cap lm) recs h = fold_left (wbl_rec cap lm) (strip recs) h.
Proof.
  induction recs as [|r t IH]; intros h; simpl; auto.
  destruct r; simpl; auto.
Qed.

(* the damage lies before offset b *)
Definition dmg_lt (d : dmg) (b : Z) : bool :=
  match d with DNone => false | DTrunc off => off <? b | DByte off _ => off <? b end.

Lemma hits_lt : forall d a b, dmg_lt d b = false -> hits d a b = false.
Proof.
  intros d a b H. destruct d; simpl in *; auto. rewrite H. apply andb_false_r.
Qed.

(* every record that ends before the damage is delivered, whatever the damage is *)
Lemma rd_before : forall d o vend recs m pos,
  (m <= length recs)%nat ->
  (forall j r, (j < m)%nat -> nth_error recs j = Some r -> dmg_lt d (r_end r) = false) ->
  exists out' st, rd d o vend pos recs = (map r_rec (firstn m recs) ++ out', st).
Proof.
  induction recs as [|x rest IH]; intros m pos Hm Hb.
  - assert (m = 0)%nat by (simpl in Hm; lia). subst. simpl firstn. simpl map. simpl app.
    destruct (rd d o vend pos []) as [out st]. eauto.
  - destruct m as [|m].
    + simpl firstn. simpl map. simpl app. destruct (rd d o vend pos (x :: rest)) as [out st]. eauto.
    + simpl. rewrite (hits_lt d pos (r_end x)).
      * destruct (IH m (r_end x)) as (out' & st & E).
        -- simpl in Hm. lia.
        -- intros j r Hj Hn. apply (Hb (S j) r); [lia|exact Hn].
        -- rewrite E. eauto.
      * apply (Hb 0%nat x); [lia|reflexivity].
Qed.
