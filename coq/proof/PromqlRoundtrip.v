(* proof/PromqlRoundtrip.v — C26: calls, aggregations, the assembled round-trip theorem,
   checkAST's rewriting, Prettify. *)
From Coq Require Import List ZArith Bool NArith Lia Wf_nat.
From Verif Require Import model.PromqlPrint model.PromqlParse proof.PromqlPrintProofs proof.PromqlParseProofs.
Import ListNotations.
Open Scope Z_scope.

Local Arguments lex_word : simpl never.
Local Arguments kw_lookup : simpl never.

Lemma commas_cons : forall x l, commas (x :: l) = x ++ match l with [] => [] | _ => T KCOMMA :: commas l end.
Proof. destruct l; [symmetry; apply app_nil_r|reflexivity]. Qed.

Lemma commas_len_in : forall (l : list (list tok)) x, In x l -> (length x <= length (commas l))%nat.
Proof.
  induction l as [|y l IH]; intros x H; [contradiction|]. rewrite commas_cons, app_length.
  destruct H as [->|H]; [lia|]. specialize (IH x H). destruct l; [contradiction|cbn [length]; lia].
Qed.

Lemma commas_len_count : forall (l : list (list tok)), (forall x, In x l -> (1 <= length x)%nat) ->
  (length l <= length (commas l))%nat.
Proof.
  induction l as [|y l IH]; intros H; [apply Nat.le_refl|]. rewrite commas_cons, app_length.
  pose proof (H y (or_introl eq_refl)). pose proof (IH (fun x Hx => H x (or_intror Hx))).
  destruct l; cbn [length] in *; lia.
Qed.

Section Calls.
  Variable oc : orc.
  Variable o : opts.
  Variable ft : ftab.
  Notation pr := (print oc).
  Notation wf := (wfb oc o ft).
  Notation PE := (parse_e oc o ft).
  Notation tlen := (tlen oc).
  Notation ML := (ML oc o ft).
  Notation PL := (PL oc o ft).

  Definition pargs (args : list expr) : list tok := commas (map pr (map unnorm args)).

  Lemma pargs_cons : forall a args,
    pargs (a :: args) = pr (unnorm a) ++ match args with [] => [] | _ => T KCOMMA :: pargs args end.
  Proof. destruct args; [symmetry; apply app_nil_r|reflexivity]. Qed.

  Lemma pargs_head : forall a args X, wf a = true -> okstart (hd_kind (pargs (a :: args) ++ X)).
  Proof. intros. rewrite pargs_cons, <- app_assoc. apply print_head with (o := o) (ft := ft). assumption. Qed.

  Lemma tlen_arg : forall a args, In a args -> (tlen a <= length (pargs args))%nat.
  Proof. intros. apply commas_len_in. apply in_map. apply in_map. assumption. Qed.

  Lemma len_args : forall args, forallb wf args = true -> (length args <= length (pargs args))%nat.
  Proof.
    intros args H. unfold pargs. rewrite <- (map_length unnorm args), <- (map_length pr (map unnorm args)).
    apply commas_len_count. intros x Hx. rewrite map_map in Hx. apply in_map_iff in Hx. destruct Hx as (e & <- & Hx).
    rewrite forallb_forall in H. exact (tlen_pos oc o ft e (H e Hx)).
  Qed.

  (* function_call_args: every argument is followed by "," or the closing ")" *)
  Lemma args_loop_print : forall args a f n acc X,
    (forall b, In b (a :: args) -> ML b /\ (tlen b < f)%nat) -> (length (a :: args) <= n)%nat ->
    args_loop (PE f) n (pargs (a :: args) ++ T KRP :: X) acc = Ok (acc ++ map unnorm (a :: args), X).
  Proof.
    induction args as [|a2 args IH]; intros a f [|n] acc X Hall Hn; cbn [length] in Hn; try lia;
      destruct (Hall a (or_introl eq_refl)) as [HM Hf];
      rewrite pargs_cons, <- app_assoc; cbn [app args_loop];
      rewrite (parse_sub oc o ft a f 0 _ HM Hf) by (apply lprec_ge0 || lia || exact I); cbn [tk T].
    - reflexivity.
    - rewrite IH; [|intros b Hb; apply Hall; right; exact Hb|cbn [length]; lia]. rewrite <- app_assoc. reflexivity.
  Qed.

  Lemma call_body_open : forall pe n X, hd_kind X <> KRP -> call_body pe n (T KLP :: X) = args_loop pe n X [].
  Proof. intros. cbn [call_body tk T]. now apply not_krp. Qed.

  (* function_call_body of a node whose arguments are covered by the induction hypothesis *)
  Lemma call_body_print : forall e args f X,
    (forall e', (tlen e' < tlen e)%nat -> wf e' = true -> ML e' /\ PL e') ->
    forallb wf args = true -> (length (pargs args) < tlen e)%nat -> (tlen e <= f)%nat ->
    call_body (PE f) f (T KLP :: pargs args ++ T KRP :: X) = Ok (map unnorm args, X).
  Proof.
    intros e [|a args] f X IH Hw Hl Hf; [reflexivity|].
    pose proof (len_args _ Hw). rewrite forallb_forall in Hw.
    rewrite call_body_open by (apply okstart_not_rp, pargs_head, Hw; left; reflexivity).
    apply (args_loop_print args a f f []); [|lia].
    intros b Hin. pose proof (tlen_arg b _ Hin). destruct (IH b) as [MLb _]; [lia|auto|]. split; [exact MLb|lia].
  Qed.

  Lemma PL_call : forall fn args,
    (forall e', (tlen e' < tlen (ECall fn args))%nat -> wf e' = true -> ML e' /\ PL e') ->
    wf (ECall fn args) = true -> PL (ECall fn args).
  Proof.
    intros fn args IH Hwf Ha f n X r Hf HX Hp. cbn [wfb] in Hwf.
    apply andb_prop in Hwf. destruct Hwf as [Hwf Hargs]. apply andb_prop in Hwf. destruct Hwf as [Hk Hfl].
    assert (Hlen : (3 + length (pargs args) <= tlen (ECall fn args))%nat).
    { unfold PromqlParseProofs.tlen. cbn [unnorm print length]. rewrite app_length. fold (pargs args). cbn [length]. lia. }
    assert (Htx : tx (lex_word fn) = fn).
    { apply lex_word_tx. intro E. rewrite E in Hk. discriminate. }
    pose proof (call_body_print _ args f X IH Hargs) as CB.
    cbn [unnorm print] in *. fold (pargs args) in *. cbn [app]. rewrite app_cons_assoc.
    destruct (flookup fn ft) as [[ty ex]|] eqn:FL; [|discriminate].
    assert (EX : ex && negb (o_expfn o) = false).
    { destruct ex; auto. cbn in Hfl. rewrite Hfl. reflexivity. }
    rewrite prefix_primary by (intros b E; rewrite E in Hk; discriminate Hk).
    rewrite primary_call, Htx, FL, EX, CB by (exact Hk || reflexivity || lia).
    eapply postfix_loop_mono; eauto; lia.
  Qed.

  Definition agg_args (param : option expr) (e1 : expr) : list expr :=
    match param with Some p => [p; e1] | None => [e1] end.

  Lemma okX_by : forall X (A B : res (expr * list tok)), okX X ->
    match hd_kind X with KBY | KWITHOUT => A | _ => B end = B.
  Proof. unfold okX. intros X A B. destruct (hd_kind X); intros; try contradiction; reflexivity. Qed.

  Lemma PL_agg : forall op wo grp param e1,
    (forall e', (tlen e' < tlen (EAgg op wo grp param e1))%nat -> wf e' = true -> ML e' /\ PL e') ->
    wf (EAgg op wo grp param e1) = true -> PL (EAgg op wo grp param e1).
  Proof.
    intros op wo grp param e1 IH Hwf Ha f n X r Hf HX Hp. cbn [wfb] in Hwf.
    apply andb_prop in Hwf. destruct Hwf as [Hwf Hw1]. apply andb_prop in Hwf. destruct Hwf as [Hwf Hexp].
    apply andb_prop in Hwf. destruct Hwf as [Hgrp Hpar].
    set (args := agg_args param e1).
    assert (Hwargs : forallb wf args = true).
    { unfold args, agg_args. destruct param; b2p; cbn [forallb]; rewrite ?Hw1; try reflexivity.
      match goal with H : wfb _ _ _ e = true |- _ => rewrite H end. reflexivity. }
    (* the printed text in terms of pargs *)
    set (MOD := if wo then TW KWITHOUT W_without :: T KLP :: print_labels grp ++ [T KRP]
                else match grp with [] => [] | _ => TW KBY W_by :: T KLP :: print_labels grp ++ [T KRP] end).
    assert (EP : pr (unnorm (EAgg op wo grp param e1)) ++ X =
                 TW (KAGG op) (aggop_word op) :: MOD ++ T KLP :: pargs args ++ T KRP :: X).
    { cbn [unnorm print]. fold MOD. cbn [app]. f_equal. rewrite <- app_assoc. f_equal. cbn [app]. f_equal.
      unfold args, agg_args, pargs. destruct param as [p|]; cbn [option_map map commas].
      - b2p. rewrite H. repeat rewrite <- app_assoc. reflexivity.
      - cbn [app]. rewrite <- app_assoc. reflexivity. }
    assert (Hlen : (2 + length (pargs args) <= tlen (EAgg op wo grp param e1))%nat).
    { unfold PromqlParseProofs.tlen. pose proof (f_equal (@length tok) EP) as L.
      rewrite app_length in L. cbn [length] in L. rewrite !app_length in L. cbn [length] in L. rewrite !app_length in L.
      cbn [length] in L. lia. }
    rewrite EP.
    pose proof (call_body_print _ args f X IH Hwargs) as CB.
    assert (MK : mk_agg o op wo grp (map unnorm args) = Ok (unnorm (EAgg op wo grp param e1))).
    { unfold mk_agg, args, agg_args. cbn [unnorm]. destruct param as [p|]; cbn [option_map map]; b2p.
      - rewrite H. destruct op; try discriminate H; try reflexivity; rewrite Hexp; reflexivity.
      - rewrite Hpar. reflexivity. }
    unfold MOD. destruct wo; [|destruct grp as [|g gs]]; cbn [prefix primary app hd_kind tk T TW tl];
      rewrite ?app_cons_assoc, ?glabels_print by auto; rewrite CB by lia; rewrite ?okX_by by exact HX;
      rewrite MK; eapply postfix_loop_mono; eauto; lia.
  Qed.

  (* PL by the lemma of the constructor; operators are not atoms. ML likewise, from PL for atoms. *)
  Lemma main_step : forall e,
    (forall e', (tlen e' < tlen e)%nat -> wf e' = true -> ML e' /\ PL e') ->
    wf e = true -> ML e /\ PL e.
  Proof.
    intros e IH Hwf.
    assert (HPL : PL e).
    { destruct e; auto using PL_num, PL_dur, PL_str, PL_vs, PL_mat, PL_sub, PL_call, PL_agg, PL_paren;
        intro Ha; unfold atomb in Ha; cbn [rprec] in Ha; b2p; [pose proof (prec_range op)|]; lia. }
    split; [|exact HPL].
    destruct e; auto using ML_num, ML_dur, ML_bin, ML_un, ML_of_PL.
  Qed.

  Lemma main : forall e, wf e = true -> ML e /\ PL e.
  Proof.
    intros e. induction e as [e IH] using (well_founded_induction (well_founded_ltof _ tlen)).
    intros Hwf. apply main_step; auto.
  Qed.

  (* the syntactic round trip: the grammar reads the printed tokens back as the AST it builds
     before checkAST *)
  Theorem parse_e_print : forall e, wf e = true ->
    PE (S (length (pr (unnorm e)))) 0 (pr (unnorm e)) = Ok (unnorm e, []).
  Proof.
    intros e Hwf. destruct (main e Hwf) as [HM _].
    rewrite <- (app_nil_r (pr (unnorm e))) at 2.
    apply parse_sub; [exact HM|unfold PromqlParseProofs.tlen; lia|apply lprec_ge0|lia|exact I].
  Qed.
End Calls.

Section ExprInd.
  Variable P : expr -> Prop.
  Hypothesis Hnum : forall b, P (ENum b).
  Hypothesis Hdur : forall n ns, P (EDurLit n ns).
  Hypothesis Hstr : forall s, P (EStr s).
  Hypothesis Hvs : forall v, P (EVS v).
  Hypothesis Hmat : forall v r, P (EMat v r).
  Hypothesis Hsub : forall e r s a d, P e -> P (ESub e r s a d).
  Hypothesis Hcall : forall f args, Forall P args -> P (ECall f args).
  Hypothesis Hagg1 : forall op wo grp p e, P p -> P e -> P (EAgg op wo grp (Some p) e).
  Hypothesis Hagg0 : forall op wo grp e, P e -> P (EAgg op wo grp None e).
  Hypothesis Hbin : forall op rb vm l r, P l -> P r -> P (EBin op rb vm l r).
  Hypothesis Hun : forall n e, P e -> P (EUn n e).
  Hypothesis Hparen : forall e, P e -> P (EParen e).

  Lemma expr_ind' : forall e, P e.
  Proof.
    fix IH 1. intros e. destruct e.
    - apply Hnum.
    - apply Hdur.
    - apply Hstr.
    - apply Hvs.
    - apply Hmat.
    - apply Hsub, IH.
    - apply Hcall. induction args as [| a args IHa]; constructor; [apply IH | exact IHa].
    - destruct param; [apply Hagg1 | apply Hagg0]; apply IH.
    - apply Hbin; apply IH.
    - apply Hun, IH.
    - apply Hparen, IH.
  Qed.
End ExprInd.

(* checkAST's rewriting is invisible to the printer and undone by it *)
Section Norm.
  Variable oc : orc.
  Variable o : opts.
  Variable ft : ftab.

  Lemma print_matching_unnorm : forall op vm, print_matching (Some (unnorm_vm op vm)) = print_matching vm.
  Proof.
    intros. destruct vm as [m|]; [|reflexivity]. unfold unnorm_vm.
    destruct (is_set_op op); auto. destruct m as [c on ls inc fl fr]. destruct c; reflexivity.
  Qed.

  Lemma print_unnorm : forall e, print oc (unnorm e) = print oc e.
  Proof.
    induction e using expr_ind'; cbn [unnorm print]; try reflexivity.
    - rewrite IHe. reflexivity.
    - f_equal. f_equal. f_equal. f_equal. rewrite map_map. apply map_ext_Forall. exact H.
    - cbn [option_map]. rewrite IHe1, IHe2. reflexivity.
    - cbn [option_map]. rewrite IHe. reflexivity.
    - rewrite IHe1, IHe2, print_matching_unnorm. reflexivity.
    - rewrite IHe. reflexivity.
    - rewrite IHe. reflexivity.
  Qed.

  Lemma vtype_unnorm : forall e, vtype_of ft (unnorm e) = vtype_of ft e.
  Proof.
    induction e using expr_ind'; cbn [unnorm vtype_of]; try reflexivity; try congruence;
      try (rewrite ?IHe, ?IHe1, ?IHe2; reflexivity).
  Qed.

  Lemma normalize_unnorm : forall e, wfb oc o ft e = true -> normalize ft (unnorm e) = e.
  Proof.
    induction e using expr_ind'; intros Hwf; cbn [wfb] in Hwf; cbn [unnorm normalize]; try reflexivity.
    - b2p. rewrite IHe; auto.
    - b2p. f_equal. rewrite map_map. rewrite <- (map_id args) at 2. apply map_ext_Forall.
      rewrite forallb_forall in H1. rewrite Forall_forall in *. intros x Hx. apply H; auto.
    - b2p. cbn [option_map]. rewrite IHe1, IHe2 by auto. reflexivity.
    - b2p. cbn [option_map]. rewrite IHe by auto. reflexivity.
    - apply andb_prop in Hwf. destruct Hwf as [Hwf Hty].
      apply andb_prop in Hwf. destruct Hwf as [Hwf Hr]. apply andb_prop in Hwf. destruct Hwf as [Hwf Hl].
      apply andb_prop in Hwf. destruct Hwf as [Hwl Hwr].
      rewrite IHe1, IHe2 by auto. f_equal.
      unfold norm_vm, unnorm_vm. destruct vm as [m|].
      + b2p. destruct (vtype_of ft e1); try discriminate. destruct (vtype_of ft e2); try discriminate.
        destruct (is_set_op op) eqn:S.
        * destruct m as [c on ls inc fl fr]. cbn [vm_card] in *. destruct c; try discriminate; reflexivity.
        * reflexivity.
      + cbn [vm_default]. destruct (vtype_of ft e1); try reflexivity. destruct (vtype_of ft e2); try reflexivity. discriminate.
    - b2p. rewrite IHe; auto.
    - rewrite IHe; auto.
  Qed.

  (* the main theorem: what the printer prints, the parser reads back *)
  Theorem roundtrip : forall e, wfb oc o ft e = true -> parse oc o ft (print oc e) = Ok e.
  Proof.
    intros e Hwf. unfold parse. rewrite <- (print_unnorm e).
    rewrite (parse_e_print oc o ft e Hwf). rewrite normalize_unnorm; auto.
  Qed.

  Corollary reprint : forall e, wfb oc o ft e = true ->
    match parse oc o ft (print oc e) with Ok e' => print oc e' = print oc e | Err _ => False end.
  Proof. intros. rewrite roundtrip; auto. Qed.

  (* Prettify only changes white space *)
  Lemma strip_pts : forall l, strip_ws (pts l) = l.
  Proof. induction l; simpl; congruence. Qed.

  Lemma strip_app : forall a b, strip_ws (a ++ b) = strip_ws a ++ strip_ws b.
  Proof. induction a as [|[t|] a IH]; intros; simpl; rewrite ?IH; reflexivity. Qed.

  Lemma strip_pcommas : forall (l : list (list ptok)), strip_ws (pcommas l) = commas (map strip_ws l).
  Proof.
    induction l as [|x l IH]; [reflexivity|]. destruct l as [|y l'].
    - reflexivity.
    - change (pcommas (x :: y :: l')) with (x ++ PT (T KCOMMA) :: PWS :: pcommas (y :: l')).
      rewrite strip_app. cbn [strip_ws]. rewrite IH. reflexivity.
  Qed.

  Theorem pretty_tokens : forall split e, strip_ws (pretty oc split e) = print oc e.
  Proof.
    intros split. induction e using expr_ind'; cbn [pretty strip_ws]; try apply strip_pts.
    - destruct (split _); [|apply strip_pts]. rewrite strip_app, IHe, strip_pts. cbn [print]. reflexivity.
    - destruct (split _); [|apply strip_pts]. cbn [strip_ws]. rewrite strip_app, strip_pcommas. cbn [strip_ws print].
      assert (E : map (fun x => strip_ws (pretty oc split x)) args = map (print oc) args) by (apply map_ext_Forall; exact H).
      rewrite map_map. rewrite E. reflexivity.
    - destruct (split _); [|apply strip_pts]. rewrite strip_app, strip_pts. cbn [strip_ws]. rewrite !strip_app. rewrite IHe2.
      cbn [strip_ws print]. cbn [app].
      destruct (agg_has_param op); [|reflexivity].
      rewrite strip_app, IHe1. cbn [strip_ws]. reflexivity.
    - destruct (split _); [|apply strip_pts]. rewrite strip_app, strip_pts. cbn [strip_ws]. rewrite !strip_app. rewrite IHe.
      cbn [strip_ws print]. cbn [app]. reflexivity.
    - destruct (split _); [|apply strip_pts]. rewrite strip_app, IHe1. cbn [strip_ws]. rewrite strip_app, strip_pts.
      cbn [strip_ws]. rewrite IHe2. cbn [print]. f_equal. cbn [app]. f_equal. rewrite <- app_assoc. reflexivity.
    - rewrite IHe. reflexivity.
    - destruct (split _); [|apply strip_pts]. cbn [strip_ws]. rewrite strip_app, IHe. cbn [strip_ws print]. reflexivity.
  Qed.
End Norm.
