(* proof/WalProofs.v — property C13 over model/Wal.v.  One notion, [wf], describes a stretch of
   segment bytes as page-local fragments and padding that hold given records.  The Reader
   ([rd_wf]) and the LiveReader under any release of the bytes ([live_run_wf]) return exactly
   those records; the writer keeps every segment such a stretch ([logged]).  The codec's encoder
   enters only with the writer. *)
From Coq Require Import List ZArith NArith Bool Lia.
From Verif Require Import model.Wal.
Import ListNotations.
Open Scope Z_scope.

Lemma zlen_nil {A} : zlen (@nil A) = 0. Proof. reflexivity. Qed.
Lemma zlen_cons {A} (x : A) l : zlen (x :: l) = 1 + zlen l.
Proof. unfold zlen. cbn [length]. lia. Qed.
Lemma zlen_app {A} (a b : list A) : zlen (a ++ b) = zlen a + zlen b.
Proof. unfold zlen. rewrite app_length. lia. Qed.
Lemma zlen_nonneg {A} (l : list A) : 0 <= zlen l.
Proof. unfold zlen. lia. Qed.
Lemma zlen_zero_nil {A} (l : list A) : zlen l <= 0 -> l = [].
Proof. destruct l; [reflexivity|]. rewrite zlen_cons. pose proof (zlen_nonneg l). lia. Qed.
Lemma zlen_zeros n : 0 <= n -> zlen (zeros n) = n.
Proof. intros. unfold zlen, zeros. rewrite repeat_length. lia. Qed.
Lemma zeros_nonpos n : n <= 0 -> zeros n = [].
Proof. intros. unfold zeros. replace (Z.to_nat n) with O by lia. reflexivity. Qed.
Lemma zeros_pos n : 0 < n -> zeros n = 0%N :: zeros (n - 1).
Proof. intros. unfold zeros. replace (Z.to_nat n) with (S (Z.to_nat (n - 1))) by lia. reflexivity. Qed.
Lemma zlen_ztake {A} n (l : list A) : 0 <= n <= zlen l -> zlen (ztake n l) = n.
Proof. unfold zlen, ztake. intros. rewrite firstn_length. lia. Qed.
Lemma zlen_zdrop {A} n (l : list A) : 0 <= n <= zlen l -> zlen (zdrop n l) = zlen l - n.
Proof. unfold zlen, zdrop. intros. rewrite skipn_length. lia. Qed.
Lemma ztake_zdrop {A} n (l : list A) : ztake n l ++ zdrop n l = l.
Proof. apply firstn_skipn. Qed.
Lemma ztake_all {A} n (l : list A) : zlen l <= n -> ztake n l = l.
Proof. unfold zlen, ztake. intros. apply firstn_all2. lia. Qed.
Lemma zdrop_all {A} n (l : list A) : zlen l <= n -> zdrop n l = [].
Proof. unfold zlen, zdrop. intros. apply skipn_all2. lia. Qed.
Lemma ztake_app_exact {A} n (a b : list A) : n = zlen a -> ztake n (a ++ b) = a.
Proof.
  unfold zlen, ztake. intros ->. rewrite Nat2Z.id.
  rewrite firstn_app, Nat.sub_diag, firstn_all. cbn. apply app_nil_r.
Qed.
Lemma zdrop_app_exact {A} n (a b : list A) : n = zlen a -> zdrop n (a ++ b) = b.
Proof.
  unfold zlen, zdrop. intros ->. rewrite Nat2Z.id.
  rewrite skipn_app, Nat.sub_diag, skipn_all. reflexivity.
Qed.
Lemma zdrop_app_le {A} n (a b : list A) : 0 <= n <= zlen a -> zdrop n (a ++ b) = zdrop n a ++ b.
Proof.
  unfold zlen, zdrop. intros. rewrite skipn_app.
  replace (Z.to_nat n - length a)%nat with O by lia. reflexivity.
Qed.
Lemma zdrop_0 {A} (l : list A) : zdrop 0 l = l.
Proof. reflexivity. Qed.
Lemma zdrop_add {A} a b (l : list A) : 0 <= a -> 0 <= b -> zdrop (a + b) l = zdrop b (zdrop a l).
Proof.
  intros. unfold zdrop. rewrite Z2Nat.inj_add by lia. generalize (Z.to_nat a) as n.
  intros n. revert l. induction n; intros l; [reflexivity|].
  destruct l; [rewrite !skipn_nil; reflexivity|]. apply IHn.
Qed.
Lemma all_zero_zeros n : all_zero (zeros n) = true.
Proof. unfold all_zero, zeros. induction (Z.to_nat n); cbn; auto. Qed.

Lemma app_split {A} (P X I s : list A) :
  P ++ X = I ++ s -> zlen I <= zlen P -> exists P', P = I ++ P' /\ s = P' ++ X.
Proof.
  revert P. induction I as [|a I IH]; intros P H L.
  - exists P. auto.
  - destruct P as [|b P].
    + rewrite zlen_nil, zlen_cons in L. pose proof (zlen_nonneg I). lia.
    + injection H as -> H. rewrite !zlen_cons in L.
      destruct (IH P H ltac:(lia)) as [P' [-> ->]]. exists P'. auto.
Qed.

Lemma mod_known m q r : 0 <= r < m -> (m * q + r) mod m = r.
Proof. intros. rewrite Z.add_comm, Z.mul_comm, Z_mod_plus_full. apply Z.mod_small; lia. Qed.

Lemma de16_be16 v rest : 0 <= v < 65536 -> de16 (be16 v ++ rest) = v.
Proof.
  intros. unfold be16, de16. cbn [app].
  pose proof (Z.mod_pos_bound (v / 256) 256). pose proof (Z.mod_pos_bound v 256).
  rewrite !Z2N.id by lia.
  rewrite (Z.mod_small (v / 256)) by (split; [apply Z.div_pos; lia | apply Z.div_lt_upper_bound; lia]).
  pose proof (Z.div_mod v 256). lia.
Qed.

Lemma de32_be32 c rest : (c < 4294967296)%N -> de32 (be32 c ++ rest) = c.
Proof.
  intros. unfold be32, de32. cbn [app].
  assert (E : forall a b, (b <> 0 -> a = b * (a / b) + a mod b)%N) by (intros; apply N.div_mod; auto).
  assert (H1 : (c / 65536 = c / 256 / 256)%N) by (rewrite N.div_div by lia; reflexivity).
  assert (H2 : (c / 16777216 = c / 256 / 256 / 256)%N) by (rewrite !N.div_div by lia; reflexivity).
  assert (H3 : ((c / 16777216) mod 256 = c / 16777216)%N).
  { apply N.mod_small. apply N.div_lt_upper_bound; lia. }
  rewrite H3. rewrite H1, H2.
  pose proof (E c 256%N). pose proof (E (c / 256)%N 256%N). pose proof (E (c / 256 / 256)%N 256%N).
  lia.
Qed.

(* The type byte WL.log gives fragment number [i] of a record: full/first/middle/last. *)
Definition ftype (i : Z) (last : bool) : N :=
  if i =? 0 then (if last then recFull else recFirst) else (if last then recLast else recMiddle).
Definition flags : list N := [0%N; snappyMask; zstdMask].

Lemma ftype_header i l flag : In flag flags ->
  N.eqb (N.lor (ftype i l) flag) 0 = false /\
  N.land (N.lor (ftype i l) flag) recTypeMask = ftype i l /\
  compr_of_header (N.lor (ftype i l) flag) = compr_of_header flag.
Proof.
  unfold ftype. intros [<-|[<-|[<-|[]]]]; destruct (i =? 0), l; (split; [|split]); reflexivity.
Qed.
Lemma ftype_validate i l : validate (ftype i l) i = true.
Proof. unfold ftype, validate. destruct (i =? 0) eqn:E, l; cbn; rewrite ?E; reflexivity. Qed.
Lemma ftype_final i l : N.eqb (ftype i l) recLast || N.eqb (ftype i l) recFull = l.
Proof. unfold ftype. destruct (i =? 0), l; reflexivity. Qed.
Lemma ftype_starts i l : N.eqb (ftype i l) recFirst || N.eqb (ftype i l) recFull = (i =? 0).
Proof. unfold ftype. destruct (i =? 0), l; reflexivity. Qed.
Lemma ftype_term i l : N.eqb (ftype i l) recPageTerm = false.
Proof. unfold ftype. destruct (i =? 0), l; reflexivity. Qed.

Section Proofs.
Variable page_size : Z.
Variable crc : list N -> N.
Variable dec : N -> list N -> option (list N).
(* the page holds a header and at least one byte; a fragment length fits the 16-bit field *)
Hypothesis Hps : 8 <= page_size <= 65542.
Hypothesis Hcrc : forall l, (crc l < 4294967296)%N.
Notation rd := (Wal.rd page_size crc dec).
Notation decode := (Wal.decode dec).

Lemma mod_off p a n : p mod page_size = a -> 0 <= a + n < page_size -> (p + n) mod page_size = a + n.
Proof.
  intros <- H. replace (p + n) with (page_size * (p / page_size) + (p mod page_size + n))
    by (pose proof (Z.div_mod p page_size); lia).
  apply mod_known. exact H.
Qed.

Lemma mod_wrap p k : p mod page_size + k = page_size -> (p + k) mod page_size = 0.
Proof.
  intros H. replace (p + k) with (page_size * (p / page_size + 1) + 0)
    by (pose proof (Z.div_mod p page_size); lia).
  apply mod_known. lia.
Qed.

Lemma zlen_header t part : zlen (header crc t part) = 7.
Proof. reflexivity. Qed.

(* what the LiveReader, indexing into its buffer, finds in the header of a fragment *)
Lemma header_fields t part rest :
  zlen part <= page_size - 7 ->
  de16 (skipn 1 (header crc t part ++ rest)) = zlen part /\
  de32 (skipn 3 (header crc t part ++ rest)) = crc part /\
  skipn 7 (header crc t part ++ rest) = rest.
Proof.
  intros. pose proof (zlen_nonneg part). unfold header. cbn [app skipn be16].
  split; [apply (de16_be16 (zlen part) (be32 (crc part) ++ rest)); lia|].
  split; [apply de32_be32, Hcrc|reflexivity].
Qed.

Lemma readfull_app d r : readfull (zlen d) (d ++ r) = RfOk d r.
Proof.
  unfold readfull. destruct (zlen d <=? 0) eqn:E.
  - apply Z.leb_le in E. rewrite (zlen_zero_nil d) by lia. reflexivity.
  - apply Z.leb_gt in E. destruct d as [|x d]; [unfold zlen in E; cbn in E; lia|].
    cbn [app]. change (x :: d ++ r) with ((x :: d) ++ r).
    rewrite ztake_app_exact, zdrop_app_exact by reflexivity.
    rewrite Z.ltb_irrefl. reflexivity.
Qed.

Definition good (ct : N) : Prop := torn ct = false.

(* a run of padding zeros that ends at a page boundary is skipped in one iteration *)
Lemma rd_pad f k rest p ct i acc :
  0 < k -> p mod page_size + k = page_size ->
  rd (S f) (zeros k ++ rest) p ct i acc = rd f rest (p + k) 0%N i acc.
Proof.
  intros Hk Hak. pose proof (Z.mod_pos_bound p page_size ltac:(lia)) as Ha.
  rewrite (zeros_pos k Hk). cbn [app Wal.rd]. cbv zeta.
  change (N.eqb (N.land 0 recTypeMask) recPageTerm) with true. cbv iota.
  change (N.land 0 recTypeMask) with 0%N.
  destruct (Z.eq_dec k 1) as [->|Hk1].
  - rewrite (mod_wrap p 1 Hak), Z.sub_0_r, Z.eqb_refl. reflexivity.
  - rewrite (mod_off p (p mod page_size) 1) by lia.
    destruct (_ =? page_size) eqn:E; [apply Z.eqb_eq in E; lia|].
    replace (page_size - (p mod page_size + 1)) with (zlen (zeros (k - 1))) by (rewrite zlen_zeros; lia).
    rewrite readfull_app, all_zero_zeros, zlen_zeros by lia. f_equal. lia.
Qed.

(* one fragment, one iteration *)
Lemma rd_frag f i l flag part rest p ct acc :
  In flag flags -> zlen part <= page_size - 7 ->
  rd (S f) (header crc (N.lor (ftype i l) flag) part ++ part ++ rest) p ct i acc =
  if l then
    match decode (compr_of_header flag) (acc ++ part) with
    | None => ([], RDecode)
    | Some r => let '(rs, e) := rd f rest (p + 7 + zlen part) (ftype i l) 0 [] in (r :: rs, e)
    end
  else rd f rest (p + 7 + zlen part) (ftype i l) (i + 1) (acc ++ part).
Proof.
  intros Hfl Hlen. destruct (ftype_header i l flag Hfl) as [_ [Hl Hc]]. pose proof (zlen_nonneg part).
  unfold header. cbn [app Wal.rd]. cbv zeta. rewrite Hl, ftype_term, Hc.
  change (readfull 6 ?s) with (readfull (zlen (be16 (zlen part) ++ be32 (crc part))) s).
  rewrite readfull_app, (de16_be16 (zlen part) (be32 (crc part))) by lia.
  change (skipn 2 (be16 (zlen part) ++ ?x)) with x. rewrite <- (app_nil_r (be32 _)), de32_be32 by apply Hcrc.
  destruct (zlen part >? page_size - 7) eqn:E2; [apply Z.gtb_lt in E2; lia|].
  rewrite readfull_app, N.eqb_refl, ftype_validate, ftype_final. cbn [negb].
  replace (p + 1 + 6 + zlen part) with (p + 7 + zlen part) by lia. reflexivity.
Qed.

Definition fits (p : Z) (part : list N) : Prop := p mod page_size + 7 + zlen part <= page_size.

(* [wf p i acc s recs]: from stream position [p], where [i] fragments [acc] of a record have been
   read, the bytes [s] are a sequence of fragments that do not cross a page and runs of padding to
   the end of a page; they hold the records [recs] and end between two records. *)
Inductive wf : Z -> Z -> list N -> list N -> list (list N) -> Prop :=
| wf_end p : wf p 0 [] [] []
| wf_pad p i acc k s recs :
    0 < k -> p mod page_size + k = page_size -> wf (p + k) i acc s recs ->
    wf p i acc (zeros k ++ s) recs
| wf_more p i acc flag part s recs :
    0 <= i -> In flag flags -> fits p part ->
    wf (p + 7 + zlen part) (i + 1) (acc ++ part) s recs ->
    wf p i acc (header crc (N.lor (ftype i false) flag) part ++ part ++ s) recs
| wf_last p i acc flag part r s recs :
    In flag flags -> fits p part -> decode (compr_of_header flag) (acc ++ part) = Some r ->
    wf (p + 7 + zlen part) 0 [] s recs ->
    wf p i acc (header crc (N.lor (ftype i true) flag) part ++ part ++ s) (r :: recs).

Lemma fits_len p part : fits p part -> zlen part <= page_size - 7.
Proof. unfold fits. pose proof (Z.mod_pos_bound p page_size). lia. Qed.

Lemma wf_app p i acc s1 r1 s2 r2 :
  wf p i acc s1 r1 -> wf (p + zlen s1) 0 [] s2 r2 -> wf p i acc (s1 ++ s2) (r1 ++ r2).
Proof.
  induction 1; intros T; rewrite ?zlen_app, ?zlen_header, ?Z.add_assoc in T.
  - rewrite Z.add_0_r in T. exact T.
  - rewrite zlen_zeros in T by lia. rewrite <- app_assoc. apply wf_pad; auto.
  - rewrite <- !app_assoc. apply wf_more; auto.
  - rewrite <- !app_assoc. apply wf_last; auto.
Qed.

(* only the offset in the page matters *)
Lemma wf_shift p p' i acc s recs :
  wf p i acc s recs -> p mod page_size = p' mod page_size -> wf p' i acc s recs.
Proof.
  assert (M : forall p p' n, p mod page_size = p' mod page_size ->
                             (p + n) mod page_size = (p' + n) mod page_size).
  { intros a b n E. rewrite (Z.add_mod a), (Z.add_mod b), E by lia. reflexivity. }
  intros H. revert p'. induction H; intros p' E; unfold fits in *.
  - apply wf_end.
  - apply wf_pad; [assumption|rewrite <- E; assumption|auto].
  - apply wf_more; [assumption|assumption|unfold fits; rewrite <- E; assumption|].
    apply IHwf. rewrite <- !Z.add_assoc. auto.
  - apply wf_last; [assumption|unfold fits; rewrite <- E; assumption|assumption|].
    apply IHwf. rewrite <- !Z.add_assoc. auto.
Qed.

Lemma wf_zeros p k : 0 <= k -> (0 < k -> p mod page_size + k = page_size) -> wf p 0 [] (zeros k) [].
Proof.
  intros Hk H. destruct (Z.eq_dec k 0) as [->|]; [apply wf_end|].
  rewrite <- (app_nil_r (zeros k)). apply wf_pad; [lia|apply H; lia|apply wf_end].
Qed.

Lemma wf_nil_inv p i acc recs : wf p i acc [] recs -> recs = [].
Proof.
  intros H. remember (@nil N) as s0 eqn:E.
  destruct H as [|? ? ? k s ? Hk| |]; try discriminate E; [reflexivity|].
  apply (f_equal zlen) in E. rewrite zlen_app, zlen_zeros in E by lia.
  pose proof (zlen_nonneg s). cbn in E. lia.
Qed.

Lemma good_last i : good (ftype i true).
Proof. unfold ftype. destruct (i =? 0); reflexivity. Qed.

(* the Reader needs one iteration per fragment or padding run, so the length of the stream is
   fuel enough *)
Lemma rd_wf p i acc s recs :
  wf p i acc s recs -> forall f ct, zlen s < Z.of_nat f -> (i = 0 -> good ct) ->
  rd f s p ct i acc = (recs, RClean).
Proof.
  induction 1 as [|? ? ? k s|? ? ? ? part s ? ? ? Hfit|? ? ? ? part ? s ? ? Hfit Hd];
    intros f ct Hf Hct; try apply fits_len in Hfit; (destruct f as [|f]; [unfold zlen in Hf; lia|]);
    rewrite ?zlen_app, ?zlen_header in Hf.
  - cbn. unfold eof_status. rewrite (Hct eq_refl). reflexivity.
  - rewrite rd_pad by assumption. rewrite zlen_zeros in Hf by lia. apply IHwf; [lia|reflexivity].
  - pose proof (zlen_nonneg part). rewrite rd_frag by assumption. apply IHwf; lia.
  - pose proof (zlen_nonneg part).
    rewrite rd_frag, Hd, IHwf by (try assumption; try lia; intros; apply good_last). reflexivity.
Qed.

Definition seg (s : list N) (rs : list (list N)) : Prop := wf 0 0 [] s rs.

Notation pad_page := (Wal.pad_page page_size).
Notation seg_stream := (Wal.seg_stream page_size).
Notation read_stream := (Wal.read_stream page_size crc dec).
Notation read_segments := (Wal.read_segments page_size crc dec).

(* segmentBufReader's padding completes the last page *)
Lemma pad_page_seg s rs : seg s rs -> seg (pad_page s) rs /\ zlen (pad_page s) mod page_size = 0.
Proof.
  intros H. unfold Wal.pad_page.
  pose proof (Z.mod_pos_bound (zlen s) page_size ltac:(lia)) as Hm.
  set (k := (page_size - zlen s mod page_size) mod page_size).
  assert (Hk : (k = 0 /\ zlen s mod page_size = 0) \/ (0 < k /\ zlen s mod page_size + k = page_size)).
  { unfold k. destruct (Z.eq_dec (zlen s mod page_size) 0) as [E|E].
    - left. rewrite E, Z.sub_0_r, Z_mod_same_full. auto.
    - right. rewrite Z.mod_small; lia. }
  clearbody k. split.
  - rewrite <- (app_nil_r rs). apply wf_app; [exact H|]. apply wf_zeros; cbn; lia.
  - rewrite zlen_app, zlen_zeros by lia. destruct Hk as [[-> Hm0]|[_ Hmk]].
    + rewrite Z.add_0_r. exact Hm0.
    + apply mod_wrap, Hmk.
Qed.

Lemma read_stream_seg s rs : seg s rs -> read_stream s = (rs, RClean).
Proof. intros H. apply (rd_wf _ _ _ _ _ H); [unfold zlen; lia|reflexivity]. Qed.

Lemma read_segments_seg segs rss : Forall2 seg segs rss -> read_segments segs = (concat rss, RClean).
Proof.
  intros H. apply read_stream_seg. unfold Wal.seg_stream.
  induction H as [|s rs segs rss Hs _ IH]; [apply wf_end|]. cbn [map concat].
  destruct (pad_page_seg s rs Hs) as [Hp H0]. apply wf_app; [exact Hp|].
  apply (wf_shift 0); [exact IH|]. rewrite Z.add_0_l, H0. reflexivity.
Qed.

Notation read_record := (Wal.read_record page_size crc).
Notation build := (Wal.build page_size crc dec).
Notation lnext := (Wal.lnext page_size crc dec).
Notation drain := (Wal.drain page_size crc dec).
Notation feed := (Wal.feed page_size crc dec).
Notation live_run := (Wal.live_run page_size crc dec).

Definition unread (st : lst) : list N := zdrop (l_ri st) (l_buf st).

(* The buffer is a window on one page of the segment, and what the reader has not consumed yet
   (the rest of the buffer, what the file can deliver now, and the bytes [R] written later) is a
   well-formed stretch holding the records [recs]. *)
Definition aligned (st : lst) : Prop :=
  0 <= l_ri st <= l_wi st /\ l_wi st <= page_size /\ exists q, l_total st = page_size * q + l_ri st.
Definition tracks (st : lst) (R : list N) (recs : list (list N)) : Prop :=
  aligned st /\
  wf (l_total st) (l_index st) (if l_index st =? 0 then [] else l_pre st)
     (unread st ++ l_src st ++ R) recs.

Lemma unread_len st : 0 <= l_ri st <= l_wi st -> zlen (unread st) = l_wi st - l_ri st.
Proof. intros. apply zlen_zdrop. assumption. Qed.

(* an item that starts in the unread part of the buffer but does not end there: the buffer is
   not yet a whole page, and more bytes are to come *)
Lemma item_short st X I s :
  aligned st -> l_ri st < l_wi st ->
  unread st ++ X = I ++ s -> zlen (unread st) < zlen I -> l_total st mod page_size + zlen I <= page_size ->
  l_wi st < page_size /\ X <> [].
Proof.
  intros [Hri [Hwi [q Hq]]] Hne E Hlt Hfit. rewrite unread_len in Hlt by lia.
  rewrite Hq, mod_known in Hfit by lia. split; [lia|].
  intros ->. rewrite app_nil_r in E. apply (f_equal zlen) in E.
  rewrite zlen_app, unread_len in E by lia. pose proof (zlen_nonneg s). lia.
Qed.

Lemma read_pad st X k s :
  0 <= l_ri st < l_wi st -> 0 < k -> l_total st mod page_size + k = page_size ->
  unread st ++ X = zeros k ++ s ->
  (zlen (unread st) < k /\ read_record st = RREof) \/
  (exists P', unread st = zeros k ++ P' /\ s = P' ++ X /\ read_record st = RRSkip k).
Proof.
  intros Hri Hk Hp E. pose proof (unread_len st ltac:(lia)) as Hlen.
  unfold Wal.read_record. fold (unread st).
  replace (page_size - l_total st mod page_size) with k by lia.
  destruct (Z_lt_le_dec (zlen (unread st)) k) as [Hlt|Hle]; [left|right].
  - split; [exact Hlt|]. destruct (unread st) as [|h P]; [rewrite zlen_nil in Hlen; lia|].
    rewrite (zeros_pos k Hk) in E. injection E as -> _. cbn [N.eqb].
    destruct (l_ri st + k >? l_wi st) eqn:G; [reflexivity|]. rewrite Z.gtb_ltb in G. apply Z.ltb_ge in G. lia.
  - destruct (app_split _ _ _ _ E) as [P' [HP Hs]]; [rewrite zlen_zeros; lia|].
    exists P'. split; [exact HP|]. split; [exact Hs|]. rewrite HP in *.
    rewrite zlen_app, zlen_zeros in Hlen by lia. pose proof (zlen_nonneg P').
    rewrite (zeros_pos k Hk) at 1. cbn [app N.eqb].
    destruct (l_ri st + k >? l_wi st) eqn:G; [apply Z.gtb_lt in G; lia|].
    rewrite ztake_app_exact, all_zero_zeros by (rewrite zlen_zeros; lia). reflexivity.
Qed.

Lemma read_frag st X h part s :
  0 <= l_ri st < l_wi st -> N.eqb h 0 = false -> zlen part <= page_size - 7 ->
  unread st ++ X = header crc h part ++ part ++ s ->
  (zlen (unread st) < 7 + zlen part /\ read_record st = RREof) \/
  (exists P', unread st = header crc h part ++ part ++ P' /\ s = P' ++ X /\
              read_record st = RRData part (zlen part + 7) h).
Proof.
  intros Hri Hh Hlen E. pose proof (unread_len st ltac:(lia)) as Hl. pose proof (zlen_nonneg part).
  unfold Wal.read_record. fold (unread st).
  assert (Hhd : exists P, unread st = h :: P).
  { destruct (unread st) as [|h0 P]; [rewrite zlen_nil in Hl; lia|]. injection E as -> _. eauto. }
  destruct (Z_lt_le_dec (zlen (unread st)) 7) as [H7|H7].
  { left. split; [lia|]. destruct Hhd as [P ->]. rewrite Hh.
    destruct (l_wi st - l_ri st <? 7) eqn:G; [reflexivity|apply Z.ltb_ge in G; lia]. }
  destruct (app_split _ _ _ _ E) as [P2 [HP2 E2]]; [rewrite zlen_header; lia|].
  destruct (header_fields h part P2 Hlen) as [H16 [H32 Hsk]].
  destruct Hhd as [P HP]. rewrite HP, Hh. rewrite <- HP, HP2, H16, H32, Hsk.
  destruct (l_wi st - l_ri st <? 7) eqn:G; [apply Z.ltb_lt in G; lia|].
  destruct (7 + zlen part >? page_size) eqn:G2; [apply Z.gtb_lt in G2; lia|].
  rewrite HP2, zlen_app, zlen_header in Hl.
  destruct (Z_lt_le_dec (zlen P2) (zlen part)) as [Hlt|Hle]; [left|right].
  - split; [rewrite zlen_app, zlen_header; lia|].
    destruct (l_ri st + 7 + zlen part >? l_wi st) eqn:G3; [reflexivity|].
    rewrite Z.gtb_ltb in G3. apply Z.ltb_ge in G3. lia.
  - symmetry in E2. destruct (app_split _ _ _ _ E2 Hle) as [P' [-> Hs]].
    exists P'. split; [reflexivity|]. split; [exact Hs|].
    rewrite zlen_app in Hl. pose proof (zlen_nonneg P').
    destruct (l_ri st + 7 + zlen part >? l_wi st) eqn:G3; [apply Z.gtb_lt in G3; lia|].
    rewrite ztake_app_exact, N.eqb_refl by reflexivity. reflexivity.
Qed.

Lemma wf_inv p i acc U recs : wf p i acc U recs ->
  U = [] \/
  (exists k s, U = zeros k ++ s /\ 0 < k /\ p mod page_size + k = page_size /\ wf (p + k) i acc s recs) \/
  (exists l flag part s,
     U = header crc (N.lor (ftype i l) flag) part ++ part ++ s /\ In flag flags /\ fits p part /\
     if l then exists r recs', recs = r :: recs' /\ decode (compr_of_header flag) (acc ++ part) = Some r /\
                               wf (p + 7 + zlen part) 0 [] s recs'
     else 0 <= i /\ wf (p + 7 + zlen part) (i + 1) (acc ++ part) s recs).
Proof.
  destruct 1; [left; reflexivity|right; left|right; right|right; right].
  - exists k, s. auto.
  - exists false, flag, part, s. auto.
  - exists true, flag, part, s. do 3 (split; [auto|]). exists r, recs. auto.
Qed.

Lemma tracks_advance st I P' n p' i' pre' R recs :
  aligned st -> unread st = I ++ P' -> zlen I = n -> p' = l_total st + n ->
  wf p' i' (if i' =? 0 then [] else pre') (P' ++ l_src st ++ R) recs ->
  tracks (mkL (l_buf st) (l_ri st + n) p' i' pre' (l_src st)) R recs.
Proof.
  intros [Hri [Hwi [q Hq]]] HP Hn -> Hwf. pose proof (unread_len st Hri) as Hl.
  rewrite HP, zlen_app, Hn in Hl. pose proof (zlen_nonneg I). pose proof (zlen_nonneg P').
  unfold tracks, aligned, unread, l_wi in *. cbn [l_buf l_ri l_total l_index l_pre l_src].
  split; [split; [lia|split; [lia|exists q; lia]]|].
  rewrite zdrop_add, HP, zdrop_app_exact by lia. exact Hwf.
Qed.

(* buildRecord consumes whole items from the buffer until a record is complete or the next item
   is not all there; a buffer holding a whole page is consumed to its end *)
Lemma build_ok : forall f st R recs, tracks st R recs -> zlen (unread st) < Z.of_nat f ->
  exists res st', build f st = (res, st') /\ l_buf st' = l_buf st /\ l_src st' = l_src st /\
    match res with
    | BRec r => exists recs', recs = r :: recs' /\ tracks st' R recs' /\ l_ri st < l_ri st'
    | BNone => tracks st' R recs /\ l_ri st <= l_ri st' /\
               (l_wi st = page_size -> l_ri st' = page_size) /\ (l_src st ++ R = [] -> recs = [])
    | _ => False
    end.
Proof.
  induction f as [|f IH]; intros st R recs HT Hf; [pose proof (zlen_nonneg (unread st)); lia|].
  pose proof HT as [HA Hwf]. pose proof HA as [Hri [Hwi [q Hq]]].
  cbn [Wal.build]. destruct (l_wi st <=? l_ri st) eqn:E.
  { (* nothing unread in the buffer *)
    apply Z.leb_le in E. exists BNone, st. do 3 (split; [reflexivity|]).
    split; [exact HT|]. split; [lia|]. split; [lia|]. intros HX.
    unfold unread in Hwf. rewrite zdrop_all, HX in Hwf by (unfold l_wi in *; lia).
    exact (wf_nil_inv _ _ _ _ Hwf). }
  apply Z.leb_gt in E.
  assert (Hmod : l_total st mod page_size = l_ri st) by (rewrite Hq; apply mod_known; lia).
  match goal with |- ?G =>
    assert (Stuck : read_record st = RREof -> l_wi st < page_size /\ l_src st ++ R <> [] -> G) end.
  { intros -> [Hlt HX]. exists BNone, st. do 3 (split; [reflexivity|]).
    split; [exact HT|]. split; [lia|]. split; [lia|]. intros HX'. contradiction. }
  destruct (wf_inv _ _ _ _ _ Hwf)
    as [EU|[[k [s [EU [Hk [Hpk Hs]]]]]|[l [flag [part [s [EU [Hfl [Hfit Hs]]]]]]]]].
  - apply app_eq_nil in EU. destruct EU as [EU _]. apply (f_equal zlen) in EU.
    rewrite unread_len in EU by exact Hri. cbn in EU. lia.
  - destruct (read_pad st _ k s ltac:(lia) Hk Hpk EU) as [[Hlt Hr]|[P' [HP [Hs' Hr]]]].
    { apply Stuck; [exact Hr|]. apply (item_short st _ (zeros k) s); rewrite ?zlen_zeros; auto; lia. }
    rewrite Hr. eexists BNone, _. do 3 (split; [reflexivity|]).
    pose proof (unread_len st Hri) as Hl. rewrite HP, zlen_app, zlen_zeros in Hl by lia.
    cbn [l_ri]. rewrite Hs' in Hs. split; [|split; [lia|split; [lia|]]].
    + apply (tracks_advance st (zeros k) P'); eauto. apply zlen_zeros. lia.
    + intros HX. rewrite HX, (zlen_zero_nil P') in Hs by lia. exact (wf_nil_inv _ _ _ _ Hs).
  - destruct (ftype_header (l_index st) l flag Hfl) as [Hh [Hland Hcomp]].
    pose proof (fits_len _ _ Hfit) as Hlen. unfold fits in Hfit. rewrite Hmod in Hfit.
    destruct (read_frag st _ _ part s ltac:(lia) Hh Hlen EU) as [[Hlt Hr]|[P' [HP [Hs' Hr]]]].
    { apply Stuck; [exact Hr|]. rewrite (app_assoc (header _ _ _)) in EU.
      refine (item_short st _ _ s HA _ EU _ _); rewrite ?zlen_app, ?zlen_header; lia. }
    rewrite Hr. cbv zeta. rewrite Hland, ftype_validate, ftype_final, ftype_starts, Hcomp. cbn [negb].
    rewrite app_assoc in HP. rewrite Hs' in Hs.
    assert (HI : zlen (header crc (N.lor (ftype (l_index st) l) flag) part ++ part) = zlen part + 7)
      by (rewrite zlen_app, zlen_header; lia).
    pose proof (zlen_nonneg part) as Hp0.
    replace (l_total st + 7 + zlen part) with (l_total st + (zlen part + 7)) in Hs by lia.
    destruct l.
    + destruct Hs as [r [recs' [-> [Hd Hs]]]]. rewrite Hd.
      eexists (BRec r), _. do 3 (split; [reflexivity|]). exists recs'. split; [reflexivity|].
      split; [|cbn [l_ri]; lia]. eapply tracks_advance; eauto.
    + destruct Hs as [Hi Hs].
      match goal with |- context [build f ?st1] => destruct (IH st1 R recs) as [res [st' [Hb [Hbuf [Hsrc Hres]]]]] end.
      * eapply tracks_advance; eauto.
        destruct (l_index st + 1 =? 0) eqn:E1; [apply Z.eqb_eq in E1; lia|exact Hs].
      * pose proof (unread_len st Hri) as Hl. rewrite HP, zlen_app, HI in Hl.
        unfold unread at 1. cbn [l_ri l_buf]. rewrite zdrop_add by lia. fold (unread st).
        rewrite HP, zdrop_app_exact by lia. rewrite HP, zlen_app, HI in Hf. lia.
      * rewrite Hb. exists res, st'. split; [reflexivity|]. cbn [l_buf l_src l_ri] in Hbuf, Hsrc, Hres |- *.
        split; [exact Hbuf|]. split; [exact Hsrc|].
        destruct res; try contradiction.
        -- destruct Hres as [recs' [-> [HT' Hlt]]]. exists recs'. split; [reflexivity|]. split; [exact HT'|lia].
        -- destruct Hres as [HT' [Hle [Hfull Hend]]]. split; [exact HT'|]. split; [lia|]. split; assumption.
Qed.

(* bytes the reader can still get at without waiting *)
Definition avail (st : lst) : Z := zlen (unread st) + zlen (l_src st).

(* what Next may answer from a state with [a] bytes at hand *)
Definition next_post (a : Z) (R : list N) (recs : list (list N)) (out : nres * lst) : Prop :=
  match out with
  | (NRec r, st') => exists recs', recs = r :: recs' /\ tracks st' R recs' /\ avail st' < a
  | (NEof, st') => tracks st' R recs /\ l_src st' = [] /\ (R = [] -> recs = [])
  | _ => False
  end.

Lemma next_post_le a b R recs out : next_post a R recs out -> a <= b -> next_post b R recs out.
Proof.
  destruct out as [[] st']; cbn; auto. intros [recs' [? [? ?]]] ?. exists recs'. split; [auto|]. split; [auto|lia].
Qed.

(* Next: each turn of the loop that does not return shortens the buffer (a consumed page is
   dropped) or moves bytes from the file into it, so [2 |src| + |buf|] bounds the turns. *)
Lemma lnext_ok : forall f st R recs, tracks st R recs ->
  2 * zlen (l_src st) + zlen (l_buf st) < Z.of_nat f -> next_post (avail st) R recs (lnext f st).
Proof.
  induction f as [|f IH]; intros st R recs HT Hf.
  { pose proof (zlen_nonneg (l_src st)). pose proof (zlen_nonneg (l_buf st)). lia. }
  pose proof HT as [[Hri [Hwi _]] _]. pose proof (unread_len st Hri) as Hl.
  cbn [Wal.lnext].
  destruct (build_ok (S (length (l_buf st))) st R recs HT) as [res [st1 [-> [Hbuf [Hsrc Hres]]]]].
  { unfold l_wi, zlen in *. lia. }
  assert (Hwi1 : l_wi st1 = l_wi st) by (unfold l_wi; rewrite Hbuf; reflexivity).
  destruct res; try contradiction.
  { destruct Hres as [recs' [-> [HT1 Hlt]]]. exists recs'. split; [reflexivity|]. split; [exact HT1|].
    destruct HT1 as [[Hri1 _] _]. unfold avail. rewrite Hsrc, !unread_len by assumption. lia. }
  destruct Hres as [HT1 [Hle [Hfull Hend]]]. pose proof HT1 as [[Hri1 [_ [q Hq]]] Hwf1].
  assert (Hav : avail st1 <= avail st) by (unfold avail; rewrite Hsrc, !unread_len by assumption; lia).
  assert (Next : forall st2, tracks st2 R recs -> avail st2 = avail st1 ->
            2 * zlen (l_src st2) + zlen (l_buf st2) < Z.of_nat f ->
            next_post (avail st) R recs (lnext f st2)).
  { intros st2 HT2 Hav2 Hf2. apply (next_post_le (avail st2)); [apply IH; assumption|lia]. }
  destruct ((l_wi st1 =? page_size) && (l_ri st1 >? 0)) eqn:E.
  - (* the page in the buffer is consumed: drop it *)
    apply andb_true_iff in E. destruct E as [E _]. apply Z.eqb_eq in E.
    assert (Hr1 : l_ri st1 = page_size) by (apply Hfull; lia).
    assert (U1 : unread st1 = []) by (apply zdrop_all; unfold l_wi in *; lia).
    apply Next.
    + unfold tracks, aligned, unread, l_wi in *. cbn [l_buf l_ri l_total l_index l_pre l_src].
      rewrite U1 in *. cbn [zdrop skipn Z.to_nat zlen length Z.of_nat].
      split; [split; [lia|split; [lia|exists (q + 1); lia]]|exact Hwf1].
    + unfold avail, unread. cbn [l_buf l_ri l_src]. fold (unread st1). rewrite U1. reflexivity.
    + cbn [l_buf l_src]. fold (unread st1). rewrite U1, Hsrc, zlen_nil. unfold l_wi in *. lia.
  - assert (Hlt : l_wi st1 < page_size).
    { destruct (Z.eq_dec (l_wi st1) page_size) as [Ew|]; [|lia].
      rewrite Ew, Z.eqb_refl, (Hfull ltac:(lia)) in E. cbn in E.
      destruct (page_size >? 0) eqn:G; [discriminate|]. rewrite Z.gtb_ltb in G. apply Z.ltb_ge in G. lia. }
    clear E. destruct (l_ri st1 =? page_size) eqn:E; [apply Z.eqb_eq in E; lia|].
    destruct (l_wi st1 =? page_size) eqn:E2; [apply Z.eqb_eq in E2; lia|]. cbn [negb].
    pose proof (zlen_nonneg (l_src st1)) as Hs0.
    destruct (Z.min (zlen (l_src st1)) (page_size - l_wi st1) <=? 0) eqn:En.
    + (* the file has nothing more now *)
      apply Z.leb_le in En. assert (Hnil : l_src st1 = []) by (apply zlen_zero_nil; lia).
      split; [exact HT1|]. split; [exact Hnil|].
      intros ->. apply Hend. rewrite <- Hsrc, Hnil. reflexivity.
    + (* read from the file up to the end of the page *)
      apply Z.leb_gt in En. set (n := Z.min (zlen (l_src st1)) (page_size - l_wi st1)) in *.
      assert (Hn : 0 <= n <= zlen (l_src st1)) by lia.
      apply Next.
      * unfold tracks, aligned, unread, l_wi in *. cbn [l_buf l_ri l_total l_index l_pre l_src].
        rewrite zlen_app, zlen_ztake by lia. split; [split; [lia|split; [lia|exists q; exact Hq]]|].
        rewrite zdrop_app_le, <- app_assoc, (app_assoc (ztake n _)), ztake_zdrop by lia. exact Hwf1.
      * unfold avail, unread. cbn [l_buf l_ri l_src].
        rewrite zdrop_app_le, zlen_app, zlen_ztake, !zlen_zdrop by (unfold l_wi in *; lia). lia.
      * cbn [l_buf l_src]. rewrite zlen_app, zlen_ztake, zlen_zdrop by lia.
        rewrite Hsrc, Hbuf in *. lia.
Qed.

Lemma drain_ok : forall f st R recs, tracks st R recs -> avail st < Z.of_nat f ->
  exists rs st' recs', drain f st = (rs, NEof, st') /\ recs = rs ++ recs' /\
    tracks st' R recs' /\ l_src st' = [] /\ (R = [] -> recs' = []).
Proof.
  induction f as [|f IH]; intros st R recs HT Hf.
  { unfold avail in Hf. pose proof (zlen_nonneg (unread st)). pose proof (zlen_nonneg (l_src st)). lia. }
  cbn [Wal.drain].
  pose proof (lnext_ok (lnext_fuel st) st R recs HT) as Hres.
  destruct (lnext (lnext_fuel st) st) as [res st1].
  specialize (Hres ltac:(unfold lnext_fuel, zlen; lia)).
  destruct res; try contradiction.
  - destruct Hres as [recs1 [-> [HT1 Hlt]]].
    destruct (IH st1 R recs1 HT1 ltac:(lia)) as [rs [st' [recs' [-> [-> H]]]]].
    exists (r :: rs), st', recs'. auto.
  - destruct Hres as [HT1 [Hs He]]. exists [], st1, recs. auto.
Qed.

(* a whole tailing session, whatever the pieces in which the segment's bytes become readable *)
Lemma live_run_ok : forall chunks st recs,
  tracks st (concat chunks) recs -> l_src st = [] -> (concat chunks = [] -> recs = []) ->
  exists outs, live_run chunks st = (outs, NEof) /\ concat outs = recs.
Proof.
  induction chunks as [|c chunks IH]; intros st recs HT Hs He.
  - exists []. rewrite (He eq_refl). split; reflexivity.
  - cbn [Wal.live_run]. unfold Wal.feed. cbv zeta. rewrite Hs. cbn [app l_src l_buf].
    match goal with |- context [drain ?f ?st1] =>
      destruct (drain_ok f st1 (concat chunks) recs) as [rs [st' [recs' [-> [-> [HT' [Hs' He']]]]]]] end.
    + destruct HT as [HA Hwf]. split; [exact HA|]. rewrite Hs in Hwf. exact Hwf.
    + unfold avail, unread, zdrop. cbn [l_buf l_ri l_src].
      pose proof (skipn_length (Z.to_nat (l_ri st)) (l_buf st)). unfold zlen. lia.
    + destruct (IH st' recs' HT' Hs' He') as [outs [-> <-]]. exists (rs :: outs). auto.
Qed.

Theorem live_run_wf chunks recs :
  wf 0 0 [] (concat chunks) recs ->
  exists outs, live_run chunks l_init = (outs, NEof) /\ concat outs = recs.
Proof.
  intros H. apply live_run_ok; [|reflexivity|intros E; rewrite E in H; exact (wf_nil_inv _ _ _ _ H)].
  split; [|exact H]. split; [cbn; lia|split; [cbn; lia|exists 0; cbn; lia]].
Qed.

Variable enc : N -> list N -> list N.
(* compression round-trips and never produces an empty output for a non-empty input *)
Hypothesis Hdec : forall c r, r <> [] -> enc c r <> [] /\ dec c (enc c r) = Some r.
Notation encode := (Wal.encode enc).
Notation full := (Wal.full page_size).
Notation flush_page := (Wal.flush_page page_size).
Notation next_segment := (Wal.next_segment page_size).
Notation close := (Wal.close page_size).
Notation frag_loop := (Wal.frag_loop page_size crc).
Notation log := (Wal.log page_size crc enc).
Notation log_batch := (Wal.log_batch page_size crc enc).
Notation log_batches := (Wal.log_batches page_size crc enc).

(* the active segment as logically written so far, flushed or not *)
Definition A (st : wst) : list N := concat (w_writes st) ++ zdrop (w_flushed st) (w_buf st).

Definition pages (s : list N) : Prop := exists q, 0 <= q /\ zlen s = page_size * q.

(* page state: what is on disk of the active segment ends [flushed] bytes into a page *)
Definition Wp (st : wst) : Prop :=
  (exists q, 0 <= q /\ zlen (concat (w_writes st)) = page_size * q + w_flushed st) /\
  0 <= w_flushed st <= alloc st /\ alloc st <= page_size.
(* between two fragments the page has room for a header *)
Definition W (st : wst) : Prop := Wp st /\ alloc st + 7 <= page_size.

Lemma A_off st : W st -> zlen (A st) mod page_size = alloc st.
Proof.
  intros [[[q [_ Hw]] [Hfl _]] Ha]. unfold A. rewrite zlen_app, Hw, zlen_zdrop by (unfold alloc in *; lia).
  fold (alloc st). pose proof (zlen_nonneg (w_buf st)). fold (alloc st) in *.
  replace (page_size * q + w_flushed st + (alloc st - w_flushed st)) with (page_size * q + alloc st) by lia.
  apply mod_known. lia.
Qed.

Lemma flush_true st : Wp st ->
  let st' := flush_page true st in
  W st' /\ A st' = A st ++ zeros (page_size - alloc st) /\ w_closed st' = w_closed st /\
  w_buf st' = [] /\ w_flushed st' = 0.
Proof.
  intros [[q [Hq Hw]] [Hfl Ha]]. unfold Wal.flush_page, W, Wp, A. cbn [orb]. cbv zeta.
  unfold alloc in *. cbn [w_closed w_writes w_flushed w_buf].
  rewrite concat_app. cbn [concat]. rewrite app_nil_r, zdrop_app_le by lia.
  change (zdrop 0 []) with (@nil N). rewrite app_nil_r, <- app_assoc.
  repeat split; try (cbn; lia).
  exists (q + 1). split; [lia|].
  rewrite !zlen_app, zlen_zdrop, zlen_zeros by lia. lia.
Qed.

Lemma flush_false st : W st ->
  let st' := flush_page false st in
  W st' /\ A st' = A st /\ w_closed st' = w_closed st /\ w_flushed st' = alloc st'.
Proof.
  intros [[[q [Hq Hw]] [Hfl _]] Ha]. unfold Wal.flush_page, Wal.full, W, Wp, A.
  destruct (page_size - alloc st <? 7) eqn:E; [apply Z.ltb_lt in E; lia|]. cbn [orb]. cbv zeta.
  unfold alloc in *. cbn [w_closed w_writes w_flushed w_buf].
  rewrite concat_app. cbn [concat]. rewrite app_nil_r, (zdrop_all (zlen (w_buf st))), app_nil_r by lia.
  repeat split; try lia.
  exists q. split; [lia|]. rewrite zlen_app, zlen_zdrop by lia. lia.
Qed.

(* append [x] to the page buffer, then complete the page if fewer than 7 bytes remain *)
Definition bump (st : wst) (x : list N) : wst :=
  let st1 := mkW (w_closed st) (w_writes st) (w_buf st ++ x) (w_flushed st) (w_done st) in
  if full st1 then flush_page true st1 else st1.

Lemma bump_spec st x :
  W st -> alloc st + zlen x <= page_size ->
  exists k, A (bump st x) = A st ++ x ++ zeros k /\ w_closed (bump st x) = w_closed st /\ W (bump st x) /\
    ((k = 0 /\ alloc (bump st x) = alloc st + zlen x) \/
     (0 <= k /\ alloc st + zlen x + k = page_size /\ alloc (bump st x) = 0)).
Proof.
  intros [[[q [Hq Hw]] [Hfl _]] Ha] Hx. pose proof (zlen_nonneg x) as Hxn.
  unfold bump. cbv zeta.
  set (st1 := mkW (w_closed st) (w_writes st) (w_buf st ++ x) (w_flushed st) (w_done st)).
  assert (A1 : alloc st1 = alloc st + zlen x) by (unfold alloc, st1; cbn [w_buf]; apply zlen_app).
  assert (G1 : A st1 = A st ++ x).
  { unfold A, st1. cbn [w_writes w_flushed w_buf].
    rewrite zdrop_app_le, app_assoc by (unfold alloc in *; lia). reflexivity. }
  assert (W1 : Wp st1) by (split; [exists q; auto|change (w_flushed st1) with (w_flushed st); lia]).
  destruct (full st1) eqn:F; unfold Wal.full in F.
  - apply Z.ltb_lt in F. destruct (flush_true st1 W1) as [HW [HG [Hc [Hb _]]]].
    exists (page_size - alloc st1). rewrite HG, G1, <- app_assoc.
    split; [reflexivity|]. split; [exact Hc|]. split; [exact HW|]. right.
    unfold alloc at 4. rewrite Hb. cbn. lia.
  - apply Z.ltb_ge in F. exists 0. change (zeros 0) with (@nil N). rewrite app_nil_r.
    split; [exact G1|]. split; [reflexivity|]. split; [split; [exact W1|lia]|]. left. lia.
Qed.

Lemma frag_loop_S f i e flag st :
  frag_loop (S f) i e flag st =
  let n := zlen e in
  let l := Z.min n (page_size - alloc st - 7) in
  if l <? 0 then WPanic else
  let part := ztake l e in
  let st2 := bump st (header crc (N.lor (ftype i (zlen part =? n)) flag) part ++ part) in
  let e' := zdrop l e in
  if zlen e' >? 0 then frag_loop f (i + 1) e' flag st2 else WOk st2.
Proof. cbn [Wal.frag_loop]. unfold ftype, bump. destruct (i =? 0), (zlen _ =? zlen e); reflexivity. Qed.

(* The fragment loop writes the rest [e] of a record as a well-formed stretch.  It takes one
   iteration per page, and every page but the first takes at least one byte. *)
Lemma frag_loop_ok : forall fuel i e flag st,
  W st -> 0 <= i -> In flag flags ->
  (length e + (if (alloc st + 8 <=? page_size)%Z then 1 else 2) <= fuel)%nat ->
  exists st' D, frag_loop fuel i e flag st = WOk st' /\ W st' /\ w_closed st' = w_closed st /\
    A st' = A st ++ D /\
    forall acc r, decode (compr_of_header flag) (acc ++ e) = Some r -> wf (zlen (A st)) i acc D [r].
Proof.
  induction fuel as [|f IH]; intros i e flag st HW Hi Hflag Hfuel.
  { destruct (alloc st + 8 <=? page_size); lia. }
  pose proof HW as [_ Ha]. pose proof (A_off st HW) as Hoff.
  pose proof (zlen_nonneg e) as Hn. pose proof (zlen_nonneg (w_buf st)) as Ha0. fold (alloc st) in Ha0.
  rewrite frag_loop_S. cbv zeta.
  destruct (Z.min (zlen e) (page_size - alloc st - 7) <? 0) eqn:El; [apply Z.ltb_lt in El; lia|].
  clear El.
  destruct (Z_le_gt_dec (zlen e) (page_size - alloc st - 7)) as [Hwhole|Hsplit].
  - (* the rest of the record fits the page *)
    rewrite Z.min_l by lia.
    rewrite (ztake_all (zlen e) e), (zdrop_all (zlen e) e), Z.eqb_refl by lia.
    change (zlen (@nil N) >? 0) with false. cbv iota.
    set (x := header crc (N.lor (ftype i true) flag) e ++ e).
    assert (Hx : zlen x = 7 + zlen e) by (unfold x; rewrite zlen_app, zlen_header; lia).
    destruct (bump_spec st x HW) as [k [HG [Hc [HW' Hk]]]]; [lia|].
    exists (bump st x), (x ++ zeros k).
    split; [reflexivity|]. split; [exact HW'|]. split; [exact Hc|]. split; [exact HG|].
    intros acc r Hd. unfold x. rewrite <- app_assoc.
    apply wf_last; [assumption|unfold fits; lia|assumption|].
    apply wf_zeros; [lia|]. intros Hk0. rewrite <- Z.add_assoc, (mod_off _ _ _ Hoff); lia.
  - (* the page is filled and the record continues on the next one *)
    rewrite Z.min_r by lia.
    set (l := page_size - alloc st - 7) in *.
    assert (Hl : zlen (ztake l e) = l) by (apply zlen_ztake; lia).
    assert (Hd : zlen (zdrop l e) = zlen e - l) by (apply zlen_zdrop; lia).
    rewrite Hl.
    destruct (l =? zlen e) eqn:E; [apply Z.eqb_eq in E; lia|].
    destruct (zlen (zdrop l e) >? 0) eqn:E2; [|rewrite Z.gtb_ltb in E2; apply Z.ltb_ge in E2; lia].
    set (part := ztake l e) in *.
    set (x := header crc (N.lor (ftype i false) flag) part ++ part).
    assert (Hx : zlen x = 7 + l) by (unfold x; rewrite zlen_app, zlen_header; lia).
    destruct (bump_spec st x HW) as [k [HG [Hc [HW' [[Hk Ha2]|[_ [Hk Ha2]]]]]]];
      [lia|destruct HW' as [_ HW']; lia|].
    assert (Hkz : k = 0) by lia. rewrite Hkz in HG. change (zeros 0) with (@nil N) in HG. rewrite app_nil_r in HG.
    destruct (IH (i + 1) (zdrop l e) flag (bump st x) HW' ltac:(lia) Hflag) as [st' [D' [HF [HW2 [Hc2 [HG2 HR]]]]]].
    { rewrite Ha2. destruct (0 + 8 <=? page_size) eqn:E4; [|apply Z.leb_gt in E4; lia].
      unfold zlen in Hd, Hsplit, Hn. destruct (alloc st + 8 <=? page_size) eqn:E5.
      - apply Z.leb_le in E5. lia.
      - apply Z.leb_gt in E5. lia. }
    exists st', (x ++ D').
    split; [exact HF|]. split; [exact HW2|]. split; [congruence|].
    split; [rewrite HG2, HG, <- app_assoc; reflexivity|].
    intros acc r Hr. unfold x. rewrite <- app_assoc.
    apply wf_more; [assumption|assumption|unfold fits; lia|].
    replace (zlen (A st) + 7 + zlen part) with (zlen (A (bump st x))) by (rewrite HG, zlen_app; lia).
    apply HR. rewrite <- app_assoc. unfold part. rewrite ztake_zdrop. exact Hr.
Qed.

Lemma stored_decode c rec e fc :
  In c [0%N; 1%N; 2%N] -> stored enc c rec = (e, fc) ->
  In (flagbits fc) flags /\ decode (compr_of_header (flagbits fc)) e = Some rec.
Proof.
  intros Hc. unfold stored.
  assert (D0 : forall r, decode 0%N r = Some r) by (intros [|? ?]; reflexivity).
  assert (F0 : In (flagbits 0) flags) by (left; reflexivity).
  destruct (N.eqb c 0) eqn:E0.
  { intros [= <- <-]. split; [exact F0|]. apply N.eqb_eq in E0. subst c. destruct rec; apply D0. }
  destruct (zlen rec - zlen (encode c rec) <=? 0) eqn:E; intros [= <- <-]; [split; [exact F0|apply D0]|].
  (* compressed: the record is not empty, since its encoding is shorter *)
  apply Z.leb_gt in E. destruct rec as [|b r]; [cbn in E; lia|].
  unfold Wal.encode. rewrite E0. destruct (Hdec c (b :: r)) as [Hne Hd]; [discriminate|].
  assert (Hcc : In (flagbits c) flags /\ compr_of_header (flagbits c) = c)
    by (destruct Hc as [<-|[<-|[<-|[]]]]; [discriminate E0| |]; split; cbn; auto).
  destruct Hcc as [Hfl ->]. split; [exact Hfl|].
  unfold Wal.decode. rewrite E0. destruct (enc c (b :: r)); [congruence|exact Hd].
Qed.

(* the records logged so far: every finished segment is whole pages, and the segments hold them *)
Definition logged (st : wst) (recs : list (list N)) : Prop :=
  W st /\ Forall pages (w_closed st) /\
  exists rss rs, Forall2 seg (w_closed st) rss /\ seg (A st) rs /\ concat rss ++ rs = recs.

Lemma logged_append st st' D rs' recs :
  logged st recs -> W st' -> w_closed st' = w_closed st -> A st' = A st ++ D ->
  wf (zlen (A st)) 0 [] D rs' -> logged st' (recs ++ rs').
Proof.
  intros [_ [Hp [rss [rs [Hc [Ha <-]]]]]] HW Hcl HA HD.
  split; [exact HW|]. rewrite Hcl, HA. split; [exact Hp|].
  exists rss, (rs ++ rs'). split; [exact Hc|]. split; [|apply app_assoc].
  apply wf_app; assumption.
Qed.

Lemma close_ok st recs :
  logged st recs -> logged (close st) recs /\ w_buf (close st) = [] /\ w_flushed (close st) = 0.
Proof.
  intros HL. pose proof HL as [HW _]. pose proof HW as [[Hq [Hfl Hle]] Ha].
  pose proof (zlen_nonneg (w_buf st)) as Ha0. fold (alloc st) in Ha0.
  unfold Wal.close. destruct (alloc st >? 0) eqn:E; rewrite Z.gtb_ltb in E.
  - apply Z.ltb_lt in E. destruct (flush_true st) as [HW' [HA [Hc [Hb Hf]]]]; [split; auto|].
    split; [|auto]. rewrite <- (app_nil_r recs). eapply logged_append; eauto.
    apply wf_zeros; [lia|]. intros _. rewrite A_off by exact HW. lia.
  - apply Z.ltb_ge in E. split; [exact HL|]. split; [apply zlen_zero_nil; exact E|lia].
Qed.

Lemma next_segment_ok st recs : logged st recs -> logged (next_segment st) recs.
Proof.
  intros HL. destruct (close_ok st recs HL) as [[HW [Hp [rss [rs [Hc [Ha <-]]]]]] [Hb Hf]].
  change (next_segment st) with
    (mkW (w_closed (close st) ++ [concat (w_writes (close st))]) [] (w_buf (close st))
         (w_flushed (close st)) 0).
  destruct HW as [[[q [Hq Hw]] _] _]. rewrite Hb, Hf in *.
  assert (HA : A (close st) = concat (w_writes (close st))) by (unfold A; rewrite Hb, Hf; apply app_nil_r).
  rewrite HA in Ha.
  split; [|split].
  - split; [split; [exists 0|]|]; cbn; lia.
  - cbn [w_closed]. apply Forall_app. split; [exact Hp|]. constructor; [|constructor].
    exists q. split; [exact Hq|]. rewrite Hw. lia.
  - exists (rss ++ [rs]), []. cbn [w_closed]. split; [apply Forall2_app; [exact Hc|]|].
    + constructor; [exact Ha|constructor].
    + split; [apply wf_end|]. rewrite concat_app. cbn. rewrite !app_nil_r. reflexivity.
Qed.

Lemma log_ok c pps rec final st recs :
  In c [0%N; 1%N; 2%N] -> logged st recs ->
  exists st', log c pps rec final st = WOk st' /\ logged st' (recs ++ [rec]) /\
    (final = true -> w_flushed st' = alloc st').
Proof.
  intros Hc HL. pose proof HL as [[_ Ha] _].
  unfold Wal.log, Wal.full. destruct (page_size - alloc st <? 7) eqn:E; [apply Z.ltb_lt in E; lia|].
  destruct (stored enc c rec) as [e fc] eqn:Es.
  destruct (stored_decode c rec e fc Hc Es) as [Hflag Hdecode]. cbv zeta.
  match goal with |- context [if ?b then next_segment st else st] =>
    assert (HL1 : logged (if b then next_segment st else st) recs)
      by (destruct b; [apply next_segment_ok|]; exact HL);
    generalize dependent (if b then next_segment st else st) end.
  intros st1 HL1. pose proof HL1 as [HW1 _].
  destruct (frag_loop_ok (S (S (length e))) 0 e (flagbits fc) st1 HW1 ltac:(lia) Hflag)
    as [st2 [D [HF [HW2 [Hc2 [HA2 HR]]]]]].
  { destruct (alloc st1 + 8 <=? page_size); lia. }
  rewrite HF.
  assert (HL2 : logged st2 (recs ++ [rec])) by (eapply logged_append; eauto).
  destruct (final && (alloc st2 >? 0)) eqn:Ef.
  - destruct (flush_false st2 HW2) as [HW3 [HA3 [Hc3 Hf3]]].
    eexists. split; [reflexivity|]. split; [|intros _; exact Hf3].
    rewrite <- (app_nil_r (recs ++ [rec])). eapply logged_append; eauto.
    rewrite app_nil_r. exact HA3. apply wf_end.
  - exists st2. split; [reflexivity|]. split; [exact HL2|].
    intros ->. cbn [andb] in Ef. rewrite Z.gtb_ltb in Ef. apply Z.ltb_ge in Ef.
    destruct HW2 as [[_ [Hfl _]] _]. lia.
Qed.

Section Config.
Variable c : N.
Variable pps : Z.
Hypothesis Hc : In c [0%N; 1%N; 2%N].

Lemma log_batch_ok : forall b st recs, logged st recs ->
  exists st', log_batch c pps b st = WOk st' /\ logged st' (recs ++ b) /\
    (b = [] -> st' = st) /\ (b <> [] -> w_flushed st' = alloc st').
Proof.
  induction b as [|r b IH]; intros st recs HL.
  - exists st. rewrite app_nil_r. split; [reflexivity|]. split; [exact HL|]. split; [reflexivity|].
    intros H. destruct H. reflexivity.
  - cbn [Wal.log_batch].
    destruct (log_ok c pps r (match b with [] => true | _ => false end) st recs Hc HL)
      as [st1 [-> [HL1 Hf1]]].
    destruct (IH st1 _ HL1) as [st2 [-> [HL2 [Hs2 Hf2]]]].
    exists st2. rewrite <- app_assoc in HL2. split; [reflexivity|]. split; [exact HL2|].
    split; [discriminate|]. intros _. destruct b; [rewrite (Hs2 eq_refl); auto|apply Hf2; discriminate].
Qed.

Lemma log_batches_ok : forall bs st recs, logged st recs -> w_flushed st = alloc st ->
  exists st', log_batches c pps bs st = WOk st' /\ logged st' (recs ++ concat bs) /\
    w_flushed st' = alloc st'.
Proof.
  induction bs as [|b bs IH]; intros st recs HL Hfl.
  - exists st. rewrite app_nil_r. auto.
  - cbn [Wal.log_batches concat].
    destruct (log_batch_ok b st recs HL) as [st1 [-> [HL1 [Hs1 Hf1]]]].
    rewrite app_assoc. apply IH; [exact HL1|].
    destruct b; [rewrite (Hs1 eq_refl); exact Hfl|apply Hf1; discriminate].
Qed.
End Config.

Lemma logged_segments st recs :
  logged st recs -> w_flushed st = alloc st ->
  exists rss, Forall2 seg (segments st) rss /\ concat rss = recs.
Proof.
  intros [_ [_ [rss [rs [Hc [Ha <-]]]]]] Hf. exists (rss ++ [rs]).
  unfold A in Ha. rewrite Hf, (zdrop_all (alloc st)), app_nil_r in Ha by (unfold alloc; lia).
  split; [apply Forall2_app; [exact Hc|constructor; [exact Ha|constructor]]|].
  rewrite concat_app. cbn. rewrite app_nil_r. reflexivity.
Qed.

Lemma logged_init : logged w_init [].
Proof.
  split; [split; [split; [exists 0|]|]; cbn; lia|]. split; [constructor|].
  exists [], []. split; [constructor|]. split; [apply wf_end|reflexivity].
Qed.

(* the main result: every sequence of Log calls succeeds, and reading the resulting segment
   files (with or without Close) returns exactly the logged records, in order, with no error *)
Theorem wal_roundtrip c pps bs :
  In c [0%N; 1%N; 2%N] ->
  exists st, log_batches c pps bs w_init = WOk st /\
    read_segments (segments st) = (concat bs, RClean) /\
    read_segments (segments (close st)) = (concat bs, RClean).
Proof.
  intros Hc. destruct (log_batches_ok c pps Hc bs w_init [] logged_init eq_refl) as [st [HL [Hl Hf]]].
  exists st. split; [exact HL|]. cbn [app] in Hl.
  destruct (close_ok st _ Hl) as [Hlc [Hb Hfc]].
  destruct (logged_segments st _ Hl Hf) as [rss [Hs E]].
  destruct (logged_segments (close st) _ Hlc) as [rss' [Hs' E']];
    [unfold alloc; rewrite Hb, Hfc; reflexivity|].
  split; [rewrite <- E|rewrite <- E']; apply read_segments_seg; assumption.
Qed.

(* layout: finished segments are whole pages, and everything logged is on disk when Log returns *)
Theorem wal_layout c pps bs st :
  In c [0%N; 1%N; 2%N] ->
  log_batches c pps bs w_init = WOk st ->
  Forall (fun s => exists q, 0 <= q /\ zlen s = page_size * q) (w_closed st) /\
  w_flushed st = alloc st /\ alloc st + 7 <= page_size /\
  exists q, 0 <= q /\ zlen (active_file st) = page_size * q + alloc st.
Proof.
  intros Hc HL. destruct (log_batches_ok c pps Hc bs w_init [] logged_init eq_refl) as [st' [HL' [Hl Hf]]].
  rewrite HL in HL'. injection HL' as <-.
  destruct Hl as [[[[q [Hq Hw]] _] Ha] [Hp _]].
  split; [exact Hp|]. split; [exact Hf|]. split; [exact Ha|].
  exists q. split; [exact Hq|]. unfold active_file. rewrite Hw, Hf. reflexivity.
Qed.

End Proofs.

(* Executable check used by C13_live_partial: write a log with small pages, then tail every
   segment with a LiveReader under every single-cut release of its bytes and under byte-by-byte
   release, and compare with the records of that segment. *)
Fixpoint beqN (a b : list N) : bool :=
  match a, b with
  | [], [] => true
  | x :: a', y :: b' => if N.eqb x y then beqN a' b' else false
  | _, _ => false
  end.
Fixpoint lbeqN (a b : list (list N)) : bool :=
  match a, b with
  | [], [] => true
  | x :: a', y :: b' => if beqN x y then lbeqN a' b' else false
  | _, _ => false
  end.

Definition t_crc (l : list N) : N :=
  ((N.of_nat (length l) * 2654435761 + fold_left N.add l 0) mod 4294967296)%N.
Definition t_enc (_ : N) (r : list N) : list N := r.
Definition t_dec (_ : N) (s : list N) : option (list N) := Some s.

Definition live_ok (ps : Z) (want : list (list N)) (chunks : list (list N)) : bool :=
  let '(outs, e) := live_run ps t_crc t_dec chunks l_init in
  lbeqN (concat outs) want && match e with NEof => true | _ => false end.

Fixpoint natseq (n : nat) : list nat := match n with O => [O] | S m => natseq m ++ [n] end.

Definition check_log (ps pps : Z) (bs : list (list (list N))) : bool :=
  match log_batches ps t_crc t_enc 0 pps bs w_init with
  | WOk st =>
    let segs := segments st in
    let per_seg := map (fun s => fst (read_stream ps t_crc t_dec (pad_page ps s))) segs in
    lbeqN (concat per_seg) (concat bs) &&
    forallb (fun '(s, want) =>
               forallb (fun cut => live_ok ps want [firstn cut s; skipn cut s]) (natseq (length s))
               && live_ok ps want (map (fun b => [b]) s))
            (combine segs per_seg)
  | _ => false
  end.

(* record number j of length n, with non-zero distinct bytes *)
Definition mkrec (j : nat) (n : nat) : list N :=
  map (fun k => N.of_nat (1 + j * 60 + k)) (seq 0 n).
Definition mklog (lens : list nat) : list (list (list N)) :=
  [map (fun '(j, n) => mkrec j n) (combine (seq 0 (length lens)) lens)].

Definition live_lens : list nat := [0; 1; 2; 8; 9; 10; 19; 30]%nat.
Definition live_logs : list (list nat) :=
  [[]] ++ map (fun a => [a]) live_lens
  ++ flat_map (fun a => map (fun b => [a; b]) live_lens) live_lens
  ++ flat_map (fun a => flat_map (fun b => map (fun c => [a; b; c]) live_lens) live_lens) live_lens.

Lemma beqN_refl a : beqN a a = true.
Proof. induction a as [|x a IH]; [reflexivity|]. cbn. rewrite N.eqb_refl. exact IH. Qed.
Lemma lbeqN_refl a : lbeqN a a = true.
Proof. induction a as [|x a IH]; [reflexivity|]. cbn. rewrite beqN_refl. exact IH. Qed.

Lemma t_crc_lt l : (t_crc l < 4294967296)%N.
Proof. apply N.mod_lt. discriminate. Qed.
Lemma t_dec_enc c r : r <> [] -> t_enc c r <> [] /\ t_dec c (t_enc c r) = Some r.
Proof. intros. split; [assumption|reflexivity]. Qed.

Lemma live_ok_seg ps s want chunks :
  8 <= ps <= 65542 -> seg ps t_crc t_dec s want -> concat chunks = s -> live_ok ps want chunks = true.
Proof.
  intros Hps H <-. unfold live_ok.
  destruct (live_run_wf ps t_crc t_dec Hps t_crc_lt chunks want H) as [outs [-> <-]].
  rewrite lbeqN_refl. reflexivity.
Qed.

(* The check succeeds on every log, for every page size of the round-trip theorem: each segment
   read on its own gives the records it holds, and the LiveReader gives the same under every
   release of the segment's bytes, of which the check tries the one-cut and the bytewise ones. *)
Theorem check_log_ok ps pps bs : 8 <= ps <= 65542 -> check_log ps pps bs = true.
Proof.
  intros Hps. unfold check_log.
  destruct (log_batches_ok ps t_crc t_dec Hps t_enc t_dec_enc 0 pps (or_introl eq_refl) bs w_init []
              (logged_init ps t_crc t_dec Hps) eq_refl) as [st [-> [Hl Hf]]].
  destruct (logged_segments ps t_crc t_dec st _ Hl Hf) as [rss [Hs E]]. cbn [app] in E.
  assert (Hmap : map (fun s => fst (read_stream ps t_crc t_dec (pad_page ps s))) (segments st) = rss).
  { clear E. induction Hs as [|s rs l l' H _ IH]; [reflexivity|]. cbn [map].
    rewrite (read_stream_seg ps t_crc t_dec Hps t_crc_lt _ rs), IH; [reflexivity|].
    apply pad_page_seg; assumption. }
  rewrite Hmap, E, lbeqN_refl. cbn [andb]. clear E Hmap.
  induction Hs as [|s rs l l' H _ IH]; [reflexivity|]. cbn [combine forallb]. rewrite IH, andb_true_r.
  apply andb_true_iff. split.
  - apply forallb_forall. intros cut _. apply (live_ok_seg ps s); [assumption|assumption|].
    cbn [concat]. rewrite app_nil_r. apply firstn_skipn.
  - apply (live_ok_seg ps s); [assumption|assumption|].
    clear. induction s as [|b s IH]; [reflexivity|]. cbn. rewrite IH. reflexivity.
Qed.

Lemma live_bounded : forallb (fun ls => check_log 16 2 (mklog ls)) live_logs = true.
Proof. apply forallb_forall. intros ls _. apply check_log_ok. lia. Qed.

Definition live_lens2 : list nat := [0; 1; 2; 3; 5; 7]%nat.
Definition live_logs2 : list (list nat) :=
  map (fun a => [a]) live_lens2
  ++ flat_map (fun a => map (fun b => [a; b]) live_lens2) live_lens2
  ++ flat_map (fun a => flat_map (fun b => map (fun c => [a; b; c]) live_lens2) live_lens2) live_lens2.

Lemma live_bounded2 : forallb (fun ls => check_log 9 3 (mklog ls)) live_logs2 = true.
Proof. apply forallb_forall. intros ls _. apply check_log_ok. lia. Qed.
