(* proof/DurableProofs.v — property C03 over model/Durable.v: after any prefix of the persistence
   steps of a well-formed history a reopen shows the specification's samples, up to the operation
   in flight.  [Inv] is what holds of the directory between operations; [op_good] is proved per
   operation, [along] saying "at every crash point of its trace"; [crash_state_bounds] and
   [crash_anywhere] put the operations together. *)
From Coq Require Import List Permutation ZArith Bool Lia.
From Verif Require Import lib.Int64 lib.SortedList model.Durable.
Import ListNotations.
Open Scope Z_scope.

Definition same_set (a b : list sample) : Prop := forall x, In x a <-> In x b.
Definition subset (a b : list sample) : Prop := forall x, In x a -> In x b.

Lemma same_set_refl a : same_set a a. Proof. intros x. tauto. Qed.
Lemma same_set_sym a b : same_set a b -> same_set b a. Proof. intros H x. symmetry. apply H. Qed.
Lemma same_set_trans a b c : same_set a b -> same_set b c -> same_set a c.
Proof. unfold same_set; intros H1 H2 x; rewrite H1; apply H2. Qed.

Lemma memZ_In x l : memZ x l = true <-> In x l.
Proof. apply (existsb_eqb_In Z.eqb Z.eqb_eq). Qed.

Lemma memZ_false x l : memZ x l = false <-> ~ In x l.
Proof. apply (existsb_eqb_notin Z.eqb Z.eqb_eq). Qed.

Lemma memZ_app x a b : memZ x (a ++ b) = memZ x a || memZ x b.
Proof. apply existsb_app. Qed.

Lemma covered_app a b x : covered (a ++ b) x = covered a x || covered b x.
Proof. unfold covered. apply existsb_app. Qed.

Lemma in_flat_map_split {A B} (f : A -> list B) (g : A -> bool) l y :
  In y (flat_map f l) <->
  In y (flat_map f (filter g l)) \/ In y (flat_map f (filter (fun a => negb (g a)) l)).
Proof.
  rewrite !in_flat_map. split.
  - intros [a [Ha Hy]]. destruct (g a) eqn:E; [left|right]; exists a; rewrite filter_In, E; auto.
  - intros [[a [Ha Hy]]|[a [Ha Hy]]]; apply filter_In in Ha; exists a; tauto.
Qed.

Lemma fold_max_ge {A} (f : A -> Z) d l x : In x l -> f x <= fold_right (fun p a => Z.max (f p) a) d l.
Proof.
  induction l as [|a l IH]; intros H; [contradiction|]. simpl. destruct H as [H|H]; [subst; lia|].
  specialize (IH H). lia.
Qed.
Lemma fold_min_le {A} (f : A -> Z) d l x : In x l -> fold_right (fun p a => Z.min (f p) a) d l <= f x.
Proof.
  induction l as [|a l IH]; intros H; [contradiction|]. simpl. destruct H as [H|H]; [subst; lia|].
  specialize (IH H). lia.
Qed.

Lemma fold_min_le_init {A} (f : A -> Z) d l : fold_right (fun p a => Z.min (f p) a) d l <= d.
Proof. induction l as [|a l IH]; simpl; lia. Qed.
Lemma fold_min_gt {A} (f : A -> Z) d l n :
  n < d -> (forall x, In x l -> n < f x) -> n < fold_right (fun p a => Z.min (f p) a) d l.
Proof.
  intros Hd. induction l as [|a l IH]; intros H; simpl; [exact Hd|].
  pose proof (H a (or_introl eq_refl)). specialize (IH (fun x Hx => H x (or_intror Hx))). lia.
Qed.

Lemma visible_live_eq t t' :
  wal_recs t = wal_recs t' -> live t = live t' -> ooo t = ooo t' -> visible t = visible t'.
Proof.
  intros H1 H2 H3. unfold visible, head_io, head_tombs, wal_samples, min_valid.
  rewrite H1, H2, H3. reflexivity.
Qed.

Lemma visible_ext s s' :
  f_wal s = f_wal s' -> f_cp s = f_cp s' -> f_wbl s = f_wbl s' -> f_blk s = f_blk s' ->
  visible s = visible s'.
Proof.
  intros H1 H2 H3 H4. apply visible_live_eq; unfold wal_recs, live, ooo; rewrite ?H1, ?H2, ?H3, ?H4; reflexivity.
Qed.

(* mechanism: tmp directory + rename is all-or-nothing *)
(* writing into <ULID>.tmp-for-creation changes nothing a reopened database sees *)
Lemma tmpfill_invisible s b : visible (apply s (TmpFill b)) = visible s.
Proof. apply visible_ext; reflexivity. Qed.
(* neither does writing checkpoint.N.tmp *)
Lemma cptmp_invisible s rs : visible (apply s (CpTmpWrite rs)) = visible s.
Proof. apply visible_ext; reflexivity. Qed.
(* nor removing a directory already renamed to .tmp-for-deletion *)
Lemma delremove_invisible s id : visible (apply s (DelRemove id)) = visible s.
Proof. apply visible_ext; reflexivity. Qed.

(* a crash anywhere before the rename of a block write leaves the visible set untouched:
   every prefix of [TmpFill b; ...] that does not contain the rename *)
Lemma block_write_atomic s b :
  visible (durable s [TmpFill b]) = visible s.
Proof. apply tmpfill_invisible. Qed.

Lemma durable_app s a b : durable s (a ++ b) = durable (durable s a) b.
Proof. unfold durable. apply fold_left_app. Qed.

Lemma run_app c a b : run c (a ++ b) = fold_left (op_step c) b (run c a).
Proof. unfold run. apply fold_left_app. Qed.

Lemma trace_from_app c m a b :
  trace_from c m (a ++ b) = trace_from c m a ++ trace_from c (fold_left (op_step c) a m) b.
Proof.
  revert m. induction a as [|o a IH]; intros m; simpl; [reflexivity|].
  rewrite IH, app_assoc. reflexivity.
Qed.

Lemma durable_trace_from c m ops :
  durable (m_fs m) (trace_from c m ops) = m_fs (fold_left (op_step c) ops m).
Proof.
  revert m. induction ops as [|o r IH]; intros m; simpl; [reflexivity|].
  rewrite durable_app. rewrite <- IH. reflexivity.
Qed.

(* every prefix of the trace of a history is: some complete operations, then a prefix of the
   trace of the next; from [m0] the right-hand side is [crash_state] *)
Lemma prefix_decompose c ops : forall m k,
  (k <= length (trace_from c m ops))%nat ->
  exists i j, (i <= length ops)%nat /\
    durable (m_fs m) (firstn k (trace_from c m ops)) =
    (let m' := fold_left (op_step c) (firstn i ops) m in
     match nth_error ops i with
     | Some o => durable (m_fs m') (firstn j (op_trace c m' o))
     | None => m_fs m'
     end).
Proof.
  induction ops as [|o r IH]; intros m k Hk.
  - exists O, O. simpl in *. rewrite firstn_nil. auto.
  - simpl in Hk. rewrite app_length in Hk.
    destruct (Nat.le_gt_cases k (length (op_trace c m o))) as [Hle|Hgt].
    + exists O, k. simpl. rewrite firstn_app.
      replace (k - length (op_trace c m o))%nat with O by lia. simpl. rewrite app_nil_r. split; [lia|reflexivity].
    + destruct (IH (op_step c m o) (k - length (op_trace c m o))%nat ltac:(lia)) as [i [j [Hi Hd]]].
      exists (S i), j. simpl. split; [lia|].
      rewrite firstn_app, firstn_all2 by lia. rewrite durable_app. exact Hd.
Qed.

Definition along (P : fs -> Prop) (s : fs) (tr : list fsop) : Prop := forall j, P (durable s (firstn j tr)).

Lemma along_nil (P : fs -> Prop) s : P s -> along P s [].
Proof. intros H j. rewrite firstn_nil. exact H. Qed.
Lemma along_cons (P : fs -> Prop) s o tr : P s -> along P (apply s o) tr -> along P s (o :: tr).
Proof. intros H0 H [|j]; [exact H0|apply H]. Qed.
Lemma along_app (P : fs -> Prop) s a b : along P s a -> along P (durable s a) b -> along P s (a ++ b).
Proof.
  intros Ha Hb j. rewrite firstn_app, durable_app. destruct (Nat.le_gt_cases (length a) j).
  - rewrite (firstn_all2 a) by assumption. apply Hb.
  - replace (j - length a)%nat with O by lia. apply Ha.
Qed.
Lemma along_end (P : fs -> Prop) s tr : along P s tr -> P (durable s tr).
Proof. intros H. rewrite <- (firstn_all tr). apply H. Qed.
(* what every step of the trace keeps holds at every crash point *)
Lemma along_steps (Q : fs -> Prop) (ok : fsop -> Prop) :
  (forall t o, Q t -> ok o -> Q (apply t o)) -> forall tr s, Q s -> Forall ok tr -> along Q s tr.
Proof.
  intros Hstep. induction tr as [|o tr IH]; intros s Hs F; [apply along_nil; exact Hs|].
  inversion F; subst. apply along_cons; [exact Hs|]. apply IH; auto.
Qed.

Definition cp_recs (s : fs) : list rec := match f_cp s with [] => [] | (_, rs) :: _ => rs end.

Record Inv (s : fs) : Prop := mkInv {
  i_wal_ne : f_wal s <> [];
  i_cp : f_cp s = [] \/ exists n rs, f_cp s = [(n, rs)] /\ forall p, In p (f_wal s) -> n < fst p;
  i_live : forall b, In b (f_blk s) -> ~ In (b_id b) (parents_of (f_blk s));
  i_nodup : NoDup (map b_id (f_blk s));
  i_range : forall b x, In b (f_blk s) -> In x (b_data b) -> b_mint b <= s_t x < b_maxt b;
  i_tmp : f_tmp s = [];
  i_del : f_del s = [];
  i_ooo : forall x, In x (ooo s) -> covered (head_tombs s) x = false
}.

Lemma live_all s : Inv s -> live s = f_blk s.
Proof.
  intros I. unfold live. apply filter_all. intros b Hb.
  apply negb_true_iff. apply memZ_false. apply (i_live s I b Hb).
Qed.

Lemma wal_recs_inv s : Inv s -> wal_recs s = cp_recs s ++ flat_map snd (f_wal s).
Proof.
  intros I. unfold wal_recs, cp_recs. destruct (i_cp s I) as [H|[n [rs [H Hn]]]]; rewrite H; simpl.
  - reflexivity.
  - f_equal. f_equal. apply filter_all. intros p Hp. apply Z.ltb_lt. apply Hn. exact Hp.
Qed.

Lemma inv_fs0 c : Inv (fs0 c).
Proof.
  constructor.
  - simpl. discriminate.
  - left. reflexivity.
  - simpl. intros b [].
  - simpl. constructor.
  - simpl. intros b x [].
  - reflexivity.
  - reflexivity.
  - intros x. unfold ooo. simpl. destruct (c_ooo c); simpl; intros [].
Qed.

Definition matches (mint maxt : Z) (sel : list Z) (x : sample) : bool :=
  memZ (s_sid x) sel && (mint <=? s_t x) && (s_t x <=? maxt).

(* the live samples after an operation that returned: a commit adds the accepted samples, a
   deletion removes exactly the selected series' samples in [mint, maxt]; compactions, WAL
   truncation and checkpoints change nothing *)
Definition spec_step (l : list sample) (o : op) : list sample :=
  match o with
  | Commit acc => l ++ map fst acc
  | Delete mint maxt sel _ => filter (fun x => negb (matches mint maxt sel x)) l
  | _ => l
  end.
Definition spec (ops : list op) : list sample := fold_left spec_step ops [].
(* while the operation is in flight: what must still be there / what may be there *)
Definition step_lo (l : list sample) (o : op) : list sample :=
  match o with
  | Delete mint maxt sel _ => filter (fun x => negb (matches mint maxt sel x)) l
  | _ => l
  end.
Definition step_hi (l : list sample) (o : op) : list sample :=
  match o with
  | Commit acc => l ++ map fst acc
  | _ => l
  end.

Lemma spec_step_congr a b o : same_set a b -> same_set (spec_step a o) (spec_step b o).
Proof.
  intros H x. destruct o; simpl; try apply H.
  - rewrite !in_app_iff. rewrite (H x). tauto.
  - rewrite !filter_In. rewrite (H x). tauto.
Qed.

Definition wf_op (s : fs) (o : op) : Prop :=
  match o with
  | Commit acc =>
      forall x f, In (x, f) acc ->
        covered (head_tombs s) x = false /\ (f = false -> min_valid s <= s_t x)
  | Delete mint maxt sel _ => forall x, In x (ooo s) -> matches mint maxt sel x = false
  | CutHead _ _ => True
  | TruncWAL mint => mint <= min_valid s
  | CutOOO => True
  | Merge ps _ =>
      let bs := filter (fun b => memZ (b_id b) ps) (f_blk s) in
      (* a merge either has only out-of-order parents or does not raise the in-order horizon;
         deleting the parents of an empty result does not lower it *)
      (flat_map blk_vis bs <> [] ->
       forallb b_ooo bs = true \/ list_max (map b_maxt bs) minInt64 <= min_valid s) /\
      (flat_map blk_vis bs = [] ->
       min_valid (mkFs (f_wal s) (f_cp s) (f_cptmp s) (f_wbl s)
                       (filter (fun b' => negb (memZ (b_id b') (map b_id bs))) (f_blk s)) [] []) = min_valid s)
  end.

Lemma app_last_flat {A} (l : list (Z * list A)) (x : A) :
  flat_map snd (app_last l x) = flat_map snd l ++ [x].
Proof.
  induction l as [|[i rs] l IH]; simpl; [reflexivity|].
  destruct l as [|q l'].
  - simpl. rewrite !app_nil_r. reflexivity.
  - transitivity (rs ++ flat_map snd (app_last (q :: l') x)); [reflexivity|].
    rewrite IH. simpl. rewrite app_assoc. reflexivity.
Qed.

Lemma app_last_fst {A} (l : list (Z * list A)) (x : A) :
  l <> [] -> map fst (app_last l x) = map fst l.
Proof.
  induction l as [|[i rs] l IH]; intros H; [congruence|].
  destruct l as [|q l'].
  - reflexivity.
  - change (app_last ((i, rs) :: q :: l') x) with ((i, rs) :: app_last (q :: l') x).
    simpl. f_equal. apply IH. discriminate.
Qed.

Lemma app_last_ne {A} (l : list (Z * list A)) (x : A) : app_last l x <> [].
Proof. destruct l as [|[i rs] [|q l']]; simpl; discriminate. Qed.

Lemma app_last_above {A} (l : list (Z * list A)) (x : A) n :
  l <> [] -> (forall p, In p l -> n < fst p) -> forall p, In p (app_last l x) -> n < fst p.
Proof.
  intros H Hn p Hp. apply (in_map fst) in Hp. rewrite (app_last_fst l x H) in Hp.
  apply in_map_iff in Hp as [q [<- Hq]]. apply Hn, Hq.
Qed.

Lemma apply_walwrite_recs s r : Inv s -> wal_recs (apply s (WalWrite r)) = wal_recs s ++ [r].
Proof.
  intros I. unfold wal_recs. simpl.
  destruct (i_cp s I) as [H|[n [rs [H Hn]]]]; rewrite H; simpl.
  - apply app_last_flat.
  - rewrite (filter_all _ (f_wal s)) by (intros p Hp; apply Z.ltb_lt; apply Hn; exact Hp).
    rewrite filter_all.
    + rewrite app_last_flat. rewrite app_assoc. reflexivity.
    + intros p Hp. apply Z.ltb_lt, (app_last_above _ r n (i_wal_ne s I) Hn p Hp).
Qed.

Lemma apply_walwrite_blk s r : f_blk (apply s (WalWrite r)) = f_blk s. Proof. reflexivity. Qed.

Lemma min_valid_blk s s' : f_blk s = f_blk s' -> min_valid s = min_valid s'.
Proof. intros H. unfold min_valid, live. rewrite H. reflexivity. Qed.

Lemma live_blk s s' : f_blk s = f_blk s' -> live s = live s'.
Proof. intros H. unfold live. rewrite H. reflexivity. Qed.

Lemma inv_walwrite s r :
  Inv s -> (forall x, In x (ooo s) -> covered (rec_tombs r) x = false) -> Inv (apply s (WalWrite r)).
Proof.
  intros I Hr. constructor; try apply I.
  - simpl. apply app_last_ne.
  - simpl. destruct (i_cp s I) as [H|[n [rs [H Hn]]]]; [left; exact H|].
    right. exists n, rs. split; [exact H|apply (app_last_above _ r n (i_wal_ne s I) Hn)].
  - intros x Hx. unfold head_tombs. rewrite (apply_walwrite_recs s r I).
    rewrite flat_map_app. simpl. rewrite app_nil_r. rewrite covered_app.
    change (ooo (apply s (WalWrite r))) with (ooo s) in Hx.
    fold (head_tombs s). rewrite (i_ooo s I x Hx), (Hr x Hx). reflexivity.
Qed.

Lemma in_blk_vis b x : In x (blk_vis b) <-> In x (b_data b) /\ covered (b_tomb b) x = false.
Proof. unfold blk_vis. rewrite filter_In, negb_true_iff. tauto. Qed.

Lemma in_visible s x :
  In x (visible s) <->
  In x (flat_map blk_vis (live s)) \/
  ((In x (head_io s) \/ In x (ooo s)) /\ covered (head_tombs s) x = false).
Proof. unfold visible. rewrite in_app_iff, filter_In, in_app_iff, negb_true_iff. tauto. Qed.

Lemma in_head_io s x :
  In x (head_io s) <-> In (x, false) (wal_samples s) /\ min_valid s <= s_t x.
Proof.
  unfold head_io. rewrite filter_In, in_map_iff. split.
  - intros [[[y f] [Hy Hin]] Hm]. simpl in Hy. subst y. apply filter_In in Hin.
    destruct Hin as [Hin Hf]. simpl in Hf. destruct f; [discriminate|].
    split; [exact Hin|]. apply Z.leb_le. exact Hm.
  - intros [Hin Hm]. split.
    + exists (x, false). split; [reflexivity|]. apply filter_In. auto.
    + apply Z.leb_le. exact Hm.
Qed.

Lemma wal_samples_walwrite s r :
  Inv s -> wal_samples (apply s (WalWrite r)) = wal_samples s ++ rec_samples r.
Proof.
  intros I. unfold wal_samples. rewrite (apply_walwrite_recs s r I).
  rewrite flat_map_app. simpl. rewrite app_nil_r. reflexivity.
Qed.

Lemma head_tombs_walwrite s r :
  Inv s -> head_tombs (apply s (WalWrite r)) = head_tombs s ++ rec_tombs r.
Proof.
  intros I. unfold head_tombs. rewrite (apply_walwrite_recs s r I).
  rewrite flat_map_app. simpl. rewrite app_nil_r. reflexivity.
Qed.

Lemma ooo_wblwrite s l : ooo (apply s (WblWrite l)) = ooo s ++ l.
Proof.
  unfold ooo. simpl. rewrite app_last_flat. rewrite concat_app. simpl. rewrite app_nil_r. reflexivity.
Qed.

Lemma inv_wblwrite s l :
  Inv s -> (forall x, In x l -> covered (head_tombs s) x = false) -> Inv (apply s (WblWrite l)).
Proof.
  intros I Hl. constructor; try apply I.
  intros x Hx. rewrite ooo_wblwrite in Hx. apply in_app_iff in Hx.
  change (head_tombs (apply s (WblWrite l))) with (head_tombs s).
  destruct Hx as [Hx|Hx]; [apply (i_ooo s I x Hx) | apply Hl; exact Hx].
Qed.

Lemma visible_walwrite_samples s acc x :
  Inv s ->
  (forall y f, In (y, f) acc -> covered (head_tombs s) y = false /\ (f = false -> min_valid s <= s_t y)) ->
  (In x (visible (apply s (WalWrite (RSamples acc)))) <-> In x (visible s) \/ In (x, false) acc).
Proof.
  intros I W. rewrite !in_visible.
  rewrite (live_blk (apply s (WalWrite (RSamples acc))) s eq_refl).
  rewrite !in_head_io. rewrite (wal_samples_walwrite s _ I), (head_tombs_walwrite s _ I).
  rewrite (min_valid_blk (apply s (WalWrite (RSamples acc))) s eq_refl).
  change (ooo (apply s (WalWrite (RSamples acc)))) with (ooo s).
  simpl rec_tombs. rewrite app_nil_r. simpl rec_samples. rewrite in_app_iff.
  split.
  - intros [H|[[[[H|H] H2]|H] H3]]; auto 6.
  - intros [[H|[[[H H2]|H] H3]]|H]; auto 6. destruct (W x false H) as [HC HM]. auto 7.
Qed.

Lemma visible_wblwrite s l x :
  (forall y, In y l -> covered (head_tombs s) y = false) ->
  (In x (visible (apply s (WblWrite l))) <-> In x (visible s) \/ In x l).
Proof.
  intros W. rewrite !in_visible. rewrite ooo_wblwrite, in_app_iff.
  change (live (apply s (WblWrite l))) with (live s).
  change (head_io (apply s (WblWrite l))) with (head_io s).
  change (head_tombs (apply s (WblWrite l))) with (head_tombs s).
  specialize (W x). split.
  - intros [H|[[H|[H|H]] H3]]; auto 6.
  - intros [[H|[[H|H] H3]]|H]; auto 6.
Qed.

Definition op_good (c : cfg) (m : mst) (o : op) : Prop :=
  let s := m_fs m in
  let tr := op_trace c m o in
  Inv (durable s tr) /\
  same_set (visible (durable s tr)) (spec_step (visible s) o) /\
  forall j, subset (step_lo (visible s) o) (visible (durable s (firstn j tr))) /\
            subset (visible (durable s (firstn j tr))) (step_hi (visible s) o).

(* an operation of the compactor or of WAL truncation: the specification does not move *)
Definition quiet (o : op) : Prop := match o with Commit _ | Delete _ _ _ _ => False | _ => True end.

Lemma quiet_good c m o :
  quiet o ->
  Inv (durable (m_fs m) (op_trace c m o)) /\
  along (fun t => same_set (visible t) (visible (m_fs m))) (m_fs m) (op_trace c m o) ->
  op_good c m o.
Proof.
  intros Q [I A].
  assert (E : forall l, spec_step l o = l /\ step_lo l o = l /\ step_hi l o = l)
    by (destruct o; try contradiction; auto).
  unfold op_good. cbv zeta. destruct (E (visible (m_fs m))) as [-> [-> ->]].
  split; [exact I|]. split; [exact (along_end _ _ _ A)|].
  intros j. split; intros x Hx; apply (A j); exact Hx.
Qed.

Lemma in_ooo_part acc x :
  In x (map fst (filter (fun p : sample * bool => snd p) acc)) <-> In (x, true) acc.
Proof.
  rewrite in_map_iff. split.
  - intros [[y f] [Hy Hin]]. simpl in Hy. subst y. apply filter_In in Hin.
    destruct Hin as [Hin Hf]. simpl in Hf. subst f. exact Hin.
  - intros H. exists (x, true). split; [reflexivity|]. apply filter_In. auto.
Qed.

Lemma in_map_fst_flags (acc : list (sample * bool)) x :
  In x (map fst acc) <-> In (x, false) acc \/ In (x, true) acc.
Proof.
  rewrite in_map_iff. split.
  - intros [[y f] [Hy Hin]]. simpl in Hy. subst y. destruct f; auto.
  - intros [H|H]; eexists; split; try exact H; reflexivity.
Qed.

Lemma commit_good c m acc :
  Inv (m_fs m) -> wf_op (m_fs m) (Commit acc) -> op_good c m (Commit acc).
Proof.
  intros I W. unfold op_good. cbn [op_trace spec_step step_lo step_hi]. set (s := m_fs m) in *.
  unfold commit_trace. destruct acc as [|a0 acc0] eqn:Eacc.
  { split; [exact I|]. split; [intros x; simpl; rewrite app_nil_r; tauto|].
    intros j. rewrite firstn_nil. simpl. rewrite app_nil_r. split; intros x Hx; exact Hx. }
  rewrite <- Eacc in *. clear Eacc a0 acc0.
  (* a crash shows the old set, the in-order samples added, or all accepted samples added *)
  set (P := fun t => subset (visible s) (visible t) /\ subset (visible t) (visible s ++ map fst acc)).
  assert (P0 : P s) by (split; intros x Hx; [exact Hx|apply in_app_iff; auto]).
  remember (map fst (filter (fun p : sample * bool => snd p) acc)) as l eqn:Dl.
  assert (Hacc : forall x, In x (map fst acc) <-> In (x, false) acc \/ In x l)
    by (intros x; rewrite Dl, in_ooo_part; apply in_map_fst_flags).
  set (s1 := apply s (WalWrite (RSamples acc))).
  assert (I1 : Inv s1) by (apply inv_walwrite; [exact I | intros; reflexivity]).
  assert (V1 : forall x, In x (visible s1) <-> In x (visible s) \/ In (x, false) acc)
    by (intros x; apply visible_walwrite_samples; assumption).
  assert (P1 : P s1).
  { split; intros x Hx; [apply V1; auto|]. apply V1 in Hx. rewrite in_app_iff, Hacc. destruct Hx; auto. }
  assert (Hl : forall y, In y l -> covered (head_tombs s1) y = false).
  { intros y Hy. unfold s1. rewrite (head_tombs_walwrite s _ I). simpl. rewrite app_nil_r.
    rewrite Dl in Hy. apply in_ooo_part in Hy. apply (W y true Hy). }
  cbn [durable fold_left]. fold s1. destruct l as [|y0 l0] eqn:El.
  - (* no out-of-order sample: one step *)
    split; [exact I1|]. split; [|exact (along_cons P s _ _ P0 (along_nil P s1 P1))].
    intros x. cbn [durable fold_left]. rewrite V1, in_app_iff, Hacc.
    split; [intros [H|H]; auto|intros [H|[H|[]]]; auto].
  - rewrite <- El in *. cbn [durable fold_left]. split; [apply inv_wblwrite; assumption|].
    assert (E2 : same_set (visible (apply s1 (WblWrite l))) (visible s ++ map fst acc)).
    { intros x. rewrite (visible_wblwrite s1 l x Hl), V1, in_app_iff, Hacc. apply or_assoc. }
    split; [exact E2|].
    refine (along_cons P s _ _ P0 (along_cons P s1 _ _ P1 (along_nil P _ _))).
    split; intros x Hx; apply E2; [apply in_app_iff; left|]; exact Hx.
Qed.

Lemma list_min_le l d x : In x l -> list_min l d <= x.
Proof. exact (fold_min_le (fun z => z) d l x). Qed.
Lemma list_max_ge l d x : In x l -> x <= list_max l d.
Proof. exact (fold_max_ge (fun z => z) d l x). Qed.

(* every id and parent id in the directory is below [k]; block ids are numbered in creation order *)
Definition Above (s : fs) (k : Z) : Prop := forall x, In x (ids_of (f_blk s)) -> x < k.

Lemma above_fresh s : Above s (fresh s).
Proof.
  intros x H. unfold fresh.
  assert (G : x <= fold_right Z.max 0 (ids_of (f_blk s) ++ ids_of (f_tmp s) ++ ids_of (f_del s)))
    by (apply (fold_max_ge (fun z => z)), in_app_iff; auto).
  lia.
Qed.
Lemma above_id s k b : Above s k -> In b (f_blk s) -> b_id b < k.
Proof. intros A H. apply A. apply in_app_iff. left. apply in_map. exact H. Qed.
Lemma above_parent s k p : Above s k -> In p (parents_of (f_blk s)) -> p < k.
Proof. intros A H. apply A. apply in_app_iff. right. exact H. Qed.

Lemma without_fresh id l : (forall b, In b l -> b_id b <> id) -> without id l = l.
Proof.
  intros H. unfold without. apply filter_all. intros b Hb. unfold has_id.
  apply negb_true_iff. apply Z.eqb_neq. apply H. exact Hb.
Qed.

Lemma with_id_fresh id l : (forall b, In b l -> b_id b <> id) -> with_id id l = [].
Proof.
  intros H. apply filter_none. intros b Hb. apply Z.eqb_neq, H, Hb.
Qed.

Definition mv_of (bs : list blk) : Z :=
  fold_right (fun b a => if b_ooo b then a else Z.max (b_maxt b) a) minInt64 bs.

Lemma min_valid_mv s : Inv s -> min_valid s = mv_of (f_blk s).
Proof. intros I. unfold min_valid. rewrite (live_all s I). reflexivity. Qed.

Lemma mv_of_app l b :
  mv_of (l ++ [b]) = if b_ooo b then mv_of l else Z.max (b_maxt b) (mv_of l).
Proof.
  induction l as [|a l IH]; simpl.
  - destruct (b_ooo b); reflexivity.
  - rewrite IH. destruct (b_ooo a), (b_ooo b); try reflexivity. lia.
Qed.

Lemma mv_of_ge l : minInt64 <= mv_of l.
Proof. induction l as [|a l IH]; simpl; [lia|]. destruct (b_ooo a); lia. Qed.

Lemma parents_of_app a b : parents_of (a ++ b) = parents_of a ++ parents_of b.
Proof. unfold parents_of. apply flat_map_app. Qed.

Definition add_block (s : fs) (b : blk) : fs :=
  mkFs (f_wal s) (f_cp s) (f_cptmp s) (f_wbl s) (f_blk s ++ [b]) [] (f_del s).
Definition wr (b : blk) : list fsop := [TmpFill b; BlkRename (b_id b)].

Lemma write_block_state s b :
  f_tmp s = [] -> (forall b', In b' (f_blk s) -> b_id b' <> b_id b) -> durable s (wr b) = add_block s b.
Proof.
  intros Ht Hid. cbn [wr durable fold_left apply f_wal f_cp f_cptmp f_wbl f_blk f_tmp f_del].
  rewrite Ht. unfold add_block. f_equal.
  - rewrite without_fresh by exact Hid.
    f_equal. unfold with_id, without. simpl. unfold has_id. rewrite Z.eqb_refl. reflexivity.
  - unfold without. simpl. unfold has_id. rewrite Z.eqb_refl. reflexivity.
Qed.

(* a crash inside a block write shows the old directory or the new block *)
Lemma write_block_along s0 s b :
  f_tmp s = [] -> (forall b', In b' (f_blk s) -> b_id b' <> b_id b) ->
  same_set (visible s) (visible s0) -> same_set (visible (add_block s b)) (visible s0) ->
  along (fun t => same_set (visible t) (visible s0)) s (wr b).
Proof.
  intros Ht Hid H0 H1. apply along_cons; [exact H0|]. apply along_cons; [rewrite tmpfill_invisible; exact H0|].
  apply along_nil. change (same_set (visible (durable s (wr b))) (visible s0)).
  rewrite write_block_state; assumption.
Qed.

Lemma inv_add_block s b k :
  Inv s -> Above s k -> b_id b = k ->
  (forall p, In p (b_parents b) -> p < k) ->
  (forall b', In b' (f_blk s) -> ~ In (b_id b') (b_parents b)) ->
  (forall x, In x (b_data b) -> b_mint b <= s_t x < b_maxt b) ->
  Inv (add_block s b).
Proof.
  intros I A Hid Hp Hnp Hr. constructor; simpl; try apply I.
  - intros b' Hb'. rewrite parents_of_app. unfold parents_of at 2. simpl. rewrite app_nil_r.
    rewrite in_app_iff. apply in_app_iff in Hb'. destruct Hb' as [Hb'|[Hb'|[]]].
    + intros [H|H]; [apply (i_live s I b' Hb' H)|apply (Hnp b' Hb' H)].
    + subst b'. intros [H|H]; [apply (above_parent s k) in H; [lia|exact A]|apply Hp in H; lia].
  - rewrite map_app. simpl. apply NoDup_snoc; [apply I|].
    intros Hin. apply in_map_iff in Hin. destruct Hin as [b' [E Hb']]. apply (above_id s k) in Hb'; [lia|exact A].
  - intros b' x Hb' Hx. apply in_app_iff in Hb'. destruct Hb' as [Hb'|[Hb'|[]]].
    + apply (i_range s I b' x Hb' Hx).
    + subst b'. apply Hr. exact Hx.
  - reflexivity.
Qed.

Lemma above_add_block s b k :
  Above s k -> b_id b = k -> (forall p, In p (b_parents b) -> p < k) -> Above (add_block s b) (k + 1).
Proof.
  intros A Hid Hp x Hx. unfold ids_of in Hx. cbn [add_block f_blk] in Hx.
  rewrite map_app, parents_of_app, !in_app_iff in Hx. unfold parents_of at 2 in Hx. simpl in Hx. rewrite app_nil_r in Hx.
  assert (Hlt : forall y, In y (ids_of (f_blk s)) -> y < k + 1) by (intros y Hy; apply A in Hy; lia).
  destruct Hx as [[Hx|[Hx|[]]]|[Hx|Hx]]; [apply Hlt, in_app_iff; auto|lia|apply Hlt, in_app_iff; auto|apply Hp in Hx; lia].
Qed.

Lemma in_visible_inv s x :
  Inv s ->
  (In x (visible s) <->
   In x (flat_map blk_vis (f_blk s)) \/
   (((In (x, false) (wal_samples s) /\ mv_of (f_blk s) <= s_t x) \/ In x (ooo s)) /\
    covered (head_tombs s) x = false)).
Proof.
  intros I. rewrite in_visible, in_head_io, (live_all s I), (min_valid_mv s I). tauto.
Qed.

Lemma in_visible_add_block s b x :
  Inv s -> Inv (add_block s b) ->
  (In x (visible (add_block s b)) <->
   In x (flat_map blk_vis (f_blk s)) \/ In x (blk_vis b) \/
   (((In (x, false) (wal_samples s) /\ mv_of (f_blk s ++ [b]) <= s_t x) \/ In x (ooo s)) /\
    covered (head_tombs s) x = false)).
Proof.
  intros I I2. rewrite (in_visible_inv _ x I2). cbn [add_block f_blk].
  rewrite flat_map_app, in_app_iff. cbn [flat_map]. rewrite app_nil_r. apply or_assoc.
Qed.

Lemma cut_head_good c m mint maxt :
  Inv (m_fs m) -> op_good c m (CutHead mint maxt).
Proof.
  intros I. apply quiet_good; [exact Logic.I|]. cbn [op_trace]. set (s := m_fs m) in *.
  unfold cut_head_trace.
  set (data := filter (fun x => (s_t x <? maxt) && negb (covered (head_tombs s) x)) (head_io s)).
  destruct data as [|d0 data0] eqn:Ed; [split; [exact I|apply along_nil, same_set_refl]|].
  rewrite <- Ed in *. clear Ed d0 data0. cbv zeta.
  set (b := mkBlk (fresh s) (list_min (map s_t data) mint) maxt false [] data []).
  assert (Hdata : forall x, In x data <->
            In (x, false) (wal_samples s) /\ mv_of (f_blk s) <= s_t x /\ s_t x < maxt /\ covered (head_tombs s) x = false).
  { intros x. unfold data. rewrite filter_In, in_head_io, (min_valid_mv s I), andb_true_iff, negb_true_iff, Z.ltb_lt. apply and_assoc. }
  assert (Hid : forall b', In b' (f_blk s) -> b_id b' <> b_id b).
  { intros b' Hb'. apply (above_id s _ b' (above_fresh s)) in Hb'. cbn [b_id b]. lia. }
  assert (I2 : Inv (add_block s b)).
  { apply (inv_add_block s b (fresh s) I (above_fresh s) eq_refl); [intros p []|intros b' _ []|].
    intros x Hx. simpl. split.
    - apply list_min_le. apply in_map. exact Hx.
    - apply Hdata in Hx. lia. }
  (* the block takes over the head samples below [maxt]; the replay horizon rises to [maxt] *)
  assert (V2 : same_set (visible (add_block s b)) (visible s)).
  { intros x. rewrite (in_visible_add_block s b x I I2), (in_visible_inv s x I), in_blk_vis, mv_of_app.
    cbn [b_ooo b_maxt b_data b_tomb b covered existsb]. rewrite Hdata.
    assert (Hmax : Z.max maxt (mv_of (f_blk s)) <= s_t x -> mv_of (f_blk s) <= s_t x) by lia. split.
    - intros [H|[[[H1 [H2 [_ H3]]] _]|[[[H1 H2]|H1] H3]]]; auto 6.
    - intros [H|[[[H1 H2]|H1] H3]]; auto 6.
      destruct (Z.lt_ge_cases (s_t x) maxt); [auto 8|]. right. right. split; [left; split; [exact H1|lia]|exact H3]. }
  change [TmpFill b; BlkRename (b_id b)] with (wr b). split.
  - rewrite write_block_state by (apply I || exact Hid). exact I2.
  - apply write_block_along; [apply I|exact Hid|apply same_set_refl|exact V2].
Qed.

Lemma covered_true tbs x : covered tbs x = true <-> exists tb, In tb tbs /\ covers tb x = true.
Proof. unfold covered. apply existsb_exists. Qed.

Lemma covered_mono t1 t2 x :
  (forall tb, In tb t1 -> In tb t2) -> covered t2 x = false -> covered t1 x = false.
Proof.
  intros H H2. destruct (covered t1 x) eqn:E; [|reflexivity].
  apply covered_true in E. destruct E as [tb [Hin Hc]].
  assert (covered t2 x = true) by (apply covered_true; exists tb; auto). congruence.
Qed.

Lemma covers_iff i a b x : covers (i, a, b) x = true <-> i = s_sid x /\ a <= s_t x <= b.
Proof. unfold covers. rewrite !andb_true_iff, Z.eqb_eq, !Z.leb_le. tauto. Qed.

Lemma matches_iff mint maxt sel x :
  matches mint maxt sel x = true <-> In (s_sid x) sel /\ mint <= s_t x <= maxt.
Proof. unfold matches. rewrite !andb_true_iff, memZ_In, !Z.leb_le. tauto. Qed.

Section DeleteProofs.
Variables (mint maxt : Z) (sel : list Z).
Let stones := map (fun i => (i, mint, maxt)) sel.

Lemma covered_stones x : covered stones x = matches mint maxt sel x.
Proof.
  apply eq_true_iff_eq. rewrite covered_true, matches_iff. unfold stones. split.
  - intros [tb [Hin Hc]]. apply in_map_iff in Hin as [i [<- Hi]]. apply covers_iff in Hc as [-> Hc]. auto.
  - intros [H1 H2]. exists (s_sid x, mint, maxt). split; [apply (in_map (fun i => (i, mint, maxt))), H1|apply covers_iff; auto].
Qed.

(* Head.Delete clamps the request to the series' in-order time range: its tombstones cover
   nothing the request does not select, and every selected in-order head sample *)
Lemma head_stones_only s x :
  covered (head_stones s mint maxt sel) x = true -> matches mint maxt sel x = true.
Proof.
  intros H. apply covered_true in H as [tb [Hin Hc]]. apply in_flat_map in Hin as [i [Hi Hin]].
  destruct (io_times s i) as [|t0 ts]; [contradiction|]. cbv zeta in Hin.
  revert Hin. destruct (_ <=? _); [|contradiction]. intros [<-|[]].
  apply covers_iff in Hc as [-> Hc]. apply matches_iff. split; [exact Hi|lia].
Qed.

Lemma head_stones_cover s x :
  In x (head_io s) -> matches mint maxt sel x = true -> covered (head_stones s mint maxt sel) x = true.
Proof.
  intros Hx Hm. apply matches_iff in Hm as [H1 H2].
  assert (Ht : In (s_t x) (io_times s (s_sid x))).
  { unfold io_times. apply in_map. apply filter_In. split; [exact Hx|apply Z.eqb_refl]. }
  apply covered_true.
  destruct (io_times s (s_sid x)) as [|t0 ts] eqn:E; [contradiction|].
  assert (Hlo : fold_right Z.min maxInt64 (t0 :: ts) <= s_t x) by (apply (fold_min_le (fun z => z)); exact Ht).
  assert (Hhi : s_t x <= fold_right Z.max minInt64 (t0 :: ts)) by (apply (fold_max_ge (fun z => z)); exact Ht).
  eexists. split.
  - apply in_flat_map. exists (s_sid x). split; [exact H1|]. rewrite E. cbv zeta.
    destruct (_ <=? _) eqn:El; [left; reflexivity|apply Z.leb_gt in El; lia].
  - apply covers_iff. split; [reflexivity|lia].
Qed.

Variable s : fs.
Hypothesis I : Inv s.
Hypothesis W : forall x, In x (ooo s) -> matches mint maxt sel x = false.
Let blks := filter (fun b => overlaps b mint maxt) (live s).
Let hs := head_stones s mint maxt sel.

Definition retomb (D : list Z) (b : blk) : blk :=
  set_tomb (b_tomb b ++ if memZ (b_id b) D then stones else []) b.

Definition step_of (tg : target) : list fsop :=
  match tg with
  | THead => [WalWrite (RTomb hs)]
  | TBlk id => map (fun b => BlkTomb id (b_tomb b ++ stones)) (with_id id blks)
  end.

Definition Dset (T : list target) : list Z :=
  flat_map (fun tg => match tg with TBlk id => map b_id (with_id id blks) | THead => [] end) T.
Definition Htomb (T : list target) : list tomb :=
  flat_map (fun tg => match tg with THead => hs | TBlk _ => [] end) T.

(* the state reached after the steps of the targets T, in any order and multiplicity *)
Record Track (t : fs) (T : list target) : Prop := mkTrack {
  t_inv : Inv t;
  t_blk : f_blk t = map (retomb (Dset T)) (f_blk s);
  t_tombs : head_tombs t = head_tombs s ++ Htomb T;
  t_samples : wal_samples t = wal_samples s;
  t_ooo : ooo t = ooo s
}.

Lemma retomb_nil b : retomb [] b = b.
Proof. destruct b. unfold retomb, set_tomb. simpl. rewrite app_nil_r. reflexivity. Qed.

Lemma mv_of_retomb D l : mv_of (map (retomb D) l) = mv_of l.
Proof. induction l as [|a l IH]; simpl; [reflexivity|]. rewrite IH. reflexivity. Qed.

Lemma blk_vis_retomb D b x :
  In x (blk_vis (retomb D b)) <-> In x (blk_vis b) /\ memZ (b_id b) D && matches mint maxt sel x = false.
Proof.
  rewrite !in_blk_vis. cbn [retomb set_tomb b_data b_tomb]. rewrite covered_app, orb_false_iff.
  destruct (memZ (b_id b) D); [rewrite covered_stones|]; simpl; tauto.
Qed.

Lemma track_start : Track s [].
Proof.
  constructor; simpl; auto.
  - rewrite (map_ext _ _ retomb_nil), map_id. reflexivity.
  - rewrite app_nil_r. reflexivity.
Qed.

Lemma blks_in b : In b blks -> In b (f_blk s) /\ overlaps b mint maxt = true.
Proof. unfold blks. rewrite (live_all s I), filter_In. tauto. Qed.

Lemma Dset_nochange T id : with_id id blks = [] -> Dset (T ++ [TBlk id]) = Dset T.
Proof. intros H. unfold Dset. rewrite flat_map_app. simpl. rewrite H. simpl. rewrite app_nil_r. reflexivity. Qed.

Lemma track_blk_step t T id b0 :
  Track t T -> In b0 (with_id id blks) ->
  Track (apply t (BlkTomb id (b_tomb b0 ++ stones))) (T ++ [TBlk id]).
Proof.
  intros Tr Hb0. pose proof (t_inv t T Tr) as It.
  assert (EB : f_blk (apply t (BlkTomb id (b_tomb b0 ++ stones))) = map (retomb (Dset (T ++ [TBlk id]))) (f_blk s)).
  { cbn [apply f_blk]. rewrite (t_blk t T Tr), map_map. apply map_ext_in. intros b Hb.
    unfold Dset. rewrite flat_map_app. simpl. rewrite app_nil_r. fold (Dset T).
    unfold retomb at 4. rewrite memZ_app. unfold has_id. cbn [retomb set_tomb b_id].
    destruct (Z.eqb_spec (b_id b) id) as [E|E].
    - (* the block with this id is [b0]: its tombstones are replaced *)
      pose proof (proj1 (filter_In _ _ _) Hb0) as [Hbl Hid]. apply Z.eqb_eq in Hid.
      replace b0 with b in *
        by (apply (NoDup_map_inj b_id (f_blk s)); [apply I|exact Hb|apply blks_in, Hbl|congruence]).
      rewrite (proj2 (memZ_In _ _) (in_map b_id _ _ Hb0)), orb_true_r. reflexivity.
    - replace (memZ (b_id b) (map b_id (with_id id blks))) with false; [rewrite orb_false_r; reflexivity|].
      symmetry. apply memZ_false. intros H. apply in_map_iff in H as [b' [E' Hb']].
      apply filter_In in Hb' as [_ Hh]. apply Z.eqb_eq in Hh. congruence. }
  constructor.
  - (* only tombstone files change: what [Inv] says of the blocks is read off the old ones *)
    constructor; try apply It; rewrite EB.
    + intros b Hb. apply in_map_iff in Hb as [b' [<- Hb']].
      unfold parents_of. rewrite flat_map_concat_map, map_map, <- flat_map_concat_map.
      exact (i_live s I b' Hb').
    + rewrite map_map. exact (i_nodup s I).
    + intros b x Hb. apply in_map_iff in Hb as [b' [<- Hb']]. exact (i_range s I b' x Hb').
  - exact EB.
  - change (head_tombs (apply t (BlkTomb id (b_tomb b0 ++ stones)))) with (head_tombs t).
    rewrite (t_tombs t T Tr). unfold Htomb. rewrite flat_map_app. simpl. rewrite !app_nil_r. reflexivity.
  - change (wal_samples (apply t (BlkTomb id (b_tomb b0 ++ stones)))) with (wal_samples t). apply Tr.
  - change (ooo (apply t (BlkTomb id (b_tomb b0 ++ stones)))) with (ooo t). apply Tr.
Qed.

Lemma track_head_step t T :
  Track t T -> Track (apply t (WalWrite (RTomb hs))) (T ++ [THead]).
Proof.
  intros Tr. pose proof (t_inv t T Tr) as It.
  constructor.
  - apply inv_walwrite; [exact It|]. intros x Hx. simpl. rewrite (t_ooo t T Tr) in Hx.
    destruct (covered hs x) eqn:E; [|reflexivity]. apply head_stones_only in E. rewrite (W x Hx) in E. discriminate.
  - cbn [apply f_blk]. rewrite (t_blk t T Tr). unfold Dset. rewrite flat_map_app. simpl. rewrite app_nil_r. reflexivity.
  - rewrite (head_tombs_walwrite t _ It), (t_tombs t T Tr). unfold Htomb. rewrite flat_map_app. simpl.
    rewrite !app_nil_r, app_assoc. reflexivity.
  - rewrite (wal_samples_walwrite t _ It). simpl. rewrite app_nil_r. apply Tr.
  - change (ooo (apply t (WalWrite (RTomb hs)))) with (ooo t). apply Tr.
Qed.

(* the steps a deletion may take, and the target each belongs to *)
Definition ok_step (o : fsop) : Prop :=
  o = WalWrite (RTomb hs) \/ exists id b0, In b0 (with_id id blks) /\ o = BlkTomb id (b_tomb b0 ++ stones).
Definition tgt_of (o : fsop) : target := match o with BlkTomb id _ => TBlk id | _ => THead end.

Lemma track_step t T o : Track t T -> ok_step o -> Track (apply t o) (T ++ [tgt_of o]).
Proof.
  intros Tr [->|[id [b0 [Hb0 ->]]]]; [apply track_head_step|apply track_blk_step]; assumption.
Qed.

Lemma track_run tr : forall t T, Track t T -> Forall ok_step tr -> Track (durable t tr) (T ++ map tgt_of tr).
Proof.
  induction tr as [|o tr IH]; intros t T Tr F; [rewrite app_nil_r; exact Tr|].
  inversion F as [|? ? Ho F']; subst. cbn [map].
  change (T ++ tgt_of o :: map tgt_of tr) with (T ++ [tgt_of o] ++ map tgt_of tr). rewrite app_assoc.
  apply (IH (apply t o)); [apply track_step; assumption|exact F'].
Qed.

Lemma delete_steps_ok T : Forall ok_step (flat_map step_of T).
Proof.
  induction T as [|tg T IH]; simpl; [constructor|]. apply Forall_app. split; [|exact IH].
  destruct tg as [|id]; simpl.
  - constructor; [left; reflexivity|constructor].
  - apply Forall_forall. intros o Ho. apply in_map_iff in Ho. destruct Ho as [b0 [E Hb0]].
    right. exists id, b0. split; [exact Hb0|]. symmetry. exact E.
Qed.

Lemma track_visible t T x :
  Track t T ->
  (In x (visible t) <->
   In x (flat_map (fun b => blk_vis (retomb (Dset T) b)) (f_blk s)) \/
   (((In (x, false) (wal_samples s) /\ mv_of (f_blk s) <= s_t x) \/ In x (ooo s)) /\
    covered (head_tombs s ++ Htomb T) x = false)).
Proof.
  intros Tr. rewrite (in_visible_inv t x (t_inv t T Tr)).
  rewrite (t_blk t T Tr), (t_tombs t T Tr), (t_samples t T Tr), (t_ooo t T Tr), mv_of_retomb.
  rewrite flat_map_concat_map, map_map, <- flat_map_concat_map. reflexivity.
Qed.

Lemma Htomb_only T x : covered (Htomb T) x = true -> matches mint maxt sel x = true.
Proof.
  intros H. apply covered_true in H. destruct H as [tb [Hin Hc]]. unfold Htomb in Hin.
  apply in_flat_map in Hin. destruct Hin as [tg [_ Hin]]. destruct tg; [|contradiction].
  apply head_stones_only with (s := s). apply covered_true. exists tb. auto.
Qed.

Lemma track_upper t T x : Track t T -> In x (visible t) -> In x (visible s).
Proof.
  intros Tr H. rewrite (track_visible t T x Tr) in H. rewrite (in_visible_inv s x I).
  destruct H as [H|[H1 H2]].
  - left. apply in_flat_map in H as [b [Hb Hx]]. apply in_flat_map. exists b. apply blk_vis_retomb in Hx. tauto.
  - right. rewrite covered_app in H2. apply orb_false_iff in H2. tauto.
Qed.

Lemma track_lower t T x :
  Track t T -> In x (visible s) -> matches mint maxt sel x = false -> In x (visible t).
Proof.
  intros Tr H Hm. rewrite (track_visible t T x Tr). rewrite (in_visible_inv s x I) in H.
  destruct H as [H|[H1 H2]].
  - left. apply in_flat_map in H as [b [Hb Hx]]. apply in_flat_map. exists b.
    rewrite blk_vis_retomb, Hm, andb_false_r. auto.
  - right. split; [exact H1|]. rewrite covered_app, H2. simpl.
    destruct (covered (Htomb T) x) eqn:E; [|reflexivity]. apply Htomb_only in E. congruence.
Qed.

(* once every overlapping block and, if it has anything to delete, the head have had their
   step, no selected sample is left *)
Lemma track_done t T x :
  Track t T -> (forall b, In b blks -> In (TBlk (b_id b)) T) -> (hs <> [] -> In THead T) ->
  In x (visible t) -> matches mint maxt sel x = false.
Proof.
  intros Tr HB HH Hx. destruct (matches mint maxt sel x) eqn:Hm; [exfalso|reflexivity].
  rewrite (track_visible t T x Tr) in Hx. destruct Hx as [Hx|[[[H1 H2]|H1] H3]].
  - (* in a block: it overlaps the interval, so its tombstone file was replaced *)
    apply in_flat_map in Hx as [b [Hb Hx]]. apply blk_vis_retomb in Hx as [Hx Hc].
    rewrite Hm, andb_true_r in Hc. apply memZ_false in Hc. apply Hc. apply in_blk_vis in Hx as [Hx _].
    assert (Hbl : In b blks).
    { unfold blks. rewrite (live_all s I). apply filter_In. split; [exact Hb|].
      pose proof (i_range s I b x Hb Hx) as R. apply matches_iff in Hm. unfold overlaps.
      rewrite andb_true_iff, Z.leb_le, Z.ltb_lt. lia. }
    apply in_flat_map. exists (TBlk (b_id b)). split; [apply HB, Hbl|].
    apply in_map, filter_In. split; [exact Hbl|apply Z.eqb_refl].
  - (* in the head: the tombstone record was logged *)
    assert (Hio : In x (head_io s)) by (apply in_head_io; rewrite (min_valid_mv s I); auto).
    pose proof (head_stones_cover s x Hio Hm) as Hcov. fold hs in Hcov.
    rewrite covered_app in H3. apply orb_false_iff in H3 as [_ H3].
    apply covered_true in Hcov as [tb [Htb Hc]].
    assert (Hcov : covered (Htomb T) x = true); [|congruence].
    apply covered_true. exists tb. split; [|exact Hc]. apply in_flat_map. exists THead.
    split; [|exact Htb]. apply HH. intros E. rewrite E in Htb. exact Htb.
  - rewrite (W x H1) in Hm. discriminate.
Qed.

End DeleteProofs.

Lemma target_eqb_eq a b : target_eqb a b = true <-> a = b.
Proof.
  destruct a, b; simpl; split; intros H; try congruence; try discriminate.
  - apply Z.eqb_eq in H. congruence.
  - apply Z.eqb_eq. congruence.
Qed.

Lemma memT_In x l : memT x l = true <-> In x l.
Proof. apply (existsb_eqb_In target_eqb target_eqb_eq). Qed.

Lemma dedupT_In x l : In x (dedupT l) <-> In x l.
Proof.
  induction l as [|a l IH]; simpl; [reflexivity|]. rewrite filter_In, IH. split.
  - intros [H|[H _]]; auto.
  - intros [H|H]; auto. destruct (target_eqb a x) eqn:E.
    + apply target_eqb_eq in E. auto.
    + right. split; [exact H|]. reflexivity.
Qed.

Lemma sched_In order all x : In x (sched order all) <-> In x all.
Proof.
  unfold sched. rewrite in_app_iff, !filter_In, dedupT_In, memT_In, negb_true_iff. split.
  - intros [[_ H]|[H _]]; exact H.
  - intros H. destruct (memT x order) eqn:E.
    + left. split; [apply memT_In; exact E|exact H].
    + right. auto.
Qed.

Lemma delete_good c m mint maxt sel order :
  Inv (m_fs m) -> wf_op (m_fs m) (Delete mint maxt sel order) -> op_good c m (Delete mint maxt sel order).
Proof.
  intros I W. unfold op_good. cbn [op_trace spec_step step_lo step_hi wf_op] in *. set (s := m_fs m) in *.
  set (blks := filter (fun b => overlaps b mint maxt) (live s)).
  set (hs := head_stones s mint maxt sel).
  set (all := map (fun b => TBlk (b_id b)) blks ++ (if memT THead order || negb (is_nil hs) then [THead] else [])).
  change (delete_trace s mint maxt sel order) with (flat_map (step_of mint maxt sel s) (sched order all)).
  set (tr := flat_map (step_of mint maxt sel s) (sched order all)).
  pose proof (track_start mint maxt sel s I) as Tr0.
  pose proof (delete_steps_ok mint maxt sel s (sched order all)) as Hok. fold tr in Hok.
  pose proof (track_run mint maxt sel s I W tr s [] Tr0 Hok) as TrF. cbn [app] in TrF.
  (* every target has at least one step in the trace *)
  assert (Hran : forall tg o, In tg all -> In o (step_of mint maxt sel s tg) -> In (tgt_of o) (map tgt_of tr)).
  { intros tg o Htg Ho. apply in_map, in_flat_map. exists tg. split; [apply sched_In, Htg|exact Ho]. }
  split; [apply TrF|]. split.
  - intros x. rewrite filter_In, negb_true_iff. split.
    + intros Hx. split; [apply (track_upper mint maxt sel s I _ _ x TrF Hx)|].
      apply (track_done mint maxt sel s I W _ _ x TrF); [| |exact Hx].
      * intros b Hb. eapply (Hran (TBlk (b_id b)) (BlkTomb (b_id b) _)).
        -- apply in_app_iff. left. apply (in_map (fun b => TBlk (b_id b))), Hb.
        -- cbn [step_of]. apply in_map_iff. exists b. split; [reflexivity|].
           apply filter_In. split; [exact Hb|apply Z.eqb_refl].
      * intros Hne. apply (Hran THead (WalWrite (RTomb hs))); [|left; reflexivity].
        apply in_app_iff. right. fold hs in Hne. destruct hs; [congruence|]. rewrite orb_true_r. left. reflexivity.
    + intros [Hx Hm]. apply (track_lower mint maxt sel s I _ _ x TrF Hx Hm).
  - assert (Al : along (fun t => exists T, Track mint maxt sel s t T) s tr).
    { apply (along_steps _ (ok_step mint maxt sel s)); [|exists []; exact Tr0|exact Hok].
      intros t o [T Tr] Ho. eexists. apply (track_step mint maxt sel s I W); eassumption. }
    intros j. destruct (Al j) as [Tj Trj]. split; intros x Hx.
    + apply filter_In in Hx. destruct Hx as [Hx Hm]. apply negb_true_iff in Hm.
      apply (track_lower mint maxt sel s I _ Tj x Trj Hx Hm).
    + apply (track_upper mint maxt sel s I _ Tj x Trj Hx).
Qed.

Lemma last_idx_ge {A} (l : list (Z * A)) p : In p l -> fst p <= last_idx l.
Proof. apply (fold_max_ge fst). Qed.

Lemma first_idx_le {A} (l : list (Z * A)) p : In p l -> first_idx l <= fst p.
Proof.
  destruct l as [|a l]; [contradiction|]. intros [<-|H]; [apply fold_min_le_init|apply (fold_min_le fst), H].
Qed.

Lemma first_idx_gt {A} (l : list (Z * A)) n : l <> [] -> (forall p, In p l -> n < fst p) -> n < first_idx l.
Proof.
  destruct l as [|a l]; [congruence|]. intros _ H.
  apply fold_min_gt; [apply H; left; reflexivity|intros p Hp; apply H; right; exact Hp].
Qed.

Lemma wal_recs_newseg s : wal_recs (apply s WalNewSeg) = wal_recs s.
Proof.
  unfold wal_recs. simpl. unfold new_seg. destruct (max_cp (f_cp s)) as [[n rs]|].
  - rewrite filter_app, flat_map_app. simpl. destruct (n <? last_idx (f_wal s) + 1); simpl; rewrite app_nil_r; reflexivity.
  - rewrite flat_map_app. simpl. rewrite app_nil_r. reflexivity.
Qed.

Lemma inv_newseg s : Inv s -> Inv (apply s WalNewSeg).
Proof.
  intros I. constructor; try apply I.
  - simpl. unfold new_seg. intros H. apply app_eq_nil in H. destruct H as [_ H]. discriminate.
  - simpl. destruct (i_cp s I) as [H|[n [rs [H Hn]]]]; [left; exact H|]. right. exists n, rs. split; [exact H|].
    intros p Hp. unfold new_seg in Hp. apply in_app_iff in Hp. destruct Hp as [Hp|[Hp|[]]]; [apply Hn; exact Hp|].
    subst p. simpl. destruct (f_wal s) as [|q l] eqn:E; [exfalso; apply (i_wal_ne s I E)|].
    pose proof (Hn q (or_introl eq_refl)). pose proof (last_idx_ge (q :: l) q (or_introl eq_refl)). lia.
  - intros x Hx. unfold head_tombs. rewrite wal_recs_newseg. apply (i_ooo s I x Hx).
Qed.

(* wlog.Checkpoint keeps the samples and the tombstones that reach [mint] *)
Lemma cp_filter_samples mint A :
  flat_map rec_samples (cp_filter mint A) = filter (fun p => mint <=? s_t (fst p)) (flat_map rec_samples A).
Proof.
  induction A as [|[l|l] A IH]; simpl; [reflexivity| |exact IH]. rewrite filter_app, IH. reflexivity.
Qed.
Lemma cp_filter_tombs mint A :
  flat_map rec_tombs (cp_filter mint A) = filter (fun tb : tomb => mint <=? snd tb) (flat_map rec_tombs A).
Proof.
  induction A as [|[l|l] A IH]; simpl; [reflexivity|exact IH|]. rewrite filter_app, IH. reflexivity.
Qed.

Lemma in_filter_app {A} (g : A -> bool) a b y :
  In y (filter g a ++ b) <-> In y (a ++ b) /\ (g y = true \/ In y b).
Proof. rewrite !in_app_iff, filter_In. tauto. Qed.

Lemma flat_map_same {A B} (f : A -> list B) l l' :
  (forall r, In r l <-> In r l') -> forall y, In y (flat_map f l) <-> In y (flat_map f l').
Proof.
  intros H y. rewrite !in_flat_map. split; intros [r [Hr Hy]]; exists r; (split; [apply H; exact Hr|exact Hy]).
Qed.

(* Replacing a part [A] of the log by its checkpoint at [mint] <= minValidTime changes nothing
   a reopened database shows: what the checkpoint drops lies below the replay horizon. *)
Lemma checkpoint_invisible mint s t A B :
  Inv s -> mint <= min_valid s -> f_blk t = f_blk s -> f_wbl t = f_wbl s ->
  wal_recs t = cp_filter mint A ++ B -> (forall r, In r (wal_recs s) <-> In r (A ++ B)) ->
  same_set (visible t) (visible s) /\ (forall x, In x (ooo t) -> covered (head_tombs t) x = false).
Proof.
  intros I Hm Eb Ew Et Es.
  assert (Eo : ooo t = ooo s) by (unfold ooo; rewrite Ew; reflexivity).
  assert (S : forall y, In y (wal_samples t) <-> In y (wal_samples s) /\ (mint <= s_t (fst y) \/ In y (flat_map rec_samples B))).
  { intros y. unfold wal_samples.
    rewrite (flat_map_same _ _ _ Es y), Et, !flat_map_app, cp_filter_samples, in_filter_app, Z.leb_le. reflexivity. }
  assert (T : forall tb, In tb (head_tombs t) <-> In tb (head_tombs s) /\ (mint <= snd tb \/ In tb (flat_map rec_tombs B))).
  { intros tb. unfold head_tombs.
    rewrite (flat_map_same _ _ _ Es tb), Et, !flat_map_app, cp_filter_tombs, in_filter_app, Z.leb_le. reflexivity. }
  assert (C1 : forall x, covered (head_tombs s) x = false -> covered (head_tombs t) x = false).
  { intros x. apply covered_mono. intros tb Htb. apply T, Htb. }
  (* a tombstone that covers a sample at or above [mint] ends at or above [mint]: it is kept *)
  assert (C2 : forall x, mint <= s_t x -> covered (head_tombs t) x = false -> covered (head_tombs s) x = false).
  { intros x Hx H. destruct (covered (head_tombs s) x) eqn:E; [|reflexivity].
    apply covered_true in E as [[[i a] b] [H1 H2]]. enough (covered (head_tombs t) x = true) by congruence. apply covered_true. exists (i, a, b).
    split; [|exact H2]. apply T. split; [exact H1|]. left. apply covers_iff in H2. simpl. lia. }
  split.
  - intros x. rewrite !in_visible, !in_head_io, (live_blk t s Eb), (min_valid_blk t s Eb), Eo, S. cbn [fst].
    specialize (C1 x). specialize (C2 x). pose proof (i_ooo s I x) as Ho. split.
    + intros [H|[[[[H1 _] H2]|H1] H3]]; auto. right. split; [auto|]. apply C2; [lia|exact H3].
    + intros [H|[[[H1 H2]|H1] H3]]; auto. right. split; [|auto]. left. split; [split; [exact H1|left; lia]|exact H2].
  - intros x Hx. rewrite Eo in Hx. apply C1, (i_ooo s I x Hx).
Qed.

Fixpoint drops {A} (R : list Z) (l : list (Z * A)) : list (Z * A) :=
  match R with [] => l | i :: R' => drops R' (drop_idx i l) end.

Lemma drops_filter {A} R (l : list (Z * A)) : drops R l = filter (fun p => negb (memZ (fst p) R)) l.
Proof.
  revert l. induction R as [|i R IH]; intros l; cbn [drops]; [symmetry; apply filter_all; reflexivity|].
  rewrite IH. unfold drop_idx. rewrite filter_filter. apply filter_ext. intros p. symmetry. apply negb_orb.
Qed.

Lemma in_drops {A} R (l : list (Z * A)) p : In p (drops R l) <-> In p l /\ ~ In (fst p) R.
Proof. rewrite drops_filter, filter_In, negb_true_iff, memZ_false. reflexivity. Qed.

Lemma filter_drops {A} (f : Z * A -> bool) R (l : list (Z * A)) :
  (forall p, In (fst p) R -> f p = false) -> filter f (drops R l) = filter f l.
Proof.
  intros H. rewrite drops_filter, filter_filter. apply filter_ext. intros p.
  destruct (memZ (fst p) R) eqn:E; [|reflexivity]. symmetry. apply H, memZ_In, E.
Qed.

Lemma durable_walremoves s R :
  durable s (map WalRemove R) =
  mkFs (drops R (f_wal s)) (f_cp s) (f_cptmp s) (f_wbl s) (f_blk s) (f_tmp s) (f_del s).
Proof.
  revert s. induction R as [|i R IH]; intros s; [destruct s; reflexivity|].
  cbn [map durable fold_left]. change (fold_left apply (map WalRemove R) (apply s (WalRemove i))) with (durable (apply s (WalRemove i)) (map WalRemove R)).
  rewrite IH. reflexivity.
Qed.

Lemma durable_cpremoves s Q :
  durable s (map CpRemove Q) =
  mkFs (f_wal s) (drops Q (f_cp s)) (f_cptmp s) (f_wbl s) (f_blk s) (f_tmp s) (f_del s).
Proof.
  revert s. induction Q as [|i Q IH]; intros s; [destruct s; reflexivity|].
  cbn [map durable fold_left]. change (fold_left apply (map CpRemove Q) (apply s (CpRemove i))) with (durable (apply s (CpRemove i)) (map CpRemove Q)).
  rewrite IH. reflexivity.
Qed.

Lemma max_cp_snoc l n K : (forall p, In p l -> fst p < n) -> max_cp (l ++ [(n, K)]) = Some (n, K).
Proof.
  induction l as [|a l IH]; intros H; [reflexivity|]. cbn [app max_cp].
  rewrite IH by (intros p Hp; apply H; right; exact Hp). cbn [fst].
  pose proof (H a (or_introl eq_refl)). destruct (Z.ltb_spec n (fst a)); [lia|reflexivity].
Qed.

(* Head.truncateWAL once the new segment exists: the segments up to [last], any index strictly
   between the first and the last of the old log, go into checkpoint.last; then they and the
   older checkpoints are removed one by one. *)
Section Truncate.
Variables (s : fs) (mint last : Z).
Hypothesis I : Inv s.
Hypothesis Hm : mint <= min_valid s.
Let W := f_wal s.
Hypothesis Hlo : first_idx W < last.
Hypothesis Hhi : last < last_idx W.
Let fb := match max_cp (f_cp s) with Some (n, rs) => (n + 1, rs) | None => (first_idx W, []) end.
Let src := snd fb ++ flat_map snd (filter (fun p => (fst fb <=? fst p) && (fst p <=? last)) W).
Let K := cp_filter mint src.
Let s3 := apply (apply (apply s WalNewSeg) (CpTmpWrite K)) (CpRename last).
Let kept := flat_map snd (filter (fun p : Z * list rec => last <? fst p) (new_seg W)).
Let RL := filter (fun i => i <=? last) (map fst W).
Let QL := filter (fun n => n <? last) (map fst (f_cp s)).

Lemma cp_below p : In p (f_cp s) -> fst p < last.
Proof.
  destruct (i_cp s I) as [E|[n [rs [E Hn]]]]; rewrite E; [intros []|]. intros [<-|[]]. cbn [fst].
  pose proof (first_idx_gt W n (i_wal_ne s I) Hn). lia.
Qed.

(* the checkpoint's source and the segments kept hold the records of the old log *)
Lemma trunc_records r : In r (wal_recs s) <-> In r (src ++ kept).
Proof.
  assert (Efb : snd fb = cp_recs s /\ forall p, In p W -> fst fb <= fst p).
  { unfold fb, cp_recs. destruct (i_cp s I) as [H|[n [rs [H Hn]]]]; rewrite H; simpl.
    - split; [reflexivity|]. intros p Hp. apply first_idx_le. exact Hp.
    - split; [reflexivity|]. intros p Hp. pose proof (Hn p Hp). lia. }
  destruct Efb as [Ecp Hfb].
  assert (Ek : kept = flat_map snd (filter (fun p => negb (fst p <=? last)) W)).
  { unfold kept, new_seg. rewrite filter_app, flat_map_app. cbn [filter fst].
    destruct (last <? last_idx W + 1); cbn [flat_map snd app]; rewrite app_nil_r;
      (f_equal; apply filter_ext; intros p; apply Z.ltb_antisym). }
  unfold src. rewrite (wal_recs_inv s I), Ecp, Ek, <- app_assoc, !in_app_iff.
  rewrite (in_flat_map_split snd (fun p => fst p <=? last) (f_wal s)).
  replace (filter (fun p => (fst fb <=? fst p) && (fst p <=? last)) W) with (filter (fun p => fst p <=? last) W); [reflexivity|].
  apply filter_ext_in. intros p Hp. rewrite (proj2 (Z.leb_le _ _) (Hfb p Hp)). reflexivity.
Qed.

(* the state after the rename, with the segments [R] and the checkpoints [Q] removed *)
Definition trunc_mid (R Q : list Z) : fs := durable (durable s3 (map WalRemove R)) (map CpRemove Q).

Lemma trunc_mid_eq R Q :
  trunc_mid R Q = mkFs (drops R (new_seg W)) (drops Q (f_cp s ++ [(last, K)])) None (f_wbl s) (f_blk s) (f_tmp s) (f_del s).
Proof.
  unfold trunc_mid. rewrite durable_cpremoves, durable_walremoves. cbn [f_wal f_cp f_cptmp f_wbl f_blk f_tmp f_del].
  replace (f_cp s3) with (f_cp s ++ [(last, K)]); [reflexivity|]. unfold s3. cbn [apply f_cp f_cptmp]. f_equal.
  symmetry. apply filter_all. intros p Hp. apply cp_below in Hp. apply negb_true_iff, Z.eqb_neq. lia.
Qed.

Lemma trunc_mid_ok R Q :
  (forall i, In i R -> i <= last) -> (forall q, In q Q -> q < last) ->
  same_set (visible (trunc_mid R Q)) (visible s) /\
  forall x, In x (ooo (trunc_mid R Q)) -> covered (head_tombs (trunc_mid R Q)) x = false.
Proof.
  intros HR HQ. rewrite trunc_mid_eq.
  apply (checkpoint_invisible mint s _ src kept I Hm); [reflexivity|reflexivity| |exact trunc_records].
  assert (Hl : memZ last Q = false) by (apply memZ_false; intros H; apply HQ in H; lia).
  unfold wal_recs. cbn [f_cp f_wal]. rewrite (drops_filter Q), filter_app. cbn [filter fst]. rewrite Hl. cbn [negb].
  rewrite max_cp_snoc by (intros p Hp; apply filter_In in Hp as [Hp _]; apply cp_below, Hp).
  f_equal. unfold kept. f_equal. apply filter_drops. intros p Hp. apply Z.ltb_ge, HR, Hp.
Qed.

Lemma RL_le i : In i RL -> i <= last.
Proof. intros H. apply filter_In in H as [_ H]. apply Z.leb_le, H. Qed.
Lemma QL_lt q : In q QL -> q < last.
Proof. intros H. apply filter_In in H as [_ H]. apply Z.ltb_lt, H. Qed.

Lemma trunc_end : Inv (trunc_mid RL QL).
Proof.
  destruct (trunc_mid_ok RL QL RL_le QL_lt) as [_ Hooo]. revert Hooo. rewrite trunc_mid_eq. intros Hooo.
  assert (Hnew : ~ In (last_idx W + 1) RL) by (intros H; apply RL_le in H; lia).
  constructor; cbn [f_wal f_cp f_blk f_tmp f_del]; try apply I.
  - intros En. assert (Hin : In (last_idx W + 1, @nil rec) (drops RL (new_seg W))).
    { apply in_drops. split; [apply in_app_iff; right; left; reflexivity|exact Hnew]. }
    rewrite En in Hin. exact Hin.
  - right. exists last, K. split.
    + rewrite drops_filter, filter_app, filter_none.
      * cbn [filter fst app]. replace (memZ last QL) with false; [reflexivity|].
        symmetry. apply memZ_false. intros H. apply QL_lt in H. lia.
      * intros p Hp. apply negb_false_iff, memZ_In, filter_In.
        split; [apply in_map, Hp|apply Z.ltb_lt, cp_below, Hp].
    + intros p Hp. apply in_drops in Hp as [Hp Hn]. apply in_app_iff in Hp as [Hp|[<-|[]]]; [|cbn [fst]; lia].
      destruct (Z.le_gt_cases (fst p) last) as [Hc|Hc]; [|lia]. destruct Hn.
      apply filter_In. split; [apply in_map, Hp|apply Z.leb_le, Hc].
  - exact Hooo.
Qed.

Lemma trunc_along :
  along (fun t => same_set (visible t) (visible s)) s3 (map WalRemove RL ++ map CpRemove QL).
Proof.
  apply along_app; intros j; rewrite firstn_map.
  - apply (trunc_mid_ok (firstn j RL) []); [|intros q []]. intros i Hi. apply RL_le, (in_firstn _ _ _ Hi).
  - apply (trunc_mid_ok RL (firstn j QL) RL_le). intros q Hq. apply QL_lt, (in_firstn _ _ _ Hq).
Qed.

End Truncate.

Lemma quot23_le a : godiv (a * 2) 3 <= Z.max a 0.
Proof.
  unfold godiv. pose proof (Z.quot_rem' (a * 2) 3) as E.
  destruct (Z.lt_ge_cases a 0) as [Hn|Hp].
  - pose proof (Z.rem_bound_pos_neg (a * 2) 3 ltac:(lia) ltac:(lia)). lia.
  - pose proof (Z.rem_bound_pos (a * 2) 3 ltac:(lia) ltac:(lia)). lia.
Qed.

Lemma trunc_good c m mint :
  Inv (m_fs m) -> wf_op (m_fs m) (TruncWAL mint) -> op_good c m (TruncWAL mint).
Proof.
  intros I Wf. apply quiet_good; [exact Logic.I|]. cbn [op_trace wf_op] in *. set (s := m_fs m) in *.
  set (P := fun t => same_set (visible t) (visible s)).
  unfold trunc_trace. fold s.
  assert (Nil : Inv (durable s []) /\ along P s []) by (split; [exact I|apply along_nil, same_set_refl]).
  destruct (mint <=? m_trunc m); [exact Nil|].
  destruct (f_wal s) as [|p0 W0] eqn:EW; [exact Nil|]. clear Nil. rewrite <- EW. clear EW p0 W0.
  set (first := first_idx (f_wal s)). set (last1 := last_idx (f_wal s) - 1).
  set (s1 := apply s WalNewSeg).
  assert (V1 : P s1) by (unfold P; rewrite (visible_live_eq s1 s (wal_recs_newseg s) eq_refl eq_refl); apply same_set_refl).
  assert (Short : Inv (durable s [WalNewSeg]) /\ along P s [WalNewSeg])
    by (split; [apply inv_newseg, I|apply along_cons; [apply same_set_refl|apply along_nil, V1]]).
  destruct (last1 <? 0) eqn:El1; [exact Short|].
  set (last := first + godiv ((last1 - first) * 2) 3).
  destruct (last <=? first) eqn:Elf; [exact Short|]. clear Short.
  apply Z.ltb_ge in El1. apply Z.leb_gt in Elf.
  assert (Hhi : last < last_idx (f_wal s)).
  { pose proof (quot23_le (last1 - first)). unfold last, last1 in *. lia. }
  change (?a :: [?b; ?c] ++ ?tl) with ([a; b; c] ++ tl).
  split.
  - rewrite durable_app, durable_app. apply (trunc_end s mint last); assumption.
  - apply along_cons; [apply same_set_refl|]. apply along_cons; [exact V1|].
    apply along_cons; [unfold P; rewrite cptmp_invisible; exact V1|].
    apply (trunc_along s mint last); assumption.
Qed.

Lemma visible_add_ooo_block s b :
  Inv s -> Inv (add_block s b) -> b_ooo b = true -> b_tomb b = [] ->
  (forall x, In x (b_data b) -> In x (ooo s)) ->
  same_set (visible (add_block s b)) (visible s).
Proof.
  intros I I2 Ho Ht Hd x.
  rewrite (in_visible_add_block s b x I I2), (in_visible_inv s x I), in_blk_vis, mv_of_app, Ho, Ht.
  specialize (Hd x). pose proof (i_ooo s I x) as Hc. split; [intros [H|[[H _]|H]]|intros [H|H]]; auto.
Qed.

Lemma range_start_bounds t w : 0 < w -> range_start t w <= t < range_start t w + w.
Proof.
  intros Hw. unfold range_start, godiv. destruct (Z.geb_spec t 0) as [Hp|Hn].
  - pose proof (Z.quot_rem' t w). pose proof (Z.rem_bound_pos t w ltac:(lia) Hw). lia.
  - pose proof (Z.quot_rem' (t - w + 1) w). pose proof (Z.rem_bound_pos_neg (t - w + 1) w Hw ltac:(lia)). lia.
Qed.

Lemma ins_In t l x : In x (ins t l) <-> t = x \/ In x l.
Proof.
  induction l as [|a l IH]; cbn [ins In]; [reflexivity|].
  destruct (t <? a); [reflexivity|]. destruct (Z.eqb_spec t a) as [->|_]; cbn [In].
  - split; [auto|intros [->|H]; auto].
  - rewrite IH. split; intros [H|[H|H]]; auto.
Qed.
Lemma sort_uniq_In l x : In x (sort_uniq l) <-> In x l.
Proof. unfold sort_uniq. induction l as [|a l IH]; simpl; [reflexivity|]. rewrite ins_In, IH. split; intros [H|H]; auto. Qed.

(* [t] is [s] plus some new out-of-order blocks with ids below [k] *)
Record Wrote (s t : fs) (k : Z) : Prop := mkWrote {
  w_inv : Inv t;
  w_vis : same_set (visible t) (visible s);
  w_ooo : ooo t = ooo s;
  w_above : Above t k
}.

Lemma ooo_blocks_written w all :
  0 < w -> forall starts s t k,
  Wrote s t k -> (forall x, In x all -> In x (ooo s)) ->
  let bs := ooo_blocks w all starts k in
  let t' := durable t (flat_map wr bs) in
  Wrote s t' (k + Z.of_nat (length starts)) /\ f_blk t' = f_blk t ++ bs /\
  along (fun u => same_set (visible u) (visible s)) t (flat_map wr bs).
Proof.
  intros Hw. induction starts as [|r starts IH]; intros s t k Wr Hall; cbn [ooo_blocks flat_map].
  - cbn [durable fold_left length Z.of_nat]. rewrite Z.add_0_r. split; [exact Wr|].
    split; [symmetry; apply app_nil_r|apply along_nil, Wr].
  - set (b := mkBlk k r (r + w) true [] (filter (fun x => range_start (s_t x) w =? r) all) []).
    pose proof (w_inv _ _ _ Wr) as It.
    assert (Hid : forall b', In b' (f_blk t) -> b_id b' <> b_id b).
    { intros b' Hb'. apply (above_id t k b' (w_above _ _ _ Wr)) in Hb'. cbn [b_id b]. lia. }
    assert (I2 : Inv (add_block t b)).
    { apply (inv_add_block t b k It (w_above _ _ _ Wr) eq_refl); [intros p []|intros b' _ []|].
      intros x Hx. cbn [b_data b_mint b_maxt b] in *. apply filter_In in Hx. destruct Hx as [_ Hx]. apply Z.eqb_eq in Hx.
      pose proof (range_start_bounds (s_t x) w Hw). lia. }
    assert (Wr2 : Wrote s (add_block t b) (k + 1)).
    { constructor.
      - exact I2.
      - eapply same_set_trans; [|apply (w_vis _ _ _ Wr)].
        apply visible_add_ooo_block; try reflexivity; [exact It|exact I2|].
        intros x Hx. cbn [b_data b] in Hx. apply filter_In in Hx. rewrite (w_ooo _ _ _ Wr). apply Hall, Hx.
      - change (ooo (add_block t b)) with (ooo t). apply Wr.
      - apply above_add_block; [apply Wr|reflexivity|intros p []]. }
    cbv zeta. rewrite durable_app, (write_block_state t b (i_tmp t It) Hid).
    destruct (IH s (add_block t b) (k + 1) Wr2 Hall) as [Wr' [Hin Al]].
    split; [|split].
    + replace (k + Z.of_nat (length (r :: starts))) with (k + 1 + Z.of_nat (length starts)) by (cbn [length]; lia). exact Wr'.
    + rewrite Hin. cbn [add_block f_blk]. rewrite <- app_assoc. reflexivity.
    + apply along_app; [|rewrite (write_block_state t b (i_tmp t It) Hid); exact Al].
      apply write_block_along; [apply It|exact Hid|apply Wr|apply Wr2].
Qed.

Lemma ooo_newseg s : ooo (apply s WblNewSeg) = ooo s.
Proof. unfold ooo. simpl. unfold new_seg. rewrite flat_map_app, concat_app. simpl. rewrite app_nil_r. reflexivity. Qed.

Lemma durable_wblremoves s R :
  durable s (map WblRemove R) =
  mkFs (f_wal s) (f_cp s) (f_cptmp s) (drops R (f_wbl s)) (f_blk s) (f_tmp s) (f_del s).
Proof.
  revert s. induction R as [|i R IH]; intros s; [destruct s; reflexivity|].
  cbn [map durable fold_left]. change (fold_left apply (map WblRemove R) (apply s (WblRemove i))) with (durable (apply s (WblRemove i)) (map WblRemove R)).
  rewrite IH. reflexivity.
Qed.

Lemma ooo_blocks_vis w all starts id x :
  In x all -> In (range_start (s_t x) w) starts -> In x (flat_map blk_vis (ooo_blocks w all starts id)).
Proof.
  intros Hx. revert id. induction starts as [|r starts IH]; intros id H; [contradiction|].
  cbn [ooo_blocks flat_map]. apply in_app_iff. destruct H as [->|H]; [left|right; apply IH, H].
  apply in_blk_vis. split; [|reflexivity]. apply filter_In. split; [exact Hx|apply Z.eqb_refl].
Qed.

Lemma inv_wblnewseg s : Inv s -> Inv (apply s WblNewSeg).
Proof.
  intros I. constructor; try apply I. intros x Hx. rewrite ooo_newseg in Hx. exact (i_ooo s I x Hx).
Qed.

(* once every out-of-order sample is in a block the WBL segments can go *)
Lemma wbl_removes_good t R :
  Inv t -> (forall x, In x (ooo t) -> In x (flat_map blk_vis (f_blk t))) ->
  Inv (durable t (map WblRemove R)) /\ same_set (visible (durable t (map WblRemove R))) (visible t).
Proof.
  intros It Hb. rewrite durable_wblremoves.
  set (u := mkFs (f_wal t) (f_cp t) (f_cptmp t) (drops R (f_wbl t)) (f_blk t) (f_tmp t) (f_del t)).
  assert (Hsub : forall x, In x (ooo u) -> In x (ooo t)).
  { intros x Hx. unfold ooo in *. apply in_concat in Hx as [l [Hl Hx]]. apply in_concat. exists l. split; [|exact Hx].
    apply in_flat_map in Hl as [p [Hp Hl]]. apply in_flat_map. exists p. split; [|exact Hl].
    apply in_drops in Hp. apply Hp. }
  assert (Iu : Inv u).
  { constructor; try apply It. intros x Hx. exact (i_ooo t It x (Hsub x Hx)). }
  split; [exact Iu|]. intros x. rewrite (in_visible_inv u x Iu), (in_visible_inv t x It).
  change (f_blk u) with (f_blk t). change (wal_samples u) with (wal_samples t). change (head_tombs u) with (head_tombs t).
  specialize (Hsub x). specialize (Hb x). clear - Hsub Hb. split; intros [H|[[H|H] H3]]; auto.
Qed.

Lemma cutooo_good c m :
  0 < c_range c -> Inv (m_fs m) -> op_good c m CutOOO.
Proof.
  intros Hw I. apply quiet_good; [exact Logic.I|]. cbn [op_trace]. set (s := m_fs m) in *.
  set (P := fun t => same_set (visible t) (visible s)).
  unfold ooo_trace. destruct (c_ooo c); simpl negb; cbv iota; [|split; [exact I|apply along_nil, same_set_refl]].
  set (w := c_range c) in *. set (all := ooo s).
  set (starts := sort_uniq (map (fun x => range_start (s_t x) w) all)).
  set (bs := ooo_blocks w all starts (fresh s)).
  set (L := map fst (f_wbl s)).
  change (flat_map (fun b => [TmpFill b; BlkRename (b_id b)]) bs) with (flat_map wr bs).
  set (s1 := apply s WblNewSeg).
  assert (V1 : visible s1 = visible s) by (apply visible_live_eq; try reflexivity; apply ooo_newseg).
  assert (Wr0 : Wrote s1 s1 (fresh s)).
  { constructor; try reflexivity; [apply inv_wblnewseg, I|apply same_set_refl|apply (above_fresh s)]. }
  assert (Hall : forall x, In x all -> In x (ooo s1)) by (intros x Hx; unfold s1; rewrite ooo_newseg; exact Hx).
  destruct (ooo_blocks_written w all Hw starts s1 s1 (fresh s) Wr0 Hall) as [Wr' [Hblk Al]].
  fold bs in Wr', Hblk, Al. rewrite V1 in Al. set (t' := durable s1 (flat_map wr bs)) in *.
  (* an out-of-order sample is in the block of its range *)
  assert (Hb : forall x, In x (ooo t') -> In x (flat_map blk_vis (f_blk t'))).
  { intros x. rewrite (w_ooo _ _ _ Wr'). unfold s1. rewrite ooo_newseg. intros H1.
    rewrite Hblk, flat_map_app, in_app_iff. right. apply ooo_blocks_vis; [exact H1|].
    apply sort_uniq_In, in_map_iff. exists x. auto. }
  assert (Tail : forall R', Inv (durable t' (map WblRemove R')) /\ P (durable t' (map WblRemove R'))).
  { intros R'. destruct (wbl_removes_good t' R' (w_inv _ _ _ Wr') Hb) as [Iu Vu]. split; [exact Iu|].
    eapply same_set_trans; [exact Vu|]. rewrite <- V1. apply Wr'. }
  split.
  - change (durable s (WblNewSeg :: flat_map wr bs ++ map WblRemove L)) with (durable s1 (flat_map wr bs ++ map WblRemove L)).
    rewrite durable_app. apply (Tail L).
  - apply along_cons; [apply same_set_refl|]. fold s1. apply along_app; [exact Al|].
    intros j. rewrite firstn_map. apply (Tail (firstn j L)).
Qed.

Lemma mv_of_split f l :
  mv_of l = Z.max (mv_of (filter f l)) (mv_of (filter (fun b => negb (f b)) l)).
Proof.
  induction l as [|a l IH]; simpl; [reflexivity|]. rewrite IH.
  destruct (f a); simpl; destruct (b_ooo a); lia.
Qed.

Lemma mv_of_le_max l : mv_of l <= list_max (map b_maxt l) minInt64.
Proof. induction l as [|a l IH]; simpl; [lia|]. destruct (b_ooo a); lia. Qed.

Lemma mv_of_all_ooo l : forallb b_ooo l = true -> mv_of l = minInt64.
Proof.
  induction l as [|a l IH]; simpl; [reflexivity|]. intros H. apply andb_true_iff in H. destruct H as [H1 H2].
  rewrite H1. apply IH. exact H2.
Qed.

Lemma parents_of_filter_sub g l p : In p (parents_of (filter g l)) -> In p (parents_of l).
Proof.
  unfold parents_of. rewrite !in_flat_map. intros [b [Hb Hp]]. apply filter_In in Hb. exists b. split; [apply Hb|exact Hp].
Qed.

Lemma inv_filter_blocks s g :
  Inv s -> Inv (mkFs (f_wal s) (f_cp s) (f_cptmp s) (f_wbl s) (filter g (f_blk s)) [] []).
Proof.
  intros I. constructor; simpl; try apply I; try reflexivity.
  - intros b Hb Hp. apply filter_In in Hb. apply parents_of_filter_sub in Hp. apply (i_live s I b); [apply Hb|exact Hp].
  - apply NoDup_map_filter. apply I.
  - intros b x Hb Hx. apply filter_In in Hb. apply (i_range s I b x); [apply Hb|exact Hx].
Qed.

Definition del_steps (tg : target) : list fsop :=
  match tg with TBlk p => [BlkToDel p; DelRemove p] | THead => [] end.

Lemma without_with_id p l : without p (with_id p l) = [].
Proof.
  unfold without, with_id. induction l as [|a l IH]; [reflexivity|]. simpl.
  destruct (has_id p a) eqn:E; simpl; rewrite ?E; exact IH.
Qed.

Section Parents.
Variable s : fs.
Hypothesis I : Inv s.
Variable parents : list Z.
Let ps := filter (fun b => memZ (b_id b) parents) (f_blk s).
Let pids := map b_id ps.

Definition rest (D : list Z) : list blk := filter (fun b' => negb (memZ (b_id b') D)) (f_blk s).

Lemma in_ps b' : In b' (f_blk s) -> (In (b_id b') pids <-> In b' ps).
Proof.
  intros Hb'. unfold pids. rewrite in_map_iff. split; [|intros H; exists b'; auto].
  intros [q [E Hq]]. replace b' with q; [exact Hq|].
  apply (NoDup_map_inj b_id (f_blk s)); [apply I| |exact Hb'|exact E]. unfold ps in Hq. apply filter_In in Hq. apply Hq.
Qed.

Lemma rest_pids : rest pids = filter (fun b' => negb (memZ (b_id b') parents)) (f_blk s).
Proof.
  unfold rest. apply filter_ext_in. intros b' Hb'. f_equal. apply eq_true_iff_eq.
  rewrite !memZ_In, (in_ps b' Hb'). unfold ps. rewrite filter_In, memZ_In. tauto.
Qed.

Lemma rest_without D p : without p (rest D) = rest (p :: D).
Proof.
  unfold without, rest. rewrite filter_filter. apply filter_ext. intros b'. cbn [memZ existsb]. unfold has_id.
  rewrite negb_orb. apply andb_comm.
Qed.

(* the parents with ids in [D] are gone, those in [del] renamed for deletion; [X] = the child, if any *)
Variable X : list blk.
Hypothesis HX : forall x, In x X -> ~ In (b_id x) pids.

Definition gstate (D : list Z) (del : list blk) : fs :=
  mkFs (f_wal s) (f_cp s) (f_cptmp s) (f_wbl s) (rest D ++ X) [] del.

Lemma gstate_todel D del p : In p pids ->
  apply (gstate D del) (BlkToDel p) = gstate (p :: D) (without p del ++ with_id p (rest D ++ X)).
Proof.
  intros Hp. unfold gstate. cbn [apply f_wal f_cp f_cptmp f_wbl f_blk f_tmp f_del]. f_equal.
  unfold without at 1. rewrite filter_app. fold (without p (rest D)). fold (without p X).
  rewrite rest_without, (without_fresh p X); [reflexivity|]. intros x Hx E. apply (HX x Hx). rewrite E. exact Hp.
Qed.

Definition del_ok (o : fsop) : Prop := exists p, In p pids /\ (o = BlkToDel p \/ o = DelRemove p).
Definition deleting (t : fs) : Prop := exists D del, (forall d, In d D -> In d pids) /\ t = gstate D del.

Lemma deleting_step t o : deleting t -> del_ok o -> deleting (apply t o).
Proof.
  intros [D [del [HD ->]]] [p [Hp [->| ->]]].
  - rewrite (gstate_todel D del p Hp). eexists (p :: D), _. split; [|reflexivity].
    intros d [<-|Hd]; [exact Hp|apply HD; exact Hd].
  - exists D, (without p del). split; [exact HD|reflexivity].
Qed.

Lemma del_steps_ok T : (forall p, In (TBlk p) T -> In p pids) -> Forall del_ok (flat_map del_steps T).
Proof.
  induction T as [|tg T IH]; intros H; simpl; [constructor|]. apply Forall_app. split.
  - destruct tg as [|p]; simpl; [constructor|]. assert (In p pids) by (apply H; left; reflexivity).
    constructor; [exists p; auto|]. constructor; [exists p; auto|constructor].
  - apply IH. intros p Hp. apply H. right. exact Hp.
Qed.

(* the complete deletion of the targets T, starting with empty tmp-for-deletion *)
Lemma gstate_full T : (forall p, In (TBlk p) T -> In p pids) -> forall D,
  durable (gstate D []) (flat_map del_steps T) =
  gstate (rev (flat_map (fun tg => match tg with TBlk p => [p] | THead => [] end) T) ++ D) [].
Proof.
  induction T as [|tg T IH]; intros HT D; [reflexivity|]. cbn [flat_map]. rewrite durable_app.
  assert (HT' : forall p, In (TBlk p) T -> In p pids) by (intros p Hp; apply HT; right; exact Hp).
  destruct tg as [|p]; cbn [del_steps].
  - cbn [durable fold_left]. rewrite (IH HT'). reflexivity.
  - assert (E : durable (gstate D []) [BlkToDel p; DelRemove p] = gstate (p :: D) []).
    { cbn [durable fold_left]. rewrite (gstate_todel D [] p (HT p (or_introl eq_refl))).
      unfold gstate. cbn [apply f_wal f_cp f_cptmp f_wbl f_blk f_tmp f_del]. f_equal. apply without_with_id. }
    rewrite E, (IH HT'). simpl. rewrite <- app_assoc. reflexivity.
Qed.

(* every crash point while the targets [T] are deleted *)
Lemma del_along T s0 :
  (forall p, In (TBlk p) T -> In p pids) -> s0 = gstate [] [] ->
  (forall D del, (forall d, In d D -> In d pids) -> same_set (visible (gstate D del)) (visible s)) ->
  along (fun t => same_set (visible t) (visible s)) s0 (flat_map del_steps T).
Proof.
  intros HT -> HV j.
  destruct (along_steps deleting del_ok deleting_step (flat_map del_steps T) (gstate [] [])) with (j := j)
    as [D [del [HD ->]]]; [exists [], []; split; [intros d []|reflexivity]|apply del_steps_ok, HT|].
  apply HV, HD.
Qed.
End Parents.

Section MergeProofs.
Variable s : fs.
Hypothesis I : Inv s.
Variable parents : list Z.
Let ps := filter (fun b => memZ (b_id b) parents) (f_blk s).
Let pids := map b_id ps.
Let data := flat_map blk_vis ps.
Let b := mkBlk (fresh s) (list_min (map b_mint ps) maxInt64) (list_max (map b_maxt ps) minInt64)
               (forallb b_ooo ps) pids data [].

Definition mstate : list Z -> list blk -> fs := gstate s [b].

Lemma pid_below p : In p pids -> p < fresh s.
Proof.
  intros H. apply in_map_iff in H as [q [<- Hq]]. apply filter_In in Hq as [Hq _].
  apply (above_id s _ q (above_fresh s) Hq).
Qed.

Lemma fresh_not_pid : ~ In (fresh s) pids.
Proof. intros H. apply pid_below in H. lia. Qed.

Lemma child_not_parent x : In x [b] -> ~ In (b_id x) pids.
Proof. intros [<-|[]]. exact fresh_not_pid. Qed.

Lemma child_id_fresh b' : In b' (f_blk s) -> b_id b' <> b_id b.
Proof. intros Hb'. apply (above_id s _ b' (above_fresh s)) in Hb'. cbn [b_id b]. lia. Qed.

Lemma write_child : durable s (wr b) = mstate [] [].
Proof.
  rewrite (write_block_state s b (i_tmp s I) child_id_fresh). unfold add_block, mstate, gstate.
  rewrite (i_del s I). f_equal. f_equal. unfold rest. symmetry. apply filter_all. intros; reflexivity.
Qed.

(* once all parents are gone the directory is good again *)
Lemma inv_mstate D : (forall p, In p pids -> In p D) -> Inv (mstate D []).
Proof.
  intros HD. set (sm := mkFs (f_wal s) (f_cp s) (f_cptmp s) (f_wbl s) (rest s D) [] []).
  change (mstate D []) with (add_block sm b).
  apply (inv_add_block sm b (fresh s) (inv_filter_blocks s _ I)); try reflexivity; cbn [b_parents b_data b_mint b_maxt b].
  - intros x Hx. apply (above_fresh s). unfold ids_of in *. cbn [sm f_blk] in Hx. rewrite in_app_iff in *.
    destruct Hx as [Hx|Hx]; [left|right; apply parents_of_filter_sub in Hx; exact Hx].
    apply in_map_iff in Hx as [q [<- Hq]]. apply in_map. apply filter_In in Hq. apply Hq.
  - exact pid_below.
  - intros b' Hb' Hp. apply filter_In in Hb' as [_ Hn]. apply negb_true_iff, memZ_false in Hn. apply Hn, HD, Hp.
  - intros x Hx. apply in_flat_map in Hx as [q [Hq Hx]]. apply in_blk_vis in Hx as [Hx _].
    assert (Hqs : In q (f_blk s)) by (apply filter_In in Hq; apply Hq).
    pose proof (i_range s I q x Hqs Hx).
    pose proof (list_min_le (map b_mint ps) maxInt64 (b_mint q) (in_map _ _ _ Hq)).
    pose proof (list_max_ge (map b_maxt ps) minInt64 (b_maxt q) (in_map _ _ _ Hq)). lia.
Qed.

Lemma live_mstate D del : (forall d, In d D -> In d pids) -> live (mstate D del) = rest s pids ++ [b].
Proof.
  intros HD. unfold live, mstate, gstate. cbn [f_blk]. rewrite filter_app. f_equal.
  - unfold rest. rewrite filter_filter. apply filter_ext_in. intros b' Hb'.
    rewrite parents_of_app. unfold parents_of at 2. cbn [flat_map b_parents b]. rewrite app_nil_r.
    apply eq_true_iff_eq. rewrite andb_true_iff, !negb_true_iff, !memZ_false, in_app_iff. split.
    + intros [H1 H2] H3. apply H2. right. exact H3.
    + intros H. split.
      * intros Hd. apply H. apply HD. exact Hd.
      * intros [H1|H1]; [|apply H; exact H1]. apply parents_of_filter_sub in H1. apply (i_live s I b' Hb' H1).
  - simpl. cbn [b_id b]. rewrite parents_of_app. unfold parents_of at 2. cbn [flat_map b_parents b]. rewrite app_nil_r.
    replace (memZ (fresh s) (parents_of (rest s D) ++ pids)) with false; [reflexivity|].
    symmetry. apply memZ_false. rewrite in_app_iff. intros [H|H].
    + unfold rest in H. apply parents_of_filter_sub in H. apply (above_parent s _ _ (above_fresh s)) in H. lia.
    + apply fresh_not_pid. exact H.
Qed.

(* what [wf_op] asks of a merge with a child: it does not raise the in-order horizon *)
Hypothesis Wf : forallb b_ooo ps = true \/ list_max (map b_maxt ps) minInt64 <= min_valid s.

Lemma mv_rest : mv_of (rest s pids ++ [b]) = mv_of (f_blk s).
Proof.
  rewrite mv_of_app. cbn [b_ooo b_maxt b].
  pose proof (rest_pids s I parents) as Er. fold ps pids in Er.
  rewrite (mv_of_split (fun b' => memZ (b_id b') parents) (f_blk s)). fold ps. rewrite <- Er.
  destruct (forallb b_ooo ps) eqn:Eo.
  - rewrite (mv_of_all_ooo ps Eo). pose proof (mv_of_ge (rest s pids)). lia.
  - destruct Wf as [Hw|Hw]; [congruence|]. rewrite (min_valid_mv s I) in Hw.
    rewrite (mv_of_split (fun b' => memZ (b_id b') parents) (f_blk s)) in Hw. fold ps in Hw. rewrite <- Er in Hw.
    pose proof (mv_of_le_max ps). lia.
Qed.

Lemma visible_mstate D del :
  (forall d, In d D -> In d pids) -> same_set (visible (mstate D del)) (visible s).
Proof.
  intros HD x. rewrite in_visible, (in_visible_inv s x I), in_head_io.
  rewrite (live_mstate D del HD). unfold min_valid. rewrite (live_mstate D del HD). fold (mv_of (rest s pids ++ [b])). rewrite mv_rest.
  change (wal_samples (mstate D del)) with (wal_samples s).
  change (ooo (mstate D del)) with (ooo s). change (head_tombs (mstate D del)) with (head_tombs s).
  (* the child shows what its parents showed *)
  rewrite flat_map_app, in_app_iff. cbn [flat_map]. rewrite app_nil_r, in_blk_vis. cbn [b_data b_tomb b covered existsb].
  rewrite (in_flat_map_split blk_vis (fun b' => memZ (b_id b') parents) (f_blk s)), <- (rest_pids s I parents).
  fold ps pids. unfold data. split; [intros [[H|[H _]]|H]|intros [[H|H]|H]]; auto.
Qed.

End MergeProofs.

(* a merge whose result is empty only deletes the parents *)
Section EmptyMerge.
Variable s : fs.
Hypothesis I : Inv s.
Variable parents : list Z.
Let ps := filter (fun b => memZ (b_id b) parents) (f_blk s).
Let pids := map b_id ps.
Hypothesis Hempty : flat_map blk_vis ps = [].
Hypothesis Hmv : mv_of (rest s pids) = mv_of (f_blk s).

Definition estate : list Z -> list blk -> fs := gstate s [].

Lemma inv_estate D : Inv (estate D []).
Proof. unfold estate, gstate. rewrite app_nil_r. apply (inv_filter_blocks s _ I). Qed.

Lemma mv_of_filter_le g l : mv_of (filter g l) <= mv_of l.
Proof. rewrite (mv_of_split g l). lia. Qed.

Lemma visible_estate D del :
  (forall d, In d D -> In d pids) -> same_set (visible (estate D del)) (visible s).
Proof.
  intros HD x.
  assert (E : visible (estate D del) = visible (estate D [])) by (apply visible_ext; reflexivity).
  rewrite E. rewrite (in_visible_inv _ x (inv_estate D)), (in_visible_inv s x I).
  change (f_blk (estate D [])) with (rest s D ++ []). rewrite app_nil_r.
  change (wal_samples (estate D [])) with (wal_samples s).
  change (ooo (estate D [])) with (ooo s). change (head_tombs (estate D [])) with (head_tombs s).
  assert (Emv : mv_of (rest s D) = mv_of (f_blk s)).
  { pose proof (mv_of_filter_le (fun b' => negb (memZ (b_id b') D)) (f_blk s)) as H1. fold (rest s D) in H1.
    assert (H2 : rest s pids = filter (fun b' => negb (memZ (b_id b') pids)) (rest s D)).
    { unfold rest. rewrite filter_filter. apply filter_ext_in. intros b' _.
      destruct (memZ (b_id b') pids) eqn:E1; destruct (memZ (b_id b') D) eqn:E2; simpl; try reflexivity.
      apply memZ_In in E2. apply HD in E2. apply memZ_In in E2. congruence. }
    pose proof (mv_of_filter_le (fun b' => negb (memZ (b_id b') pids)) (rest s D)) as H3. rewrite <- H2 in H3. lia. }
  rewrite Emv, (in_flat_map_split blk_vis (fun b' => memZ (b_id b') D) (f_blk s)). fold (rest s D).
  (* the deleted blocks are parents, and these show nothing *)
  assert (Hnone : ~ In x (flat_map blk_vis (filter (fun b' => memZ (b_id b') D) (f_blk s)))).
  { intros H. apply in_flat_map in H as [b' [Hb' Hx]]. apply filter_In in Hb' as [Hb' Hd].
    apply memZ_In, HD, (in_ps s I parents b' Hb') in Hd.
    assert (Hin : In x (flat_map blk_vis ps)) by (apply in_flat_map; exists b'; auto).
    rewrite Hempty in Hin. exact Hin. }
  split; [intros [H|H]|intros [[H|H]|H]]; auto. destruct (Hnone H).
Qed.

End EmptyMerge.

Lemma estate_nil s : f_tmp s = [] -> f_del s = [] -> s = estate s [] [].
Proof.
  intros Ht Hd. unfold estate, gstate, rest. rewrite filter_all, app_nil_r by (intros; reflexivity).
  destruct s; simpl in *; subst; reflexivity.
Qed.

Lemma merge_good c m parents order :
  Inv (m_fs m) -> wf_op (m_fs m) (Merge parents order) -> op_good c m (Merge parents order).
Proof.
  intros I Wf. apply quiet_good; [exact Logic.I|]. cbn [op_trace wf_op] in *. set (s := m_fs m) in *.
  unfold merge_trace.
  set (ps := filter (fun b => memZ (b_id b) parents) (f_blk s)) in *.
  set (data := flat_map blk_vis ps) in *. destruct Wf as [Wf1 Wf2].
  set (pids := map b_id ps) in *.
  set (T := sched order (map (fun q => TBlk (b_id q)) ps)).
  change (flat_map (fun tg => match tg with TBlk p => [BlkToDel p; DelRemove p] | THead => [] end) T)
    with (flat_map del_steps T).
  assert (HT : forall p, In (TBlk p) T <-> In p pids).
  { intros p. unfold T, pids. rewrite sched_In, !in_map_iff.
    split; intros [q [E Hq]]; exists q; split; congruence. }
  destruct data as [|d0 data0] eqn:Ed.
  { (* empty result: the parents are deleted *)
    assert (Hmv : mv_of (rest s pids) = mv_of (f_blk s)).
    { rewrite <- (min_valid_mv s I), <- (Wf2 eq_refl). symmetry.
      apply (min_valid_mv _ (inv_filter_blocks s _ I)). }
    pose proof (estate_nil s (i_tmp s I) (i_del s I)) as Es. unfold estate in Es. split.
    - rewrite Es at 1. rewrite (gstate_full s parents [] (fun x Hx => match Hx with end) T (fun p => proj1 (HT p)) []).
      apply inv_estate, I.
    - apply (del_along s parents [] (fun x Hx => match Hx with end) T s (fun p => proj1 (HT p)) Es).
      apply (visible_estate s I parents Ed Hmv). }
  assert (Wf : forallb b_ooo ps = true \/ list_max (map b_maxt ps) minInt64 <= min_valid s)
    by (apply Wf1; discriminate).
  rewrite <- Ed. clear Ed d0 data0 Wf1 Wf2. cbv zeta. fold pids.
  set (b := mkBlk (fresh s) (list_min (map b_mint ps) maxInt64) (list_max (map b_maxt ps) minInt64)
                  (forallb b_ooo ps) pids data []).
  pose proof (write_child s I parents) as E0. fold ps pids data b in E0.
  change [TmpFill b; BlkRename (b_id b)] with (wr b). split.
  - rewrite durable_app, E0. change (mstate s parents [] []) with (gstate s [b] [] []).
    rewrite (gstate_full s parents [b] (child_not_parent s parents) T (fun p => proj1 (HT p)) []), app_nil_r.
    apply (inv_mstate s I parents). intros p Hp. rewrite <- in_rev. apply in_flat_map. exists (TBlk p).
    split; [apply HT, Hp|left; reflexivity].
  - apply along_app.
    + apply write_block_along; [apply I|apply (child_id_fresh s parents)|apply same_set_refl|].
      rewrite <- (write_block_state s b (i_tmp s I) (child_id_fresh s parents)), E0.
      apply (visible_mstate s I parents Wf). intros d [].
    + apply (del_along s parents [b] (child_not_parent s parents) T _ (fun p => proj1 (HT p)) E0).
      apply (visible_mstate s I parents Wf).
Qed.

Definition wf_hist (c : cfg) (ops : list op) : Prop :=
  forall i o, nth_error ops i = Some o -> wf_op (m_fs (run c (firstn i ops))) o.

Lemma op_good_all c m o : 0 < c_range c -> Inv (m_fs m) -> wf_op (m_fs m) o -> op_good c m o.
Proof.
  intros Hw I W. destruct o.
  - apply commit_good; assumption.
  - apply delete_good; assumption.
  - apply cut_head_good; assumption.
  - apply trunc_good; assumption.
  - apply cutooo_good; assumption.
  - apply merge_good; assumption.
Qed.

Lemma spec_snoc ops o : spec (ops ++ [o]) = spec_step (spec ops) o.
Proof. unfold spec. rewrite fold_left_app. reflexivity. Qed.

(* after every completed operation of a well-formed history the directory is good and a reopen
   shows exactly the acknowledged, undeleted samples *)
Lemma run_prefix_good c ops :
  0 < c_range c -> wf_hist c ops -> forall i,
  Inv (m_fs (run c (firstn i ops))) /\ same_set (visible (m_fs (run c (firstn i ops)))) (spec (firstn i ops)).
Proof.
  intros Hw W. induction i as [|i [I V]].
  - split; [apply inv_fs0|]. unfold run, spec. simpl. intros x. unfold visible, fs0. simpl.
    destruct (c_ooo c); reflexivity.
  - destruct (nth_error ops i) as [o|] eqn:Eo.
    + rewrite (firstn_S_nth _ _ _ Eo), run_app, spec_snoc. cbn [fold_left].
      destruct (op_good_all c _ o Hw I (W i o Eo)) as [I' [V' _]]. split; [exact I'|].
      eapply same_set_trans; [exact V'|]. apply spec_step_congr, V.
    + apply nth_error_None in Eo. rewrite firstn_all2 in I, V by exact Eo.
      rewrite firstn_all2 by lia. split; assumption.
Qed.

Lemma run_good c ops :
  0 < c_range c -> wf_hist c ops ->
  Inv (m_fs (run c ops)) /\ same_set (visible (m_fs (run c ops))) (spec ops).
Proof. intros Hw W. rewrite <- (firstn_all ops). apply run_prefix_good; assumption. Qed.

Lemma step_lo_congr a b o x : same_set a b -> In x (step_lo a o) -> In x (step_lo b o).
Proof. intros H. destruct o; simpl; try apply H. rewrite !filter_In. rewrite (H x). tauto. Qed.
Lemma step_hi_congr a b o x : same_set a b -> In x (step_hi a o) -> In x (step_hi b o).
Proof. intros H. destruct o; simpl; try apply H. rewrite !in_app_iff. rewrite (H x). tauto. Qed.

(* THE MAIN THEOREM, in (operations completed, steps of the next one) form *)
Theorem crash_state_bounds c ops i j :
  0 < c_range c -> wf_hist c ops ->
  let R := recover (crash_state c ops i j) in
  match nth_error ops i with
  | Some o => subset (step_lo (spec (firstn i ops)) o) R /\ subset R (step_hi (spec (firstn i ops)) o)
  | None => same_set R (spec (firstn i ops))
  end.
Proof.
  intros Hw W R. unfold R, crash_state, recover.
  destruct (run_prefix_good c ops Hw W i) as [I V].
  destruct (nth_error ops i) as [o|] eqn:Eo.
  - destruct (op_good_all c (run c (firstn i ops)) o Hw I (W i o Eo)) as [_ [_ B]].
    destruct (B j) as [B1 B2]. split; intros x Hx.
    + apply B1. eapply step_lo_congr; [apply same_set_sym; exact V|exact Hx].
    + apply B2 in Hx. eapply step_hi_congr; [exact V|exact Hx].
  - exact V.
Qed.

(* ... and for an arbitrary prefix of the whole trace of persistence steps *)
Theorem crash_anywhere c ops k :
  0 < c_range c -> wf_hist c ops -> (k <= length (fs_trace c ops))%nat ->
  exists i, (i <= length ops)%nat /\
    let R := recover (durable (fs0 c) (firstn k (fs_trace c ops))) in
    match nth_error ops i with
    | Some o => subset (step_lo (spec (firstn i ops)) o) R /\ subset R (step_hi (spec (firstn i ops)) o)
    | None => same_set R (spec ops)
    end.
Proof.
  intros Hw W Hk. destruct (prefix_decompose c ops (m0 c) k Hk) as [i [j [Hi E]]].
  change (durable (fs0 c) (firstn k (fs_trace c ops)) = crash_state c ops i j) in E.
  exists i. split; [exact Hi|]. cbv zeta. rewrite E.
  pose proof (crash_state_bounds c ops i j Hw W) as H. cbv zeta in H.
  destruct (nth_error ops i) eqn:En; [exact H|].
  apply nth_error_None in En. rewrite firstn_all2 in H by exact En. exact H.
Qed.

Corollary acked_survive c ops i j o x :
  0 < c_range c -> wf_hist c ops -> nth_error ops i = Some o ->
  In x (spec (firstn i ops)) ->
  (forall mint maxt sel ord, o = Delete mint maxt sel ord -> matches mint maxt sel x = false) ->
  In x (recover (crash_state c ops i j)).
Proof.
  intros Hw W Ho Hx Hd. pose proof (crash_state_bounds c ops i j Hw W) as H. cbv zeta in H. rewrite Ho in H.
  destruct H as [H _]. apply H. destruct o; simpl; try exact Hx.
  apply filter_In. split; [exact Hx|]. rewrite (Hd _ _ _ _ eq_refl). reflexivity.
Qed.

Corollary nothing_invented c ops i j o x :
  0 < c_range c -> wf_hist c ops -> nth_error ops i = Some o ->
  In x (recover (crash_state c ops i j)) ->
  In x (spec (firstn i ops)) \/ exists acc, o = Commit acc /\ In x (map fst acc).
Proof.
  intros Hw W Ho Hx. pose proof (crash_state_bounds c ops i j Hw W) as H. cbv zeta in H. rewrite Ho in H.
  destruct H as [_ H]. apply H in Hx. destruct o; simpl in Hx; auto.
  apply in_app_iff in Hx. destruct Hx as [Hx|Hx]; [left; exact Hx|right; eexists; eauto].
Qed.

(* whatever the specification holds was there before or was committed *)
Lemma spec_origin ops : forall l x,
  In x (fold_left spec_step ops l) -> In x l \/ exists acc, In (Commit acc) ops /\ In x (map fst acc).
Proof.
  induction ops as [|o ops IH]; intros l x H; [left; exact H|]. cbn [fold_left] in H.
  destruct (IH _ _ H) as [Hl|[acc [Ha Hx]]]; [|right; exists acc; split; [right; exact Ha|exact Hx]].
  destruct o; cbn [spec_step] in Hl; auto.
  - apply in_app_iff in Hl as [Hl|Hl]; [left; exact Hl|right; exists acc; split; [left; reflexivity|exact Hl]].
  - apply filter_In in Hl. tauto.
Qed.

(* an acknowledged deletion stays applied: nothing it covered comes back unless committed again *)
Lemma spec_after_delete ops1 mint maxt sel ord ops2 x :
  In x (spec (ops1 ++ Delete mint maxt sel ord :: ops2)) -> matches mint maxt sel x = true ->
  exists acc, In (Commit acc) ops2 /\ In x (map fst acc).
Proof.
  unfold spec. rewrite fold_left_app. cbn [fold_left spec_step]. intros H Hm.
  destruct (spec_origin _ _ _ H) as [Hl|Hc]; [|exact Hc].
  apply filter_In in Hl as [_ Hl]. rewrite Hm in Hl. discriminate.
Qed.

(* the unrestricted statement is false of the code as it is (finding) *)
Definition bad_cfg : cfg := mkCfg 1000 true.
Definition bad_ops : list op :=
  [Commit [((1, 0, 1), false); ((1, 600, 2), false); ((1, 1100, 3), false); ((1, 1600, 4), false);
           ((1, 2050, 5), false); ((1, 2600, 6), false); ((1, 3200, 7), false); ((1, 3500, 8), false)];
   Commit [((1, 2100, 9), true); ((1, 3100, 10), true)];
   CutHead 0 1000; CutHead 1100 2000; TruncWAL 2000; CutOOO;
   Merge [1; 2; 3] [TBlk 3; TBlk 1; TBlk 2]].

Lemma refuted_mixed_merge :
  exists c ops x, 0 < c_range c /\ In x (spec ops) /\ ~ In x (recover (m_fs (run c ops))).
Proof.
  exists bad_cfg, bad_ops, (1, 2050, 5). split; [reflexivity|]. split.
  - vm_compute. tauto.
  - vm_compute. intros H. repeat (destruct H as [H|H]; [discriminate H|]). exact H.
Qed.

(* non-vacuity: a well-formed history using every operation *)
Definition ex_cfg : cfg := mkCfg 1000 true.
Definition ex_ops : list op :=
  [Commit [((1, 100, 1), false); ((2, 150, 2), false); ((1, 1200, 3), false); ((2, 1700, 4), false)];
   Commit [((2, 120, 5), true); ((1, 1800, 6), false)];
   Delete 100 200 [1] [THead];
   CutHead 100 1000; TruncWAL 1000; CutOOO;
   Merge [1; 2] [TBlk 1; TBlk 2];
   Commit [((1, 2900, 7), false)];
   Delete 0 5000 [2] [TBlk 3; THead]].

Ltac wf_commit :=
  let x := fresh "x" in let f := fresh "f" in let H := fresh "H" in let E := fresh "E" in
  intros x f H; simpl in H;
  repeat (destruct H as [E|H];
          [inversion E; subst; split; [vm_compute; reflexivity|intros F; first [discriminate F|vm_compute; discriminate]]|]);
  contradiction.
Ltac wf_delete :=
  let x := fresh "x" in let H := fresh "H" in
  intros x H; vm_compute in H; repeat (destruct H as [H|H]; [subst; vm_compute; reflexivity|]); contradiction.

Example ex_wf : wf_hist ex_cfg ex_ops.
Proof.
  intros i o H.
  destruct i as [|i]; [inversion H; subst o; clear H; cbn [wf_op]; wf_commit|].
  destruct i as [|i]; [inversion H; subst o; clear H; cbn [wf_op]; wf_commit|].
  destruct i as [|i]; [inversion H; subst o; clear H; cbn [wf_op]; wf_delete|].
  destruct i as [|i]; [inversion H; subst o; exact Logic.I|].
  destruct i as [|i]; [inversion H; subst o; clear H; cbn [wf_op]; vm_compute; discriminate|].
  destruct i as [|i]; [inversion H; subst o; exact Logic.I|].
  destruct i as [|i]; [inversion H; subst o; clear H; cbn [wf_op]; split; [intros _; right; vm_compute; discriminate|intros E; vm_compute in E; discriminate E]|].
  destruct i as [|i]; [inversion H; subst o; clear H; cbn [wf_op]; wf_commit|].
  destruct i as [|i]; [inversion H; subst o; clear H; cbn [wf_op]; wf_delete|].
  destruct i; discriminate H.
Qed.

Example ex_trace_length : length (fs_trace ex_cfg ex_ops) = 20%nat.
Proof. vm_compute. reflexivity. Qed.

Example ex_final : recover (m_fs (run ex_cfg ex_ops)) = [(1, 1200, 3); (1, 1800, 6); (1, 2900, 7)].
Proof. vm_compute. reflexivity. Qed.

