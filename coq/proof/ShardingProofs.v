(* proof/ShardingProofs.v — lemmas about model/Sharding.v (C18). *)
From Coq Require Import List NArith ZArith Bool Lia Permutation.
From Verif Require Import lib.Bytes model.Sharding.
Import ListNotations.
Open Scope Z_scope.

(* The three build variants make the same xxhash calls: once switched to the digest, each
   writes the buffer and then every remaining label. *)
Lemma dedupe_inner_eq ls : forall ws, dedupe_inner ws ls = ws ++ flat_map writes_of ls.
Proof.
  induction ls as [|v ls IH]; intros ws; cbn [dedupe_inner flat_map]; [now rewrite app_nil_r|].
  now rewrite IH, app_assoc.
Qed.

Lemma feed_string_some ls : forall b ws,
  feed_string b (Some ws) ls = FStream (ws ++ flat_map writes_of ls).
Proof.
  induction ls as [|v ls IH]; intros b ws; cbn [feed_string flat_map]; [now rewrite app_nil_r|].
  now rewrite IH, app_assoc.
Qed.

Lemma feed_string_slice ls : forall b, feed_string b None ls = feed_slice b ls.
Proof.
  induction ls as [|v ls IH]; intros b; [reflexivity|].
  cbn [feed_string feed_slice]. destruct (overflows b v); [|apply IH].
  now rewrite feed_string_some.
Qed.

Lemma feed_dedupe_slice ls : forall b, feed_dedupe b ls = feed_slice b ls.
Proof.
  induction ls as [|v ls IH]; intros b; [reflexivity|].
  cbn [feed_dedupe feed_slice]. destruct (overflows b v); [|apply IH].
  now rewrite dedupe_inner_eq.
Qed.

Lemma feed_of_slice v ls : feed_of v ls = feed_slice [] ls.
Proof. destruct v; [apply feed_string_slice|reflexivity|apply feed_dedupe_slice]. Qed.

Lemma concat_writes_of v : concat (writes_of v) = entry v.
Proof. reflexivity. Qed.

Lemma concat_flat_map_writes ls : concat (flat_map writes_of ls) = stable_bytes ls.
Proof.
  induction ls as [|v ls IH]; [reflexivity|].
  cbn [flat_map stable_bytes]. now rewrite concat_app, concat_writes_of, IH.
Qed.

Lemma feed_slice_bytes ls : forall b, feed_bytes (feed_slice b ls) = b ++ stable_bytes ls.
Proof.
  induction ls as [|v ls IH]; intros b; cbn [feed_slice].
  - symmetry. apply app_nil_r.
  - destruct (overflows b v).
    + cbn [feed_bytes concat]. now rewrite concat_flat_map_writes.
    + rewrite IH. symmetry. apply app_assoc.
Qed.

(* every variant feeds exactly the reference serialisation to xxhash *)
Lemma feed_of_bytes v ls : feed_bytes (feed_of v ls) = stable_bytes ls.
Proof. rewrite feed_of_slice. apply (feed_slice_bytes ls []). Qed.

(* ... and switches to the streaming API in exactly the same situations: when the whole
   serialisation is at least 1024 bytes long *)
Definition is_stream (f : feed) : bool := match f with FStream _ => true | FSum _ => false end.

Lemma len_app a b : len (a ++ b) = len a + len b.
Proof. unfold len. rewrite app_length. apply Nat2Z.inj_add. Qed.

Lemma len_nonneg b : 0 <= len b.
Proof. apply Nat2Z.is_nonneg. Qed.

Lemma len_entry v : len (entry v) = len (l_name v) + len (l_value v) + 2.
Proof. unfold entry. rewrite !len_app. change (len [sep]) with 1. lia. Qed.

(* the buffer stays strictly below its capacity, which is what makes the "fits" test exact *)
Lemma feed_slice_stream ls : forall b, len b < cap_b ->
  is_stream (feed_slice b ls) = (cap_b <=? len b + len (stable_bytes ls)).
Proof.
  induction ls as [|v ls IH]; intros b Hb; cbn [feed_slice stable_bytes flat_map].
  - symmetry. apply Z.leb_gt. change (len []) with 0. lia.
  - unfold overflows. rewrite len_app, len_entry. fold (stable_bytes ls).
    pose proof (len_nonneg (stable_bytes ls)).
    destruct (Z.leb_spec cap_b (len b + len (l_name v) + len (l_value v) + 2)) as [E|E].
    + symmetry. apply Z.leb_le. lia.
    + rewrite IH by (rewrite len_app, len_entry; lia). rewrite len_app, len_entry. f_equal. lia.
Qed.

Lemma filter_split {A} (p q r : A -> bool) l :
  (forall x, r x = p x || q x) -> (forall x, p x && q x = false) ->
  Permutation (filter p l ++ filter q l) (filter r l).
Proof.
  intros Hr Hpq. induction l as [|x l IH]; [constructor|].
  cbn [filter]. rewrite Hr. generalize (Hpq x).
  destruct (p x), (q x); cbn [orb andb app]; intros Hx; try discriminate Hx.
  - apply perm_skip, IH.
  - apply Permutation_sym, Permutation_cons_app, Permutation_sym, IH.
  - exact IH.
Qed.

Section Partition.
  Context {A : Type} (f : A -> Z).

  Definition part (l : list A) (i : Z) : list A := filter (fun x => f x =? i) l.

  Lemma part_in l i x : In x (part l i) <-> In x l /\ f x = i.
  Proof. unfold part. now rewrite filter_In, Z.eqb_eq. Qed.

  (* the shard indexes 0, 1, ..., k-1 *)
  Definition range (k : nat) : list Z := map Z.of_nat (seq 0 k).

  Lemma parts_below k l : (forall x, In x l -> 0 <= f x) ->
    Permutation (concat (map (part l) (range k))) (filter (fun x => f x <? Z.of_nat k) l).
  Proof.
    intros H0. induction k as [|k IH].
    - cbn. induction l as [|x l IHl]; [constructor|]. cbn [filter].
      destruct (Z.ltb_spec (f x) 0) as [E|_]; [pose proof (H0 x (or_introl eq_refl)); lia|].
      apply IHl. intros y Hy. apply H0. now right.
    - unfold range. rewrite seq_S, !map_app, concat_app, Nat2Z.inj_succ.
      cbn [map concat Nat.add]. rewrite app_nil_r.
      apply perm_trans with (filter (fun x => f x <? Z.of_nat k) l ++ part l (Z.of_nat k));
        [apply Permutation_app_tail, IH|].
      apply filter_split; intros x;
        destruct (Z.ltb_spec (f x) (Z.of_nat k)), (Z.eqb_spec (f x) (Z.of_nat k));
        try destruct (Z.ltb_spec (f x) (Z.succ (Z.of_nat k))); lia || easy.
  Qed.

  (* the n parts, concatenated, are a rearrangement of the whole list: nothing lost, nothing
     duplicated, nothing invented *)
  Definition is_partition (n : nat) (l : list A) : Prop :=
    Permutation (concat (map (part l) (range n))) l /\
    (forall i j x, i <> j -> In x (part l i) -> ~ In x (part l j)) /\
    (forall x, In x l <-> exists i, 0 <= i < Z.of_nat n /\ In x (part l i)) /\
    (forall i, ~ (0 <= i < Z.of_nat n) -> part l i = []) /\
    (NoDup l -> forall i, NoDup (part l i)).

  Lemma parts_partition n l : (forall x, In x l -> 0 <= f x < Z.of_nat n) -> is_partition n l.
  Proof.
    intros H. split; [|split; [|split; [|split]]].
    - apply perm_trans with (filter (fun x => f x <? Z.of_nat n) l);
        [apply parts_below; intros x Hx; apply H, Hx|].
      clear -H. induction l as [|x l IH]; [constructor|]. cbn [filter].
      destruct (Z.ltb_spec (f x) (Z.of_nat n)) as [_|E]; [|pose proof (H x (or_introl eq_refl)); lia].
      apply perm_skip, IH. intros y Hy. apply H. now right.
    - intros i j x Hij Hi Hj. apply part_in in Hi as [_ Hi], Hj as [_ Hj]. congruence.
    - intros x. split.
      + intros Hx. exists (f x). split; [apply H, Hx|]. apply part_in. now split.
      + intros [i [_ Hi]]. now apply part_in in Hi.
    - intros i Hi. destruct (part l i) as [|x r] eqn:E; [reflexivity|]. exfalso.
      assert (Hx : In x (part l i)) by (rewrite E; now left).
      apply part_in in Hx as [Hx <-]. exact (Hi (H x Hx)).
    - intros Hnd i. apply NoDup_filter, Hnd.
  Qed.
End Partition.

Section WithHash.
  Variable xxh_sum : bytes -> Z.
  Variable xxh_stream : list bytes -> Z.
  (* the assumed behaviour of the oracle: a streaming digest equals the one-shot sum of the
     concatenated writes *)
  Hypothesis stream_oneshot : forall ws, xxh_stream ws = xxh_sum (concat ws).

  Lemma stable_hash_v_eq v ls : stable_hash_v xxh_sum xxh_stream v ls = stable_hash xxh_sum ls.
  Proof.
    unfold stable_hash_v, stable_hash. rewrite <- (feed_of_bytes v ls).
    destruct (feed_of v ls); cbn [hash_feed feed_bytes]; [reflexivity|apply stream_oneshot].
  Qed.

  Notation stable_hash' := (stable_hash xxh_sum).
  Notation shard' := (shard xxh_sum).

  (* invariant of every head: the cached shardHash is the StableHash of the series' labels
     when sharding is enabled (and 0 otherwise) *)
  Definition head_inv (h : head) : Prop :=
    forall s, In s (h_series h) ->
      ms_shardHash s = if h_sharding h then stable_hash' (ms_lset s) else 0.

  Lemma get_or_create_ok h id ls :
    h_sharding (fst (get_or_create xxh_sum h id ls)) = h_sharding h /\
    (head_inv h -> head_inv (fst (get_or_create xxh_sum h id ls))).
  Proof.
    unfold get_or_create. destruct (get_by_labels h ls); cbn [fst]; [now destruct (id =? 0)|].
    split; [reflexivity|]. intros Hinv s Hs. cbn [h_series h_sharding] in *.
    apply in_app_or in Hs as [Hs|[<-|[]]]; [exact (Hinv s Hs)|reflexivity].
  Qed.

  Lemma head_step_ok h o :
    h_sharding (head_step xxh_sum h o) = h_sharding h /\
    (head_inv h -> head_inv (head_step xxh_sum h o)).
  Proof.
    destruct o; [apply get_or_create_ok..|]. split; [reflexivity|].
    intros Hinv s Hs. apply filter_In in Hs. exact (Hinv s (proj1 Hs)).
  Qed.

  (* every reachable head satisfies the invariant, whatever its history of series creations,
     WAL replays and garbage collections *)
  Lemma run_head_inv en ops :
    head_inv (run_head xxh_sum en ops) /\ h_sharding (run_head xxh_sum en ops) = en.
  Proof.
    unfold run_head. assert (H : head_inv (empty_head en)) by intros s [].
    change en with (h_sharding (empty_head en)) at 3.
    revert H. generalize (empty_head en). induction ops as [|o ops IH]; intros h Hinv; [now split|].
    destruct (head_step_ok h o) as [Hs Hi]. rewrite <- Hs. apply IH, Hi, Hinv.
  Qed.

  Lemma get_by_id_some h r s : get_by_id h r = Some s -> In s (h_series h) /\ ms_ref s = r.
  Proof.
    intros H. apply find_some in H as [H1 H2]. split; [exact H1|now apply Z.eqb_eq].
  Qed.

  (* what makes a source well formed for the partition theorem *)
  Definition src_ok (s : source) (p : list Z) : Prop :=
    match s with
    | SrcHead h => h_sharding h = true /\ head_inv h
    | SrcBlock b => forall r, In r p -> block_series b r <> None   (* every posting resolves *)
    end.

  Definition shard_pred (idx cnt : Z) (rl : Z * labels) : bool := shard' (snd rl) cnt =? idx.

  Definition in_shard (s : source) (idx cnt r : Z) : bool :=
    match src_series s r with Some ls => shard' ls cnt =? idx | None => false end.

  Lemma head_sharded_spec h idx cnt : cnt <> 0 -> forall p,
    head_sharded_loop h p idx cnt =
    SOk (filter (fun r => match get_by_id h r with
                          | Some s => shard_of_hash (ms_shardHash s) cnt =? idx
                          | None => false
                          end) p).
  Proof.
    intros Hc. induction p as [|r p IH]; [reflexivity|].
    cbn [head_sharded_loop filter]. destruct (get_by_id h r) as [s|] eqn:Eg; [|exact IH].
    destruct (Z.eqb_spec cnt 0) as [|_]; [contradiction|]. rewrite IH.
    destruct (get_by_id_some _ _ _ Eg) as [_ ->]. destruct (_ =? idx); reflexivity.
  Qed.

  Lemma block_sharded_spec b idx cnt : cnt <> 0 -> forall p,
    (forall r, In r p -> block_series b r <> None) ->
    block_sharded_postings xxh_sum b p idx cnt = SOk (filter (in_shard (SrcBlock b) idx cnt) p).
  Proof.
    intros Hc. induction p as [|r p IH]; intros Hp; [reflexivity|].
    cbn [block_sharded_postings filter]. unfold in_shard at 1. cbn [src_series].
    destruct (block_series b r) as [ls|] eqn:Er; [|destruct (Hp r (or_introl eq_refl) Er)].
    destruct (Z.eqb_spec cnt 0) as [|_]; [contradiction|].
    rewrite IH by (intros r' Hr'; apply Hp; now right).
    destruct (shard' ls cnt =? idx); reflexivity.
  Qed.

  Lemma src_sharded_filter s p idx cnt : cnt <> 0 -> src_ok s p ->
    src_sharded xxh_sum s p idx cnt = SOk (filter (in_shard s idx cnt) p).
  Proof.
    intros Hc Hok. destruct s as [h|b]; cbn [src_sharded src_ok] in *.
    - destruct Hok as [Hen Hinv]. unfold head_sharded_postings. rewrite Hen. cbn [negb].
      rewrite head_sharded_spec by exact Hc. f_equal. apply filter_ext. intros r.
      unfold in_shard. cbn [src_series].
      destruct (get_by_id h r) as [ms|] eqn:Eg; [|reflexivity].
      rewrite (Hinv ms (proj1 (get_by_id_some _ _ _ Eg))), Hen. reflexivity.
    - apply block_sharded_spec; assumption.
  Qed.

  Lemma series_set_filter s vis idx cnt p :
    series_set s vis (filter (in_shard s idx cnt) p) =
    filter (shard_pred idx cnt) (series_set s vis p).
  Proof.
    unfold series_set. induction p as [|r p IH]; [reflexivity|].
    cbn [filter flat_map]. rewrite filter_app, <- IH. unfold in_shard at 1.
    destruct (src_series s r) as [ls|] eqn:Es; [|reflexivity].
    unfold shard_pred at 1.
    destruct (shard' ls cnt =? idx) eqn:E; cbn [flat_map]; rewrite ?Es;
      destruct (vis r); cbn [filter snd]; now rewrite ?E.
  Qed.

  (* Select with shard hints = Select without, filtered by "stable hash of the labels mod n" *)
  Lemma select_sharded s vis p idx cnt :
    1 <= cnt -> src_ok s p ->
    select xxh_sum s vis p (mkHints idx cnt) =
    SOk (filter (shard_pred idx cnt) (series_set s vis p)).
  Proof.
    intros Hn Hok. unfold select. cbn [sh_count sh_index].
    destruct (Z.ltb_spec 0 cnt); [|lia].
    rewrite src_sharded_filter by (try assumption; lia). f_equal. apply series_set_filter.
  Qed.

  Lemma select_unsharded s vis p : select xxh_sum s vis p no_shard = SOk (series_set s vis p).
  Proof. reflexivity. Qed.

  Lemma shard_pred_part idx cnt l :
    filter (shard_pred idx cnt) l = part (fun rl => shard' (snd rl) cnt) l idx.
  Proof. reflexivity. Qed.

  Lemma select_disabled h vis p idx cnt :
    1 <= cnt -> h_sharding h = false ->
    select xxh_sum (SrcHead h) vis p (mkHints idx cnt) = SErrDisabled.
  Proof.
    intros Hn Hd. unfold select. cbn [sh_count sh_index].
    destruct (Z.ltb_spec 0 cnt); [|lia].
    cbn [src_sharded]. unfold head_sharded_postings. now rewrite Hd.
  Qed.

End WithHash.

Lemma reachable_head_ok xxh_sum ops p : src_ok xxh_sum (SrcHead (run_head xxh_sum true ops)) p.
Proof. destruct (run_head_inv xxh_sum true ops) as [H1 H2]. split; assumption. Qed.

Lemma partition_any xxh_sum s vis p n : (1 <= n)%nat -> src_ok xxh_sum s p ->
  let U := series_set s vis p in
  let f := fun rl : Z * labels => shard xxh_sum (snd rl) (Z.of_nat n) in
  select xxh_sum s vis p no_shard = SOk U /\
  (forall i, select xxh_sum s vis p (mkHints i (Z.of_nat n)) = SOk (part f U i)) /\
  is_partition f n U.
Proof.
  intros Hn Hok U f. split; [reflexivity|]. split.
  - intros i. apply select_sharded; [lia|assumption].
  - apply parts_partition. intros x _. apply Z.mod_pos_bound. lia.
Qed.

Lemma le3_decode n : 0 <= n < 16777216 ->
  n mod 256 + (n / 256) mod 256 * 256 + (n / 65536) mod 256 * 65536 = n.
Proof.
  intros [H0 H1].
  rewrite (Z.mod_small (n / 65536))
    by (split; [apply Z.div_pos; [exact H0|reflexivity]|apply Z.div_lt_upper_bound; [reflexivity|exact H1]]).
  pose proof (Z.rem_mul_r n 256 256) as E. pose proof (Z.div_mod n (256 * 256)) as D.
  change (256 * 256) with 65536 in *. lia.
Qed.

Lemma decode_size_encode n r : 0 <= n < 16777216 -> decode_size (encode_size n ++ r) = Some (n, r).
Proof.
  intros Hn. unfold encode_size. destruct (Z.ltb_spec n 255) as [E|E]; cbn [app decode_size].
  - rewrite (proj2 (N.ltb_lt _ 255)) by (apply (Z2N.inj_lt n 255); [apply Hn|discriminate|exact E]).
    now rewrite Z2N.id by apply Hn.
  - change (255 <? 255)%N with false. cbn iota.
    rewrite !Z2N.id by exact (proj1 (Z.mod_pos_bound _ 256 eq_refl)). now rewrite le3_decode.
Qed.

Lemma decode_string_encode s r : len s < 16777216 -> decode_string (encode_string s ++ r) = Some (s, r).
Proof.
  intros Hs. unfold encode_string, decode_string. rewrite <- app_assoc.
  rewrite decode_size_encode by (pose proof (len_nonneg s); lia).
  destruct (Z.ltb_spec (Z.of_nat (length (s ++ r))) (len s)) as [E|_];
    [unfold len in E; rewrite app_length in E; lia|].
  unfold len. rewrite Nat2Z.id, firstn_app, Nat.sub_diag, firstn_all, skipn_app, Nat.sub_diag, skipn_all.
  cbn [firstn skipn app]. now rewrite app_nil_r.
Qed.

Definition sizes_ok (ls : labels) : Prop :=
  Forall (fun v => len (l_name v) < 16777216 /\ len (l_value v) < 16777216) ls.

Lemma encode_string_nonempty s r : encode_string s ++ r <> [].
Proof. unfold encode_string, encode_size. destruct (len s <? 255); discriminate. Qed.

Lemma sl_decode_step k nm vl rest : len nm < 16777216 -> len vl < 16777216 ->
  sl_decode (S k) (encode_string nm ++ encode_string vl ++ rest) =
  option_map (cons (mkL nm vl)) (sl_decode k rest).
Proof.
  intros Hn Hv. destruct (encode_string nm ++ encode_string vl ++ rest) as [|y d] eqn:Ed;
    [destruct (encode_string_nonempty _ _ Ed)|].
  cbn [sl_decode]. rewrite <- Ed, !decode_string_encode by assumption. reflexivity.
Qed.

Lemma sl_decode_encode ls : forall fuel, sizes_ok ls -> (length ls <= fuel)%nat ->
  sl_decode fuel (sl_encode ls) = Some ls.
Proof.
  induction ls as [|[nm vl] ls IH]; intros fuel Hok Hf; [destruct fuel; reflexivity|].
  apply Forall_cons_iff in Hok as [[Hn Hv] Hok].
  destruct fuel as [|k]; [inversion Hf|]. apply le_S_n in Hf.
  cbn [sl_encode flat_map l_name l_value]. fold (sl_encode ls).
  now rewrite <- app_assoc, sl_decode_step, IH.
Qed.

Lemma sl_encode_length ls : (length ls <= length (sl_encode ls))%nat.
Proof.
  induction ls as [|v ls IH]; [apply le_n|].
  cbn [sl_encode flat_map]. fold (sl_encode ls).
  destruct (encode_string (l_name v) ++ encode_string (l_value v)) as [|y d] eqn:Ed;
    [destruct (encode_string_nonempty _ _ Ed)|].
  cbn [app length]. rewrite app_length. lia.
Qed.

(* the stringlabels StableHash, which walks the size-prefixed encoding, sees exactly the
   label sequence that was encoded *)
Lemma feed_string_data_encode ls : sizes_ok ls ->
  feed_string_data (sl_encode ls) = Some (feed_string [] None ls).
Proof.
  intros Hok. unfold feed_string_data.
  now rewrite sl_decode_encode by (try assumption; apply sl_encode_length).
Qed.
