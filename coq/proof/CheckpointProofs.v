(* proof/CheckpointProofs.v — proofs for C15 (model/Checkpoint.v).

   Replay is flattened into atoms (one series entry, one sample / exemplar / tombstone interval,
   one series deletion, one metadata entry); a checkpoint selects a subsequence of the atoms of
   the checkpointed part.  The simulation [sim_run] relates the replay of the untruncated log (A)
   and the replay of the truncated log (B). *)
From Coq Require Import List ZArith Bool Lia.
From Verif Require Import lib.Int64 lib.SortedList model.Checkpoint.
Import ListNotations.
Open Scope Z_scope.

Lemma fold_left_map {A B C} (f : A -> B -> A) (g : C -> B) l a :
  fold_left f (map g l) a = fold_left (fun a c => f a (g c)) l a.
Proof. revert a; induction l; simpl; auto. Qed.

Lemma fold_left_flat_map {A B C} (f : A -> B -> A) (g : C -> list B) l a :
  fold_left f (flat_map g l) a = fold_left (fun a c => fold_left f (g c) a) l a.
Proof. revert a; induction l; simpl; intros; auto. rewrite fold_left_app. auto. Qed.

Inductive atom :=
| ASer (r : ref) (L : lab)
| AData (r : ref) (k a b v : Z)       (* item kind, fields *)
| ADel (r : ref)
| AMeta (r : ref) (m : Z).

Definition atime (k a b : Z) : Z := if k =? 2 then b else a.

Definition stone_atoms (s : ref * list (Z * Z)) : list atom :=
  if is_full (snd s) then [ADel (fst s)]
  else map (fun iv => AData (fst s) 2 (fst iv) (snd iv) 0) (snd s).

Definition atoms_of (r : record) : list atom :=
  match r with
  | RSeries l => map (fun s => ASer (fst s) (snd s)) l
  | RSamples k l => map (fun s => AData (fst (fst s)) 0 (snd (fst s)) k (snd s)) l
  | RExemplars l => map (fun s => AData (fst (fst s)) 1 (snd (fst s)) 0 (snd s)) l
  | RTombstones l => flat_map stone_atoms l
  | RMetadata l => map (fun m => AMeta (fst m) (snd m)) l
  | RUnknown => []
  end.

Definition log_atoms (recs : list record) : list atom := flat_map atoms_of recs.

Section SIM.
  Variable mv : Z.

  Definition d_atom (st : dstate) (a : atom) : dstate :=
    match a with
    | ASer r L => d_series st (r, L)
    | AData r k a b v => d_push mv st r (atime k a b) (fun L => mkItem L k a b v)
    | ADel r => d_delete st r
    | AMeta r m => d_metadata st (r, m)
    end.

  Lemma data_rec_atoms st r : data_rec mv st r = fold_left d_atom (atoms_of r) st.
  Proof.
    destruct r; simpl; try reflexivity.
    - rewrite fold_left_map. apply fold_left_ext. intros a [x y]; reflexivity.
    - rewrite fold_left_map. apply fold_left_ext. intros a [[x y] w]; reflexivity.
    - rewrite fold_left_map. apply fold_left_ext. intros a [[x y] w]; reflexivity.
    - rewrite fold_left_flat_map. apply fold_left_ext. intros a [x ivs].
      unfold d_stone, stone_atoms; simpl. destruct (is_full ivs); simpl; auto.
      rewrite fold_left_map. apply fold_left_ext. intros a0 [p q]; reflexivity.
    - rewrite fold_left_map. apply fold_left_ext. intros a [x y]; reflexivity.
  Qed.

  Lemma replay_atoms_from st recs :
    fold_left (data_rec mv) recs st = fold_left d_atom (log_atoms recs) st.
  Proof.
    unfold log_atoms. rewrite fold_left_flat_map. apply fold_left_ext. intros; apply data_rec_atoms.
  Qed.

  Lemma replay_atoms recs : replay_data mv recs = fold_left d_atom (log_atoms recs) d_empty.
  Proof. apply replay_atoms_from. Qed.

  Variable mint : Z.

  Definition vis (its : list item) : list item := view_items mint its.

  (* D = refs whose series record is missing from the truncated log.  B (truncated log) resolves every
     other ref the way A (untruncated log) does, and does not know the refs in D. *)
  Definition R (D : list ref) (A B : dstate) : Prop :=
    (forall r, memz r D = false -> lookup r (d_lbl B) = lookup r (d_lbl A)) /\
    (forall r, memz r D = true -> lookup r (d_lbl B) = None) /\
    vis (d_items B) = vis (d_items A).

  Definition live (st : dstate) (L : lab) : bool := existsb (fun e => snd e =? L) (d_lbl st).
  Definition kept_live (D : list ref) (st : dstate) (L : lab) : Prop :=
    exists r, memz r D = false /\ lookup r (d_lbl st) = Some L.

  (* A pushes nothing visible for this data atom *)
  Definition quiet (A : dstate) (r : ref) (t : Z) : Prop :=
    lookup r (d_lbl A) = None \/ t < mv \/ t < mint.

  Definition no_vis (A : dstate) (p : item -> bool) : Prop := vis (filter p (d_items A)) = [].

  Definition is_sample_of (L : lab) (x : item) : bool := (i_lab x =? L) && (i_kind x =? 0).
  Definition is_nonex_of (L : lab) (x : item) : bool := (i_lab x =? L) && negb (i_kind x =? 1).

  (* what A may do on its own (the atom is missing from, or ineffective in, the truncated log) *)
  Definition cond_alone (D : list ref) (A : dstate) (a : atom) : Prop :=
    match a with
    | ASer r L => lookup r (d_lbl A) = None /\ (live A L = true -> no_vis A (is_sample_of L))
    | AData r k a b _ => quiet A r (atime k a b)
    | ADel r =>
        match lookup r (d_lbl A) with
        | None => True
        | Some L => ~ kept_live D A L /\ no_vis A (is_nonex_of L)
        end
    | AMeta _ _ => True
    end.

  Definition atom_ref (a : atom) : ref :=
    match a with ASer r _ | AData r _ _ _ _ | ADel r | AMeta r _ => r end.

  (* the side condition for one atom: sel = the atom is also in the truncated log *)
  Definition cond (D : list ref) (A : dstate) (a : atom) (sel : bool) : Prop :=
    match a with
    | ASer r L =>
        if sel then memz r D = false /\ (live A L = true -> kept_live D A L \/ no_vis A (is_sample_of L))
        else cond_alone D A a
    | AMeta _ _ => True
    | _ => (sel = true /\ memz (atom_ref a) D = false) \/ cond_alone D A a
    end.

  Definition nextD (D : list ref) (a : atom) (sel : bool) : list ref :=
    match a with ASer r _ => if sel then D else r :: D | _ => D end.

  Fixpoint conds (D : list ref) (A : dstate) (l : list (atom * bool)) : Prop :=
    match l with
    | [] => True
    | (a, sel) :: t => cond D A a sel /\ conds (nextD D a sel) (d_atom A a) t
    end.

  Fixpoint finalD (D : list ref) (l : list (atom * bool)) : list ref :=
    match l with [] => D | (a, sel) :: t => finalD (nextD D a sel) t end.

  Definition selected (l : list (atom * bool)) : list atom := map fst (filter snd l).

  (* assoc lists may in principle hold a key twice; the d_lbl lists built by replay never do *)
  Fixpoint nodup_keys {V} (m : list (Z * V)) : Prop :=
    match m with
    | [] => True
    | (k, _) :: t => lookup k t = None /\ nodup_keys t
    end.

  Lemma lookup_filter_nodup {V} (p : Z * V -> bool) r (m : list (Z * V)) :
    nodup_keys m ->
    lookup r (filter p m) = match lookup r m with
                            | Some v => if p (r, v) then Some v else None
                            | None => None
                            end.
  Proof.
    induction m as [|[k v] m IH]; simpl; auto. intros [Hk Hn].
    destruct (r =? k) eqn:K.
    - apply Z.eqb_eq in K; subst k.
      destruct (p (r, v)) eqn:P; simpl.
      + rewrite Z.eqb_refl. auto.
      + rewrite IH by auto. rewrite Hk. auto.
    - destruct (p (k, v)); simpl; rewrite ?K; auto.
  Qed.

  Lemma nodup_filter {V} (p : Z * V -> bool) (m : list (Z * V)) : nodup_keys m -> nodup_keys (filter p m).
  Proof.
    induction m as [|[k v] m IH]; simpl; auto. intros [Hk Hn].
    destruct (p (k, v)); simpl; auto. split; auto.
    rewrite lookup_filter_nodup by auto. rewrite Hk. auto.
  Qed.

  Definition wfD (st : dstate) : Prop := nodup_keys (d_lbl st).

  Lemma wfD_atom st a : wfD st -> wfD (d_atom st a).
  Proof.
    unfold wfD. destruct a; simpl; auto.
    - unfold d_series; simpl. destruct (lookup r (d_lbl st)) eqn:E; simpl; auto.
    - unfold d_push. destruct (_ <? _); auto. destruct (lookup r (d_lbl st)); auto.
    - unfold d_delete. destruct (lookup r (d_lbl st)); simpl; auto. apply nodup_filter.
    - unfold d_metadata; simpl. destruct (lookup r (d_lbl st)); auto.
  Qed.

  Lemma live_spec st L : wfD st -> live st L = true -> exists r, lookup r (d_lbl st) = Some L.
  Proof.
    unfold live, wfD. induction (d_lbl st) as [|[k v] m IH]; simpl; try discriminate.
    intros [Hk Hn] H. destruct (v =? L) eqn:E.
    - apply Z.eqb_eq in E; subst. exists k. rewrite Z.eqb_refl. auto.
    - simpl in H. destruct (IH Hn H) as [r Hr]. exists r.
      destruct (r =? k) eqn:K; auto. apply Z.eqb_eq in K; subst. congruence.
  Qed.

  Lemma lookup_live st r L : lookup r (d_lbl st) = Some L -> live st L = true.
  Proof.
    unfold live. induction (d_lbl st) as [|[k v] m IH]; simpl; try discriminate.
    destruct (r =? k).
    - intros H; inversion H; subst. rewrite Z.eqb_refl. auto.
    - intros H. rewrite (IH H). apply orb_true_r.
  Qed.

  Lemma vis_cons x l : vis (x :: l) = if mint <=? item_time x then x :: vis l else vis l.
  Proof. reflexivity. Qed.

  Lemma vis_filter p l : vis (filter p l) = filter p (vis l).
  Proof. unfold vis, view_items. apply filter_comm. Qed.

  Lemma filter_split_novis (p : item -> bool) l :
    vis (filter p l) = [] -> vis (filter (fun x => negb (p x)) l) = vis l.
  Proof.
    rewrite !vis_filter. induction (vis l) as [|x t IH]; simpl; auto.
    destruct (p x); simpl; try discriminate. intros H. rewrite IH; auto.
  Qed.

  Lemma d_series_eq st r L :
    d_series st (r, L) =
    mkD (match lookup r (d_lbl st) with Some _ => d_lbl st | None => (r, L) :: d_lbl st end)
        (if live st L then filter (fun x => negb (is_sample_of L x)) (d_items st) else d_items st)
        (d_meta st).
  Proof. reflexivity. Qed.

  Lemma memz_cons x r D : memz x (r :: D) = (x =? r) || memz x D.
  Proof. reflexivity. Qed.

  (* the three parts of [R], when each is at hand *)
  Ltac spl := split; [|split]; auto.

  Lemma step_alone D A B a :
    wfD A -> R D A B -> cond_alone D A a -> R (nextD D a false) (d_atom A a) B.
  Proof.
    intros WA [Hk [Hu Hv]] HC. destruct a as [r L|r k a b v|r|r m]; simpl in *.
    - destruct HC as [K HL]. rewrite d_series_eq; simpl. rewrite K. split; [|split].
      + intros r' K'. rewrite memz_cons in K'. apply orb_false_iff in K'. destruct K' as [Q K'].
        rewrite (Hk r' K'). simpl. rewrite Q. auto.
      + intros r' K'. rewrite memz_cons in K'. destruct (r' =? r) eqn:Q; simpl in K'; auto.
        apply Z.eqb_eq in Q; subst r'.
        destruct (memz r D) eqn:M; auto. rewrite (Hk r M). auto.
      + destruct (live A L) eqn:LV; auto.
        rewrite Hv. symmetry. apply (filter_split_novis (is_sample_of L) (d_items A) (HL eq_refl)).
    - unfold d_push. destruct (atime k a b <? mv) eqn:M; [spl|].
      destruct (lookup r (d_lbl A)) eqn:E; [|spl].
      spl. cbn [d_items]. rewrite vis_cons.
      unfold item_time; cbn [i_kind i_a i_b]. fold (atime k a b).
      destruct HC as [Q|[Q|Q]]; try congruence; try (apply Z.ltb_ge in M; lia).
      destruct (mint <=? atime k a b) eqn:V; auto. apply Z.leb_le in V; lia.
    - unfold d_delete. destruct (lookup r (d_lbl A)) as [L|] eqn:E; [|spl].
      destruct HC as [NK NV]. split; [|split]; simpl; auto.
      + intros r' K'. rewrite lookup_filter_nodup by auto. rewrite (Hk r' K').
        destruct (lookup r' (d_lbl A)) as [L'|] eqn:E'; auto.
        simpl. destruct (L' =? L) eqn:Q; simpl; auto.
        apply Z.eqb_eq in Q; subst L'. exfalso. apply NK. exists r'. auto.
      + rewrite Hv. symmetry. apply (filter_split_novis (is_nonex_of L) (d_items A) NV).
    - unfold d_metadata; simpl. destruct (lookup r (d_lbl A)); spl.
  Qed.

  Lemma B_noop B a : lookup (atom_ref a) (d_lbl B) = None -> (forall r L, a <> ASer r L) ->
    (forall r m, a <> AMeta r m) -> d_atom B a = B.
  Proof.
    destruct a; simpl; intros E N1 N2.
    - exfalso. eapply N1; eauto.
    - unfold d_push. rewrite E. destruct (_ <? _); auto.
    - unfold d_delete. rewrite E. auto.
    - exfalso. eapply N2; eauto.
  Qed.

  Lemma step_both D A B a :
    wfD A -> wfD B -> R D A B -> memz (atom_ref a) D = false ->
    (forall r L, a = ASer r L -> live A L = true -> kept_live D A L \/ no_vis A (is_sample_of L)) ->
    R D (d_atom A a) (d_atom B a).
  Proof.
    intros WA WB [Hk [Hu Hv]] K HS. destruct a as [r L|r k a b v|r|r m]; simpl in *.
    - rewrite !d_series_eq; simpl. rewrite (Hk r K). split; [|split].
      + intros r' K'. destruct (lookup r (d_lbl A)) eqn:E; auto. simpl. rewrite (Hk r' K'). auto.
      + intros r' K'. destruct (lookup r (d_lbl A)) eqn:E; auto. simpl.
        destruct (r' =? r) eqn:Q; auto. apply Z.eqb_eq in Q; subst; congruence.
      + destruct (live B L) eqn:LB.
        * assert (LA : live A L = true).
          { destruct (live_spec _ _ WB LB) as [r' Hr'].
            destruct (memz r' D) eqn:K'; [rewrite (Hu r' K') in Hr'; discriminate|].
            eapply lookup_live. rewrite <- (Hk r' K'). eauto. }
          rewrite LA. cbn [d_items]. rewrite !vis_filter. rewrite Hv. auto.
        * destruct (live A L) eqn:LA; auto.
          destruct (HS r L eq_refl LA) as [[r' [K' E']]|NV].
          -- rewrite <- (Hk r' K') in E'. rewrite (lookup_live _ _ _ E') in LB. discriminate.
          -- cbn [d_items]. rewrite Hv. symmetry. apply (filter_split_novis (is_sample_of L) (d_items A) NV).
    - unfold d_push. rewrite (Hk r K). destruct (_ <? _); [spl|].
      destruct (lookup r (d_lbl A)); spl.
      cbn [d_items]. rewrite !vis_cons. rewrite Hv. auto.
    - unfold d_delete. rewrite (Hk r K). destruct (lookup r (d_lbl A)) as [L|] eqn:E; [|spl].
      split; [|split]; simpl.
      + intros r' K'. rewrite !lookup_filter_nodup by auto. rewrite (Hk r' K'). auto.
      + intros r' K'. rewrite lookup_filter_nodup by auto. rewrite (Hu r' K'). auto.
      + rewrite !vis_filter. rewrite Hv. auto.
    - unfold d_metadata; simpl. rewrite (Hk r K). destruct (lookup r (d_lbl A)); spl.
  Qed.

  Lemma meta_B D A B r m : R D A B -> R D A (d_atom B (AMeta r m)).
  Proof.
    intros [Hk [Hu Hv]]. simpl. unfold d_metadata; simpl. destruct (lookup r (d_lbl B)); spl.
  Qed.

  (* one atom of the untruncated log, and of the truncated one if it was selected *)
  Lemma step D A B a sel :
    wfD A -> wfD B -> R D A B -> cond D A a sel ->
    R (nextD D a sel) (d_atom A a) (if sel then d_atom B a else B).
  Proof.
    intros WA WB HR HC.
    (* samples, exemplars, tombstones and deletions of a series the truncated log does not know
       are no-ops there, whether selected or not *)
    assert (G : (forall r L, a <> ASer r L) -> (forall r m, a <> AMeta r m) ->
                (sel = true /\ memz (atom_ref a) D = false) \/ cond_alone D A a ->
                R D (d_atom A a) (if sel then d_atom B a else B)).
    { intros N1 N2 [[-> K]|HA].
      - apply step_both; auto. intros r L E. destruct (N1 r L E).
      - assert (S : R (nextD D a false) (d_atom A a) B) by (apply step_alone; assumption).
        replace (nextD D a false) with D in S by (destruct a; try reflexivity; destruct (N1 r L eq_refl)).
        destruct sel; [|exact S]. destruct (memz (atom_ref a) D) eqn:K.
        + rewrite (B_noop B a); auto. destruct HR as [_ [Hu _]]. apply Hu. exact K.
        + apply step_both; auto. intros r L E. destruct (N1 r L E). }
    destruct a as [r L|r k x y v|r|r m]; cbn [cond nextD] in *.
    - destruct sel; [|apply (step_alone D A B (ASer r L)); assumption].
      destruct HC as [K HL]. apply step_both; auto. intros r0 L0 E; inversion E; subst; auto.
    - apply G; try discriminate. exact HC.
    - apply G; try discriminate. exact HC.
    - apply (step_alone D A (if sel then _ else B) (AMeta r m) WA); [|exact Logic.I].
      destruct sel; [apply meta_B|]; exact HR.
  Qed.

  Lemma sim_run l : forall D A B, wfD A -> wfD B -> R D A B -> conds D A l ->
    R (finalD D l) (fold_left d_atom (map fst l) A) (fold_left d_atom (selected l) B).
  Proof.
    induction l as [|[a sel] l IH]; simpl; intros D A B WA WB HR HC; auto. destruct HC as [HC HCs].
    pose proof (step D A B a sel WA WB HR HC) as S.
    unfold selected; simpl. destruct sel; simpl; fold (selected l); apply IH; auto using wfD_atom.
  Qed.
End SIM.

Section CPSEL.
  Variable keep : ref -> bool.
  Variable mint mv : Z.

  Definition stone_sel (s : ref * list (Z * Z)) : bool :=
    keep (fst s) && existsb (fun iv => keep_t (snd iv) mint) (snd s).

  Definition tag_rec (r : record) : list (atom * bool) :=
    match r with
    | RSeries l => map (fun s => (ASer (fst s) (snd s), keep (fst s))) l
    | RSamples k l => map (fun s => (AData (fst (fst s)) 0 (snd (fst s)) k (snd s), mint <=? snd (fst s))) l
    | RExemplars l => map (fun s => (AData (fst (fst s)) 1 (snd (fst s)) 0 (snd s), mint <=? snd (fst s))) l
    | RTombstones l => flat_map (fun s => map (fun a => (a, stone_sel s)) (stone_atoms s)) l
    | RMetadata l => map (fun m => (AMeta (fst m) (snd m), false)) l
    | RUnknown => []
    end.

  Definition tag_log (recs : list record) : list (atom * bool) := flat_map tag_rec recs.

  Lemma map_fst_tag {A} (f : A -> atom) (p : A -> bool) l :
    map fst (map (fun s => (f s, p s)) l) = map f l.
  Proof. induction l; simpl; congruence. Qed.

  Lemma selected_tag {A} (f : A -> atom) (p : A -> bool) l :
    selected (map (fun s => (f s, p s)) l) = map f (filter p l).
  Proof.
    unfold selected. induction l; simpl; auto. destruct (p a); simpl; congruence.
  Qed.

  Lemma selected_app l1 l2 : selected (l1 ++ l2) = selected l1 ++ selected l2.
  Proof. unfold selected. rewrite filter_app, map_app. auto. Qed.

  Lemma tag_rec_fst r : map fst (tag_rec r) = atoms_of r.
  Proof.
    destruct r; simpl; auto; try apply map_fst_tag.
    induction l as [|s l IH]; simpl; auto. rewrite map_app, IH. f_equal.
    rewrite (map_fst_tag (fun a => a) (fun _ => stone_sel s)). apply map_id.
  Qed.

  Lemma tag_log_fst recs : map fst (tag_log recs) = log_atoms recs.
  Proof.
    unfold tag_log, log_atoms. induction recs; simpl; auto. rewrite map_app, tag_rec_fst, IHrecs. auto.
  Qed.

  Definition opt_atoms (o : option record) : list atom :=
    match o with Some r => atoms_of r | None => [] end.

  Lemma tag_rec_sel r : selected (tag_rec r) = opt_atoms (cp_rec keep mint r).
  Proof.
    destruct r; simpl; auto.
    - rewrite selected_tag. unfold cp_series. destruct (filter _ l); auto.
    - rewrite selected_tag. unfold cp_samples, keep_t. destruct (filter _ l); auto.
    - rewrite selected_tag. unfold cp_samples, keep_t. destruct (filter _ l); auto.
    - assert (E : selected (flat_map (fun s => map (fun a => (a, stone_sel s)) (stone_atoms s)) l) =
                  flat_map stone_atoms (cp_stones keep mint l)).
      { induction l as [|s l IH]; simpl; auto. rewrite selected_app, IH.
        unfold cp_stones at 2. simpl. fold (stone_sel s). fold (cp_stones keep mint l).
        unfold selected. destruct (stone_sel s); simpl.
        - f_equal. induction (stone_atoms s); simpl; congruence.
        - induction (stone_atoms s); simpl; auto. }
      rewrite E. destruct (cp_stones keep mint l); auto.
    - unfold selected. induction l; simpl; auto.
  Qed.

  Lemma tag_log_sel recs : selected (tag_log recs) = log_atoms (cp_body keep mint recs).
  Proof.
    unfold tag_log, log_atoms, cp_body. induction recs as [|r recs IH]; simpl; auto.
    rewrite selected_app, IH, tag_rec_sel, flat_map_app.
    destruct (cp_rec keep mint r); simpl; auto. rewrite app_nil_r. auto.
  Qed.

  Lemma log_atoms_app a b : log_atoms (a ++ b) = log_atoms a ++ log_atoms b.
  Proof. unfold log_atoms. apply flat_map_app. Qed.

  Lemma conds_app l1 : forall D A l2,
    conds mv mint D A (l1 ++ l2) ->
    conds mv mint D A l1 /\ conds mv mint (finalD D l1) (fold_left (d_atom mv) (map fst l1) A) l2.
  Proof.
    induction l1 as [|[a s] l1 IH]; simpl; intros D A l2 H; auto.
    destruct H as [H1 H2]. destruct (IH _ _ _ H2). auto.
  Qed.

  Lemma wfD_fold l : forall st, wfD st -> wfD (fold_left (d_atom mv) l st).
  Proof. induction l; simpl; intros; auto. apply IHl. apply wfD_atom; auto. Qed.

  Lemma meta_only_B l : (forall a, In a l -> exists r m, a = AMeta r m) ->
    forall D A B, R mint D A B -> R mint D A (fold_left (d_atom mv) l B).
  Proof.
    induction l; simpl; intros H D A B HR; auto.
    destruct (H a (or_introl eq_refl)) as [r [m E]]; subst.
    apply IHl; auto. apply meta_B; auto.
  Qed.

  Definition cp_meta_atoms (recs : list record) : list atom :=
    log_atoms (match cp_metas keep recs with [] => [] | mp => [RMetadata mp] end).

  Lemma cp_meta_atoms_meta recs a : In a (cp_meta_atoms recs) -> exists r m, a = AMeta r m.
  Proof.
    unfold cp_meta_atoms. destruct (cp_metas keep recs); simpl; try tauto.
    rewrite app_nil_r. intros [E|H].
    - subst. eauto.
    - apply in_map_iff in H. destruct H as [x [E _]]. subst. eauto.
  Qed.

  (* The side condition of the equivalence theorem, checked along the replay of the untruncated log:
     see [cond] — a record that the checkpoint drops, or that refers to a series whose record the
     checkpoint drops, must not contribute anything at or after mint. *)
  Definition safe (low high : list record) : Prop :=
    conds mv mint [] d_empty (tag_log low ++ map (fun a => (a, true)) (log_atoms high)).

  Lemma R_empty : R mint [] d_empty d_empty.
  Proof. split; [|split]; auto. Qed.

  Theorem checkpoint_equiv low high :
    safe low high ->
    view_items mint (d_items (replay_data mv (checkpoint keep mint low ++ high))) =
    view_items mint (d_items (replay_data mv (low ++ high))).
  Proof.
    unfold safe. intros HS. apply conds_app in HS. destruct HS as [H1 H2].
    rewrite !replay_atoms. unfold checkpoint. rewrite !log_atoms_app, !fold_left_app.
    fold (cp_meta_atoms low).
    rewrite tag_log_fst in H2.
    assert (W0 : wfD d_empty) by exact I.
    pose proof (sim_run mv mint (tag_log low) [] d_empty d_empty W0 W0 R_empty H1) as S1.
    rewrite tag_log_fst, tag_log_sel in S1.
    set (A1 := fold_left (d_atom mv) (log_atoms low) d_empty) in *.
    set (B1 := fold_left (d_atom mv) (log_atoms (cp_body keep mint low)) d_empty) in *.
    assert (S2 : R mint (finalD [] (tag_log low)) A1 (fold_left (d_atom mv) (cp_meta_atoms low) B1)).
    { apply meta_only_B; auto. apply cp_meta_atoms_meta. }
    pose proof (sim_run mv mint (map (fun a => (a, true)) (log_atoms high)) _ A1 _
                  (wfD_fold _ _ W0) (wfD_fold _ _ (wfD_fold _ _ W0)) S2 H2) as S3.
    rewrite (map_fst_tag (fun a => a) (fun _ => true)), map_id in S3.
    rewrite (selected_tag (fun a => a) (fun _ => true)), map_id in S3.
    rewrite filter_all in S3 by reflexivity. destruct S3 as [_ [_ S3]]. exact S3.
  Qed.
End CPSEL.

Section SAFEB.
  Variable keep : ref -> bool.
  Variable mint mv : Z.

  Definition kept_liveb (D : list ref) (A : dstate) (L : lab) : bool :=
    existsb (fun e => negb (memz (fst e) D) && (snd e =? L)) (d_lbl A).
  Definition no_visb (A : dstate) (p : item -> bool) : bool :=
    match view_items mint (filter p (d_items A)) with [] => true | _ => false end.
  Definition quietb (A : dstate) (r : ref) (t : Z) : bool :=
    match lookup r (d_lbl A) with None => true | Some _ => (t <? mv) || (t <? mint) end.

  Definition cond_aloneb (D : list ref) (A : dstate) (a : atom) : bool :=
    match a with
    | ASer r L => match lookup r (d_lbl A) with None => negb (live A L) || no_visb A (is_sample_of L) | Some _ => false end
    | AData r k a b _ => quietb A r (atime k a b)
    | ADel r =>
        match lookup r (d_lbl A) with
        | None => true
        | Some L => negb (kept_liveb D A L) && no_visb A (is_nonex_of L)
        end
    | AMeta _ _ => true
    end.

  Definition condb (D : list ref) (A : dstate) (a : atom) (sel : bool) : bool :=
    match a with
    | ASer r L =>
        if sel then negb (memz r D) && (negb (live A L) || kept_liveb D A L || no_visb A (is_sample_of L))
        else cond_aloneb D A a
    | AMeta _ _ => true
    | _ => (sel && negb (memz (atom_ref a) D)) || cond_aloneb D A a
    end.

  Fixpoint condsb (D : list ref) (A : dstate) (l : list (atom * bool)) : bool :=
    match l with
    | [] => true
    | (a, sel) :: t => condb D A a sel && condsb (nextD D a sel) (d_atom mv A a) t
    end.

  Lemma lookup_in {V} r (m : list (Z * V)) v : lookup r m = Some v -> In (r, v) m.
  Proof.
    induction m as [|[k w] m IH]; simpl; try discriminate.
    destruct (r =? k) eqn:K.
    - intros H; inversion H; subst. apply Z.eqb_eq in K; subst. auto.
    - auto.
  Qed.

  Lemma in_lookup {V} r (m : list (Z * V)) v : nodup_keys m -> In (r, v) m -> lookup r m = Some v.
  Proof.
    induction m as [|[k w] m IH]; simpl; try tauto. intros [Hk Hn] [E|H].
    - inversion E; subst. rewrite Z.eqb_refl. auto.
    - destruct (r =? k) eqn:K; auto. apply Z.eqb_eq in K; subst.
      rewrite (IH Hn H) in Hk. discriminate.
  Qed.

  Lemma kept_liveb_true D A L : wfD A -> kept_liveb D A L = true -> kept_live D A L.
  Proof.
    unfold kept_liveb. intros W H. apply existsb_exists in H. destruct H as [[r L'] [HI H]].
    simpl in H. apply andb_true_iff in H. destruct H as [K E]. apply Z.eqb_eq in E; subst.
    exists r. split; [destruct (memz r D); auto; discriminate|]. apply in_lookup; auto.
  Qed.

  Lemma kept_liveb_false D A L : kept_liveb D A L = false -> ~ kept_live D A L.
  Proof.
    unfold kept_liveb. intros H [r [K E]].
    assert (X : existsb (fun e => negb (memz (fst e) D) && (snd e =? L)) (d_lbl A) = true).
    { apply existsb_exists. exists (r, L). split; [apply lookup_in; auto|]. simpl. rewrite K, Z.eqb_refl. auto. }
    congruence.
  Qed.

  Lemma no_visb_true A p : no_visb A p = true -> no_vis mint A p.
  Proof. unfold no_visb, no_vis, vis. destruct (view_items _ _); auto; discriminate. Qed.

  Lemma quietb_true A r t : quietb A r t = true -> quiet mv mint A r t.
  Proof.
    unfold quietb, quiet. destruct (lookup r (d_lbl A)); auto.
    intros H. apply orb_true_iff in H. destruct H as [H|H]; apply Z.ltb_lt in H; auto.
  Qed.

  Lemma cond_aloneb_sound D A a : cond_aloneb D A a = true -> cond_alone mv mint D A a.
  Proof.
    destruct a; simpl; auto.
    - destruct (lookup r (d_lbl A)); try discriminate. intros H. split; auto.
      intros LV. rewrite LV in H. simpl in H. apply no_visb_true; auto.
    - apply quietb_true.
    - destruct (lookup r (d_lbl A)); auto. intros H. apply andb_true_iff in H. destruct H as [K H]. split.
      + apply kept_liveb_false. destruct (kept_liveb D A l); auto; discriminate.
      + apply no_visb_true; auto.
  Qed.

  Lemma condb_sound D A a sel : wfD A -> condb D A a sel = true -> cond mv mint D A a sel.
  Proof.
    intros W.
    assert (G : (sel && negb (memz (atom_ref a) D)) || cond_aloneb D A a = true ->
                (sel = true /\ memz (atom_ref a) D = false) \/ cond_alone mv mint D A a).
    { intros H. apply orb_true_iff in H. destruct H as [H|H]; [left|right; apply cond_aloneb_sound; exact H].
      apply andb_true_iff in H. destruct H as [H1 H2]. split; auto. destruct (memz (atom_ref a) D); auto; discriminate. }
    destruct a; simpl; auto. destruct sel; [|apply (cond_aloneb_sound D A (ASer r L))].
    intros H. apply andb_true_iff in H. destruct H as [K H]. split.
    - destruct (memz r D); auto; discriminate.
    - intros LV. rewrite LV in H. simpl in H. apply orb_true_iff in H. destruct H as [H|H].
      + left. apply kept_liveb_true; auto.
      + right. apply no_visb_true; auto.
  Qed.

  Lemma condsb_sound l : forall D A, wfD A -> condsb D A l = true -> conds mv mint D A l.
  Proof.
    induction l as [|[a s] l IH]; simpl; intros D A W H; auto.
    apply andb_true_iff in H. destruct H as [H1 H2]. split.
    - apply condb_sound; auto.
    - apply IH; auto. apply wfD_atom; auto.
  Qed.

  Definition safeb (low high : list record) : bool :=
    condsb [] d_empty (tag_log keep mint low ++ map (fun a => (a, true)) (log_atoms high)).

  Lemma safeb_sound low high : safeb low high = true -> safe keep mint mv low high.
  Proof. apply condsb_sound. exact I. Qed.
End SAFEB.

Section PREC.
  Variable keep : ref -> bool.
  Variable mint : Z.

  Lemma memz_In x l : memz x l = true <-> In x l.
  Proof. apply (existsb_eqb_In Z.eqb Z.eqb_eq). Qed.

  Lemma refs_at_cp r r' x : cp_rec keep mint r = Some r' ->
    In x (rec_refs_at mint r') -> In x (rec_refs_at mint r).
  Proof.
    destruct r; cbn [cp_rec]; try discriminate.
    { destruct (cp_series keep l); try discriminate. intros E; inversion E; subst. cbn [rec_refs_at]. tauto. }
    (* samples, exemplars, tombstones: the checkpoint keeps a sublist *)
    all: match goal with |- match ?c with [] => _ | _ => _ end = _ -> _ => destruct c eqn:F end; try discriminate;
      intros E; inversion E; subst; clear E; rewrite <- F; cbn [rec_refs_at]; unfold cp_samples, cp_stones;
      rewrite filter_comm; apply incl_map, incl_filter.
  Qed.

  Lemma series_cp r r' x : cp_rec keep mint r = Some r' ->
    (In x (map fst (series_of_rec r')) <-> In x (map fst (series_of_rec r)) /\ keep x = true).
  Proof.
    destruct r; cbn [cp_rec]; try discriminate.
    { destruct (cp_series keep l) eqn:F; try discriminate. intros E; inversion E; subst; clear E.
      rewrite <- F. cbn [series_of_rec]. unfold cp_series. rewrite !in_map_iff. split.
      + intros [y [E1 H]]. apply filter_In in H. destruct H. subst. split; eauto.
      + intros [[y [E1 H]] K]. exists y. split; auto. apply filter_In. subst. auto. }
    all: match goal with |- match ?c with [] => _ | _ => _ end = _ -> _ => destruct c end; try discriminate;
      intros E; inversion E; subst; split; [intros []|intros [[] _]].
  Qed.

  Lemma series_cp_none r x : cp_rec keep mint r = None ->
    In x (map fst (series_of_rec r)) -> keep x = false.
  Proof.
    destruct r; cbn [cp_rec series_of_rec]; simpl; try tauto.
    destruct (cp_series keep l) eqn:F; try discriminate. intros _ H.
    apply in_map_iff in H. destruct H as [y [E H]]. subst.
    destruct (keep (fst y)) eqn:K; auto.
    assert (X : In y (cp_series keep l)) by (apply filter_In; auto).
    rewrite F in X. destruct X.
  Qed.

  Definition seen_rel (sa sb : list ref) : Prop := forall x, keep x = true -> In x sa -> In x sb.

  Lemma seen_forallb sa sb l l' :
    seen_rel sa sb -> (forall x, In x l' -> In x l) -> (forall x, In x l -> keep x = true) ->
    forallb (fun x => memz x sa) l = true -> forallb (fun x => memz x sb) l' = true.
  Proof.
    intros HR Hl HK H. rewrite forallb_forall in *. intros x Hx. apply Hl in Hx.
    apply memz_In, HR; [apply HK, Hx|apply memz_In, H, Hx].
  Qed.

  Lemma prec_high g high : forall sa sb,
    (forall x, In x (flat_map (rec_refs_at g) high) -> keep x = true) ->
    seen_rel sa sb -> preceded_from g sa high = true -> preceded_from g sb high = true.
  Proof.
    induction high as [|r high IH]; simpl; intros sa sb HK HR H; auto.
    apply andb_true_iff in H. destruct H as [H1 H2]. apply andb_true_iff. split.
    - apply (seen_forallb sa sb _ _ HR (fun x H => H)); [|exact H1]. intros x Hx. apply HK. apply in_or_app; auto.
    - eapply IH; [| |exact H2].
      + intros x Hx. apply HK. apply in_or_app; auto.
      + intros x K Hx. apply in_app_or in Hx. apply in_or_app. destruct Hx; auto.
  Qed.

  Theorem checkpoint_preceded low high :
    (forall x, In x (flat_map (rec_refs_at mint) (low ++ high)) -> keep x = true) ->
    preceded mint (low ++ high) = true ->
    preceded mint (checkpoint keep mint low ++ high) = true.
  Proof.
    unfold preceded, checkpoint. rewrite <- app_assoc.
    assert (G : forall low sa sb,
      (forall x, In x (flat_map (rec_refs_at mint) (low ++ high)) -> keep x = true) ->
      seen_rel sa sb -> preceded_from mint sa (low ++ high) = true ->
      forall M, (forall r, In r M -> rec_refs_at mint r = [] /\ series_of_rec r = []) ->
      preceded_from mint sb (cp_body keep mint low ++ M ++ high) = true).
    { clear low. induction low as [|r low IH]; simpl; intros sa sb HK HR H M HM.
      - induction M as [|m M IHM]; simpl.
        + eapply prec_high; eauto.
        + destruct (HM m (or_introl eq_refl)) as [E1 E2]. rewrite E1, E2. simpl. apply IHM.
          intros; apply HM; simpl; auto.
      - apply andb_true_iff in H. destruct H as [H1 H2].
        assert (HK' : forall x, In x (flat_map (rec_refs_at mint) (low ++ high)) -> keep x = true).
        { intros x Hx. apply HK. apply in_or_app; auto. }
        destruct (cp_rec keep mint r) as [r'|] eqn:C; simpl.
        + apply andb_true_iff. split.
          * apply (seen_forallb sa sb _ _ HR (fun x => refs_at_cp _ _ x C)); [|exact H1].
            intros x Hx. apply HK. apply in_or_app; auto.
          * apply (IH (map fst (series_of_rec r) ++ sa)); auto.
            intros x K Hx. apply in_app_or in Hx. apply in_or_app. destruct Hx as [Hx|Hx]; auto.
            left. apply (series_cp _ _ x C). auto.
        + apply (IH (map fst (series_of_rec r) ++ sa)); auto.
          intros x K Hx. apply in_app_or in Hx. destruct Hx as [Hx|Hx]; auto.
          rewrite (series_cp_none _ x C Hx) in K. discriminate. }
    intros HK H. eapply G; eauto.
    - intros x _ Hx; auto.
    - intros r Hr. destruct (cp_metas keep low); simpl in Hr; try tauto.
      destruct Hr as [E|[]]; subst; auto.
  Qed.
End PREC.

(* Head.truncateWAL is an instance *)
From Coq Require Import Sorted.

Definition seg_le (a b : Z * record) : Prop := fst a <= fst b.

(* in a sorted log the segments up to [last] and those after it are a prefix and the rest *)
Lemma split_sorted c last (l : list (Z * record)) :
  c <= last -> StronglySorted seg_le l ->
  filter (fun sr => (c <? fst sr) && (fst sr <=? last)) l ++ filter (fun sr => last <? fst sr) l =
  filter (fun sr => c <? fst sr) l.
Proof.
  intros Hc. induction 1 as [|a l HS IH HF]; simpl; auto.
  destruct (Z.leb_spec (fst a) last) as [E|E].
  - replace (last <? fst a) with false by (symmetry; apply Z.ltb_ge; lia).
    rewrite andb_true_r. destruct (c <? fst a); simpl; rewrite IH; auto.
  - (* from [a] on every segment lies after [last] *)
    rewrite Forall_forall in HF. unfold seg_le in HF.
    replace (last <? fst a) with true by (symmetry; apply Z.ltb_lt; lia).
    replace (c <? fst a) with true by (symmetry; apply Z.ltb_lt; lia).
    rewrite andb_false_r, filter_none, !filter_all; [reflexivity| | |]; intros b Hb; apply HF in Hb.
    + apply Z.ltb_lt; lia.
    + apply Z.ltb_lt; lia.
    + replace (fst b <=? last) with false by (symmetry; apply Z.leb_gt; lia). apply andb_false_r.
Qed.

Lemma wal_records_split w last :
  w_cpidx w <= last -> StronglySorted seg_le (w_segs w) ->
  wal_records w = cp_input w last ++ map snd (filter (fun sr => last <? fst sr) (w_segs w)).
Proof.
  intros Hc Hs. unfold cp_input, wal_records. rewrite <- app_assoc, <- map_app. do 2 f_equal.
  symmetry. apply split_sorted; auto.
Qed.

Theorem truncate_wal_records h mint last :
  h_last_trunc h < mint ->
  plan_last (w_first (h_wal h)) (w_cur (h_wal h)) = Some last ->
  w_cpidx (h_wal h) <= last ->
  StronglySorted seg_le (w_segs (h_wal h)) ->
  let low := cp_input (h_wal h) last in
  let high := map snd (filter (fun sr => last <? fst sr) (w_segs (h_wal h))) in
  wal_records (h_wal h) = low ++ high /\
  wal_records (h_wal (truncate_wal h mint)) =
    checkpoint (keep_head (h_series h) (h_exp h) mint) mint low ++ high.
Proof.
  intros Hm Hp Hc Hs low high. split; [apply wal_records_split; auto|].
  unfold truncate_wal. assert (E : (mint <=? h_last_trunc h) = false) by (apply Z.leb_gt; auto).
  rewrite E, Hp. unfold wal_records; simpl. rewrite filter_idem. reflexivity.
Qed.

Theorem truncate_wal_equiv h mint mv last :
  h_last_trunc h < mint ->
  plan_last (w_first (h_wal h)) (w_cur (h_wal h)) = Some last ->
  w_cpidx (h_wal h) <= last ->
  StronglySorted seg_le (w_segs (h_wal h)) ->
  safe (keep_head (h_series h) (h_exp h) mint) mint mv (cp_input (h_wal h) last)
       (map snd (filter (fun sr => last <? fst sr) (w_segs (h_wal h)))) ->
  view_items mint (d_items (replay_data mv (wal_records (h_wal (truncate_wal h mint))))) =
  view_items mint (d_items (replay_data mv (wal_records (h_wal h)))).
Proof.
  intros Hm Hp Hc Hs HS.
  destruct (truncate_wal_records h mint last Hm Hp Hc Hs) as [E1 E2].
  rewrite E1, E2. apply checkpoint_equiv; auto.
Qed.

(* a checkpointed log: series 1 (label set 10) was garbage collected and is not kept, the label set came
   back as series 3; series 2 has a tombstone; mint = 100 *)
Definition ex_keep (r : ref) : bool := negb (r =? 1).
Definition ex_low : list record :=
  [RSeries [(1, 10); (2, 20)]; RMetadata [(1, 7); (2, 8)];
   RSamples 0 [((1, 50), 1); ((2, 50), 1)]; RSamples 0 [((2, 150), 2)];
   RSeries [(3, 10)]; RSamples 0 [((3, 160), 1)]; RExemplars [((3, 160), 5); ((1, 40), 4)];
   RTombstones [(2, [(140, 155)])]].
Definition ex_high : list record := [RSamples 0 [((3, 170), 2); ((2, 180), 3); ((1, 60), 9)]].

Lemma ex_safe : safe ex_keep 100 minInt64 ex_low ex_high.
Proof. apply safeb_sound. vm_compute. reflexivity. Qed.

Lemma ex_checkpoint :
  checkpoint ex_keep 100 ex_low =
  [RSeries [(2, 20)]; RSamples 0 [((2, 150), 2)]; RSeries [(3, 10)]; RSamples 0 [((3, 160), 1)];
   RExemplars [((3, 160), 5)]; RTombstones [(2, [(140, 155)])]; RMetadata [(2, 8)]].
Proof. vm_compute. reflexivity. Qed.

Lemma ex_view_nonempty :
  length (view_items 100 (d_items (replay_data minInt64 (ex_low ++ ex_high)))) = 6%nat.
Proof. vm_compute. reflexivity. Qed.

(* "latest metadata" is not preserved for a label set whose old series record is dropped: the untruncated
   log resurrects the old series' metadata for the re-created series (multiRef), the truncated log has none *)
Lemma metadata_refuted :
  exists keep mint mv low high L,
    safe keep mint mv low high /\
    In L (map i_lab (view_items mint (d_items (replay_data mv (low ++ high))))) /\
    lookup L (d_meta (replay_data mv (checkpoint keep mint low ++ high))) <>
    lookup L (d_meta (replay_data mv (low ++ high))).
Proof.
  exists ex_keep, 100, minInt64, ex_low, ex_high, 10. split; [exact ex_safe|].
  split; vm_compute; [tauto|discriminate].
Qed.

(* Reachable in the head model: after Head.Truncate(100) a sample below 100 of the garbage-collected
   series 1 is left in a later segment without any series record (walExpiries[1] = actualInOrderMint = 50
   < 100), so the literal "every record left in the log" form of the precedence statement fails; the
   form "at or after the truncation time" holds. *)
Definition ex_history : list event :=
  [ELog [(0, RSeries [(1, 10); (2, 20)]); (0, RSamples 0 [((1, 50), 1); ((2, 50), 1)])]; ERoll;
   ELog [(1, RSamples 0 [((2, 120), 2)])]; ERoll; ELog [(2, RSamples 0 [((2, 125), 3)])]; ERoll;
   ELog [(3, RSamples 0 [((1, 60), 2); ((2, 130), 4)])];
   ETruncate true 100 [1] 50].

Lemma precede_literal_refuted :
  w_cpidx (h_wal (run ex_history)) = 1 /\
  preceded minInt64 (wal_records (h_wal (run ex_history))) = false /\
  preceded 100 (wal_records (h_wal (run ex_history))) = true.
Proof. vm_compute. auto. Qed.
(* the agent's truncate is an instance too *)
Theorem agent_truncate_records a mint gone last :
  plan_last (w_first (a_wal a)) (w_cur (a_wal a)) = Some last ->
  w_cpidx (a_wal a) <= last ->
  StronglySorted seg_le (w_segs (a_wal a)) ->
  let low := cp_input (a_wal a) last in
  let high := map snd (filter (fun sr => last <? fst sr) (w_segs (a_wal a))) in
  let ser := filter (fun r => negb (memz r gone)) (a_series a) in
  let del := set_all gone (w_cur (a_wal a)) (a_deleted a) in
  wal_records (a_wal a) = low ++ high /\
  wal_records (a_wal (agent_truncate a mint gone)) = checkpoint (agent_keep ser del last) mint low ++ high.
Proof.
  intros Hp Hc Hs low high ser del. split; [apply wal_records_split; auto|].
  unfold agent_truncate. rewrite Hp. unfold wal_records; simpl. rewrite filter_idem. reflexivity.
Qed.

(* the agent keeps a series record as long as a segment that may hold its samples is left: with the
   checkpoint taken up to `last`, every record in a later segment belongs to a series that is kept *)
Theorem agent_truncate_preceded a mint gone last :
  plan_last (w_first (a_wal a)) (w_cur (a_wal a)) = Some last ->
  w_cpidx (a_wal a) <= last ->
  StronglySorted seg_le (w_segs (a_wal a)) ->
  let ser := filter (fun r => negb (memz r gone)) (a_series a) in
  let del := set_all gone (w_cur (a_wal a)) (a_deleted a) in
  (forall x, In x (flat_map (rec_refs_at mint) (wal_records (a_wal a))) -> agent_keep ser del last x = true) ->
  preceded mint (wal_records (a_wal a)) = true ->
  preceded mint (wal_records (a_wal (agent_truncate a mint gone))) = true.
Proof.
  intros Hp Hc Hs ser del HK HP.
  destruct (agent_truncate_records a mint gone last Hp Hc Hs) as [E1 E2].
  rewrite E2. rewrite E1 in HK, HP. apply checkpoint_preceded; auto.
Qed.
