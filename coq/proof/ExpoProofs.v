(* proof/ExpoProofs.v — proofs about model/Expo.v (C35).

   Text format: what the lexer asks about a character ([ordinary]); escaping and unescaping; the
   lexer token by token ([ftoks], the [ft_*] lemmas); parseLVals on a printed label list ([after]);
   then line by line: [parses] says that a printed prefix yields its entries whatever follows, up
   to [text_roundtrip].  After that the toy oracle that shows [oracle_ok] consistent, the
   agreement of the OpenMetrics and text series, the protobuf state machine against its
   per-metric specification, and the witnesses of the refuted statements. *)
From Coq Require Import List NArith ZArith Bool Lia.
From Verif Require Import lib.SortedList model.Expo.
Import ListNotations.
Open Scope N_scope.

Lemma take_while_app_stop : forall p a c rest,
  forallb p a = true -> p c = false -> take_while p (a ++ c :: rest) = a.
Proof.
  induction a as [|x a IH]; intros c rest Ha Hc; simpl in *.
  - now rewrite Hc.
  - apply andb_true_iff in Ha as [Hx Ha]. rewrite Hx. f_equal. now apply IH.
Qed.

Lemma forallb_imp : forall (p q : N -> bool) l, (forall c, p c = true -> q c = true) -> forallb p l = true -> forallb q l = true.
Proof.
  induction l as [|x l IH]; intros Hpq H; simpl in *; auto.
  apply andb_true_iff in H as [Hx Hl]. rewrite (Hpq _ Hx). simpl. auto.
Qed.

Lemma app_line : forall a b c d e f g h : bstr,
  a ++ b ++ c ++ d ++ e ++ f ++ g ++ h = (a ++ b ++ c ++ d ++ e ++ f ++ g) ++ h.
Proof. intros. now rewrite <- !app_assoc. Qed.

Lemma bstr_eqb_refl : forall s, bstr_eqb s s = true.
Proof. induction s; simpl; auto. now rewrite N.eqb_refl. Qed.

Lemma bstr_eqb_eq : forall a b, bstr_eqb a b = true -> a = b.
Proof.
  induction a as [|x a IH]; destruct b as [|y b]; simpl; intros H; try discriminate; auto.
  apply andb_true_iff in H as [H1 H2]. apply N.eqb_eq in H1. subst. f_equal. auto.
Qed.

Lemma strip_ends_quoted : forall s, strip_ends (34 :: s ++ [34]) = s.
Proof.
  intros s. unfold strip_ends, drop_last. simpl tl.
  rewrite app_length. simpl length. replace (length s + 1 - 1)%nat with (length s) by lia.
  rewrite firstn_app. rewrite Nat.sub_diag. simpl. rewrite firstn_all. apply app_nil_r.
Qed.

Definition clean (c : N) : bool := negb (c =? 0).            (* no NUL *)
Definition plain (c : N) : bool := negb (c =? 0) && negb (c =? 34) && negb (c =? 92) && negb (c =? 10).

(* the characters strconv.FormatFloat(_, 'g', -1, 64) and the NaN/Inf spellings consist of *)
Definition is_fchar (c : N) : bool :=
  is_digit c || (c =? 43) || (c =? 45) || (c =? 46) || (c =? 101) || (c =? 78) || (c =? 97) ||
  (c =? 73) || (c =? 110) || (c =? 102).

(* Name characters and the characters of a printed number lie in one range that holds none of
   the bytes the text format gives a meaning of their own (NUL, TAB, LF, space, quote, #, comma,
   =, backslash, braces); whatever the lexer asks about such a character follows from that. *)
Definition ordinary (c : N) : Prop := 43 <= c <= 122 /\ c <> 44 /\ c <> 61 /\ c <> 92.

Lemma ordinary_neqb : forall c k, ordinary c ->
  (k <? 43) || (122 <? k) || (k =? 44) || (k =? 61) || (k =? 92) = true -> (c =? k) = false.
Proof.
  intros c k (R & N44 & N61 & N92) Hk. apply N.eqb_neq. intros ->.
  destruct (N.ltb_spec k 43); [lia|]. destruct (N.ltb_spec 122 k); [lia|].
  destruct (N.eqb_spec k 44); [lia|]. destruct (N.eqb_spec k 61); [lia|].
  destruct (N.eqb_spec k 92); [lia|discriminate].
Qed.

Lemma ordinary_ws : forall c, ordinary c -> is_ws c = false.
Proof. intros c H. unfold is_ws. now rewrite !(ordinary_neqb c _ H) by reflexivity. Qed.

Lemma ordinary_plain : forall c, ordinary c -> plain c = true.
Proof. intros c H. unfold plain. now rewrite !(ordinary_neqb c _ H) by reflexivity. Qed.

Lemma ordinary_valchar : forall c, ordinary c -> is_valchar c = true.
Proof.
  intros c H. unfold is_valchar, not_nl. rewrite (ordinary_ws c H).
  now rewrite !(ordinary_neqb c _ H) by reflexivity.
Qed.

Lemma ordinary_ascii : forall c, ordinary c -> (c <? 128) = true.
Proof. intros c [R _]. apply N.ltb_lt. lia. Qed.

Lemma mstart_mchar : forall c, is_mstart c = true -> is_mchar c = true.
Proof. intros c H. unfold is_mchar. now rewrite H. Qed.
Lemma alpha_mstart : forall c, is_alpha c = true -> is_mstart c = true.
Proof. intros c H. unfold is_mstart. now rewrite H. Qed.
Lemma digit_mchar : forall c, is_digit c = true -> is_mchar c = true.
Proof. intros c H. unfold is_mchar. rewrite H. apply orb_true_r. Qed.
Lemma lchar_mchar : forall c, is_lchar c = true -> is_mchar c = true.
Proof.
  intros c H. apply orb_prop in H as [H|H].
  - now apply mstart_mchar, alpha_mstart.
  - now apply digit_mchar.
Qed.

Lemma range_true : forall lo hi c, (lo <=? c) && (c <=? hi) = true -> lo <= c <= hi.
Proof. intros lo hi c H. apply andb_prop in H as [H1 H2]. now apply N.leb_le in H1, H2. Qed.

Lemma mchar_ordinary : forall c, is_mchar c = true -> ordinary c.
Proof.
  intros c H. unfold ordinary.
  apply orb_prop in H as [H|H]; [apply orb_prop in H as [H|H]; [apply orb_prop in H as [H|H];
    [apply orb_prop in H as [H|H]|]|]|].
  1, 2, 5: apply range_true in H; lia.
  all: apply N.eqb_eq in H; lia.
Qed.

Lemma or_point : forall (P : N -> Prop) b c k, P k -> (b = true -> P c) -> b || (c =? k) = true -> P c.
Proof.
  intros P b c k Hk Hb H. apply orb_prop in H as [H|H]; [auto|]. apply N.eqb_eq in H. now subst.
Qed.

Lemma fchar_ordinary : forall c, is_fchar c = true ->
  ordinary c /\ (c =? 112) || (c =? 80) || (c =? 95) = false.
Proof.
  intros c. set (P := fun c => ordinary c /\ (c =? 112) || (c =? 80) || (c =? 95) = false).
  change (is_fchar c = true -> P c). unfold is_fchar.
  (* the nine letters and signs, one after the other, then the digits *)
  do 9 (apply (or_point P); [split; [unfold ordinary; lia|reflexivity]|]).
  intros H. split; [now apply mchar_ordinary, digit_mchar|].
  apply range_true in H. now rewrite !(proj2 (N.eqb_neq c _)) by lia.
Qed.

Lemma plain_clean : forall s, forallb plain s = true -> forallb clean s = true.
Proof.
  intros s. apply forallb_imp. intros c H. unfold plain in H.
  now apply andb_prop in H as [H _], H as [H _], H as [H _].
Qed.

Lemma plain_no_bs : forall s, forallb plain s = true -> forallb (fun c => negb (c =? 92)) s = true.
Proof.
  intros s. apply forallb_imp. intros c H. unfold plain in H.
  now apply andb_prop in H as [H _], H as [_ H].
Qed.

Definition legacy_l (s : bstr) : bool :=
  match s with c :: r => is_alpha c && forallb is_lchar r | [] => false end.

Lemma legacy_l_name : forall s, legacy_l s = true -> is_legacy_name s = true.
Proof.
  intros [|c r] H; [discriminate|]. apply andb_prop in H as [Hc Hr]. simpl.
  now rewrite (alpha_mstart c Hc), (forallb_imp _ _ r lchar_mchar Hr).
Qed.

Lemma legacy_name_plain : forall s, is_legacy_name s = true -> forallb plain s = true.
Proof.
  intros [|c r] H; [discriminate|]. apply andb_prop in H as [Hc Hr].
  apply (forallb_imp is_mchar); [intros x Hx; now apply ordinary_plain, mchar_ordinary|].
  simpl. now rewrite (mstart_mchar c Hc).
Qed.

Lemma esc_char_cases : forall q c,
  (c = 92 /\ esc_char q c = [92; 92]) \/ (c = 10 /\ esc_char q c = [92; 110]) \/
  (q = true /\ c = 34 /\ esc_char q c = [92; 34]) \/
  ((c =? 92) = false /\ (c =? 10) = false /\ q && (c =? 34) = false /\ esc_char q c = [c]).
Proof.
  intros q c. unfold esc_char.
  destruct (N.eqb_spec c 92) as [->|_]; [now left|].
  destruct (N.eqb_spec c 10) as [->|_]; [now right; left|].
  destruct q.
  - destruct (N.eqb_spec c 34) as [->|_].
    + right; right; left. repeat split.
    + right; right; right. repeat split.
  - right; right; right. repeat split.
Qed.

Lemma unreplace_escape : forall q s, unreplace q (escape q s) = s.
Proof.
  induction s as [|c s IH]; simpl; auto.
  destruct (esc_char_cases q c) as [[-> ->]|[[-> ->]|[(-> & -> & ->)|(E92 & _ & _ & ->)]]]; simpl.
  - now rewrite IH.
  - now rewrite IH.
  - now rewrite IH.
  - now rewrite E92, IH.
Qed.

Lemma unreplace_plain : forall q s, forallb (fun c => negb (c =? 92)) s = true -> unreplace q s = s.
Proof.
  induction s as [|c s IH]; simpl; auto. intros H. apply andb_true_iff in H as [H1 H2].
  apply negb_true_iff in H1. rewrite H1. now rewrite IH.
Qed.

Lemma escape_plain : forall q s, forallb plain s = true -> escape q s = s.
Proof.
  induction s as [|c s IH]; simpl; auto. intros H. apply andb_true_iff in H as [H1 H2].
  rewrite (IH H2).
  destruct (esc_char_cases q c) as [[-> _]|[[-> _]|[(_ & -> & _)|(_ & _ & _ & ->)]]];
    [discriminate H1 ..|reflexivity].
Qed.

(* the quoted-string automaton accepts an escaped string up to its closing quote *)
Lemma qscan_escape : forall s rest, forallb clean s = true ->
  qscan true (escape true s ++ 34 :: rest) = Some (escape true s ++ [34]).
Proof.
  induction s as [|c s IH]; intros rest H; simpl in *; auto.
  apply andb_true_iff in H as [Hc Hs]. apply negb_true_iff in Hc.
  destruct (esc_char_cases true c) as [[-> ->]|[[-> ->]|[(_ & -> & ->)|(E92 & _ & E34 & ->)]]]; simpl.
  - now rewrite (IH rest Hs).
  - now rewrite (IH rest Hs).
  - now rewrite (IH rest Hs).
  - simpl in E34. rewrite E34, E92, Hc. simpl. now rewrite (IH rest Hs).
Qed.

Lemma escape_not_nl : forall q s, forallb clean s = true -> forallb not_nl (escape q s) = true.
Proof.
  induction s as [|c s IH]; simpl; auto. intros H. apply andb_true_iff in H as [Hc Hs].
  rewrite forallb_app, (IH Hs), andb_true_r.
  destruct (esc_char_cases q c) as [[_ ->]|[[_ ->]|[(_ & _ & ->)|(_ & E10 & _ & ->)]]]; try reflexivity.
  unfold clean in Hc. simpl. unfold not_nl. now rewrite E10, Hc.
Qed.

Lemma existsb_nonws_escape : forall q h, existsb (fun c => negb (is_ws c)) h = true ->
  existsb (fun c => negb (is_ws c)) (escape q h) = true.
Proof.
  induction h as [|c h IH]; simpl; [discriminate|]. intros H. rewrite existsb_app.
  apply orb_true_iff in H as [H|H]; [|rewrite (IH H); apply orb_true_r].
  apply orb_true_iff; left.
  destruct (esc_char_cases q c) as [[_ ->]|[[_ ->]|[(_ & _ & ->)|(_ & _ & _ & ->)]]]; try reflexivity.
  simpl. now rewrite H.
Qed.

Lemma utf8_ascii : forall s, forallb (fun c => c <? 128) s = true -> utf8_valid s = true.
Proof.
  induction s as [|c s IH]; simpl; auto. intros H. apply andb_true_iff in H as [H1 H2]. rewrite H1. auto.
Qed.

Section TokStream.
Variable lex : lstate -> bstr -> token * bstr * lstate.

Lemma toks_skip : forall w st rest, toks lex (length w) st (w ++ rest) = toks lex 0 st rest.
Proof. induction w; intros; simpl; auto. Qed.

Lemma toks_step : forall st txt rest t st',
  txt <> [] -> lex st (txt ++ rest) = (t, txt, st') -> is_stop t = false ->
  toks lex 0 st (txt ++ rest) = (t, txt) :: toks lex 0 st' rest.
Proof.
  intros st txt rest t st' Hne Hlex Hstop.
  destruct txt as [|c w]; [congruence|].
  cbn [app toks] in Hlex |- *. rewrite Hlex, Hstop. cbn [length]. now rewrite toks_skip.
Qed.

(* an empty token (only the empty HELP text) followed by the next, non-empty one *)
Lemma toks_step0 : forall st c r t st1 t2 txt2 st2 rest,
  c :: r = txt2 ++ rest -> txt2 <> [] ->
  lex st (c :: r) = (t, [], st1) -> is_stop t = false ->
  lex st1 (c :: r) = (t2, txt2, st2) -> is_stop t2 = false ->
  toks lex 0 st (c :: r) = (t, []) :: (t2, txt2) :: toks lex 0 st2 rest.
Proof.
  intros st c r t st1 t2 txt2 st2 rest Heq Hne H1 Hs1 H2 Hs2.
  simpl. rewrite H1, Hs1. simpl. rewrite H2, Hs2.
  destruct txt2 as [|c2 w2]; [congruence|]. simpl in Heq. injection Heq as -> ->.
  change (length (c2 :: w2)) with (S (length w2)). cbv iota beta. now rewrite toks_skip.
Qed.
End TokStream.

Lemma lex_name_init : forall c r, is_mstart c = true ->
  lex_prom' sInit (c :: r) = (tMName, c :: take_while is_mchar r, sValue).
Proof.
  intros c r H. pose proof (mchar_ordinary c (mstart_mchar c H)) as W. unfold lex_prom', lex_prom.
  now rewrite (ordinary_ws c W), H, !(ordinary_neqb c _ W) by reflexivity.
Qed.

Lemma lex_name_meta : forall c r, is_mstart c = true ->
  lex_prom' sMeta1 (c :: r) = (tMName, c :: take_while is_mchar r, sMeta2).
Proof.
  intros c r H. pose proof (mchar_ordinary c (mstart_mchar c H)) as W. unfold lex_prom', lex_prom.
  now rewrite (ordinary_ws c W), H, !(ordinary_neqb c _ W) by reflexivity.
Qed.

Lemma lex_lname : forall c r, is_alpha c = true ->
  lex_prom' sLabels (c :: r) = (tLName, c :: take_while is_lchar r, sLabels).
Proof.
  intros c r H. pose proof (mchar_ordinary c (mstart_mchar c (alpha_mstart c H))) as W.
  unfold lex_prom', lex_prom.
  now rewrite (ordinary_ws c W), H, !(ordinary_neqb c _ W) by reflexivity.
Qed.

Lemma lex_value : forall c r, is_valchar c = true ->
  lex_prom' sValue (c :: r) = (tValue, c :: take_while is_valchar r, sTimestamp).
Proof.
  intros c r H. unfold lex_prom', lex_prom. cbn [take_while]. rewrite H.
  unfold is_valchar in H. apply andb_prop in H as [H _]. apply andb_prop in H as [H1 H2].
  apply negb_true_iff in H1, H2. now rewrite H1, H2.
Qed.

Lemma lex_ts : forall c r, is_digit c = true ->
  lex_prom' sTimestamp (c :: r) = (tTimestamp, c :: take_while is_digit r, sTimestamp).
Proof.
  intros c r H. pose proof (mchar_ordinary c (digit_mchar c H)) as W.
  unfold lex_prom', lex_prom. cbn [take_while].
  now rewrite (ordinary_ws c W), H, !(ordinary_neqb c _ W) by reflexivity.
Qed.

Definition ftoks (st : lstate) (b : bstr) : list tok := filter not_ws_tok (toks lex_prom' 0 st b).

Lemma ftoks_tok : forall st txt rest t st',
  txt <> [] -> lex_prom' st (txt ++ rest) = (t, txt, st') -> is_stop t = false -> not_ws_tok (t, txt) = true ->
  ftoks st (txt ++ rest) = (t, txt) :: ftoks st' rest.
Proof.
  intros. unfold ftoks. rewrite (toks_step lex_prom' st txt rest t st'); auto. simpl filter. now rewrite H2.
Qed.

Lemma ftoks_ws : forall st txt rest st',
  txt <> [] -> lex_prom' st (txt ++ rest) = (tWhitespace, txt, st') -> ftoks st (txt ++ rest) = ftoks st' rest.
Proof.
  intros. unfold ftoks. rewrite (toks_step lex_prom' st txt rest tWhitespace st'); auto.
Qed.

(* a token that is a maximal run of a character class, up to a character outside the class *)
Lemma ft_run : forall st t st' p c r x rest,
  (forall r', lex_prom' st (c :: r') = (t, c :: take_while p r', st')) ->
  is_stop t = false -> not_ws_tok (t, c :: r) = true -> forallb p r = true -> p x = false ->
  ftoks st ((c :: r) ++ x :: rest) = (t, c :: r) :: ftoks st' (x :: rest).
Proof.
  intros st t st' p c r x rest L S NW Hr Hx. apply ftoks_tok; auto; [discriminate|].
  cbn [app]. rewrite L. now rewrite take_while_app_stop.
Qed.

Lemma ft_mname : forall nm x rest, is_legacy_name nm = true -> is_mchar x = false ->
  ftoks sInit (nm ++ x :: rest) = (tMName, nm) :: ftoks sValue (x :: rest).
Proof.
  intros [|c r] x rest Hn Hx; [discriminate|]. apply andb_prop in Hn as [Hc Hr].
  apply (ft_run sInit tMName sValue is_mchar); auto. intros r'. now apply lex_name_init.
Qed.

Lemma ft_mname_meta : forall nm rest, is_legacy_name nm = true ->
  ftoks sMeta1 (nm ++ 32 :: rest) = (tMName, nm) :: ftoks sMeta2 (32 :: rest).
Proof.
  intros [|c r] rest Hn; [discriminate|]. apply andb_prop in Hn as [Hc Hr].
  apply (ft_run sMeta1 tMName sMeta2 is_mchar); auto. intros r'. now apply lex_name_meta.
Qed.

Lemma ft_lname : forall ln rest, legacy_l ln = true ->
  ftoks sLabels (ln ++ 61 :: rest) = (tLName, ln) :: ftoks sLabels (61 :: rest).
Proof.
  intros [|c r] rest Hn; [discriminate|]. apply andb_prop in Hn as [Hc Hr].
  apply (ft_run sLabels tLName sLabels is_lchar); auto. intros r'. now apply lex_lname.
Qed.

Definition quoted (s : bstr) : bstr := 34 :: escape true s ++ [34].
Arguments quoted : simpl never.

Lemma strip_ends_q : forall s, strip_ends (quoted s) = escape true s.
Proof. intros. unfold quoted. apply strip_ends_quoted. Qed.

Lemma quoted_app : forall s rest, quoted s ++ rest = 34 :: escape true s ++ 34 :: rest.
Proof. intros. unfold quoted. simpl. now rewrite <- app_assoc. Qed.

Lemma ft_quoted : forall st t st' s rest, forallb clean s = true ->
  (st = sLabels /\ t = tQString /\ st' = sLabels) \/ (st = sLValue /\ t = tLValue /\ st' = sLabels) \/
  (st = sMeta1 /\ t = tMName /\ st' = sMeta2) ->
  ftoks st (quoted s ++ rest) = (t, quoted s) :: ftoks st' rest.
Proof.
  intros st t st' s rest Hs Hcase.
  apply ftoks_tok; [discriminate|rewrite quoted_app|..];
    destruct Hcase as [(-> & -> & ->)|[(-> & -> & ->)|(-> & -> & ->)]]; try reflexivity;
    cbn [lex_prom' lex_prom is_ws N.eqb Pos.eqb orb]; now rewrite qscan_escape.
Qed.

Lemma ft_char : forall st c t st' rest,
  lex_prom' st (c :: rest) = (t, [c], st') -> is_stop t = false -> not_ws_tok (t, [c]) = true ->
  ftoks st (c :: rest) = (t, [c]) :: ftoks st' rest.
Proof. intros. change (c :: rest) with ([c] ++ rest). apply ftoks_tok; auto. discriminate. Qed.

Lemma ft_open_v : forall rest, ftoks sValue (123 :: rest) = (tBraceOpen, [123]) :: ftoks sLabels rest.
Proof. intros. now apply ft_char. Qed.
Lemma ft_open_i : forall rest, ftoks sInit (123 :: rest) = (tBraceOpen, [123]) :: ftoks sLabels rest.
Proof. intros. now apply ft_char. Qed.
Lemma ft_equal : forall rest, ftoks sLabels (61 :: rest) = (tEqual, [61]) :: ftoks sLValue rest.
Proof. intros. now apply ft_char. Qed.
Lemma ft_comma : forall rest, ftoks sLabels (44 :: rest) = (tComma, [44]) :: ftoks sLabels rest.
Proof. intros. now apply ft_char. Qed.
Lemma ft_close : forall rest, ftoks sLabels (125 :: rest) = (tBraceClose, [125]) :: ftoks sValue rest.
Proof. intros. now apply ft_char. Qed.
Lemma ft_lb_ts : forall rest, ftoks sTimestamp (10 :: rest) = (tLinebreak, [10]) :: ftoks sInit rest.
Proof. intros. now apply ft_char. Qed.
Lemma ft_lb_init : forall rest, ftoks sInit (10 :: rest) = (tLinebreak, [10]) :: ftoks sInit rest.
Proof. intros. now apply ft_char. Qed.

(* a blank followed by a non-blank: one whitespace token *)
Lemma ft_space : forall st c rest, st <> sMeta2 -> is_ws c = false ->
  ftoks st (32 :: c :: rest) = ftoks st (c :: rest).
Proof.
  intros st c rest Hst Hc. change (32 :: c :: rest) with ([32] ++ c :: rest).
  apply ftoks_ws; [discriminate|]. destruct st; try congruence; simpl; now rewrite Hc.
Qed.

Lemma valchar_ws : forall c, is_valchar c = true -> is_ws c = false.
Proof.
  intros c H. apply andb_prop in H as [H _]. apply andb_prop in H as [_ H]. now apply negb_true_iff.
Qed.

Lemma ft_value : forall v x rest, v <> [] -> forallb is_valchar v = true -> is_valchar x = false ->
  ftoks sValue (32 :: v ++ x :: rest) = (tValue, v) :: ftoks sTimestamp (x :: rest).
Proof.
  intros [|c r] x rest Hne Hv Hx; [congruence|]. apply andb_prop in Hv as [Hc Hr].
  cbn [app]. rewrite ft_space; [|discriminate|now apply valchar_ws].
  apply (ft_run sValue tValue sTimestamp is_valchar); auto. intros r'. now apply lex_value.
Qed.

Lemma ft_ts : forall d rest, d <> [] -> forallb is_digit d = true ->
  ftoks sTimestamp (32 :: d ++ 10 :: rest) = (tTimestamp, d) :: ftoks sTimestamp (10 :: rest).
Proof.
  intros [|c r] rest Hne Hd; [congruence|]. apply andb_prop in Hd as [Hc Hr].
  cbn [app]. rewrite ft_space; [|discriminate|now apply ordinary_ws, mchar_ordinary, digit_mchar].
  apply (ft_run sTimestamp tTimestamp sTimestamp is_digit); auto. intros r'. now apply lex_ts.
Qed.

(* "# HELP " / "# TYPE " before a name *)
Lemma ft_keyword : forall kw ktok X,
  (kw = s_HELP /\ ktok = tHelp) \/ (kw = s_TYPE /\ ktok = tType) -> take_while is_ws X = [] ->
  ftoks sInit (hash_sp ++ kw ++ 32 :: X) = (ktok, hash_sp ++ kw ++ [32]) :: ftoks sMeta1 X.
Proof.
  intros kw ktok X Hk HX.
  replace (hash_sp ++ kw ++ 32 :: X) with ((hash_sp ++ kw ++ [32]) ++ X) by now rewrite <- !app_assoc.
  destruct Hk as [[-> ->]|[-> ->]]; (apply ftoks_tok; try reflexivity; try discriminate); cbn; now rewrite HX.
Qed.

(* the first non-blank character of [body] is where the lexer stops skipping blanks *)
Lemma skip_ws : forall body tail, existsb (fun c => negb (is_ws c)) body = true ->
  exists d t, skipn (length (take_while is_ws (body ++ tail))) (body ++ tail) = d :: t /\ In d body.
Proof.
  induction body as [|c body IH]; simpl; [discriminate|]. intros tail H.
  destruct (is_ws c); simpl in *; [|now exists c, (body ++ tail); auto].
  destruct (IH tail H) as (d & t & E & I). exists d, t. auto.
Qed.

(* the text of a HELP/TYPE line: a blank, then text with a non-blank character, up to the newline *)
Lemma ft_text : forall body rest, forallb not_nl body = true -> existsb (fun c => negb (is_ws c)) body = true ->
  ftoks sMeta2 (32 :: body ++ 10 :: rest) = (tText, 32 :: body) :: ftoks sInit (10 :: rest).
Proof.
  intros body rest Hnl Hex.
  change (32 :: body ++ 10 :: rest) with ((32 :: body) ++ 10 :: rest).
  apply ftoks_tok; try reflexivity; try discriminate.
  destruct (skip_ws body (10 :: rest) Hex) as (d & t & E & I).
  simpl. rewrite E, (proj1 (forallb_forall _ _) Hnl d I).
  now rewrite take_while_app_stop.
Qed.

Definition lname_ok (ln : bstr) : Prop :=
  if is_legacy_name ln then legacy_l ln = true else forallb clean ln = true.
Definition item_ok (j : lp) : Prop :=
  lname_ok (fst j) /\ forallb clean (snd j) = true /\ utf8_valid (quoted (snd j)) = true.

Definition name_tok (ln : bstr) : tok := if is_legacy_name ln then (tLName, ln) else (tQString, quoted ln).
Definition item_toks (j : lp) : list tok := [name_tok (fst j); (tEqual, [61]); (tLValue, quoted (snd j))].
Definition raw (j : lp) : lp := (escape true (fst j), escape true (snd j)).
Definition comma_items (r : list lp) : list tok := flat_map (fun j => (tComma, [44]) :: item_toks j) r.

Lemma write_name_quoted : forall s, is_legacy_name s = false -> write_name s = quoted s.
Proof. intros s H. unfold write_name. now rewrite H. Qed.

Lemma pair_item_app : forall j X, pair_item j ++ X = write_name (fst j) ++ 61 :: quoted (snd j) ++ X.
Proof. intros [ln lv] X. unfold pair_item, quoted. simpl. repeat rewrite <- app_assoc. simpl. repeat rewrite <- app_assoc. reflexivity. Qed.

Lemma ft_item : forall j X, item_ok j -> ftoks sLabels (pair_item j ++ X) = item_toks j ++ ftoks sLabels X.
Proof.
  intros [ln lv] X (Hn & Hv & _). rewrite pair_item_app. unfold item_toks, name_tok, lname_ok in *. simpl fst in *. simpl snd in *.
  unfold write_name. destruct (is_legacy_name ln) eqn:E.
  - rewrite ft_lname by assumption. rewrite ft_equal. rewrite (ft_quoted sLValue tLValue sLabels) by auto. reflexivity.
  - fold (quoted ln). rewrite (ft_quoted sLabels tQString sLabels) by auto. rewrite ft_equal.
    rewrite (ft_quoted sLValue tLValue sLabels) by auto. reflexivity.
Qed.

Lemma ft_tail_items : forall r rest, Forall item_ok r ->
  ftoks sLabels (join_items 44 (map pair_item r) ++ 125 :: rest) =
  comma_items r ++ (tBraceClose, [125]) :: ftoks sValue rest.
Proof.
  induction r as [|j r IH]; intros rest H; simpl.
  - apply ft_close.
  - inversion H as [|? ? Hj Hr]; subst. rewrite ft_comma. rewrite <- app_assoc. rewrite ft_item by assumption.
    rewrite IH by assumption. unfold item_toks. simpl. reflexivity.
Qed.

Lemma tok_is_refl_false_eq : tok_is tComma (tEqual, [61]) = false /\ tok_is tBraceClose (tEqual, [61]) = false.
Proof. split; reflexivity. Qed.

Lemma raw_of_item : forall ln lv, lname_ok ln ->
  ((if is_legacy_name ln then ln else strip_ends (quoted ln)), strip_ends (quoted lv)) = raw (ln, lv).
Proof.
  intros ln lv Hn. unfold raw, lname_ok in *. simpl. rewrite !strip_ends_q.
  destruct (is_legacy_name ln); auto.
  now rewrite (escape_plain true ln) by now apply legacy_name_plain, legacy_l_name.
Qed.

(* parseLVals once a label has been read: a comma continues the list, the closing brace ends it,
   anything else is taken for the next label *)
Definition after (nm : option bstr) (acc : list lp) (T : list tok) : lvres :=
  match T with
  | (tComma, _) :: T' => parse_lvals false false nm acc T'
  | (tBraceClose, _) :: T' => LVOk nm (rev acc) T'
  | _ => parse_lvals false false nm acc T
  end.

Lemma parse_lvals_item : forall j nm acc T, item_ok j ->
  parse_lvals false false nm acc (item_toks j ++ T) = after nm (raw j :: acc) T.
Proof.
  intros [ln lv] nm acc T (Hn & Hv & Hu). simpl fst in *. simpl snd in *.
  assert (Hu' : utf8_valid (escape true lv ++ [34]) = true) by exact Hu.
  rewrite <- (raw_of_item ln lv Hn).
  change (item_toks (ln, lv)) with [name_tok ln; (tEqual, [61]); (tLValue, quoted lv)].
  unfold name_tok, after. destruct (is_legacy_name ln); simpl; rewrite Hu'; reflexivity.
Qed.

Lemma parse_lvals_qname : forall q x T,
  parse_lvals false false None [] ((tQString, q) :: (tComma, x) :: T) =
  parse_lvals false false (Some (strip_ends q)) [] T.
Proof. reflexivity. Qed.

Lemma after_items : forall r nm acc c R, Forall item_ok r ->
  after nm acc (comma_items r ++ (tBraceClose, c) :: R) = LVOk nm (rev acc ++ map raw r) R.
Proof.
  induction r as [|j r IH]; intros nm acc c R H.
  - simpl. now rewrite app_nil_r.
  - inversion H as [|? ? Hj Hr]; subst.
    change (after nm acc (comma_items (j :: r) ++ (tBraceClose, c) :: R))
      with (parse_lvals false false nm acc ((item_toks j ++ comma_items r) ++ (tBraceClose, c) :: R)).
    rewrite <- app_assoc, parse_lvals_item, IH by assumption. simpl. now rewrite <- app_assoc.
Qed.

(* with a quoted metric name every label is preceded by a comma, so no labels is no special case *)
Definition head_toks (nm : bstr) (its : list lp) : list tok :=
  if is_legacy_name nm then
    (tMName, nm) :: match its with
                    | [] => []
                    | i :: r => (tBraceOpen, [123]) :: item_toks i ++ comma_items r ++ [(tBraceClose, [125])]
                    end
  else (tBraceOpen, [123]) :: (tQString, quoted nm) :: comma_items its ++ [(tBraceClose, [125])].

Definition name_ok (nm : bstr) : Prop := nm <> [] /\ forallb clean nm = true.

Opaque quoted.
Lemma ft_head : forall nm ls extra its X,
  name_ok nm -> map pair_item ls ++ extra = map pair_item its -> Forall item_ok its ->
  ftoks sInit (name_and_labels nm ls extra ++ 32 :: X) = head_toks nm its ++ ftoks sValue (32 :: X).
Proof.
  intros nm ls extra its X [Hne Hcl] Hits Hok.
  unfold name_and_labels, head_toks. rewrite Hits.
  assert (Hnil : is_nil nm = false) by (destruct nm; [congruence|reflexivity]). rewrite Hnil.
  destruct (is_legacy_name nm) eqn:E; simpl negb; cbv iota.
  - unfold write_name. rewrite E. destruct its as [|i r]; simpl map; simpl is_nil; cbv iota.
    + rewrite app_nil_r. now apply ft_mname.
    + inversion Hok as [|? ? Hi Hr]; subst.
      simpl join_items. repeat rewrite <- app_assoc. simpl app.
      rewrite ft_mname by auto. rewrite ft_open_v. repeat rewrite <- app_assoc.
      rewrite ft_item by assumption. rewrite ft_tail_items by assumption.
      repeat rewrite <- app_assoc. reflexivity.
  - rewrite write_name_quoted by assumption. cbn [andb].
    destruct its as [|i r]; cbn [map is_nil]; rewrite <- !app_assoc; cbn [app];
      rewrite ft_open_i, (ft_quoted sLabels tQString sLabels) by auto.
    + now rewrite ft_close.
    + rewrite (ft_tail_items (i :: r)) by assumption. cbn [app]. now rewrite <- app_assoc.
Qed.
Transparent quoted.

Definition rawname (nm : bstr) : bstr := if is_legacy_name nm then nm else escape true nm.

Lemma unreplace_rawname : forall nm, unreplace true (rawname nm) = nm.
Proof.
  intros nm. unfold rawname. destruct (is_legacy_name nm) eqn:E.
  - apply unreplace_plain. apply plain_no_bs. now apply legacy_name_plain.
  - apply unreplace_escape.
Qed.

Record oracle_ok (O : oracles) : Prop := {
  ok_shape : forall f, o_ftext O f <> [] /\ forallb is_fchar (o_ftext O f) = true;
  ok_parse : forall f, exists b, o_pfloat O (o_ftext O f) = Some b /\ canon_nan b = canon_txt f;
  ok_norm : forall f, o_norm O (o_ftext O f) = Some (o_fom O f);
  ok_int : forall z, (0 <= z)%Z ->
           o_fint O z <> [] /\ forallb is_digit (o_fint O z) = true /\ o_pint O (o_fint O z) = Some z }.

Lemma forallb_fchar : forall s, forallb is_fchar s = true ->
  forallb is_valchar s = true /\ forallb plain s = true /\ forallb (fun c => c <? 128) s = true /\
  existsb (fun c => (c =? 112) || (c =? 80) || (c =? 95)) s = false.
Proof.
  induction s as [|c s IH]; simpl; intros H; [auto|].
  apply andb_true_iff in H as [Hc Hs]. destruct (fchar_ordinary c Hc) as [W D].
  destruct (IH Hs) as (A' & B' & C' & D').
  now rewrite (ordinary_valchar c W), (ordinary_plain c W), (ordinary_ascii c W), D, A', B', C', D'.
Qed.

Lemma quoted_plain_ascii_utf8 : forall s, forallb plain s = true -> forallb (fun c => c <? 128) s = true ->
  utf8_valid (quoted s) = true.
Proof.
  intros s Hp Ha. unfold quoted. rewrite (escape_plain true s Hp). apply utf8_ascii.
  simpl. rewrite forallb_app, Ha. reflexivity.
Qed.

Definition lines_of (b : bstr) : list (list tok) := split_after (tok_is tLinebreak) [] (ftoks sInit b).
Definition nolb (t : tok) : bool := negb (tok_is tLinebreak t).

Lemma split_after_line : forall body cur T, forallb nolb body = true ->
  split_after (tok_is tLinebreak) cur (body ++ (tLinebreak, [10]) :: T) =
  (rev cur ++ body ++ [(tLinebreak, [10])]) :: split_after (tok_is tLinebreak) [] T.
Proof.
  induction body as [|t body IH]; intros cur T H.
  - reflexivity.
  - cbn [forallb] in H. apply andb_true_iff in H as [Ht Hb]. unfold nolb in Ht. apply negb_true_iff in Ht.
    cbn [app split_after]. rewrite Ht.
    rewrite IH by assumption. cbn [rev]. rewrite <- app_assoc. reflexivity.
Qed.

Lemma nolb_comma_items : forall r, forallb nolb (comma_items r) = true.
Proof.
  induction r as [|j r IH]; simpl; auto. unfold name_tok. destruct (is_legacy_name (fst j)); simpl; auto.
Qed.

Lemma nolb_head : forall nm its, forallb nolb (head_toks nm its) = true.
Proof.
  intros nm its. unfold head_toks. destruct (is_legacy_name nm).
  - destruct its as [|i r]; [reflexivity|].
    cbn [forallb]. rewrite !forallb_app, nolb_comma_items.
    unfold item_toks, name_tok. destruct (is_legacy_name (fst i)); reflexivity.
  - cbn [forallb]. rewrite forallb_app, nolb_comma_items. reflexivity.
Qed.

Definition user_label_ok (tc : N) (l : lp) : Prop :=
  ((tc =? 3) && bstr_eqb (fst l) s_quantile) || ((tc =? 4) && bstr_eqb (fst l) s_le) = false.

Definition ts_ok (ts : option Z) : Prop := match ts with Some t => (0 <= t)%Z | None => True end.
Definition ts_ok' := ts_ok.

Definition wf_metric (tc : N) (m : metric) : Prop :=
  Forall item_ok (m_labels m) /\ Forall (user_label_ok tc) (m_labels m) /\ ts_ok (m_ts m).
Definition fname_ok (n : bstr) : Prop := n <> [] /\ forallb plain n = true.
Definition help_ok (h : bstr) : Prop :=
  forallb clean h = true /\ existsb (fun c => negb (is_ws c)) h = true /\ utf8_valid (escape false h) = true.
Definition wf_family (f : family) : Prop :=
  fname_ok (f_name f) /\ match f_help f with Some h => help_ok h | None => True end /\
  Forall (wf_metric (text_tcode (f_type f))) (f_metrics f).

Lemma le_legacy : is_legacy_name s_le = true /\ legacy_l s_le = true /\
                  is_legacy_name s_quantile = true /\ legacy_l s_quantile = true.
Proof. repeat split; reflexivity. Qed.

Lemma name_ok_suffix : forall n suf, fname_ok n -> forallb clean suf = true -> name_ok (n ++ suf).
Proof.
  intros n suf [Hne Hp] Hs. split.
  - destruct n; [congruence|discriminate].
  - rewrite forallb_app, Hs, (plain_clean n Hp). reflexivity.
Qed.

Lemma write_name_head : forall n Y, fname_ok n -> take_while is_ws (write_name n ++ Y) = [].
Proof.
  intros n Y [Hne Hp]. unfold write_name. destruct (is_legacy_name n) eqn:E; [|reflexivity].
  destruct n as [|c r]; [congruence|]. apply andb_prop in E as [Hc _]. simpl.
  now rewrite (ordinary_ws c (mchar_ordinary c (mstart_mchar c Hc))).
Qed.

Lemma meta_name_write : forall n, fname_ok n -> meta_name (write_name n) = n.
Proof.
  intros n [Hne Hp]. unfold write_name. destruct (is_legacy_name n) eqn:E.
  - destruct n as [|c r]; [congruence|]. apply andb_prop in E as [Hc _]. unfold meta_name.
    now rewrite (ordinary_neqb c 34 (mchar_ordinary c (mstart_mchar c Hc))).
  - rewrite (escape_plain true n Hp). unfold meta_name.
    change (34 :: n ++ [34]) with ((34 :: n) ++ [34]) at 1. rewrite last_last.
    apply strip_ends_quoted.
Qed.

Lemma ft_meta_name : forall n Y, fname_ok n ->
  ftoks sMeta1 (write_name n ++ 32 :: Y) = (tMName, write_name n) :: ftoks sMeta2 (32 :: Y).
Proof.
  intros n Y [Hne Hp]. unfold write_name. destruct (is_legacy_name n) eqn:E.
  - now apply ft_mname_meta.
  - fold (quoted n). apply (ft_quoted sMeta1 tMName sMeta2); auto. now apply plain_clean.
Qed.

Section Text.
Variable O : oracles.
Variable tu : bool.
Hypothesis HO : oracle_ok O.

Lemma prom_line_head : forall tc nm its v R0, Forall item_ok its ->
  prom_line O tu tc (head_toks nm its ++ (tValue, v) :: R0) =
  prom_series O tu tc (Some (rawname nm)) (map raw its) ((tValue, v) :: R0).
Proof.
  intros tc nm its v R0 Hok. unfold head_toks, rawname.
  destruct (is_legacy_name nm); destruct its as [|i r]; try reflexivity.
  - inversion Hok; subst. cbn [app prom_line]. rewrite <- !app_assoc. cbn [app].
    now rewrite parse_lvals_item, after_items.
  - cbn. now rewrite strip_ends_q.
  - inversion Hok; subst. cbn [app prom_line comma_items flat_map]. rewrite <- !app_assoc. cbn [app].
    now rewrite parse_lvals_qname, parse_lvals_item, after_items, strip_ends_q.
Qed.

Definition Lfun := fun (tc : N) (_ : bstr) (l : list tok) => prom_line O tu tc l.

(* the bytes [b] at the head of the input make the parser in type context [tc] yield the entries
   [es] and leave it in context [tc'] at the rest of the input *)
Definition parses (tc : N) (b : bstr) (es : list entry) (tc' : N) : Prop :=
  forall rest, run_lines Lfun tc [] (lines_of (b ++ rest)) =
               (es ++ fst (run_lines Lfun tc' [] (lines_of rest)), snd (run_lines Lfun tc' [] (lines_of rest))).

Lemma parses_nil : forall tc, parses tc [] [] tc.
Proof. intros tc rest. simpl. now destruct (run_lines Lfun tc [] (lines_of rest)). Qed.

Lemma parses_app : forall tc b1 es1 tc1 b2 es2 tc2,
  parses tc b1 es1 tc1 -> parses tc1 b2 es2 tc2 -> parses tc (b1 ++ b2) (es1 ++ es2) tc2.
Proof.
  intros tc b1 es1 tc1 b2 es2 tc2 H1 H2 rest. rewrite <- app_assoc. rewrite H1. rewrite H2. simpl.
  now rewrite <- app_assoc.
Qed.

Lemma parses_flat_map : forall {A} tc (l : list A) (pb : A -> bstr) (pe : A -> entry),
  (forall a, parses tc (pb a) [pe a] tc) -> parses tc (flat_map pb l) (map pe l) tc.
Proof.
  intros A tc l pb pe H. induction l as [|a l IH]; simpl.
  - apply parses_nil.
  - apply (parses_app tc (pb a) [pe a] tc); auto.
Qed.

Lemma parses_line : forall tc l body e tc',
  (forall rest, ftoks sInit (l ++ rest) = body ++ (tLinebreak, [10]) :: ftoks sInit rest) ->
  forallb nolb body = true ->
  prom_line O tu tc (body ++ [(tLinebreak, [10])]) = LEntry e tc' [] ->
  parses tc l [e] tc'.
Proof.
  intros tc l body e tc' Hl Hb Hp rest. unfold lines_of. rewrite Hl.
  rewrite split_after_line by assumption. simpl rev. simpl app at 1.
  simpl run_lines.
  change (Lfun tc [] (body ++ [(tLinebreak, [10])])) with (prom_line O tu tc (body ++ [(tLinebreak, [10])])).
  rewrite Hp.
  fold (lines_of rest). now destruct (run_lines Lfun tc' [] (lines_of rest)).
Qed.

Definition ts_bytes (ts : option Z) : bstr := match ts with Some t => 32 :: o_fint O t | None => [] end.
Definition ts_toks (ts : option Z) : list tok := match ts with Some t => [(tTimestamp, o_fint O t)] | None => [] end.

Lemma ft_value_ts : forall f ts rest, ts_ok ts ->
  ftoks sValue (32 :: o_ftext O f ++ ts_bytes ts ++ 10 :: rest) =
  (tValue, o_ftext O f) :: ts_toks ts ++ (tLinebreak, [10]) :: ftoks sInit rest.
Proof.
  intros f ts rest Hts. destruct (ok_shape O HO f) as [Hne Hf].
  destruct (forallb_fchar _ Hf) as (Hv & _).
  destruct ts as [t|]; simpl ts_bytes; simpl ts_toks.
  - destruct (ok_int O HO t Hts) as (Hn & Hd & _).
    simpl app. rewrite ft_value by (auto; reflexivity).
    rewrite ft_ts by assumption. rewrite ft_lb_ts. reflexivity.
  - simpl app. rewrite ft_value by (auto; reflexivity). rewrite ft_lb_ts. reflexivity.
Qed.

Lemma prom_series_value : forall tc rn raws f ts, ts_ok ts ->
  prom_series O tu tc (Some rn) raws ((tValue, o_ftext O f) :: ts_toks ts ++ [(tLinebreak, [10])]) =
  LEntry (OS (parsed_labels O tu tc [] rn raws) (canon_txt f) ts [] 0%Z) tc [].
Proof.
  intros tc rn raws f ts Hts. destruct (ok_shape O HO f) as [Hne Hf].
  destruct (forallb_fchar _ Hf) as (_ & _ & _ & Hp).
  destruct (ok_parse O HO f) as (b & Hb & Hc).
  unfold prom_series, parse_float. rewrite Hp, Hb, Hc.
  destruct ts as [t|]; simpl.
  - destruct (ok_int O HO t Hts) as (_ & _ & Hi). rewrite Hi. reflexivity.
  - reflexivity.
Qed.

Lemma sample_parses : forall tc nm ls extra its f ts,
  name_ok nm -> map pair_item ls ++ extra = map pair_item its -> Forall item_ok its -> ts_ok ts ->
  parses tc (name_and_labels nm ls extra ++ [32] ++ o_ftext O f ++ ts_bytes ts ++ [10])
         [OS (parsed_labels O tu tc [] (rawname nm) (map raw its)) (canon_txt f) ts [] 0%Z] tc.
Proof.
  intros tc nm ls extra its f ts Hn Hits Hok Hts.
  apply parses_line with (body := head_toks nm its ++ (tValue, o_ftext O f) :: ts_toks ts).
  - intros rest. repeat rewrite <- app_assoc. simpl app.
    rewrite (ft_head nm ls extra its) by assumption.
    rewrite ft_value_ts by assumption. repeat rewrite <- app_assoc. reflexivity.
  - rewrite forallb_app, nolb_head. destruct ts; reflexivity.
  - rewrite <- app_assoc. simpl app. rewrite prom_line_head by assumption.
    apply prom_series_value. assumption.
Qed.

Definition lrel (tc : N) (p s : lp) : Prop := fst p = fst s /\ normalize_lv O tc (fst p) (snd p) = snd s.

Lemma parsed_eq : forall tc nm P S, Forall2 (lrel tc) P S ->
  parsed_labels O tu tc [] (rawname nm) (map raw P) = series_labels tu nm tc [] S.
Proof.
  intros tc nm P S H. unfold parsed_labels, series_labels. rewrite unreplace_rawname.
  f_equal. f_equal.
  induction H as [|p s P S [H1 H2] HF IH]; [reflexivity|].
  cbn [map flat_map filter]. rewrite IH. unfold raw. cbn [fst snd].
  rewrite !unreplace_escape. rewrite H2, H1.
  destruct tu; cbn [andb negb orb].
  - destruct (is_empty_for nm tc [] (fst s)); cbn [negb app]; [destruct s; reflexivity|reflexivity].
  - destruct s; reflexivity.
Qed.

Lemma lrel_user : forall tc l, Forall (user_label_ok tc) l -> Forall2 (lrel tc) l l.
Proof.
  intros tc l H. induction H as [|x l Hx Hl IH]; constructor; auto.
  split; auto. unfold normalize_lv. unfold user_label_ok in Hx. now rewrite Hx.
Qed.

Lemma series_parses : forall tc name suffix m exP exS f,
  fname_ok name -> forallb clean suffix = true -> wf_metric tc m ->
  Forall item_ok exP -> Forall2 (lrel tc) exP exS ->
  parses tc (text_sample O name suffix m (map pair_item exP) f)
         [mk_series tu name tc [] m suffix exS (canon_txt f) [] 0%Z] tc.
Proof.
  intros tc name suffix m exP exS f Hn Hs (Hl & Hu & Hts) HeP HeS.
  unfold text_sample, mk_series.
  rewrite <- (parsed_eq tc (name ++ suffix) (m_labels m ++ exP) (m_labels m ++ exS))
    by (apply Forall2_app; [now apply lrel_user|assumption]).
  apply (sample_parses tc (name ++ suffix) (m_labels m) (map pair_item exP) (m_labels m ++ exP) f (m_ts m)); auto.
  - now apply name_ok_suffix.
  - now rewrite map_app.
  - apply Forall_app; auto.
Qed.

Lemma plain_line : forall tc n suffix m f, fname_ok n -> forallb clean suffix = true -> wf_metric tc m ->
  parses tc (text_sample O n suffix m [] f) [mk_series tu n tc [] m suffix [] (canon_txt f) [] 0%Z] tc.
Proof. intros. now apply (series_parses tc n suffix m [] []). Qed.

(* a line carrying the le / quantile label written from a float *)
Lemma extra_line : forall tc n suffix m en x f, fname_ok n -> forallb clean suffix = true -> wf_metric tc m ->
  (tc = 3 /\ en = s_quantile) \/ (tc = 4 /\ en = s_le) ->
  parses tc (text_sample O n suffix m [extra_item en (o_ftext O x)] f)
         [mk_series tu n tc [] m suffix [(en, o_fom O x)] (canon_txt f) [] 0%Z] tc.
Proof.
  intros tc n suffix m en x f Hn Hs Hm He.
  assert (Hl : is_legacy_name en = true /\ legacy_l en = true)
    by (destruct He as [[_ ->]|[_ ->]]; split; reflexivity).
  destruct Hl as [Hl1 Hl2]. destruct (ok_shape O HO x) as [_ Hf].
  destruct (forallb_fchar _ Hf) as (_ & Hp & Ha & _).
  replace (extra_item en (o_ftext O x)) with (pair_item (en, o_ftext O x))
    by (unfold extra_item, pair_item, write_name; cbn [fst snd]; now rewrite Hl1, (escape_plain true _ Hp)).
  apply (series_parses tc n suffix m [(en, o_ftext O x)] [(en, o_fom O x)] f); auto.
  - constructor; [|constructor]. unfold item_ok, lname_ok. cbn [fst snd]. rewrite Hl1.
    auto using plain_clean, quoted_plain_ascii_utf8.
  - constructor; [|constructor]. split; auto. cbn [fst snd]. unfold normalize_lv.
    destruct He as [[-> ->]|[-> ->]]; cbn; now rewrite (ok_norm O HO x).
Qed.

Lemma meta_line_parses : forall tc kw ktok n body e tc',
  fname_ok n ->
  (kw = s_HELP /\ ktok = tHelp) \/ (kw = s_TYPE /\ ktok = tType) ->
  forallb not_nl body = true -> existsb (fun c => negb (is_ws c)) body = true ->
  prom_line O tu tc [(ktok, hash_sp ++ kw ++ [32]); (tMName, write_name n); (tText, 32 :: body); (tLinebreak, [10])]
    = LEntry e tc' [] ->
  parses tc (hash_sp ++ kw ++ [32] ++ write_name n ++ [32] ++ body ++ [10]) [e] tc'.
Proof.
  intros tc kw ktok n body e tc' Hn Hk Hb1 Hb2 Hp.
  apply parses_line with (body := [(ktok, hash_sp ++ kw ++ [32]); (tMName, write_name n); (tText, 32 :: body)]).
  - intros rest. repeat rewrite <- app_assoc. cbn [app].
    rewrite (ft_keyword kw ktok), ft_meta_name, ft_text, ft_lb_init by auto using write_name_head.
    reflexivity.
  - destruct Hk as [[-> ->]|[-> ->]]; reflexivity.
  - exact Hp.
Qed.

Lemma help_line : forall tc n h, fname_ok n -> help_ok h ->
  parses tc (hash_sp ++ s_HELP ++ [32] ++ write_name n ++ [32] ++ escape false h ++ [10]) [OH n h] tc.
Proof.
  intros tc n h Hn (Hc & Hw & Hu).
  apply (meta_line_parses tc s_HELP tHelp); auto.
  - now apply escape_not_nl.
  - now apply existsb_nonws_escape.
  - unfold prom_line. cbn [tok_is fst tl]. rewrite Hu. cbn [ends_lb tok_is fst].
    rewrite meta_name_write by assumption. now rewrite unreplace_escape.
Qed.

Lemma type_line : forall tc n t, fname_ok n ->
  parses tc (hash_sp ++ s_TYPE ++ [32] ++ write_name n ++ [32] ++ text_type_word t ++ [10])
         [OT n (text_tcode t)] (text_tcode t).
Proof.
  intros tc n t Hn.
  apply (meta_line_parses tc s_TYPE tType); auto.
  - destruct t; reflexivity.
  - destruct t; reflexivity.
  - unfold prom_line. cbn [tok_is fst tl]. rewrite meta_name_write by assumption.
    destruct t; reflexivity.
Qed.

Lemma sum_count_parse : forall tc n m, fname_ok n -> wf_metric tc m ->
  parses tc (text_sample O n s_sum m [] (m_sum m) ++ text_sample O n s_count m [] (o_u2f O (m_count m)))
         [mk_series tu n tc [] m s_sum [] (canon_txt (m_sum m)) [] 0%Z;
          mk_series tu n tc [] m s_count [] (canon_txt (o_u2f O (m_count m))) [] 0%Z] tc.
Proof. intros. apply (parses_app tc _ [_] tc _ [_]); now apply plain_line. Qed.

Lemma metric_parses : forall n t m, fname_ok n -> wf_metric (text_tcode t) m ->
  parses (text_tcode t) (print_text_metric O n t m) (text_metric O tu n t m) (text_tcode t).
Proof.
  intros n t m Hn Hm.
  assert (Hist : wf_metric 4 m -> parses 4 (print_text_metric O n MHist m) (text_metric O tu n MHist m) 4).
  { intros Hm4. eapply parses_app; [|eapply parses_app; [|now apply sum_count_parse]].
    - apply parses_flat_map. intros b. apply extra_line; auto.
    - destruct (has_inf_bucket (m_b m)); [apply parses_nil|]. apply extra_line; auto. }
  destruct t.
  1, 2, 4: now apply plain_line.
  (* a gauge histogram is written, and expected, exactly as a histogram *)
  2, 3: exact (Hist Hm).
  unfold print_text_metric, text_metric. eapply parses_app; [|now apply sum_count_parse].
  apply parses_flat_map. intros q. apply extra_line; auto.
Qed.

Lemma family_parses : forall tc f, wf_family f ->
  parses tc (print_text_family O f) (text_family O tu f) (text_tcode (f_type f)).
Proof.
  intros tc f (Hn & Hh & Hm). unfold print_text_family, text_family.
  assert (Hms : parses (text_tcode (f_type f)) (flat_map (print_text_metric O (f_name f) (f_type f)) (f_metrics f))
                  (flat_map (text_metric O tu (f_name f) (f_type f)) (f_metrics f)) (text_tcode (f_type f))).
  { induction Hm as [|m ms Hm1 Hms IH]; simpl; [apply parses_nil|].
    eapply parses_app; [now apply metric_parses|exact IH]. }
  assert (Hty := type_line tc (f_name f) (f_type f) Hn).
  rewrite (app_line hash_sp s_TYPE).
  destruct (f_help f) as [h|]; simpl opt_list; simpl map.
  - eapply parses_app; [now apply help_line|]. eapply parses_app; [exact Hty|exact Hms].
  - rewrite !app_nil_l. eapply parses_app; [exact Hty|exact Hms].
Qed.

Lemma families_parse : forall fams tc, Forall wf_family fams ->
  exists tc', parses tc (print_text O fams) (entries_text O tu fams) tc'.
Proof.
  induction fams as [|f fams IH]; intros tc H.
  - exists tc. apply parses_nil.
  - inversion H as [|? ? Hf Hfs]; subst. destruct (IH (text_tcode (f_type f)) Hfs) as [tc' Hp].
    exists tc'. unfold print_text, entries_text. simpl. eapply parses_app; [now apply family_parses|exact Hp].
Qed.

Theorem text_roundtrip : forall fams, Forall wf_family fams ->
  parse_text O tu (print_text O fams) = (entries_text O tu fams, true).
Proof.
  intros fams H. destruct (families_parse fams 0 H) as [tc' Hp].
  unfold parse_text.
  change (split_after (tok_is tLinebreak) [] (filter not_ws_tok (toks lex_prom' 0 sInit (print_text O fams ++ [10]))))
    with (lines_of (print_text O fams ++ [10])).
  change (run_lines (fun (tc : N) (_ : bstr) (l : list tok) => prom_line O tu tc l) 0 [])
    with (run_lines Lfun 0 []).
  rewrite (Hp [10]).
  assert (Hend : run_lines Lfun tc' [] (lines_of [10]) = ([], true)) by reflexivity.
  rewrite Hend. simpl. now rewrite app_nil_r.
Qed.
End Text.

(* a toy (unary) number syntax within the float alphabet; only used to show consistency of
   [oracle_ok] and as the concrete oracle of the examples / refutation witnesses *)
Definition un (z : Z) : bstr := (if (z <? 0)%Z then [45] else []) ++ repeat 49 (S (Z.abs_nat z)).
Definition un_parse (s : bstr) : option Z :=
  match s with
  | c :: r => if c =? 45 then Some (- (Z.of_nat (length r) - 1))%Z else Some (Z.of_nat (length s) - 1)%Z
  | [] => None
  end.
(* +Inf gets a short spelling of its own so that the examples stay computable *)
Definition tf (f : Z) : bstr := if (canon_txt f =? posinf)%Z then [73] else un (canon_txt f).
Definition tp (s : bstr) : option Z := if bstr_eqb s [73] then Some posinf else un_parse s.
Definition toy_oracle : oracles :=
  mkOr tf tf un (fun z => z) (fun z => z) (fun z => z) tp (fun s => Some s) (fun _ => None) un_parse.

Lemma un_parse_un : forall z, un_parse (un z) = Some z.
Proof.
  intros z. unfold un. destruct (z <? 0)%Z eqn:E; cbn [app repeat un_parse N.eqb Pos.eqb length];
    rewrite repeat_length; f_equal; lia.
Qed.

Lemma un_shape : forall z, un z <> [] /\ forallb is_fchar (un z) = true.
Proof.
  intros z. unfold un. split.
  - destruct (z <? 0)%Z; discriminate.
  - rewrite forallb_app. rewrite forallb_repeat by reflexivity. destruct (z <? 0)%Z; reflexivity.
Qed.

Lemma un_not_inf : forall z, bstr_eqb (un z) [73] = false.
Proof. intros z. unfold un. destruct (z <? 0)%Z; reflexivity. Qed.

Lemma canon_nan_idem : forall x, canon_nan (canon_nan x) = canon_nan x.
Proof. intros x. unfold canon_nan. destruct (is_nan x) eqn:E; [reflexivity|]. now rewrite E. Qed.

Lemma oracle_ok_satisfiable : exists O, oracle_ok O.
Proof.
  exists toy_oracle. constructor; simpl.
  - intros f. unfold tf. destruct (canon_txt f =? posinf)%Z; [split; [discriminate|reflexivity]|apply un_shape].
  - intros f. unfold tf, tp. destruct (canon_txt f =? posinf)%Z eqn:E.
    + exists posinf. split; [reflexivity|]. apply Z.eqb_eq in E. now rewrite E.
    + exists (canon_txt f). rewrite un_not_inf. split; [apply un_parse_un|apply canon_nan_idem].
  - reflexivity.
  - intros z Hz. destruct (un_shape z) as [A B]. repeat split; auto using un_parse_un.
    unfold un. rewrite (proj2 (Z.ltb_ge z 0)) by assumption. now apply forallb_repeat.
Qed.

Definition example_fams : list family :=
  [mkFam [104;116;116;112;46;114;101;113] (Some [82;101;113;117;101;115;116;115;46]) None MHist
     [mkMet [([99;111;100;101], [97;34;98;92;99;10;100]); ([108;46;120], [195;169])] (Some 5%Z) 0%Z None None 3%Z 7%Z []
            [mkBk 2%Z 1%Z None; mkBk 4%Z 3%Z None] None];
   mkFam [117;112] None None MGauge [mkMet [] None 1%Z None None 0%Z 0%Z [] [] None]].

Lemma example_fams_wf : Forall wf_family example_fams /\ length (entries_text toy_oracle true example_fams) = 9%nat.
Proof.
  split; [|reflexivity].
  repeat constructor; try reflexivity; try discriminate.
Qed.

Lemma example_roundtrip_computes :
  parse_text toy_oracle true (print_text toy_oracle example_fams) = (entries_text toy_oracle true example_fams, true).
Proof. vm_compute. reflexivity. Qed.

Definition no_om_exemplars (f : family) : Prop :=
  Forall (fun m => om_ex (m_ex m) = [] /\ Forall (fun b => om_ex (bk_ex b) = []) (m_b m)) (f_metrics f).

Lemma om_series_agree_text : forall (O : oracles) (o : opts) (f : family),
  o_typeunit o = false -> o_created o = false -> no_om_exemplars f ->
  flat_map (om_metric O o f) (f_metrics f) = flat_map (text_metric O false (f_name f) (f_type f)) (f_metrics f).
Proof.
  intros O o f Htu Hcr Hex. apply flat_map_ext_in. intros m Hm.
  unfold no_om_exemplars in Hex. rewrite Forall_forall in Hex. destruct (Hex m Hm) as [He Hb].
  unfold om_metric, text_metric. rewrite Htu, Hcr. rewrite !andb_false_r.
  assert (Hmap : forall tc u, map (fun b => mk_series false (f_name f) tc u m s_bucket
                                 [(s_le, o_fom O (bk_ub b))] (canon_txt (o_u2f O (bk_cnt b))) (om_ex (bk_ex b)) 0%Z) (m_b m) =
                   map (fun b => mk_series false (f_name f) 4 [] m s_bucket
                                 [(s_le, o_fom O (bk_ub b))] (canon_txt (o_u2f O (bk_cnt b))) [] 0%Z) (m_b m)).
  { intros tc u. apply map_ext_in. intros b Hbin. rewrite Forall_forall in Hb. rewrite (Hb b Hbin). reflexivity. }
  destruct (f_type f); cbn [andb text_tcode]; rewrite ?He, ?Hmap; destruct (m_created m); rewrite ?app_nil_r; reflexivity.
Qed.

Lemma proto_hist_run_classic : forall O o f ms how, how <> PUnchecked ->
  Forall (fun m => native_on o m = false) ms ->
  proto_hist_run O o f how ms = flat_map (proto_classic O o f) ms.
Proof.
  induction ms as [|m ms IH]; intros how Hh H; [reflexivity|].
  inversion H as [|? ? Hm Hms]; subst. cbn [proto_hist_run flat_map]. unfold proto_hist_step. rewrite Hm.
  destruct how; try congruence; cbn; rewrite IH; auto; discriminate.
Qed.

Lemma proto_metric_classic : forall O o f m, (f_type f = MHist \/ f_type f = MGHist) -> native_on o m = false ->
  proto_metric O o f m = proto_classic O o f m.
Proof.
  intros O o f m Ht Hn. unfold proto_metric. rewrite Hn.
  destruct Ht as [-> | ->]; destruct (m_nh m); reflexivity.
Qed.

(* only histogram families matter: elsewhere the state machine follows the per-metric SPEC as it is *)
Lemma proto_model_meets_spec_hist : forall (O : oracles) (o : opts) (fams : list family),
  Forall (fun f => f_type f = MHist \/ f_type f = MGHist ->
                   Forall (fun m => native_on o m = false) (f_metrics f)) fams ->
  model_proto O o fams = entries_proto O o fams.
Proof.
  intros O o fams H. unfold model_proto, entries_proto. apply flat_map_ext_in. intros f Hf.
  rewrite Forall_forall in H. specialize (H f Hf).
  unfold model_proto_family, proto_family. destruct (is_nil (f_metrics f)); [reflexivity|].
  do 3 f_equal.
  assert (Hh : f_type f = MHist \/ f_type f = MGHist ->
               proto_hist_run O o f PChecked (f_metrics f) = flat_map (proto_metric O o f) (f_metrics f)).
  { intros Ht. specialize (H Ht). rewrite proto_hist_run_classic by (auto; discriminate).
    apply flat_map_ext_in. intros m Hm.
    rewrite Forall_forall in H. symmetry. apply proto_metric_classic; auto. }
  destruct (f_type f); auto.
Qed.

Lemma proto_model_meets_spec : forall (O : oracles) (o : opts) (fams : list family),
  Forall (fun f => Forall (fun m => native_on o m = false) (f_metrics f)) fams ->
  model_proto O o fams = entries_proto O o fams.
Proof.
  intros O o fams H. apply proto_model_meets_spec_hist. eapply Forall_impl; [|exact H]. auto.
Qed.

(* the witnesses below are replayed on the real parsers by the harness corpus *)
Definition m0 : metric := mkMet [] None 1%Z None None 0%Z 0%Z [] [] None.
Definition o0 : opts := mkOpts false false false false false.

Lemma text_negative_timestamp_refuted : exists O fams tu,
  parse_text O tu (print_text O fams) <> (entries_text O tu fams, true).
Proof.
  exists toy_oracle, [mkFam [117;112] None None MGauge [mkMet [] (Some (-1)%Z) 1%Z None None 0%Z 0%Z [] [] None]], false.
  intro H. apply (f_equal snd) in H. vm_compute in H. discriminate.
Qed.

Lemma text_blank_help_refuted : exists O fams tu,
  parse_text O tu (print_text O fams) <> (entries_text O tu fams, true).
Proof.
  exists toy_oracle, [mkFam [117;112] (Some [32]) None MGauge [m0]], false.
  intro H. apply (f_equal fst) in H. vm_compute in H. discriminate.
Qed.

Lemma quoted_name_metadata_refuted : exists O fams tu,
  parse_text O tu (print_text O fams) <> (entries_text O tu fams, true).
Proof.
  exists toy_oracle, [mkFam [97;34;98] None None MGauge [m0]], false.
  intro H. apply (f_equal fst) in H. vm_compute in H. discriminate.
Qed.

Lemma om_exemplar_escape_refuted : exists O o fams,
  parse_om O o (print_om O o fams) <> (entries_om O o fams, true).
Proof.
  exists toy_oracle, o0,
    [mkFam ([120] ++ s_total) None None MCounter
       [mkMet [] None 1%Z (Some (mkEx [([116], [97;34;98])] 2%Z None)) None 0%Z 0%Z [] [] None]].
  intro H. apply (f_equal fst) in H. vm_compute in H. discriminate.
Qed.

Lemma om_unit_leak_refuted : exists O o fams,
  parse_om O o (print_om O o fams) <> (entries_om O o fams, true).
Proof.
  exists toy_oracle, (mkOpts true false false false false),
    [mkFam [97;95;115] None (Some [115]) MGauge [m0]; mkFam [98] None None MGauge [m0]].
  intro H. apply (f_equal fst) in H. vm_compute in H. discriminate.
Qed.

Definition nh1 : nhist := mkNH 1%Z 0%Z 2%Z [(1%Z, 2%Z)] [3%Z; (-1)%Z] [] [].
Definition mcl (k : N) : metric := mkMet [([107], [k])] None 0%Z None None 7%Z 1%Z [] [mkBk 2%Z 2%Z None] None.
Definition mnat (k : N) : metric := mkMet [([107], [k])] None 0%Z None None 7%Z 1%Z [] [mkBk 2%Z 2%Z None] (Some nh1).

Lemma proto_native_after_classic_refuted : exists O o fams,
  model_proto O o fams <> entries_proto O o fams.
Proof.
  exists toy_oracle, o0, [mkFam [104] None None MHist [mcl 97; mnat 98]].
  intro H. vm_compute in H. discriminate.
Qed.

Lemma proto_nil_histogram_refuted : exists O o fams,
  In (nil_hist) (flat_map (fun e => match e with OX _ h _ _ _ => [h] | _ => [] end) (model_proto O o fams)).
Proof.
  exists toy_oracle, (mkOpts false false false false true), [mkFam [104] None None MHist [mnat 97; mcl 98]].
  vm_compute. right. left. reflexivity.
Qed.
