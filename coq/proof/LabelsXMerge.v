(* proof/LabelsXMerge.v — Builder.Labels: the sorted merge of stringlabels/dedupelabels equals
   the filter + append + sort of slicelabels on every well-formed builder state. *)
From Coq Require Import List ZArith Bool Lia.
From Coq Require Import Sorted.
From Verif Require Import lib.SortedList lib.LabelMerge model.LabelsX proof.LabelsXProofs.
Import ListNotations.
Open Scope Z_scope.

Lemma sorted_strongly l : strictly_sorted l = true <-> StronglySorted (klt str_ltb) l.
Proof.
  induction l as [|a t IH]; [split; [constructor|reflexivity]|]. split.
  - intros Hs. constructor; [apply IH; eapply sorted_tail; eauto|]. apply Forall_forall. intros x Hx.
    apply (sorted_lt_all a t Hs). apply has_name_in, in_map, Hx.
  - intros Hs. apply StronglySorted_inv in Hs as [Hs F]. apply sorted_cons_all; [apply IH, Hs|].
    intros k Hk. apply has_name_in, in_map_iff in Hk as (x & <- & Hx). exact (Forall_in F x Hx).
Qed.

(* names of a strictly sorted list are above its head *)
Lemma sorted_ge_head y t k : strictly_sorted (y :: t) = true -> has_name k (y :: t) = true ->
  str_eqb (fst y) k = true \/ str_ltb (fst y) k = true.
Proof.
  intros Hs H. rewrite has_name_cons in H. apply orb_prop in H. destruct H as [H|H]; auto.
  right. eapply sorted_lt_all; eauto.
Qed.
Lemma lkp_below ls n k : strictly_sorted ls = true ->
  (match ls with y :: _ => str_ltb n (fst y) = true \/ n = fst y | [] => True end) ->
  str_ltb k n = true -> lkp ls k = None.
Proof.
  intros Hs Hh Hk. apply lkp_none. destruct (has_name k ls) eqn:E; auto. exfalso.
  destruct ls as [|y t]; [discriminate|].
  assert (Hyk : str_ltb (fst y) k = false).
  { destruct Hh as [Hh|Hh]; [|subst n; apply str_ltb_asym; exact Hk].
    apply str_ltb_asym. eapply str_ltb_trans; eauto. }
  destruct (sorted_ge_head y t k Hs E) as [H|H]; [|congruence].
  apply str_eqb_eq in H. subst k. destruct Hh as [Hh|Hh].
  - pose proof (str_ltb_asym _ _ Hh). congruence.
  - subst n. rewrite str_ltb_irrefl in Hk. discriminate.
Qed.

(* slices.Sort(b.del): ascending, duplicates stay *)
Lemma ins_s_in x l k : In k (ins_s x l) <-> x = k \/ In k l.
Proof.
  induction l as [|y t IH]; cbn [ins_s]; [reflexivity|]. destruct (str_ltb x y); [reflexivity|].
  cbn [In]. rewrite IH. split; intros [H|[H|H]]; auto.
Qed.
Lemma ins_s_sorted x l : StronglySorted (kle str_ltb) l -> StronglySorted (kle str_ltb) (ins_s x l).
Proof.
  induction 1 as [|y t S IH F]; simpl; [repeat constructor|].
  destruct (str_ltb x y) eqn:E; constructor; auto using SSorted_cons.
  - constructor; [exact (str_ltb_asym _ _ E)|]. eapply Forall_impl; [|exact F]. unfold kle. intros z Hz.
    destruct (str_ltb z x) eqn:Ez; auto. rewrite (str_ltb_trans _ _ _ Ez E) in Hz. discriminate.
  - apply Forall_forall. intros z Hz. apply ins_s_in in Hz as [<-|Hz]; [exact E|exact (Forall_in F z Hz)].
Qed.
Lemma sort_strs_spec l : StronglySorted (kle str_ltb) (sort_strs l) /\ forall k, In k (sort_strs l) <-> In k l.
Proof.
  unfold sort_strs.
  assert (G : forall l acc, StronglySorted (kle str_ltb) acc ->
     StronglySorted (kle str_ltb) (fold_left (fun acc x => ins_s x acc) l acc) /\
     forall k, In k (fold_left (fun acc x => ins_s x acc) l acc) <-> In k l \/ In k acc).
  { induction l0 as [|x t IH]; intros acc Ha; simpl; [tauto|].
    destruct (IH (ins_s x acc) (ins_s_sorted x acc Ha)) as [A B]. split; auto.
    intros k. rewrite B, ins_s_in. tauto. }
  destruct (G l [] (SSorted_nil _)) as [A B]. split; auto. intros k. rewrite B. simpl. tauto.
Qed.

(* the loop of dd_merge is lmerge, writing to a buffer *)
Lemma ll_emit_lt_parts ad n : forall buf, ll_emit_lt ad n buf = (ge_part str_ltb n ad, buf ++ lt_part str_ltb n ad).
Proof.
  induction ad as [|x t IH]; intros buf; simpl; [rewrite app_nil_r; auto|].
  destruct (str_ltb (fst x) n); [rewrite IH, <- app_assoc; auto | rewrite app_nil_r; auto].
Qed.
Lemma dd_merge_lmerge base : forall dl ad buf, dd_merge base dl ad buf = buf ++ lmerge str_ltb str_eqb base dl ad.
Proof.
  induction base as [|[k v] rest IH]; intros dl ad buf; cbn [dd_merge lmerge fst]; [reflexivity|].
  change (drop_lt dl k) with (ge_keys str_ltb dl k).
  destruct (match ge_keys str_ltb dl k with x :: _ => str_eqb x k | [] => false end); [apply IH|].
  rewrite ll_emit_lt_parts. destruct (ge_part str_ltb k ad) as [|y ad'']; [|destruct (str_eqb (fst y) k)];
    rewrite IH, <- !app_assoc; reflexivity.
Qed.

(* Builder.Labels of slicelabels keeps the base labels neither deleted nor overridden, and the additions *)
Lemma sl_blabels_in base add del x :
  In x (sl_blabels base add del) <->
  In x add \/ (In x base /\ ~ In (fst x) del /\ ~ In (fst x) (map fst add)).
Proof.
  assert (R : In x (filter (fun l => negb (mem (fst l) del || has_name (fst l) add)) base) <->
              In x base /\ ~ In (fst x) del /\ ~ In (fst x) (map fst add)).
  { rewrite filter_In, negb_true_iff, orb_false_iff, <- mem_in, <- has_name_in, !not_true_iff_false. reflexivity. }
  unfold sl_blabels. cbv zeta. rewrite <- R.
  destruct add as [|a add'].
  - cbn [In]. destruct del; [rewrite R; cbn [In map]|]; tauto.
  - destruct del; rewrite sort_labels_in, in_app_iff; apply or_comm.
Qed.

(* Builder.Labels: stringlabels/dedupelabels (sorted merge) = slicelabels (filter, append, sort)
   on every builder state reachable from a sorted base: both are the sorted list of the same labels *)
Lemma merge_eq_filter_sort (b : bst) : binv b ->
  dd_blabels (bbase b) (badd b) (bdel b) = sl_blabels (bbase b) (badd b) (bdel b).
Proof.
  intros Hb. destruct (sl_blabels_spec b Hb) as (S1 & _ & _).
  destruct b as [base del add]. destruct Hb as (Hnd & _ & Hso & _). unfold bbase, badd, bdel in *. cbn [b_base b_del b_add] in *.
  assert (M : dd_merge base (sort_strs del) (sort_labels add) [] = sl_blabels base add del).
  { destruct (sort_labels_spec add Hnd) as (SA & _ & _). destruct (sort_strs_spec del) as (WD & MD).
    destruct (lmerge_spec str_ltb str_eqb str_eqb_spec str_ltb_irrefl str_ltb_trans str_ltb_total
                base (sort_strs del) (sort_labels add)) as (S2 & L2); [apply sorted_strongly, Hso|exact WD|apply sorted_strongly, SA|].
    rewrite dd_merge_lmerge. cbn [app].
    apply (klt_same str_ltb str_ltb_irrefl str_ltb_trans); [exact S2|apply sorted_strongly, S1|].
    intros x. rewrite L2, sl_blabels_in, sort_labels_in, MD, (map_mem fst _ _ (sort_labels_in add)). reflexivity. }
  unfold dd_blabels. destruct del, add; auto.
Qed.

(* hence the three builds' Builder.Labels coincide (stringlabels up to its encoding) on every
   builder state reachable by any operation sequence from a sorted base *)
Lemma binv_steps base ops : strictly_sorted base = true -> binv (fold_left bstep ops (b_reset_sl base)).
Proof. intros Hs. destruct (sim_steps ops _ _ (sim_reset base Hs)) as (I1 & _). exact I1. Qed.

Lemma builder_all_builds_equal base ops : strictly_sorted base = true ->
  let b := fold_left bstep ops (b_reset_sl base) in
  all_short (bbase b) -> all_short (badd b) ->
  l_blabels I_dedupe (bbase b) (badd b) (bdel b) = l_blabels I_slice (bbase b) (badd b) (bdel b) /\
  l_blabels I_string (enc (bbase b)) (badd b) (bdel b) = Ok (enc (sl_blabels (bbase b) (badd b) (bdel b))).
Proof.
  intros Hs b Hb Ha. pose proof (binv_steps base ops Hs) as I1. fold b in I1.
  pose proof (merge_eq_filter_sort b I1) as E. cbn [l_blabels I_dedupe I_slice I_string]. split.
  - rewrite E. reflexivity.
  - rewrite st_blabels_enc by auto. rewrite E. reflexivity.
Qed.
