(* proof/TsdbProofs.v — property C01: the structured model (model/Tsdb.v) refines the flat
   specification (model/TsdbSpec.v).  [abs] reads the live samples off a state; [inv] is kept by
   every well-formed operation and [abs] commutes with it (step_refines, run_refines; for
   Restart and CompactPending well-formedness IS that conclusion: those two steps are assumed,
   see wf_op); a query answers like the specification on [abs] (query_abs); together:
   refinement_partial.  At the end a checker for wf_ops on concrete histories. *)
From Coq Require Import List ZArith Bool Lia.
From Verif Require Import lib.Int64 lib.SortedList model.TsdbSpec model.Tsdb.
Import ListNotations.
Open Scope Z_scope.

(* boolean comparisons and connectives in the hypotheses become propositions *)
Ltac b2p :=
  repeat match goal with
  | H : _ && _ = true |- _ => apply andb_true_iff in H; destruct H
  | H : _ || _ = false |- _ => apply orb_false_iff in H; destruct H
  | H : negb _ = true |- _ => apply negb_true_iff in H
  | H : negb _ = false |- _ => apply negb_false_iff in H
  | H : (_ <=? _) = true |- _ => apply Z.leb_le in H
  | H : (_ <=? _) = false |- _ => apply Z.leb_gt in H
  | H : (_ <? _) = true |- _ => apply Z.ltb_lt in H
  | H : (_ <? _) = false |- _ => apply Z.ltb_ge in H
  | H : (_ =? _) = true |- _ => apply Z.eqb_eq in H
  | H : (_ =? _) = false |- _ => apply Z.eqb_neq in H
  | H : (_ >=? _) = true |- _ => rewrite Z.geb_leb in H; apply Z.leb_le in H
  | H : (_ >=? _) = false |- _ => rewrite Z.geb_leb in H; apply Z.leb_gt in H
  | H : (_ >? _) = true |- _ => rewrite Z.gtb_ltb in H; apply Z.ltb_lt in H
  | H : (_ >? _) = false |- _ => rewrite Z.gtb_ltb in H; apply Z.ltb_ge in H
  end.

Lemma in_rng_iff mint maxt t : in_rng mint maxt t = true <-> mint <= t <= maxt.
Proof. unfold in_rng. rewrite andb_true_iff, !Z.leb_le. reflexivity. Qed.

Lemma memZ_iff x l : memZ x l = true <-> In x l.
Proof. apply (existsb_eqb_In Z.eqb Z.eqb_eq). Qed.

Lemma covered_iff ivs t :
  covered ivs t = true <-> exists iv, In iv ivs /\ fst iv <= t <= snd iv.
Proof.
  unfold covered. rewrite existsb_exists.
  (* the test of one interval is in_rng *)
  split; intros [iv [Hi Hc]]; exists iv; (split; [exact Hi|]); apply (in_rng_iff (fst iv) (snd iv) t), Hc.
Qed.

Lemma covered_false_iff ivs t :
  covered ivs t = false <-> forall iv, In iv ivs -> ~ (fst iv <= t <= snd iv).
Proof.
  rewrite <- not_true_iff_false, covered_iff. split.
  - intros H iv Hi Hc. apply H. exists iv. split; assumption.
  - intros H [iv [Hi Hc]]. exact (H iv Hi Hc).
Qed.

Lemma covered_app a b t : covered (a ++ b) t = covered a t || covered b t.
Proof. unfold covered. apply existsb_app. Qed.

Lemma filter_filter {A} (f g : A -> bool) l :
  filter f (filter g l) = filter (fun x => g x && f x) l.
Proof. exact (SortedList.filter_filter f g l). Qed.

Lemma filter_flat_map {A B} (f : B -> bool) (g : A -> list B) l :
  filter f (flat_map g l) = flat_map (fun a => filter f (g a)) l.
Proof. induction l as [|a l IH]; simpl; auto. rewrite filter_app, IH. reflexivity. Qed.

Lemma filter_nil_iff {A} (f : A -> bool) l : filter f l = [] <-> forall x, In x l -> f x = false.
Proof. exact (SortedList.filter_nil_iff f l). Qed.

Lemma in_map_filter_key {A B} (key : A -> Z) (g : A -> B) l k b :
  In b (map g (filter (fun p => key p =? k) l)) <-> exists p, In p l /\ key p = k /\ g p = b.
Proof.
  rewrite in_map_iff. split.
  - intros [p [E H]]. apply filter_In in H. destruct H as [H1 H2]. apply Z.eqb_eq in H2. eauto.
  - intros [p (H & E1 & E2)]. exists p. split; [exact E2|]. apply filter_In. split; [exact H | apply Z.eqb_eq, E1].
Qed.

Lemma Forall2_trans {A} (R : A -> A -> Prop) :
  (forall x y z, R x y -> R y z -> R x z) ->
  forall a b c, Forall2 R a b -> Forall2 R b c -> Forall2 R a c.
Proof.
  intros HR a b c H. revert c. induction H as [|x y a b Hxy _ IH]; intros c H2; inversion H2; subst; constructor; eauto.
Qed.

Lemma Forall2_in_l {A B} (R : A -> B -> Prop) a b x :
  Forall2 R a b -> In x a -> exists y, In y b /\ R x y.
Proof.
  induction 1 as [|x' y a b Hxy _ IH]; intros Hin; [inversion Hin|].
  destruct Hin as [<-|Hin]; [exists y; split; [left; reflexivity | exact Hxy]|].
  destruct (IH Hin) as [y' [Hy' Hr]]. exists y'. split; [right; exact Hy' | exact Hr].
Qed.

Definition sequiv (a b : sstate) : Prop := forall i x, In x (a i) <-> In x (b i).

Lemma sequiv_refl a : sequiv a a.
Proof. intros i x. reflexivity. Qed.
Lemma sequiv_trans a b c : sequiv a b -> sequiv b c -> sequiv a c.
Proof. intros H1 H2 i x. rewrite (H1 i x). apply H2. Qed.
Lemma sequiv_sym a b : sequiv a b -> sequiv b a.
Proof. intros H i x. symmetry. apply H. Qed.

Lemma in_ack1 sp p i x : In x (ack1 sp p i) <-> In x (sp i) \/ p = (i, x).
Proof.
  destruct p as [j y]. unfold ack1. cbn [fst snd].
  destruct (Z.eqb_spec i j) as [->|N].
  - rewrite in_app_iff. cbn [In]. split.
    + intros [H|[<-|[]]]; auto.
    + intros [H|E]; [auto | right; left; congruence].
  - split; [auto | intros [H|E]; [exact H | congruence]].
Qed.

Lemma in_ack sp l i x :
  In x (fold_left ack1 l sp i) <-> In x (sp i) \/ In (i, x) l.
Proof.
  revert sp. induction l as [|p l IH]; intros sp; cbn [fold_left In].
  - split; [intros H; left; exact H | intros [H|[]]; exact H].
  - rewrite IH, in_ack1. apply or_assoc.
Qed.

Lemma in_sdelete sp mint maxt sel i x :
  In x (spec_step sp (SDelete mint maxt sel) i) <->
  In x (sp i) /\ ~ (In i sel /\ mint <= st x <= maxt).
Proof.
  cbn [spec_step]. destruct (memZ i sel) eqn:E.
  - apply memZ_iff in E. rewrite filter_In, negb_true_iff. apply and_iff_compat_l. split.
    + intros R [_ N]. apply in_rng_iff in N. congruence.
    + intros N. apply not_true_iff_false. intros R. apply N. split; [exact E | apply in_rng_iff, R].
  - split; [intros H; split; [exact H|] | intros [H _]; exact H].
    intros [N _]. apply memZ_iff in N. congruence.
Qed.

Lemma spec_step_equiv a b o : sequiv a b -> sequiv (spec_step a o) (spec_step b o).
Proof.
  intros H i x. destruct o as [l|mint maxt sel|].
  - cbn [spec_step]. rewrite !in_ack, (H i x). reflexivity.
  - rewrite !in_sdelete, (H i x). reflexivity.
  - apply H.
Qed.

Inductive sincr : list Z -> Prop :=
| sincr_nil : sincr []
| sincr_one t : sincr [t]
| sincr_cons t u r : t < u -> sincr (u :: r) -> sincr (t :: u :: r).

Lemma sincr_cons_iff a l : sincr (a :: l) <-> sincr l /\ forall u, In u l -> a < u.
Proof.
  split.
  - revert a. induction l as [|b l IH]; intros a H; inversion H as [| |? ? ? Hab Hs]; subst.
    + split; [constructor | intros u []].
    + split; [exact Hs|]. intros u [<-|Hu]; [exact Hab|].
      apply IH in Hs. destruct Hs as [_ Hb]. specialize (Hb u Hu). lia.
  - intros [Hs Hl]. destruct l as [|b r]; constructor; [apply Hl; left; reflexivity | exact Hs].
Qed.

Lemma in_ins t u l : In u (ins t l) <-> In u (t :: l).
Proof.
  induction l as [|a l IH]; cbn [ins]; [reflexivity|].
  destruct (t <? a); [reflexivity|].
  destruct (Z.eqb_spec t a) as [->|_].
  - split; [intros H; right; exact H | intros [<-|H]; [left; reflexivity | exact H]].
  - cbn [In] in *. rewrite IH. split; intros [H|[H|H]]; auto.
Qed.

Lemma sincr_ins t l : sincr l -> sincr (ins t l).
Proof.
  induction l as [|a l IH]; intros H; cbn [ins]; [constructor|].
  destruct (Z.ltb_spec t a); [constructor; assumption|].
  destruct (Z.eqb_spec t a); [assumption|].
  apply sincr_cons_iff in H. destruct H as [Hs Hl]. apply sincr_cons_iff. split; [apply IH, Hs|].
  intros u Hu. apply in_ins in Hu. destruct Hu as [<-|Hu]; [lia | apply Hl, Hu].
Qed.

Lemma sincr_sort_uniq l : sincr (sort_uniq l).
Proof. induction l; simpl; [constructor | apply sincr_ins; auto]. Qed.

Lemma in_sort_uniq t l : In t (sort_uniq l) <-> In t l.
Proof.
  induction l as [|a l IH]; cbn [sort_uniq fold_right]; [reflexivity|].
  rewrite in_ins. cbn [In]. rewrite IH. reflexivity.
Qed.

Lemma sort_uniq_nil l : sort_uniq l = [] -> l = [].
Proof.
  destruct l as [|a l]; [reflexivity|]. intros H.
  assert (Ha : In a (sort_uniq (a :: l))) by (apply in_sort_uniq; left; reflexivity).
  rewrite H in Ha. destruct Ha.
Qed.

Lemma sincr_unique l1 : forall l2, sincr l1 -> sincr l2 -> (forall t, In t l1 <-> In t l2) -> l1 = l2.
Proof.
  induction l1 as [|a l1 IH]; intros [|b l2] H1 H2 He; try reflexivity;
    try (exfalso; eapply He; left; reflexivity).
  apply sincr_cons_iff in H1, H2. destruct H1 as [S1 L1], H2 as [S2 L2].
  assert (a = b).
  { destruct (proj1 (He a) (or_introl eq_refl)) as [E|E]; auto.
    destruct (proj2 (He b) (or_introl eq_refl)) as [E'|E']; auto.
    specialize (L1 _ E'). specialize (L2 _ E). lia. }
  subst b. f_equal. apply IH; auto.
  intros t. split; intros Ht.
  - destruct (proj1 (He t) (or_intror Ht)) as [<-|E]; [apply L1 in Ht; lia | exact E].
  - destruct (proj2 (He t) (or_intror Ht)) as [<-|E]; [apply L2 in Ht; lia | exact E].
Qed.

Lemma sort_uniq_ext l1 l2 : (forall t, In t l1 <-> In t l2) -> sort_uniq l1 = sort_uniq l2.
Proof.
  intros H. apply sincr_unique; auto using sincr_sort_uniq.
  intros t. rewrite !in_sort_uniq. apply H.
Qed.

(** equivalence of answers: same series, same timestamps, the same SET of candidate values *)
Definition pts_equiv (a b : list (Z * list Z)) : Prop :=
  Forall2 (fun p q => fst p = fst q /\ forall v, In v (snd p) <-> In v (snd q)) a b.
Definition answer_equiv (a b : answer) : Prop :=
  Forall2 (fun p q => fst p = fst q /\ pts_equiv (snd p) (snd q)) a b.

Lemma in_vals_at l t v : In v (vals_at l t) <-> In (mkS t v) l.
Proof.
  unfold vals_at. rewrite in_map_filter_key. split.
  - intros [[t' v'] (H & <- & <-)]. exact H.
  - intros H. exists (mkS t v). auto.
Qed.

Lemma series_answer_fst l : map fst (series_answer l) = sort_uniq (map st l).
Proof. unfold series_answer. rewrite map_map. apply map_id. Qed.

Lemma in_series_answer l t vs :
  In (t, vs) (series_answer l) <-> In t (map st l) /\ vs = vals_at l t.
Proof.
  unfold series_answer. rewrite in_map_iff. split.
  - intros [u [E Hu]]. inversion E; subst u vs. apply -> in_sort_uniq in Hu. split; [exact Hu | reflexivity].
  - intros [Ht ->]. exists t. split; [reflexivity | apply in_sort_uniq, Ht].
Qed.

Lemma series_answer_nil l : series_answer l = [] -> l = [].
Proof. unfold series_answer. intros H. apply (map_eq_nil st), sort_uniq_nil, (map_eq_nil _ _ H). Qed.

Lemma series_answer_equiv l1 l2 :
  (forall x, In x l1 <-> In x l2) -> pts_equiv (series_answer l1) (series_answer l2).
Proof.
  intros H. unfold series_answer. rewrite (sort_uniq_ext (map st l1) (map st l2)) by apply map_mem, H.
  unfold pts_equiv. induction (sort_uniq (map st l2)) as [|t r IH]; cbn [map]; constructor; [|exact IH].
  split; [reflexivity|]. intros v. cbn [snd]. rewrite !in_vals_at. apply H.
Qed.

(* what query_of contributes for one series *)
Definition entry (i : sid) (l : list sample) : answer :=
  match l with [] => [] | _ :: _ => [(i, series_answer l)] end.

Lemma query_of_entries cands mint maxt sel :
  query_of cands mint maxt sel
  = flat_map (fun i => entry i (filter (fun x => in_rng mint maxt (st x)) (cands i))) sel.
Proof. reflexivity. Qed.

Lemma in_entry i l j pts : In (j, pts) (entry i l) <-> j = i /\ l <> [] /\ pts = series_answer l.
Proof.
  destruct l as [|x l]; cbn [entry In]; [tauto|]. rewrite pair_equal_spec.
  split; [intros [[<- <-]|[]]; repeat split; discriminate | intros (-> & _ & ->); auto].
Qed.

Lemma entry_equiv i l1 l2 : (forall x, In x l1 <-> In x l2) -> answer_equiv (entry i l1) (entry i l2).
Proof.
  intros E. destruct l1 as [|x1 l1], l2 as [|x2 l2]; cbn [entry].
  - constructor.
  - destruct (proj2 (E x2) (or_introl eq_refl)).
  - destruct (proj1 (E x1) (or_introl eq_refl)).
  - constructor; [|constructor]. split; [reflexivity | apply series_answer_equiv, E].
Qed.

(* query_of looks at the candidates inside the queried range only *)
Lemma query_of_ext (a b : sid -> list sample) mint maxt sel :
  (forall i x, mint <= st x <= maxt -> (In x (a i) <-> In x (b i))) ->
  answer_equiv (query_of a mint maxt sel) (query_of b mint maxt sel).
Proof.
  intros H. rewrite !query_of_entries. unfold answer_equiv.
  induction sel as [|i sel IH]; cbn [flat_map]; [constructor|].
  apply Forall2_app; [|exact IH]. apply entry_equiv.
  intros x. rewrite !filter_In.
  split; intros [A B]; (split; [|exact B]); apply (H i x (proj1 (in_rng_iff _ _ _) B)), A.
Qed.

(** what the specification's answer means *)
Lemma spec_query_exact sp mint maxt sel i pts :
  In (i, pts) (spec_query sp mint maxt sel) ->
  In i sel /\ sincr (map fst pts) /\ pts <> [] /\
  (forall t vs, In (t, vs) pts -> mint <= t <= maxt /\ vs <> [] /\ forall v, In v vs <-> In (mkS t v) (sp i)) /\
  (forall x, In x (sp i) -> mint <= st x <= maxt -> exists vs, In (st x, vs) pts).
Proof.
  unfold spec_query. rewrite query_of_entries, in_flat_map. intros [j [Hj Hin]].
  apply in_entry in Hin. destruct Hin as (-> & Hne & ->).
  set (l := filter (fun x => in_rng mint maxt (st x)) (sp j)) in *.
  assert (Hl : forall x, In x l <-> In x (sp j) /\ mint <= st x <= maxt).
  { intros x. unfold l. rewrite filter_In, in_rng_iff. reflexivity. }
  split; [exact Hj|]. split; [rewrite series_answer_fst; apply sincr_sort_uniq|].
  split; [intros E; apply Hne, series_answer_nil, E|]. split.
  - intros t vs Hp. apply in_series_answer in Hp. destruct Hp as [Ht ->].
    apply in_map_iff in Ht. destruct Ht as [[t' v] [<- Hx]]. cbn [st].
    pose proof (proj1 (Hl _) Hx) as [_ Hr]. cbn [st] in Hr. split; [exact Hr|]. split.
    + intros E. apply in_vals_at in Hx. rewrite E in Hx. exact Hx.
    + intros v'. rewrite in_vals_at, Hl. cbn [st]. split; [apply proj1 | intros H; exact (conj H Hr)].
  - intros x Hx Hr. exists (vals_at l (st x)). apply in_series_answer.
    split; [apply in_map, Hl; split; assumption | reflexivity].
Qed.

(* the harness accepts an observed answer by answer_ok against the specification's answer:
   acceptance does not depend on which of two equivalent answers it is checked against *)
Lemma pts_ok_equiv obs a b : pts_equiv a b -> pts_ok obs a = true -> pts_ok obs b = true.
Proof.
  intros H. revert obs. induction H as [|p q a b [Hf Hv] Hr IH]; intros obs; destruct obs as [|[t v] o]; simpl; auto.
  destruct p as [t1 vs1], q as [t2 vs2]. simpl in *. subst t2.
  intros Hok. b2p. apply andb_true_iff; split; [apply andb_true_iff; split|].
  - apply Z.eqb_eq; auto.
  - apply memZ_iff, Hv, memZ_iff; auto.
  - apply IH; auto.
Qed.

Lemma answer_ok_equiv obs a b : answer_equiv a b -> answer_ok obs a = true -> answer_ok obs b = true.
Proof.
  intros H. revert obs. induction H as [|p q a b [Hf Hv] Hr IH]; intros obs; destruct obs as [|[i o] obs]; simpl; auto.
  destruct p as [i1 p1], q as [i2 p2]. simpl in *. subst i2.
  intros Hok. b2p. apply andb_true_iff; split; [apply andb_true_iff; split|].
  - apply Z.eqb_eq; auto.
  - eapply pts_ok_equiv; eauto.
  - apply IH; auto.
Qed.

Definition in_chunks (cs : list chunk) (y : sample) : Prop := exists c, In c cs /\ In y (c_samples c).

Lemma in_io m y : In y (io_samples m) <-> in_chunks (ms_chunks m) y.
Proof. unfold io_samples, in_chunks. rewrite in_flat_map. setoid_rewrite <- in_rev. reflexivity. Qed.

Lemma in_chunks_nil y : ~ in_chunks [] y.
Proof. intros [c [[] _]]. Qed.

Lemma in_chunks_cons c r y : in_chunks (c :: r) y <-> In y (c_samples c) \/ in_chunks r y.
Proof.
  unfold in_chunks. split.
  - intros [c0 [[<-|H] Hy]]; [left; exact Hy | right; eauto].
  - intros [Hy|[c0 [H Hy]]]; [exists c | exists c0]; simpl; auto.
Qed.

Definition vis_io (h : head) (i : sid) (y : sample) : Prop :=
  in_chunks (ms_chunks (h_series h i)) y /\ h_minT h <= st y /\ covered (h_tomb h i) (st y) = false.
Definition vis_ooo (h : head) (i : sid) (y : sample) : Prop :=
  In y (ms_ooo (h_series h i)) /\ covered (h_tomb h i) (st y) = false.
Definition vis_blk (b : block) (i : sid) (y : sample) : Prop :=
  In y (b_data b i) /\ covered (b_tomb b i) (st y) = false.
Definition vis_blocks (bs : list block) (i : sid) (y : sample) : Prop :=
  exists b, In b bs /\ vis_blk b i y.

Lemma in_block_cands b i y : In y (block_cands b i) <-> vis_blk b i y.
Proof. unfold block_cands, vis_blk. rewrite filter_In, negb_true_iff. tauto. Qed.

Lemma in_head_cands h i y :
  In y (head_cands h (h_minT h) i) <-> vis_io h i y \/ vis_ooo h i y.
Proof.
  unfold head_cands, vis_io, vis_ooo.
  rewrite in_app_iff, !filter_In, in_io, Z.max_id, andb_true_iff, Z.leb_le, !negb_true_iff. reflexivity.
Qed.

Lemma in_abs s i y :
  In y (abs s i) <-> vis_io (s_head s) i y \/ vis_ooo (s_head s) i y \/ vis_blocks (s_blocks s) i y.
Proof.
  unfold abs, vis_blocks. rewrite in_app_iff, in_head_cands, in_flat_map. setoid_rewrite in_block_cands.
  apply or_assoc.
Qed.

Definition hvis (h : head) (i : sid) (y : sample) : Prop := vis_io h i y \/ vis_ooo h i y.

Lemma abs_hvis s i y : In y (abs s i) <-> hvis (s_head s) i y \/ vis_blocks (s_blocks s) i y.
Proof. unfold hvis. rewrite in_abs, or_assoc. reflexivity. Qed.

(** chunks of one series, newest first *)
Fixpoint chunks_ok (cs : list chunk) : Prop :=
  match cs with
  | [] => True
  | c :: r => minInt64 < c_min c /\ c_min c <= c_max c /\ c_max c < maxInt64 /\
              (forall y, In y (c_samples c) -> c_min c <= st y <= c_max c) /\
              match r with [] => True | c' :: _ => c_max c' < c_min c end /\
              chunks_ok r
  end.

(* stated for a non-empty list and proved by induction on its tail: a chunk may hold no sample,
   so the span of the older chunks is needed whether or not the sample lies in them *)
Lemma chunks_ok_range r : forall c, chunks_ok (c :: r) ->
  minInt64 < oldest_min (c :: r) <= c_max c /\
  forall y, in_chunks (c :: r) y -> oldest_min (c :: r) <= st y <= c_max c.
Proof.
  induction r as [|c' r IH]; intros c (Hm & Hle & _ & Hs & Hord & Hr).
  - split; [simpl; lia|]. intros y Hy. apply in_chunks_cons in Hy.
    destruct Hy as [Hy|Hy]; [exact (Hs y Hy) | destruct (in_chunks_nil _ Hy)].
  - destruct (IH c' Hr) as [S B]. change (oldest_min (c :: c' :: r)) with (oldest_min (c' :: r)).
    split; [lia|]. intros y Hy. apply in_chunks_cons in Hy.
    destruct Hy as [Hy|Hy]; [specialize (Hs y Hy) | specialize (B y Hy)]; lia.
Qed.

Lemma chunks_ok_bounds cs : chunks_ok cs -> forall y, in_chunks cs y ->
  oldest_min cs <= st y <= newest_max cs /\ minInt64 < oldest_min cs.
Proof.
  intros Hok y Hy. destruct cs as [|c r]; [destruct (in_chunks_nil _ Hy)|].
  destruct (chunks_ok_range r c Hok) as [S B]. split; [exact (B y Hy) | apply S].
Qed.

Lemma chunks_ok_lt_max cs : chunks_ok cs -> forall y, in_chunks cs y -> st y < maxInt64.
Proof.
  intros Hok y Hy. destruct cs as [|c r]; [destruct (in_chunks_nil _ Hy)|].
  destruct (chunks_ok_range r c Hok) as [_ B]. destruct Hok as (_ & _ & Hmx & _). specialize (B y Hy). lia.
Qed.

(* hi_dead: an in-order sample left below Head.MinTime() in a chunk that straddles a truncation
   point also lies below minValidTime, so no accepted append lowers minTime enough to show it
   again; hi_ooo: no head tombstone covers an out-of-order head sample (wf_acc and wf_delete keep
   it so; the code does not: C01_refuted_ooo_append_under_tombstone) *)
Record head_inv (c : cfg) (h : head) : Prop := mkHI {
  hi_dead : forall i y, in_chunks (ms_chunks (h_series h i)) y -> st y < h_minT h -> st y < h_minValid h;
  hi_ooo : forall i y, In y (ms_ooo (h_series h i)) -> covered (h_tomb h i) (st y) = false;
  hi_chunks : forall i, chunks_ok (ms_chunks (h_series h i));
  hi_univ : forall i, ~ In i (universe c) -> ms_chunks (h_series h i) = [] /\ ms_ooo (h_series h i) = [];
  hi_max : forall i y, in_chunks (ms_chunks (h_series h i)) y -> st y <= h_maxT h
}.
Record blocks_inv (c : cfg) (bs : list block) : Prop := mkBI {
  bi_range : forall b i y, In b bs -> In y (b_data b i) -> b_mint b <= st y < b_maxt b;
  bi_univ : forall b i, In b bs -> ~ In i (universe c) -> b_data b i = []
}.
Definition inv (c : cfg) (s : state) : Prop := head_inv c (s_head s) /\ blocks_inv c (s_blocks s).

(* minTime, maxTime and minValidTime may move without showing or hiding anything, as long as no
   in-order sample lies between the old and the new minTime *)
Lemma head_times c h minT maxT mv :
  head_inv c h -> h_minValid h <= mv \/ minT <= mv ->
  (forall i y, in_chunks (ms_chunks (h_series h i)) y -> (minT <= st y <-> h_minT h <= st y) /\ st y <= maxT) ->
  head_inv c (mkHead minT maxT mv (h_series h) (h_tomb h)) /\
  forall i y, hvis (mkHead minT maxT mv (h_series h) (h_tomb h)) i y <-> hvis h i y.
Proof.
  intros [Hd Ho Hc Hu Hm] Hmv Hw. split.
  - constructor; cbn [h_series h_tomb h_minT h_maxT h_minValid]; auto.
    + intros i y Hy. specialize (Hd i y Hy). specialize (Hw i y Hy). lia.
    + intros i y Hy. exact (proj2 (Hw i y Hy)).
  - intros i y. unfold hvis, vis_io, vis_ooo. cbn [h_series h_tomb h_minT].
    split; (intros [(Hy & Hmin & Hcv)|H]; [left|right; exact H]); (split; [exact Hy|]); (split; [|exact Hcv]);
      apply (Hw i y Hy), Hmin.
Qed.

Lemma keep_new_sub cs R c : In c (keep_new cs R) -> In c cs.
Proof.
  induction cs as [|a r IH]; simpl; auto. destruct (c_max a <? R); simpl; [tauto|].
  intros [H|H]; auto.
Qed.

Lemma keep_new_ok cs R : chunks_ok cs -> chunks_ok (keep_new cs R).
Proof.
  induction cs as [|a r IH]; simpl; auto. intros (Hm & Hle & Hmx & Hs & Hord & Hr).
  destruct (c_max a <? R); [exact I|]. cbn [chunks_ok].
  repeat (split; [assumption|]). split; [|apply IH, Hr].
  (* the chunk kept below a, if any, is the one that was below it *)
  destruct r as [|b r']; [exact I|]. simpl. destruct (c_max b <? R); [exact I | exact Hord].
Qed.

Lemma keep_new_in cs R y : chunks_ok cs -> in_chunks cs y -> R <= st y -> in_chunks (keep_new cs R) y.
Proof.
  induction cs as [|a r IH]; intros Hok Hin HR; [exact Hin|].
  destruct (chunks_ok_bounds _ Hok y Hin) as [[_ B] _]. cbn [newest_max] in B.
  simpl. destruct (Z.ltb_spec (c_max a) R); [lia|].
  destruct Hok as (_ & _ & _ & _ & _ & Hr). rewrite in_chunks_cons in *.
  destruct Hin as [Hy|Hz]; [left; exact Hy | right; exact (IH Hr Hz HR)].
Qed.

Lemma keep_new_in_rev cs R y : in_chunks (keep_new cs R) y -> in_chunks cs y.
Proof. intros [c [H1 H2]]. exists c. split; auto. eapply keep_new_sub; eauto. Qed.

Lemma in_chunks_has_data m y : in_chunks (ms_chunks m) y -> has_data m = true.
Proof. unfold has_data. intros Hin. destruct (ms_chunks m); [destruct (in_chunks_nil _ Hin) | reflexivity]. Qed.

Lemma covered_sub a b t : (forall iv, In iv a -> In iv b) -> covered b t = false -> covered a t = false.
Proof. intros H Hb. apply covered_false_iff. intros iv Hi. eapply covered_false_iff in Hb; eauto. Qed.

Section GC.
Variable c : cfg.

Lemma gc_only_tomb_sub h i iv : In iv (h_tomb (gc_only h) i) -> In iv (h_tomb h i).
Proof.
  unfold gc_only; simpl. destruct (has_data _); [|intros []]. intros H. apply filter_In in H. tauto.
Qed.

(* gc drops the tombstones that end below Head.MinTime(): at or above it they cover what they covered *)
Lemma gc_only_covered h i t :
  has_data (h_series (gc_only h) i) = true -> h_minT h <= t ->
  covered (h_tomb (gc_only h) i) t = covered (h_tomb h i) t.
Proof.
  unfold gc_only. cbn [h_series h_tomb]. intros -> Hm. apply eq_iff_eq_true. rewrite !covered_iff.
  split; intros [iv [Hin Hr]]; exists iv; (split; [|exact Hr]).
  - apply filter_In in Hin. apply Hin.
  - apply filter_In. split; [exact Hin | apply Z.leb_le; lia].
Qed.

(* gc drops whole chunks below Head.MinTime() and tombstones of vanished series or below it:
   nothing is shown or hidden *)
Lemma gc_only_vis h i y : head_inv c h -> hvis (gc_only h) i y <-> hvis h i y.
Proof.
  intros Hi. unfold hvis, vis_io, vis_ooo. split.
  - intros [(Hin & Hm & Hc)|[Hin _]]; [left | right; split; [exact Hin | apply (hi_ooo _ _ Hi), Hin]].
    rewrite gc_only_covered in Hc; [|exact (in_chunks_has_data _ y Hin) | exact Hm].
    split; [exact (keep_new_in_rev _ _ _ Hin) | split; assumption].
  - intros [(Hin & Hm & Hc)|[Hin Hc]]; [left | right; split; [exact Hin|]].
    + apply (keep_new_in _ (h_minT h) _ (hi_chunks _ _ Hi i)) in Hin; [|exact Hm].
      split; [exact Hin|]. split; [exact Hm|].
      rewrite gc_only_covered; [exact Hc | exact (in_chunks_has_data (h_series (gc_only h) i) y Hin) | exact Hm].
    + eapply covered_sub; [|exact Hc]. apply gc_only_tomb_sub.
Qed.

Lemma gc_only_inv h : head_inv c h -> head_inv c (gc_only h).
Proof.
  intros [Hd Ho Hc Hu Hm]. constructor; cbn [gc_only h_series gc_series ms_chunks ms_ooo h_minT h_minValid h_maxT].
  - intros i y Hin. apply keep_new_in_rev in Hin. eauto.
  - intros i y Hy. eapply covered_sub; [|apply Ho; exact Hy]. apply gc_only_tomb_sub.
  - intros i. apply keep_new_ok; auto.
  - intros i Hi. destruct (Hu i Hi) as [A B]. rewrite A, B. auto.
  - intros i y Hin. apply keep_new_in_rev in Hin. eauto.
Qed.

Lemma actual_mint_le h : actual_mint (universe c) h >? h_minT h = true ->
  forall i, In i (universe c) -> has_data (h_series h i) = true ->
  actual_mint (universe c) h <= oldest_min (ms_chunks (h_series h i)).
Proof.
  intros Hgt i Hi Hd. unfold actual_mint in *. set (a := fold_right _ _ _) in *.
  assert (L : a <= oldest_min (ms_chunks (h_series h i))).
  { unfold a. clear - Hi Hd. induction (universe c) as [|j u IH]; [destruct Hi|]. cbn [fold_right].
    destruct Hi as [<-|Hi]; [rewrite Hd; lia|]. specialize (IH Hi). destruct (has_data (h_series h j)); lia. }
  destruct (a =? maxInt64); [b2p; lia | exact L].
Qed.

(* raising minTime to the first sample present (but not beyond appendableMinValidTime) hides nothing *)
Lemma gc_adjust_vis h i y : head_inv c h -> hvis (gc_adjust c h) i y <-> hvis h i y.
Proof.
  intros Hp. rewrite <- (gc_only_vis h i y Hp). apply gc_only_inv in Hp. unfold gc_adjust.
  set (h1 := gc_only h) in *. set (am := actual_mint (universe c) h1).
  destruct (am >? h_minT h1) eqn:E; [|reflexivity].
  set (n := if am <? _ then am else _).
  assert (Hn : n <= am) by (unfold n; destruct (am <? _) eqn:E2; b2p; lia).
  apply (head_times c h1 n (h_maxT h1) n Hp (or_intror (Z.le_refl n))).
  (* every in-order sample lies at or above the actual minimum, which is above minTime *)
  intros j z Hin. pose proof (hi_max _ _ Hp j z Hin).
  assert (Hj : In j (universe c)).
  { destruct (in_dec Z.eq_dec j (universe c)) as [Hj|Hj]; [exact Hj|].
    destruct (hi_univ _ _ Hp j Hj) as [A _]. rewrite A in Hin. destruct (in_chunks_nil _ Hin). }
  pose proof (actual_mint_le h1 E j Hj (in_chunks_has_data _ z Hin)) as Ha. fold am in Ha.
  destruct (chunks_ok_bounds _ (hi_chunks _ _ Hp j) z Hin) as [[B _] _]. b2p. lia.
Qed.

Lemma gc_adjust_series h i : h_series (gc_adjust c h) i = gc_series (h_minT h) (h_series h i).
Proof. unfold gc_adjust. destruct (_ >? _); reflexivity. Qed.

Lemma gc_adjust_maxT h : h_maxT (gc_adjust c h) = h_maxT h.
Proof. unfold gc_adjust. destruct (_ >? _); reflexivity. Qed.

(* the adjustment sets minTime and minValidTime to the same value: the dead-sample clause is trivial *)
Lemma gc_adjust_inv h : head_inv c h -> head_inv c (gc_adjust c h).
Proof.
  intros H. apply gc_only_inv in H. unfold gc_adjust. destruct (_ >? _); [|exact H].
  destruct H as [Hd Ho Hc Hu Hm]. constructor; cbn [h_series h_tomb h_minT h_maxT h_minValid]; auto.
Qed.
End GC.

(* the admission facts the implementation guarantees for an accepted sample, relative to the
   head it is applied to (admission itself is property C02) *)
Definition wf_acc (c : cfg) (h : head) (a : acc) : Prop :=
  let '(i, x, ooo) := a in
  In i (universe c) /\ minInt64 < st x < maxInt64 /\
  covered (h_tomb h i) (st x) = false /\
  (ooo = false ->
     h_minValid h <= st x /\
     match ms_chunks (h_series h i) with [] => True | c0 :: _ => c_max c0 < st x end).

Fixpoint wf_accs (c : cfg) (h : head) (l : list acc) : Prop :=
  match l with
  | [] => True
  | a :: r => wf_acc c h a /\ wf_accs c (commit1 (chunkRange c) h a) r
  end.

(* a new head chunk is cut, or the open head chunk is extended *)
Lemma append_io_cases cr m x (P : mseries -> Prop) :
  P (mkMS (mkC (st x) (st x) [x] O :: ms_chunks m) (rangeFor (st x) cr) true (ms_ooo m)) ->
  (forall c0 r, ms_chunks m = c0 :: r ->
     P (mkMS (mkC (c_min c0) (st x) (c_samples c0 ++ [x]) (c_ref c0) :: r) (ms_nextAt m) true (ms_ooo m))) ->
  P (append_io cr m x).
Proof.
  intros Hcut Hext. unfold append_io. destruct (ms_chunks m) as [|c0 r]; [exact Hcut|].
  destruct (negb (ms_open m)); [exact Hcut|]. destruct (st x >=? ms_nextAt m); [exact Hcut|].
  apply Hext. reflexivity.
Qed.

Lemma append_io_ooo cr m x : ms_ooo (append_io cr m x) = ms_ooo m.
Proof. apply append_io_cases; reflexivity. Qed.

Lemma append_io_chunks cr m x y :
  in_chunks (ms_chunks (append_io cr m x)) y <-> in_chunks (ms_chunks m) y \/ x = y.
Proof.
  apply append_io_cases; [|intros c0 r ->]; cbn [ms_chunks]; rewrite !in_chunks_cons; cbn [c_samples].
  - split; [intros [[H|[]]|H]; auto | intros [H|H]; [auto | left; left; exact H]].
  - rewrite in_app_iff. split; [intros [[H|[H|[]]]|H]; auto | intros [[H|H]|H]; auto; left; right; left; exact H].
Qed.

Lemma append_io_ok cr m x :
  chunks_ok (ms_chunks m) -> minInt64 < st x < maxInt64 ->
  match ms_chunks m with [] => True | c0 :: _ => c_max c0 < st x end ->
  chunks_ok (ms_chunks (append_io cr m x)).
Proof.
  intros Hok Hx Hgt. apply append_io_cases; [|intros c0 r Em; rewrite Em in Hok, Hgt];
    cbn [ms_chunks chunks_ok c_min c_max c_samples].
  - repeat (split; [lia|]). split; [intros y [<-|[]]; lia|]. split; [exact Hgt | exact Hok].
  - destruct Hok as (Hm & Hle & Hmx & Hs & Hord & Hr). repeat (split; [lia|]). split; [|split; assumption].
    intros y Hy. apply in_app_iff in Hy. destruct Hy as [Hy|[<-|[]]]; [specialize (Hs y Hy); lia | lia].
Qed.

Lemma upd_same {A} (f : sid -> A) k v : upd f k v k = v.
Proof. unfold upd. rewrite Z.eqb_refl. reflexivity. Qed.
Lemma upd_other {A} (f : sid -> A) k v i : i <> k -> upd f k v i = f i.
Proof. unfold upd. intros H. apply Z.eqb_neq in H. rewrite H. reflexivity. Qed.

(* replacing the series j of a head: what the new series has to satisfy *)
Lemma head_inv_upd c h j m :
  head_inv c h -> In j (universe c) -> chunks_ok (ms_chunks m) ->
  (forall y, in_chunks (ms_chunks m) y ->
             in_chunks (ms_chunks (h_series h j)) y \/ h_minT h <= st y <= h_maxT h) ->
  (forall y, In y (ms_ooo m) -> covered (h_tomb h j) (st y) = false) ->
  head_inv c (mkHead (h_minT h) (h_maxT h) (h_minValid h) (upd (h_series h) j m) (h_tomb h)).
Proof.
  intros [Hd Ho Hc Hu Hm] Hj Hok Hin Hooo.
  constructor; cbn [h_series h_tomb h_minT h_maxT h_minValid]; intros i;
    (destruct (Z.eq_dec i j) as [->|Hn]; [rewrite upd_same | rewrite upd_other by exact Hn]); eauto.
  - intros y Hy Hlt. destruct (Hin y Hy) as [Hy'|Hge]; [exact (Hd j y Hy' Hlt) | lia].
  - intros Hn. destruct (Hn Hj).
  - intros y Hy. destruct (Hin y Hy) as [Hy'|Hge]; [exact (Hm j y Hy') | lia].
Qed.

Lemma commit1_step c h a :
  head_inv c h -> wf_acc c h a ->
  head_inv c (commit1 (chunkRange c) h a) /\
  (forall i y, hvis (commit1 (chunkRange c) h a) i y <-> hvis h i y \/ (fst (fst a) = i /\ snd (fst a) = y)).
Proof.
  intros Hi Hwf. destruct a as [[j x] ooo]. cbn [fst snd].
  destruct Hwf as (Hj & Hx & Hcov & Hio). unfold commit1. destruct ooo.
  - (* out-of-order *)
    split.
    + apply head_inv_upd; cbn [ms_chunks ms_ooo]; auto using (hi_chunks _ _ Hi).
      intros y Hy. apply in_app_iff in Hy.
      destruct Hy as [Hy|[<-|[]]]; [exact (hi_ooo _ _ Hi j y Hy) | exact Hcov].
    + intros i y. unfold hvis, vis_io, vis_ooo. cbn [h_series h_tomb h_minT].
      destruct (Z.eq_dec j i) as [<-|Hn]; [rewrite upd_same | rewrite upd_other by auto].
      * cbn [ms_chunks ms_ooo]. rewrite in_app_iff. split.
        -- intros [H|[[H|[H|[]]] Hcv]]; auto.
        -- intros [[H|[H Hcv]]|[_ <-]]; auto. right. split; [right; left; reflexivity | exact Hcov].
      * split; [auto | intros [H|[E _]]; [exact H | destruct (Hn E)]].
  - (* in-order: first minTime and maxTime move to take in the new sample, then the series gets it *)
    destruct (Hio eq_refl) as [Hmv Hgt].
    destruct (head_times c h (Z.min (h_minT h) (st x)) (Z.max (h_maxT h) (st x)) (h_minValid h) Hi) as [Hi0 Hv0];
      [left; lia | |].
    { (* what lies below minTime lies below minValidTime, the new sample does not *)
      intros i y Hy. pose proof (hi_dead _ _ Hi i y Hy). pose proof (hi_max _ _ Hi i y Hy). lia. }
    set (h0 := mkHead _ _ _ (h_series h) _) in *. split.
    + apply (head_inv_upd c h0 j _ Hi0 Hj).
      * apply append_io_ok; auto. apply (hi_chunks _ _ Hi).
      * intros y Hy. apply append_io_chunks in Hy. destruct Hy as [Hy| <-]; [left; exact Hy | right; cbn; lia].
      * rewrite append_io_ooo. apply (hi_ooo _ _ Hi).
    + intros i y. rewrite <- Hv0. unfold hvis, vis_io, vis_ooo, h0. cbn [h_series h_tomb h_minT].
      destruct (Z.eq_dec j i) as [<-|Hn]; [rewrite upd_same, append_io_ooo, append_io_chunks | rewrite upd_other by auto].
      * split.
        -- intros [([Hy| <-] & Hmin & Hcv)|H]; auto 6.
        -- intros [[(Hy & Hmin & Hcv)|H]|[_ <-]]; auto. left. split; [right; reflexivity|]. split; [lia | exact Hcov].
      * split; [auto | intros [H|[E _]]; [exact H | destruct (Hn E)]].
Qed.

Lemma commit_fold c l : forall h,
  head_inv c h -> wf_accs c h l ->
  head_inv c (fold_left (commit1 (chunkRange c)) l h) /\
  (forall i y, hvis (fold_left (commit1 (chunkRange c)) l h) i y <->
               hvis h i y \/ In (i, y) (map (fun a => (fst (fst a), snd (fst a))) l)).
Proof.
  induction l as [|a l IH]; intros h Hi Hwf; simpl.
  - split; auto. intros; tauto.
  - destruct Hwf as [Ha Hr]. destruct (commit1_step c h a Hi Ha) as [Hi' Hv].
    destruct (IH _ Hi' Hr) as [Hi'' Hv'']. split; [exact Hi''|].
    intros i y. rewrite Hv'', Hv, pair_equal_spec. apply or_assoc.
Qed.

Lemma init_time_inv c h f : head_inv c h -> head_inv c (init_time h f) /\ forall i y, hvis (init_time h f) i y <-> hvis h i y.
Proof.
  intros Hi. unfold init_time. destruct f as [t|]; [|split; [exact Hi | reflexivity]].
  destruct ((h_minT h =? maxInt64) && (h_maxT h =? minInt64)) eqn:E; [|split; [exact Hi | reflexivity]].
  b2p. apply head_times; [exact Hi | left; lia|].
  (* an uninitialised head holds no in-order sample *)
  intros i y Hy. exfalso. pose proof (hi_max _ _ Hi i y Hy).
  destruct (chunks_ok_bounds _ (hi_chunks _ _ Hi i) y Hy) as [[B _] B2]. lia.
Qed.

(* Head.Delete only looks at the in-order chunks: a Delete whose range contains an out-of-order
   sample still in the head of a selected series is outside the theorem
   (C01_refuted_delete_skips_ooo_sample, C01_refuted_delete_then_ooo_compaction) *)
Definition wf_delete (h : head) (mint maxt : Z) (sel : list sid) : Prop :=
  forall i y, In i sel -> In y (ms_ooo (h_series h i)) -> ~ (mint <= st y <= maxt).

Lemma in_stones_of l i iv : In iv (stones_of l i) <-> In (i, iv) l.
Proof.
  unfold stones_of. rewrite in_map_filter_key. split.
  - intros [[j iv'] (H & <- & <-)]. exact H.
  - intros H. exists (i, iv). auto.
Qed.

Lemma head_stones_in h mint maxt sel i iv :
  In (i, iv) (head_stones mint maxt sel h) -> In i sel /\ mint <= fst iv /\ snd iv <= maxt.
Proof.
  unfold head_stones. destruct ((h_minT h <=? maxt) && (mint <=? h_maxT h)); [|intros []].
  unfold clamp. rewrite in_flat_map. intros [j [Hj H]].
  destruct ((oldest_min _ =? minInt64) || (newest_max _ =? minInt64)); [inversion H|].
  destruct (_ >? _); [inversion H|]. destruct H as [H|[]]. inversion H; subst. simpl. split; auto. lia.
Qed.

Lemma head_stones_cover c h mint maxt sel i y :
  head_inv c h -> In i sel -> in_chunks (ms_chunks (h_series h i)) y -> h_minT h <= st y ->
  mint <= st y <= maxt -> covered (stones_of (head_stones mint maxt sel h) i) (st y) = true.
Proof.
  intros [Hd Ho Hc Hu Hm] Hi Hy Hmin Hr. specialize (Hm i y Hy).
  destruct (chunks_ok_bounds _ (Hc i) y Hy) as [[B1 B2] B3].
  apply covered_iff.
  exists (Z.max (Z.max mint (h_minT h)) (oldest_min (ms_chunks (h_series h i))),
          Z.min (Z.min maxt (h_maxT h)) (newest_max (ms_chunks (h_series h i)))).
  split; [|simpl; lia]. apply in_stones_of. unfold head_stones, clamp.
  rewrite (proj2 (Z.leb_le _ _)), (proj2 (Z.leb_le _ _)) by lia.
  apply in_flat_map. exists i. split; [exact Hi|].
  rewrite (proj2 (Z.eqb_neq _ _)), (proj2 (Z.eqb_neq _ _)) by lia.
  rewrite Z.gtb_ltb, (proj2 (Z.ltb_ge _ _)) by lia. left; reflexivity.
Qed.

Lemma head_delete_step c h mint maxt sel :
  head_inv c h -> wf_delete h mint maxt sel ->
  head_inv c (head_delete mint maxt sel h) /\
  forall i y, hvis (head_delete mint maxt sel h) i y <-> hvis h i y /\ ~ (In i sel /\ mint <= st y <= maxt).
Proof.
  intros Hi Hwf. pose proof Hi as [Hd Ho Hc Hu Hm].
  assert (Hst : forall i t, covered (stones_of (head_stones mint maxt sel h) i) t = true ->
                            In i sel /\ mint <= t <= maxt).
  { intros i t Hcv. apply covered_iff in Hcv. destruct Hcv as [iv [Hin Hr]].
    apply in_stones_of, head_stones_in in Hin. destruct Hin as (A & B & C). split; auto. lia. }
  split.
  - constructor; unfold head_delete; cbn [h_series h_tomb h_minT h_maxT h_minValid]; auto.
    intros i y Hy. rewrite covered_app, (Ho i y Hy), orb_false_r.
    destruct (covered (stones_of _ i) (st y)) eqn:E; auto.
    destruct (Hst _ _ E) as [A B]. destruct (Hwf i y A Hy B).
  - intros i y. unfold hvis, vis_io, vis_ooo, head_delete. cbn [h_series h_tomb h_minT]. rewrite covered_app.
    destruct (covered (stones_of _ i) (st y)) eqn:E; cbn [orb].
    + (* a new stone covers y: the Delete names it *)
      apply Hst in E. split; [intros [(_ & _ & D)|(_ & D)]; discriminate D | intros [_ HQ]; destruct (HQ E)].
    + (* no new stone covers y: the Delete does not name it, if the head shows it *)
      split; [|intros [Hv _]; exact Hv]. intros Hv. split; [exact Hv|]. intros [A B].
      destruct Hv as [(Hy & Hmin & _)|(Hy & _)]; [|exact (Hwf i y A Hy B)].
      rewrite (head_stones_cover c h mint maxt sel i y Hi A Hy Hmin B) in E. discriminate E.
Qed.

Lemma lmin_le l y : In y l -> lmin l <= st y.
Proof. induction l as [|a l IH]; simpl; [tauto|]. intros [<-|H]; [|specialize (IH H)]; lia. Qed.
Lemma lmax_ge l y : In y l -> st y <= lmax l.
Proof. induction l as [|a l IH]; simpl; [tauto|]. intros [<-|H]; [|specialize (IH H)]; lia. Qed.

Lemma covered_cons iv ivs t : covered (iv :: ivs) t = in_rng (fst iv) (snd iv) t || covered ivs t.
Proof. reflexivity. Qed.

Definition block_ok (c : cfg) (b : block) : Prop :=
  (forall i y, In y (b_data b i) -> b_mint b <= st y < b_maxt b) /\
  (forall i, ~ In i (universe c) -> b_data b i = []).

Lemma blocks_inv_Forall c bs : blocks_inv c bs <-> Forall (block_ok c) bs.
Proof.
  rewrite Forall_forall. split.
  - intros [Hr Hu] b Hb. split; [intros i y; apply Hr, Hb | intros i; apply Hu, Hb].
  - intros H. constructor; intros b; [intros i y Hb | intros i Hb]; apply (H b Hb).
Qed.

Lemma vis_blocks_Exists bs i y : vis_blocks bs i y <-> Exists (fun b => vis_blk b i y) bs.
Proof. symmetry. apply Exists_exists. Qed.

Lemma vis_blocks_app a b i y : vis_blocks (a ++ b) i y <-> vis_blocks a i y \/ vis_blocks b i y.
Proof. rewrite !vis_blocks_Exists. apply Exists_app. Qed.

Lemma vis_blocks_flat_map {A} (f : A -> list block) (P : A -> Prop) l i y :
  (forall a, In a l -> (vis_blocks (f a) i y <-> P a)) ->
  (vis_blocks (flat_map f l) i y <-> exists a, In a l /\ P a).
Proof.
  intros H. unfold vis_blocks at 1. split.
  - intros [b [Hb Hv]]. apply in_flat_map in Hb. destruct Hb as [a [Ha Hb]].
    exists a. split; [exact Ha|]. apply (H a Ha). exists b. auto.
  - intros [a [Ha Hp]]. apply (H a Ha) in Hp. destruct Hp as [b [Hb Hv]].
    exists b. split; [|exact Hv]. apply in_flat_map. eauto.
Qed.

Lemma vis_blk_no_tomb b i y : b_tomb b i = [] -> (vis_blk b i y <-> In y (b_data b i)).
Proof. unfold vis_blk. intros ->. split; [intros [H _]; exact H | intros H; split; [exact H | reflexivity]]. Qed.

Lemma sample_overlaps c b mint maxt i y :
  block_ok c b -> In y (b_data b i) -> mint <= st y <= maxt -> b_overlaps b mint maxt = true.
Proof.
  intros [Hr _] Hy Hx. specialize (Hr i y Hy). apply andb_true_iff. rewrite Z.leb_le, Z.ltb_lt. lia.
Qed.

Lemma block_delete_ok c b mint maxt sel : block_ok c b -> block_ok c (block_delete mint maxt sel b).
Proof. intros H. unfold block_delete. destruct (b_overlaps b mint maxt); exact H. Qed.

Lemma block_delete_data mint maxt sel b : b_data (block_delete mint maxt sel b) = b_data b.
Proof. unfold block_delete. destruct (b_overlaps b mint maxt); reflexivity. Qed.

Lemma and_iff_compat_in_l (A B C : Prop) : (A -> (B <-> C)) -> (A /\ B <-> A /\ C).
Proof. tauto. Qed.
Lemma iff_and_r (A B : Prop) : B -> (A <-> A /\ B).
Proof. tauto. Qed.

Lemma block_delete_vis c b mint maxt sel i y :
  block_ok c b ->
  vis_blk (block_delete mint maxt sel b) i y <-> vis_blk b i y /\ ~ (In i sel /\ mint <= st y <= maxt).
Proof.
  intros Hb. unfold vis_blk. rewrite block_delete_data, and_assoc. apply and_iff_compat_in_l.
  intros Hy. unfold block_delete.
  destruct (b_overlaps b mint maxt) eqn:E; cbn [b_tomb].
  - destruct (memZ i sel && existsb (fun x => in_rng mint maxt (st x)) (b_data b i)) eqn:E2.
    + (* the new stone is [mint,maxt] cut to the time range of the series' samples *)
      apply andb_true_iff in E2. destruct E2 as [Hsel _]. apply memZ_iff in Hsel.
      pose proof (lmin_le _ _ Hy) as L1. pose proof (lmax_ge _ _ Hy) as L2.
      rewrite covered_cons, orb_false_iff, <- not_true_iff_false, in_rng_iff. cbn [clamp fst snd].
      assert (Z.max mint (lmin (b_data b i)) <= st y <= Z.min maxt (lmax (b_data b i)) <->
              In i sel /\ mint <= st y <= maxt) as -> by (split; [split; [exact Hsel | lia] | lia]).
      apply and_comm.
    + (* no stone: the series is not selected or has no sample inside [mint,maxt] *)
      apply iff_and_r. intros [A B]. apply memZ_iff in A. rewrite A in E2. cbn [andb] in E2.
      rewrite <- not_true_iff_false, existsb_exists in E2. apply E2.
      exists y. split; [exact Hy | apply in_rng_iff, B].
  - apply iff_and_r. intros [_ B]. rewrite (sample_overlaps c b mint maxt i y Hb Hy B) in E. discriminate.
Qed.

Lemma blocks_delete_step c bs mint maxt sel :
  blocks_inv c bs ->
  blocks_inv c (map (block_delete mint maxt sel) bs) /\
  forall i y, vis_blocks (map (block_delete mint maxt sel) bs) i y <->
              vis_blocks bs i y /\ ~ (In i sel /\ mint <= st y <= maxt).
Proof.
  intros Hb. apply blocks_inv_Forall in Hb. split.
  - apply blocks_inv_Forall, Forall_map. eapply Forall_impl; [|exact Hb]. intros b. apply block_delete_ok.
  - rewrite Forall_forall in Hb. intros i y. unfold vis_blocks. split.
    + intros [b' [Hin Hv]]. apply in_map_iff in Hin. destruct Hin as [b [<- Hin]].
      apply (block_delete_vis c) in Hv; [|exact (Hb b Hin)]. destruct Hv. eauto.
    + intros [[b [Hin Hv]] Hn]. exists (block_delete mint maxt sel b). split; [apply in_map, Hin|].
      apply (block_delete_vis c); auto.
Qed.

Lemma num_samples_nonneg u b : 0 <= num_samples u b.
Proof. unfold num_samples. induction u as [|i u IH]; simpl; lia. Qed.

Lemma num_samples_zero u b : (0 <? num_samples u b) = false -> forall i, In i u -> b_data b i = [].
Proof.
  intros H. apply Z.ltb_ge in H. induction u as [|j u IH]; intros i Hi; [inversion Hi|].
  unfold num_samples in H. simpl in H. fold (num_samples u b) in H. pose proof (num_samples_nonneg u b).
  destruct Hi as [<-|Hi]; [|apply IH; auto; lia].
  apply (map_eq_nil st), sort_uniq_nil, length_zero_iff_nil. lia.
Qed.

(* LeveledCompactor.Write skips a block only if it holds no sample at all *)
Lemma unwritten_empty c b :
  (forall j, ~ In j (universe c) -> b_data b j = []) -> (0 <? num_samples (universe c) b) = false ->
  forall i, b_data b i = [].
Proof.
  intros Hu E i. destruct (in_dec Z.eq_dec i (universe c)) as [Hi|Hi].
  - exact (num_samples_zero _ _ E i Hi).
  - exact (Hu i Hi).
Qed.

(* LeveledCompactor.Write as add_block and clean_block use it: the block list gains [b] only if [b] holds a sample *)
Definition written (u : list sid) (b : block) : list block := if 0 <? num_samples u b then [b] else [].

Lemma written_ok c b : block_ok c b -> Forall (block_ok c) (written (universe c) b).
Proof. intros H. unfold written. destruct (0 <? _); auto. Qed.

Lemma written_vis c b i y : block_ok c b -> vis_blocks (written (universe c) b) i y <-> vis_blk b i y.
Proof.
  intros [_ Hu]. rewrite vis_blocks_Exists. unfold written.
  destruct (0 <? num_samples (universe c) b) eqn:E.
  - rewrite Exists_cons, Exists_nil. tauto.
  - rewrite Exists_nil. split; [tauto|]. intros [Hy _]. rewrite (unwritten_empty c b Hu E i) in Hy. destruct Hy.
Qed.

Lemma add_block_app u b bs : add_block u b bs = bs ++ written u b.
Proof. unfold add_block, written. destruct (0 <? num_samples u b); [reflexivity | symmetry; apply app_nil_r]. Qed.

Lemma fold_add_block {A} u (g : A -> block) l : forall bs,
  fold_left (fun acc t => add_block u (g t) acc) l bs = bs ++ flat_map (fun t => written u (g t)) l.
Proof.
  induction l as [|t l IH]; intros bs; simpl; [symmetry; apply app_nil_r|].
  rewrite IH, add_block_app, <- app_assoc. reflexivity.
Qed.

Definition wf_cfg (c : cfg) : Prop := 0 < chunkRange c.

Lemma quot_near t w : 0 < w -> Z.abs (t - w * godiv t w) < w.
Proof. intros Hw. unfold godiv. pose proof (Z.quot_rem' t w). pose proof (Z.rem_bound_abs t w). lia. Qed.

Lemma rangeFor_gt t w : 0 < w -> t < rangeFor t w.
Proof. intros Hw. unfold rangeFor. pose proof (quot_near t w Hw). lia. Qed.

Lemma rangeStart_le t w : 0 < w -> rangeStart t w <= t.
Proof.
  intros Hw. unfold rangeStart. destruct (Z.geb_spec t 0).
  - apply Z.mul_quot_le; lia.
  - pose proof (quot_near (t - w + 1) w Hw). lia.
Qed.

Lemma truncate_memory_step c h R :
  head_inv c h -> h_minT h < R ->
  head_inv c (truncate_memory c h R) /\
  forall i y, hvis (truncate_memory c h R) i y <-> (vis_io h i y /\ R <= st y) \/ vis_ooo h i y.
Proof.
  intros [Hd Ho Hc Hu Hm] Hlt. unfold truncate_memory.
  destruct (Z.geb_spec (h_minT h) R); [lia|]. cbn [andb].
  set (h0 := mkHead R (Z.max (h_maxT h) R) R (h_series h) (h_tomb h)).
  assert (Hi0 : head_inv c h0).
  { constructor; unfold h0; cbn [h_series h_tomb h_minT h_maxT h_minValid]; auto.
    intros i y Hy. specialize (Hm i y Hy). lia. }
  split; [apply gc_adjust_inv; auto|].
  intros i y. rewrite gc_adjust_vis by exact Hi0.
  unfold hvis, vis_io, vis_ooo, h0. cbn [h_series h_tomb h_minT]. split.
  - intros [(A & B & C)|V]; auto. left. split; auto. split; auto. split; auto. lia.
  - intros [((A & B & C) & D)|V]; auto.
Qed.

Lemma head_block_ok c h mint R : head_inv c h -> block_ok c (head_block h mint R).
Proof.
  intros Hh. split; cbn [head_block b_data b_mint b_maxt].
  - intros i y Hy. apply filter_In in Hy. destruct Hy as [_ Hy]. apply andb_true_iff in Hy.
    destruct Hy as [Hy _]. apply in_rng_iff in Hy. lia.
  - intros i Hi. unfold io_samples. rewrite (proj1 (hi_univ _ _ Hh i Hi)). reflexivity.
Qed.

Lemma head_block_vis h mint R i y :
  vis_blk (head_block h mint R) i y <->
  in_chunks (ms_chunks (h_series h i)) y /\ mint <= st y <= R - 1 /\ covered (h_tomb h i) (st y) = false.
Proof.
  rewrite vis_blk_no_tomb by reflexivity. cbn [head_block b_data].
  rewrite filter_In, in_io, andb_true_iff, in_rng_iff, negb_true_iff. reflexivity.
Qed.

Lemma compact_head_once_step c s :
  wf_cfg c -> inv c s ->
  inv c (compact_head_once c s) /\ sequiv (abs (compact_head_once c s)) (abs s).
Proof.
  intros Hw [Hh Hb]. unfold compact_head_once. rewrite add_block_app.
  set (h := s_head s) in *. set (R := rangeFor (h_minT h) (chunkRange c)).
  assert (HR : h_minT h < R) by (apply rangeFor_gt; exact Hw).
  destruct (truncate_memory_step c h R Hh HR) as [Hh' Hv].
  pose proof (head_block_ok c h (h_minT h) R Hh) as Hk.
  split.
  - split; cbn [s_head s_blocks]; [exact Hh'|]. apply blocks_inv_Forall, Forall_app.
    split; [apply blocks_inv_Forall, Hb | apply written_ok, Hk].
  - (* a visible in-order sample is below R and in the new block, or at R or above and still in the head *)
    intros i y. rewrite !abs_hvis. cbn [s_head s_blocks]. fold h.
    rewrite vis_blocks_app, (written_vis c _ i y Hk), head_block_vis, Hv. unfold hvis, vis_io. split.
    + intros [[[A B]|A]|[A|(A & B & C)]]; auto. left; left. repeat split; auto; lia.
    + intros [[(A & B & C)|A]|A]; auto.
      destruct (Z_lt_le_dec (st y) R); [right; right; repeat split; auto; lia | left; left; repeat split; auto].
Qed.

Lemma compact_loop_step c fuel : forall s did,
  wf_cfg c -> inv c s ->
  inv c (fst (compact_loop c fuel s did)) /\ sequiv (abs (fst (compact_loop c fuel s did))) (abs s).
Proof.
  induction fuel as [|f IH]; intros s did Hw Hi; simpl.
  - split; [exact Hi | apply sequiv_refl].
  - destruct (compactable c (s_head s)); [|split; [exact Hi|apply sequiv_refl]].
    destruct (compact_head_once_step c s Hw Hi) as [Hi' He].
    destruct (IH (compact_head_once c s) true Hw Hi') as [Hi'' He'']. split; auto.
    eapply sequiv_trans; eauto.
Qed.

Lemma ranges_cover w hi x : 0 < w -> forall fuel lo,
  lo <= x <= hi -> (hi - lo) / w + 1 <= Z.of_nat fuel ->
  exists t, In t (ranges lo hi w fuel) /\ t <= x < t + w.
Proof.
  intros Hw. induction fuel as [|f IH]; intros lo Hx Hf.
  - exfalso. assert (0 <= (hi - lo) / w) by (apply Z.div_pos; lia). lia.
  - simpl. destruct (Z.leb_spec lo hi); [|lia].
    destruct (Z_lt_le_dec x (lo + w)) as [Hl|Hl].
    + exists lo. split; [left; auto | lia].
    + destruct (IH (lo + w)) as [t [Ht Hr]]; [lia| |exists t; split; [right|]; auto].
      replace (hi - (lo + w)) with ((hi - lo) + (-1) * w) by lia.
      rewrite Z.div_add by lia. lia.
Qed.

(* the block ranges compactOOO walks through reach every out-of-order sample of the head *)
Lemma ooo_starts_cover c h i y :
  wf_cfg c -> head_inv c h -> In y (ms_ooo (h_series h i)) ->
  let all := all_ooo (universe c) h in
  let w := chunkRange c in
  let lo := rangeStart (lmin all) w in
  exists t, In t (ranges lo (lmax all) w (Z.to_nat ((lmax all - lo) / w + 1))) /\ t <= st y < t + w.
Proof.
  intros Hw Hh Hy all w lo.
  assert (Hall : In y all).
  { apply in_flat_map. exists i. split; [|exact Hy].
    destruct (in_dec Z.eq_dec i (universe c)) as [Hi|Hi]; [exact Hi|].
    rewrite (proj2 (hi_univ _ _ Hh i Hi)) in Hy. destruct Hy. }
  pose proof (lmin_le _ _ Hall). pose proof (lmax_ge _ _ Hall).
  pose proof (rangeStart_le (lmin all) w Hw) as L. fold lo in L.
  apply ranges_cover; [exact Hw | lia | lia].
Qed.

Lemma ooo_block_ok c h t w : head_inv c h -> block_ok c (ooo_block h t w).
Proof.
  intros Hh. split; cbn [ooo_block b_data b_mint b_maxt].
  - intros i y Hy. apply filter_In in Hy. destruct Hy as [_ Hy]. apply in_rng_iff in Hy. lia.
  - intros i Hi. rewrite (proj2 (hi_univ _ _ Hh i Hi)). reflexivity.
Qed.

Lemma ooo_block_vis h t w i y :
  vis_blk (ooo_block h t w) i y <-> In y (ms_ooo (h_series h i)) /\ t <= st y <= t + w - 1.
Proof.
  rewrite vis_blk_no_tomb by reflexivity. cbn [ooo_block b_data]. rewrite filter_In, in_rng_iff. reflexivity.
Qed.

Lemma clear_ooo_step c h :
  head_inv c h -> head_inv c (clear_ooo h) /\ forall i y, hvis (clear_ooo h) i y <-> vis_io h i y.
Proof.
  intros [Hd Ho Hc Hu Hm]. split.
  - constructor; cbn [clear_ooo h_series h_tomb h_minT h_maxT h_minValid ms_chunks ms_ooo]; auto.
    + intros i y [].
    + intros i Hi. split; [apply Hu, Hi | reflexivity].
  - intros i y. unfold hvis, vis_io, vis_ooo. cbn [clear_ooo h_series h_tomb h_minT ms_chunks ms_ooo In].
    split; [intros [H|[[] _]]; exact H | left; assumption].
Qed.

Lemma compact_ooo_step c s :
  wf_cfg c -> inv c s ->
  inv c (compact_ooo c s) /\ sequiv (abs (compact_ooo c s)) (abs s).
Proof.
  intros Hw [Hh Hb]. unfold compact_ooo.
  destruct (oooWindow c >? 0); [|split; [split; auto|apply sequiv_refl]].
  set (h := s_head s) in *. set (all := all_ooo (universe c) h).
  destruct all as [|a0 al] eqn:Eall; [split; [split; auto|apply sequiv_refl]|].
  rewrite <- Eall. clear Eall a0 al. rewrite fold_add_block.
  set (w := chunkRange c). set (starts := ranges _ _ w _).
  destruct (clear_ooo_step c h Hh) as [Hi0 E1].
  assert (Hk : forall t, block_ok c (ooo_block h t w)) by (intros t; apply ooo_block_ok, Hh).
  split.
  - split; cbn [s_head s_blocks]; [apply gc_adjust_inv, Hi0|]. apply blocks_inv_Forall, Forall_app.
    split; [apply blocks_inv_Forall, Hb|]. apply Forall_flat_map, Forall_forall. intros t _. apply written_ok, Hk.
  - (* the out-of-order samples move from the head into the blocks of the aligned ranges *)
    intros i y. rewrite !abs_hvis. cbn [s_head s_blocks]. fold h.
    rewrite gc_adjust_vis, E1, vis_blocks_app by exact Hi0.
    rewrite (vis_blocks_flat_map _ (fun t => vis_blk (ooo_block h t w) i y)) by (intros t _; apply written_vis, Hk).
    enough (E2 : (exists t, In t starts /\ vis_blk (ooo_block h t w) i y) <-> vis_ooo h i y)
      by (rewrite E2; unfold hvis; clear; tauto).
    split.
    + intros [t [_ Hv]]. apply ooo_block_vis in Hv. destruct Hv as [Hy _].
      split; [exact Hy | apply (hi_ooo _ _ Hh), Hy].
    + intros [Hy _]. destruct (ooo_starts_cover c h i y Hw Hh Hy) as [t [Ht Hr]].
      exists t. split; [exact Ht|]. apply ooo_block_vis. split; [exact Hy | lia].
Qed.

Lemma compact_step c s :
  wf_cfg c -> inv c s -> inv c (compact c s) /\ sequiv (abs (compact c s)) (abs s).
Proof.
  intros Hw Hi. unfold compact.
  set (fuel := if initialized (s_head s) then _ else _).
  pose proof (compact_loop_step c fuel s false Hw Hi) as [Hi1 He1].
  destruct (compact_loop c fuel s false) as [s1 did]. cbn [fst] in *.
  destruct did; [|split; auto].
  destruct (compact_ooo_step c s1 Hw Hi1) as [Hi2 He2]. split; auto. eapply sequiv_trans; eauto.
Qed.

(* what clean_block makes of a block with tombstones, before the compactor looks whether it holds a sample *)
Definition cleaned (b : block) : block :=
  mkBlock (b_mint b) (b_maxt b) (b_ooo b) (block_cands b) (fun _ => []).

Lemma cleaned_ok c b : block_ok c b -> block_ok c (cleaned b).
Proof.
  intros [Hr Hu]. split; cbn [cleaned b_data b_mint b_maxt]; unfold block_cands.
  - intros i y Hy. apply filter_In in Hy. apply (Hr i y), Hy.
  - intros i Hi. rewrite (Hu i Hi). reflexivity.
Qed.

Lemma cleaned_vis b i y : vis_blk (cleaned b) i y <-> vis_blk b i y.
Proof. rewrite vis_blk_no_tomb by reflexivity. apply in_block_cands. Qed.

Lemma clean_block_step c b :
  block_ok c b ->
  Forall (block_ok c) (clean_block (universe c) b) /\
  forall i y, vis_blocks (clean_block (universe c) b) i y <-> vis_blk b i y.
Proof.
  intros Hb.
  change (clean_block (universe c) b) with (if has_tomb (universe c) b then written (universe c) (cleaned b) else [b]).
  destruct (has_tomb (universe c) b).
  - (* a cleaned block that still shows a sample holds one, so it is written *)
    pose proof (cleaned_ok c b Hb) as Hk. split; [apply written_ok, Hk|].
    intros i y. rewrite (written_vis c _ i y Hk). apply cleaned_vis.
  - split; [auto|]. intros i y. rewrite vis_blocks_Exists, Exists_cons, Exists_nil. tauto.
Qed.

Lemma clean_step c s : inv c s -> inv c (clean_tombstones c s) /\ sequiv (abs (clean_tombstones c s)) (abs s).
Proof.
  intros [Hh Hb]. apply blocks_inv_Forall in Hb. unfold clean_tombstones. split.
  - split; cbn [s_head s_blocks]; [exact Hh|]. apply blocks_inv_Forall, Forall_flat_map.
    eapply Forall_impl; [|exact Hb]. intros b Hk. apply clean_block_step, Hk.
  - rewrite Forall_forall in Hb. intros i y. rewrite !abs_hvis. cbn [s_head s_blocks].
    rewrite (vis_blocks_flat_map _ (fun b => vis_blk b i y)); [reflexivity|].
    intros b Hin. apply clean_block_step, Hb, Hin.
Qed.

(* Well-formedness of an operation relative to the state it is applied to.
   - Commit: the admission facts of the accepted samples (wf_acc);
   - Delete: no out-of-order head sample of a selected series inside the range (wf_delete);
   - CompactPending (a head compaction while an appender is open): NOT proved, assumed like Restart;
   - Restart: NOT proved here — the step is assumed to re-establish the invariant and to
     preserve the set of visible samples (this is what C01_refinement_partial leaves open). *)
Definition wf_op (c : cfg) (s : state) (o : op) : Prop :=
  match o with
  | Commit l _ f => wf_accs c (init_time (s_head s) f) l
  | Delete mint maxt sel => wf_delete (s_head s) mint maxt sel
  | Restart rl => inv c (step c s o) /\ sequiv (abs (step c s o)) (abs s)
  | CompactPending pend => inv c (step c s o) /\ sequiv (abs (step c s o)) (abs s)
  | _ => True
  end.

Fixpoint wf_ops (c : cfg) (s : state) (ops : list op) : Prop :=
  match ops with
  | [] => True
  | o :: r => wf_op c s o /\ wf_ops c (step c s o) r
  end.

Theorem step_refines c s o :
  wf_cfg c -> inv c s -> wf_op c s o ->
  inv c (step c s o) /\ sequiv (abs (step c s o)) (spec_step (abs s) (spec_of_op o)).
Proof.
  intros Hw Hi Hwf. destruct o as [l lg f|mint maxt sel| | | |rl|pend]; cbn [step spec_of_op].
  - (* Commit *)
    destruct Hi as [Hh Hb]. cbn [wf_op] in Hwf.
    destruct (init_time_inv c (s_head s) f Hh) as [Hh0 Hv0].
    destruct (commit_fold c l _ Hh0 Hwf) as [Hh1 Hv1].
    split; [split; auto|]. intros i y. cbn [spec_step]. rewrite in_ack, !abs_hvis.
    unfold commit. cbn [s_head s_blocks]. rewrite Hv1, Hv0.
    split; intros [[H|H]|H]; auto.
  - (* Delete *)
    destruct Hi as [Hh Hb]. cbn [wf_op] in Hwf.
    destruct (head_delete_step c (s_head s) mint maxt sel Hh Hwf) as [Hh1 Hv1].
    destruct (blocks_delete_step c (s_blocks s) mint maxt sel Hb) as [Hb1 Hv2].
    split; [split; assumption|].
    intros i y. rewrite in_sdelete, !abs_hvis. unfold delete. cbn [s_head s_blocks]. rewrite Hv1, Hv2. split.
    + intros [[H N]|[H N]]; auto.
    + intros [[H|H] N]; auto.
  - apply compact_step; auto.
  - apply compact_ooo_step; auto.
  - apply clean_step; auto.
  - exact Hwf.
  - exact Hwf.
Qed.

Lemma inv_state0 c : inv c state0.
Proof.
  split; constructor; cbn; auto; try (intros; contradiction); intros i y [c0 [[] _]].
Qed.

Lemma run_refines c : wf_cfg c -> forall ops s sp,
  inv c s -> sequiv (abs s) sp -> wf_ops c s ops ->
  inv c (fold_left (step c) ops s) /\
  sequiv (abs (fold_left (step c) ops s)) (fold_left spec_step (map spec_of_op ops) sp).
Proof.
  intros Hw. induction ops as [|o r IH]; intros s sp Hi He Hwf; simpl; auto.
  destruct Hwf as [Ho Hr]. destruct (step_refines c s o Hw Hi Ho) as [Hi' He'].
  apply IH; auto. eapply sequiv_trans; [exact He'|]. apply spec_step_equiv; auto.
Qed.

Theorem abs_run c ops :
  wf_cfg c -> wf_ops c state0 ops ->
  inv c (run c ops) /\ sequiv (abs (run c ops)) (spec_run (map spec_of_op ops)).
Proof.
  intros Hw Hwf. apply (run_refines c Hw ops state0 sempty (inv_state0 c)); auto.
  intros i x. cbn. tauto.
Qed.

(** the answer of the structured model is the specification's answer on its abstraction,
    provided every in-order head sample below Head.MinTime() that the head querier can still
    see (straddling chunk) is also visible in a block *)
Definition dead_covered (s : state) : Prop :=
  forall i y, in_chunks (ms_chunks (h_series (s_head s) i)) y -> st y < h_minT (s_head s) ->
              covered (h_tomb (s_head s) i) (st y) = false -> vis_blocks (s_blocks s) i y.

Lemma query_abs c s mint maxt sel :
  blocks_inv c (s_blocks s) -> dead_covered s ->
  answer_equiv (query s mint maxt sel) (spec_query (abs s) mint maxt sel).
Proof.
  intros Hok Hdc. apply blocks_inv_Forall in Hok. rewrite Forall_forall in Hok.
  unfold query, spec_query. apply query_of_ext.
  intros i x Hx. rewrite in_abs. unfold cands. rewrite in_app_iff, in_flat_map.
  assert (EB : (exists b, In b (s_blocks s) /\ In x (if b_overlaps b mint maxt then block_cands b i else []))
               <-> vis_blocks (s_blocks s) i x).
  { unfold vis_blocks. split.
    - intros [b [Hin Hv]]. destruct (b_overlaps b mint maxt); [|inversion Hv].
      exists b. split; auto. apply in_block_cands; auto.
    - intros [b [Hin Hv]]. exists b. split; auto.
      rewrite (sample_overlaps c b mint maxt i x (Hok b Hin) (proj1 Hv) Hx). apply in_block_cands, Hv. }
  rewrite EB. unfold head_cands_q, head_gate.
  destruct ((h_minT (s_head s) <=? maxt) || negb (is_nil (ms_ooo (h_series (s_head s) i)))) eqn:G.
  - rewrite in_app_iff, !filter_In, in_io, !negb_true_iff. unfold vis_io, vis_ooo. split.
    + intros [[[Hin Hc]|[Hin Hc]]|Hb]; auto.
      destruct (Z_lt_le_dec (st x) (h_minT (s_head s))) as [Hlt|Hge]; [right; right; apply Hdc; assumption | auto].
    + intros [(Hin & Hm & Hc)|[[Hin Hc]|Hb]]; auto.
  - apply orb_false_iff in G. destruct G as [G1 G2]. apply Z.leb_gt in G1.
    apply negb_false_iff in G2. unfold vis_io, vis_ooo. split.
    + intros [[]|Hb]; auto.
    + intros [(Hin & Hm & Hc)|[[Hin Hc]|Hb]]; auto; [lia|].
      destruct (ms_ooo (h_series (s_head s) i)); [inversion Hin|discriminate].
Qed.

Lemma pts_equiv_trans a b c0 : pts_equiv a b -> pts_equiv b c0 -> pts_equiv a c0.
Proof.
  apply Forall2_trans. intros x y z [E1 V1] [E2 V2]. split; [congruence|].
  intros v. rewrite V1. apply V2.
Qed.

Lemma answer_equiv_trans a b c0 : answer_equiv a b -> answer_equiv b c0 -> answer_equiv a c0.
Proof.
  apply Forall2_trans. intros x y z [E1 P1] [E2 P2]. split; [congruence | eapply pts_equiv_trans; eassumption].
Qed.

Theorem refinement_partial c ops :
  wf_cfg c -> wf_ops c state0 ops -> dead_covered (run c ops) ->
  forall mint maxt sel,
    answer_equiv (query (run c ops) mint maxt sel)
                 (spec_query (spec_run (map spec_of_op ops)) mint maxt sel).
Proof.
  intros Hw Hwf Hdc mint maxt sel. destruct (abs_run c ops Hw Hwf) as [[_ Hb] He].
  eapply answer_equiv_trans; [apply (query_abs c _ mint maxt sel Hb Hdc)|].
  apply query_of_ext. intros i x _. apply He.
Qed.

(** shape of equivalent answers (used to refute equivalence on concrete answers) *)
Definition shape (a : answer) : list (sid * list Z) := map (fun p => (fst p, map fst (snd p))) a.

Lemma pts_equiv_shape a b : pts_equiv a b -> map fst a = map fst b.
Proof. induction 1 as [|x y a b [E _] _ IH]; simpl; congruence. Qed.

Lemma answer_equiv_shape a b : answer_equiv a b -> shape a = shape b.
Proof.
  unfold shape. induction 1 as [|p q a b [Hf Hp] _ IH]; simpl; [reflexivity|].
  rewrite IH, Hf, (pts_equiv_shape _ _ Hp). reflexivity.
Qed.

(** a decidable sufficient condition for dead_covered: no in-order head sample below minTime *)
Definition dead_free (c : cfg) (s : state) : bool :=
  forallb (fun i => forallb (fun y => h_minT (s_head s) <=? st y) (io_samples (h_series (s_head s) i))) (universe c).

Lemma dead_free_covered c s : inv c s -> dead_free c s = true -> dead_covered s.
Proof.
  intros [Hh _] Hdf i y Hin Hlt _. exfalso.
  destruct (in_dec Z.eq_dec i (universe c)) as [Hi|Hi].
  - unfold dead_free in Hdf. rewrite forallb_forall in Hdf. specialize (Hdf i Hi).
    rewrite forallb_forall in Hdf. specialize (Hdf y (proj2 (in_io _ _) Hin)). apply Z.leb_le in Hdf. lia.
  - destruct (hi_univ _ _ Hh i Hi) as [A _]. destruct Hin as [c0 [Hc0 _]]. rewrite A in Hc0. inversion Hc0.
Qed.

(** * Deciding wf_ops on a concrete history (without Restart / CompactPending, whose
    well-formedness is an assumption about the step and cannot be computed) *)
Definition wf_accb (c : cfg) (h : head) (a : acc) : bool :=
  let '(i, x, ooo) := a in
  memZ i (universe c) && (minInt64 <? st x) && (st x <? maxInt64) && negb (covered (h_tomb h i) (st x)) &&
  (ooo || (h_minValid h <=? st x) &&
          match ms_chunks (h_series h i) with [] => true | c0 :: _ => c_max c0 <? st x end).

Fixpoint wf_accsb (c : cfg) (h : head) (l : list acc) : bool :=
  match l with
  | [] => true
  | a :: r => wf_accb c h a && wf_accsb c (commit1 (chunkRange c) h a) r
  end.

Definition wf_opb (c : cfg) (s : state) (o : op) : bool :=
  match o with
  | Commit l _ f => wf_accsb c (init_time (s_head s) f) l
  | Delete mint maxt sel =>
      forallb (fun i => forallb (fun y => negb (in_rng mint maxt (st y))) (ms_ooo (h_series (s_head s) i))) sel
  | Restart _ | CompactPending _ => false
  | _ => true
  end.

Fixpoint wf_opsb (c : cfg) (s : state) (ops : list op) : bool :=
  match ops with
  | [] => true
  | o :: r => wf_opb c s o && wf_opsb c (step c s o) r
  end.

Lemma wf_accsb_sound c l : forall h, wf_accsb c h l = true -> wf_accs c h l.
Proof.
  induction l as [|[[i x] ooo] l IH]; intros h H; cbn [wf_accs wf_accsb wf_accb] in *; [exact I|]. b2p.
  split; [|apply IH; assumption]. unfold wf_acc.
  split; [apply memZ_iff; assumption|]. split; [lia|]. split; [assumption|].
  intros ->. cbn [orb] in *. b2p. split; [assumption|].
  destruct (ms_chunks (h_series h i)); [exact I | b2p; assumption].
Qed.

Lemma wf_opsb_sound c ops : forall s, wf_opsb c s ops = true -> wf_ops c s ops.
Proof.
  induction ops as [|o ops IH]; intros s H; cbn [wf_ops wf_opsb] in *; [exact I|]. b2p.
  split; [|apply IH; assumption].
  destruct o as [l lg f|mint maxt sel| | | |rl|pend]; cbn [wf_op wf_opb] in *; try exact I; try discriminate.
  - apply wf_accsb_sound. assumption.
  - intros i y Hi Hy Hr. rewrite forallb_forall in H. specialize (H i Hi).
    rewrite forallb_forall in H. specialize (H y Hy). b2p. apply in_rng_iff in Hr. congruence.
Qed.
