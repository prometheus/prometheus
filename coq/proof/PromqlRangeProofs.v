(* proof/PromqlRangeProofs.v — proofs about model/PromqlRange.v (C27). *)
From Coq Require Import List ZArith Bool Lia Sorting.Sorted ZifyBool.
From Verif Require Import lib.SortedList model.PromqlRange.
Import ListNotations.
Open Scope Z_scope.

Definition sortedT (l : list sample) : Prop := StronglySorted (fun a b => sT a < sT b) l.
Definition lt_all (c : Z) (l : list sample) : Prop := Forall (fun p => sT p < c) l.

Lemma sorted_cons_inv : forall {A} (R : A -> A -> Prop) x l, StronglySorted R (x :: l) ->
  StronglySorted R l /\ forall y, In y l -> R x y.
Proof. intros A R x l H. inversion H; subst. split; auto. now apply Forall_forall. Qed.

Lemma take_drop : forall f l, l = take_while f l ++ drop_while f l.
Proof. induction l as [|x l IH]; simpl; auto. destruct (f x); simpl; congruence. Qed.

Lemma take_while_all : forall f l, Forall (fun p => f p = true) (take_while f l).
Proof.
  induction l as [|x l IH]; simpl; auto. destruct (f x) eqn:E; auto.
Qed.

Lemma drop_while_head : forall f l y r, drop_while f l = y :: r -> f y = false.
Proof.
  induction l as [|x l IH]; simpl; intros y r H; try discriminate.
  destruct (f x) eqn:E; [exact (IH y r H)|]. inversion H; subst; auto.
Qed.

(* dropping a prefix on which f holds, in front of a list on which it fails *)
Lemma drop_while_app : forall f a b,
  (forall x, In x a -> f x = true) -> (forall x, In x b -> f x = false) -> drop_while f (a ++ b) = b.
Proof.
  induction a as [|x a IH]; simpl; intros b Ha Hb.
  - destruct b as [|y b]; simpl; auto. now rewrite (Hb y (or_introl eq_refl)).
  - rewrite (Ha x (or_introl eq_refl)). auto.
Qed.

Lemma last_opt_none : forall l, last_opt l = None -> l = [].
Proof.
  induction l as [|x l IH]; simpl; auto. destruct l; try discriminate. intros H. specialize (IH H). discriminate.
Qed.

Lemma last_opt_some : forall l x, last_opt l = Some x ->
  In x l /\ (sortedT l -> forall y, In y l -> sT y <= sT x).
Proof.
  induction l as [|a l IH]; simpl; intros x H; try discriminate.
  destruct l as [|b l].
  - inversion H; subst. split; auto. intros _ y [->|[]]. lia.
  - destruct (IH x H) as [Hin Hmax]. split; auto.
    intros [Hs Ha]%sorted_cons_inv y [->|Hy]; [specialize (Ha x Hin); lia|auto].
Qed.

Lemma last_opt_app : forall l x, last_opt (l ++ [x]) = Some x.
Proof.
  induction l as [|a l IH]; simpl; auto. intros x.
  destruct (l ++ [x]) eqn:E.
  - destruct l; discriminate.
  - rewrite <- E. apply IH.
Qed.

Lemma lt_all_mono : forall c c' l, c <= c' -> lt_all c l -> lt_all c' l.
Proof. intros c c' l H. apply Forall_impl. intros; lia. Qed.

Lemma lt_all_take : forall c l, lt_all c (take_while (fun p => sT p <? c) l).
Proof. intros. eapply Forall_impl; [|apply take_while_all]. simpl. intros; lia. Qed.

Lemma in_window_iff : forall a b p, in_window a b p = true <-> a < sT p <= b /\ is_stale p = false.
Proof. intros. unfold in_window. destruct (is_stale p); simpl; lia. Qed.

Lemma window_app : forall l l' a b, window_spec (l ++ l') a b = window_spec l a b ++ window_spec l' a b.
Proof. intros. apply filter_app. Qed.

Lemma window_none : forall s a b,
  (forall p, In p s -> a < sT p <= b -> is_stale p = false -> False) -> window_spec s a b = [].
Proof.
  intros s a b H. apply filter_none. intros p Hp. destruct (in_window a b p) eqn:E; auto.
  apply in_window_iff in E. exfalso. apply (H p); tauto.
Qed.

Lemma window_empty : forall s a b, b <= a -> window_spec s a b = [].
Proof. intros. apply window_none. intros; lia. Qed.

Lemma window_split : forall s a b c, sortedT s -> a <= b <= c ->
  window_spec s a c = window_spec s a b ++ window_spec s b c.
Proof.
  intros s a b c Hs Habc. unfold window_spec. induction s as [|x s IH]; simpl; auto.
  apply sorted_cons_inv in Hs as [Hs Hx]. rewrite (IH Hs).
  destruct (in_window a b x) eqn:E1, (in_window b c x) eqn:E2, (in_window a c x) eqn:E3;
    try reflexivity; try (exfalso; unfold in_window in *; lia).
  (* x in (b, c]: everything after it is beyond b *)
  rewrite (filter_none (in_window a b) s); [reflexivity|].
  intros y Hy. specialize (Hx y Hy). unfold in_window in *. lia.
Qed.

Definition head_ok (st : bit) (m : Z) : Prop :=
  match b_rest st with [] => True | y :: _ => b_last st = Some (sT y) /\ m <= sT y end.

(* after Seek(m): the series splits into a dropped prefix older than m - delta, the buffer
   (older than m) and the rest (from m on) *)
Definition Binv (s : list sample) (st : bit) (m : Z) : Prop :=
  exists pre, s = pre ++ b_buf st ++ b_rest st /\ lt_all (m - b_delta st) pre /\
              lt_all m (b_buf st) /\ head_ok st m.

(* before Seek(m): the freshly reset iterator, or any state left by an earlier Seek(m0), m0 <= m *)
Definition Bpre (s : list sample) (st : bit) (m : Z) : Prop :=
  exists pre, s = pre ++ b_buf st ++ b_rest st /\ lt_all (m - b_delta st) pre /\
              lt_all m (b_buf st) /\
              match b_rest st with
              | [] => True
              | y :: _ => match b_last st with None => b_buf st = [] | Some lt => lt = sT y end
              end.

Lemma Bpre_reset : forall s delta m, Bpre s (b_reset s delta) m.
Proof. intros. exists []. simpl. repeat split; try constructor. destruct s; auto. Qed.

Lemma Binv_Bpre : forall s st m m', Binv s st m -> m <= m' -> Bpre s st m'.
Proof.
  intros s st m m' (pre & Hs & Hp & Hb & Hh) Hm. exists pre. repeat split; auto.
  - eapply lt_all_mono; [|exact Hp]. lia.
  - eapply lt_all_mono; [|exact Hb]. lia.
  - unfold head_ok in Hh. destruct (b_rest st); auto. destruct Hh as [-> _]. auto.
Qed.

(* the Next loop, entered with the current element before m *)
Lemma adv_inv : forall m d rest pre buf last,
  lt_all (m - d) pre -> lt_all m buf -> (forall x r, rest = x :: r -> sT x < m) ->
  Binv (pre ++ buf ++ rest) (b_adv m rest buf d last) m /\ b_delta (b_adv m rest buf d last) = d.
Proof.
  intros m d rest. induction rest as [|x r IH]; intros pre buf last Hp Hb Hx; simpl.
  - split; auto. exists pre. unfold head_ok; simpl. auto.
  - assert (Hxm : sT x < m) by (eapply Hx; eauto).
    (* what the ring drops on adding x joins the prefix *)
    pose proof (take_drop (fun p => sT p <? sT x - d) (buf ++ [x])) as Heq. fold (ring_add d buf x) in Heq.
    pose proof (lt_all_take (sT x - d) (buf ++ [x])) as Hdr.
    set (dr := take_while _ _) in *.
    assert (Hb' : lt_all m (ring_add d buf x)).
    { assert (Hall : lt_all m (buf ++ [x])) by (apply Forall_app; auto).
      rewrite Heq in Hall. apply Forall_app in Hall. tauto. }
    assert (Hp' : lt_all (m - d) (pre ++ dr)).
    { apply Forall_app. split; auto. eapply lt_all_mono; [|exact Hdr]. lia. }
    replace (pre ++ buf ++ x :: r) with ((pre ++ dr) ++ ring_add d buf x ++ r)
      by (rewrite <- !app_assoc, (app_assoc dr), <- Heq, <- app_assoc; reflexivity).
    destruct r as [|y r'].
    + split; auto. exists (pre ++ dr). unfold head_ok; simpl. auto.
    + destruct (sT y >=? m) eqn:E.
      * split; auto. exists (pre ++ dr). unfold head_ok; simpl. repeat split; auto. lia.
      * apply IH; auto. intros x0 r0 [= <- _]. lia.
Qed.

(* both branches of Seek end the same way: stay on a current element at or after m, else advance *)
Lemma settle_inv : forall m d y r pre buf,
  lt_all (m - d) pre -> lt_all m buf ->
  let st' := if sT y >=? m then mkB (y :: r) buf d (Some (sT y)) else b_adv m (y :: r) buf d (Some (sT y)) in
  Binv (pre ++ buf ++ y :: r) st' m /\ b_delta st' = d.
Proof.
  intros m d y r pre buf Hp Hb. cbv zeta. destruct (sT y >=? m) eqn:E.
  - split; auto. exists pre. unfold head_ok; simpl. repeat split; auto. lia.
  - apply adv_inv; auto. intros x0 r0 [= <- _]. lia.
Qed.

Lemma seek_inv : forall s st m, sortedT s -> Bpre s st m ->
  Binv s (b_seek m st) m /\ b_delta (b_seek m st) = b_delta st.
Proof.
  intros s [rest buf d last] m Hs (pre & -> & Hp & Hb & Hl). simpl in *.
  unfold b_seek; cbn [b_rest b_buf b_delta b_last].
  destruct rest as [|y r].
  - replace (if opt_ge last m then _ else _) with (mkB [] buf d last) by (destruct (opt_ge last m); auto).
    split; auto. exists pre. unfold head_ok; simpl. auto.
  - destruct (opt_lt last (m - d)) eqn:Ej.
    + (* the seek jumps: the buffer and the skipped part of the rest join the prefix *)
      assert (Hbuf : lt_all (m - d) buf).
      { destruct last as [lt|]; simpl in *; [|subst buf; constructor].
        subst lt. apply Forall_forall. intros b Hb0.
        apply StronglySorted_app in Hs as (_ & Hs & _). apply StronglySorted_app in Hs as (_ & _ & Hlt).
        specialize (Hlt b y Hb0 (or_introl eq_refl)). lia. }
      pose proof (lt_all_take (m - d) (y :: r)) as Hta.
      rewrite (take_drop (fun p => sT p <? m - d) (y :: r)) at 1.
      set (tk := take_while _ (y :: r)) in *.
      assert (Hpre' : lt_all (m - d) (pre ++ buf ++ tk)) by (repeat (apply Forall_app; split); auto).
      replace (pre ++ buf ++ tk ++ drop_while (fun p => sT p <? m - d) (y :: r))
        with ((pre ++ buf ++ tk) ++ [] ++ drop_while (fun p => sT p <? m - d) (y :: r))
        by (rewrite <- !app_assoc; reflexivity).
      destruct (drop_while _ (y :: r)) as [|y' r'].
      * split; auto. exists (pre ++ buf ++ tk). unfold head_ok; simpl. repeat split; auto; constructor.
      * apply settle_inv; [exact Hpre'|constructor].
    + (* no jump *)
      destruct last as [lt|]; simpl in Ej; try discriminate. subst lt. now apply settle_inv.
Qed.

Lemma reduce_inv : forall s st m d', Binv s st m ->
  Binv s (b_reduce d' st) m /\
  b_delta (b_reduce d' st) = (if d' >? b_delta st then b_delta st else d').
Proof.
  intros s [rest buf d last] m d' (pre & Heq & Hp & Hb & Hh). unfold b_reduce; simpl in *.
  destruct (d' >? d) eqn:E.
  - split; auto. exists pre. auto.
  - destruct (last_opt buf) as [l|] eqn:El; simpl.
    + split; auto.
      pose proof (take_drop (fun p => sT p <? sT l - d') buf) as Htd.
      pose proof (lt_all_take (sT l - d') buf) as Hta.
      set (tk := take_while _ buf) in *.
      destruct (last_opt_some _ _ El) as [Hin _].
      assert (Hl : sT l < m). { unfold lt_all in Hb. rewrite Forall_forall in Hb. auto. }
      exists (pre ++ tk). unfold head_ok in *; simpl in *. repeat split; auto.
      * rewrite Heq. rewrite <- app_assoc. f_equal. rewrite app_assoc, <- Htd. reflexivity.
      * apply Forall_app. split; (eapply lt_all_mono; [|eassumption]); lia.
      * rewrite Htd in Hb. apply Forall_app in Hb. tauto.
    + split; auto. exists pre. unfold head_ok in *; simpl in *. repeat split; auto.
      eapply lt_all_mono; [|exact Hp]. lia.
Qed.

(* the part of the previous window that matrixIterSlice keeps, and the time from which it
   takes new points (mintFloats) *)
Definition retain (mint : Z) (floats : list sample) : list sample * Z :=
  match last_opt floats with
  | Some l => if sT l >? mint
              then (drop_while (fun p => sT p <=? mint) floats, sT l)
              else ([], mint)
  | None => ([], mint)
  end.

(* of the previous window (pmint, pm] it keeps what lies in (mint, mintF], and the series has
   nothing (that is not stale) in (mintF, pm] *)
Lemma retain_spec : forall s pmint pm mint, sortedT s -> pmint <= mint ->
  let '(fl0, mintF) := retain mint (window_spec s pmint pm) in
  mint <= mintF /\ (mintF = mint \/ mintF <= pm) /\
  fl0 = window_spec s mint mintF /\ window_spec s mintF pm = [].
Proof.
  intros s pmint pm mint Hs Hpm. unfold retain.
  pose proof (StronglySorted_filter _ (in_window pmint pm) s Hs) as Hsfl. fold (window_spec s pmint pm) in Hsfl.
  (* beyond a bound on the times of the previous window, up to pm, the series has nothing *)
  assert (Hgap : forall bound, pmint <= bound ->
            (forall p, In p (window_spec s pmint pm) -> sT p <= bound) -> window_spec s bound pm = []).
  { intros bound Hb Hmax. apply window_none. intros p Hp Ht Hst.
    assert (sT p <= bound); [|lia]. apply Hmax, filter_In. split; [exact Hp|]. apply in_window_iff. lia. }
  destruct (last_opt (window_spec s pmint pm)) as [l|] eqn:El.
  - destruct (last_opt_some _ _ El) as [[_ Hl%in_window_iff]%filter_In Hmax]. specialize (Hmax Hsfl).
    destruct (sT l >? mint) eqn:E.
    + pose proof (Hgap (sT l) ltac:(lia) Hmax) as Hg.
      split; [lia|]. split; [lia|]. split; [|exact Hg].
      rewrite (window_split s pmint mint pm), drop_while_app, (window_split s mint (sT l) pm), Hg, app_nil_r;
        auto; try lia; intros x [_ Hx%in_window_iff]%filter_In; lia.
    + split; [lia|]. split; [auto|]. split; [symmetry; apply window_empty; lia|].
      apply Hgap; [lia|]. intros p Hp. specialize (Hmax p Hp). lia.
  - apply last_opt_none in El. split; [lia|]. split; [auto|]. split; [symmetry; apply window_empty; lia|].
    apply Hgap; [lia|]. rewrite El. intros p [].
Qed.

Lemma mis_core : forall s st range m pmint pm,
  sortedT s -> Bpre s st m -> 0 < range -> pmint <= m - range -> pm < m ->
  (range <= b_delta st \/ m - pm <= b_delta st) ->
  let r := mis st (m - range) m (window_spec s pmint pm) in
  Binv s (fst r) m /\ snd r = window_spec s (m - range) m /\ b_delta (fst r) = b_delta st.
Proof.
  intros s st range m pmint pm Hs Hpre Hr Hpmint Hpm Hdelta.
  set (mint := m - range) in *.
  unfold mis. fold (retain mint (window_spec s pmint pm)).
  generalize (retain_spec s pmint pm mint Hs Hpmint).
  destruct (retain mint (window_spec s pmint pm)) as [fl0 mintF]. intros (HmF1 & HmF2 & -> & Hgap).
  replace (mint =? m) with false by lia.
  destruct (seek_inv s st m Hs Hpre) as [(pre & Heq & Hp & Hb & Hh) Hd].
  set (st' := b_seek m st) in *.
  cbn [fst snd]. split; [exists pre; auto|]. split; [|exact Hd].
  rewrite (window_split s mint mintF m) by (auto; lia). f_equal.
  (* new points: nothing from the dropped prefix, the buffer above mintF, the sought sample *)
  pose proof Hs as Hs3. rewrite Heq in Hs3.
  apply StronglySorted_app in Hs3 as (_ & Hs3 & _). apply StronglySorted_app in Hs3 as (_ & Hsrest & _).
  unfold lt_all in Hp, Hb. rewrite Forall_forall in Hp, Hb.
  rewrite Heq at 1. rewrite !window_app.
  replace (window_spec pre mintF m) with (@nil sample).
  2:{ symmetry. apply window_none. intros p Hp0 Ht Hst. specialize (Hp p Hp0).
      assert (Hw : In p (window_spec s mintF pm)).
      { apply filter_In. split; [rewrite Heq; apply in_or_app; auto|]. apply in_window_iff. rewrite Hd in Hp. lia. }
      rewrite Hgap in Hw. contradiction. }
  cbn [app]. f_equal.
  - apply filter_ext_in. intros p Hp0. specialize (Hb p Hp0). unfold in_window. lia.
  - unfold head_ok in Hh. destruct (b_rest st') as [|y r]; [reflexivity|]. destruct Hh as [_ Hm].
    apply sorted_cons_inv in Hsrest as [_ Hr0].
    unfold window_spec. cbn [filter]. rewrite (filter_none _ r).
    + unfold in_window. destruct (is_stale y); simpl; [now rewrite !andb_false_r|].
      destruct (sT y =? m) eqn:E; [replace (mintF <? sT y) with true by lia; replace (sT y <=? m) with true by lia|
                                   replace (sT y <=? m) with false by lia; rewrite andb_false_r]; reflexivity.
    + intros x Hx. specialize (Hr0 x Hx). unfold in_window. lia.
Qed.

Definition RPre (s : list sample) (range interval : Z) (st : bit) (fl : list sample) (maxt : Z) : Prop :=
  Bpre s st maxt /\
  exists pmint pm, fl = window_spec s pmint pm /\ pmint <= maxt - range /\ pm < maxt /\
                   (range <= b_delta st \/ interval <= b_delta st /\ maxt - pm <= interval).

Lemma seq_map_shift : forall {A} (f : nat -> A) n, map f (seq 1 n) = map (fun k => f (S k)) (seq 0 n).
Proof. intros. rewrite <- seq_shift, map_map. reflexivity. Qed.

Lemma range_loop_spec : forall s range offset interval,
  sortedT s -> 0 < range -> 0 < interval ->
  forall n first ts st fl, RPre s range interval st fl (ts - offset) ->
  range_loop range offset interval (Z.min range interval) true first n ts st fl =
  map (fun k => window_spec s (ts + Z.of_nat k * interval - offset - range)
                              (ts + Z.of_nat k * interval - offset)) (seq 0 n).
Proof.
  intros s range offset interval Hs Hr Hi. induction n as [|n IH]; intros first ts st fl [Hpre Hfl]; auto.
  cbn [range_loop]. rewrite orb_true_r.
  set (m := ts - offset) in *. destruct Hfl as (pmint & pm & -> & Hpmint & Hpm & Hd).
  destruct (mis_core s st range m pmint pm Hs Hpre Hr Hpmint Hpm ltac:(lia)) as (Hinv & Hfl' & Hd').
  destruct (mis st (m - range) m (window_spec s pmint pm)) as [st' fl']. cbn [fst snd] in *.
  cbn [seq map]. f_equal; [rewrite Hfl'; f_equal; lia|].
  rewrite seq_map_shift. erewrite map_ext; [apply IH|intros k; cbv beta; f_equal; lia].
  (* ReduceDelta(min(range, interval)) keeps the look-back at range or at the step *)
  destruct (reduce_inv s st' m (Z.min range interval) Hinv) as [Hinv2 Hd2].
  split.
  - apply (Binv_Bpre s _ m); [destruct fl'; auto|lia].
  - exists (m - range), m. split; [exact Hfl'|]. split; [lia|]. split; [lia|].
    destruct fl'; [|rewrite Hd2; destruct (Z.min range interval >? b_delta st')]; lia.
Qed.

Theorem window_incremental : forall s range offset interval n start,
  sortedT s -> 0 < range -> 0 < interval ->
  range_windows s range offset interval true n start =
  map (fun k => let maxt := start + Z.of_nat k * interval - offset in
                window_spec s (maxt - range) maxt) (seq 0 n).
Proof.
  intros s range offset interval n start Hs Hr Hi. unfold range_windows.
  rewrite (range_loop_spec s range offset interval Hs Hr Hi n true start (b_reset s range) []).
  - apply map_ext. intros k. cbv zeta. f_equal; lia.
  - split; [apply Bpre_reset|]. exists (start - offset - range), (start - offset - range).
    split; [symmetry; apply window_empty; lia|]. simpl. lia.
Qed.

(* the memoized iterator is the buffered one that remembers only the last buffered sample *)
Definition memo_of (b : bit) : mit := mkM (b_rest b) (b_last b) (last_opt (b_buf b)).

Lemma last_ring_add : forall d buf x, 0 <= d -> last_opt (ring_add d buf x) = Some x.
Proof.
  intros d buf x Hd. unfold ring_add.
  induction buf as [|y buf IH]; simpl.
  - now replace (sT x <? sT x - d) with false by lia.
  - destruct (sT y <? sT x - d); [exact IH|]. apply (last_opt_app (y :: buf)).
Qed.

Lemma adv_memo : forall t d rest buf last, 0 <= d ->
  memo_of (b_adv t rest buf d last) = m_adv t rest last (last_opt buf).
Proof.
  intros t d rest. induction rest as [|x r IH]; intros buf last Hd; [reflexivity|].
  cbn [b_adv m_adv]. destruct r as [|y r'].
  - unfold memo_of; simpl. now rewrite last_ring_add.
  - destruct (sT y >=? t); [unfold memo_of; simpl|rewrite IH by assumption]; now rewrite last_ring_add.
Qed.

Lemma seek_memo : forall t b, 0 <= b_delta b ->
  memo_of (b_seek t b) = m_seek (b_delta b) t (memo_of b).
Proof.
  intros t [rest buf d last] Hd. change (memo_of (mkB rest buf d last)) with (mkM rest last (last_opt buf)).
  unfold b_seek, m_seek; cbn [b_rest b_buf b_delta b_last m_rest m_last m_prev] in *.
  destruct (match rest with [] => false | _ :: _ => opt_lt last (t - d) end).
  - destruct (drop_while _ rest) as [|y r']; [reflexivity|].
    destruct (sT y >=? t); [reflexivity|]. now rewrite adv_memo.
  - destruct (opt_ge last t); [reflexivity|]. now apply adv_memo.
Qed.

(* select_spec on a series split at ref: the sample at ref if there is one, else the last one
   before it, if the lookback reaches it *)
Lemma select_split : forall lookback pre rest ref,
  0 < lookback -> sortedT rest -> lt_all ref pre -> (forall y r, rest = y :: r -> ref <= sT y) ->
  select_spec lookback (pre ++ rest) ref =
  match (match rest with
         | y :: _ => if sT y >? ref then None else Some y
         | [] => None
         end) with
  | Some x => if is_stale x then None else Some x
  | None => match last_opt pre with
            | Some p => if (ref - lookback <? sT p) && negb (is_stale p) then Some p else None
            | None => None
            end
  end.
Proof.
  intros lookback pre rest ref Hlb Hsr Hp Hh. unfold select_spec.
  rewrite filter_app, (filter_all _ pre).
  2:{ unfold lt_all in Hp. rewrite Forall_forall in Hp. intros x Hx. specialize (Hp x Hx). lia. }
  destruct rest as [|y r]; [now rewrite app_nil_r|]. specialize (Hh y r eq_refl).
  apply sorted_cons_inv in Hsr as [_ Hr].
  cbn [filter]. rewrite (filter_none _ r) by (intros x Hx; specialize (Hr x Hx); lia).
  destruct (sT y >? ref) eqn:E.
  - replace (sT y <=? ref) with false by lia. now rewrite app_nil_r.
  - replace (sT y <=? ref) with true by lia. rewrite last_opt_app.
    replace (ref - lookback <? sT y) with true by lia. simpl. now destruct (is_stale y).
Qed.

Lemma last_opt_split : forall l x, last_opt l = Some x -> exists l', l = l' ++ [x].
Proof.
  induction l as [|a l IH]; simpl; intros x H; [discriminate|]. destruct l as [|b l].
  - injection H as <-. now exists [].
  - destruct (IH x H) as [l' E]. exists (a :: l'). simpl. now rewrite E.
Qed.

Lemma vss_spec : forall lookback s b ref,
  0 < lookback -> lookback - 1 <= b_delta b -> sortedT s -> Bpre s b ref ->
  fst (vss lookback (b_delta b) ref (memo_of b)) = memo_of (b_seek ref b) /\
  snd (vss lookback (b_delta b) ref (memo_of b)) = select_spec lookback s ref.
Proof.
  intros lookback s b ref Hlb Hdl Hs Hpre.
  destruct (seek_inv s b ref Hs Hpre) as [(pre & Heq & Hp & Hb & Hh) Hd].
  unfold vss. rewrite <- seek_memo by lia. set (b' := b_seek ref b) in *. cbn [fst snd]. split; auto.
  rewrite Heq in Hs |- *. rewrite app_assoc in Hs |- *. apply StronglySorted_app in Hs as (_ & Hsr & _).
  rewrite select_split; auto.
  2:{ apply Forall_app. split; [eapply lt_all_mono; [|exact Hp]; lia|exact Hb]. }
  2:{ unfold head_ok in Hh. intros y r E. rewrite E in Hh. tauto. }
  change (m_rest (memo_of b')) with (b_rest b'). change (m_prev (memo_of b')) with (last_opt (b_buf b')).
  destruct (match b_rest b' with y :: _ => if sT y >? ref then None else Some y | [] => None end); [reflexivity|].
  (* PeekPrev: the last sample passed, if it is still buffered and the lookback reaches it *)
  destruct (last_opt (b_buf b')) as [p|] eqn:El.
  - apply last_opt_split in El as [buf0 ->]. rewrite app_assoc, last_opt_app.
    destruct (sT p <=? ref - lookback) eqn:E1; [replace (ref - lookback <? sT p) with false by lia|
                                              replace (ref - lookback <? sT p) with true by lia];
      simpl; now destruct (is_stale p).
  - apply last_opt_none in El. rewrite El, app_nil_r.
    destruct (last_opt pre) as [p|] eqn:Ep; auto.
    destruct (last_opt_some _ _ Ep) as [Hin _]. unfold lt_all in Hp. rewrite Forall_forall in Hp.
    specialize (Hp p Hin). rewrite Hd in Hp. now replace (ref - lookback <? sT p) with false by lia.
Qed.

Lemma sel_loop_spec : forall lookback s offset interval,
  0 < lookback -> 0 <= interval -> sortedT s ->
  forall n ts b, lookback - 1 <= b_delta b -> Bpre s b (ts - offset) ->
  sel_loop lookback (b_delta b) offset interval n ts (memo_of b) =
  map (fun k => select_spec lookback s (ts + Z.of_nat k * interval - offset)) (seq 0 n).
Proof.
  intros lookback s offset interval Hlb Hi Hs. induction n as [|n IH]; intros ts b Hdl Hpre; auto.
  cbn [sel_loop]. destruct (vss_spec lookback s b (ts - offset) Hlb Hdl Hs Hpre) as [Hst Hres].
  destruct (seek_inv s b (ts - offset) Hs Hpre) as [Hinv Hd].
  destruct (vss lookback (b_delta b) (ts - offset) (memo_of b)) as [st' r]. cbn [fst snd] in *. subst st'.
  cbn [seq map]. f_equal; [rewrite Hres; f_equal; lia|].
  rewrite seq_map_shift, <- Hd. erewrite map_ext; [apply IH|intros k; cbv beta; f_equal; lia].
  - now rewrite Hd.
  - eapply Binv_Bpre; [exact Hinv|lia].
Qed.

Theorem selector_memo : forall lookback delta s offset interval n start,
  0 < lookback -> lookback - 1 <= delta -> 0 <= interval -> sortedT s ->
  sel_steps lookback delta s offset interval n start =
  map (fun k => select_spec lookback s (start + Z.of_nat k * interval - offset)) (seq 0 n).
Proof.
  intros lookback delta s offset interval n start Hlb Hdl Hi Hs.
  apply (sel_loop_spec lookback s offset interval Hlb Hi Hs n start (b_reset s delta)); [exact Hdl|].
  apply Bpre_reset.
Qed.

Lemma nth_map_seq : forall {A} (f : nat -> A) n k dflt, (k < n)%nat -> nth k (map f (seq 0 n)) dflt = f k.
Proof.
  intros A f n k dflt Hk. rewrite (nth_indep _ dflt (f 0%nat)) by (rewrite map_length, seq_length; auto).
  rewrite map_nth. f_equal. rewrite seq_nth; auto.
Qed.

Lemma repeat_map_const : forall {A} (f : nat -> A) v n, (forall k, f k = v) -> map f (seq 0 n) = repeat v n.
Proof.
  intros A f v n H. generalize 0%nat. induction n as [|n IH]; intros a; simpl; auto. rewrite H, IH. reflexivity.
Qed.

Lemma combine_map : forall {A B C} (a : A -> B) (b : A -> C) l,
  combine (map a l) (map b l) = map (fun x => (a x, b x)) l.
Proof. induction l; simpl; congruence. Qed.

Lemma combine_seq_map : forall {A} (g : nat -> A) n,
  combine (seq 0 (length (map g (seq 0 n)))) (map g (seq 0 n)) = map (fun k => (k, g k)) (seq 0 n).
Proof.
  intros. rewrite map_length, seq_length. rewrite <- (map_id (seq 0 n)) at 1. apply combine_map.
Qed.

Lemma sub_start_spec : forall p off range s, 0 < s ->
  exists q, sub_start p off range s = s * q /\
            p - off - range < s * q <= p - off - range + s.
Proof.
  intros p off range s Hs. unfold sub_start. set (x := p - off - range).
  pose proof (Z.quot_rem' x s) as Hqr.
  assert (Hr : - s < Z.rem x s < s).
  { destruct (Z_le_gt_dec 0 x) as [Hx|Hx].
    - pose proof (Z.rem_bound_pos x s Hx Hs). lia.
    - assert (Hx' : x <= 0) by lia. pose proof (Z.rem_bound_pos_neg x s Hs Hx'). lia. }
  destruct (s * (x ÷ s) <=? x) eqn:E.
  - exists (x ÷ s + 1). lia.
  - exists (x ÷ s). lia.
Qed.

Lemma in_grid : forall c s n u, In u (grid c s n) <-> exists j, (j < n)%nat /\ u = c + Z.of_nat j * s.
Proof.
  intros. unfold grid. rewrite in_map_iff. split.
  - intros (j & <- & Hj). apply in_seq in Hj. exists j. split; auto. lia.
  - intros (j & Hj & ->). exists j. split; auto. apply in_seq. lia.
Qed.

Lemma grid_sorted : forall c s n, 0 < s -> StronglySorted Z.lt (grid c s n).
Proof.
  intros c s n Hs. unfold grid. generalize 0%nat. induction n as [|n IH]; intros a; simpl; constructor; auto.
  apply Forall_forall. intros u Hu. apply in_map_iff in Hu. destruct Hu as (j & <- & Hj).
  apply in_seq in Hj. nia.
Qed.

Lemma num_steps_spec : forall c b s j, 0 < s -> (Z.of_nat j < Z.of_nat (num_steps c b s) <-> c + Z.of_nat j * s <= b).
Proof.
  intros c b s j Hs. unfold num_steps. destruct (b <? c) eqn:E.
  - simpl. split; [lia|]. intros. nia.
  - assert (Hb : 0 <= b - c) by lia.
    pose proof (Z.quot_rem' (b - c) s). pose proof (Z.rem_bound_pos (b - c) s Hb Hs).
    assert (0 <= (b - c) ÷ s) by (apply Z.quot_pos; lia).
    rewrite Z2Nat.id by lia. split; intros; nia.
Qed.

(* the points of a grid starting at the first multiple of s after x0 and reaching up to b0, that
   fall into a window (a, b] inside (x0, b0], are the points of the grid built for that window *)
Lemma grid_window : forall s x0 b0 a b c0 ck,
  0 < s -> x0 <= a -> b <= b0 ->
  (exists q, c0 = s * q /\ x0 < s * q <= x0 + s) ->
  (exists q, ck = s * q /\ a < s * q <= a + s) ->
  filter (fun u => (a <? u) && (u <=? b)) (grid c0 s (num_steps c0 b0 s)) =
  filter (fun u => (a <? u) && (u <=? b)) (grid ck s (num_steps ck b s)).
Proof.
  intros s x0 b0 a b c0 ck Hs Hx Hb (q0 & -> & Hq0) (qk & -> & Hqk).
  apply (StronglySorted_same Z.lt); [lia|apply StronglySorted_filter, grid_sorted; auto..|].
  intros u. rewrite !filter_In, !in_grid. split.
  - intros [(j & Hj & ->) Hw].
    assert (Hge : qk <= q0 + Z.of_nat j) by nia.
    split; auto. exists (Z.to_nat (q0 + Z.of_nat j - qk)). split.
    + apply Nat2Z.inj_lt. apply num_steps_spec; auto. rewrite Z2Nat.id by lia. nia.
    + rewrite Z2Nat.id by lia. nia.
  - intros [(j & Hj & ->) Hw].
    assert (Hge : q0 <= qk + Z.of_nat j) by nia.
    split; auto. exists (Z.to_nat (qk + Z.of_nat j - q0)). split.
    + apply Nat2Z.inj_lt. apply num_steps_spec; auto. rewrite Z2Nat.id by lia. nia.
    + rewrite Z2Nat.id by lia. nia.
Qed.

Section ExprProofs.
Variables (Sel F G L : Type).
Variable matches : Sel -> L -> bool.
Variable l_eqb : L -> L -> bool.
Variable universe : list L.
Variable wf : F -> Z -> Z -> Z -> list sample -> option Z.
Variable pf : G -> Z -> list (list (L * Z)) -> list (L * Z).
Variable safe : G -> bool.
Variable safeF : F -> bool.
Variable lookback : Z.

Notation expr := (expr Sel F G).
Notation eval_instant := (eval_instant Sel F G L matches l_eqb universe wf pf lookback).
Notation eval_range := (eval_range Sel F G L matches l_eqb universe wf pf lookback).
Notation prep := (prep Sel F G safe safeF).
Notation preprocess := (preprocess Sel F G safe safeF).

(* functions that are not in AtModifierUnsafeFunctions do not look at the evaluation time *)
Hypothesis safe_ok : forall g, safe g = true -> forall t t' args, pf g t args = pf g t' args.
(* range functions that are not in AtModifierUnsafeFunctions see the evaluation time only
   through the window boundaries *)
Hypothesis safeF_ok : forall f, safeF f = true ->
  forall mint maxt t t' w, wf f mint maxt t w = wf f mint maxt t' w.
Hypothesis lookback_pos : 0 < lookback.

Definition wf_data (d : list (L * list sample)) : Prop := forall l s, In (l, s) d -> sortedT s.

Lemma filter_map_ext_in : forall {A B} (f g : A -> option B) l,
  (forall x, In x l -> f x = g x) -> filter_map f l = filter_map g l.
Proof.
  induction l as [|x l IH]; simpl; intros H; auto.
  rewrite (H x) by auto. rewrite IH by auto. reflexivity.
Qed.

Lemma assemble_spec : forall {A} (val : A -> Z) (d : list (L * list sample)) (keep : L -> bool)
    (run : list sample -> list (option A)) k,
  assemble L val (filter_map (fun '(l, s) => if keep l then Some (l, run s) else None) d) k =
  filter_map (fun '(l, s) => if keep l then option_map (fun x => (l, val x)) (nth k (run s) None) else None) d.
Proof.
  intros A val d keep run k. unfold assemble. induction d as [|[l s] d IH]; simpl; auto.
  destruct (keep l); simpl; auto. rewrite IH. destruct (nth k (run s) None); reflexivity.
Qed.

Lemma assemble_map : forall {A} (val : A -> Z) (U : list L) (run : L -> list (option A)) k,
  assemble L val (map (fun l => (l, run l)) U) k =
  filter_map (fun l => option_map (fun x => (l, val x)) (nth k (run l) None)) U.
Proof.
  intros A val U run k. unfold assemble. induction U as [|l U IH]; simpl; auto.
  rewrite IH. destruct (nth k (run l) None); reflexivity.
Qed.

(* source expressions covered by the theorem: positive ranges and subquery steps, an @-modified
   range selector only under an at-modifier-safe function *)
Fixpoint okexpr (e : expr) : Prop :=
  match e with
  | EVec _ _ _ _ _ _ => True
  | ECall _ _ _ f _ range _ at_ => 0 < range /\ (at_ <> None -> safeF f = true)
  | ESub _ _ _ _ e1 range sstep _ => 0 < range /\ 0 < sstep /\ okexpr e1
  | EP0 _ _ _ _ => True
  | EP1 _ _ _ _ e1 => okexpr e1
  | EP2 _ _ _ _ e1 e2 => okexpr e1 /\ okexpr e2
  | EStepInv _ _ _ _ => False
  end.

Definition tk (start interval : Z) (k : nat) : Z := start + Z.of_nat k * interval.

(* the k-th value of a range function computed over the incremental windows *)
Lemma zip_wf_windows : forall f s range off start interval n k,
  sortedT s -> 0 < range -> 0 < interval -> (k < n)%nat ->
  nth k (zip_wf F wf f range off start interval (range_windows s range off interval true n start)) None =
  apply_wf F wf f (tk start interval k - off - range) (tk start interval k - off) (tk start interval k)
    (window_spec s (tk start interval k - off - range) (tk start interval k - off)).
Proof.
  intros f s range off start interval n k Hs Hr Hi Hk.
  rewrite window_incremental by auto. unfold zip_wf.
  rewrite combine_seq_map, map_map, nth_map_seq by lia. reflexivity.
Qed.

(* the first step fetches its window whether or not later steps do *)
Lemma range_loop_first : forall range offset interval sr refetch ts st fl,
  range_loop range offset interval sr refetch true 1 ts st fl =
  range_loop range offset interval sr true true 1 ts st fl.
Proof. reflexivity. Qed.

Definition prep_ok (d : list (L * list sample)) (e e' : expr) (i w : bool) : Prop :=
  w = i /\
  (i = true -> forall t t', eval_instant d e t = eval_instant d e t') /\
  (forall start interval n, 0 < interval -> (i = false \/ n = 1%nat) ->
     eval_range d e' start interval n = map (fun k => eval_instant d e (tk start interval k)) (seq 0 n)).

Lemma grid_tk : forall start interval n, grid start interval n = map (tk start interval) (seq 0 n).
Proof. reflexivity. Qed.

(* an argument as PreprocessExpr leaves it: wrapped when it is step invariant *)
Lemma wrapped_spec : forall d e e' i w, prep_ok d e e' i w ->
  forall start interval n, 0 < interval ->
  eval_range d (if w then EStepInv _ _ _ e' else e') start interval n =
  map (fun k => eval_instant d e (tk start interval k)) (seq 0 n).
Proof.
  intros d e e' i w (Hw & Hinv & Hev) start interval n Hi. subst w. destruct i.
  - cbn [PromqlRange.eval_range]. rewrite (Hev start interval 1%nat Hi (or_intror eq_refl)). simpl.
    symmetry. apply repeat_map_const. intros k. apply Hinv; auto.
  - apply Hev; auto.
Qed.

Lemma points_of_map : forall l (Fv : Z -> list (L * Z)) us,
  points_of L l_eqb l us (map Fv us) =
  filter_map (fun u => option_map (mkS u) (lookup L l_eqb l (Fv u))) us.
Proof.
  intros l Fv us. unfold points_of. induction us as [|u us IH]; simpl; auto.
  rewrite IH. reflexivity.
Qed.

(* a window over points tagged with their grid time only sees the grid times inside it *)
Lemma window_points : forall (h : Z -> option Z) us a b,
  window_spec (filter_map (fun u => option_map (mkS u) (h u)) us) a b =
  window_spec (filter_map (fun u => option_map (mkS u) (h u)) (filter (fun u => (a <? u) && (u <=? b)) us)) a b.
Proof.
  intros h us a b. unfold window_spec. induction us as [|u us IH]; simpl; auto.
  destruct ((a <? u) && (u <=? b)) eqn:E; simpl; destruct (h u) as [x|]; simpl; auto.
  - now rewrite IH.
  - unfold in_window at 1. simpl. now rewrite E.
Qed.

Lemma sorted_points : forall (h : Z -> option Z) us,
  StronglySorted Z.lt us -> sortedT (filter_map (fun u => option_map (mkS u) (h u)) us).
Proof.
  intros h us Hs. induction us as [|u us IH]; simpl; [constructor|].
  apply sorted_cons_inv in Hs as [Hs Hu]. destruct (h u) as [x|]; simpl; [|auto].
  constructor; [exact (IH Hs)|]. apply Forall_forall. intros p Hp. simpl.
  clear IH Hs. induction us as [|v us IH]; simpl in Hp; [destruct Hp|].
  destruct (h v); simpl in Hp; [destruct Hp as [<-|Hp]|]; auto using in_eq, in_cons.
Qed.

(* the window of an outer step over the points of the shared child grid is the window over the
   points of the grid an instant query at that step would build *)
Lemma sub_window : forall l (Fv : Z -> list (L * Z)) start interval n k off range sstep,
  0 < interval -> 0 < sstep -> (k < n)%nat ->
  let cstart := sub_start start off range sstep in
  let us := grid cstart sstep (num_steps cstart (start + Z.of_nat (pred n) * interval - off) sstep) in
  let t := tk start interval k in
  let ck := sub_start t off range sstep in
  let uk := grid ck sstep (num_steps ck (t - off) sstep) in
  window_spec (points_of L l_eqb l us (map Fv us)) (t - off - range) (t - off) =
  window_spec (points_of L l_eqb l uk (map Fv uk)) (t - off - range) (t - off).
Proof.
  intros l Fv start interval n k off range sstep Hi Hss Hk. cbv zeta.
  rewrite !points_of_map, (window_points _ (grid (sub_start start off range sstep) sstep _)),
    (window_points _ (grid (sub_start (tk start interval k) off range sstep) sstep _)).
  do 2 f_equal. apply (grid_window sstep (start - off - range)); auto.
  - unfold tk. nia.
  - unfold tk. destruct n as [|n']; [lia|]. simpl Init.Nat.pred. nia.
  - destruct (sub_start_spec start off range sstep Hss) as (q0 & H1 & H2). eauto.
  - destruct (sub_start_spec (tk start interval k) off range sstep Hss) as (q0 & H1 & H2). eauto.
Qed.

Lemma prep_spec : forall d, wf_data d -> forall e, okexpr e ->
  let '(e', i, w) := prep e in prep_ok d e e' i w.
Proof.
  intros d Hd. induction e as [m off at_|f m range off at_|f e1 IH1 range sstep off| g | g e1 IH1 | g e1 IH1 e2 IH2 | ];
    intros Hok; simpl in Hok; try contradiction; simpl prep.
  - (* vector selector *)
    split; [reflexivity|]. split.
    + intros Hi t t'. destruct at_; [reflexivity|discriminate].
    + intros start interval n Hi Hn. cbn [PromqlRange.eval_range PromqlRange.eval_instant].
      apply map_ext_in. intros k Hk. apply in_seq in Hk.
      rewrite (assemble_spec sV d (matches m)). apply filter_map_ext_in. intros [l s] Hin.
      destruct (matches m l); auto. f_equal.
      rewrite selector_memo; auto; try lia; [|eapply Hd; eauto].
      rewrite nth_map_seq by lia. unfold tk. f_equal.
      destruct at_ as [a|]; simpl; [|lia].
      destruct Hn as [Hn|Hn]; [discriminate|]. subst n. assert (k = 0%nat) by lia. subst k. lia.
  - (* range function over a matrix selector *)
    destruct Hok as [Hrange Hsafe]. split; [reflexivity|]. split.
    + intros Hi t t'. destruct at_ as [a|]; [|discriminate]. simpl.
      apply filter_map_ext_in. intros [l s] Hin. destruct (matches m l); auto. f_equal.
      unfold apply_wf. destruct (window_spec s (a - off - range) (a - off)); auto.
    + intros start interval n Hi Hn.
      (* with @ there is a single step: the first window is fetched like any other *)
      assert (Hat : at_ = None \/ n = 1%nat).
      { destruct Hn as [Hn|]; auto. destruct at_; auto. rewrite Hsafe in Hn; discriminate. }
      cbn [PromqlRange.eval_range PromqlRange.eval_instant].
      apply map_ext_in. intros k Hk. apply in_seq in Hk.
      rewrite (assemble_spec (fun x => x) d (matches m)). apply filter_map_ext_in. intros [l s] Hin.
      destruct (matches m l); auto.
      replace (range_windows s range _ interval (match at_ with Some _ => false | None => true end) n start)
        with (range_windows s range (match at_ with Some a => off + (start - a) | None => off end) interval true n start)
        by (destruct Hat as [->| ->]; [|destruct at_; [apply range_loop_first|]]; reflexivity).
      rewrite (zip_wf_windows f s range _ start interval n k (Hd l s Hin) Hrange Hi) by lia.
      unfold at_or. fold (tk start interval k).
      replace (match at_ with Some a => a | None => tk start interval k end - off)
        with (tk start interval k - match at_ with Some a => off + (start - a) | None => off end).
      2:{ destruct at_ as [a|]; [|lia]. destruct Hat as [Hnone| ->]; [discriminate|].
          assert (k = 0%nat) by lia. subst k. unfold tk. lia. }
      now destruct (apply_wf _ _ _ _ _ _ _).
  - (* range function over a subquery *)
    destruct Hok as (Hrange & Hsstep & Hok1). specialize (IH1 Hok1).
    destruct (prep e1) as [[e1' i1] w1]. split; [reflexivity|]. split; [discriminate|].
    intros start interval n Hi _. cbn [PromqlRange.eval_range PromqlRange.eval_instant].
    set (cstart := sub_start start off range sstep).
    set (cn := num_steps cstart (start + Z.of_nat (Init.Nat.pred n) * interval - off) sstep).
    replace i1 with w1 by (destruct IH1; auto).
    rewrite (wrapped_spec d e1 e1' i1 w1 IH1 cstart sstep cn Hsstep), <- (map_map _ (eval_instant d e1)), <- grid_tk.
    apply map_ext_in. intros k Hk. apply in_seq in Hk.
    rewrite (assemble_map (fun x => x) universe). apply filter_map_ext_in. intros l _.
    rewrite zip_wf_windows; auto; [|rewrite points_of_map; apply sorted_points, grid_sorted; auto|lia].
    unfold cn, cstart. rewrite (sub_window l (eval_instant d e1) start interval n k) by (auto; lia).
    now destruct (apply_wf _ _ _ _ _ _ _).
  - (* zero-argument pointwise function *)
    split; [reflexivity|]. split.
    + intros Hi t t'. simpl. apply safe_ok; auto.
    + intros start interval n Hi Hn. cbn [PromqlRange.eval_range PromqlRange.eval_instant].
      rewrite grid_tk, map_map. reflexivity.
  - (* one-argument pointwise function *)
    specialize (IH1 Hok). destruct (prep e1) as [[e1' i1] w1].
    destruct (safe g && i1) eqn:Es.
    + apply andb_prop in Es as [Hsg ->].
      destruct IH1 as (Hw1 & Hinv1 & Hev1). split; [reflexivity|]. split.
      * intros _ t t'. simpl. rewrite (Hinv1 eq_refl t t'). apply safe_ok; auto.
      * intros start interval n Hi [Hn|Hn]; [discriminate|]. subst n.
        cbn [PromqlRange.eval_range PromqlRange.eval_instant].
        rewrite (Hev1 start interval 1%nat Hi (or_intror eq_refl)). reflexivity.
    + split; [reflexivity|]. split; [discriminate|].
      intros start interval n Hi _. cbn [PromqlRange.eval_range PromqlRange.eval_instant].
      rewrite (wrapped_spec d e1 e1' i1 w1 IH1 start interval n Hi).
      rewrite grid_tk, combine_map, map_map. reflexivity.
  - (* two-argument pointwise function *)
    destruct Hok as [Hok1 Hok2]. specialize (IH1 Hok1). specialize (IH2 Hok2).
    destruct (prep e1) as [[e1' i1] w1]. destruct (prep e2) as [[e2' i2] w2].
    destruct (safe g && i1 && i2) eqn:Es.
    + apply andb_prop in Es as [Es ->]. apply andb_prop in Es as [Hsg ->].
      destruct IH1 as (Hw1 & Hinv1 & Hev1). destruct IH2 as (Hw2 & Hinv2 & Hev2).
      split; [reflexivity|]. split.
      * intros _ t t'. simpl. rewrite (Hinv1 eq_refl t t'), (Hinv2 eq_refl t t'). apply safe_ok; auto.
      * intros start interval n Hi [Hn|Hn]; [discriminate|]. subst n.
        cbn [PromqlRange.eval_range PromqlRange.eval_instant].
        rewrite (Hev1 start interval 1%nat Hi (or_intror eq_refl)).
        rewrite (Hev2 start interval 1%nat Hi (or_intror eq_refl)). reflexivity.
    + split; [reflexivity|]. split; [discriminate|].
      intros start interval n Hi _. cbn [PromqlRange.eval_range PromqlRange.eval_instant].
      rewrite (wrapped_spec d e1 e1' i1 w1 IH1 start interval n Hi).
      rewrite (wrapped_spec d e2 e2' i2 w2 IH2 start interval n Hi).
      rewrite grid_tk, !combine_map, map_map. reflexivity.
Qed.

Theorem range_eq_instant : forall d e start interval n k,
  wf_data d -> okexpr e -> 0 < interval -> (k < n)%nat ->
  nth k (eval_range d (preprocess e) start interval n) [] =
  eval_instant d e (start + Z.of_nat k * interval).
Proof.
  intros d e start interval n k Hd Hok Hi Hk. unfold PromqlRange.preprocess.
  pose proof (prep_spec d Hd e Hok) as Hp. destruct (prep e) as [[e' i] w].
  rewrite (wrapped_spec d e e' i w Hp start interval n Hi).
  rewrite nth_map_seq by auto. reflexivity.
Qed.

(* add an offset to every outermost selector / subquery *)
Fixpoint shift (dl : Z) (e : expr) : expr :=
  match e with
  | EVec _ _ _ m off at_ => EVec _ _ _ m (off + dl) at_
  | ECall _ _ _ f m range off at_ => ECall _ _ _ f m range (off + dl) at_
  | ESub _ _ _ f e1 range sstep off => ESub _ _ _ f e1 range sstep (off + dl)
  | EP0 _ _ _ g => EP0 _ _ _ g
  | EP1 _ _ _ g e1 => EP1 _ _ _ g (shift dl e1)
  | EP2 _ _ _ g e1 e2 => EP2 _ _ _ g (shift dl e1) (shift dl e2)
  | EStepInv _ _ _ e1 => EStepInv _ _ _ (shift dl e1)
  end.

(* no @ modifier at the shifted level, and no function of the evaluation time *)
Fixpoint shiftable (e : expr) : Prop :=
  match e with
  | EVec _ _ _ _ _ at_ => at_ = None
  | ECall _ _ _ f _ _ _ at_ => at_ = None /\ safeF f = true
  | ESub _ _ _ f _ _ _ _ => safeF f = true
  | EP0 _ _ _ g => safe g = true
  | EP1 _ _ _ g e1 => safe g = true /\ shiftable e1
  | EP2 _ _ _ g e1 e2 => safe g = true /\ shiftable e1 /\ shiftable e2
  | EStepInv _ _ _ e1 => shiftable e1
  end.

Lemma apply_wf_safe : forall f, safeF f = true -> forall mint maxt t t' w,
  apply_wf F wf f mint maxt t w = apply_wf F wf f mint maxt t' w.
Proof. intros f Hf mint maxt t t' w. unfold apply_wf. destruct w; auto. Qed.

Theorem offset_shift : forall d e dl t, shiftable e ->
  eval_instant d (shift dl e) t = eval_instant d e (t - dl).
Proof.
  intros d e dl t. induction e as [m off at_|f m range off at_|f e1 _ range sstep off| g | g e1 IH1 | g e1 IH1 e2 IH2 | e1 IH1];
    intros Hs; simpl in Hs.
  - subst at_. simpl. replace (t - (off + dl)) with (t - dl - off) by lia. reflexivity.
  - destruct Hs as [-> Hf]. simpl. replace (t - (off + dl)) with (t - dl - off) by lia.
    apply filter_map_ext_in. intros [l s] _. destruct (matches m l); auto. f_equal.
    apply apply_wf_safe; auto.
  - cbn [shift PromqlRange.eval_instant]. unfold sub_start.
    replace (t - (off + dl)) with (t - dl - off) by lia.
    apply filter_map_ext_in. intros l _. f_equal. apply apply_wf_safe; auto.
  - simpl. apply safe_ok; auto.
  - destruct Hs as [Hg Hs1]. simpl. rewrite IH1 by auto. apply safe_ok; auto.
  - destruct Hs as (Hg & Hs1 & Hs2). simpl. rewrite IH1, IH2 by auto. apply safe_ok; auto.
  - simpl. auto.
Qed.

End ExprProofs.
