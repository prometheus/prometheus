(* proof/HistChunkProofs.v — strictly increasing index lists (incr); the bucket indices a span list
   enumerates (idxs) and spans_of / addBucket as their inverse; lay, a bucket slice laid out on a
   wider index list, and the bucket map it keeps (lay_lookup). *)
From Coq Require Import List ZArith Bool Lia.
From Verif Require Import model.HistChunk.
Import ListNotations.
Open Scope Z_scope.

Fixpoint incr (lo : Z) (l : list Z) : Prop :=
  match l with [] => True | x :: r => lo < x /\ incr x r end.

Lemma incr_weaken lo lo' l : lo' <= lo -> incr lo l -> incr lo' l.
Proof. destruct l; simpl; intuition lia. Qed.

Lemma incr_In lo l x : incr lo l -> In x l -> lo < x.
Proof.
  revert lo. induction l as [|y r IH]; simpl; intros lo H Hin; [tauto|].
  destruct H as [H1 H2]. destruct Hin as [->|Hin]; [lia|]. specialize (IH _ H2 Hin). lia.
Qed.

Lemma zseq_nil s n : n <= 0 -> zseq s n = [].
Proof. intros H. unfold zseq. replace (Z.to_nat n) with 0%nat by lia. reflexivity. Qed.

Lemma zseq_cons s n : 0 < n -> zseq s n = s :: zseq (s + 1) (n - 1).
Proof.
  intros H. unfold zseq. replace (Z.to_nat n) with (S (Z.to_nat (n - 1))) by lia.
  cbn [seq map]. f_equal; [lia|]. rewrite <- seq_shift, map_map. apply map_ext. intros; lia.
Qed.

Lemma zseq_snoc s n : 0 <= n -> zseq s (n + 1) = zseq s n ++ [s + n].
Proof.
  intros H. unfold zseq. replace (Z.to_nat (n + 1)) with (Z.to_nat n + 1)%nat by lia.
  rewrite seq_app, map_app. cbn [seq map Nat.add]. do 2 f_equal. lia.
Qed.

Lemma zseq_length s n : length (zseq s n) = Z.to_nat n.
Proof. unfold zseq. now rewrite map_length, seq_length. Qed.

Lemma zseq_incr_app lo s n l : lo < s -> incr (s + Z.max 0 n - 1) l -> incr lo (zseq s n ++ l).
Proof.
  intros Hlo Hl. remember (Z.to_nat n) as k eqn:Hk. revert lo s n Hlo Hl Hk.
  induction k as [|k IH]; intros lo s n Hlo Hl Hk.
  - rewrite zseq_nil by lia. simpl. eapply incr_weaken; [|exact Hl]. lia.
  - rewrite zseq_cons by lia. simpl. split; [lia|]. apply IH; try lia.
    eapply incr_weaken; [|exact Hl]. lia.
Qed.

Definition wf_tail (l : list span) : Prop := Forall (fun s => 0 <= s_off s /\ 0 <= s_len s) l.
Definition wf_spans (l : list span) : Prop :=
  match l with [] => True | s :: r => 0 <= s_len s /\ wf_tail r end.

(* only the first span may have a negative offset: the bound is on the first bucket *)
Lemma idxs_from_incr next s r : wf_tail r -> incr (next + s_off s - 1) (idxs_from next (s :: r)).
Proof.
  revert next s. induction r as [|s' r IH]; intros next s H; cbn [idxs_from]; apply zseq_incr_app; try lia; [exact I|].
  inversion H as [|? ? [Ho _] Hr]; subst. eapply incr_weaken; [|exact (IH _ s' Hr)]. lia.
Qed.

Lemma idxs_incr l : wf_spans l -> exists lo, incr lo (idxs l).
Proof.
  destruct l as [|s r]; intros H; [exists 0; exact I|]. exists (0 + s_off s - 1). apply idxs_from_incr, H.
Qed.

Lemma idxs_from_length next l :
  Forall (fun s => 0 <= s_len s) l -> Z.of_nat (length (idxs_from next l)) = count_spans l.
Proof.
  revert next. induction l as [|s r IH]; intros next H; simpl; [reflexivity|].
  inversion H; subst. rewrite app_length, zseq_length, Nat2Z.inj_add, IH by assumption. lia.
Qed.

Fixpoint end_from (next : Z) (l : list span) : Z :=
  match l with [] => next | s :: r => end_from (next + s_off s + Z.max 0 (s_len s)) r end.

Lemma idxs_from_app n l1 l2 :
  idxs_from n (l1 ++ l2) = idxs_from n l1 ++ idxs_from (end_from n l1) l2.
Proof.
  revert n. induction l1 as [|s r IH]; intros n; simpl; [reflexivity|].
  now rewrite IH, app_assoc.
Qed.

Lemma end_from_app n l1 l2 : end_from n (l1 ++ l2) = end_from (end_from n l1) l2.
Proof. revert n. induction l1; intros; simpl; auto. Qed.

(* addBucket rebuilds exactly the bucket indices it was fed, whatever they are, in spans that
   are never empty *)
Definition ab_inv (st : list span * Z) (p : list Z) : Prop :=
  fst st <> [] /\ idxs_from 0 (rev (fst st)) = p /\ end_from 0 (rev (fst st)) = snd st + 1 /\
  Forall (fun s => 1 <= s_len s) (fst st).

Lemma add_bucket_inv st p b : ab_inv st p -> ab_inv (add_bucket st b) (p ++ [b]).
Proof.
  destruct st as [rs last]. intros (Hne & Hi & He & Hl). cbn [fst snd] in *.
  destruct rs as [|s r]; [congruence|]. unfold add_bucket.
  assert (Hs : 1 <= s_len s) by exact (Forall_inv Hl). pose proof (Forall_inv_tail Hl) as Hr.
  destruct (Z.eqb_spec (b - last - 1) 0) as [E|E]; unfold ab_inv; cbn [fst snd].
  - cbn [rev] in *. rewrite idxs_from_app in *. rewrite end_from_app in *. cbn [idxs_from end_from s_off s_len] in *.
    rewrite app_nil_r in *. rewrite Z.max_r in He by lia. rewrite Z.max_r by lia.
    repeat split; [discriminate| |lia|constructor; [cbn; lia|exact Hr]].
    rewrite zseq_snoc by lia. rewrite app_assoc, Hi. do 2 f_equal. lia.
  - change (rev (mkSpan (b - last - 1) 1 :: s :: r)) with (rev (s :: r) ++ [mkSpan (b - last - 1) 1]).
    rewrite idxs_from_app, end_from_app. cbn [idxs_from end_from s_off s_len]. rewrite app_nil_r.
    rewrite He, Hi. repeat split; [discriminate| |lia|constructor; [cbn; lia|exact Hl]].
    f_equal. rewrite zseq_cons by lia. rewrite zseq_nil by lia. f_equal. lia.
Qed.

Lemma fold_add_bucket_inv l : forall st p, ab_inv st p -> ab_inv (fold_left add_bucket l st) (p ++ l).
Proof.
  induction l as [|b l IH]; intros st p H; cbn [fold_left]; [now rewrite app_nil_r|].
  change (b :: l) with ([b] ++ l). rewrite app_assoc. apply IH, add_bucket_inv, H.
Qed.

Lemma spans_of_inv b l : ab_inv (fold_left add_bucket (b :: l) ([], 0)) (b :: l).
Proof.
  cbn [fold_left]. apply (fold_add_bucket_inv l _ [b]).
  unfold add_bucket, ab_inv; cbn [fst snd rev app idxs_from end_from s_off s_len].
  repeat split; [discriminate| |lia|constructor; [cbn; lia|constructor]].
  rewrite app_nil_r. rewrite zseq_cons by lia. rewrite zseq_nil by lia. f_equal. lia.
Qed.

Lemma idxs_spans_of l : idxs (spans_of l) = l.
Proof. destruct l as [|b l]; [reflexivity|]. apply (spans_of_inv b l). Qed.

Lemma spans_of_len l : Forall (fun s => 0 <= s_len s) (spans_of l).
Proof.
  destruct l as [|b l]; [constructor|]. apply Forall_rev.
  eapply Forall_impl; [|apply (spans_of_inv b l)]. cbn; intros; lia.
Qed.

Lemma lookup_notin lo k ix vals : incr lo ix -> k <= lo -> lookup k (combine ix vals) = 0.
Proof.
  revert lo vals. induction ix as [|i ix IH]; intros lo vals H Hk; simpl; [reflexivity|].
  destruct vals as [|v vals]; simpl; [reflexivity|]. destruct H as [H1 H2].
  destruct (Z.eqb_spec i k); [lia|]. apply (IH i); [assumption|lia].
Qed.

(* the values of (ix, vals) laid out on the wider index list M, zero elsewhere *)
Fixpoint lay (M ix vals : list Z) : list Z :=
  match M with
  | [] => []
  | m :: M' =>
      match ix, vals with
      | i :: ix', v :: vals' => if i =? m then v :: lay M' ix' vals' else 0 :: lay M' ix vals
      | _, _ => 0 :: lay M' ix vals
      end
  end.

Lemma lay_length M ix vals : length (lay M ix vals) = length M.
Proof.
  revert ix vals. induction M as [|m M IH]; intros; simpl; [reflexivity|].
  destruct ix, vals; simpl; try (now rewrite IH). destruct (z =? m); simpl; now rewrite IH.
Qed.

Lemma lay_nil M vals : lay M [] vals = repeat 0 (length M).
Proof. induction M; simpl; [reflexivity|]. now rewrite IHM. Qed.

Lemma lay_self l vals : length vals = length l -> lay l l vals = vals.
Proof.
  revert vals. induction l as [|x l IH]; intros vals H; destruct vals; simpl in *; try discriminate; auto.
  rewrite Z.eqb_refl. f_equal. apply IH. lia.
Qed.

Lemma lay_skip m M ix va : incr m ix -> lay (m :: M) ix va = 0 :: lay M ix va.
Proof.
  intro H. cbn [lay]. destruct ix as [|i ix']; [reflexivity|]. destruct va as [|x va]; [reflexivity|].
  destruct H as [Hi _]. destruct (Z.eqb_spec i m); [lia|reflexivity].
Qed.

Lemma lay_lookup lo M ix vals k :
  incr lo M -> incr lo ix -> incl ix M -> length vals = length ix ->
  lookup k (combine M (lay M ix vals)) = lookup k (combine ix vals).
Proof.
  revert lo ix vals. induction M as [|m M IH]; intros lo ix vals HM Hix Hin Hlen.
  - destruct ix as [|i ix]; [reflexivity|]. destruct (Hin i (or_introl eq_refl)).
  - destruct HM as [HM1 HM2].
    (* ix starts with m, or all of it lies behind m *)
    assert (C : (exists ix', ix = m :: ix') \/ incr m ix).
    { destruct ix as [|i ix']; [right; exact I|]. destruct (Z.eq_dec i m) as [->|Hne]; [left; eauto|right].
      destruct (Hin i (or_introl eq_refl)) as [E|Him]; [congruence|].
      split; [exact (incr_In _ _ _ HM2 Him)|apply Hix]. }
    destruct C as [[ix' ->]|Hm].
    + destruct vals as [|v vals]; [discriminate|]. destruct Hix as [_ Hi2].
      cbn [lay]. rewrite Z.eqb_refl. cbn [combine lookup]. destruct (m =? k); [reflexivity|].
      apply (IH m); auto. intros x Hx. pose proof (incr_In _ _ _ Hi2 Hx).
      destruct (Hin x (or_intror Hx)) as [->|]; [lia|assumption].
    + rewrite lay_skip by exact Hm. cbn [combine lookup]. destruct (Z.eqb_spec m k) as [->|Hk].
      * symmetry. apply (lookup_notin k); [exact Hm|lia].
      * apply (IH m); auto. intros x Hx. pose proof (incr_In _ _ _ Hm Hx).
        destruct (Hin x Hx) as [->|]; [lia|assumption].
Qed.
