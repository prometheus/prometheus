(* proof/PromqlPrintProofs.v — C26, first part (model/PromqlPrint.v, model/PromqlParse.v): where
   precedence climbing and the postfix loop stop; signed numbers, label lists and the modifiers
   of a binary operator are read back as printed (bin_modifiers_print). *)
From Coq Require Import List ZArith Bool NArith Lia.
From Verif Require Import model.PromqlPrint model.PromqlParse.
Import ListNotations.
Open Scope Z_scope.

Ltac b2p := repeat match goal with
  | H : _ && _ = true |- _ => apply andb_prop in H; destruct H
  | H : negb _ = true |- _ => apply negb_true_iff in H
  | H : negb _ = false |- _ => apply negb_false_iff in H
  | H : (_ <=? _) = true |- _ => apply Z.leb_le in H
  | H : (_ <? _) = true |- _ => apply Z.ltb_lt in H
  | H : (_ =? _) = true |- _ => apply Z.eqb_eq in H
  | H : (_ =? _) = false |- _ => apply Z.eqb_neq in H
  | H : (_ <=? _) = false |- _ => apply Z.leb_gt in H
  | H : (_ <? _) = false |- _ => apply Z.ltb_ge in H
  end.

Lemma seqb_refl : forall s, seqb s s = true.
Proof. induction s; simpl; auto. rewrite N.eqb_refl; auto. Qed.

Lemma seqb_eq : forall a b, seqb a b = true -> a = b.
Proof.
  induction a; destruct b; simpl; intros; try discriminate; auto.
  apply andb_prop in H; destruct H. apply N.eqb_eq in H. f_equal; auto.
Qed.

Lemma prec_range : forall op, 1 <= prec op <= 6.
Proof. destruct op; simpl; lia. Qed.

Lemma prec6_right : forall op, prec op = 6 -> right_assoc op = true.
Proof. destruct op; simpl; intros; try lia; auto. Qed.

Lemma app_cons_assoc : forall A (l : list A) x r, (l ++ [x]) ++ r = l ++ x :: r.
Proof. intros. rewrite <- app_assoc. reflexivity. Qed.

Section Climb.
  Variable o : opts.
  Variable pe : Z -> list tok -> res (expr * list tok).

  Lemma climb_mono : forall n minp lhs toks r,
    climb o pe n minp lhs toks = Ok r -> forall n', (n <= n')%nat -> climb o pe n' minp lhs toks = Ok r.
  Proof.
    induction n; intros minp lhs toks r H [|n'] Hn; try lia; auto;
      destruct toks as [|[k x z] rest]; auto; destruct k; try exact H; simpl in *;
      destruct (prec o0 <? minp); auto; try discriminate.
    destruct (bin_modifiers rest) as [[[rb vm] r1]|]; auto.
    destruct (negb (o_fill o) && _); auto.
    destruct (pe _ r1) as [[rhs r2]|]; auto.
    apply IHn; auto. lia.
  Qed.

  (* what may follow a complete expression parsed with minimum precedence minp *)
  Definition stop (minp : Z) (X : list tok) : Prop :=
    match X with
    | [] => True
    | t :: _ => match tk t with KRP | KCOMMA => True | KOP q => prec q < minp | _ => False end
    end.

  Lemma climb_stop : forall n minp lhs X, stop minp X -> climb o pe n minp lhs X = Ok (lhs, X).
  Proof.
    intros n minp lhs [|[k x z] rest] H; [destruct n; auto|]. cbn [stop tk] in H.
    destruct k; try contradiction; destruct n; try reflexivity;
      apply Z.ltb_lt in H; simpl; rewrite H; reflexivity.
  Qed.
End Climb.

Lemma stop_weaken : forall a b X, stop a X -> a <= b -> stop b X.
Proof. intros. destruct X; simpl in *; auto. destruct (tk t); auto. lia. Qed.

(* no postfix modifier starts at a stopping token; the cases of kind are split with the branches
   left open *)
Lemma stop_not_postfix {A} (k : kind) (minp : Z) (a b c d e f : A) :
  match k with KRP | KCOMMA => True | KOP q => prec q < minp | _ => False end ->
  match k with KOFFSET => a | KAT => b | KANCHORED => c | KSMOOTHED => d | KLB => e | _ => f end = f.
Proof. destruct k; try contradiction; reflexivity. Qed.

Lemma postfix_step_stop : forall oc o e minp X, stop minp X -> postfix_step oc o e X = None.
Proof. intros oc o e minp [|t rest] H; [reflexivity | exact (stop_not_postfix _ minp _ _ _ _ _ _ H)]. Qed.

Lemma postfix_none : forall oc o e n minp X, stop minp X -> postfix_loop n oc o e X = Ok (e, X).
Proof. intros. destruct n; cbn [postfix_loop]; rewrite (postfix_step_stop _ _ _ minp) by assumption; reflexivity. Qed.

Lemma fneg_sub : forall b, num_ok b = true -> is_negf b = true -> fneg (b - sign_bit) = b.
Proof.
  unfold num_ok, is_negf, fneg, is_nan, two63, sign_bit, inf_bits, nan_bits. intros b H1 H2.
  apply andb_prop in H1. destruct H1 as [H1 Hor]. b2p.
  assert (Hm : b mod 9223372036854775808 = b - 9223372036854775808).
  { symmetry. apply Z.mod_unique with (q := 1); lia. }
  rewrite Hm in Hor.
  apply orb_prop in Hor. destruct Hor as [Hor|Hor]; b2p; [|lia].
  destruct (b - 9223372036854775808 =? 9221120237041090561) eqn:E; b2p; [lia|].
  destruct (9223372036854775808 <=? b - 9223372036854775808) eqn:E2; b2p; lia.
Qed.

Lemma signed_num_print : forall b Y, num_ok b = true ->
  signed_num (print_num b ++ Y) = Ok (b, Y).
Proof.
  intros. unfold print_num. destruct (is_negf b) eqn:E.
  - simpl. rewrite fneg_sub; auto.
  - destruct (b =? inf_bits); simpl; auto.
Qed.

Lemma fill_tok_app : forall k w b Y, fill_tok k w b ++ Y = TW k w :: T KLP :: print_num b ++ T KRP :: Y.
Proof. intros. unfold fill_tok. cbn [app]. rewrite app_cons_assoc. reflexivity. Qed.

Lemma fill_value_print : forall b Y, num_ok b = true ->
  fill_value (T KLP :: print_num b ++ T KRP :: Y) = Ok (b, Y).
Proof. intros. cbn [fill_value tk T]. rewrite signed_num_print; auto. Qed.

Local Arguments lex_word : simpl never.
Local Arguments kw_lookup : simpl never.
Lemma lex_word_tx : forall w, tk (lex_word w) <> KNUM -> tx (lex_word w) = w.
Proof.
  intros w. unfold lex_word. destruct (kw_lookup (map lower w) kwtab_b) as [k|].
  - destruct k; simpl; auto; congruence.
  - destruct (has_colon w); auto.
Qed.

Lemma maybe_label_glabel : forall t, maybe_label (tk t) = true ->
  match tk t with KSTR => true | k => maybe_label k end = true.
Proof. intros t. destruct (tk t); intros H; try exact H. discriminate H. Qed.

Lemma glabel_print : forall s, label_ok s = true -> glabel (print_label s) = Some s.
Proof.
  unfold label_ok, print_label, glabel. intros [|c s'] H; [discriminate|].
  destruct (legacy_label (c :: s')); [|reflexivity]. cbn [negb orb] in H.
  rewrite (maybe_label_glabel _ H), lex_word_tx; [reflexivity|].
  intro E. rewrite E in H. discriminate H.
Qed.

Lemma glabel_not_rp : forall t s, glabel t = Some s -> tk t <> KRP.
Proof. unfold glabel. intros t s H E. rewrite E in H. discriminate. Qed.

Lemma print_labels_cons : forall s ls,
  print_labels (s :: ls) = print_label s :: match ls with [] => [] | _ => T KCOMMA :: print_labels ls end.
Proof. destruct ls; reflexivity. Qed.

Lemma print_labels_hd : forall s ls Y, label_ok s = true -> hd_kind (print_labels (s :: ls) ++ Y) <> KRP.
Proof. intros. rewrite print_labels_cons. exact (glabel_not_rp _ s (glabel_print s H)). Qed.

Lemma not_krp {A} (k : kind) (a b : A) : k <> KRP -> match k with KRP => a | _ => b end = b.
Proof. destruct k; reflexivity || congruence. Qed.

(* glabels_loop, one label at a time. With nothing after the comma both sides are a syntax error. *)
Lemma glabels_loop_last : forall t s Y acc, glabel t = Some s ->
  glabels_loop (t :: T KRP :: Y) acc = Ok (acc ++ [s], Y).
Proof. intros. cbn [glabels_loop]. rewrite H. reflexivity. Qed.

Lemma glabels_loop_comma : forall t s X acc, glabel t = Some s -> hd_kind X <> KRP ->
  glabels_loop (t :: T KCOMMA :: X) acc = glabels_loop X (acc ++ [s]).
Proof.
  intros t s X acc H HX. cbn [glabels_loop tk T]. rewrite H.
  destruct X as [|c X']; [reflexivity | apply not_krp, HX].
Qed.

Lemma glabels_open : forall X, hd_kind X <> KRP -> glabels (T KLP :: X) = glabels_loop X [].
Proof.
  intros [|c X] H; [reflexivity|]. cbn [glabels tk T]. apply not_krp, H.
Qed.

Lemma glabels_loop_print : forall ls s acc Y, forallb label_ok (s :: ls) = true ->
  glabels_loop (print_labels (s :: ls) ++ T KRP :: Y) acc = Ok (acc ++ s :: ls, Y).
Proof.
  induction ls as [|s2 ls IH]; intros s acc Y H; cbn [forallb] in H;
    apply andb_prop in H; destruct H as [Hs Hls]; pose proof (glabel_print s Hs) as G.
  - exact (glabels_loop_last _ s Y acc G).
  - rewrite print_labels_cons. cbn [app].
    rewrite (glabels_loop_comma _ s) by (auto; apply print_labels_hd; cbn [forallb] in Hls; b2p; auto).
    rewrite IH by exact Hls. rewrite <- app_assoc. reflexivity.
Qed.

Lemma glabels_print : forall ls Y, forallb label_ok ls = true ->
  glabels (T KLP :: print_labels ls ++ T KRP :: Y) = Ok (ls, Y).
Proof.
  intros [|s ls] Y H; [reflexivity|].
  rewrite glabels_open by (apply print_labels_hd; cbn [forallb] in H; b2p; auto).
  exact (glabels_loop_print ls s [] Y H).
Qed.

(* bin_modifiers reads four optional groups, each announced by its keyword, in a fixed order:
   bool, on/ignoring (..), group_left/group_right [(..)], fill*(..). mod_rank is the place of a
   keyword in that order, 4 for any other token: a group that was not printed is skipped
   because the head of what follows has a later rank. *)
Definition mod_rank (k : kind) : nat :=
  match k with
  | KBOOL => 0
  | KON | KIGNORING => 1
  | KGROUPL | KGROUPR => 2
  | KFILL | KFILLL | KFILLR => 3
  | _ => 4
  end.

Definition nomod (R : list tok) : Prop := mod_rank (hd_kind R) = 4%nat.

(* a test for the keywords of one group falls through at a token of later rank; stated for any
   branches, so that the 39 cases are split on these few lines and nowhere else *)
Lemma rank_skip_bool {A} (k : kind) (a b : A) : (0 < mod_rank k)%nat ->
  match k with KBOOL => a | _ => b end = b.
Proof. destruct k; cbn [mod_rank]; intros; reflexivity || lia. Qed.

Lemma rank_skip_on {A} (k : kind) (a b : A) : (1 < mod_rank k)%nat ->
  match k with KON | KIGNORING => a | _ => b end = b.
Proof. destruct k; cbn [mod_rank]; intros; reflexivity || lia. Qed.

Lemma rank_skip_group {A} (k : kind) (a b : A) : (2 < mod_rank k)%nat ->
  match k with KGROUPL | KGROUPR => a | _ => b end = b.
Proof. destruct k; cbn [mod_rank]; intros; reflexivity || lia. Qed.

Lemma rank_skip_fill {A} (k : kind) (a b c d : A) : mod_rank k = 4%nat ->
  match k with KFILL => a | KFILLL => b | KFILLR => c | _ => d end = d.
Proof. destruct k; cbn [mod_rank]; intros; reflexivity || lia. Qed.

Definition bm_group (on : bool) (ls : list str) (t2 : list tok) : res (vmatch * list tok) :=
  match hd_kind t2 with
  | KGROUPL | KGROUPR =>
      let c := match hd_kind t2 with KGROUPL => CManyToOne | _ => COneToMany end in
      match hd_kind (tl t2) with
      | KLP => match glabels (tl t2) with
               | Ok (inc, t3) => Ok (mkVM c on ls inc None None, t3)
               | Err x => Err x
               end
      | _ => Ok (mkVM c on ls [] None None, tl t2)
      end
  | _ => Ok (mkVM COneToOne on ls [] None None, t2)
  end.

Definition bm_on (t1 : list tok) : res (vmatch * list tok) :=
  match hd_kind t1 with
  | KON | KIGNORING =>
      match glabels (tl t1) with
      | Ok (ls, t2) => bm_group (match hd_kind t1 with KON => true | _ => false end) ls t2
      | Err x => Err x
      end
  | _ => Ok (vm_default, t1)
  end.

Definition set_fill (m : vmatch) (l r : option Z) : vmatch :=
  mkVM (vm_card m) (vm_on m) (vm_labels m) (vm_include m) l r.

Definition bm_fill (rb : bool) (m : vmatch) (t3 : list tok) : res ((bool * vmatch) * list tok) :=
  match hd_kind t3 with
  | KFILL => match fill_value (tl t3) with
             | Ok (v, t4) => Ok ((rb, set_fill m (Some v) (Some v)), t4)
             | Err x => Err x end
  | KFILLL => match fill_value (tl t3) with
              | Ok (v, t4) =>
                  match hd_kind t4 with
                  | KFILLR => match fill_value (tl t4) with
                              | Ok (w, t5) => Ok ((rb, set_fill m (Some v) (Some w)), t5)
                              | Err x => Err x end
                  | _ => Ok ((rb, set_fill m (Some v) None), t4)
                  end
              | Err x => Err x end
  | KFILLR => match fill_value (tl t3) with
              | Ok (v, t4) =>
                  match hd_kind t4 with
                  | KFILLL => match fill_value (tl t4) with
                              | Ok (w, t5) => Ok ((rb, set_fill m (Some w) (Some v)), t5)
                              | Err x => Err x end
                  | _ => Ok ((rb, set_fill m None (Some v)), t4)
                  end
              | Err x => Err x end
  | _ => Ok ((rb, m), t3)
  end.

Lemma bin_modifiers_groups : forall toks,
  bin_modifiers toks =
  let '(rb, t1) := match hd_kind toks with KBOOL => (true, tl toks) | _ => (false, toks) end in
  match bm_on t1 with
  | Ok (m, t3) => bm_fill rb m t3
  | Err x => Err x
  end.
Proof. reflexivity. Qed.

(* the printer: the label groups of a matching, then its fill values *)
Definition fills (fl fr : option Z) : vmatch := mkVM COneToOne false [] [] fl fr.

Lemma print_matching_split : forall m,
  print_matching (Some m) =
  print_matching (Some (set_fill m None None)) ++ print_matching (Some (fills (vm_fl m) (vm_fr m))).
Proof.
  intros [c on ls inc fl fr]. unfold print_matching, set_fill, fills.
  cbn [vm_card vm_on vm_labels vm_include vm_fl vm_fr orb app]. rewrite app_nil_r, <- app_assoc. reflexivity.
Qed.

Lemma bm_on_skip : forall X, (1 < mod_rank (hd_kind X))%nat -> bm_on X = Ok (vm_default, X).
Proof. intros X. apply rank_skip_on. Qed.

Lemma bm_group_skip : forall on ls X, (2 < mod_rank (hd_kind X))%nat ->
  bm_group on ls X = Ok (mkVM COneToOne on ls [] None None, X).
Proof. intros on ls X. apply rank_skip_group. Qed.

Lemma bm_on_read : forall t ls X, mod_rank (tk t) = 1%nat -> forallb label_ok ls = true ->
  bm_on (t :: T KLP :: print_labels ls ++ T KRP :: X) = bm_group (match tk t with KON => true | _ => false end) ls X.
Proof.
  intros [k x z] ls X Ht Hls. cbn [tk] in *.
  destruct k; try discriminate Ht; unfold bm_on; cbn [hd_kind tl tk]; rewrite glabels_print by exact Hls; reflexivity.
Qed.

Lemma bm_group_read : forall on ls t inc X, mod_rank (tk t) = 2%nat -> forallb label_ok inc = true ->
  bm_group on ls (t :: T KLP :: print_labels inc ++ T KRP :: X) =
  Ok (mkVM (match tk t with KGROUPL => CManyToOne | _ => COneToMany end) on ls inc None None, X).
Proof.
  intros on ls [k x z] inc X Ht Hinc. cbn [tk] in *.
  destruct k; try discriminate Ht; unfold bm_group; cbn [hd_kind tl tk T]; rewrite glabels_print by exact Hinc; reflexivity.
Qed.

Lemma bm_on_print : forall m X,
  forallb label_ok (vm_labels m) = true -> forallb label_ok (vm_include m) = true ->
  match vm_card m with
  | COneToOne => vm_include m = []
  | CManyToMany => False
  | _ => True
  end -> (2 < mod_rank (hd_kind X))%nat ->
  bm_on (print_matching (Some (set_fill m None None)) ++ X) = Ok (set_fill m None None, X).
Proof.
  intros [c on ls inc fl fr] X Hls Hinc Hc HX. unfold print_matching, set_fill.
  cbn [vm_card vm_on vm_labels vm_include vm_fl vm_fr] in *. rewrite app_nil_r, <- app_assoc.
  assert (ON : forall Y, bm_on ((if on then TW KON W_on else TW KIGNORING W_ignoring) :: T KLP :: (print_labels ls ++ [T KRP]) ++ Y)
                         = bm_group on ls Y).
  { intros Y. rewrite app_cons_assoc, bm_on_read by (destruct on; auto). destruct on; reflexivity. }
  destruct c; try contradiction; rewrite ?orb_true_r, ?orb_false_r; cbn [app].
  - subst inc. destruct (_ || on) eqn:E; cbn [app].
    + rewrite ON. apply bm_group_skip. exact HX.
    + apply orb_false_elim in E. destruct E as [E1 E2]. subst on. destruct ls; [|discriminate E1].
      apply bm_on_skip. lia.
  - rewrite ON, app_cons_assoc. apply bm_group_read; auto.
  - rewrite ON, app_cons_assoc. apply bm_group_read; auto.
Qed.

(* The one fill() for both sides is printed when the two values compare equal as floats; then
   they are the same bits unless both are zeros. *)
Lemma bm_fill_print : forall rb m fl fr R,
  (forall a, fl = Some a -> num_ok a = true) -> (forall b, fr = Some b -> num_ok b = true) ->
  (forall a b, fl = Some a -> fr = Some b -> fabs a = 0 -> fabs b = 0 -> a = b) -> nomod R ->
  bm_fill rb (set_fill m None None) (print_matching (Some (fills fl fr)) ++ R) = Ok ((rb, set_fill m fl fr), R).
Proof.
  unfold nomod, print_matching, fills. cbn [vm_card vm_on vm_labels vm_include vm_fl vm_fr orb app].
  intros rb m [a|] [b|] R Ha Hb Hz HR.
  - specialize (Ha a eq_refl). specialize (Hb b eq_refl). specialize (Hz a b eq_refl eq_refl).
    destruct (negb (is_nan a) && ((a =? b) || (fabs a =? 0) && (fabs b =? 0))) eqn:E.
    + assert (a = b).
      { apply andb_prop in E. destruct E as [_ E]. apply orb_prop in E. destruct E; b2p; auto. }
      subst b. rewrite fill_tok_app. unfold bm_fill. cbn [hd_kind tl tk TW].
      rewrite fill_value_print by assumption. reflexivity.
    + rewrite <- app_assoc, !fill_tok_app. unfold bm_fill. cbn [hd_kind tl tk TW].
      rewrite fill_value_print by assumption. cbn [hd_kind tl tk TW].
      rewrite fill_value_print by assumption. reflexivity.
  - rewrite fill_tok_app. unfold bm_fill. cbn [hd_kind tl tk TW]. rewrite fill_value_print by auto.
    apply rank_skip_fill, HR.
  - rewrite fill_tok_app. unfold bm_fill. cbn [hd_kind tl tk TW]. rewrite fill_value_print by auto.
    apply rank_skip_fill, HR.
  - cbn [app]. apply rank_skip_fill, HR.
Qed.

Lemma print_fill_rank : forall fl fr R, nomod R ->
  (2 < mod_rank (hd_kind (print_matching (Some (fills fl fr)) ++ R)))%nat.
Proof.
  unfold nomod, print_matching, fills. cbn [vm_card vm_on vm_labels vm_include vm_fl vm_fr orb app].
  intros [a|] [b|] R HR; [destruct (_ && _)|..];
    rewrite ?fill_tok_app; cbn [app hd_kind tk TW mod_rank]; rewrite ?HR; lia.
Qed.

Lemma print_matching_rank : forall m R, nomod R ->
  (0 < mod_rank (hd_kind (print_matching (Some m) ++ R)))%nat.
Proof.
  intros m R HR. rewrite print_matching_split, <- app_assoc.
  pose proof (print_fill_rank (vm_fl m) (vm_fr m) R HR). destruct m as [c on ls inc fl fr].
  unfold print_matching at 1. unfold set_fill. cbn [vm_card vm_on vm_labels vm_include vm_fl vm_fr] in *.
  destruct c, on, ls; cbn [orb app hd_kind tk TW mod_rank]; lia.
Qed.

Lemma bin_modifiers_print : forall o (rb : bool) m R,
  vm_ok o m = true -> vm_card m <> CManyToMany -> nomod R ->
  bin_modifiers ((if rb then [TW KBOOL W_bool] else []) ++ print_matching (Some m) ++ R) = Ok ((rb, m), R).
Proof.
  intros o rb m R Hok Hc HR. unfold vm_ok in Hok.
  apply andb_prop in Hok. destruct Hok as [Hok Hz]. apply andb_prop in Hok. destruct Hok as [Hok Hf].
  apply andb_prop in Hok. destruct Hok as [Hok Hg]. apply andb_prop in Hok. destruct Hok as [Hls Hinc].
  rewrite bin_modifiers_groups.
  replace (match hd_kind _ with KBOOL => _ | _ => _ end) with (rb, print_matching (Some m) ++ R).
  2:{ destruct rb; [reflexivity|]. symmetry. apply rank_skip_bool, print_matching_rank, HR. }
  rewrite print_matching_split, <- app_assoc.
  rewrite bm_on_print; auto using print_fill_rank.
  - rewrite bm_fill_print; auto.
    + destruct m; reflexivity.
    + intros a E. rewrite E in Hf. destruct (vm_fr m); b2p; auto.
    + intros b E. rewrite E in Hf. destruct (vm_fl m); b2p; auto.
    + intros a b Ea Eb Za Zb. rewrite Ea, Eb, Za, Zb in Hz. apply Z.eqb_eq. exact Hz.
  - destruct (vm_card m); try congruence; try exact I. destruct (vm_include m); [reflexivity | discriminate Hg].
Qed.
