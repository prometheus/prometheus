(* proof/DeleteHistProofs.v — proofs of the history part of property C20 (vocabulary in
   model/DeleteHist.v): a Delete acts on EVERY query answer of the flat specification exactly as
   del_answer says, a deleted sample never comes back by itself, and both facts lifted to the
   structured model of C01 through the C01 refinement (with C01's assumptions). *)
From Coq Require Import List ZArith Bool Lia.
From Verif Require Import lib.Int64 lib.SortedList model.TsdbSpec model.Tsdb proof.TsdbProofs model.DeleteHist.
Import ListNotations.
Open Scope Z_scope.

Lemma flat_map_flat_map {A B C} (f : B -> list C) (g : A -> list B) l :
  flat_map f (flat_map g l) = flat_map (fun x => flat_map f (g x)) l.
Proof.
  induction l as [|a l IH]; cbn [flat_map]; [reflexivity|].
  rewrite flat_map_app, IH. reflexivity.
Qed.

Lemma filter_comm {A} (f g : A -> bool) l : filter f (filter g l) = filter g (filter f l).
Proof. rewrite !filter_filter. apply filter_ext. intros a. apply andb_comm. Qed.

Lemma filter_map_swap {A B} (f : A -> B) (P : B -> bool) l :
  filter P (map f l) = map f (filter (fun x => P (f x)) l).
Proof.
  induction l as [|a l IH]; [reflexivity|]. cbn [map filter].
  destruct (P (f a)); cbn [map]; rewrite IH; reflexivity.
Qed.

Lemma sincr_filter (P : Z -> bool) l : sincr l -> sincr (filter P l).
Proof.
  induction l as [|a l IH]; intros H; cbn [filter]; [constructor|].
  apply sincr_cons_iff in H. destruct H as [Hs Hl].
  destruct (P a); [|auto]. apply sincr_cons_iff. split; [auto|].
  intros u Hu. apply filter_In in Hu. apply Hl, Hu.
Qed.

Lemma sort_uniq_filter (P : Z -> bool) l : sort_uniq (filter P l) = filter P (sort_uniq l).
Proof.
  apply sincr_unique; [apply sincr_sort_uniq | apply sincr_filter, sincr_sort_uniq |].
  intros t. rewrite in_sort_uniq, !filter_In, in_sort_uniq. reflexivity.
Qed.

Lemma vals_at_filter (P : Z -> bool) (l : list sample) t : P t = true ->
  vals_at (filter (fun x => P (st x)) l) t = vals_at l t.
Proof.
  intros HP. unfold vals_at. rewrite filter_filter. f_equal. apply filter_ext. intros a.
  destruct (Z.eqb_spec (st a) t) as [->|_]; [rewrite HP; reflexivity | apply andb_false_r].
Qed.

Lemma series_answer_filter (P : Z -> bool) (l : list sample) :
  series_answer (filter (fun x => P (st x)) l) = filter (fun p => P (fst p)) (series_answer l).
Proof.
  unfold series_answer. rewrite <- filter_map_swap, sort_uniq_filter, filter_map_swap.
  apply map_ext_in. intros t Ht. apply filter_In in Ht. rewrite vals_at_filter by apply Ht. reflexivity.
Qed.

Lemma del_entry_entry mint maxt sel i l :
  flat_map (del_entry mint maxt sel) (entry i l)
  = entry i (if memZ i sel then filter (fun x => negb (in_rng mint maxt (st x))) l else l).
Proof.
  destruct l as [|x l0]; [destruct (memZ i sel); reflexivity|].
  cbn [entry flat_map]. rewrite app_nil_r. unfold del_entry. cbn [fst snd].
  destruct (memZ i sel); [|reflexivity].
  unfold del_pts. rewrite <- (series_answer_filter (fun t => negb (in_rng mint maxt t))).
  destruct (filter _ (x :: l0)) as [|y F]; [reflexivity|]. cbn [entry].
  destruct (series_answer (y :: F)) eqn:E; [apply series_answer_nil in E; discriminate | reflexivity].
Qed.

Lemma delete_exact_spec : forall (sp : sstate) (mint maxt : Z) (sel : list sid) (qmin qmax : Z) (qsel : list sid),
  spec_query (spec_step sp (SDelete mint maxt sel)) qmin qmax qsel =
  del_answer mint maxt sel (spec_query sp qmin qmax qsel).
Proof.
  intros sp mint maxt sel qmin qmax qsel.
  unfold spec_query, del_answer. rewrite !query_of_entries, flat_map_flat_map.
  apply flat_map_ext_in. intros i _. rewrite del_entry_entry. cbn [spec_step].
  destruct (memZ i sel); [rewrite filter_comm|]; reflexivity.
Qed.

Lemma in_fold_spec ops : forall (sp : sstate) i x,
  In x (fold_left spec_step ops sp i) -> In x (sp i) \/ acked_in ops i x.
Proof.
  induction ops as [|o ops IH]; intros sp i x H; [left; exact H|].
  cbn [fold_left] in H. apply IH in H. destruct H as [H|[l [Hl Hx]]].
  - destruct o as [l|a b s|].
    + cbn [spec_step] in H. apply in_ack in H. destruct H as [H|H]; [left; exact H|].
      right. exists l. split; [left; reflexivity|exact H].
    + apply in_sdelete in H. left. apply H.
    + left. exact H.
  - right. exists l. split; [right; exact Hl|exact Hx].
Qed.

Lemma no_resurrection_spec : forall (ops1 ops2 : list sop) mint maxt sel i x,
  In x (spec_run (ops1 ++ SDelete mint maxt sel :: ops2) i) -> In i sel -> mint <= st x <= maxt ->
  acked_in ops2 i x.
Proof.
  intros ops1 ops2 mint maxt sel i x H Hi Hr.
  unfold spec_run in H. rewrite fold_left_app in H. cbn [fold_left] in H.
  apply in_fold_spec in H. destruct H as [H|H]; [|exact H].
  apply in_sdelete in H. destruct H as [_ Hn]. exfalso. apply Hn. split; assumption.
Qed.

Lemma maint_nop ops : forallb is_maint ops = true ->
  forall sp, fold_left spec_step (map spec_of_op ops) sp = sp.
Proof.
  induction ops as [|o ops IH]; intros H sp; [reflexivity|].
  cbn [forallb] in H. apply andb_true_iff in H. destruct H as [Ho Hr].
  cbn [map fold_left].
  destruct o; cbn [is_maint] in Ho; try discriminate Ho; cbn [spec_of_op spec_step]; apply IH; exact Hr.
Qed.

Lemma delete_history_partial : forall (c : cfg) (ops1 ops2 : list op) mint maxt sel,
  wf_cfg c -> wf_ops c state0 (ops1 ++ Delete mint maxt sel :: ops2) ->
  forallb is_maint ops2 = true ->
  dead_covered (run c (ops1 ++ Delete mint maxt sel :: ops2)) ->
  forall qmin qmax qsel,
    answer_equiv (query (run c (ops1 ++ Delete mint maxt sel :: ops2)) qmin qmax qsel)
                 (del_answer mint maxt sel (spec_query (spec_run (map spec_of_op ops1)) qmin qmax qsel)).
Proof.
  intros c ops1 ops2 mint maxt sel Hw Hwf Hm Hdc qmin qmax qsel.
  pose proof (refinement_partial c _ Hw Hwf Hdc qmin qmax qsel) as H.
  rewrite map_app in H. cbn [map spec_of_op] in H.
  unfold spec_run in H. rewrite fold_left_app in H. cbn [fold_left] in H.
  rewrite (maint_nop ops2 Hm) in H.
  rewrite delete_exact_spec in H. exact H.
Qed.

Definition ex_cfg : cfg := mkCfg 1000 100000 [0; 1].
Definition io (i t v : Z) : acc := (i, mkS t v, false).
Definition oo (i t v : Z) : acc := (i, mkS t v, true).
Definition lg (l : list acc) : list (sid * option sample) := map (fun a => (fst (fst a), Some (snd (fst a)))) l.
Definition cmc (created : list sid) (l : list acc) : op :=
  Commit l (map (fun i => (i, None)) created ++ lg l) (match l with a :: _ => Some (st (snd (fst a))) | [] => None end).
Definition cm := cmc [].
Definition ex_ops1 : list op :=
  [ cmc [0; 1] [io 0 (-1500) 1; io 1 150 2]; cm [io 0 900 3; io 1 950 4]; cm [oo 1 400 5];
    CompactOOO; cm [io 0 1700 6; io 1 1800 7]; cm [io 0 2700 8]; Compact ].
Definition ex_ops2 : list op := [ CleanTombstones; Compact; CompactOOO ].

Lemma ex_wf : wf_cfg ex_cfg /\ wf_ops ex_cfg state0 (ex_ops1 ++ Delete 120 1750 [0; 1] :: ex_ops2).
Proof. split; [reflexivity | apply wf_opsb_sound; vm_compute; reflexivity]. Qed.

Lemma ex_dead_covered : dead_covered (run ex_cfg (ex_ops1 ++ Delete 120 1750 [0; 1] :: ex_ops2)).
Proof.
  apply (dead_free_covered ex_cfg); [|vm_compute; reflexivity].
  destruct ex_wf as [Hw Hwf]. exact (proj1 (abs_run ex_cfg _ Hw Hwf)).
Qed.

Lemma delete_step_exact : forall (c : cfg) (s : state) mint maxt sel,
  wf_cfg c -> inv c s -> wf_delete (s_head s) mint maxt sel ->
  inv c (delete mint maxt sel s) /\
  sequiv (abs (delete mint maxt sel s)) (spec_step (abs s) (SDelete mint maxt sel)).
Proof.
  intros c s mint maxt sel Hw Hi Hd.
  exact (step_refines c s (Delete mint maxt sel) Hw Hi Hd).
Qed.

Lemma ex_all :
  (wf_cfg ex_cfg /\ wf_ops ex_cfg state0 (ex_ops1 ++ Delete 120 1750 [0; 1] :: ex_ops2)) /\
  forallb is_maint ex_ops2 = true /\
  dead_covered (run ex_cfg (ex_ops1 ++ Delete 120 1750 [0; 1] :: ex_ops2)) /\
  query (run ex_cfg (ex_ops1 ++ Delete 120 1750 [0; 1] :: ex_ops2)) minInt64 maxInt64 [0; 1]
    = [(0, [(-1500, [1]); (2700, [8])]); (1, [(1800, [7])])] /\
  spec_query (spec_run (map spec_of_op ex_ops1)) minInt64 maxInt64 [0; 1]
    = [(0, [(-1500, [1]); (900, [3]); (1700, [6]); (2700, [8])]); (1, [(150, [2]); (400, [5]); (950, [4]); (1800, [7])])].
Proof.
  split; [exact ex_wf|]. split; [reflexivity|]. split; [exact ex_dead_covered|].
  vm_compute. split; reflexivity.
Qed.

Lemma acked_in_map_commit (ops : list op) i x :
  acked_in (map spec_of_op ops) i x ->
  exists l lg f, In (Commit l lg f) ops /\ In (i, x) (map (fun a => (fst (fst a), snd (fst a))) l).
Proof.
  intros [l [Hin Hx]]. apply in_map_iff in Hin. destruct Hin as [o [Ho Hin]].
  destruct o as [l0 lg f| | | | | |]; try discriminate Ho.
  injection Ho as <-. exists l0, lg, f. split; assumption.
Qed.

Lemma no_resurrection_history_partial : forall (c : cfg) (ops1 ops2 : list op) mint maxt sel,
  wf_cfg c -> wf_ops c state0 (ops1 ++ Delete mint maxt sel :: ops2) ->
  dead_covered (run c (ops1 ++ Delete mint maxt sel :: ops2)) ->
  forall qmin qmax qsel i pts t vs v,
    In (i, pts) (query (run c (ops1 ++ Delete mint maxt sel :: ops2)) qmin qmax qsel) ->
    In i sel -> In (t, vs) pts -> mint <= t <= maxt -> In v vs ->
    exists l lg f, In (Commit l lg f) ops2 /\ In (i, mkS t v) (map (fun a => (fst (fst a), snd (fst a))) l).
Proof.
  intros c ops1 ops2 mint maxt sel Hw Hwf Hdc qmin qmax qsel i pts t vs v Hin Hsel Hpt Hr Hv.
  pose proof (refinement_partial c _ Hw Hwf Hdc qmin qmax qsel) as He.
  (* the entry and the point have counterparts in the specification's answer *)
  destruct (Forall2_in_l _ _ _ _ He Hin) as [[j pts'] [Hin' [Ej Hpe]]]. cbn in Ej, Hpe. subst j.
  destruct (Forall2_in_l _ _ _ _ Hpe Hpt) as [[u vs'] [Hpt' [Eu Hvs]]]. cbn in Eu, Hvs. subst u.
  destruct (spec_query_exact _ _ _ _ _ _ Hin') as (_ & _ & _ & Hex & _).
  destruct (Hex t vs' Hpt') as (_ & _ & Hlive).
  assert (Hx : In (mkS t v) (spec_run (map spec_of_op (ops1 ++ Delete mint maxt sel :: ops2)) i)).
  { apply Hlive, Hvs, Hv. }
  rewrite map_app in Hx. cbn [map spec_of_op] in Hx.
  apply acked_in_map_commit.
  exact (no_resurrection_spec _ _ mint maxt sel i (mkS t v) Hx Hsel Hr).
Qed.

(** * The hypothesis dead_covered cannot be dropped: a FINDING on the code as it is.
    Series 1 has -707, -498, 0 in ONE head chunk (rangeForTimestamp(-707) = 1000 by truncating
    division, so the chunk straddles 0); Delete(-707,-707); the head compaction writes block
    [-1000,0) without -707, truncates the head to 0, Head.gc drops the tombstone
    (MemTombstones.TruncateBefore(0)) but keeps the chunk, and the head querier (no floor at
    Head.MinTime) returns -707 again.  Replayed on the real tsdb.DB by the harness
    (C20_FINDINGS=1, corpus finding-head-compaction-resurrects-deleted-sample...). *)
Definition rf_cfg : cfg := mkCfg 1000 0 [0; 1].
Definition rf_ops1 : list op :=
  [ cmc [0] [io 0 (-1000) 1]; cmc [1] [io 1 (-707) 2]; cm [io 1 (-498) 3; io 1 0 4]; cm [io 0 503 5] ].
Definition rf_ops2 : list op := [ Compact ].

Lemma rf_wf : wf_cfg rf_cfg /\ wf_ops rf_cfg state0 (rf_ops1 ++ Delete (-707) (-707) [1] :: rf_ops2).
Proof. split; [reflexivity | apply wf_opsb_sound; vm_compute; reflexivity]. Qed.

Lemma delete_history_refuted :
  exists (c : cfg) (ops1 ops2 : list op) mint maxt sel,
    wf_cfg c /\ wf_ops c state0 (ops1 ++ Delete mint maxt sel :: ops2) /\ forallb is_maint ops2 = true /\
    ~ answer_equiv (query (run c (ops1 ++ Delete mint maxt sel :: ops2)) minInt64 maxInt64 [0; 1])
                   (del_answer mint maxt sel (spec_query (spec_run (map spec_of_op ops1)) minInt64 maxInt64 [0; 1])).
Proof.
  exists rf_cfg, rf_ops1, rf_ops2, (-707), (-707), [1].
  destruct rf_wf as [Hw Hwf]. split; [exact Hw|]. split; [exact Hwf|]. split; [reflexivity|].
  intros H. apply answer_equiv_shape in H. vm_compute in H. discriminate.
Qed.

Lemma rf_detail :
  shape (query (run rf_cfg (rf_ops1 ++ Delete (-707) (-707) [1] :: rf_ops2)) minInt64 maxInt64 [0; 1])
    = [(0, [-1000; 503]); (1, [-707; -498; 0])] /\
  shape (query (run rf_cfg (rf_ops1 ++ [Delete (-707) (-707) [1]])) minInt64 maxInt64 [0; 1])
    = [(0, [-1000; 503]); (1, [-498; 0])].
Proof. vm_compute. split; reflexivity. Qed.
