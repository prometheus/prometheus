(* proof/LabelsXProofs.v — proofs about model/LabelsX.v (C39): the stringlabels encoding represents entry
   lists faithfully (Range, Len, Get, Has, the merge of Builder.Labels on raw bytes); slicelabels'
   Builder (Set/Del/Keep/Labels) simulates a finite map; Sort and New give the canonical list. *)
From Coq Require Import List ZArith Bool Lia.
From Verif Require Import lib.SortedList lib.LexOrder model.LabelsX.
Import ListNotations.
Open Scope Z_scope.

(* str_cmp and str_ltb are lex_cmp and lex_ltb over Z.compare *)
Lemma str_cmp_eq a b : str_cmp a b = Eq <-> a = b.
Proof. exact (lex_cmp_eq Z.compare Z.compare_eq_iff a b). Qed.
Lemma str_cmp_refl a : str_cmp a a = Eq.
Proof. apply str_cmp_eq. reflexivity. Qed.
Lemma str_cmp_antisym a b : str_cmp b a = CompOpp (str_cmp a b).
Proof. exact (lex_cmp_antisym Z.compare Z.compare_antisym a b). Qed.
Lemma str_ltb_irrefl a : str_ltb a a = false.
Proof. exact (lex_ltb_irrefl Z.compare Z.compare_eq_iff a). Qed.
Lemma str_ltb_trans a b c : str_ltb a b = true -> str_ltb b c = true -> str_ltb a c = true.
Proof. exact (lex_ltb_trans Z.compare Z.compare_eq_iff Z.lt_trans a b c). Qed.
Lemma str_ltb_asym a b : str_ltb a b = true -> str_ltb b a = false.
Proof. exact (lex_ltb_asym Z.compare Z.compare_antisym a b). Qed.
Lemma str_ltb_total a b : str_ltb a b = false -> str_ltb b a = false -> a = b.
Proof. exact (lex_ltb_total Z.compare Z.compare_eq_iff Z.compare_antisym a b). Qed.

Lemma str_eqb_eq a b : str_eqb a b = true <-> a = b.
Proof. rewrite <- str_cmp_eq. unfold str_eqb. destruct (str_cmp a b); split; congruence. Qed.
Lemma str_eqb_refl a : str_eqb a a = true.
Proof. apply str_eqb_eq. auto. Qed.
Lemma str_eqb_neq a b : str_eqb a b = false <-> a <> b.
Proof. rewrite <- str_eqb_eq. destruct (str_eqb a b); split; congruence. Qed.
Lemma str_eqb_sym a b : str_eqb a b = str_eqb b a.
Proof. unfold str_eqb. rewrite (str_cmp_antisym a b). destruct (str_cmp a b); auto. Qed.
Lemma str_eqb_spec a b : reflect (a = b) (str_eqb a b).
Proof. apply iff_reflect. symmetry. apply str_eqb_eq. Qed.

Lemma str_total a b : str_ltb a b = false -> str_eqb a b = false -> str_ltb b a = true.
Proof. unfold str_ltb, str_eqb. rewrite (str_cmp_antisym a b). destruct (str_cmp a b); simpl; congruence. Qed.
Lemma str_ltb_neq a b : str_ltb a b = true -> str_eqb a b = false.
Proof. unfold str_ltb, str_eqb. destruct (str_cmp a b); congruence. Qed.
(* the first byte decides when it differs: Get/Has' early exit *)
Lemma first_byte_gt c k n0 t : c > n0 -> str_ltb (n0 :: t) (c :: k) = true.
Proof. intros H. unfold str_ltb. simpl. assert (n0 ?= c = Lt) as -> by (apply Z.compare_lt_iff; lia). auto. Qed.
Lemma first_byte_ne c k n0 t : c <> n0 -> str_eqb (c :: k) (n0 :: t) = false.
Proof. intros H. apply str_eqb_neq. congruence. Qed.

(* pure encoders, equal to the res-valued ones below 2^24 *)
Definition esz (v : Z) : str :=
  if v <? 255 then [v] else [255; v mod 256; (v / 256) mod 256; (v / 65536) mod 256].
Definition enc_str (s : str) : str := esz (zlen s) ++ s.
Definition enc_label (l : label) : str := enc_str (fst l) ++ enc_str (snd l).
Definition enc (ls : list label) : str := flat_map enc_label ls.

Definition short (s : str) : Prop := zlen s < two24.
Definition all_short (ls : list label) : Prop := Forall (fun l : label => short (fst l) /\ short (snd l)) ls.

Ltac lia2 := unfold short in *; unfold two24, zlen, label, str in *; lia.

Lemma zlen_nonneg {A} (l : list A) : 0 <= zlen l.
Proof. unfold zlen. lia. Qed.

Lemma encode_size_esz v : v < two24 -> encode_size v = Ok (esz v).
Proof.
  intros H. unfold encode_size, encode_size_gen, esz. destruct (v <? 255); auto.
  destruct (Z.ltb_spec v two24); auto. lia2.
Qed.
Lemma encode_size_old_esz v : v <= two24 -> encode_size_old v = Ok (esz v).
Proof.
  intros H. unfold encode_size_old, encode_size_gen, esz. destruct (v <? 255); auto.
  destruct (Z.leb_spec v two24); auto. lia2.
Qed.
(* the fixed code rejects every length the three size bytes cannot hold *)
Lemma encode_size_too_long v : two24 <= v -> encode_size v = Panic.
Proof.
  intros H. unfold encode_size, encode_size_gen.
  destruct (Z.ltb_spec v 255); [lia2|]. destruct (Z.ltb_spec v two24); [lia2|]. reflexivity.
Qed.
Lemma encode_str_too_long s : two24 <= zlen s -> encode_str s = Panic.
Proof. intros H. unfold encode_str. rewrite encode_size_too_long by auto. reflexivity. Qed.
Lemma encode_str_enc s : zlen s < two24 -> encode_str s = Ok (enc_str s).
Proof. intros H. unfold encode_str. rewrite encode_size_esz by auto. reflexivity. Qed.
Lemma encode_label_short l : short (fst l) /\ short (snd l) -> encode_label l = Ok (enc_label l).
Proof. intros [H1 H2]. unfold encode_label. rewrite !encode_str_enc by assumption. reflexivity. Qed.
Lemma encode_labels_enc ls : all_short ls -> encode_labels ls = Ok (enc ls).
Proof.
  induction 1 as [|l ls Hl _ IH]; simpl; auto.
  rewrite (encode_label_short l Hl), IH. reflexivity.
Qed.

Lemma decode_size_esz v r : 0 <= v < two24 -> decode_size (esz v ++ r) = Ok (v, r).
Proof.
  intros H. unfold esz. destruct (Z.ltb_spec v 255).
  - simpl. destruct (Z.eqb_spec v 255); [lia|]. reflexivity.
  - cbn [app decode_size]. rewrite Z.eqb_refl. f_equal. f_equal.
    unfold two24 in H. rewrite (Z.mod_small (v / 65536) 256) by (split; [apply Z.div_pos; lia | apply Z.div_lt_upper_bound; lia]).
    pose proof (Z.div_mod v 256 ltac:(lia)). pose proof (Z.div_mod (v / 256) 256 ltac:(lia)).
    assert (v / 65536 = v / 256 / 256) by (rewrite Z.div_div by lia; reflexivity). lia.
Qed.

Lemma take_app s r : take (zlen s) (s ++ r) = Ok (s, r).
Proof.
  unfold take, zlen. rewrite app_length, Nat2Z.id.
  destruct (Z.ltb_spec (Z.of_nat (length s + length r)) (Z.of_nat (length s))); [lia|].
  rewrite firstn_app, Nat.sub_diag, firstn_all, skipn_app, Nat.sub_diag, skipn_all. simpl. rewrite app_nil_r. reflexivity.
Qed.
Lemma skip_app s r : skip (zlen s) (s ++ r) = r.
Proof. unfold skip, zlen. rewrite Nat2Z.id, skipn_app, Nat.sub_diag, skipn_all. reflexivity. Qed.

Lemma decode_string_enc s r : short s -> decode_string (enc_str s ++ r) = Ok (s, r).
Proof.
  intros H. unfold decode_string, enc_str. rewrite <- app_assoc, decode_size_esz by (pose proof (zlen_nonneg s); lia2).
  simpl. apply take_app.
Qed.

Lemma esz_nonempty v : esz v <> [].
Proof. unfold esz. destruct (v <? 255); discriminate. Qed.
Lemma esz_length v : (1 <= length (esz v))%nat.
Proof. unfold esz. destruct (v <? 255); simpl; lia. Qed.
Lemma enc_str_length s : (length s + 1 <= length (enc_str s))%nat.
Proof. unfold enc_str. rewrite app_length. pose proof (esz_length (zlen s)). lia. Qed.
Lemma enc_label_length l : (2 <= length (enc_label l))%nat.
Proof. unfold enc_label. rewrite app_length. pose proof (enc_str_length (fst l)). pose proof (enc_str_length (snd l)). lia. Qed.
Lemma enc_cons l ls : enc (l :: ls) = enc_str (fst l) ++ enc_str (snd l) ++ enc ls.
Proof. unfold enc. simpl. unfold enc_label. rewrite app_assoc. reflexivity. Qed.
(* the loops over the encoded data: with one more label in front the data is not empty, and fuel that
   suffices for it leaves enough for the rest after one round *)
Lemma enc_step l ls fuel : (length (enc (l :: ls)) <= fuel)%nat ->
  exists x d f, enc (l :: ls) = x :: d /\ fuel = S f /\ (length (enc ls) <= f)%nat.
Proof.
  rewrite enc_cons, !app_length. pose proof (enc_str_length (fst l)). pose proof (enc_str_length (snd l)).
  intros Hf. unfold enc_str at 1. destruct (esz (zlen (fst l))) eqn:E; [destruct (esz_nonempty _ E)|].
  destruct fuel as [|f]; [lia|]. simpl. eexists _, _, f. repeat split. lia.
Qed.

(* abs o repr = id: iterating the encoded form yields exactly the entries *)
Lemma st_range_enc ls : all_short ls -> forall fuel, (length (enc ls) <= fuel)%nat -> st_range_f fuel (enc ls) = Ok ls.
Proof.
  induction 1 as [|l ls [H1 H2] Hs IH]; intros fuel Hf.
  - destruct fuel; reflexivity.
  - destruct (enc_step l ls fuel Hf) as (x & d & f & E & -> & Hl).
    rewrite E. cbn [st_range_f]. rewrite <- E, enc_cons.
    rewrite decode_string_enc by auto. cbn [bind]. rewrite decode_string_enc by auto. cbn [bind].
    rewrite IH by lia. destruct l; reflexivity.
Qed.

Lemma range_of_new_labels ls d : all_short ls -> encode_labels ls = Ok d -> st_range d = Ok ls.
Proof.
  intros H E. rewrite encode_labels_enc in E by auto. inversion E; subst. apply st_range_enc; auto.
Qed.

(* injectivity of the representation: data equality is label-list equality *)
Lemma enc_inj a b : all_short a -> all_short b -> enc a = enc b -> a = b.
Proof.
  intros Ha Hb E. pose proof (st_range_enc a Ha _ (Nat.le_refl _)) as R1.
  pose proof (st_range_enc b Hb _ (Nat.le_refl _)) as R2. rewrite E in R1. congruence.
Qed.

Lemma st_len_enc ls : all_short ls -> forall fuel c, (length (enc ls) <= fuel)%nat -> st_len_f fuel (enc ls) c = Ok (c + zlen ls).
Proof.
  induction 1 as [|l ls [H1 H2] Hs IH]; intros fuel c Hf.
  - destruct fuel; simpl; f_equal; unfold zlen; simpl; lia.
  - destruct (enc_step l ls fuel Hf) as (x & d & f & E & -> & Hl).
    rewrite E. cbn [st_len_f]. rewrite <- E, enc_cons. unfold enc_str. rewrite <- !app_assoc.
    unfold short in *. pose proof (zlen_nonneg (fst l)). pose proof (zlen_nonneg (snd l)).
    rewrite decode_size_esz by lia2. cbn [bind]. rewrite skip_app, decode_size_esz by lia2. cbn [bind].
    rewrite skip_app, IH by lia. f_equal. unfold zlen. simpl length. lia.
Qed.

(* the 2^24 boundary in the code before the fix: sizeWhenEncoded accepted a length that
   encodeSize cannot write *)
Lemma len_2pow24_corrupts s r : zlen s = two24 ->
  encode_str_old s = Ok (enc_str s) /\ decode_string (enc_str s ++ r) = Ok ([], s ++ r).
Proof.
  intros H. split; [unfold encode_str_old; rewrite encode_size_old_esz by lia2; reflexivity|].
  unfold decode_string, enc_str. rewrite H, <- app_assoc. change (esz two24) with [255; 0; 0; 0].
  cbn [app decode_size Z.eqb Pos.eqb bind Z.mul Z.add]. unfold take.
  destruct (Z.ltb_spec (zlen (s ++ r)) 0); [pose proof (zlen_nonneg (s ++ r)); lia|]. reflexivity.
Qed.

Fixpoint lkp (ls : list label) (n : str) : option str :=
  match ls with [] => None | (k, v) :: t => if str_eqb k n then Some v else lkp t n end.
Fixpoint find_tail (ls : list label) (n : str) : option str :=
  match ls with [] => None | (k, v) :: t => if str_eqb k n then Some (enc_str v ++ enc t) else find_tail t n end.

Lemma sorted_tail a t : strictly_sorted (a :: t) = true -> strictly_sorted t = true.
Proof. destruct t; simpl; auto. intros H. apply andb_prop in H. tauto. Qed.
Lemma sorted_head a b t : strictly_sorted (a :: b :: t) = true -> str_ltb (fst a) (fst b) = true.
Proof. simpl. intros H. apply andb_prop in H. tauto. Qed.

Lemma sorted_gt_lkp ls : forall name, strictly_sorted ls = true ->
  match ls with [] => True | a :: _ => str_ltb name (fst a) = true end -> lkp ls name = None /\ find_tail ls name = None.
Proof.
  induction ls as [|[k v] t IH]; intros name Hs Hlt; simpl; auto.
  simpl in Hlt. rewrite str_eqb_sym, (str_ltb_neq _ _ Hlt).
  apply IH; [eapply sorted_tail; eauto|]. destruct t as [|b t']; auto.
  apply sorted_head in Hs. simpl in Hs. eapply str_ltb_trans; eauto.
Qed.

Lemma st_find_enc ls n0 nt : all_short ls -> nonempty_names ls = true -> strictly_sorted ls = true ->
  forall fuel, (length (enc ls) <= fuel)%nat ->
  st_find_f fuel (enc ls) (n0 :: nt) n0 = Ok (find_tail ls (n0 :: nt)).
Proof.
  induction 1 as [|l ls [H1 H2] Hs IH]; intros Hne Hso fuel Hf.
  - destruct fuel; reflexivity.
  - destruct (enc_step l ls fuel Hf) as (x & d & f & E & -> & Hl).
    rewrite E. cbn [st_find_f]. rewrite <- E, enc_cons. destruct l as [k v]. cbn [fst snd] in *.
    simpl in Hne. destruct k as [|c k']; [discriminate|].
    unfold enc_str at 1. rewrite <- app_assoc.
    pose proof (zlen_nonneg (c :: k')). rewrite decode_size_esz by lia2. cbn [bind].
    change ((c :: k') ++ enc_str v ++ enc ls) with (c :: (k' ++ enc_str v ++ enc ls)). cbv iota beta.
    change (c :: (k' ++ enc_str v ++ enc ls)) with ((c :: k') ++ enc_str v ++ enc ls).
    pose proof (sorted_tail _ _ Hso) as Hso'.
    cbn [find_tail].
    destruct (Z.eqb_spec c n0) as [->|Hc].
    + rewrite take_app. cbn [bind]. destruct (str_eqb (n0 :: k') (n0 :: nt)); [reflexivity|].
      unfold enc_str at 1. rewrite <- app_assoc. pose proof (zlen_nonneg v).
      rewrite decode_size_esz by lia2. cbn [bind]. rewrite skip_app. apply IH; auto; lia.
    + rewrite (first_byte_ne c k' n0 nt Hc).
      destruct (Z.gtb_spec c n0) as [Hgt|Hle].
      * f_equal. symmetry. apply sorted_gt_lkp; auto. destruct ls as [|b t]; auto.
        apply sorted_head in Hso. simpl in Hso. eapply str_ltb_trans; [|exact Hso]. apply first_byte_gt. lia.
      * rewrite skip_app. unfold enc_str at 1. rewrite <- app_assoc. pose proof (zlen_nonneg v).
        rewrite decode_size_esz by lia2. cbn [bind]. rewrite skip_app. apply IH; auto; lia.
Qed.

Lemma find_tail_lkp ls name : all_short ls ->
  match find_tail ls name with
  | Some r1 => exists v r, lkp ls name = Some v /\ decode_string r1 = Ok (v, r)
  | None => lkp ls name = None
  end.
Proof.
  induction 1 as [|[k v] ls [H1 H2] Hs IH]; simpl; auto.
  destruct (str_eqb k name); auto. exists v, (enc ls). split; auto. apply decode_string_enc; auto.
Qed.

(* Get / Has on the encoded form are the map's lookup *)
Lemma lkp_empty_name ls : nonempty_names ls = true -> lkp ls [] = None.
Proof.
  induction ls as [|[k v] t IH]; simpl; auto. destruct k; [discriminate|]. exact IH.
Qed.

Lemma st_lookup_enc ls name : all_short ls -> nonempty_names ls = true -> strictly_sorted ls = true ->
  st_get (enc ls) name = Ok (match lkp ls name with Some v => v | None => [] end) /\
  st_has (enc ls) name = Ok (match lkp ls name with Some _ => true | None => false end).
Proof.
  intros Hs Hne Hso. destruct name as [|n0 nt]; [simpl; rewrite lkp_empty_name; auto|].
  unfold st_get, st_has. rewrite st_find_enc by auto. cbn [bind].
  pose proof (find_tail_lkp ls (n0 :: nt) Hs) as F. destruct (find_tail ls (n0 :: nt)).
  - destruct F as (v & r & -> & ->). split; reflexivity.
  - rewrite F. split; reflexivity.
Qed.

Lemma enc_app a b : enc (a ++ b) = enc a ++ enc b.
Proof. unfold enc. apply flat_map_app. Qed.
Lemma enc_one l : enc [l] = enc_label l.
Proof. unfold enc. simpl. apply app_nil_r. Qed.
Lemma all_short_tail l ls : all_short (l :: ls) -> all_short ls.
Proof. intros H. inversion H; auto. Qed.

Lemma emit_lt_enc ad : all_short ad -> forall n buf,
  emit_lt ad n (enc buf) = Ok (fst (ll_emit_lt ad n buf), enc (snd (ll_emit_lt ad n buf)))
  /\ all_short (fst (ll_emit_lt ad n buf)).
Proof.
  induction 1 as [|x t Hx Ht IH]; intros n buf; simpl.
  - split; auto. constructor.
  - destruct (str_ltb (fst x) n).
    + rewrite encode_label_short by auto. cbn [bind]. rewrite <- enc_one, <- enc_app. apply IH.
    + split; auto. constructor; auto.
Qed.
Lemma emit_all_enc ad : all_short ad -> forall buf, emit_all ad (enc buf) = Ok (enc (buf ++ ad)).
Proof.
  induction 1 as [|x t Hx Ht IH]; intros buf; simpl.
  - rewrite app_nil_r. auto.
  - rewrite encode_label_short by auto. cbn [bind]. rewrite <- enc_one, <- enc_app, IH, <- app_assoc. reflexivity.
Qed.

Lemma raw_copy k v rest : firstn (length (enc ((k, v) :: rest)) - length (enc rest)) (enc ((k, v) :: rest)) = enc_label (k, v).
Proof.
  change ((k, v) :: rest) with ([(k, v)] ++ rest). rewrite enc_app, enc_one, app_length.
  replace (length (enc_label (k, v)) + length (enc rest) - length (enc rest))%nat with (length (enc_label (k, v)) + 0)%nat by lia.
  rewrite firstn_app_2. simpl. apply app_nil_r.
Qed.

Lemma st_merge_enc base : all_short base -> forall dl ad buf fuel, all_short ad -> (length (enc base) <= fuel)%nat ->
  st_merge_f fuel (enc base) dl ad (enc buf) = Ok (enc (dd_merge base dl ad buf)).
Proof.
  induction 1 as [|[k v] rest [H1 H2] Hs IH]; intros dl ad buf fuel Had Hf.
  - destruct fuel; simpl; apply emit_all_enc; auto.
  - destruct (enc_step (k, v) rest fuel Hf) as (x & d & f & E & -> & Hl).
    rewrite E. cbn [st_merge_f]. rewrite <- E. rewrite enc_cons at 1. cbn [fst snd] in *.
    rewrite decode_string_enc by auto. cbn [bind]. rewrite decode_string_enc by auto. cbn [bind].
    cbn [dd_merge].
    destruct (match drop_lt dl k with x0 :: _ => str_eqb x0 k | [] => false end).
    + apply IH; auto; lia.
    + destruct (emit_lt_enc ad Had k buf) as [-> Had'].
      destruct (ll_emit_lt ad k buf) as [ad' buf'] eqn:El. cbn [fst snd bind] in *.
      rewrite raw_copy.
      destruct ad' as [|y ad''].
      * rewrite <- enc_one, <- enc_app. apply IH; auto; lia.
      * destruct (str_eqb (fst y) k).
        -- inversion Had'; subst. rewrite encode_label_short by auto. cbn [bind].
           rewrite <- enc_one, <- enc_app. apply IH; auto; lia.
        -- rewrite <- enc_one, <- enc_app. apply IH; auto; lia.
Qed.

Lemma ins_in x l y : In y (ins x l) <-> x = y \/ In y l.
Proof.
  induction l as [|z t IH]; cbn [ins]; [reflexivity|]. destruct (str_ltb (fst x) (fst z)); [reflexivity|].
  cbn [In]. rewrite IH. split; intros [H|[H|H]]; auto.
Qed.
Lemma sort_labels_in l x : In x (sort_labels l) <-> In x l.
Proof.
  unfold sort_labels.
  assert (G : forall l acc, In x (fold_left (fun acc y => ins y acc) l acc) <-> In x l \/ In x acc).
  { induction l0 as [|y t IH]; intros acc; simpl; [tauto|]. rewrite IH, ins_in. tauto. }
  rewrite G. simpl. tauto.
Qed.
Lemma sort_labels_short ls : all_short ls -> all_short (sort_labels ls).
Proof. unfold all_short. rewrite !Forall_forall. intros H x Hx. apply H, sort_labels_in, Hx. Qed.

(* Builder.Labels of the stringlabels build on an encoded base = encoding of the entry-level merge *)
Lemma st_blabels_enc base add del : all_short base -> all_short add ->
  st_blabels (enc base) add del = Ok (enc (dd_blabels base add del)).
Proof.
  intros Hb Ha. unfold st_blabels, dd_blabels.
  destruct del, add; auto; rewrite encode_labels_enc by auto; cbn [bind];
    change (@nil Z) with (enc []); apply st_merge_enc; auto; apply sort_labels_short; auto.
Qed.

Lemma mem_app k a b : mem k (a ++ b) = mem k a || mem k b.
Proof. unfold mem. apply existsb_app. Qed.
Lemma has_name_app k a b : has_name k (a ++ b) = has_name k a || has_name k b.
Proof. unfold has_name. apply existsb_app. Qed.
Lemma has_name_cons k x l : has_name k (x :: l) = str_eqb (fst x) k || has_name k l.
Proof. reflexivity. Qed.
Lemma mem_in k l : mem k l = true <-> In k l.
Proof. apply (existsb_eqb_In str_eqb str_eqb_eq). Qed.
Lemma has_name_in k l : has_name k l = true <-> In k (map fst l).
Proof.
  unfold has_name. rewrite existsb_exists, in_map_iff. split; intros (x & H1 & H2); exists x.
  - apply str_eqb_eq in H2. auto.
  - split; [exact H2|]. apply str_eqb_eq. exact H1.
Qed.
Lemma lkp_none ls k : has_name k ls = false -> lkp ls k = None.
Proof.
  induction ls as [|[n v] t IH]; simpl; auto. intros H. apply orb_false_elim in H. destruct H as [-> H]. auto.
Qed.
Lemma lkp_some ls k : has_name k ls = true -> exists v, lkp ls k = Some v.
Proof.
  induction ls as [|[n v] t IH]; simpl; [discriminate|]. destruct (str_eqb n k); eauto.
Qed.
Lemma lkp_app a b k : lkp (a ++ b) k = match lkp a k with Some v => Some v | None => lkp b k end.
Proof. induction a as [|[n v] t IH]; simpl; auto. destruct (str_eqb n k); auto. Qed.
Lemma has_name_lkp ls k : has_name k ls = match lkp ls k with Some _ => true | None => false end.
Proof. induction ls as [|[n v] t IH]; simpl; auto. destruct (str_eqb n k); auto. Qed.

Lemma has_name_ins k x l : has_name k (ins x l) = str_eqb (fst x) k || has_name k l.
Proof.
  induction l as [|y t IH]; simpl; auto. destruct (str_ltb (fst x) (fst y)); simpl; auto.
  rewrite IH. destruct (str_eqb (fst x) k), (str_eqb (fst y) k); auto.
Qed.
Lemma lkp_ins k x l : has_name (fst x) l = false ->
  lkp (ins x l) k = if str_eqb (fst x) k then Some (snd x) else lkp l k.
Proof.
  destruct x as [n v]. cbn [fst snd]. induction l as [|[m w] t IH]; simpl; auto. intros H.
  apply orb_false_elim in H. destruct H as [Hm H]. cbn [fst].
  destruct (str_ltb n m); simpl; auto. rewrite IH by auto.
  destruct (str_eqb n k) eqn:E1, (str_eqb m k) eqn:E2; auto.
  apply str_eqb_eq in E1, E2. subst. rewrite str_eqb_refl in Hm. discriminate.
Qed.
Lemma ins_sorted x l : strictly_sorted l = true -> has_name (fst x) l = false -> strictly_sorted (ins x l) = true.
Proof.
  induction l as [|y t IH]; intros Hs Hn; simpl; auto.
  rewrite has_name_cons in Hn. apply orb_false_elim in Hn. destruct Hn as [Hy Hn].
  destruct (str_ltb (fst x) (fst y)) eqn:E.
  - change (str_ltb (fst x) (fst y) && strictly_sorted (y :: t) = true). rewrite E, Hs. auto.
  - assert (Hyx : str_ltb (fst y) (fst x) = true) by (apply str_total; auto; rewrite str_eqb_sym; auto).
    pose proof (IH (sorted_tail _ _ Hs) Hn) as IH'.
    destruct t as [|z t']; simpl.
    + rewrite Hyx. auto.
    + simpl in IH'. destruct (str_ltb (fst x) (fst z)) eqn:E2.
      * rewrite Hyx. exact IH'.
      * rewrite (sorted_head _ _ _ Hs). exact IH'.
Qed.

Lemma sort_fold l : forall acc, nodup_names l = true -> strictly_sorted acc = true ->
  (forall k, has_name k l = true -> has_name k acc = false) ->
  let r := fold_left (fun acc x => ins x acc) l acc in
  strictly_sorted r = true /\
  (forall k, lkp r k = match lkp l k with Some v => Some v | None => lkp acc k end).
Proof.
  induction l as [|x t IH]; intros acc Hnd Hs Hdis r; subst r.
  - simpl. auto.
  - cbn [fold_left]. simpl in Hnd. apply andb_prop in Hnd. destruct Hnd as [Hx Hnd]. apply negb_true_iff in Hx.
    assert (Hxa : has_name (fst x) acc = false) by (apply Hdis; rewrite has_name_cons, str_eqb_refl; auto).
    destruct (IH (ins x acc) Hnd (ins_sorted x acc Hs Hxa)) as (S1 & S2).
    { intros k Hk. rewrite has_name_ins. rewrite Hdis by (rewrite has_name_cons, Hk; apply orb_true_r).
      destruct (str_eqb (fst x) k) eqn:E; auto. apply str_eqb_eq in E. subst. congruence. }
    split; [exact S1|]. intros k.
    rewrite S2, lkp_ins by auto. destruct x as [n v]. cbn [fst snd lkp] in *.
    destruct (str_eqb n k) eqn:E; auto. apply str_eqb_eq in E. subst. rewrite (lkp_none t k Hx). auto.
Qed.

Lemma sort_labels_spec l : nodup_names l = true ->
  strictly_sorted (sort_labels l) = true /\ (forall k, lkp (sort_labels l) k = lkp l k) /\
  (forall k, has_name k (sort_labels l) = has_name k l).
Proof.
  intros H. destruct (sort_fold l [] H eq_refl (fun _ _ => eq_refl)) as (A & B). unfold sort_labels.
  assert (B' : forall k, lkp (fold_left (fun acc x => ins x acc) l []) k = lkp l k).
  { intros k. rewrite B. destruct (lkp l k); auto. }
  split; auto. split; auto. intros k. rewrite !has_name_lkp, B'. reflexivity.
Qed.

(* a strictly sorted list has unique names *)
Lemma sorted_lt_all a t : strictly_sorted (a :: t) = true -> forall k, has_name k t = true -> str_ltb (fst a) k = true.
Proof.
  revert a. induction t as [|b t IH]; intros a Hs k Hk; [discriminate|].
  rewrite has_name_cons in Hk. pose proof (sorted_head _ _ _ Hs) as Hab.
  destruct (str_eqb (fst b) k) eqn:E.
  - apply str_eqb_eq in E. subst. auto.
  - simpl in Hk. eapply str_ltb_trans; [exact Hab|]. apply IH; auto. eapply sorted_tail; eauto.
Qed.
Lemma sorted_nodup l : strictly_sorted l = true -> nodup_names l = true.
Proof.
  induction l as [|a t IH]; intros Hs; simpl; auto. rewrite (IH (sorted_tail _ _ Hs)), andb_true_r.
  apply negb_true_iff. destruct (has_name (fst a) t) eqn:E; auto.
  pose proof (sorted_lt_all a t Hs _ E) as H. rewrite str_ltb_irrefl in H. discriminate.
Qed.

Lemma sorted_cons_all (x : label) T : strictly_sorted T = true ->
  (forall k, has_name k T = true -> str_ltb (fst x) k = true) -> strictly_sorted (x :: T) = true.
Proof.
  intros Hs H. destruct T as [|y t]; auto.
  change (str_ltb (fst x) (fst y) && strictly_sorted (y :: t) = true). rewrite Hs, andb_true_r.
  apply H. rewrite has_name_cons, str_eqb_refl. auto.
Qed.

Lemma nodup_app a : forall b, nodup_names a = true -> nodup_names b = true ->
  (forall k, has_name k a = true -> has_name k b = false) -> nodup_names (a ++ b) = true.
Proof.
  induction a as [|x t IH]; intros b Na Nb D; simpl; auto.
  simpl in Na. apply andb_prop in Na. destruct Na as [N1 N2]. apply negb_true_iff in N1.
  rewrite has_name_app, N1, (D (fst x)) by (rewrite has_name_cons, str_eqb_refl; auto). simpl.
  apply IH; auto. intros k Hk. apply D. rewrite has_name_cons, Hk. apply orb_true_r.
Qed.

Lemma filter_sorted (p : label -> bool) l : strictly_sorted l = true -> strictly_sorted (filter p l) = true.
Proof.
  induction l as [|a t IH]; intros Hs; simpl; auto. pose proof (IH (sorted_tail _ _ Hs)) as IH'.
  destruct (p a); auto. destruct (filter p t) as [|b t'] eqn:E; auto.
  change (str_ltb (fst a) (fst b) && strictly_sorted (b :: t') = true). rewrite IH', andb_true_r.
  apply (sorted_lt_all a t Hs). assert (In b (filter p t)) as Hin by (rewrite E; left; auto).
  apply filter_In in Hin. apply has_name_in, in_map, Hin.
Qed.
Lemma lkp_filter (q : str -> bool) l k : lkp (filter (fun x => q (fst x)) l) k = if q k then lkp l k else None.
Proof.
  induction l as [|[n v] t IH]; simpl; [destruct (q k); auto|]. cbn [fst].
  destruct (q n) eqn:Q; simpl; destruct (str_eqb n k) eqn:E; auto;
    try (apply str_eqb_eq in E; subst; rewrite ?IH, ?Q; auto).
Qed.
Lemma has_name_filter (q : str -> bool) l k : has_name k (filter (fun x => q (fst x)) l) = q k && has_name k l.
Proof. rewrite !has_name_lkp, lkp_filter. destruct (q k); reflexivity. Qed.

Definition bst := bstate I_slice.
Definition mkBs (base : list label) (del : list str) (add : list label) : bst := mkB I_slice base del add.
Definition bbase (b : bst) : list label := b_base I_slice b.
Definition bdel (b : bst) : list str := b_del I_slice b.
Definition badd (b : bst) : list label := b_add I_slice b.
Definition no_empty_vals (l : list label) : bool := forallb (fun x => match snd x with [] => false | _ => true end) l.

(* the map that a base with deletions and additions denotes; for a Builder, with the names of its
   pending additions *)
Definition mspec (base : list label) (dl : list str) (ad : list label) (k : str) : option str :=
  if has_name k ad then lkp ad k else if mem k dl then None else lkp base k.
Definition bview (b : bst) : str -> option str := mspec (bbase b) (bdel b) (badd b).
Definition badded (b : bst) (k : str) : bool := has_name k (badd b).
Definition binv (b : bst) : Prop :=
  nodup_names (badd b) = true /\ no_empty_vals (badd b) = true /\ strictly_sorted (bbase b) = true /\
  (forall x, In x (bbase b) -> snd x = [] -> mem (fst x) (bdel b) = true).

Lemma forallb_sort (p : label -> bool) l : forallb p (sort_labels l) = forallb p l.
Proof.
  apply eq_true_iff_eq. rewrite !forallb_forall. split; intros H x Hx; apply H, sort_labels_in, Hx.
Qed.

Lemma sl_blabels_spec (b : bst) : binv b ->
  let r := sl_blabels (bbase b) (badd b) (bdel b) in
  strictly_sorted r = true /\ no_empty_vals r = true /\ forall k, lkp r k = bview b k.
Proof.
  destruct b as [base del add]. unfold binv, bview, mspec, bbase, badd, bdel. cbn [b_base b_del b_add].
  intros (Hnd & Hne & Hso & Hemp). unfold sl_blabels. cbv zeta.
  set (res := filter (fun l => negb (mem (fst l) del || has_name (fst l) add)) base).
  assert (Sres : strictly_sorted res = true) by (apply filter_sorted; auto).
  assert (Eres : no_empty_vals res = true).
  { apply forallb_forall. intros x Hx. apply filter_In in Hx. destruct Hx as [Hin Hp].
    destruct (snd x) eqn:E; auto. rewrite (Hemp x Hin E) in Hp. discriminate. }
  assert (Fin : forall k, (match lkp res k with Some v => Some v | None => lkp add k end)
                          = if has_name k add then lkp add k else if mem k del then None else lkp base k).
  { intros k. unfold res. rewrite (lkp_filter (fun n => negb (mem n del || has_name n add))).
    destruct (has_name k add) eqn:A.
    - rewrite orb_true_r. reflexivity.
    - rewrite orb_false_r, (lkp_none add k A). destruct (mem k del); simpl; auto. destruct (lkp base k); auto. }
  destruct add as [|a add'].
  - destruct del as [|d del'].
    + split; auto. split; [|reflexivity].
      apply forallb_forall. intros x Hx. destruct (snd x) eqn:E; auto. specialize (Hemp x Hx E). discriminate.
    + split; auto. split; auto. intros k. rewrite <- Fin. simpl. destruct (lkp res k); auto.
  - assert (ND : nodup_names (res ++ a :: add') = true).
    { apply nodup_app; auto using sorted_nodup. intros k Hk. unfold res in Hk.
      rewrite (has_name_filter (fun n => negb (mem n del || has_name n (a :: add')))) in Hk.
      apply andb_prop in Hk. destruct Hk as [Hk _]. apply negb_true_iff, orb_false_elim in Hk. tauto. }
    destruct (sort_labels_spec _ ND) as (S1 & S2 & _).
    destruct del; (split; [exact S1|]; split;
      [unfold no_empty_vals; rewrite forallb_sort, forallb_app; apply andb_true_intro; split; [exact Eres | exact Hne]
      |intros k; rewrite S2, lkp_app; apply Fin]).
Qed.

(* the specification: a map and the set of names with a pending addition *)
Definition upd {A} (f : str -> A) (n : str) (x : A) : str -> A := fun k => if str_eqb n k then x else f k.
Definition spec_state := ((str -> option str) * (str -> bool))%type.
Definition spec_del (s : spec_state) (n : str) : spec_state := (upd (fst s) n None, upd (snd s) n false).
Definition spec_step (s : spec_state) (o : op) : spec_state :=
  match o with
  | OBSet n [] => spec_del s n                                   (* Set(n, "") = Del(n) *)
  | OBSet n v => (upd (fst s) n (Some v), upd (snd s) n true)
  | OBDel ns => fold_left spec_del ns s
  | OBKeep ns => (fun k => if snd s k || mem k ns then fst s k else None, snd s)
  | _ => s
  end.
Definition spec_init (base : list label) : spec_state :=
  (fun k => match lkp base k with Some [] => None | o => o end, fun _ => false).

Definition b_keep_sl (b : bst) (ns : list str) : bst :=
  mkBs (bbase b) (bdel b ++ map fst (filter (fun l => negb (mem (fst l) ns)) (bbase b))) (badd b).
Definition b_reset_sl (base : list label) : bst :=
  mkBs base (map fst (filter (fun l => match snd l with [] => true | _ => false end) base)) [].
Definition bstep (b : bst) (o : op) : bst :=
  match o with
  | OBSet n v => b_set I_slice b n v
  | OBDel ns => b_delete I_slice b ns
  | OBKeep ns => b_keep_sl b ns
  | _ => b
  end.
Lemma b_keep_slice b ns : b_keep I_slice b ns = Ok (b_keep_sl b ns).
Proof. reflexivity. Qed.
Lemma b_reset_slice base : b_reset I_slice base = Ok (b_reset_sl base).
Proof. reflexivity. Qed.

Definition sim (b : bst) (s : spec_state) : Prop :=
  binv b /\ (forall k, bview b k = fst s k) /\ (forall k, badded b k = snd s k).

Lemma nodup_filter_q (q : str -> bool) l : nodup_names l = true -> nodup_names (filter (fun x => q (fst x)) l) = true.
Proof.
  induction l as [|x t IH]; simpl; auto. intros H. apply andb_prop in H. destruct H as [H1 H2].
  destruct (q (fst x)) eqn:Q; simpl; auto. rewrite IH by auto. rewrite andb_true_r.
  rewrite (has_name_filter q). apply negb_true_iff in H1. rewrite H1. rewrite andb_false_r. auto.
Qed.
Lemma no_empty_filter (p : label -> bool) l : no_empty_vals l = true -> no_empty_vals (filter p l) = true.
Proof.
  unfold no_empty_vals. intros H. apply forallb_forall. intros x Hx. apply filter_In in Hx.
  rewrite forallb_forall in H. apply H. tauto.
Qed.
Lemma mem_sym_cons k n l : mem k (n :: l) = str_eqb n k || mem k l.
Proof. unfold mem. simpl. rewrite str_eqb_sym. reflexivity. Qed.

Ltac unf := unfold sim, binv in *; unfold bview, mspec, badded, b_keep_sl, b_reset_sl in *; unfold mkBs in *;
  unfold bbase, bdel, badd in *; cbn [b_del1 b_set b_base b_del b_add spec_step spec_del spec_init fst snd] in *.

Lemma sim_del1 b s n : sim b s -> sim (b_del1 I_slice b n) (spec_del s n).
Proof.
  destruct b as [base del add]. intros ((Hnd & Hne & Hso & Hemp) & Hv & Ha).
  unf.
  pose proof (has_name_filter (fun m => negb (str_eqb m n)) add) as HF.
  pose proof (fun k => lkp_filter (fun m => negb (str_eqb m n)) add k) as LF. cbv beta in HF, LF.
  split; [|split].
  - split; [apply (nodup_filter_q (fun m => negb (str_eqb m n))); auto|].
    split; [apply no_empty_filter; auto|]. split; auto.
    intros x Hx E. rewrite mem_app, (Hemp x Hx E). auto.
  - intros k. rewrite HF, LF, mem_app. unfold upd. rewrite <- Hv. rewrite (str_eqb_sym n k).
    change (mem k [n]) with (str_eqb k n || false). destruct (str_eqb k n); simpl.
    + rewrite orb_true_r. reflexivity.
    + rewrite !orb_false_r. reflexivity.
  - intros k. rewrite HF. unfold upd. rewrite <- Ha, (str_eqb_sym n k). destruct (str_eqb k n); auto.
Qed.
Lemma sim_delete ns : forall b s, sim b s -> sim (b_delete I_slice b ns) (fold_left spec_del ns s).
Proof.
  unfold b_delete. induction ns as [|n t IH]; intros b s H; simpl; auto. apply IH. apply sim_del1; auto.
Qed.

Lemma set_in_none add n v : has_name n add = false -> set_in add n v = None.
Proof.
  induction add as [|a t IH]; simpl; auto. intros H. apply orb_false_elim in H. destruct H as [-> H].
  rewrite IH; auto.
Qed.
Lemma set_in_some add n v : has_name n add = true -> v <> [] -> nodup_names add = true -> no_empty_vals add = true ->
  exists add', set_in add n v = Some add' /\ (forall k, has_name k add' = has_name k add) /\
               (forall k, lkp add' k = if str_eqb n k then Some v else lkp add k) /\
               nodup_names add' = true /\ no_empty_vals add' = true.
Proof.
  intros H Hv. induction add as [|[m w] t IH]; simpl in *; [discriminate|]. intros Hnd Hne.
  apply andb_prop in Hnd, Hne. destruct Hnd as [N1 N2], Hne as [E1 E2]. cbn [fst snd] in *.
  destruct (str_eqb m n) eqn:E.
  - apply str_eqb_eq in E. subst m. exists ((n, v) :: t). split; auto. split; [intros k; reflexivity|].
    split; [intros k; simpl; destruct (str_eqb n k); auto|]. split; simpl; [rewrite N1, N2; auto|].
    cbn [snd]. rewrite E2. destruct v; [congruence|auto].
  - simpl in H. destruct (IH H N2 E2) as (t' & -> & A & B & C & D). exists ((m, w) :: t'). split; auto.
    split; [intros k; simpl; rewrite A; auto|].
    split; [intros k; simpl; rewrite B; destruct (str_eqb m k) eqn:E3, (str_eqb n k) eqn:E4; auto;
            apply str_eqb_eq in E3, E4; subst; rewrite str_eqb_refl in E; discriminate|].
    split; simpl; cbn [fst snd]; [rewrite A, N1, C; auto | rewrite E1, D; auto].
Qed.

Lemma sim_set b s n v : sim b s -> sim (b_set I_slice b n v) (spec_step s (OBSet n v)).
Proof.
  destruct v as [|c v']; [apply (sim_delete [n])|].
  destruct b as [base del add]. intros ((Hnd & Hne & Hso & Hemp) & Hv & Ha).
  unf.
  destruct (has_name n add) eqn:Hn.
  - destruct (set_in_some add n (c :: v') Hn ltac:(discriminate) Hnd Hne) as (add' & -> & A & B & C & D).
    cbn [b_base b_del b_add]. split; [|split].
    + repeat split; auto.
    + intros k. rewrite A, B. unfold upd. rewrite <- Hv. destruct (str_eqb n k) eqn:E; auto.
      apply str_eqb_eq in E. subst. rewrite Hn. auto.
    + intros k. rewrite A. unfold upd. rewrite <- Ha. destruct (str_eqb n k) eqn:E; auto.
      apply str_eqb_eq in E. subst. auto.
  - rewrite (set_in_none add n _ Hn). cbn [b_base b_del b_add]. split; [|split].
    + split.
      { apply nodup_app; auto. intros k Hk. simpl. rewrite orb_false_r. apply str_eqb_neq. intros <-. congruence. }
      split; [unfold no_empty_vals; rewrite forallb_app; apply andb_true_intro; split; [exact Hne | reflexivity]|]. split; auto.
    + intros k. rewrite has_name_app, lkp_app. unfold upd. rewrite <- Hv. simpl. rewrite orb_false_r.
      destruct (str_eqb n k) eqn:E.
      * apply str_eqb_eq in E. subst. rewrite Hn, (lkp_none add k Hn). simpl. auto.
      * rewrite orb_false_r. destruct (has_name k add) eqn:Hk; auto.
        destruct (lkp_some add k Hk) as (w & ->). auto.
    + intros k. rewrite has_name_app. unfold upd. rewrite <- Ha. simpl. rewrite orb_false_r.
      destruct (str_eqb n k); auto using orb_true_r, orb_false_r.
Qed.

Lemma mem_map_filter (p : str -> bool) base k :
  mem k (map fst (filter (fun l : label => p (fst l)) base)) = p k && has_name k base.
Proof.
  induction base as [|[m w] t IH]; [simpl; rewrite andb_false_r; auto|].
  cbn [filter fst]. rewrite has_name_cons. cbn [fst]. destruct (p m) eqn:P.
  - cbn [map fst]. rewrite mem_sym_cons, IH. destruct (str_eqb m k) eqn:E; simpl; auto.
    apply str_eqb_eq in E; subst. rewrite P. auto.
  - rewrite IH. destruct (str_eqb m k) eqn:E; simpl; auto. apply str_eqb_eq in E; subst. rewrite P. auto.
Qed.

Lemma sim_keep b s ns : sim b s -> sim (b_keep_sl b ns) (spec_step s (OBKeep ns)).
Proof.
  destruct b as [base del add]. intros ((Hnd & Hne & Hso & Hemp) & Hv & Ha).
  unf.
  split; [|split]; auto.
  - repeat split; auto. intros x Hx E. rewrite mem_app, (Hemp x Hx E). auto.
  - intros k. rewrite mem_app, (mem_map_filter (fun m => negb (mem m ns))). rewrite <- Hv, <- Ha.
    destruct (has_name k add); simpl; auto. destruct (mem k ns); simpl.
    + rewrite orb_false_r. reflexivity.
    + destruct (mem k del); simpl; auto. destruct (has_name k base) eqn:Hb; auto. apply lkp_none; auto.
Qed.

Lemma sim_steps ops : forall b s, sim b s -> sim (fold_left bstep ops b) (fold_left spec_step ops s).
Proof.
  induction ops as [|o t IH]; intros b s H; simpl; auto. apply IH.
  destruct o; try exact H; [apply sim_set | apply sim_delete | apply sim_keep]; exact H.
Qed.

Lemma mem_empties base k : strictly_sorted base = true ->
  mem k (map fst (filter (fun l : label => match snd l with [] => true | _ => false end) base))
  = match lkp base k with Some [] => true | _ => false end.
Proof.
  induction base as [|[m w] t IH]; intros Hs; [reflexivity|]. specialize (IH (sorted_tail _ _ Hs)).
  pose proof (sorted_nodup _ Hs) as Hn. simpl in Hn. apply andb_prop in Hn. destruct Hn as [Hn _]. apply negb_true_iff in Hn.
  cbn [filter snd lkp]. destruct w as [|c w'].
  - cbn [map fst]. rewrite mem_sym_cons, IH. destruct (str_eqb m k); simpl; auto.
  - rewrite IH. destruct (str_eqb m k) eqn:E; auto. apply str_eqb_eq in E; subst. rewrite (lkp_none t k Hn). auto.
Qed.
Lemma sim_reset base : strictly_sorted base = true -> sim (b_reset_sl base) (spec_init base).
Proof.
  intros Hs. unf.
  split; [|split]; auto.
  - repeat split; auto. intros x Hx E.
    apply mem_in, in_map, filter_In. split; auto. destruct x as [xn xv]. simpl in E |- *. subst xv. reflexivity.
  - intros k. simpl. rewrite mem_empties by auto. destruct (lkp base k) as [[|]|]; auto.
Qed.

(* every Builder operation sequence on a sorted base: Labels() is the canonical (strictly
   name-sorted, no empty values) list of exactly the specified map *)
Lemma builder_map_semantics base ops : strictly_sorted base = true ->
  let b := fold_left bstep ops (b_reset_sl base) in
  let r := sl_blabels (bbase b) (badd b) (bdel b) in
  strictly_sorted r = true /\ no_empty_vals r = true /\
  forall k, lkp r k = fst (fold_left spec_step ops (spec_init base)) k.
Proof.
  intros Hs b r. destruct (sim_steps ops _ _ (sim_reset base Hs)) as (I1 & V & _). fold b in I1, V.
  destruct (sl_blabels_spec b I1) as (A & B & C). fold r in A, B, C.
  split; auto. split; auto. intros k. rewrite C. apply V.
Qed.

Lemma sl_get_lkp ls k : sl_get ls k = match lkp ls k with Some v => v | None => [] end.
Proof. induction ls as [|[n v] t IH]; simpl; auto. destruct (str_eqb n k); auto. Qed.
Lemma sl_has_lkp ls k : sl_has ls k = match lkp ls k with Some _ => true | None => false end.
Proof.
  unfold sl_has. induction ls as [|[n v] t IH]; simpl; auto. destruct (str_eqb n k); auto.
Qed.

Lemma string_abs ls : all_short ls ->
  exists d, encode_labels ls = Ok d /\ st_range d = Ok ls /\ st_len d = Ok (zlen ls).
Proof.
  intros H. exists (enc ls). split; [apply encode_labels_enc; auto|]. split.
  - apply st_range_enc; auto.
  - unfold st_len. rewrite st_len_enc; auto.
Qed.
Lemma string_inj a b da db : all_short a -> all_short b -> encode_labels a = Ok da -> encode_labels b = Ok db ->
  (da = db <-> a = b).
Proof.
  intros Ha Hb Ea Eb. rewrite encode_labels_enc in Ea, Eb by auto. inversion Ea; inversion Eb; subst.
  split; [apply enc_inj; auto | intros ->; auto].
Qed.
Lemma wf_split ls : wf_labels ls = true -> strictly_sorted ls = true /\ nonempty_names ls = true.
Proof. unfold wf_labels. intros H. apply andb_prop in H. exact H. Qed.
Lemma string_lookup ls d name : all_short ls -> wf_labels ls = true -> encode_labels ls = Ok d ->
  st_get d name = Ok (match lkp ls name with Some v => v | None => [] end) /\
  st_has d name = Ok (match lkp ls name with Some _ => true | None => false end).
Proof.
  intros Hs Hw E. destruct (wf_split _ Hw). rewrite encode_labels_enc in E by auto. inversion E; subst.
  apply st_lookup_enc; auto.
Qed.

(* New / FromStrings / FromMap: both builds yield the same iteration, length and lookups *)
Lemma nonempty_names_sort ls : nonempty_names (sort_labels ls) = nonempty_names ls.
Proof. apply forallb_sort. Qed.
Lemma new_observations ls : all_short ls -> nodup_names ls = true -> nonempty_names ls = true ->
  exists d, st_new ls = Ok d /\
    st_range d = Ok (sort_labels ls) /\ st_len d = Ok (zlen (sort_labels ls)) /\
    wf_labels (sort_labels ls) = true /\
    (forall k, lkp (sort_labels ls) k = lkp ls k) /\
    (forall k, st_get d k = Ok (sl_get (sort_labels ls) k) /\ st_has d k = Ok (sl_has (sort_labels ls) k)).
Proof.
  intros Hs Hn Hne. pose proof (sort_labels_short ls Hs) as Hs'.
  destruct (sort_labels_spec ls Hn) as (S1 & S2 & _).
  assert (W : wf_labels (sort_labels ls) = true) by (unfold wf_labels; rewrite S1, nonempty_names_sort, Hne; auto).
  destruct (string_abs _ Hs') as (d & E & R & Ln). exists d. unfold st_new. split; auto. split; auto. split; auto.
  split; auto. split; auto. intros k. rewrite sl_get_lkp, sl_has_lkp. apply string_lookup; auto.
Qed.

Lemma len_2pow24_old_refuted : exists s e, zlen s = two24 /\ encode_str_old s = Ok e /\ decode_string e = Ok ([], s).
Proof.
  exists (rep two24 120). exists (enc_str (rep two24 120)).
  assert (H : zlen (rep two24 120) = two24).
  { unfold zlen, rep. rewrite repeat_length. apply Z2Nat.id. unfold two24. lia. }
  destruct (len_2pow24_corrupts _ [] H) as [A B]. rewrite !app_nil_r in B. auto.
Qed.

Definition s_a : str := [97].  Definition s_b : str := [98].  Definition s_1 : str := [49].  Definition s_2 : str := [50].
(* outside the ScratchBuilder protocol the builds differ by design: Add; Assign(empty); Labels *)
Lemma any_sequence_refuted : exists ops tS tL,
  protocol_ok ops = false /\ run I_string [] [] ops = Ok tS /\ run I_slice [] [] ops = Ok tL /\
  map o_range (t_regs tS) <> map o_range (t_regs tL).
Proof.
  exists [OSAdd s_a s_1; OSAssign 3; OSLabels 0]. eexists. eexists.
  split; [reflexivity|]. split; [vm_compute; reflexivity|]. split; [vm_compute; reflexivity|].
  vm_compute. discriminate.
Qed.
(* inside the protocol, Builder.Range after Builder.Labels iterates the pending additions in a
   build-dependent order (sorted in place by stringlabels/dedupelabels only) *)
Lemma builder_range_order_differs : exists ops tS tL,
  protocol_ok ops = true /\ run I_string [] [] ops = Ok tS /\ run I_slice [] [] ops = Ok tL /\
  t_events tS <> t_events tL /\ map o_range (t_regs tS) = map o_range (t_regs tL).
Proof.
  exists [OBSet s_b s_1; OBSet s_a s_2; OBLabels 0; OBRange]. eexists. eexists.
  split; [reflexivity|]. split; [vm_compute; reflexivity|]. split; [vm_compute; reflexivity|].
  split; vm_compute; [discriminate | reflexivity].
Qed.
