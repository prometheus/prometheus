(* proof/PostingsProofs.v — proofs about model/Postings.v (C16), first part.  Union, intersection
   and difference of strictly sorted postings; what a well-formed store guarantees; [sem]: a
   postings list holds exactly the stored series that pass a test, for the index lookups and for
   the postings of one matcher; the loop of PostingsForMatchers, one matcher at a time, and its
   result (pfm_exact); the series Select reads back from the selected refs.  The example store is
   at the end. *)
From Coq Require Import List ZArith NArith Bool Lia Sorted.
From Verif Require Import lib.SortedList lib.LexOrder model.Postings.
Import ListNotations.
Open Scope Z_scope.

(* str_cmp is [lex_cmp N.compare] and seq_cmp is [lex_cmp str_cmp], by conversion *)
Lemma str_cmp_eq : forall a b, str_cmp a b = Eq <-> a = b.
Proof. exact (lex_cmp_eq N.compare N.compare_eq_iff). Qed.

Lemma str_eqb_spec : forall a b, reflect (a = b) (str_eqb a b).
Proof.
  intros a b. unfold str_eqb. pose proof (str_cmp_eq a b) as H.
  destruct (str_cmp a b); constructor; try (apply H; reflexivity); intros E; apply H in E; discriminate E.
Qed.

Lemma str_eqb_eq : forall a b, str_eqb a b = true <-> a = b.
Proof. intros a b. symmetry. apply reflect_iff, str_eqb_spec. Qed.

Lemma str_eqb_refl : forall a, str_eqb a a = true.
Proof. intros. apply str_eqb_eq. reflexivity. Qed.

Lemma mem_str_In : forall s l, mem_str s l = true <-> In s l.
Proof. exact (existsb_eqb_In str_eqb str_eqb_eq). Qed.

Lemma existsb_none : forall (A : Type) (f : A -> bool) l,
  (forall x, In x l -> f x = false) -> existsb f l = false.
Proof.
  induction l as [|x l IH]; intros H; simpl; [reflexivity|].
  rewrite (H x (or_introl eq_refl)). apply IH. intros y Hy. apply H. right. exact Hy.
Qed.

Lemma in_snoc : forall (A : Type) (P : A -> Prop) l x,
  (forall y, In y l -> P y) -> P x -> forall y, In y (l ++ [x]) -> P y.
Proof. intros A P l x Hl Hx y Hy. apply in_app_or in Hy as [Hy|[<-|[]]]; auto. Qed.

Lemma SS_map_filter : forall (A B : Type) (R : B -> B -> Prop) (g : A -> B) (f : A -> bool) l,
  StronglySorted R (map g l) -> StronglySorted R (map g (filter f l)).
Proof.
  induction l as [|x l IH]; simpl; intros H; [constructor|].
  apply StronglySorted_inv in H as [H1 H2]. destruct (f x); simpl; [|auto].
  constructor; [auto|]. apply Forall_forall. intros z Hz.
  apply in_map_iff in Hz as [y [<- Hy]]. apply filter_In in Hy as [Hy _].
  apply (proj1 (Forall_forall _ _) H2). apply in_map. exact Hy.
Qed.

Lemma fold_ins_In : forall (A : Type) (ins : A -> list A -> list A),
  (forall y l x, In x (ins y l) <-> In x (y :: l)) ->
  forall l x, In x (fold_right ins [] l) <-> In x l.
Proof.
  intros A ins H. induction l as [|y l IH]; intros x; simpl; [reflexivity|].
  rewrite H. simpl. rewrite IH. reflexivity.
Qed.

Definition SS := StronglySorted Z.lt.

Lemma SS_cons_inv : forall x l, SS (x :: l) -> SS l /\ forall z, In z l -> x < z.
Proof.
  intros x l H. apply StronglySorted_inv in H as [H1 H2].
  split; [exact H1|]. apply Forall_forall. exact H2.
Qed.

Lemma SS_cons : forall x l, SS l -> (forall z, In z l -> x < z) -> SS (x :: l).
Proof. intros x l H1 H2. constructor; [exact H1|]. apply Forall_forall. exact H2. Qed.

Lemma lt_cons : forall x y b, x < y -> (forall z, In z b -> y < z) -> forall z, In z (y :: b) -> x < z.
Proof. intros x y b E Lb z [<-|H]; [exact E|]. apply Lb in H. lia. Qed.

Lemma lt_notin : forall x y b, x < y -> (forall z, In z b -> y < z) -> ~ In x (y :: b).
Proof. intros x y b E Lb H. exact (Z.lt_irrefl _ (lt_cons x y b E Lb x H)). Qed.

Lemma list2_ind : forall (A : Type) (P : list A -> list A -> Prop),
  (forall b, P [] b) -> (forall a, P a []) ->
  (forall x a y b, P a (y :: b) -> P a b -> P (x :: a) b -> P (x :: a) (y :: b)) ->
  forall a b, P a b.
Proof.
  intros A P H1 H2 H3. induction a as [|x a IHa]; [exact H1|].
  induction b as [|y b IHb]; [apply H2|]. apply H3; [apply IHa|apply IHa|exact IHb].
Qed.

Lemma SS2_ind : forall P : list Z -> list Z -> Prop,
  (forall b, SS b -> P [] b) -> (forall a, SS a -> P a []) ->
  (forall x a y b, (forall z, In z a -> x < z) -> (forall z, In z b -> y < z) ->
     P a (y :: b) -> P a b -> P (x :: a) b -> P (x :: a) (y :: b)) ->
  forall a b, SS a -> SS b -> P a b.
Proof.
  intros P H1 H2 H3. apply (list2_ind Z (fun a b => SS a -> SS b -> P a b)); auto.
  intros x a y b I1 I2 I3 Ha Hb.
  destruct (SS_cons_inv _ _ Ha) as [Ha' La]. destruct (SS_cons_inv _ _ Hb) as [Hb' Lb].
  apply H3; auto.
Qed.

Lemma merge2_cons : forall x a y b, merge2 (x :: a) (y :: b) =
  match x ?= y with
  | Lt => x :: merge2 a (y :: b) | Gt => y :: merge2 (x :: a) b | Eq => x :: merge2 a b
  end.
Proof. reflexivity. Qed.

Lemma isect_cons : forall x a y b, isect (x :: a) (y :: b) =
  match x ?= y with
  | Lt => isect a (y :: b) | Gt => isect (x :: a) b | Eq => x :: isect a b
  end.
Proof. reflexivity. Qed.

Lemma without_cons : forall x a y b, without (x :: a) (y :: b) =
  match x ?= y with
  | Lt => x :: without a (y :: b) | Gt => without (x :: a) b | Eq => without a b
  end.
Proof. reflexivity. Qed.

(* merge2, merge_str and merge_labels are [gmerge] at their comparison, by conversion *)
Section Merge.
Variable A : Type.
Variable cmp : A -> A -> comparison.
Hypothesis cmp_eq : forall x y, cmp x y = Eq -> x = y.

Fixpoint gmerge (a : list A) : list A -> list A :=
  fix go (b : list A) : list A :=
    match a with
    | [] => b
    | x :: a' =>
        match b with
        | [] => a
        | y :: b' =>
            match cmp x y with
            | Eq => x :: gmerge a' b'
            | Lt => x :: gmerge a' b
            | Gt => y :: go b'
            end
        end
    end.

Lemma gmerge_In : forall a b z, In z (gmerge a b) <-> In z a \/ In z b.
Proof.
  apply (list2_ind A (fun a b => forall z, In z (gmerge a b) <-> In z a \/ In z b)).
  - intros [|y b] z; (split; [auto|intros [[]|H]; exact H]).
  - intros [|x a] z; (split; [auto|intros [H|[]]; exact H]).
  - intros x a y b I1 I2 I3 z.
    change (gmerge (x :: a) (y :: b)) with
      (match cmp x y with
       | Eq => x :: gmerge a b | Lt => x :: gmerge a (y :: b) | Gt => y :: gmerge (x :: a) b
       end).
    destruct (cmp x y) eqn:E; simpl.
    + rewrite I2. apply cmp_eq in E as <-. split; [intros [H|[H|H]]|intros [[H|H]|[H|H]]]; auto.
    + rewrite I1. symmetry. apply or_assoc.
    + rewrite I3, <- !or_assoc, (or_comm (y = z)). reflexivity.
Qed.
End Merge.

Lemma merge2_In : forall a b z, In z (merge2 a b) <-> In z a \/ In z b.
Proof. exact (gmerge_In Z Z.compare Z.compare_eq). Qed.

Lemma merge2_spec : forall a b, SS a -> SS b ->
  SS (merge2 a b) /\ forall z, In z (merge2 a b) <-> In z a \/ In z b.
Proof.
  intros a b Ha Hb. split; [|apply merge2_In]. revert a b Ha Hb. apply SS2_ind.
  - intros [|y b] Hb; exact Hb.
  - intros [|x a] Ha; exact Ha.
  - intros x a y b La Lb S1 S2 S3. rewrite merge2_cons.
    destruct (Z.compare_spec x y) as [<-|E|E]; (apply SS_cons; [assumption|]); intros z Hz;
      apply merge2_In in Hz as [Hz|Hz]; auto.
    + apply (lt_cons x y b); assumption.
    + apply (lt_cons y x a); assumption.
Qed.

Lemma isect_spec : forall a b, SS a -> SS b ->
  SS (isect a b) /\ forall z, In z (isect a b) <-> In z a /\ In z b.
Proof.
  apply SS2_ind.
  - intros [|y b] _; (split; [constructor|]); intros z; (split; [intros []|intros [[] _]]).
  - intros [|x a] _; (split; [constructor|]); intros z; (split; [intros []|intros [_ []]]).
  - intros x a y b La Lb [S1 I1] [S2 I2] [S3 I3]. rewrite isect_cons.
    destruct (Z.compare_spec x y) as [<-|E|E]; split; try assumption.
    + apply SS_cons; [exact S2|]. intros z Hz. apply La, I2, Hz.
    + intros z. simpl. rewrite I2. split; [intros [H|[H1 H2]]|intros [[H|H1] [H'|H2]]]; auto.
    + intros z. rewrite I1. split; [intros [H1 H2]; simpl; auto|].
      intros [[<-|H1] H2]; [destruct (lt_notin x y b E Lb H2)|auto].
    + intros z. rewrite I3. split; [intros [H1 H2]; simpl; auto|].
      intros [H1 [<-|H2]]; [destruct (lt_notin y x a E La H1)|auto].
Qed.

Lemma without_spec : forall a b, SS a -> SS b ->
  SS (without a b) /\ forall z, In z (without a b) <-> In z a /\ ~ In z b.
Proof.
  apply SS2_ind.
  - intros [|y b] _; (split; [constructor|]); intros z; (split; [intros []|intros [[] _]]).
  - intros [|x a] Ha; (split; [exact Ha|]); intros z; (split; [auto|intros [H _]; exact H]).
  - intros x a y b La Lb [S1 I1] [S2 I2] [S3 I3]. rewrite without_cons.
    destruct (Z.compare_spec x y) as [<-|E|E]; split; try assumption.
    + intros z. rewrite I2. simpl. split.
      * intros [H1 H2]. split; [auto|]. intros [<-|H3]; [destruct (Z.lt_irrefl _ (La _ H1))|auto].
      * intros [[<-|H1] H2]; [destruct H2|]; auto.
    + apply SS_cons; [exact S1|]. intros z Hz. apply La, I1, Hz.
    + intros z. simpl (In z (x :: without _ _)). rewrite I1. split.
      * intros [<-|[H1 H2]]; [split; [simpl; auto|exact (lt_notin x y b E Lb)]|simpl; auto].
      * intros [[<-|H1] H2]; auto.
    + intros z. rewrite I3. split; intros [H1 H2]; (split; [exact H1|]).
      * intros [<-|H3]; [destruct (lt_notin y x a E La H1)|auto].
      * simpl in H2. auto.
Qed.

Lemma strictly_incr_SS : forall l, strictly_incr l = true -> SS l.
Proof.
  induction l as [|x l IH]; intros H; [constructor|].
  destruct l as [|y r]; [repeat constructor|].
  simpl in H. apply andb_prop in H as [Hxy Hr]. apply Z.ltb_lt in Hxy.
  specialize (IH Hr). apply SS_cons; [exact IH|]. apply lt_cons; [exact Hxy|].
  apply SS_cons_inv, IH.
Qed.

Lemma SS_map_inj : forall (A : Type) (f : A -> Z) l a b,
  SS (map f l) -> In a l -> In b l -> f a = f b -> a = b.
Proof.
  induction l as [|x l IH]; intros a b Hs Ha Hb Hf; [destruct Ha|].
  apply SS_cons_inv in Hs as [Hs Hall].
  destruct Ha as [->|Ha], Hb as [->|Hb]; auto; exfalso;
    [apply (in_map f) in Hb|apply (in_map f) in Ha]; apply Hall in Hb || apply Hall in Ha; lia.
Qed.

Lemma lfind_In : forall n ls w, lfind n ls = Some w -> In (n, w) ls.
Proof.
  induction ls as [|[k v] r IH]; simpl; intros w H; [discriminate|].
  destruct (str_eqb_spec k n) as [->|_]; [injection H as ->; left; reflexivity|right; auto].
Qed.

Lemma lvs_find_In : forall n t v, In v (lvs_find n t) -> exists vs, In (n, vs) t /\ In v vs.
Proof.
  induction t as [|[k vs] t IH]; simpl; intros v H; [destruct H|].
  destruct (str_eqb_spec k n) as [->|_]; [eauto|]. destruct (IH v H) as [vs' [H1 H2]]. eauto.
Qed.

Lemma ix_val_ne : forall s name, name <> [] -> ix_val s name = lfind name (s_labels s).
Proof. intros s [|c name] H; [destruct H|]; reflexivity. Qed.

Definition selects (st : store) (p : list Z) (P : series -> Prop) : Prop :=
  StronglySorted Z.lt p /\
  (forall r, In r p -> exists s, In s (st_series st) /\ s_ref s = r) /\
  (forall s, In s (st_series st) -> (In (s_ref s) p <-> P s)).

Definition is_regex (m : matcher) : bool := match m_type m with MRe | MNre => true | _ => false end.

Section Main.
Variable st : store.
Hypothesis WF : store_wfb st = true.

Lemma wf_parts :
  SS (map s_ref (st_series st)) /\
  (forall n v, In v (label_values_raw st n) ->
     exists s, In s (st_series st) /\ ix_val s n = Some v) /\
  (forall s, In s (st_series st) -> In [] (label_values_raw st []) /\
     forall k v, In (k, v) (s_labels s) -> k <> [] /\ v <> [] /\ In v (label_values_raw st k)).
Proof.
  unfold store_wfb in WF. apply andb_prop in WF as [W W4]. apply andb_prop in W as [W W3].
  apply andb_prop in W as [W1 _]. rewrite forallb_forall in W3, W4.
  split; [apply strictly_incr_SS, W1|]. split.
  - intros n v Hv. apply lvs_find_In in Hv as [vs [Hn Hv]].
    apply W3, andb_prop in Hn as [_ H]. rewrite forallb_forall in H.
    apply H, existsb_exists in Hv as [s [Hs E]]. exists s. split; [exact Hs|]. simpl in E.
    destruct (ix_val s n); [|discriminate]. apply str_eqb_eq in E. congruence.
  - intros s Hs. apply W4, andb_prop in Hs as [H _]. apply andb_prop in H as [H0 H].
    rewrite forallb_forall in H. split; [apply mem_str_In, H0|]. intros k v Hkv.
    apply H, andb_prop in Hkv as [G G3]. apply andb_prop in G as [G1 G2]. simpl in *.
    split; [intros ->; discriminate G1|]. split; [intros ->; discriminate G2|apply mem_str_In, G3].
Qed.

Lemma wf_inj : forall a b, In a (st_series st) -> In b (st_series st) -> s_ref a = s_ref b -> a = b.
Proof. intros a b. apply SS_map_inj, wf_parts. Qed.

Lemma val_in_lvs : forall s name w, In s (st_series st) -> ix_val s name = Some w ->
  In w (label_values_raw st name).
Proof.
  intros s name w Hs Hv. destruct wf_parts as [_ [_ Hw]]. destruct (Hw s Hs) as [H0 Hl].
  destruct name as [|c name]; [injection Hv as <-; exact H0|].
  apply lfind_In in Hv. apply Hl, Hv.
Qed.

Lemma val_nonempty : forall s name w, In s (st_series st) ->
  lfind name (s_labels s) = Some w -> w <> [].
Proof.
  intros s name w Hs Hv. destruct wf_parts as [_ [_ Hw]]. apply lfind_In in Hv.
  apply (Hw s Hs) in Hv. apply Hv.
Qed.

Definition sem (l : list Z) (P : series -> bool) : Prop := selects st l (fun s => P s = true).

Lemma sem_filter : forall P, sem (map s_ref (filter P (st_series st))) P.
Proof.
  intros P. split; [apply SS_map_filter, wf_parts|]. split.
  - intros r Hr. apply in_map_iff in Hr as [s [H1 H2]]. apply filter_In in H2 as [H2 _]. eauto.
  - intros s Hs. split.
    + intros H. apply in_map_iff in H as [s' [H1 H2]]. apply filter_In in H2 as [H2 H3].
      rewrite <- (wf_inj s' s H2 Hs H1). exact H3.
    + intros H. apply in_map, filter_In. auto.
Qed.

Lemma selects_ext : forall l (P Q : series -> Prop), selects st l P ->
  (forall s, In s (st_series st) -> (P s <-> Q s)) -> selects st l Q.
Proof.
  intros l P Q [H1 [H2 H3]] He. split; [exact H1|]. split; [exact H2|].
  intros s Hs. rewrite <- (He s Hs). apply H3, Hs.
Qed.

Lemma sem_ext : forall l P Q, sem l P -> (forall s, In s (st_series st) -> P s = Q s) -> sem l Q.
Proof.
  intros l P Q H He. apply (selects_ext _ _ _ H). intros s Hs. rewrite (He s Hs). reflexivity.
Qed.

Lemma sem_nil : sem [] (fun _ => false).
Proof.
  split; [constructor|]. split; [intros r []|]. intros s _. split; [intros []|discriminate].
Qed.

Lemma sem_merge2 : forall a b P Q, sem a P -> sem b Q -> sem (merge2 a b) (fun s => P s || Q s).
Proof.
  intros a b P Q [A1 [A2 A3]] [B1 [B2 B3]]. destruct (merge2_spec a b A1 B1) as [S I].
  split; [exact S|]. split.
  - intros r Hr. apply I in Hr as [Hr|Hr]; auto.
  - intros s Hs. rewrite I, (A3 s Hs), (B3 s Hs). symmetry. apply orb_true_iff.
Qed.

Lemma sem_isect : forall a b P Q, sem a P -> sem b Q -> sem (isect a b) (fun s => P s && Q s).
Proof.
  intros a b P Q [A1 [A2 A3]] [B1 [B2 B3]]. destruct (isect_spec a b A1 B1) as [S I].
  split; [exact S|]. split.
  - intros r Hr. apply I in Hr as [Hr _]. auto.
  - intros s Hs. rewrite I, (A3 s Hs), (B3 s Hs). symmetry. apply andb_true_iff.
Qed.

Lemma sem_without : forall a b P Q, sem a P -> sem b Q ->
  sem (without a b) (fun s => P s && negb (Q s)).
Proof.
  intros a b P Q [A1 [A2 A3]] [B1 [B2 B3]]. destruct (without_spec a b A1 B1) as [S I].
  split; [exact S|]. split.
  - intros r Hr. apply I in Hr as [Hr _]. auto.
  - intros s Hs. rewrite I, (A3 s Hs), (B3 s Hs), andb_true_iff, negb_true_iff, not_true_iff_false.
    reflexivity.
Qed.

Definition has_val (s : series) (name : str) (f : str -> bool) : bool :=
  match ix_val s name with Some w => f w | None => false end.

Lemma sem_val_ext : forall l name f g, sem l (fun s => has_val s name f) ->
  (forall w, In w (label_values_raw st name) -> (name <> [] -> w <> []) -> f w = g w) ->
  sem l (fun s => has_val s name g).
Proof.
  intros l name f g H E. apply (sem_ext _ _ _ H). intros s Hs. unfold has_val.
  destruct (ix_val s name) as [w|] eqn:V; [|reflexivity].
  apply E; [exact (val_in_lvs s name w Hs V)|]. intros Hn. rewrite (ix_val_ne s name Hn) in V.
  exact (val_nonempty s name w Hs V).
Qed.

Lemma sem_ix_postings : forall name vs,
  sem (ix_postings st name vs) (fun s => has_val s name (fun w => mem_str w vs)).
Proof.
  intros name vs. unfold ix_postings.
  induction vs as [|v vs IH]; simpl; [apply (sem_ext _ _ _ sem_nil)|
    apply (sem_ext _ _ _ (sem_merge2 _ _ _ _ (sem_filter _) IH))];
    intros s _; unfold has_val; destruct (ix_val s name); reflexivity.
Qed.

Lemma sem_ix_matching : forall name f,
  sem (ix_postings_matching st name f) (fun s => has_val s name f).
Proof.
  intros name f. apply (sem_val_ext _ _ _ _ (sem_ix_postings name _)). intros w Hw _.
  destruct (f w) eqn:E.
  - apply mem_str_In, filter_In. auto.
  - destruct (mem_str w (filter f (label_values_raw st name))) eqn:M; [|reflexivity].
    apply mem_str_In, filter_In in M as [_ M]. congruence.
Qed.

Lemma sem_all_values : forall name,
  sem (ix_postings_all_values st name) (fun s => has_val s name (fun _ => true)).
Proof.
  intros name. apply (sem_val_ext _ _ _ _ (sem_ix_postings name _)). intros w Hw _.
  apply mem_str_In, Hw.
Qed.

Lemma sem_all_postings : sem (all_postings st) (fun _ => true).
Proof. apply (sem_ext _ _ _ (sem_ix_postings [] [[]])). reflexivity. Qed.

Lemma has_val_lget : forall s name f, In s (st_series st) -> name <> [] ->
  has_val s name f = negb (is_nil (lget name (s_labels s))) && f (lget name (s_labels s)).
Proof.
  intros s name f Hs Hn. unfold has_val, lget. rewrite (ix_val_ne s name Hn).
  destruct (lfind name (s_labels s)) as [w|] eqn:E; [|reflexivity].
  destruct w; [destruct (val_nonempty s name [] Hs E eq_refl)|reflexivity].
Qed.

(* the strings a matcher on [name] is ever applied to: "" and the values stored for [name] *)
Definition relevant (name w : str) : Prop := w = [] \/ In w (label_values_raw st name).

(* what the code assumes about the compiled regex when it decides by value string or uses
   SetMatches (true of Go regexp; checked per case on the tabulated domain by oracle_ok) *)
Record oracle_consistent (m : matcher) : Prop := {
  oc_star : is_regex m = true -> m_value m = dot_star ->
            forall w, relevant (m_name m) w -> re_match m w = true;
  oc_plus : is_regex m = true -> m_value m = dot_plus ->
            forall w, relevant (m_name m) w -> re_match m w = negb (is_nil w);
  oc_set : is_regex m = true -> m_set m <> [] ->
           forall w, relevant (m_name m) w -> re_match m w = mem_str w (m_set m);
  oc_empty : is_regex m = true -> m_value m = [] ->
             forall w, relevant (m_name m) w -> re_match m w = is_nil w
}.

Lemma oc_not_regex : forall m, is_regex m = false -> oracle_consistent m.
Proof. intros m H. constructor; rewrite H; discriminate. Qed.

Lemma oc_inverse : forall m, oracle_consistent m -> oracle_consistent (inverse m).
Proof.
  intros m [A B C D].
  assert (R : is_regex (inverse m) = is_regex m) by (unfold is_regex; simpl; destruct (m_type m); reflexivity).
  constructor; rewrite R; assumption.
Qed.

Lemma matches_inverse : forall m w, matches (inverse m) w = negb (matches m w).
Proof.
  intros. unfold matches, inverse, re_match; simpl.
  destruct (m_type m); simpl; rewrite ?negb_involutive; reflexivity.
Qed.

Lemma oc_set_matches : forall m, oracle_consistent m -> is_nil (set_matches m) = false ->
  forall w, relevant (m_name m) w -> re_match m w = mem_str w (set_matches m).
Proof.
  intros m [_ _ C _] S. unfold set_matches in *. unfold is_regex in C.
  destruct (m_type m); try discriminate S; apply C; try reflexivity; intros E; rewrite E in S; discriminate S.
Qed.

Lemma sem_pfm1 : forall m, oracle_consistent m ->
  sem (postings_for_matcher st m) (fun s => has_val s (m_name m) (matches m)).
Proof.
  intros m OC. unfold postings_for_matcher, matches. destruct (m_type m) eqn:T; simpl.
  - apply (sem_val_ext _ _ _ _ (sem_ix_postings _ _)). intros w _ _. apply orb_false_r.
  - apply sem_ix_matching.
  - destruct (is_nil (set_matches m)) eqn:S; simpl; [apply sem_ix_matching|].
    apply (sem_val_ext _ _ _ _ (sem_ix_postings _ _)). intros w Hw _.
    symmetry. apply (oc_set_matches m OC S). right. exact Hw.
  - apply sem_ix_matching.
Qed.

Lemma sem_inv : forall m, oracle_consistent m -> m_name m <> [] ->
  sem (inverse_postings_for_matcher st m)
      (fun s => has_val s (m_name m) (fun w => negb (matches m w))).
Proof.
  intros m OC Hn. unfold inverse_postings_for_matcher, matches.
  pose proof (oc_empty m OC) as OE. unfold is_regex in OE.
  destruct (m_type m) eqn:T; simpl.
  - destruct (m_value m) eqn:V; simpl; [|apply sem_ix_matching].
    apply (sem_val_ext _ _ _ _ (sem_all_values _)). intros w _ Hw.
    destruct w; [destruct (Hw Hn eq_refl)|reflexivity].
  - apply (sem_val_ext _ _ _ _ (sem_ix_postings _ _)). intros w _ _.
    rewrite negb_involutive. apply orb_false_r.
  - destruct (m_value m) eqn:V; simpl; [|apply sem_ix_matching].
    apply (sem_val_ext _ _ _ _ (sem_all_values _)). intros w Hw Hne.
    rewrite (OE eq_refl eq_refl w (or_intror Hw)).
    destruct w; [destruct (Hne Hn eq_refl)|reflexivity].
  - destruct (is_nil (set_matches m)) eqn:S; simpl.
    + rewrite andb_false_r. apply sem_ix_matching.
    + apply (sem_val_ext _ _ _ _ (sem_ix_postings _ _)). intros w Hw _.
      rewrite negb_involutive. symmetry. apply (oc_set_matches m OC S). right. exact Hw.
Qed.

End Main.

Definition series_matches (ms : list matcher) (s : series) : Prop :=
  forall m, In m ms -> matches m (lget (m_name m) (s_labels s)) = true.

Lemma not_all_key : forall m, m_name m <> [] -> is_all_key m = false.
Proof. intros m H. unfold is_all_key. destruct (m_name m); [destruct H|]; reflexivity. Qed.

Lemma re_dot : forall m v, is_re m && str_eqb (m_value m) v = true ->
  is_regex m = true /\ m_value m = v /\ forall w, matches m w = re_match m w.
Proof.
  intros m v H. apply andb_prop in H as [T V]. apply str_eqb_eq in V. revert T.
  unfold is_re, is_regex, matches. destruct (m_type m); (discriminate || auto).
Qed.

Lemma nre_dot : forall m v, is_nre m && str_eqb (m_value m) v = true ->
  is_regex m = true /\ m_value m = v /\ forall w, matches m w = negb (re_match m w).
Proof.
  intros m v H. apply andb_prop in H as [T V]. apply str_eqb_eq in V. revert T.
  unfold is_nre, is_regex, matches. destruct (m_type m); (discriminate || auto).
Qed.

Section Loop.
Variable st : store.
Hypothesis WF : store_wfb st = true.
Variable all : list matcher.
Hypothesis Hne : forall m, In m all -> m_name m <> [].
Hypothesis Hoc : forall m, In m all -> oracle_consistent st m.

(* Not "C s is whether m matches": when another matcher needs the label set, the postings of m
   say nothing about the series that lack it. *)
Definition contributes (m : matcher) (C : series -> bool) : Prop :=
  forall s, In s (st_series st) ->
    (series_matches all s -> C s = true) /\
    (C s = true -> matches m (lget (m_name m) (s_labels s)) = true).

Lemma contributes_eq : forall m C, In m all ->
  (forall s, In s (st_series st) -> matches m (lget (m_name m) (s_labels s)) = C s) ->
  contributes m C.
Proof. intros m C Hm E s Hs. rewrite <- (E s Hs). split; [intros A; apply A, Hm|auto]. Qed.

Lemma contrib_neg : forall m f, In m all -> matches m [] = true ->
  (forall w, f w = negb (matches m w)) ->
  contributes m (fun s => negb (has_val s (m_name m) f)).
Proof.
  intros m f Hm E F. apply contributes_eq; [exact Hm|]. intros s Hs.
  rewrite (has_val_lget st WF), F by auto.
  destruct (lget _ _); simpl; [exact E|apply eq_sym, negb_involutive].
Qed.

Lemma contrib_must : forall m f, In m all -> label_must_be_set all (m_name m) = true ->
  (forall w, f w = matches m w) -> contributes m (fun s => has_val s (m_name m) f).
Proof.
  intros m f Hm L F s Hs. rewrite (has_val_lget st WF), F by auto. split.
  - intros A. apply existsb_exists in L as [m' [Hm' L]]. apply andb_prop in L as [L1 L2].
    apply str_eqb_eq in L1. pose proof (A m' Hm') as A'. rewrite L1 in A'.
    rewrite (A m Hm), andb_true_r. destruct (lget _ _); [|reflexivity].
    rewrite A' in L2. discriminate L2.
  - intros H. apply andb_prop in H. apply H.
Qed.

(* One round of the loop: m is skipped, or postings for m go to its (an empty one ends the
   loop), or postings for its negation go to notIts. *)
Lemma loop_step : forall (Post : loopres -> Prop) m r its notIts, In m all ->
  (contributes m (fun _ => true) -> matches m [] = true -> Post (pfm_loop st all r its notIts)) ->
  (forall it P, sem st it P -> contributes m P ->
     Post (if is_nil it then LEmpty else pfm_loop st all r (its ++ [it]) notIts)) ->
  (forall x Q, sem st x Q -> contributes m (fun s => negb (Q s)) -> matches m [] = true ->
     Post (pfm_loop st all r its (notIts ++ [x]))) ->
  Post (pfm_loop st all (m :: r) its notIts).
Proof.
  intros Post m r its notIts Hm Skip Keep Drop.
  pose proof (Hne m Hm) as Hn. pose proof (Hoc m Hm) as OC.
  assert (R : forall s, In s (st_series st) ->
                relevant st (m_name m) (lget (m_name m) (s_labels s)))
    by (intros s Hs; unfold lget; destruct (lfind _ _) eqn:E; [right|left; reflexivity];
        apply (val_in_lvs st WF s _ _ Hs); rewrite ix_val_ne; assumption).
  assert (R0 : relevant st (m_name m) []) by (left; reflexivity).
  simpl. rewrite (not_all_key m Hn).
  destruct (is_re m && str_eqb (m_value m) dot_star) eqn:E1.
  { destruct (re_dot m _ E1) as (G & V & M).
    pose proof (oc_star st m OC G V) as A.
    apply Skip; [apply contributes_eq; [exact Hm|]; intros s Hs|]; rewrite M; auto. }
  destruct (is_nre m && str_eqb (m_value m) dot_star) eqn:E2.
  { destruct (nre_dot m _ E2) as (G & V & M).
    apply (Keep [] _ (sem_nil st)), contributes_eq; [exact Hm|]. intros s Hs.
    rewrite M, (oc_star st m OC G V _ (R s Hs)). reflexivity. }
  destruct (is_re m && str_eqb (m_value m) dot_plus) eqn:E3.
  { destruct (re_dot m _ E3) as (G & V & M).
    apply (Keep _ _ (sem_all_values st WF (m_name m))), contributes_eq; [exact Hm|]. intros s Hs.
    rewrite (has_val_lget st WF), M, (oc_plus st m OC G V _ (R s Hs)) by assumption.
    symmetry. apply andb_true_r. }
  destruct (is_nre m && str_eqb (m_value m) dot_plus) eqn:E4.
  { destruct (nre_dot m _ E4) as (G & V & M).
    apply (Drop _ _ (sem_all_values st WF (m_name m))).
    - apply contributes_eq; [exact Hm|]. intros s Hs.
      rewrite (has_val_lget st WF), M, (oc_plus st m OC G V _ (R s Hs)), andb_true_r by assumption.
      reflexivity.
    - rewrite M, (oc_plus st m OC G V [] R0). reflexivity. }
  destruct (label_must_be_set all (m_name m)) eqn:EL.
  - destruct (is_not m && matches m []) eqn:E5.
    + apply andb_prop in E5 as [_ ME].
      apply (Drop _ _ (sem_pfm1 st WF _ (oc_inverse st m OC))); [|exact ME].
      apply (contrib_neg m (matches (inverse m))); [exact Hm|exact ME|apply matches_inverse].
    + destruct (is_not m).
      * apply (Keep _ _ (sem_inv st WF _ (oc_inverse st m OC) Hn)),
          (contrib_must m (fun w => negb (matches (inverse m) w))); [exact Hm|exact EL|].
        intros w. rewrite matches_inverse. apply negb_involutive.
      * apply (Keep _ _ (sem_pfm1 st WF m OC)), contrib_must; auto.
  - assert (ME : matches m [] = true).
    { destruct (matches m []) eqn:E; [reflexivity|]. rewrite <- EL. apply existsb_exists.
      exists m. split; [exact Hm|]. rewrite str_eqb_refl, E. reflexivity. }
    apply (Drop _ _ (sem_inv st WF m OC Hn)); [apply contrib_neg; auto|exact ME].
Qed.

(* S is what Intersect(its) minus every list of notIts selects, an empty its standing for all
   postings until the first list is appended *)
Definition sel (its notIts : list (list Z)) (S : series -> bool) : Prop :=
  exists Pi Qn,
    sem st (match its with [] => all_postings st | _ => intersect_all its end) Pi /\
    (forall base Pb, sem st base Pb ->
       sem st (fold_left without notIts base) (fun s => Pb s && negb (Qn s))) /\
    forall s, In s (st_series st) -> S s = Pi s && negb (Qn s).

Lemma sel_ext : forall its notIts S S', sel its notIts S ->
  (forall s, In s (st_series st) -> S' s = S s) -> sel its notIts S'.
Proof.
  intros its notIts S S' (Pi & Qn & HI & HN & H) E. exists Pi, Qn.
  split; [exact HI|]. split; [exact HN|]. intros s Hs. rewrite (E s Hs). apply H, Hs.
Qed.

Lemma sel_keep : forall its notIts S it P, sel its notIts S -> sem st it P ->
  sel (its ++ [it]) notIts (fun s => S s && P s).
Proof.
  intros its notIts S it P (Pi & Qn & HI & HN & H) HP. exists (fun s => Pi s && P s), Qn.
  split; [|split; [exact HN|]].
  - destruct its as [|a r]; simpl.
    + apply (sem_ext st _ _ _ HP). intros s Hs. symmetry.
      rewrite (proj1 (proj2 (proj2 HI) s Hs)); [reflexivity|].
      apply (proj2 (proj2 (sem_all_postings st WF)) s Hs). reflexivity.
    + rewrite fold_left_app. apply sem_isect; assumption.
  - intros s Hs. rewrite (H s Hs), <- !andb_assoc. f_equal. apply andb_comm.
Qed.

Lemma sel_drop : forall its notIts S x Q, sel its notIts S -> sem st x Q ->
  sel its (notIts ++ [x]) (fun s => S s && negb (Q s)).
Proof.
  intros its notIts S x Q (Pi & Qn & HI & HN & H) HQ. exists Pi, (fun s => Qn s || Q s).
  split; [exact HI|split].
  - intros base Pb Hb. rewrite fold_left_app.
    apply (sem_ext st _ _ _ (sem_without st _ _ _ _ (HN base Pb Hb) HQ)).
    intros s _. rewrite negb_orb. symmetry. apply andb_assoc.
  - intros s Hs. rewrite (H s Hs), negb_orb. symmetry. apply andb_assoc.
Qed.

Lemma sel_start : forall c : bool, sel (if c then [all_postings st] else []) [] (fun _ => true).
Proof.
  intros c. exists (fun _ => true), (fun _ => false). split; [|split; [|reflexivity]].
  - destruct c; apply sem_all_postings, WF.
  - intros base Pb Hb. apply (sem_ext st _ _ _ Hb). intros s _. symmetry. apply andb_true_r.
Qed.

Lemma sel_final : forall its notIts S, sel its notIts S -> its <> [] ->
  sem st (fold_left without notIts (intersect_all its)) S.
Proof.
  intros its notIts S (Pi & Qn & HI & HN & H) NE. destruct its; [destruct NE; reflexivity|].
  apply (sem_ext st _ _ _ (HN _ _ HI)). intros s Hs. symmetry. apply H, Hs.
Qed.

Variable its0 : list (list Z).

(* its stays empty only if it was empty at the start and no matcher so far needs its label set *)
Definition state_ok (its notIts : list (list Z)) (done : list matcher) : Prop :=
  exists S, sel its notIts S /\
    (forall s, In s (st_series st) ->
       (series_matches all s -> S s = true) /\ (S s = true -> series_matches done s)) /\
    (its = [] -> its0 = [] /\ forall m, In m done -> matches m [] = true).

Lemma state_step : forall its notIts done m its2 notIts2 C,
  state_ok its notIts done -> contributes m C ->
  (forall S, sel its notIts S -> sel its2 notIts2 (fun s => S s && C s)) ->
  (its2 = [] -> its = [] /\ matches m [] = true) ->
  state_ok its2 notIts2 (done ++ [m]).
Proof.
  intros its notIts done m its2 notIts2 C (S & HS & HAB & HE) HC Hsel HE2.
  exists (fun s => S s && C s). split; [exact (Hsel S HS)|]. split.
  - intros s Hs. destruct (HAB s Hs) as [A B]. destruct (HC s Hs) as [C1 C2]. split.
    + intros H. rewrite (A H), (C1 H). reflexivity.
    + intros H. apply andb_prop in H as [H1 H2].
      exact (in_snoc _ (fun m => matches m (lget (m_name m) (s_labels s)) = true) _ _ (B H1) (C2 H2)).
  - intros E. destruct (HE2 E) as [E1 ME]. destruct (HE E1) as [E0 H].
    split; [exact E0|]. apply in_snoc; assumption.
Qed.

Definition loop_post (done : list matcher) (res : loopres) : Prop :=
  match res with
  | LErr => False
  | LEmpty => forall s, In s (st_series st) -> ~ series_matches all s
  | LGo its notIts => state_ok its notIts done
  end.

Lemma loop_ok : forall rem its notIts done, incl rem all -> state_ok its notIts done ->
  loop_post (done ++ rem) (pfm_loop st all rem its notIts).
Proof.
  induction rem as [|m r IH]; intros its notIts done Hsub HS.
  - simpl. rewrite app_nil_r. exact HS.
  - apply incl_cons_inv in Hsub as [Hm Hr].
    replace (done ++ m :: r) with ((done ++ [m]) ++ r) by (symmetry; exact (app_assoc done [m] r)).
    apply loop_step; [exact Hm| | |].
    + intros C ME. apply (IH _ _ _ Hr), (state_step _ _ _ _ _ _ _ HS C); [|auto].
      intros S HS'. apply (sel_ext _ _ _ _ HS'). intros s _. apply andb_true_r.
    + intros it P HP C. destruct it as [|r0 it].
      * intros s Hs A. apply (C s Hs), (proj2 (proj2 HP) s Hs) in A. destruct A.
      * apply (IH _ _ _ Hr), (state_step _ _ _ _ _ _ _ HS C).
        -- intros S HS'. apply sel_keep; assumption.
        -- intros E. apply app_eq_nil in E as [_ [=]].
    + intros x Q HQ C ME. apply (IH _ _ _ Hr), (state_step _ _ _ _ _ _ _ HS C); [|auto].
      intros S HS'. apply sel_drop; assumption.
Qed.

End Loop.

Lemma partition_In : forall (A : Type) (f : A -> bool) l x,
  In x (filter (fun y => negb (f y)) l ++ filter f l) <-> In x l.
Proof.
  intros A f l x. split.
  - intros H. apply in_app_or in H as [H|H]; apply filter_In in H; apply H.
  - intros H. apply in_or_app. destruct (f x) eqn:E; [right|left]; apply filter_In; rewrite E; auto.
Qed.

Lemma all_subtracting : forall ms, ms <> [] -> (forall m, In m ms -> matches m [] = true) ->
  existsb (is_subtracting ms) ms && negb (existsb (fun m => negb (is_subtracting ms m)) ms) = true.
Proof.
  intros ms Hnn ME.
  assert (AS : forall m, In m ms -> is_subtracting ms m = true).
  { intros m _. unfold is_subtracting, label_must_be_set. rewrite existsb_none; [reflexivity|].
    intros m' Hm'. rewrite (ME m' Hm'). apply andb_false_r. }
  rewrite (existsb_none _ (fun m => negb (is_subtracting ms m)))
    by (intros m Hm; rewrite (AS m Hm); reflexivity).
  destruct ms as [|m0 ms']; [destruct Hnn; reflexivity|].
  simpl. rewrite (AS m0 (or_introl eq_refl)). reflexivity.
Qed.

Theorem pfm_exact : forall st ms,
  store_wfb st = true -> ms <> [] ->
  (forall m, In m ms -> m_name m <> []) ->
  (forall m, In m ms -> oracle_consistent st m) ->
  exists p, postings_for_matchers st ms = Ok p /\ selects st p (series_matches ms).
Proof.
  intros st ms WF Hnn Hne Hoc.
  replace (postings_for_matchers st ms) with (pfm_general st ms).
  2:{ destruct ms as [|m [|]]; try reflexivity. simpl. rewrite not_all_key; [reflexivity|].
      apply Hne. left. reflexivity. }
  unfold pfm_general.
  set (c := existsb _ ms && negb (existsb _ ms)). set (sorted := filter _ ms ++ filter _ ms).
  set (its0 := if c then [all_postings st] else []).
  assert (S0 : state_ok st ms its0 its0 [] []).
  { exists (fun _ => true). split; [apply sel_start, WF|]. split.
    - intros s _. split; [reflexivity|intros _ m []].
    - intros E. split; [exact E|intros m []]. }
  pose proof (loop_ok st WF ms Hne Hoc its0 sorted its0 [] []
                (fun m Hm => proj1 (partition_In _ _ _ m) Hm) S0) as L.
  destruct (pfm_loop st ms sorted its0 []) as [| |its notIts]; simpl in L.
  - destruct L.
  - exists []. split; [reflexivity|]. split; [constructor|]. split; [intros r []|].
    intros s Hs. split; [intros []|]. intros H. destruct (L s Hs H).
  - destruct L as (S & HS & HAB & HE). eexists. split; [reflexivity|].
    assert (NE : its <> []).
    { intros E. destruct (HE E) as [E0 ME]. unfold its0, c in E0.
      rewrite all_subtracting in E0; [discriminate E0|exact Hnn|].
      intros m Hm. apply ME, partition_In, Hm. }
    apply (selects_ext st _ _ _ (sel_final st _ _ _ HS NE)). intros s Hs.
    destruct (HAB s Hs) as [A B]. split; [|exact A]. intros H m Hm. apply (B H), partition_In, Hm.
Qed.

Lemma ins_series_In : forall y l x, In x (ins_series y l) <-> In x (y :: l).
Proof.
  induction l as [|z l IH]; intros x; simpl; [reflexivity|].
  destruct (labels_ltb (s_labels y) (s_labels z)); [reflexivity|]. simpl. rewrite IH. simpl.
  split; intros [H|[H|H]]; auto.
Qed.

Lemma lookup_all_In : forall st, store_wfb st = true -> forall p s,
  In s (lookup_all st p) <-> In s (st_series st) /\ In (s_ref s) p.
Proof.
  intros st WF. induction p as [|r p IH]; intros s; simpl; [split; [intros []|intros [_ []]]|].
  unfold find_series. destruct (find (fun s0 => s_ref s0 =? r) (st_series st)) as [s'|] eqn:F.
  - apply find_some in F as [F1 F2]. apply Z.eqb_eq in F2. simpl. rewrite IH. split.
    + intros [<-|[H1 H2]]; auto.
    + intros [H1 [H2|H2]]; [left; apply (wf_inj st WF); congruence|auto].
  - rewrite IH. split; [intros [H1 H2]; auto|]. intros [H1 [H2|H2]]; [|auto].
    pose proof (find_none _ _ F s H1) as N. simpl in N. rewrite H2, Z.eqb_refl in N. discriminate N.
Qed.

Lemma selected_In : forall st ms p (sorted : bool), store_wfb st = true ->
  (forall s, In s (st_series st) -> (In (s_ref s) p <-> series_matches ms s)) ->
  forall s, In s (if sorted then sort_series (lookup_all st p) else lookup_all st p) <->
            In s (st_series st) /\ series_matches ms s.
Proof.
  intros st ms p sorted WF HP s. transitivity (In s (lookup_all st p)).
  - destruct sorted; [apply (fold_ins_In _ ins_series ins_series_In)|reflexivity].
  - rewrite (lookup_all_In st WF).
    split; intros [H1 H2]; (split; [exact H1|]); apply (HP s H1), H2.
Qed.

Definition ex_a : str := [97]%N.
Definition ex_b : str := [98]%N.
Definition ex_x : str := [120]%N.
Definition ex_y : str := [121]%N.
Definition ex_1 : str := [49]%N.
Definition ex_2 : str := [50]%N.
Definition ex_st : store :=
  mkSt Block 0 1000
       [mkS 1 [(ex_a, ex_x); (ex_b, ex_1)] [(10, 20)];
        mkS 2 [(ex_a, ex_y)] [(30, 40)];
        mkS 3 [(ex_b, ex_2)] [(5, 6)]]
       [([], [[]]); (ex_a, [ex_x; ex_y]); (ex_b, [ex_1; ex_2])].
(* {a=~".+", b!="1"} *)
Definition ex_m1 : matcher := mkM MRe ex_a dot_plus [([], false); (ex_x, true); (ex_y, true)] [].
Definition ex_m2 : matcher := mkM MNe ex_b ex_1 [] [].
Definition ex_ms : list matcher := [ex_m1; ex_m2].

Lemma oc_dot_plus : forall st m, m_value m = dot_plus -> m_set m = [] ->
  (forall w, relevant st (m_name m) w -> re_match m w = negb (is_nil w)) -> oracle_consistent st m.
Proof.
  intros st m V S H. constructor; intros _; rewrite ?V, ?S; try discriminate.
  - intros _. exact H.
  - intros E. destruct E. reflexivity.
Qed.
