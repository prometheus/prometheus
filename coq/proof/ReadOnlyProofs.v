(* proof/ReadOnlyProofs.v — proofs about model/ReadOnly.v (property C53).
   Blocks: sort_blocks keeps the members and sorts them; the cut-off is the least upper bound of
   the MaxTimes of the blocks without a hint, so it does not depend on their order.
   Queries: an answer depends only on which candidate timestamps lie in the queried range
   (query_ext), so the read-only and the read-write view are compared candidate by candidate: the
   same blocks, and one head seen with two MinTimes (head_cands_same).  Witnesses refute the
   statements without their restrictions.  FlushWAL against the head data of a read-only open.
   File system: every operation of a read-only session is confined to the sandbox, and a confined
   operation leaves what lies outside it as it was (inv). *)
From Coq Require Import List ZArith Bool Lia.
From Verif Require Import lib.Int64 lib.SortedList model.ReadOnly.
From Verif Require proof.TsdbProofs.
Import ListNotations.
Open Scope Z_scope.

Ltac b2p := TsdbProofs.b2p.

(* model/ReadOnly.v has its own copies of ins, sort_uniq and in_rng, with the bodies of those of
   model/TsdbSpec.v: the lemmas proved about the latter apply as they stand *)
Lemma sort_uniq_ext l1 l2 : (forall t, In t l1 <-> In t l2) -> sort_uniq l1 = sort_uniq l2.
Proof. exact (TsdbProofs.sort_uniq_ext l1 l2). Qed.

Lemma in_rng_iff mint maxt t : in_rng mint maxt t = true <-> mint <= t <= maxt.
Proof. exact (TsdbProofs.in_rng_iff mint maxt t). Qed.

Lemma in_insert_b x b l : In x (insert_b b l) <-> x = b \/ In x l.
Proof.
  induction l as [|c l IH]; simpl; [split; intros [H|H]; auto|].
  destruct (b_mint b <=? b_mint c); simpl; [split; intros [H|H]; auto | rewrite IH; tauto].
Qed.

Lemma in_sort_blocks x l : In x (sort_blocks l) <-> In x l.
Proof.
  induction l as [|b l IH]; simpl; [tauto|]. rewrite in_insert_b, IH. split; intros [H|H]; auto.
Qed.

Lemma length_insert_b b l : length (insert_b b l) = S (length l).
Proof. induction l as [|c l IH]; simpl; auto. destruct (b_mint b <=? b_mint c); simpl; auto. Qed.

(* the result is sorted by MinTime (what DBReadOnly.Blocks promises) *)
Inductive sorted_b : list blockd -> Prop :=
| sb_nil : sorted_b []
| sb_one b : sorted_b [b]
| sb_cons a b r : b_mint a <= b_mint b -> sorted_b (b :: r) -> sorted_b (a :: b :: r).

Lemma sorted_insert_b b l : sorted_b l -> sorted_b (insert_b b l).
Proof.
  induction 1 as [|a|a c r Hac Hr IH]; simpl.
  - constructor.
  - destruct (b_mint b <=? b_mint a) eqn:E; b2p; constructor; try lia; constructor.
  - destruct (b_mint b <=? b_mint a) eqn:E; b2p.
    + constructor; [lia|constructor; auto].
    + simpl in IH. destruct (b_mint b <=? b_mint c) eqn:E2; b2p.
      * constructor; [lia|constructor; [lia|auto]].
      * constructor; auto.
Qed.

Lemma sorted_sort_blocks l : sorted_b (sort_blocks l).
Proof. induction l; simpl; [constructor|apply sorted_insert_b; auto]. Qed.

Definition cut_from (m : Z) (l : list blockd) : Z := fold_left cut_step l m.

Lemma cut_step_le m b x : cut_step m b <= x <-> m <= x /\ (b_hint b = false -> b_maxt b <= x).
Proof.
  unfold cut_step. destruct (b_hint b); simpl; [intuition congruence|].
  destruct (Z.gtb_spec (b_maxt b) m); intuition lia.
Qed.

(* the fold computes the least upper bound of [m] and the MaxTimes of the blocks without a hint *)
Lemma cut_from_le m l x :
  cut_from m l <= x <-> m <= x /\ forall b, In b l -> b_hint b = false -> b_maxt b <= x.
Proof.
  revert m. induction l as [|c l IH]; intros m; simpl; [intuition|].
  rewrite IH, cut_step_le. split.
  - intros [[A B] C]. split; [exact A|]. intros b [<-|Hb]; auto.
  - intros [A B]. split; [split; [exact A | apply B; left; reflexivity]|]. intros b Hb. apply B. right. exact Hb.
Qed.

Lemma cut_from_ge m l : m <= cut_from m l.
Proof. apply (cut_from_le m l). apply Z.le_refl. Qed.

Lemma cut_from_ub m l b : In b l -> b_hint b = false -> b_maxt b <= cut_from m l.
Proof. apply (cut_from_le m l). apply Z.le_refl. Qed.

Lemma cut_from_attained m l :
  cut_from m l = m \/ exists b, In b l /\ b_hint b = false /\ b_maxt b = cut_from m l.
Proof.
  revert m. induction l as [|c l IH]; intros m; simpl; [auto|].
  destruct (IH (cut_step m c)) as [E|(b & Hb & Hh & E)].
  - rewrite E. unfold cut_step. destruct (negb (b_hint c) && (b_maxt c >? m)) eqn:E2; auto.
    right. exists c. b2p. auto.
  - right. exists b. auto.
Qed.

Lemma cut_from_incl m l l' : incl l l' -> cut_from m l <= cut_from m l'.
Proof.
  intros Hs. apply cut_from_le. split; [apply cut_from_ge|]. intros b Hb. apply cut_from_ub, Hs, Hb.
Qed.

Lemma cutoff_ext l1 l2 : (forall b, In b l1 <-> In b l2) -> cutoff l1 = cutoff l2.
Proof. intros H. apply Z.le_antisymm; apply cut_from_incl; intros b; apply H. Qed.

Lemma cutoff_sort l : cutoff (sort_blocks l) = cutoff l.
Proof. apply cutoff_ext. intros b. apply in_sort_blocks. Qed.

(* the cut-off is the highest MaxTime of the blocks without a hint *)
Lemma cutoff_spec l :
  (forall b, In b l -> b_hint b = false -> b_maxt b <= cutoff l)
  /\ (cutoff l = minInt64 \/ exists b, In b l /\ b_hint b = false /\ b_maxt b = cutoff l).
Proof.
  split.
  - intros b. apply cut_from_ub.
  - apply cut_from_attained.
Qed.

Lemma query_ext v1 v2 mint maxt sel :
  (forall i t, In i sel -> mint <= t <= maxt -> (In t (cands v1 mint maxt i) <-> In t (cands v2 mint maxt i))) ->
  query v1 mint maxt sel = query v2 mint maxt sel.
Proof.
  intros H. apply flat_map_ext_in. intros i Hi.
  rewrite (sort_uniq_ext _ (filter (in_rng mint maxt) (cands v2 mint maxt i))); [reflexivity|].
  intros t. rewrite !filter_In, in_rng_iff. split; intros [A B]; split; auto; apply (H i t); auto.
Qed.

Lemma in_block_cands bs mint maxt i t :
  In t (block_cands bs mint maxt i) <-> exists b, In b bs /\ b_overlaps b mint maxt = true /\ In t (get (b_data b) i).
Proof.
  unfold block_cands. rewrite in_flat_map. split; intros (b & Hb & Ht); exists b.
  - destruct (b_overlaps b mint maxt); [auto|inversion Ht].
  - destruct Ht as [-> Ht]. auto.
Qed.

Lemma query_sort_blocks bs m H mint maxt sel :
  query (mkV (sort_blocks bs) m H) mint maxt sel = query (mkV bs m H) mint maxt sel.
Proof.
  apply query_ext. intros i t _ _. unfold cands. cbn [v_blocks]. rewrite !in_app_iff, !in_block_cands.
  apply or_iff_compat_l.
  split; intros (b & Hb & R); exists b; (split; [apply in_sort_blocks, Hb | exact R]).
Qed.

(* what the theorems use of Head.Init: Head.MinTime() is a lower bound of the in-order samples it
   loaded (it is the minimum of the loaded chunks' and replayed samples' times), and an int64 *)
Definition oracle_ok (init : Z -> hdata) : Prop :=
  forall mv, minInt64 <= h_min (init mv)
             /\ forall i t, In t (get (h_io (init mv)) i) -> h_min (init mv) <= t.

(* no replayed tombstone that ends below the loaded in-order minimum covers an out-of-order head
   sample (such a tombstone is dropped by the read-only open's Init, kept by the read-write one) *)
Definition tomb_ok (init : Z -> hdata) : Prop :=
  forall mv i a b t, In (i, (a, b)) (h_tomb (init mv)) -> b < h_min (init mv) ->
                     In t (get (h_ooo (init mv)) i) -> ~ (a <= t <= b).

(* oracle_ok on a tabulated Head.Init result *)
Definition hdata_okb (H : hdata) : bool :=
  (minInt64 <=? h_min H) && forallb (fun p => forallb (Z.leb (h_min H)) (snd p)) (h_io H).

Lemma oracle_okb_sound init : (forall mv, hdata_okb (init mv) = true) -> oracle_ok init.
Proof.
  intros Hb mv. specialize (Hb mv). unfold hdata_okb in Hb.
  rewrite andb_true_iff, Z.leb_le, forallb_forall in Hb. destruct Hb as [Hm Hf]. split; [exact Hm|].
  intros i t Ht. apply in_flat_map in Ht. destruct Ht as [p [Hp Ht]].
  destruct (fst p =? i); [|destruct Ht].
  specialize (Hf p Hp). rewrite forallb_forall in Hf. apply Z.leb_le, Hf, Ht.
Qed.

Lemma covered_kept_iff m H i t :
  covered (kept m H i) t = true <-> exists a b, In (i, (a, b)) (h_tomb H) /\ m <= b /\ a <= t <= b.
Proof.
  unfold covered, kept. rewrite existsb_exists. split.
  - intros ([a b] & Hin & Hc). apply in_map_iff in Hin. destruct Hin as ([j [a' b']] & E & Hin).
    simpl in E. inversion E; subst. apply filter_In in Hin. destruct Hin as [Hin Hf]. simpl in *.
    b2p. subst. exists a, b. repeat split; auto.
  - intros (a & b & Hin & Hm & Ht). exists (a, b). split.
    + apply in_map_iff. exists (i, (a, b)). split; auto. apply filter_In. split; auto. simpl.
      rewrite Z.eqb_refl. simpl. apply Z.leb_le. auto.
    + simpl. apply andb_true_iff. split; apply Z.leb_le; lia.
Qed.

Lemma in_visible v i l t :
  In t (visible v i l) <-> In t l /\ covered (kept (v_minT v) (v_head v) i) t = false.
Proof. unfold visible. rewrite filter_In, negb_true_iff. tauto. Qed.

(* two views of the same head whose MinTimes differ show the same samples of a list when no
   tombstone ending between the two MinTimes covers a sample of the list *)
Lemma visible_same bs1 bs2 w r H i l :
  w <= r ->
  (forall a b t, In (i, (a, b)) (h_tomb H) -> w <= b < r -> In t l -> ~ (a <= t <= b)) ->
  visible (mkV bs1 r H) i l = visible (mkV bs2 w H) i l.
Proof.
  intros Hwr Hno. apply filter_ext_in. intros t Hl. cbn [v_minT v_head]. f_equal.
  apply eq_iff_eq_true. rewrite !covered_kept_iff.
  split; intros (a & b & Hin & Hm & Ht); exists a, b; (split; [exact Hin|split; [|exact Ht]]).
  - lia.
  - destruct (Z_lt_le_dec b r) as [Hb|Hb]; [|exact Hb]. destruct (Hno a b t Hin (conj Hm Hb) Hl Ht).
Qed.

(* lowering Head.MinTime() from [r], a lower bound of the in-order samples, to [w] changes nothing
   that a query up to [maxt] sees of the head if no tombstone ending below [r] covers an
   out-of-order sample: the tombstones that only the lower MinTime keeps end below every in-order
   sample, and where only the lower MinTime passes the head gate these lie above [maxt] *)
Lemma head_cands_same bs1 bs2 w r H mint maxt i t :
  w <= r ->
  (forall u, In u (get (h_io H) i) -> r <= u) ->
  (forall a b u, In (i, (a, b)) (h_tomb H) -> b < r -> In u (get (h_ooo H) i) -> ~ (a <= u <= b)) ->
  t <= maxt ->
  (In t (head_cands (mkV bs1 r H) mint maxt i) <-> In t (head_cands (mkV bs2 w H) mint maxt i)).
Proof.
  intros Hwr Hio Hoo Ht. unfold head_cands, head_gate. cbn [v_minT v_head].
  rewrite (visible_same bs1 bs2 w r H i (get (h_io H) i) Hwr), (visible_same bs1 bs2 w r H i (get (h_ooo H) i) Hwr).
  - rewrite !in_app_iff. apply or_iff_compat_r.
    destruct (overlaps mint maxt (h_oomin H) (h_oomax H)); [rewrite !orb_true_r; reflexivity|].
    rewrite !orb_false_r. destruct (Z.leb_spec r maxt), (Z.leb_spec w maxt); try reflexivity; [lia|].
    split; [intros []|]. intros Hin. apply in_visible in Hin. specialize (Hio t (proj1 Hin)). lia.
  - intros a b u Hin [_ Hb]. exact (Hoo a b u Hin Hb).
  - intros a b u _ [_ Hb] Hu Hc. specialize (Hio u Hu). lia.
Qed.

Theorem same_results (init : Z -> hdata) (bs : list blockd) (mint maxt : Z) (sel : list sid) :
  oracle_ok init -> tomb_ok init ->
  cutoff bs <= maxt ->
  query (open_ro init bs maxt) mint maxt sel = query (open_rw init bs) mint maxt sel.
Proof.
  intros Hor Htb Hle. unfold open_ro, open_ro_with, open_rw. rewrite cutoff_sort.
  set (mv := cutoff bs) in *. set (H := init mv).
  destruct (Z.leb_spec mv maxt); [|lia]. rewrite query_sort_blocks.
  apply query_ext. intros i t Hi Ht. unfold cands. rewrite !in_app_iff. apply or_iff_compat_r.
  destruct (Hor mv) as [Hmin Hio]. fold H in Hmin, Hio.
  destruct (Z.ltb_spec (h_min H) mv).
  - (* data was loaded below the cut-off, which is then not MinInt64: both MinTimes are the cut-off *)
    destruct (Z.eqb_spec mv minInt64); [lia | reflexivity].
  - (* the read-only MinTime is the loaded minimum, the read-write one is that or the cut-off *)
    apply head_cands_same; [destruct (mv =? minInt64); lia | apply Hio | intros a b u; apply (Htb mv) | lia].
Qed.

Lemma head_cands_hempty bs m mint maxt i : head_cands (mkV bs m hempty) mint maxt i = [].
Proof.
  unfold head_cands. cbn [v_head hempty h_io h_ooo get flat_map visible filter].
  destruct (head_gate _ _ _), (overlaps _ _ _ _); reflexivity.
Qed.

(* below the cut-off the read-only open does not load the head at all: the results are the same
   exactly when whatever the read-write head would contribute is also in a block *)
Theorem same_results_below (init : Z -> hdata) (bs : list blockd) (mint maxt : Z) (sel : list sid) :
  maxt < cutoff bs ->
  (forall i t, In i sel -> mint <= t <= maxt ->
     In t (head_cands (open_rw init bs) mint maxt i) -> In t (block_cands bs mint maxt i)) ->
  query (open_ro init bs maxt) mint maxt sel = query (open_rw init bs) mint maxt sel.
Proof.
  intros Hlt Hcov. unfold open_ro, open_ro_with. rewrite cutoff_sort.
  destruct (Z.leb_spec (cutoff bs) maxt); [lia|]. rewrite query_sort_blocks.
  apply query_ext. intros i t Hi Ht. unfold cands. rewrite head_cands_hempty. cbn [app v_blocks]. rewrite in_app_iff.
  split; [intros Hb; right; exact Hb|]. intros [Hh|Hb]; [apply Hcov; assumption | exact Hb].
Qed.

(* (1) the unrestricted statement is false of the code as it is: the read-only open skips the
   WAL, the WBL and the head chunks altogether when an in-order block's MaxTime lies above the
   querier's maxt; an out-of-order sample that so far only lives in the WBL is then missing.
   History: 100, 200, 1700, 1800; Compact (block [100,1000)); out-of-order 500; Close;
   Querier(0, 900). *)
Definition w1_blocks : list blockd := [mkB 100 1000 false [(0, [100; 200])]].
Definition w1_init : Z -> hdata := fun _ => mkH 1700 1800 [(0, [1700; 1800])] [(0, [500])] 500 500 [].

Lemma same_results_refuted :
  exists init bs mint maxt sel, oracle_ok init /\
    query (open_ro init bs maxt) mint maxt sel <> query (open_rw init bs) mint maxt sel.
Proof.
  exists w1_init, w1_blocks, 0, 900, [0]. split; [apply oracle_okb_sound; reflexivity|].
  vm_compute. discriminate.
Qed.

(* (2) the OLD cut-off rule (MaxTime of the last block of the sorted list): 100, 200;
   out-of-order 150; CompactOOOHead (block [0,1000) from out-of-order data); Close.  Head.Init
   with cut-off 1000 skips both WAL samples. *)
Definition w2_blocks : list blockd := [mkB 0 1000 true [(0, [150])]].
Definition w2_init : Z -> hdata :=
  fun mv => if mv <=? 100 then mkH 100 200 [(0, [100; 200])] [] maxInt64 minInt64 [] else hempty.

Lemma w2_oracle_ok : oracle_ok w2_init.
Proof. apply oracle_okb_sound. intros mv. unfold w2_init. destruct (mv <=? 100); reflexivity. Qed.

Lemma same_results_old_refuted :
  exists init bs mint maxt sel, oracle_ok init /\ cutoff bs <= maxt /\
    query (open_ro_old init bs maxt) mint maxt sel <> query (open_rw init bs) mint maxt sel.
Proof.
  exists w2_init, w2_blocks, minInt64, maxInt64, [0]. split; [apply w2_oracle_ok|].
  split; [vm_compute; discriminate|]. vm_compute. discriminate.
Qed.

(* (3) the read-only open drops a head tombstone that the read-write open keeps: Init's final gc
   truncates the tombstones before Head.MinTime(), which is the cut-off after tsdb.Open's
   Head.Truncate but the loaded in-order minimum in the read-only open.  100, 1700, 1800;
   out-of-order 1750; Compact (the out-of-order chunk file survives, C01's finding); 2600;
   Delete(1720, 2100); 3400; Compact; Close: cut-off 2000, in-order head data from 2600, the
   tombstone [1720,2100] covers the re-loaded out-of-order sample 1750. *)
Definition w4_blocks : list blockd :=
  [mkB 100 1000 false [(0, [100])]; mkB 1000 2000 true []; mkB 1700 2000 false [(0, [1700])]].
Definition w4_init : Z -> hdata :=
  fun _ => mkH 2600 3400 [(0, [2600; 3400])] [(0, [1750])] 1750 1750 [(0, (1720, 2100))].

Lemma same_results_tomb_refuted :
  exists init bs mint maxt sel, oracle_ok init /\ cutoff bs <= maxt /\
    query (open_ro init bs maxt) mint maxt sel <> query (open_rw init bs) mint maxt sel.
Proof.
  exists w4_init, w4_blocks, minInt64, maxInt64, [0]. split; [apply oracle_okb_sound; reflexivity|].
  split; [vm_compute; discriminate|]. vm_compute. discriminate.
Qed.

Definition flush_content (o : option (Z * Z * answer)) : answer :=
  match o with None => [] | Some (_, _, c) => c end.

(* FlushWAL writes exactly the head data (what the head of a read-only open that loads it shows)
   when (a) the last block of the sorted list happens to give the same cut-off as the rule of the
   opens, (b) the head holds no out-of-order data and (c) no in-order sample below the cut-off
   (no head chunk straddling it). *)
Theorem flush_exact_partial (init : Z -> hdata) (bs : list blockd) (sel : list sid) (maxt : Z) :
  cutoff_old bs = cutoff bs -> cutoff bs <= maxt ->
  (forall i, get (h_ooo (init (cutoff bs))) i = []) ->
  (forall i t, In t (get (h_io (init (cutoff bs))) i) ->
       cutoff bs <= t /\ h_min (init (cutoff bs)) <= t <= h_max (init (cutoff bs))) ->
  flush_content (flush_wal init bs sel) = head_data (open_ro init bs maxt) sel.
Proof.
  intros Hc Hle Hooo Hio. unfold flush_wal, open_ro, open_ro_with. rewrite Hc, cutoff_sort.
  destruct (cutoff bs <=? maxt) eqn:E; [|b2p; lia]. clear E.
  set (H := init (cutoff bs)) in *. cbv zeta.
  set (mint := if h_min H <? cutoff bs then cutoff bs else h_min H).
  set (content := flat_map _ sel).
  (* flush_content gives back the content FlushWAL computed *)
  transitivity content; [destruct content; reflexivity|].
  apply flat_map_ext_in. intros i _. cbn [v_head].
  rewrite Hooo. unfold visible at 3. simpl. rewrite app_nil_r.
  change (visible (mkV (sort_blocks bs) mint H) i) with (visible (mkV bs mint H) i).
  rewrite filter_all; [reflexivity|].
  intros t Ht. apply in_visible in Ht. destruct Ht as [Ht _].
  apply in_rng_iff. destruct (Hio i t Ht) as [A [B C]].
  unfold mint. destruct (h_min H <? cutoff bs); lia.
Qed.

(* the two ways it fails on the code as it is *)
Lemma flush_refuted_old_cutoff :
  exists init bs sel, oracle_ok init /\ (forall i, get (h_ooo (init (cutoff bs))) i = []) /\
    flush_content (flush_wal init bs sel) <> head_data (open_ro init bs maxInt64) sel.
Proof.
  exists w2_init, w2_blocks, [0]. split; [apply w2_oracle_ok|]. split.
  - intros i. vm_compute. reflexivity.
  - vm_compute. discriminate.
Qed.

Definition w3_init : Z -> hdata := fun _ => mkH 100 300 [(0, [100; 200; 300])] [(0, [150])] 150 150 [].
Lemma flush_refuted_ooo :
  exists init bs sel, cutoff_old bs = cutoff bs /\
    flush_content (flush_wal init bs sel) <> head_data (open_ro init bs maxInt64) sel.
Proof.
  exists w3_init, [], [0]. split; [reflexivity|]. vm_compute. discriminate.
Qed.

Lemma path_eqb_eq a b : path_eqb a b = true -> a = b.
Proof.
  unfold path_eqb. revert b. induction a as [|x a IH]; intros [|y b] H; simpl in *; try discriminate; auto.
  apply andb_true_iff in H. destruct H as [H1 H2]. apply andb_true_iff in H2. destruct H2 as [H2 H3].
  apply Z.eqb_eq in H2. simpl in H2. subst. f_equal. apply IH. rewrite H1. exact H3.
Qed.

Lemma path_eqb_refl a : path_eqb a a = true.
Proof.
  unfold path_eqb. rewrite Nat.eqb_refl. simpl. induction a as [|x a IH]; simpl; auto.
  rewrite Z.eqb_refl. auto.
Qed.

Lemma under_app sb x : under sb (sb ++ x) = true.
Proof. induction sb as [|a sb IH]; simpl; auto. rewrite Z.eqb_refl. auto. Qed.

Lemma lookup_cons_other p n t q : path_eqb p q = false -> lookup ((p, n) :: t) q = lookup t q.
Proof. intros H. unfold lookup. simpl. rewrite H. reflexivity. Qed.

(* removing the paths that satisfy [g] (os.Remove: one path; os.RemoveAll: a subtree) *)
Lemma lookup_filter (g : path -> bool) t q :
  lookup (filter (fun e => negb (g (fst e))) t) q = if g q then None else lookup t q.
Proof.
  unfold lookup. induction t as [|e t IH]; simpl; [destruct (g q); reflexivity|].
  destruct (path_eqb (fst e) q) eqn:Ep.
  - (* e binds q *)
    assert (Eg : g q = g (fst e)) by (rewrite (path_eqb_eq _ _ Ep); reflexivity).
    rewrite Eg in *. destruct (g (fst e)); simpl; [exact IH | rewrite Ep; reflexivity].
  - destruct (g (fst e)); simpl; [|rewrite Ep]; exact IH.
Qed.

(* an operation only touches paths below [sb] (a Link may READ anywhere) *)
Definition confined (sb : path) (o : fsop) : Prop :=
  match o with
  | OMkdir p | OMkdirAll p | OCreate p _ _ | ORemove p | ORemoveAll p => under sb p = true
  | OLink _ d => under sb d = true
  end.

(* everything outside [sb] and every pre-existing content is as in f0 *)
Definition inv (f0 : fs) (sb : path) (f : fs) : Prop :=
  (forall p, under sb p = false -> lookup (f_tree f) p = lookup (f_tree f0) p)
  /\ (forall ino h, content (f_data f0) ino = Some h -> content (f_data f) ino = Some h).

Lemma under_trans sb p q : under sb p = true -> under p q = true -> under sb q = true.
Proof.
  revert p q. induction sb as [|a sb IH]; intros [|b p] [|c q]; simpl; auto; try discriminate.
  intros H1 H2. apply andb_true_iff in H1. destruct H1 as [E1 H1]. apply andb_true_iff in H2. destruct H2 as [E2 H2].
  apply Z.eqb_eq in E1. apply Z.eqb_eq in E2. subst. rewrite Z.eqb_refl. simpl. eapply IH; eauto.
Qed.

(* every operation either binds a new path or removes paths; inv survives both below [sb] *)
Lemma inv_add f0 sb f p n d : under sb p = true ->
  (forall ino h, content (f_data f0) ino = Some h -> content d ino = Some h) ->
  inv f0 sb f -> inv f0 sb (mkFS ((p, n) :: f_tree f) d).
Proof.
  intros Hp Hd [I1 _]. split; [|exact Hd]. intros q Hq. cbn [f_tree]. rewrite <- (I1 q Hq).
  apply lookup_cons_other. destruct (path_eqb p q) eqn:E; [|reflexivity].
  apply path_eqb_eq in E. congruence.
Qed.

Lemma inv_filter f0 sb f (g : path -> bool) : (forall q, under sb q = false -> g q = false) ->
  inv f0 sb f -> inv f0 sb (mkFS (filter (fun e => negb (g (fst e))) (f_tree f)) (f_data f)).
Proof.
  intros Hg [I1 I2]. split; [|exact I2]. intros q Hq. cbn [f_tree].
  rewrite lookup_filter, (Hg q Hq). apply I1, Hq.
Qed.

Lemma apply_inv f0 sb f o f' : confined sb o -> apply f o = Some f' -> inv f0 sb f -> inv f0 sb f'.
Proof.
  intros Hc Ha Hi. pose proof Hi as [_ I2]. destruct o as [p|p|s d|p ino h|p|p]; simpl in Hc, Ha.
  - destruct (is_none (lookup (f_tree f) p)); inversion Ha. apply inv_add; assumption.
  - destruct (lookup (f_tree f) p) as [[|x]|]; inversion Ha; subst; [exact Hi | apply inv_add; assumption].
  - destruct (lookup (f_tree f) s) as [[|x]|]; try discriminate.
    destruct (lookup (f_tree f) d); inversion Ha. apply inv_add; assumption.
  - destruct (is_none (lookup (f_tree f) p) && is_none (content (f_data f) ino)) eqn:E; inversion Ha.
    apply andb_true_iff in E. destruct E as [_ E]. apply inv_add; [assumption| |assumption].
    (* the new inode is not one of the old ones *)
    intros i0 h0 Hold. specialize (I2 _ _ Hold). unfold content in *. simpl.
    destruct (ino =? i0) eqn:Ei; auto. apply Z.eqb_eq in Ei. subst.
    destruct (find (fun e => fst e =? i0) (f_data f)); simpl in E; discriminate.
  - destruct (lookup (f_tree f) p) as [[|x]|]; inversion Ha.
    apply (inv_filter f0 sb f (fun r => path_eqb r p)); [|assumption].
    intros q Hq. destruct (path_eqb q p) eqn:E; auto. apply path_eqb_eq in E. congruence.
  - inversion Ha. apply (inv_filter f0 sb f (under p)); [|assumption].
    intros q Hq. destruct (under p q) eqn:E; auto. rewrite (under_trans sb p q) in Hq; auto.
Qed.

Lemma run_inv f0 sb ops : Forall (confined sb) ops ->
  forall f f', run f ops = Some f' -> inv f0 sb f -> inv f0 sb f'.
Proof.
  induction 1 as [|o ops Ho Hops IH]; intros f f' Hr Hi; simpl in Hr.
  - inversion Hr; subst; auto.
  - destruct (apply f o) as [f1|] eqn:Ea; [|discriminate].
    eapply IH; eauto. eapply apply_inv; eauto.
Qed.

Lemma run_app f ops1 ops2 f' :
  run f (ops1 ++ ops2) = Some f' -> exists f1, run f ops1 = Some f1 /\ run f1 ops2 = Some f'.
Proof.
  revert f. induction ops1 as [|o ops1 IH]; simpl; intros f H; [exists f; auto|].
  destruct (apply f o); [apply IH; auto|discriminate].
Qed.

Lemma ro_trace_confined dir sb has_cd files created removed :
  Forall (confined sb) (ro_trace dir sb has_cd files created removed).
Proof.
  assert (Hsb : under sb sb = true) by (rewrite <- (app_nil_r sb) at 2; apply under_app).
  unfold ro_trace, ro_open_ops. repeat (apply Forall_app; split).
  - constructor; [exact Hsb|constructor].
  - destruct has_cd; [|constructor]. constructor; [apply under_app|].
    apply Forall_map, Forall_forall. intros n _. apply under_app.
  - constructor; [apply under_app|constructor].
  - apply Forall_map, Forall_forall. intros n _. apply under_app.
  - apply Forall_map, Forall_forall. intros n _. apply under_app.
  - constructor; [exact Hsb|constructor].
Qed.

Lemma Forall_firstn {A} (P : A -> Prop) k l : Forall P l -> Forall P (firstn k l).
Proof. revert l. induction k; intros l H; simpl; [constructor|]. destruct H; constructor; auto. Qed.

(* the sandbox name is fresh: nothing in the tree lies below it *)
Definition fresh (sb : path) (f : fs) : Prop := forall e, In e (f_tree f) -> under sb (fst e) = false.

Lemma fresh_lookup sb f p n : fresh sb f -> lookup (f_tree f) p = Some n -> under sb p = false.
Proof.
  intros Hf. unfold lookup. destruct (find (fun e => path_eqb (fst e) p) (f_tree f)) eqn:E; [|discriminate].
  intros _. apply find_some in E. destruct E as [Hin He]. apply path_eqb_eq in He. subst. auto.
Qed.

Lemma fresh_none sb f p : fresh sb f -> under sb p = true -> lookup (f_tree f) p = None.
Proof.
  intros Hf Hp. destruct (lookup (f_tree f) p) eqn:E; auto.
  rewrite (fresh_lookup sb f p n Hf E) in Hp. discriminate.
Qed.

(* a read-only session mutates no pre-existing path, at any point of its trace (a crash in the
   middle included), and after Close the tree is the tree it started from *)
Theorem fs_unchanged (f0 : fs) (dir sb : path) (has_cd : bool) (files : list Z)
                     (created : list (Z * Z * Z)) (removed : list Z) :
  fresh sb f0 ->
  let tr := ro_trace dir sb has_cd files created removed in
  (forall k f, run f0 (firstn k tr) = Some f ->
     (forall p n, lookup (f_tree f0) p = Some n -> lookup (f_tree f) p = Some n)
     /\ (forall ino h, content (f_data f0) ino = Some h -> content (f_data f) ino = Some h))
  /\ (forall f, run f0 tr = Some f ->
        (forall p, lookup (f_tree f) p = lookup (f_tree f0) p)
        /\ (forall ino h, content (f_data f0) ino = Some h -> content (f_data f) ino = Some h)).
Proof.
  intros Hf tr.
  assert (Hinv : forall k f, run f0 (firstn k tr) = Some f -> inv f0 sb f).
  { intros k f Hr. apply (run_inv f0 sb (firstn k tr)) with (f := f0).
    - apply Forall_firstn, ro_trace_confined.
    - exact Hr.
    - split; auto. }
  split.
  - intros k f Hr. destruct (Hinv k f Hr) as [I1 I2]. split; [|exact I2].
    intros p n Hp. rewrite I1; [exact Hp | exact (fresh_lookup sb f0 p n Hf Hp)].
  - intros f Hr. destruct (Hinv (length tr) f) as [I1 I2]; [rewrite firstn_all; exact Hr|].
    split; [|exact I2]. intros p. destruct (under sb p) eqn:E; [|apply I1, E].
    (* below the sandbox there was nothing, and the last operation removes everything *)
    rewrite (fresh_none sb f0 p Hf E).
    destruct (run_app f0 _ _ f Hr) as (f1 & _ & H2). simpl in H2. injection H2 as <-.
    cbn [f_tree]. rewrite (lookup_filter (under sb)), E. reflexivity.
Qed.
