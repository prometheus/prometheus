(* proof/QuantileProofs.v — proofs about model/Quantile.v (property C32).
   Native histograms: what the search loop finds is said by [Sel] / [MinSel] / [MaxSel] (which
   bucket holds a rank), the value returned for a bucket by [qvalue], and [Between] gives range
   and monotonicity in one statement.  Classic buckets: sort, coalesce, ensure-monotonic and
   sort.Search each get a specification; [cq_val] is the tail of BucketQuantile.
   HistogramFraction is shown equal to a rank function [cdf] of one bound, which is monotone. *)
From Coq Require Import List ZArith QArith Qabs Bool Lia Lra Psatz Sorted.
From Verif Require Import lib.SortedList model.Quantile.
Import ListNotations.
Open Scope Q_scope.

Lemma Qlt_bool_true a b : Qlt_bool a b = true <-> a < b.
Proof.
  unfold Qlt_bool. rewrite negb_true_iff. split; intro H.
  - apply Qnot_le_lt. intro L. apply Qle_bool_iff in L. congruence.
  - destruct (Qle_bool b a) eqn:E; auto. apply Qle_bool_iff in E. lra.
Qed.

Lemma Qlt_bool_false a b : Qlt_bool a b = false <-> b <= a.
Proof. unfold Qlt_bool. rewrite negb_false_iff. apply Qle_bool_iff. Qed.

Lemma Qle_bool_false a b : Qle_bool a b = false <-> b < a.
Proof. rewrite <- (Qlt_bool_true b a). symmetry. apply negb_true_iff. Qed.

Lemma Qeq_bool_false a b : Qeq_bool a b = false <-> ~ a == b.
Proof. rewrite <- Qeq_bool_iff. symmetry. apply not_true_iff_false. Qed.

(* turns the boolean tests among the hypotheses into (in)equalities *)
Ltac qb :=
  repeat match goal with
  | H : Qle_bool _ _ = true |- _ => apply Qle_bool_iff in H
  | H : Qle_bool _ _ = false |- _ => apply Qle_bool_false in H
  | H : Qlt_bool _ _ = true |- _ => apply Qlt_bool_true in H
  | H : Qlt_bool _ _ = false |- _ => apply Qlt_bool_false in H
  | H : Qeq_bool _ _ = true |- _ => apply Qeq_bool_iff in H
  | H : Qeq_bool _ _ = false |- _ => apply Qeq_bool_false in H
  end.

Definition ext_le (a b : ext) : Prop := ext_leb a b = true.
Definition ext_lt (a b : ext) : Prop := ext_ltb a b = true.

Lemma ext_le_refl a : ext_le a a.
Proof. destruct a; unfold ext_le; simpl; auto. apply Qle_bool_iff. lra. Qed.

Lemma ext_le_trans a b c : ext_le a b -> ext_le b c -> ext_le a c.
Proof.
  unfold ext_le; destruct a, b, c; simpl; auto; try discriminate.
  intros. qb. apply Qle_bool_iff. lra.
Qed.

Lemma ext_le_total a b : ext_le a b \/ ext_le b a.
Proof.
  unfold ext_le; destruct a, b; simpl; auto.
  destruct (Qle_bool q q0) eqn:E; auto. qb. right. apply Qle_bool_iff. lra.
Qed.

Lemma ext_le_fin a b : ext_le (Fin a) (Fin b) <-> a <= b.
Proof. unfold ext_le; simpl. apply Qle_bool_iff. Qed.

Lemma ext_lt_fin a b : ext_lt (Fin a) (Fin b) <-> a < b.
Proof. unfold ext_lt, ext_ltb; simpl. rewrite negb_true_iff. apply Qle_bool_false. Qed.

Lemma ext_ltb_false a b : ext_ltb a b = false <-> ext_le b a.
Proof. unfold ext_ltb, ext_le. apply negb_false_iff. Qed.

Lemma ext_leb_false a b : ext_leb a b = false <-> ext_lt b a.
Proof. unfold ext_lt, ext_ltb. rewrite negb_true_iff. tauto. Qed.

(* [a < b] is [~ b <= a]: the strict order inherits its laws from [ext_le] *)
Lemma ext_lt_not_le a b : ext_lt a b -> ext_le b a -> False.
Proof. unfold ext_lt, ext_ltb, ext_le. intros H L. rewrite L in H. discriminate. Qed.

Lemma ext_lt_le a b : ext_lt a b -> ext_le a b.
Proof. intro H. destruct (ext_le_total a b) as [L|L]; [exact L | destruct (ext_lt_not_le _ _ H L)]. Qed.

Lemma ext_le_lt_trans a b c : ext_le a b -> ext_lt b c -> ext_lt a c.
Proof.
  intros L H. apply ext_leb_false. destruct (ext_leb c a) eqn:E; [|reflexivity].
  destruct (ext_lt_not_le _ _ H (ext_le_trans _ _ _ E L)).
Qed.

Lemma ext_lt_le_trans a b c : ext_lt a b -> ext_le b c -> ext_lt a c.
Proof.
  intros H L. apply ext_leb_false. destruct (ext_leb c a) eqn:E; [|reflexivity].
  destruct (ext_lt_not_le _ _ H (ext_le_trans _ _ _ L E)).
Qed.

(* result order: both results are numbers (not NaN) and ordered *)
Definition res_le (r1 r2 : res) : Prop :=
  match r1, r2 with
  | R a, R b => ext_le a b
  | _, _ => False
  end.

(* both results are numbers, ordered, and lie between [lo] and [up] *)
Definition Between (lo up : ext) (r1 r2 : res) : Prop :=
  exists e1 e2, r1 = R e1 /\ r2 = R e2 /\ ext_le lo e1 /\ ext_le e1 e2 /\ ext_le e2 up.

Lemma between_res_le lo up r1 r2 : Between lo up r1 r2 -> res_le r1 r2.
Proof. intros (e1 & e2 & -> & -> & _ & H & _). exact H. Qed.

Lemma between_same lo up r : Between lo up r r -> exists e, r = R e /\ ext_le lo e /\ ext_le e up.
Proof. intros (e & ? & -> & [= <-] & H1 & _ & H3). eauto. Qed.

Lemma between_const lo up e : ext_le lo e -> ext_le e up -> Between lo up (R e) (R e).
Proof. intros H1 H2. exists e, e. auto using ext_le_refl. Qed.

Lemma between_fin l u x1 x2 : l <= x1 -> x1 <= x2 -> x2 <= u -> Between (Fin l) (Fin u) (R (Fin x1)) (R (Fin x2)).
Proof. intros. exists (Fin x1), (Fin x2). rewrite !ext_le_fin. auto. Qed.

Lemma between_weaken lo up lo' up' r1 r2 :
  ext_le lo' lo -> ext_le up up' -> Between lo up r1 r2 -> Between lo' up' r1 r2.
Proof.
  intros Hl Hu (e1 & e2 & E1 & E2 & H1 & H2 & H3). exists e1, e2.
  repeat split; eauto using ext_le_trans.
Qed.

Lemma sumc_app a b : sumc (a ++ b) == sumc a + sumc b.
Proof. induction a; simpl; [lra|]. rewrite IHa. lra. Qed.

Lemma sumc_rev a : sumc (rev a) == sumc a.
Proof. induction a; simpl; [lra|]. rewrite sumc_app, IHa. simpl. lra. Qed.

Lemma sumc_nonneg a : Forall (fun b => 0 <= bc b) a -> 0 <= sumc a.
Proof. induction 1; simpl; lra. Qed.

Lemma sumc_zero a : Forall (fun b => bc b == 0) a -> sumc a == 0.
Proof. induction 1; simpl; lra. Qed.

Lemma sumc_split bs pre b post :
  bs = pre ++ b :: post -> Forall (fun b => 0 <= bc b) bs ->
  sumc bs == sumc pre + bc b + sumc post /\ 0 <= sumc pre /\ 0 <= bc b /\ 0 <= sumc post.
Proof.
  intros -> F. apply Forall_app in F as [F1 F2]. apply Forall_cons_iff in F2 as [Hb F2].
  rewrite sumc_app. simpl. repeat split; auto using sumc_nonneg. lra.
Qed.

(* either the loop stops at a populated bucket [b], the first one whose cumulative count reaches
   the rank, or it runs through the whole list *)
Lemma scan_spec : forall bs rank cum lst b c rest,
  cum <= rank ->
  scan bs rank cum lst = (b, c, rest) ->
  (exists pre, bs = pre ++ b :: rest /\ ~ bc b == 0 /\ c == cum + sumc pre + bc b /\
               cum + sumc pre <= rank /\ rank <= c /\
               (cum + sumc pre < rank \/ Forall (fun x => bc x == 0) pre))
  \/ (rest = [] /\ c == cum + sumc bs /\ (c < rank \/ Forall (fun x => bc x == 0) bs)).
Proof.
  induction bs as [|x bs IH]; intros rank cum lst b c rest Hc Hs; simpl in Hs.
  - injection Hs as <- <- <-. right. split; [reflexivity|]. split; [simpl; lra | right; constructor].
  - destruct (Qeq_bool (bc x) 0) eqn:Ez; [|destruct (Qle_bool rank (cum + bc x)) eqn:El]; qb.
    + destruct (IH _ _ _ _ _ _ Hc Hs) as [(pre & -> & Hnz & Hcc & Hle & Hr & Hmin)|(E & Hcc & Hd)].
      * left. exists (x :: pre). simpl. repeat split; auto; try lra.
        destruct Hmin; [left; lra | right; now constructor].
      * right. simpl. repeat split; auto; try lra. destruct Hd; [now left | right; now constructor].
    + injection Hs as <- <- <-. left. exists []. simpl. repeat split; auto; lra.
    + assert (Hc' : cum + bc x <= rank) by lra.
      destruct (IH _ _ _ _ _ _ Hc' Hs) as [(pre & -> & Hnz & Hcc & Hle & Hr & Hmin)|(E & Hcc & Hd)].
      * left. exists (x :: pre). simpl. repeat split; auto; try lra.
        left. destruct Hmin as [Hmin|Hmin]; [|apply sumc_zero in Hmin]; lra.
      * right. simpl. repeat split; auto; try lra.
        left. destruct Hd as [Hd|Hd]; [|apply sumc_zero in Hd]; lra.
Qed.

(* a search that runs through the whole list ends on its last bucket *)
Lemma scan_last : forall bs rank cum lst b c,
  scan bs rank cum lst = (b, c, []) -> b = last bs lst.
Proof.
  induction bs as [|x bs IH]; intros rank cum lst b c E; simpl in E; [now injection E|].
  rewrite last_cons.
  destruct (Qeq_bool (bc x) 0); [|destruct (Qle_bool rank (cum + bc x))].
  - now apply IH in E.
  - now injection E as <- _ ->.
  - now apply IH in E.
Qed.

Lemma split_cmp {A} : forall (pre1 : list A) b1 post1 pre2 b2 post2,
  pre1 ++ b1 :: post1 = pre2 ++ b2 :: post2 ->
  (pre1 = pre2 /\ b1 = b2 /\ post1 = post2)
  \/ (exists mid, pre2 = pre1 ++ b1 :: mid /\ post1 = mid ++ b2 :: post2)
  \/ (exists mid, pre1 = pre2 ++ b2 :: mid /\ post2 = mid ++ b1 :: post1).
Proof.
  induction pre1 as [|a pre1 IH]; intros b1 post1 [|c pre2] b2 post2 [= E1 E2]; subst.
  - now left.
  - right; left. now exists pre2.
  - right; right. now exists pre1.
  - destruct (IH _ _ _ _ _ E2) as [(-> & -> & ->)|[(mid & -> & ->)|(mid & -> & ->)]];
      [now left | right; left; now exists mid | right; right; now exists mid].
Qed.

(* bucket [b] (at the position given by [pre]) is populated and holds rank [r] *)
Definition Sel (bs : list bucket) (r : Q) (pre : list bucket) (b : bucket) (post : list bucket) : Prop :=
  bs = pre ++ b :: post /\ 0 < bc b /\ sumc pre <= r /\ r <= sumc pre + bc b.
(* ... and it is the first such bucket (forward search): no populated bucket before it reaches r *)
Definition MinSel bs r pre b post : Prop :=
  Sel bs r pre b post /\ (sumc pre < r \/ Forall (fun x => bc x == 0) pre).
(* ... the last such bucket (search from the top) *)
Definition MaxSel bs r pre b post : Prop :=
  Sel bs r pre b post /\ (r < sumc pre + bc b \/ Forall (fun x => bc x == 0) post).

Lemma sel_in bs r pre b post : Sel bs r pre b post -> In b bs.
Proof. intros (-> & _). apply in_elt. Qed.

Lemma fwd_sel bs r lst b c rest :
  Forall (fun b => 0 <= bc b) bs -> 0 < sumc bs -> 0 <= r -> r <= sumc bs ->
  scan bs r 0 lst = (b, c, rest) ->
  exists pre, MinSel bs r pre b rest /\ c == sumc pre + bc b.
Proof.
  intros F Hp H0 H1 Hs.
  destruct (scan_spec _ _ _ _ _ _ _ H0 Hs) as [(pre & E & Hnz & Hcc & Hle & Hr & Hmin)|(E & Hcc & Hd)].
  - exists pre. destruct (sumc_split _ _ _ _ E F) as (_ & _ & Hb & _).
    split; [|lra]. split; [|destruct Hmin; [left; lra | now right]]. repeat split; auto; lra.
  - exfalso. destruct Hd as [Hd|Hd]; [|apply sumc_zero in Hd]; lra.
Qed.

(* searching the reversed list for rank N - r finds the last bucket holding r *)
Lemma rev_sel bs N rk lst b c rest :
  Forall (fun b => 0 <= bc b) bs -> 0 < N -> N == sumc bs -> 0 <= rk -> rk <= N ->
  scan (rev bs) rk 0 lst = (b, c, rest) ->
  exists pre post, MaxSel bs (N - rk) pre b post /\ c - rk == (N - rk) - sumc pre /\ c <= N.
Proof.
  intros F Hp HN H0 H1 Hs. assert (Hsr := sumc_rev bs).
  destruct (fwd_sel (rev bs) rk lst b c rest (Forall_rev F) ltac:(lra) H0 ltac:(lra) Hs)
    as (pre' & ((E & Hb & Hlo & Hhi) & Hmin) & Hc).
  apply (f_equal (@rev _)) in E. rewrite rev_involutive, rev_app_distr in E. simpl in E. rewrite <- app_assoc in E.
  destruct (sumc_split _ _ _ _ E F) as (HT & Hrest & _).
  assert (Hp' := sumc_rev pre').
  exists (rev rest), (rev pre'). split; [|split; lra].
  split; [repeat split; auto; lra|].
  destruct Hmin as [Hmin|Hmin]; [left; lra | right; now apply Forall_rev].
Qed.

(* of two selections in the same list the one with the smaller rank comes first or is the same,
   as soon as it is a first one or the other a last one *)
Lemma sel_order bs r1 r2 pre1 b1 post1 pre2 b2 post2 :
  Forall (fun b => 0 <= bc b) bs ->
  Sel bs r1 pre1 b1 post1 -> Sel bs r2 pre2 b2 post2 -> r1 <= r2 ->
  (sumc pre1 < r1 \/ Forall (fun x => bc x == 0) pre1) \/
  (r2 < sumc pre2 + bc b2 \/ Forall (fun x => bc x == 0) post2) ->
  (pre1 = pre2 /\ b1 = b2 /\ post1 = post2)
  \/ (exists mid, pre2 = pre1 ++ b1 :: mid /\ post1 = mid ++ b2 :: post2).
Proof.
  intros F (E1 & Hb1 & Hl1 & Hh1) (E2 & Hb2 & Hl2 & Hh2) Hr Hext.
  rewrite E1 in E2, F. destruct (split_cmp _ _ _ _ _ _ E2) as [H|[H|(mid & Ea & Eb)]]; auto.
  exfalso. apply Forall_app in F as [F _].
  destruct (sumc_split _ _ _ _ Ea F) as (HT & _ & _ & Hmid).
  destruct Hext as [[H|H]|[H|H]]; try lra; [rewrite Ea in H | rewrite Eb in H]; apply Forall_elt in H; lra.
Qed.

Lemma lin_range a b f : a <= b -> 0 <= f -> f <= 1 -> a <= a + (b - a) * f /\ a + (b - a) * f <= b.
Proof. intros. split; nra. Qed.

Lemma lin_mono a b f1 f2 : a <= b -> f1 <= f2 -> a + (b - a) * f1 <= a + (b - a) * f2.
Proof. intros. nra. Qed.

Lemma div_range a c : 0 < c -> 0 <= a -> a <= c -> 0 <= a / c /\ a / c <= 1 /\ (a / c) * c == a.
Proof.
  intros Hc H0 H1. split; [|split].
  - apply Qle_shift_div_l; lra.
  - apply Qle_shift_div_r; lra.
  - field. lra.
Qed.

(* two fractions of the same positive count are ordered like the ranks they stand for *)
Lemma frac_le f1 f2 c r1 r2 : 0 < c -> f1 * c == r1 -> f2 * c == r2 -> r1 <= r2 -> f1 <= f2.
Proof. intros Hc E1 E2 Hr. apply Qmult_lt_0_le_reg_r with (z := c); [exact Hc | lra]. Qed.

Definition wf_bucket (custom : bool) (b : bucket) : Prop :=
  ext_lt (bl b) (bu b) /\
  ~ (bl b = NInf /\ bu b = PInf) /\
  (custom = false -> exists x y, bl b = Fin x /\ bu b = Fin y).

Record wf_hist (h : hist) : Prop := mkWF {
  wf_pos : 0 < h_count h;
  wf_sum : sum_nan h = false;
  wf_tot : h_count h == sumc (h_buckets h);
  wf_cnt : Forall (fun b => 0 <= bc b) (h_buckets h);
  wf_bkt : Forall (wf_bucket (h_custom h)) (h_buckets h);
  wf_sorted : StronglySorted (fun a b => ext_le (bu a) (bl b)) (h_buckets h)
}.

Lemma sorted_mid (bs pre mid post : list bucket) b1 b2 :
  StronglySorted (fun a b => ext_le (bu a) (bl b)) bs ->
  bs = pre ++ b1 :: mid ++ b2 :: post -> ext_le (bu b1) (bl b2).
Proof.
  intros S ->. induction pre as [|x pre IH]; simpl in S; apply StronglySorted_inv in S as [S F]; [|auto].
  apply Forall_elt in F. exact F.
Qed.

Section InterpProofs.
  Variable iexp : Q -> Q -> Q -> Q.
  (* interp_monotone_within_bucket: the exponential interpolation stays between the bucket's
     endpoints ... *)
  Hypothesis iexp_range : forall a b f, a < b -> 0 <= f -> f <= 1 -> a <= iexp a b f /\ iexp a b f <= b.

  (* the value HistogramQuantile returns for the bucket [b] at fraction [f] of its population *)
  Definition qvalue (h : hist) (b : bucket) (f : Q) : res :=
    match qadjust h b with
    | inl r => r
    | inr (l, u) => interp_q iexp (h_custom h) l u f
    end.

  (* between finite bounds the interpolation is linear (custom buckets, or the bounds span 0)
     or exponential (then the bounds are distinct) *)
  Lemma interp_between custom l u f1 f2 :
    (forall a b, a < b -> iexp a b f1 <= iexp a b f2) ->
    l <= u -> custom = true \/ (l <= 0 /\ 0 <= u) \/ l < u -> 0 <= f1 -> f1 <= f2 -> f2 <= 1 ->
    Between (Fin l) (Fin u) (interp_q iexp custom (Fin l) (Fin u) f1) (interp_q iexp custom (Fin l) (Fin u) f2).
  Proof.
    intros Hm Hlu Hc H0 H12 H1. unfold interp_q, lin. simpl ext_leb.
    destruct (custom || (Qle_bool l 0 && Qle_bool 0 u)) eqn:E.
    - destruct (lin_range l u f1), (lin_range l u f2); try lra.
      apply between_fin; try lra. apply lin_mono; lra.
    - apply orb_false_iff in E as [-> E]. destruct Hc as [Hc|[[Hl Hu]|Hc]]; [discriminate| |].
      + apply Qle_bool_iff in Hl, Hu. rewrite Hl, Hu in E. discriminate.
      + destruct (iexp_range l u f1), (iexp_range l u f2); try lra.
        apply between_fin; try lra. now apply Hm.
  Qed.

  (* within one bucket the result is a number between the bucket's bounds, monotone in the
     fraction *)
  Lemma qvalue_between h b f1 f2 :
    (forall a b, a < b -> iexp a b f1 <= iexp a b f2) ->
    wf_bucket (h_custom h) b -> 0 <= f1 -> f1 <= f2 -> f2 <= 1 ->
    Between (bl b) (bu b) (qvalue h b f1) (qvalue h b f2).
  Proof.
    intros Hm (Hlt & Hni & Hfin) H0 H12 H1. unfold qvalue, qadjust.
    destruct b as [l u c]; simpl in *.
    destruct (h_custom h) eqn:Ec; simpl.
    - (* custom buckets: linear; (-Inf, u] and (l, +Inf) return a bound *)
      destruct l as [|a|], u as [|b|]; simpl; try discriminate Hlt.
      + destruct (Qle_bool b 0) eqn:Eb; simpl; [now apply between_const, ext_le_refl|]. qb.
        apply between_weaken with (Fin 0) (Fin b); [reflexivity | apply ext_le_refl|].
        apply interp_between; auto; lra.
      + destruct Hni. auto.
      + apply ext_lt_fin in Hlt. apply interp_between; auto; lra.
      + apply between_const; [apply ext_le_refl | reflexivity].
    - (* standard schemas: finite bounds; a bucket spanning 0 is cut at 0 when only one sign
         of observations exists *)
      destruct (Hfin eq_refl) as (a & b & -> & ->). apply ext_lt_fin in Hlt.
      assert (Hcase : forall l' u', a <= l' -> l' <= u' -> u' <= b ->
                (l' <= 0 /\ 0 <= u') \/ l' < u' ->
                Between (Fin a) (Fin b) (interp_q iexp false (Fin l') (Fin u') f1)
                                        (interp_q iexp false (Fin l') (Fin u') f2)).
      { intros l' u' Ha Hl Hb Hor. apply between_weaken with (Fin l') (Fin u'); try now apply ext_le_fin.
        apply interp_between; auto. }
      unfold ext_ltb; simpl.
      destruct (negb (Qle_bool 0 a) && negb (Qle_bool b 0)) eqn:Ez; simpl; [|apply Hcase; lra].
      apply andb_true_iff in Ez as (Ea & Eb). rewrite negb_true_iff in Ea, Eb. qb.
      destruct (negb (h_hasneg h) && h_haspos h); [apply Hcase; lra|].
      destruct (negb (h_haspos h) && h_hasneg h); apply Hcase; lra.
  Qed.

  Lemma qvalue_range h b f :
    wf_bucket (h_custom h) b -> 0 <= f -> f <= 1 ->
    exists e, qvalue h b f = R e /\ ext_le (bl b) e /\ ext_le e (bu b).
  Proof.
    intros W H0 H1. apply between_same, qvalue_between; auto using Qle_refl.
  Qed.

  (* once the search loop of HistogramQuantile has stopped at a populated bucket [b] with the
     rank within the accumulated count [c], the result is the value of [b] at the fraction of
     its population below the rank *)
  Lemma hquantile_found h q b c rest :
    0 <= q -> q <= 1 -> 0 < h_count h ->
    let fwd := sum_nan h || Qlt_bool q (1 # 2) in
    let rank := if fwd then q * h_count h else (1 - q) * h_count h in
    scan (if fwd then h_buckets h else rev (h_buckets h)) rank 0 zero_bucket = (b, c, rest) ->
    0 < bc b -> rank <= c -> c <= h_count h ->
    hquantile iexp q h = qvalue h b ((if fwd then rank - (c - bc b) else c - rank) / bc b).
  Proof.
    intros H0 H1 Hp fwd rank Hs Hb Hr Hc. unfold hquantile, hquantile_gen.
    rewrite (proj2 (Qlt_bool_false q 0)), (proj2 (Qlt_bool_false 1 q)),
            (proj2 (Qeq_bool_false (h_count h) 0)) by lra.
    fold fwd. fold rank. rewrite Hs. unfold qvalue. destruct (qadjust h b) as [r|[l u]]; [reflexivity|].
    rewrite (proj2 (Qlt_bool_false (h_count h) c)), (proj2 (Qlt_bool_false c rank)) by lra.
    cbn [andb]. now rewrite (proj2 (Qeq_bool_false (bc b) 0)) by lra.
  Qed.

  (* ... and when the loop has run through all buckets of a histogram with a NaN sum without
     reaching the rank (NaN observations: the count exceeds the buckets), the result is NaN
     unless the last bucket returns early *)
  Lemma hquantile_beyond h q b c :
    0 <= q -> q <= 1 -> 0 < h_count h -> sum_nan h = true ->
    scan (h_buckets h) (q * h_count h) 0 zero_bucket = (b, c, []) -> c <= h_count h ->
    c < q * h_count h \/ (bc b == 0 /\ c == 0) ->
    hquantile iexp q h = match qadjust h b with inl r => r | inr _ => RNaN end.
  Proof.
    intros H0 H1 Hp Hn Hs Hc Hd. unfold hquantile, hquantile_gen.
    rewrite (proj2 (Qlt_bool_false q 0)), (proj2 (Qlt_bool_false 1 q)),
            (proj2 (Qeq_bool_false (h_count h) 0)) by lra.
    rewrite Hn. cbn [orb]. rewrite Hs. destruct (qadjust h b) as [r|[l u]]; [reflexivity|].
    rewrite (proj2 (Qlt_bool_false (h_count h) c)) by lra.
    destruct (Qlt_bool c (q * h_count h)) eqn:El; [reflexivity|]. qb.
    destruct Hd as [Hd|[Hb Hc0]]; [lra|]. cbn [andb]. assert (0 <= q * h_count h) by nra.
    now rewrite (proj2 (Qeq_bool_iff (bc b) 0)), (proj2 (Qeq_bool_iff _ 0)) by lra.
  Qed.

  (* the forward search (q < 1/2, or a NaN sum) on buckets whose total does not exceed the count *)
  Lemma hquantile_forward h q :
    0 <= q -> q <= 1 -> 0 < h_count h ->
    Forall (fun b => 0 <= bc b) (h_buckets h) -> sumc (h_buckets h) <= h_count h ->
    sum_nan h || Qlt_bool q (1 # 2) = true ->
    (exists pre b post f,
        MinSel (h_buckets h) (q * h_count h) pre b post /\
        0 <= f /\ f <= 1 /\ f * bc b == q * h_count h - sumc pre /\
        hquantile iexp q h = qvalue h b f)
    \/ ((sumc (h_buckets h) < q * h_count h \/ Forall (fun x => bc x == 0) (h_buckets h)) /\
        (sum_nan h = true -> hquantile iexp q h =
           match qadjust h (last (h_buckets h) zero_bucket) with inl r => r | inr _ => RNaN end)).
  Proof.
    intros H0 H1 Hp Wc Wt Hfwd.
    assert (HqN0 : 0 <= q * h_count h) by nra.
    destruct (scan (h_buckets h) (q * h_count h) 0 zero_bucket) as [[b c] rest] eqn:Es.
    destruct (scan_spec _ _ _ _ _ _ _ HqN0 Es) as [(pre & E & Hnz & Hcc & Hle & Hr & Hmin)|(-> & Hcc & Hd)].
    - left. destruct (sumc_split _ _ _ _ E Wc) as (HT & _ & Hb & Hrest).
      assert (Hb' : 0 < bc b) by lra.
      destruct (div_range (q * h_count h - (c - bc b)) (bc b) Hb' ltac:(lra) ltac:(lra)) as (F0 & F1 & Fm).
      exists pre, b, rest, ((q * h_count h - (c - bc b)) / bc b).
      split; [split; [repeat split; auto; lra | destruct Hmin; [left; lra | now right]]|].
      do 3 (split; [assumption || lra|]).
      assert (HF := hquantile_found h q b c rest H0 H1 Hp). cbv zeta in HF. rewrite Hfwd in HF.
      apply HF; auto; lra.
    - right. split; [destruct Hd; [left; lra | now right]|]. intro Hn.
      assert (Eb := scan_last _ _ _ _ _ _ Es). subst b.
      apply (hquantile_beyond h q _ c); auto; try lra.
      destruct Hd as [Hd|Hd]; [now left | right]. split; [|apply sumc_zero in Hd; lra].
      clear - Hd. induction Hd as [|x l Hx Hd IH]; simpl; [lra|]. destruct l; auto.
  Qed.

  (* what HistogramQuantile computes on a well-formed histogram for q in [0,1] *)
  Lemma hquantile_char h q :
    wf_hist h -> 0 <= q -> q <= 1 ->
    exists pre b post f,
      Sel (h_buckets h) (q * h_count h) pre b post /\
      (q < 1 # 2 -> MinSel (h_buckets h) (q * h_count h) pre b post) /\
      (1 # 2 <= q -> MaxSel (h_buckets h) (q * h_count h) pre b post) /\
      0 <= f /\ f <= 1 /\ f * bc b == q * h_count h - sumc pre /\
      hquantile iexp q h = qvalue h b f.
  Proof.
    intros [Wp Ws Wt Wc Wb Wo] H0 H1.
    destruct (Qlt_bool q (1 # 2)) eqn:Eh; qb.
    - destruct (hquantile_forward h q H0 H1 Wp Wc) as [(pre & b & post & f & HM & HF)|[Hd _]].
      + lra.
      + rewrite Ws. now apply Qlt_bool_true.
      + exists pre, b, post, f. split; [apply HM|]. split; [auto|]. split; [lra | exact HF].
      + exfalso. assert (q * h_count h <= h_count h) by nra.
        destruct Hd as [Hd|Hd]; [|apply sumc_zero in Hd]; lra.
    - destruct (scan (rev (h_buckets h)) ((1 - q) * h_count h) 0 zero_bucket) as [[b c] rest] eqn:Es.
      assert (Hr0 : 0 <= (1 - q) * h_count h) by nra. assert (Hr1 : (1 - q) * h_count h <= h_count h) by nra.
      destruct (rev_sel (h_buckets h) (h_count h) ((1 - q) * h_count h) zero_bucket b c rest Wc Wp Wt Hr0 Hr1 Es)
        as (pre & post & ((E & Hb & Hlo & Hhi) & Hmax) & Hc & HcN).
      destruct (div_range (c - (1 - q) * h_count h) (bc b) Hb ltac:(lra) ltac:(lra)) as (F0 & F1 & Fm).
      assert (HSel : Sel (h_buckets h) (q * h_count h) pre b post) by (repeat split; auto; lra).
      exists pre, b, post, ((c - (1 - q) * h_count h) / bc b).
      split; [exact HSel|]. split; [lra|].
      split; [intros _; split; [exact HSel | destruct Hmax; [left; lra | now right]]|].
      do 3 (split; [assumption || lra|]).
      assert (HF := hquantile_found h q b c rest H0 H1 Wp). cbv zeta in HF.
      rewrite Ws, (proj2 (Qlt_bool_false q (1 # 2))) in HF by exact Eh. cbn [orb] in HF.
      apply HF; auto; lra.
  Qed.

  (* the result lies within the bounds of a populated bucket that holds the rank q * count *)
  Theorem quantile_in_bucket h q :
    wf_hist h -> 0 <= q -> q <= 1 ->
    exists pre b post e,
      Sel (h_buckets h) (q * h_count h) pre b post /\
      hquantile iexp q h = R e /\ ext_le (bl b) e /\ ext_le e (bu b).
  Proof.
    intros W H0 H1.
    destruct (hquantile_char h q W H0 H1) as (pre & b & post & f & HS & _ & _ & F0 & F1 & _ & Hv).
    assert (Wb : wf_bucket (h_custom h) b).
    { apply (proj1 (Forall_forall _ _) (wf_bkt h W)). eapply sel_in, HS. }
    destruct (qvalue_range h b f Wb F0 F1) as (e & He & Hl & Hu).
    exists pre, b, post, e. rewrite Hv. auto.
  Qed.

  (* ... and is monotone in the fraction (it is exp2 of a linear function of f) *)
  Hypothesis iexp_mono : forall a b f1 f2, a < b -> 0 <= f1 -> f1 <= f2 -> f2 <= 1 ->
                                          iexp a b f1 <= iexp a b f2.

  (* two selections in ascending buckets, the smaller rank selected first or the larger one last,
     give ordered values *)
  Lemma sel_value_le h r1 r2 pre1 b1 post1 pre2 b2 post2 f1 f2 :
    Forall (fun b => 0 <= bc b) (h_buckets h) -> Forall (wf_bucket (h_custom h)) (h_buckets h) ->
    StronglySorted (fun a b => ext_le (bu a) (bl b)) (h_buckets h) ->
    Sel (h_buckets h) r1 pre1 b1 post1 -> Sel (h_buckets h) r2 pre2 b2 post2 -> r1 <= r2 ->
    (sumc pre1 < r1 \/ Forall (fun x => bc x == 0) pre1) \/
    (r2 < sumc pre2 + bc b2 \/ Forall (fun x => bc x == 0) post2) ->
    0 <= f1 -> f1 <= 1 -> f1 * bc b1 == r1 - sumc pre1 ->
    0 <= f2 -> f2 <= 1 -> f2 * bc b2 == r2 - sumc pre2 ->
    res_le (qvalue h b1 f1) (qvalue h b2 f2).
  Proof.
    intros Wc FB SS HS1 HS2 Hr Hext F10 F11 Fm1 F20 F21 Fm2. rewrite Forall_forall in FB.
    assert (Wb1 := FB _ (sel_in _ _ _ _ _ HS1)). assert (Wb2 := FB _ (sel_in _ _ _ _ _ HS2)).
    destruct (sel_order _ _ _ _ _ _ _ _ _ Wc HS1 HS2 Hr Hext) as [(<- & <- & <-)|(mid & Ea & Eb)].
    - destruct HS1 as (_ & Hb & _).
      assert (Hf : f1 <= f2) by (apply (frac_le _ _ _ _ _ Hb Fm1 Fm2); lra).
      eapply between_res_le, qvalue_between; auto.
    - destruct (qvalue_range h b1 f1 Wb1 F10 F11) as (e1 & -> & _ & Hu1).
      destruct (qvalue_range h b2 f2 Wb2 F20 F21) as (e2 & -> & Hl2 & _).
      destruct HS2 as (E2 & _). rewrite Ea, <- app_assoc in E2.
      exact (ext_le_trans _ _ _ Hu1 (ext_le_trans _ _ _ (sorted_mid _ _ _ _ _ _ SS E2) Hl2)).
  Qed.

  Theorem quantile_mono h q1 q2 :
    wf_hist h -> 0 <= q1 -> q1 <= q2 -> q2 <= 1 ->
    res_le (hquantile iexp q1 h) (hquantile iexp q2 h).
  Proof.
    intros W H0 H12 H1.
    destruct (hquantile_char h q1 W H0 ltac:(lra))
      as (pre1 & b1 & post1 & f1 & HS1 & HMin1 & _ & F10 & F11 & Fm1 & ->).
    destruct (hquantile_char h q2 W ltac:(lra) H1)
      as (pre2 & b2 & post2 & f2 & HS2 & _ & HMax2 & F20 & F21 & Fm2 & ->).
    assert (Hp := wf_pos h W). assert (Wc := wf_cnt h W).
    assert (Hr : q1 * h_count h <= q2 * h_count h) by nra.
    apply (sel_value_le h _ _ _ _ _ _ _ _ _ _ Wc (wf_bkt h W) (wf_sorted h W) HS1 HS2 Hr); auto.
    destruct (Qlt_le_dec q2 (1 # 2)) as [Hlt|Hge]; [left; apply HMin1; lra | right; apply HMax2, Hge].
  Qed.
End InterpProofs.

Definition ubs (l : list cbucket) : list ext := map ub l.
Definition ccs (l : list cbucket) : list Q := map cc l.

Lemma ss_nth {A} (Rl : A -> A -> Prop) (l : list A) d :
  (forall x, Rl x x) ->
  StronglySorted Rl l -> forall i j, (i <= j)%nat -> (j < length l)%nat -> Rl (nth i l d) (nth j l d).
Proof.
  intros Rr S. induction S as [|a l S IH F]; intros i j Hij Hj; simpl in Hj; [lia|].
  destruct i, j; simpl; try lia; auto.
  - rewrite Forall_forall in F. apply F. apply nth_In. lia.
  - apply IH; lia.
Qed.

Lemma cinsert_forall (P : cbucket -> Prop) b l : P b -> Forall P l -> Forall P (cinsert b l).
Proof.
  intros Hb F. induction F; simpl; [repeat constructor; auto|].
  destruct (ext_leb (ub b) (ub x)); repeat constructor; auto.
Qed.

Lemma csort_forall (P : cbucket -> Prop) l : Forall P l -> Forall P (csort l).
Proof. induction 1; simpl; [constructor|]. apply cinsert_forall; auto. Qed.

Lemma cinsert_sorted b l :
  StronglySorted ext_le (ubs l) -> StronglySorted ext_le (ubs (cinsert b l)).
Proof.
  unfold ubs. induction l as [|x l IH]; simpl; intro S; [repeat constructor|].
  apply StronglySorted_inv in S as [S F].
  destruct (ext_leb (ub b) (ub x)) eqn:E; simpl; constructor.
  - now constructor.
  - constructor; [exact E|]. revert F. apply Forall_impl. intro y. now apply ext_le_trans.
  - now apply IH.
  - rewrite Forall_map in *. apply cinsert_forall; [|exact F]. apply ext_lt_le. now apply ext_leb_false.
Qed.

Lemma csort_sorted l : StronglySorted ext_le (ubs (csort l)).
Proof. induction l; simpl; [constructor|]. apply cinsert_sorted; auto. Qed.

Lemma cinsert_nonempty b l : cinsert b l <> [].
Proof. destruct l; simpl; [discriminate|]. destruct (ext_leb _ _); discriminate. Qed.

Lemma coalesce_go_spec : forall bs lst,
  StronglySorted ext_le (ubs (lst :: bs)) -> 0 <= cc lst -> Forall (fun b => 0 <= cc b) bs ->
  StronglySorted ext_le (ubs (coalesce_go lst bs)) /\
  Forall (fun b => 0 <= cc b) (coalesce_go lst bs) /\
  Forall (ext_le (ub lst)) (ubs (coalesce_go lst bs)).
Proof.
  induction bs as [|b bs IH]; intros lst S Hl F; simpl.
  - repeat constructor; auto using ext_le_refl.
  - apply Forall_cons_iff in F as [Hb F]. simpl in S.
    apply StronglySorted_inv in S as [S Fl]. apply Forall_cons_iff in Fl as [Hlb Fl].
    destruct (ext_eqb (ub b) (ub lst)) eqn:E.
    + apply (IH (mkCB (ub lst) (cc lst + cc b))); simpl; auto; [|lra].
      apply StronglySorted_inv in S as [S _]. now constructor.
    + destruct (IH b S Hb F) as (I1 & I2 & I3).
      assert (I4 : Forall (ext_le (ub lst)) (ubs (coalesce_go b bs))).
      { revert I3. apply Forall_impl. intro y. now apply ext_le_trans. }
      repeat split; simpl; constructor; auto using ext_le_refl.
Qed.

Lemma coalesce_spec bs :
  StronglySorted ext_le (ubs bs) -> Forall (fun b => 0 <= cc b) bs ->
  StronglySorted ext_le (ubs (coalesce bs)) /\ Forall (fun b => 0 <= cc b) (coalesce bs).
Proof.
  destruct bs as [|b bs]; simpl; intros S F; [split; constructor|].
  apply Forall_cons_iff in F as [Hb F]. destruct (coalesce_go_spec bs b) as (A & B & _); auto.
Qed.

Fixpoint chain (prev : Q) (l : list Q) : Prop :=
  match l with [] => True | x :: r => prev <= x /\ chain x r end.

Lemma chain_le p p' l : p' <= p -> chain p l -> chain p' l.
Proof. destruct l; simpl; auto. intros H (A & B). split; auto. lra. Qed.

(* one bucket: the count written is the previous one, or a larger one that becomes the new
   reference *)
Lemma ensure_go_cons tol prev u c bs :
  exists c' p' f0, prev <= c' /\ c' <= p' /\
    forall r' f, ensure_go tol p' bs = (r', f) ->
                 ensure_go tol prev (mkCB u c :: bs) = (mkCB u c' :: r', f0 || f).
Proof.
  simpl. destruct (Qeq_bool c prev) eqn:E1; [|destruct (almost_equal prev c tol);
    [|destruct (Qlt_bool c prev) eqn:E3]]; qb.
  - exists c, prev, false. repeat split; try lra. intros r' f ->. reflexivity.
  - exists prev, prev, false. repeat split; try lra. intros r' f ->. reflexivity.
  - exists prev, prev, true. repeat split; try lra. intros r' f ->. reflexivity.
  - exists c, c, false. repeat split; try lra. intros r' f ->. reflexivity.
Qed.

(* for ANY input counts and tolerance the corrected counts never decrease *)
Lemma ensure_go_spec : forall bs tol prev out f,
  ensure_go tol prev bs = (out, f) ->
  chain prev (ccs out) /\ ubs out = ubs bs /\
  (0 <= prev -> Forall (fun b => 0 <= cc b) out).
Proof.
  induction bs as [|[u c] bs IH]; intros tol prev out f E.
  - injection E as <- <-. simpl. auto.
  - destruct (ensure_go_cons tol prev u c bs) as (c' & p' & f0 & H1 & H2 & Hc).
    destruct (ensure_go tol p' bs) as [r' f'] eqn:Er. rewrite (Hc _ _ eq_refl) in E. injection E as <- <-.
    destruct (IH _ _ _ _ Er) as (A & B & C). simpl. repeat split.
    + exact H1.
    + now apply chain_le with p'.
    + now f_equal.
    + intro Hp. constructor; [simpl; lra | apply C; lra].
Qed.

Definition nondecreasing (l : list Q) : Prop :=
  match l with [] => True | x :: r => chain x r end.

Theorem ensure_monotonic_nondecreasing tol bs out f :
  ensure_monotonic tol bs = (out, f) ->
  nondecreasing (ccs out) /\ ubs out = ubs bs /\
  (Forall (fun b => 0 <= cc b) bs -> Forall (fun b => 0 <= cc b) out).
Proof.
  destruct bs as [|b bs]; simpl; intro E.
  - injection E as <- <-. simpl. auto.
  - destruct (ensure_go tol (cc b) bs) as [r' f'] eqn:Er. injection E as <- <-.
    destruct (ensure_go_spec _ _ _ _ _ Er) as (A & B & C). simpl.
    split; auto. split; [f_equal; auto|].
    intro F. apply Forall_cons_iff in F as [Hb F]. constructor; auto.
Qed.

Lemma chain_sorted : forall l p, chain p l -> StronglySorted Qle (p :: l).
Proof.
  induction l as [|x l IH]; intros p C; [repeat constructor|]. destruct C as (A & B).
  apply IH in B. constructor; [exact B|]. constructor; [exact A|].
  apply StronglySorted_inv in B as [_ F]. revert F. apply Forall_impl. intro y. lra.
Qed.

Lemma bsearch_spec (f : nat -> bool) (n : nat) :
  (forall a b, (a <= b)%nat -> (b < n)%nat -> f a = true -> f b = true) ->
  forall fuel i j,
    (i <= j)%nat -> (j <= n)%nat -> (j - i <= fuel)%nat ->
    (forall k, (k < i)%nat -> f k = false) ->
    (forall k, (j <= k)%nat -> (k < n)%nat -> f k = true) ->
    exists b, bsearch fuel f i j = Some b /\ (b <= n)%nat /\
              (forall k, (k < b)%nat -> f k = false) /\
              (forall k, (b <= k)%nat -> (k < n)%nat -> f k = true).
Proof.
  intros Hm. induction fuel as [|fuel IH]; intros i j Hij Hjn Hf Hlo Hhi; simpl.
  - assert (i = j) by lia. subst. rewrite Nat.ltb_irrefl. exists j. auto.
  - destruct (Nat.ltb i j) eqn:El.
    + apply Nat.ltb_lt in El.
      assert (i <= Nat.div2 (i + j) < j)%nat as (B1 & B2)
        by (rewrite Nat.div2_div; split; [apply Nat.div_le_lower_bound | apply Nat.div_lt_upper_bound]; lia).
      set (h := Nat.div2 (i + j)) in *.
      destruct (f h) eqn:Eh; simpl.
      * apply IH; try lia; auto.
        intros k Hk Hkn. apply (Hm h k); auto.
      * apply IH; try lia; auto.
        intros k Hk. destruct (f k) eqn:Ek; auto.
        assert (f h = true) by (apply (Hm k h); auto; lia). congruence.
    + apply Nat.ltb_ge in El. assert (i = j) by lia. subst. exists j. auto.
Qed.

Lemma lin_frac_between l u cnt a1 a2 :
  ext_le l u -> 0 < cnt -> 0 <= a1 -> a1 <= a2 -> a2 <= cnt ->
  lin l u (a1 / cnt) = RNaN \/ lin l u (a2 / cnt) = RNaN \/
  Between l u (lin l u (a1 / cnt)) (lin l u (a2 / cnt)).
Proof.
  intros Hlu Hc H0 H12 H1.
  destruct (div_range a1 cnt) as (F0 & F1 & Fm1); try lra.
  destruct (div_range a2 cnt) as (G0 & G1 & Fm2); try lra.
  assert (Hf := frac_le _ _ _ _ _ Hc Fm1 Fm2 H12).
  destruct l as [|a|], u as [|b|]; simpl; auto; try discriminate Hlu.
  - apply ext_le_fin in Hlu. right; right.
    destruct (lin_range a b (a1 / cnt)), (lin_range a b (a2 / cnt)); try lra.
    apply between_fin; try lra. apply lin_mono; lra.
  - destruct (Qeq_bool (a1 / cnt) 0) eqn:E; auto. qb.
    rewrite (proj2 (Qeq_bool_false (a2 / cnt) 0)), (proj2 (Qle_bool_iff 0 (a1 / cnt))),
            (proj2 (Qle_bool_iff 0 (a2 / cnt))) by lra.
    right; right. now apply between_const.
Qed.

(* the part of BucketQuantile after sorting / coalescing / ensure_monotonic *)
Definition cq_val (bs : list cbucket) (b : nat) (rank : Q) : res :=
  let n := length bs in
  if Nat.eqb b (n - 1) then R (ub (nthb bs (n - 2)))
  else if Nat.eqb b 0 && ext_leb (ub (nthb bs 0)) (Fin 0) then R (ub (nthb bs 0))
  else
    let bend := ub (nthb bs b) in
    let '(bstart, count, rank) :=
      if Nat.ltb 0 b
      then (ub (nthb bs (b - 1)), cc (nthb bs b) - cc (nthb bs (b - 1)), rank - cc (nthb bs (b - 1)))
      else (Fin 0, cc (nthb bs b), rank) in
    if Qeq_bool count 0 then RNaN else lin bstart bend (rank / count).

Definition cq_tail (bs : list cbucket) (forced : bool) (q : Q) : qres :=
  let n := length bs in
  if Nat.ltb n 2 then QOk RNaN forced
  else
    let observations := cc (nthb bs (n - 1)) in
    if Qeq_bool observations 0 then QOk RNaN forced
    else
      let rank := q * observations in
      match sort_search (n - 1) (fun i => Qle_bool rank (cc (nthb bs i))) with
      | None => QFuel
      | Some b => QOk (cq_val bs b rank) forced
      end.

Lemma bucket_quantile_unfold q bs0 :
  0 <= q -> q <= 1 ->
  bucket_quantile q bs0 =
  match csort bs0 with
  | [] => QPanic
  | _ => if negb (is_pinf (ub (last (csort bs0) dflt))) then QOk RNaN false
         else let '(bs, forced) := ensure_monotonic small_delta_tolerance (coalesce (csort bs0)) in
              cq_tail bs forced q
  end.
Proof.
  intros H0 H1. unfold bucket_quantile.
  rewrite (proj2 (Qlt_bool_false q 0)), (proj2 (Qlt_bool_false 1 q)) by lra.
  destruct (csort bs0); [reflexivity|].
  destruct (negb (is_pinf (ub (last (c :: l) dflt)))); [reflexivity|].
  destruct (ensure_monotonic small_delta_tolerance (coalesce (c :: l))) as [bs forced].
  unfold cq_tail, cq_val.
  destruct (Nat.ltb (length bs) 2); [reflexivity|].
  destruct (Qeq_bool (cc (nthb bs (length bs - 1))) 0); [reflexivity|].
  destruct (sort_search _ _); [|reflexivity].
  destruct (Nat.eqb n (length bs - 1)); [reflexivity|].
  destruct (Nat.eqb n 0 && ext_leb (ub (nthb bs 0)) (Fin 0)); [reflexivity|].
  destruct (Nat.ltb 0 n); simpl;
    match goal with |- context [Qeq_bool ?x 0] => destruct (Qeq_bool x 0) end; reflexivity.
Qed.

Section ClassicCore.
  Variable bs : list cbucket.
  Let n := length bs.
  Let c (i : nat) := cc (nthb bs i).
  Let u (i : nat) := ub (nthb bs i).
  Hypothesis Hn : (2 <= n)%nat.
  Hypothesis HC : forall i j, (i <= j)%nat -> (j < n)%nat -> c i <= c j.
  Hypothesis HU : forall i j, (i <= j)%nat -> (j < n)%nat -> ext_le (u i) (u j).
  Hypothesis HN : forall i, (i < n)%nat -> 0 <= c i.

  (* what sort.Search guarantees about the chosen bucket *)
  Definition chosen (b : nat) (rank : Q) : Prop :=
    (b <= n - 1)%nat /\ (forall k, (k < b)%nat -> c k < rank) /\ ((b < n - 1)%nat -> rank <= c b).

  Lemma search_chosen rank :
    exists b, sort_search (n - 1) (fun i => Qle_bool rank (c i)) = Some b /\ chosen b rank.
  Proof.
    unfold sort_search.
    assert (Hm : forall a b, (a <= b)%nat -> (b < n - 1)%nat ->
                 Qle_bool rank (c a) = true -> Qle_bool rank (c b) = true).
    { intros a b Hab Hb Ha. qb. apply Qle_bool_iff. specialize (HC a b Hab ltac:(lia)). lra. }
    destruct (bsearch_spec (fun i => Qle_bool rank (c i)) (n - 1) Hm (n - 1) 0 (n - 1))%nat
      as (b & Eb & Hb & Hlo & Hhi); try lia.
    exists b. split; auto. split; [lia|]. split.
    - intros k Hk. specialize (Hlo k Hk). qb. auto.
    - intros Hlt. specialize (Hhi b ltac:(lia) Hlt). qb. auto.
  Qed.

  Lemma chosen_order b1 b2 r1 r2 : chosen b1 r1 -> chosen b2 r2 -> r1 <= r2 -> (b1 <= b2)%nat.
  Proof.
    intros (A1 & L1 & H1) (A2 & L2 & H2) Hr.
    destruct (Nat.le_gt_cases b1 b2) as [|Hlt]; auto. exfalso.
    specialize (L1 b2 Hlt). specialize (H2 ltac:(lia)). lra.
  Qed.

  (* the bounds between which the result for bucket [b] lies: the previous upper bound (0 for
     the first bucket, or its own upper bound if that is not positive) and its upper bound (the
     highest finite one for the +Inf bucket) *)
  Definition lo (b : nat) : ext :=
    if Nat.eqb b 0 then (if ext_leb (u 0) (Fin 0) then u 0 else Fin 0) else u (b - 1).
  Definition hi (b : nat) : ext := if Nat.eqb b (n - 1) then u (n - 2) else u b.

  Lemma hi_lo b1 b2 : (b1 < b2)%nat -> (b2 <= n - 1)%nat -> ext_le (hi b1) (lo b2).
  Proof.
    intros H1 H2. unfold hi, lo.
    rewrite (proj2 (Nat.eqb_neq b1 (n - 1))), (proj2 (Nat.eqb_neq b2 0)) by lia. apply HU; lia.
  Qed.

  (* two ranks falling into the same bucket: NaN, or ordered numbers between its bounds *)
  Lemma cq_val_between b r1 r2 :
    chosen b r1 -> chosen b r2 -> 0 <= r1 -> r1 <= r2 ->
    cq_val bs b r1 = RNaN \/ cq_val bs b r2 = RNaN \/ Between (lo b) (hi b) (cq_val bs b r1) (cq_val bs b r2).
  Proof.
    intros (A & L1 & H1) (_ & L2 & H2) H0 Hr. unfold cq_val, lo, hi. fold n.
    destruct (Nat.eqb b (n - 1)) eqn:E1.
    { apply Nat.eqb_eq in E1. rewrite (proj2 (Nat.eqb_neq b 0)) by lia. subst b.
      right; right. replace (n - 1 - 1)%nat with (n - 2)%nat by lia. apply between_const; apply ext_le_refl. }
    apply Nat.eqb_neq in E1. assert (Hb : (b < n - 1)%nat) by lia.
    specialize (H1 Hb). specialize (H2 Hb).
    destruct b as [|b']; cbn [Nat.eqb Nat.ltb Nat.leb]; cbv iota.
    - fold (u 0) (c 0). destruct (ext_leb (u 0) (Fin 0)) eqn:E2; simpl andb; cbv iota.
      { right; right. apply between_const; apply ext_le_refl. }
      destruct (Qeq_bool (c 0) 0) eqn:E4; auto. qb.
      assert (0 <= c 0) by (apply HN; lia).
      apply lin_frac_between; try lra. apply ext_lt_le. now apply ext_leb_false.
    - replace (S b' - 1)%nat with b' by lia. fold (u b') (u (S b')) (c b') (c (S b')).
      specialize (L1 b' ltac:(lia)).
      rewrite (proj2 (Qeq_bool_false (c (S b') - c b') 0)) by lra.
      apply lin_frac_between; try lra. apply HU; lia.
  Qed.

  Lemma cq_val_mono b1 b2 r1 r2 :
    chosen b1 r1 -> chosen b2 r2 -> 0 <= r1 -> r1 <= r2 ->
    cq_val bs b1 r1 = RNaN \/ cq_val bs b2 r2 = RNaN \/ res_le (cq_val bs b1 r1) (cq_val bs b2 r2).
  Proof.
    intros C1 C2 H0 Hr.
    destruct (Nat.eq_dec b1 b2) as [<-|Hne].
    - destruct (cq_val_between b1 r1 r2 C1 C2 H0 Hr) as [N|[N|B]]; auto.
      right; right. eapply between_res_le, B.
    - assert (Hlt : (b1 < b2)%nat) by (pose proof (chosen_order _ _ _ _ C1 C2 Hr); lia).
      destruct (cq_val_between b1 r1 r1 C1 C1 H0 (Qle_refl r1)) as [N|[N|B1]]; auto.
      destruct (cq_val_between b2 r2 r2 C2 C2 ltac:(lra) (Qle_refl r2)) as [N|[N|B2]]; auto.
      apply between_same in B1 as (e1 & -> & _ & U1). apply between_same in B2 as (e2 & -> & L2 & _).
      right; right. simpl.
      apply (ext_le_trans _ _ _ U1), (ext_le_trans _ _ _ (hi_lo _ _ Hlt (proj1 C2))), L2.
  Qed.
End ClassicCore.

Lemma cq_tail_mono bs forced q1 q2 :
  StronglySorted ext_le (ubs bs) -> nondecreasing (ccs bs) -> Forall (fun b => 0 <= cc b) bs ->
  0 <= q1 -> q1 <= q2 -> q2 <= 1 ->
  exists r1 r2, cq_tail bs forced q1 = QOk r1 forced /\ cq_tail bs forced q2 = QOk r2 forced /\
                (r1 = RNaN \/ r2 = RNaN \/ res_le r1 r2).
Proof.
  intros SU SC FN H0 H12 H1. unfold cq_tail.
  destruct (Nat.ltb (length bs) 2) eqn:En; [exists RNaN, RNaN; auto|].
  apply Nat.ltb_ge in En.
  destruct (Qeq_bool (cc (nthb bs (length bs - 1))) 0) eqn:Eo; [exists RNaN, RNaN; auto|].
  qb.
  assert (HC : forall i j, (i <= j)%nat -> (j < length bs)%nat -> cc (nthb bs i) <= cc (nthb bs j)).
  { intros i j Hij Hj. unfold nthb.
    rewrite <- !(map_nth cc). apply ss_nth; auto; [apply Qle_refl | | now rewrite map_length].
    unfold ccs in SC. destruct (map cc bs); [constructor | now apply chain_sorted]. }
  assert (HU : forall i j, (i <= j)%nat -> (j < length bs)%nat -> ext_le (ub (nthb bs i)) (ub (nthb bs j))).
  { intros i j Hij Hj. unfold nthb.
    rewrite <- !(map_nth ub). apply ss_nth; auto; [apply ext_le_refl|]. unfold ubs in *. rewrite map_length. auto. }
  assert (HN : forall i, (i < length bs)%nat -> 0 <= cc (nthb bs i)).
  { intros i Hi. rewrite Forall_forall in FN. apply FN. apply nth_In. auto. }
  assert (Hobs : 0 < cc (nthb bs (length bs - 1))).
  { specialize (HN (length bs - 1)%nat ltac:(lia)). lra. }
  set (obs := cc (nthb bs (length bs - 1))) in *.
  destruct (search_chosen bs En HC (q1 * obs)) as (b1 & S1 & C1).
  destruct (search_chosen bs En HC (q2 * obs)) as (b2 & S2 & C2).
  rewrite S1, S2.
  exists (cq_val bs b1 (q1 * obs)), (cq_val bs b2 (q2 * obs)). split; auto. split; auto.
  eapply cq_val_mono; eauto; nra.
Qed.

(* BucketQuantile never decreases with q, for any non-empty bucket set with non-negative finite
   counts (not necessarily monotonic); a NaN result (possible only in the situations listed in
   [bucket_quantile] — no +Inf bucket, < 2 distinct bounds, no observations, or q*obs = 0 with an
   empty lowest bucket) is not ordered *)
Theorem bucket_quantile_mono bs0 q1 q2 :
  bs0 <> [] -> Forall (fun b => 0 <= cc b) bs0 ->
  0 <= q1 -> q1 <= q2 -> q2 <= 1 ->
  exists r1 r2 f, bucket_quantile q1 bs0 = QOk r1 f /\ bucket_quantile q2 bs0 = QOk r2 f /\
                  (r1 = RNaN \/ r2 = RNaN \/ res_le r1 r2).
Proof.
  intros Hne FN H0 H12 H1.
  rewrite !bucket_quantile_unfold by lra.
  assert (Hs : csort bs0 <> []).
  { destruct bs0; [congruence|]. simpl. apply cinsert_nonempty. }
  destruct (csort bs0) as [|x l] eqn:Es; [congruence|]. rewrite <- Es.
  destruct (negb (is_pinf (ub (last (csort bs0) dflt)))); [exists RNaN, RNaN, false; auto|].
  destruct (coalesce_spec (csort bs0) (csort_sorted bs0) (csort_forall _ _ FN)) as (CS & CF).
  destruct (ensure_monotonic small_delta_tolerance (coalesce (csort bs0))) as [bs forced] eqn:Ee.
  destruct (ensure_monotonic_nondecreasing _ _ _ _ Ee) as (EN & EU & EF).
  destruct (cq_tail_mono bs forced q1 q2) as (r1 & r2 & A & B & C); auto.
  - rewrite EU. exact CS.
  - exists r1, r2, forced. auto.
Qed.

Section FractionProofs.
  Variable fexp : Q -> Q -> Q -> Q.
  (* Bucket.FractionBelow(v, false) for v strictly inside a standard-schema bucket (a,b):
     between 0 and 1 and monotone in v (it is a linear function of log2 |v|) *)
  Hypothesis fexp_range : forall a b x, a < x -> x < b -> 0 <= fexp a b x /\ fexp a b x <= 1.
  Hypothesis fexp_mono : forall a b x1 x2, a < x1 -> x1 <= x2 -> x2 < b -> fexp a b x1 <= fexp a b x2.

  Variable h : hist.

  (* the rank one iteration assigns to ONE bound v, if this bucket decides it *)
  Definition cdf_step (v : ext) (b : bucket) (rank : Q) : option Q :=
    let '(l, u, lineark) := fadjust h b in
    if ext_leb v l then Some rank
    else if ext_ltb l v && ext_ltb v u then Some (frac_interp fexp lineark l u (bc b) rank v)
    else None.

  (* once a rank is set it stays *)
  Definition orelse (o d : option Q) : option Q := match o with Some x => Some x | None => d end.

  Lemma orelse_assoc a b c : orelse (orelse a b) c = orelse a (orelse b c).
  Proof. now destruct a. Qed.

  Lemma orelse_some a b c y : orelse a b = Some y -> orelse a (orelse b c) = Some y.
  Proof. destruct a; simpl; [auto | now intros ->]. Qed.

  (* the rank the loop of HistogramFraction assigns to ONE bound v (None = never set) *)
  Fixpoint cdf_loop (v : ext) (bs : list bucket) (rank : Q) : option Q :=
    match bs with
    | [] => None
    | b :: r => orelse (cdf_step v b rank) (cdf_loop v r (rank + bc b))
    end.

  Definition clampN (o : option Q) : Q :=
    match o with
    | Some x => if Qlt_bool (h_count h) x then h_count h else x
    | None => h_count h
    end.
  Definition cdf (v : ext) : Q := clampN (cdf_loop v (h_buckets h) 0).

  Definition optl (s : fstate) := if fs_lset s then Some (fs_lrank s) else None.
  Definition optu (s : fstate) := if fs_uset s then Some (fs_urank s) else None.

  (* one iteration treats the two bounds independently of each other: a table of the six tests *)
  Lemma fstep_opt lo up b s :
    let '(s', brk) := fstep fexp h lo up b s in
    optl s' = orelse (optl s) (cdf_step lo b (fs_rank s)) /\
    optu s' = orelse (optu s) (cdf_step up b (fs_rank s)) /\
    brk = fs_lset s' && fs_uset s' /\ (brk = false -> fs_rank s' = fs_rank s + bc b).
  Proof.
    unfold fstep, cdf_step, optl, optu. destruct (fadjust h b) as [[l u] k].
    destruct s as [cnt rank lr ur ls us]; simpl.
    destruct ls, us, (ext_leb lo l), (ext_leb up l); simpl;
      destruct (ext_ltb l lo && ext_ltb lo u), (ext_ltb l up && ext_ltb up u); simpl;
      repeat split; auto; discriminate.
  Qed.

  Lemma floop_cdf lo up : forall bs s s' rest,
    floop fexp h lo up bs s = (s', rest) ->
    optl s' = orelse (optl s) (cdf_loop lo bs (fs_rank s)) /\
    optu s' = orelse (optu s) (cdf_loop up bs (fs_rank s)).
  Proof.
    induction bs as [|b bs IH]; intros s s' rest E; simpl in E.
    - injection E as <- <-. simpl. now destruct (optl s), (optu s).
    - assert (H := fstep_opt lo up b s). destruct (fstep fexp h lo up b s) as [s1 brk].
      destruct H as (Hl & Hu & Hb & Hr). simpl cdf_loop. destruct brk.
      + (* both bounds are set: they were set by this bucket at the latest *)
        injection E as <- <-. symmetry in Hb. apply andb_true_iff in Hb as [Hbl Hbu].
        unfold optl at 1 in Hl. unfold optu at 1 in Hu. unfold optl at 1. unfold optu at 1.
        rewrite Hbl in *. rewrite Hbu in *. symmetry in Hl, Hu.
        now rewrite (orelse_some _ _ _ _ Hl), (orelse_some _ _ _ _ Hu).
      + apply IH in E as [El Eu]. now rewrite El, Eu, Hl, Hu, (Hr eq_refl), !orelse_assoc.
  Qed.

  Lemma hfranks_cdf lo up :
    sum_nan h = false -> hfranks fexp lo up h = (cdf lo, cdf up).
  Proof.
    intro Hs. unfold hfranks, cdf.
    destruct (floop fexp h lo up (h_buckets h) (mkFS 0 0 0 0 false false)) as [s rest] eqn:E.
    destruct (floop_cdf lo up _ _ _ _ E) as (A & B). simpl in A, B.
    rewrite Hs. rewrite <- A, <- B. unfold optl, optu, clampN.
    destruct (fs_lset s), (fs_uset s); simpl; reflexivity.
  Qed.

  Definition ole (o1 o2 : option Q) : Prop :=
    match o1, o2 with
    | Some a, Some b => a <= b
    | _, None => True
    | None, Some _ => False
    end.

  Lemma clampN_mono o1 o2 : ole o1 o2 -> clampN o1 <= clampN o2.
  Proof.
    unfold clampN. destruct o1 as [a|], o2 as [b|]; simpl; intro H; try tauto; try lra.
    - destruct (Qlt_bool (h_count h) a) eqn:Ea, (Qlt_bool (h_count h) b) eqn:Eb; qb; lra.
    - destruct (Qlt_bool (h_count h) a) eqn:Ea; qb; lra.
  Qed.

  Lemma fadjust_facts b l u k :
    wf_bucket (h_custom h) b -> fadjust h b = (l, u, k) ->
    ext_le l u /\ (l = NInf -> bl b = NInf) /\ l <> PInf /\
    (k = false -> exists x y, l = Fin x /\ u = Fin y /\ x < y).
  Proof.
    intros (Hlt & Hni & Hfin) E. unfold fadjust in E.
    assert (Hl : bl b <> PInf) by (intro Hp; rewrite Hp in Hlt; destruct (bu b); discriminate).
    destruct (ext_leb (bl b) (Fin 0) && ext_leb (Fin 0) (bu b)) eqn:Z.
    - rewrite orb_true_r in E. apply andb_true_iff in Z as (Z1 & Z2).
      destruct (negb (h_hasneg h) && h_haspos h); [|destruct (negb (h_haspos h) && h_hasneg h)];
        injection E as <- <- <-; repeat split; auto using ext_lt_le; discriminate.
    - rewrite orb_false_r in E. injection E as <- <- <-. repeat split; auto using ext_lt_le.
      intro Hc. destruct (Hfin Hc) as (x & y & Ex & Ey). exists x, y.
      rewrite Ex, Ey in *. repeat split. now apply ext_lt_fin.
  Qed.

  Lemma ext_between_fin l v u : ext_lt l v -> ext_lt v u -> exists x, v = Fin x.
  Proof. destruct v; [discriminate | eauto | destruct u; discriminate]. Qed.

  (* the interpolated rank of a bound inside the bucket lies within the bucket's ranks and grows
     with the bound *)
  Lemma fi_between k l u c rank v1 v2 :
    0 <= c -> (l = NInf -> rank == 0) ->
    (k = false -> exists x y, l = Fin x /\ u = Fin y /\ x < y) ->
    ext_lt l v1 -> ext_le v1 v2 -> ext_lt v2 u ->
    rank <= frac_interp fexp k l u c rank v1 /\
    frac_interp fexp k l u c rank v1 <= frac_interp fexp k l u c rank v2 /\
    frac_interp fexp k l u c rank v2 <= rank + c.
  Proof.
    intros Hc Hn Hk H1 H12 H2.
    destruct (ext_between_fin l v1 u H1 (ext_le_lt_trans _ _ _ H12 H2)) as (x1 & ->).
    destruct (ext_between_fin l v2 u (ext_lt_le_trans _ _ _ H1 H12) H2) as (x2 & ->).
    apply ext_le_fin in H12. unfold frac_interp. destruct k.
    - destruct l as [|a|], u as [|b|]; try specialize (Hn eq_refl); try lra.
      apply ext_lt_fin in H1, H2.
      destruct (div_range (x1 - a) (b - a)) as (F0 & F1 & M1); try lra.
      destruct (div_range (x2 - a) (b - a)) as (G0 & G1 & M2); try lra.
      assert ((x1 - a) / (b - a) <= (x2 - a) / (b - a)) by (apply (frac_le _ _ (b - a) (x1 - a) (x2 - a)); lra).
      repeat split; nra.
    - destruct (Hk eq_refl) as (a & b & -> & -> & Hab). apply ext_lt_fin in H1, H2.
      destruct (fexp_range a b x1), (fexp_range a b x2); try lra.
      assert (fexp a b x1 <= fexp a b x2) by (apply fexp_mono; auto). repeat split; nra.
  Qed.

  (* the hypotheses under which the ranks of a bucket list are examined: non-negative counts,
     well-formed ascending buckets, and nothing counted yet below a bucket starting at -Inf *)
  Definition ok (bs : list bucket) (rank : Q) : Prop :=
    Forall (fun b => 0 <= bc b) bs /\ Forall (wf_bucket (h_custom h)) bs /\
    StronglySorted (fun a b => ext_le (bu a) (bl b)) bs /\
    (forall b, In b bs -> bl b = NInf -> rank == 0).

  Lemma ok_cons b bs rank : ok (b :: bs) rank ->
    0 <= bc b /\ wf_bucket (h_custom h) b /\ (bl b = NInf -> rank == 0) /\ ok bs (rank + bc b).
  Proof.
    intros (FN & FW & SS & P). apply Forall_cons_iff in FN as [Hc FN]. apply Forall_cons_iff in FW as [Hw FW].
    apply StronglySorted_inv in SS as [SS F].
    split; [exact Hc|]. split; [exact Hw|]. split; [apply P; now left|].
    split; [exact FN|]. split; [exact FW|]. split; [exact SS|].
    intros b' I E. exfalso. rewrite Forall_forall in F. specialize (F _ I). rewrite E in F.
    destruct Hw as (Hlt & _). apply (ext_lt_not_le _ _ Hlt). now destruct (bu b).
  Qed.

  Section OneBucket.
    Variables (b : bucket) (rank : Q).
    Hypothesis Hc : 0 <= bc b.
    Hypothesis Hw : wf_bucket (h_custom h) b.
    Hypothesis Hn : bl b = NInf -> rank == 0.

    Lemma cdf_step_range v x : cdf_step v b rank = Some x -> rank <= x /\ x <= rank + bc b.
    Proof.
      unfold cdf_step. destruct (fadjust h b) as [[l u] k] eqn:Ea.
      destruct (fadjust_facts b l u k Hw Ea) as (Hlu & Hnl & _ & Hk).
      destruct (ext_leb v l); [intros [= <-]; lra|].
      destruct (ext_ltb l v && ext_ltb v u) eqn:B; [|discriminate]. intros [= <-].
      apply andb_true_iff in B as (B1 & B2).
      destruct (fi_between k l u (bc b) rank v v) as (F1 & _ & F2); auto using ext_le_refl.
    Qed.

    Lemma cdf_step_mono v1 v2 : ext_le v1 v2 -> ole (cdf_step v1 b rank) (cdf_step v2 b rank).
    Proof.
      intro H12. unfold cdf_step. destruct (fadjust h b) as [[l u] k] eqn:Ea.
      destruct (fadjust_facts b l u k Hw Ea) as (Hlu & Hnl & _ & Hk).
      assert (Hfi : forall w1 w2, ext_lt l w1 -> ext_le w1 w2 -> ext_lt w2 u ->
                rank <= frac_interp fexp k l u (bc b) rank w1 <= frac_interp fexp k l u (bc b) rank w2).
      { intros w1 w2 A B C. destruct (fi_between k l u (bc b) rank w1 w2); auto. tauto. }
      destruct (ext_leb v1 l) eqn:A1, (ext_leb v2 l) eqn:A2; try apply ext_leb_false in A1;
        try apply ext_leb_false in A2.
      - simpl. lra.
      - destruct (ext_ltb l v2 && ext_ltb v2 u) eqn:B2; simpl; [|exact I].
        apply andb_true_iff in B2 as (_ & B2). apply (Hfi v2 v2); auto using ext_le_refl.
      - destruct (ext_lt_not_le _ _ (ext_lt_le_trans _ _ _ A1 H12) A2).
      - destruct (ext_ltb l v2 && ext_ltb v2 u) eqn:B2.
        + apply andb_true_iff in B2 as (_ & B2). rewrite A1, (ext_le_lt_trans _ _ _ H12 B2 : ext_ltb v1 u = true).
          simpl. now apply Hfi.
        + destruct (ext_ltb l v1 && ext_ltb v1 u); exact I.
    Qed.
  End OneBucket.

  Lemma cdf_loop_lower v : forall bs rank x,
    ok bs rank -> cdf_loop v bs rank = Some x -> rank <= x.
  Proof.
    induction bs as [|b bs IH]; intros rank x Hok E; simpl in E; [discriminate|].
    apply ok_cons in Hok as (Hc & Hw & Hn & Hok).
    destruct (cdf_step v b rank) as [y|] eqn:Es.
    - injection E as <-. now apply (cdf_step_range b rank Hc Hw Hn v).
    - apply IH in E; [lra | exact Hok].
  Qed.

  Lemma cdf_loop_mono v1 v2 : ext_le v1 v2 -> forall bs rank,
    ok bs rank -> ole (cdf_loop v1 bs rank) (cdf_loop v2 bs rank).
  Proof.
    intros H12. induction bs as [|b bs IH]; intros rank Hok; simpl; [exact I|].
    apply ok_cons in Hok as (Hc & Hw & Hn & Hok).
    assert (Hm := cdf_step_mono b rank Hc Hw Hn v1 v2 H12).
    destruct (cdf_step v1 b rank) as [x1|] eqn:E1, (cdf_step v2 b rank) as [x2|]; try easy; [|now apply IH].
    destruct (cdf_loop v2 bs (rank + bc b)) as [x2|] eqn:E2; [simpl | exact I].
    apply cdf_loop_lower in E2; [|exact Hok]. apply (cdf_step_range b rank Hc Hw Hn) in E1. lra.
  Qed.

  Hypothesis W : wf_hist h.

  Lemma ok_top : ok (h_buckets h) 0.
  Proof. destruct W. repeat split; auto. Qed.

  Lemma cdf_mono v1 v2 : ext_le v1 v2 -> cdf v1 <= cdf v2.
  Proof. intro H. apply clampN_mono, cdf_loop_mono; [exact H | exact ok_top]. Qed.

  Lemma cdf_range v : 0 <= cdf v /\ cdf v <= h_count h.
  Proof.
    unfold cdf, clampN. assert (Hp := wf_pos h W).
    destruct (cdf_loop v (h_buckets h) 0) as [x|] eqn:E; [|lra].
    apply cdf_loop_lower in E; [|exact ok_top].
    destruct (Qlt_bool (h_count h) x) eqn:Ex; qb; lra.
  Qed.

  Lemma cdf_loop_pinf : forall bs rank,
    Forall (wf_bucket (h_custom h)) bs -> cdf_loop PInf bs rank = None.
  Proof.
    induction bs as [|b bs IH]; intros rank FW; simpl; auto.
    apply Forall_cons_iff in FW as [Hw FW]. unfold cdf_step.
    destruct (fadjust h b) as [[l u] k] eqn:Ea.
    destruct (fadjust_facts b l u k Hw Ea) as (_ & _ & Hl & _).
    assert (Hu : ext_ltb PInf u = false) by (destruct u; reflexivity).
    destruct l; try congruence; simpl; rewrite ?Hu; apply IH; auto.
  Qed.

  Lemma cdf_pinf : cdf PInf = h_count h.
  Proof. unfold cdf. rewrite cdf_loop_pinf; [reflexivity|apply (wf_bkt h W)]. Qed.

  Lemma cdf_ninf : cdf NInf == 0.
  Proof.
    unfold cdf. assert (Hp := wf_pos h W). assert (Ht := wf_tot h W).
    destruct (h_buckets h) as [|b bs] eqn:E; [simpl in Ht; lra|].
    simpl. unfold cdf_step. destruct (fadjust h b) as [[l u] k]. simpl.
    rewrite (proj2 (Qlt_bool_false (h_count h) 0)) by lra. lra.
  Qed.

  Lemma hfraction_eq lo up :
    hfraction fexp lo up h =
    if ext_leb up lo then R (Fin 0) else R (Fin ((cdf up - cdf lo) / h_count h)).
  Proof.
    unfold hfraction. assert (Hp := wf_pos h W).
    rewrite (proj2 (Qeq_bool_false (h_count h) 0)) by lra.
    destruct (ext_leb up lo); [reflexivity|].
    rewrite hfranks_cdf; [reflexivity|apply (wf_sum h W)].
  Qed.

  (* the fraction lies in [0, 1] *)
  Theorem fraction_range lo up :
    exists x, hfraction fexp lo up h = R (Fin x) /\ 0 <= x /\ x <= 1.
  Proof.
    rewrite hfraction_eq. assert (Hp := wf_pos h W).
    destruct (ext_leb up lo) eqn:E; [exists 0; split; [reflexivity|lra]|].
    eexists; split; [reflexivity|].
    apply ext_leb_false, ext_lt_le in E. assert (Hm := cdf_mono lo up E).
    destruct (cdf_range lo), (cdf_range up).
    destruct (div_range (cdf up - cdf lo) (h_count h)) as (A & B & _); try lra.
  Qed.

  (* it does not decrease when the interval grows *)
  Theorem fraction_mono l1 u1 l2 u2 :
    ext_le l2 l1 -> ext_le u1 u2 ->
    exists x1 x2, hfraction fexp l1 u1 h = R (Fin x1) /\ hfraction fexp l2 u2 h = R (Fin x2) /\ x1 <= x2.
  Proof.
    intros Hl Hu. assert (Hp := wf_pos h W).
    destruct (fraction_range l2 u2) as (x2 & E2 & R20 & R21).
    rewrite (hfraction_eq l2 u2) in E2 |- *. rewrite (hfraction_eq l1 u1).
    destruct (ext_leb u1 l1) eqn:E1.
    - exists 0, x2. split; [reflexivity|]. split; [exact E2|lra].
    - apply ext_leb_false in E1.
      rewrite (proj2 (ext_leb_false u2 l2)) in *
        by exact (ext_lt_le_trans _ _ _ (ext_le_lt_trans _ _ _ Hl E1) Hu).
      eexists; eexists. split; [reflexivity|]. split; [reflexivity|].
      assert (A := cdf_mono l2 l1 Hl). assert (B := cdf_mono u1 u2 Hu).
      apply (frac_le _ _ (h_count h) (cdf u1 - cdf l1) (cdf u2 - cdf l2)); [exact Hp | field; lra | field; lra | lra].
  Qed.

  (* and it is 1 over (-Inf, +Inf) *)
  Theorem fraction_total :
    exists x, hfraction fexp NInf PInf h = R (Fin x) /\ x == 1.
  Proof.
    rewrite hfraction_eq. simpl. eexists; split; [reflexivity|].
    rewrite cdf_pinf. assert (Hp := wf_pos h W). rewrite cdf_ninf. field. lra.
  Qed.
End FractionProofs.
(* witness against the code before e11e8e804f: custom buckets (0,1]:3, (1,2]:4, three NaN
   observations (count 10, sum NaN) *)
Definition old_witness : hist :=
  mkH 10 RNaN true true false [mkB (Fin 0) (Fin 1) 3; mkB (Fin 1) (Fin 2) 4].

Lemma hquantile_old_refuted :
  exists h q1 q2,
    sum_nan h = true /\ 0 <= q1 /\ q1 <= q2 /\ q2 <= 1 /\
    forall iexp,
      ~ res_le (hquantile_old iexp q1 h) (hquantile_old iexp q2 h) /\
      res_le (hquantile iexp q1 h) (hquantile iexp q2 h).
Proof.
  exists old_witness, (1 # 4), (5 # 16).
  split; [reflexivity|]. split; [lra|]. split; [lra|]. split; [lra|].
  intro iexp. split.
  - vm_compute. discriminate.
  - vm_compute. reflexivity.
Qed.

(* non-vacuity: a well-formed histogram with negative, zero and positive buckets *)
Definition example_hist : hist :=
  mkH 10 (R (Fin 3)) false true true
      [mkB (Fin (-2)) (Fin (-1)) 2; mkB (Fin (-1 # 2)) (Fin (1 # 2)) 3; mkB (Fin 1) (Fin 2) 0; mkB (Fin 2) (Fin 4) 5].

(* the six clauses of wf_hist / wf_nan_hist on a concrete histogram: each is decided by evaluation *)
Ltac wf_example :=
  constructor; simpl;
  [ lra | reflexivity | vm_compute; (reflexivity || discriminate) | repeat constructor; simpl; lra
  | repeat constructor; simpl; try discriminate;
    try (intros (A & B); (discriminate A || discriminate B));
    try (intros _; eexists; eexists; split; reflexivity)
  | repeat constructor ].

Lemma example_hist_wf : wf_hist example_hist.
Proof. wf_example. Qed.

Definition example_custom : hist :=
  mkH 8 (R (Fin 3)) true true false
      [mkB NInf (Fin (-10)) 2; mkB (Fin (-10)) (Fin 5) 2; mkB (Fin 5) (Fin 20) 2; mkB (Fin 20) PInf 2].

Lemma example_custom_wf : wf_hist example_custom.
Proof. wf_example. Qed.

(* a histogram that observed NaNs: the sum is NaN and the count may exceed the buckets *)
Record wf_nan_hist (h : hist) : Prop := mkWFN {
  wfn_pos : 0 < h_count h;
  wfn_sum : sum_nan h = true;
  wfn_tot : sumc (h_buckets h) <= h_count h;
  wfn_cnt : Forall (fun b => 0 <= bc b) (h_buckets h);
  wfn_bkt : Forall (wf_bucket (h_custom h)) (h_buckets h);
  wfn_sorted : StronglySorted (fun a b => ext_le (bu a) (bl b)) (h_buckets h)
}.

Section NaNSum.
  Variable iexp : Q -> Q -> Q -> Q.
  Hypothesis iexp_range : forall a b f, a < b -> 0 <= f -> f <= 1 -> a <= iexp a b f /\ iexp a b f <= b.
  Hypothesis iexp_mono : forall a b f1 f2, a < b -> 0 <= f1 -> f1 <= f2 -> f2 <= 1 ->
                                          iexp a b f1 <= iexp a b f2.

  Lemma qadjust_zero_bucket h : exists lu, qadjust h zero_bucket = inr lu.
  Proof.
    unfold qadjust, zero_bucket; simpl. destruct (h_custom h); simpl; eexists; reflexivity.
  Qed.

  (* with NaN observations (sum NaN, count >= buckets) the fixed code never decreases either:
     once q is so large that the rank lies beyond all buckets the result is NaN (or, for custom
     buckets, the early return of the last bucket) *)
  Theorem quantile_mono_nan h q1 q2 :
    wf_nan_hist h -> 0 <= q1 -> q1 <= q2 -> q2 <= 1 ->
    hquantile iexp q2 h = RNaN \/ res_le (hquantile iexp q1 h) (hquantile iexp q2 h).
  Proof.
    intros [Hp Hn Wt Wc FB SS] H0 H12 H1.
    assert (Hr : q1 * h_count h <= q2 * h_count h) by nra.
    assert (Hfwd : forall q, sum_nan h || Qlt_bool q (1 # 2) = true) by (intro; now rewrite Hn).
    destruct (hquantile_forward iexp h q2 ltac:(lra) H1 Hp Wc Wt (Hfwd q2))
      as [(pre2 & b2 & post2 & f2 & HM2 & F20 & F21 & Fm2 & ->)|(Hd2 & Hv2)].
    - (* q2 finds its bucket: so does q1, at or before it *)
      right. destruct (hquantile_forward iexp h q1 H0 ltac:(lra) Hp Wc Wt (Hfwd q1))
        as [(pre1 & b1 & post1 & f1 & HM1 & F10 & F11 & Fm1 & ->)|(Hd1 & _)].
      + apply (sel_value_le iexp iexp_range iexp_mono h _ _ _ _ _ _ _ _ _ _ Wc FB SS (proj1 HM1) (proj1 HM2) Hr);
          auto. left. apply HM1.
      + exfalso. destruct HM2 as ((E2 & Hb2 & Hlo2 & Hhi2) & _).
        destruct (sumc_split _ _ _ _ E2 Wc) as (HT & Hpre & _ & Hpost).
        destruct Hd1 as [Hd1|Hd1]; [lra|]. rewrite E2 in Hd1. apply Forall_elt in Hd1. lra.
    - (* the rank of q2 lies beyond the buckets: NaN unless the last bucket returns early *)
      rewrite (Hv2 Hn). set (lb := last (h_buckets h) zero_bucket) in *.
      destruct (qadjust h lb) as [r|lu] eqn:Ea; [right | now left].
      assert (Hne : h_buckets h <> []).
      { intro E. unfold lb in Ea. rewrite E in Ea. destruct (qadjust_zero_bucket h). simpl in Ea. congruence. }
      destruct (exists_last Hne) as (pre & a & El).
      assert (Ela : lb = a) by (unfold lb; rewrite El; apply last_last). subst a.
      assert (Wbl : wf_bucket (h_custom h) lb).
      { apply (proj1 (Forall_forall _ _) FB). rewrite El. apply in_elt. }
      destruct (qvalue_range iexp iexp_range h lb 0 Wbl ltac:(lra) ltac:(lra)) as (e & He & Hl & Hu).
      unfold qvalue in He. rewrite Ea in He. subst r.
      destruct (hquantile_forward iexp h q1 H0 ltac:(lra) Hp Wc Wt (Hfwd q1))
        as [(pre1 & b1 & post1 & f1 & ((E1 & Hb1 & _) & _) & F10 & F11 & _ & ->)|(_ & Hv1)].
      + (* q1 finds a bucket: the last one (same early return) or an earlier one *)
        assert (Wb1 : wf_bucket (h_custom h) b1).
        { apply (proj1 (Forall_forall _ _) FB). rewrite E1. apply in_elt. }
        rewrite E1 in El. destruct (split_cmp pre1 b1 post1 pre lb [] El) as [(_ & -> & _)|[(mid & _ & ->)|(mid & _ & Ey)]].
        * unfold qvalue. rewrite Ea. apply ext_le_refl.
        * destruct (qvalue_range iexp iexp_range h b1 f1 Wb1 F10 F11) as (e1 & -> & _ & Hu1).
          exact (ext_le_trans _ _ _ Hu1 (ext_le_trans _ _ _ (sorted_mid _ _ _ _ _ _ SS E1) Hl)).
        * destruct mid; discriminate.
      + rewrite (Hv1 Hn). fold lb. rewrite Ea. apply ext_le_refl.
  Qed.
End NaNSum.

Definition example_nan : hist :=
  mkH 10 RNaN false true false [mkB (Fin (1 # 2)) (Fin 1) 3; mkB (Fin 1) (Fin 2) 4].
Lemma example_nan_wf : wf_nan_hist example_nan.
Proof. wf_example. Qed.
