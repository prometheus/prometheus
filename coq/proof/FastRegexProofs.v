(* proof/FastRegexProofs.v — C17, first part: findSetMatches (a case-sensitive set is exactly
   the language of the expression), the case-sensitive fragment wf_csb and its invariant, what
   the matchers built by the concatenation logic accept, and stringMatcherFromRegexpInternal
   (smi_correct). *)
From Coq Require Import List ZArith Bool Lia.
From Verif Require Import lib.SortedList lib.Regex lib.RegexProofs model.FastRegex.
Import ListNotations.
Open Scope Z_scope.

Section ReInd.
Variable P : re -> Prop.
Hypothesis H_nomatch : P RNoMatch.
Hypothesis H_empty : forall f, P (REmpty f).
Hypothesis H_lit : forall f rs, P (RLit f rs).
Hypothesis H_class : forall f rg, P (RClass f rg).
Hypothesis H_any : P RAny.
Hypothesis H_anynl : P RAnyNotNL.
Hypothesis H_beg : P RBeginText.
Hypothesis H_end : P REndText.
Hypothesis H_cap : forall r, P r -> P (RCapture r).
Hypothesis H_star : forall r, P r -> P (RStar r).
Hypothesis H_plus : forall r, P r -> P (RPlus r).
Hypothesis H_quest : forall r, P r -> P (RQuest r).
Hypothesis H_rep : forall mn mx r, P r -> P (RRepeat mn mx r).
Hypothesis H_concat : forall l, Forall P l -> P (RConcat l).
Hypothesis H_alt : forall l, Forall P l -> P (RAlt l).

Lemma re_ind' : forall r, P r.
Proof.
  fix IH 1. intros r. destruct r.
  - apply H_nomatch.
  - apply H_empty.
  - apply H_lit.
  - apply H_class.
  - apply H_any.
  - apply H_anynl.
  - apply H_beg.
  - apply H_end.
  - apply H_cap, IH.
  - apply H_star, IH.
  - apply H_plus, IH.
  - apply H_quest, IH.
  - apply H_rep, IH.
  - apply H_concat. induction l as [| x l IHl]; constructor; [apply IH | exact IHl].
  - apply H_alt. induction l as [| x l IHl]; constructor; [apply IH | exact IHl].
Qed.
End ReInd.

Lemma str_eqb_eq : forall a b, str_eqb a b = true <-> a = b.
Proof.
  induction a as [| x a IH]; destruct b as [| y b]; simpl; split; intros H; try discriminate; auto.
  - apply andb_true_iff in H. destruct H as [H1 H2]. apply Z.eqb_eq in H1. apply IH in H2. congruence.
  - inversion H; subst. rewrite Z.eqb_refl. simpl. now apply IH.
Qed.

Lemma mem_str_In : forall s l, mem_str s l = true <-> In s l.
Proof.
  intros s l. unfold mem_str. rewrite existsb_exists. split.
  - intros (x & Hx & E). apply str_eqb_eq in E. now subst.
  - intros H. exists s. split; auto. now apply str_eqb_eq.
Qed.

Lemma is_prefix_spec : forall p s, is_prefix p s = true <-> exists r, s = p ++ r.
Proof.
  induction p as [| x p IH]; intros s; simpl.
  - split; eauto.
  - destruct s as [| y s].
    + split; [discriminate | intros (r & Hr); discriminate].
    + rewrite andb_true_iff, Z.eqb_eq, IH. split.
      * intros (-> & r & ->). eauto.
      * intros (r & Hr). inversion Hr; subst. eauto.
Qed.

(* ---- begin/end flags up to emptiness.
   [flags H] closes a goal CM b e c s (or ML b e r s) from H : CM b' e' c s when b = b' and e = e'
   follow by case analysis on which of the strings involved are empty. *)
Lemma isnil_app {A} (a b : list A) : isnil (a ++ b) = isnil a && isnil b.
Proof. destruct a; auto. Qed.

Lemma CM_flags F b e b' e' c s : b = b' -> e = e' -> CM F b e c s -> CM F b' e' c s.
Proof. intros -> ->. auto. Qed.

Ltac bool_eq :=
  rewrite ?isnil_app; cbn [isnil app];
  repeat match goal with |- context [isnil ?l] => destruct (isnil l) end;
  repeat match goal with |- context [andb ?b _] => is_var b; destruct b end;
  reflexivity.
Ltac flags H := eapply CM_flags; [| |exact H]; bool_eq.

Section P.
Variable F : rune -> rune -> bool.
Notation CM := (CM F).

Definition ML (b e : bool) (r : re) (s : str) : Prop := CM b e (lower r) s.

Lemma ML_lit_cs : forall rs b e s, ML b e (RLit false rs) s <-> s = rs.
Proof.
  unfold ML. induction rs as [| x rs IH]; intros b e s; simpl.
  - split; [apply CM_eps_iff | intros ->; constructor].
  - split.
    + intros H. apply CM_cat_iff in H. destruct H as (s1 & s2 & -> & H1 & H2).
      apply CM_chr_inv in H1. destruct H1 as (c & -> & Hc). simpl in Hc.
      rewrite orb_false_r in Hc. apply Z.eqb_eq in Hc. subst c.
      apply IH in H2. now subst.
    + intros ->. change (x :: rs) with ([x] ++ rs). apply CM_cat.
      * constructor. simpl. now rewrite Z.eqb_refl.
      * now apply IH.
Qed.

Lemma ML_concat_cons b e x t s :
  ML b e (RConcat (x :: t)) s <->
  exists s1 s2, s = s1 ++ s2 /\ ML b (e && isnil s2) x s1 /\ ML (b && isnil s1) e (RConcat t) s2.
Proof. apply CM_cat_iff. Qed.

Lemma ML_concat_nil b e s : ML b e (RConcat []) s <-> s = [].
Proof. apply CM_eps_iff. Qed.

Lemma ML_alt_cons b e x t s : ML b e (RAlt (x :: t)) s <-> ML b e x s \/ ML b e (RAlt t) s.
Proof. apply CM_alt_iff. Qed.

Lemma ML_alt_nil b e s : ML b e (RAlt []) s <-> False.
Proof. unfold ML. simpl. split; [apply CM_none_inv | tauto]. Qed.

Lemma ML_alt_iff b e l s : ML b e (RAlt l) s <-> exists x, In x l /\ ML b e x s.
Proof.
  induction l as [| x t IH].
  - rewrite ML_alt_nil. split; [tauto | intros (x & [] & _)].
  - rewrite ML_alt_cons, IH. split.
    + intros [H | (y & Hy & H)]; [exists x | exists y]; simpl; auto.
    + intros (y & [<- | Hy] & H); eauto.
Qed.

(* ---- findSetMatchesFromAlternate and the inner loop of findSetMatchesFromConcat are one loop:
   run g over a list; give up on an empty result, on too many strings, on a change of case
   sensitivity; else collect. *)
Fixpoint gather {A} (g : A -> list str * bool) (xs : list A) (first : bool) (acc : list str) (cs : bool)
  : option (list str * bool) :=
  match xs with
  | [] => Some (acc, cs)
  | x :: t =>
      let '(m, c) := g x in
      if isnil m then None
      else if too_many acc m then None
      else let cs' := if first then c else cs in
           if negb (Bool.eqb cs' c) then None
           else gather g t false (acc ++ m) cs'
  end.

Lemma alt_loop_gather f base : forall l first acc cs,
  alt_loop f l base first acc cs =
  match gather (fun x => f x base) l first acc cs with Some r => r | None => ([], false) end.
Proof.
  induction l as [| x t IH]; intros first acc cs; simpl; [reflexivity |].
  destruct (f x base) as [m c]. rewrite IH.
  destruct (isnil m), (too_many acc m), (negb (Bool.eqb (if first then c else cs) c)); reflexivity.
Qed.

Lemma inner_loop_gather g i0 : forall bs j0 nm mcs,
  inner_loop g i0 bs j0 nm mcs = gather g bs (i0 && j0) nm mcs.
Proof.
  induction bs as [| b bs IH]; intros j0 nm mcs; simpl; [reflexivity |].
  destruct (g b) as [m c]. rewrite IH, andb_false_r. reflexivity.
Qed.

(* what it returns: everything found, no result empty, one flag throughout, and the flag it
   was given unless the first element sets it *)
Lemma gather_spec {A} (g : A -> list str * bool) : forall xs first acc cs res c,
  gather g xs first acc cs = Some (res, c) ->
  res = acc ++ flat_map (fun x => fst (g x)) xs /\
  Forall (fun x => fst (g x) <> [] /\ snd (g x) = c) xs /\
  (first = false -> c = cs).
Proof.
  induction xs as [| x t IH]; intros first acc cs res c H; simpl in H.
  - inversion H; subst. rewrite app_nil_r. auto.
  - rewrite Forall_cons_iff. cbn [flat_map]. destruct (g x) as [m c0]. cbn [fst snd].
    destruct m as [| s0 m]; [discriminate |]. cbn [isnil] in H.
    destruct (too_many acc (s0 :: m)); [discriminate |].
    destruct (negb _) eqn:Ec; [discriminate |]. apply negb_false_iff, eqb_prop in Ec.
    apply IH in H. destruct H as (-> & HF & Hc). specialize (Hc eq_refl). subst c.
    split; [now rewrite app_assoc |]. split; [split; [split; [discriminate | now symmetry] | exact HF] |].
    now intros ->.
Qed.

Lemma gather_nonempty {A} (g : A -> list str * bool) xs first acc cs res c :
  gather g xs first acc cs = Some (res, c) -> xs <> [] -> res <> [].
Proof.
  intros G Hne. apply gather_spec in G. destruct G as (-> & HF & _).
  destruct HF as [| x t [Hx _] _]; [congruence |]. intros E. apply app_eq_nil in E. destruct E as [_ E].
  apply app_eq_nil in E. now destruct E.
Qed.

(* ---- findSetMatches: a case-sensitive result is exactly the language.
   Such an expression means the same wherever it stands (indep), which is what lets the
   begin/end flags of a concatenation be ignored. *)
Definition indep (r : re) : Prop := forall b e b' e' s, ML b e r s -> ML b' e' r s.

Definition fsm_ok (r : re) : Prop :=
  forall base ms, fsm r base = (ms, true) ->
  indep r /\ forall s, In s ms <-> exists q, s = base ++ q /\ ML true true r q.

Lemma indep_alt l : Forall indep l -> indep (RAlt l).
Proof.
  intros H b e b' e' s Hs. apply ML_alt_iff in Hs. destruct Hs as (x & Hx & Hs).
  apply ML_alt_iff. exists x. split; [exact Hx |]. rewrite Forall_forall in H. eapply H; eauto.
Qed.

Lemma ML_concat_cons_indep b e x t s : indep x -> indep (RConcat t) ->
  (ML b e (RConcat (x :: t)) s <->
   exists s1 s2, s = s1 ++ s2 /\ ML true true x s1 /\ ML true true (RConcat t) s2).
Proof.
  intros Hx Ht. rewrite ML_concat_cons. split; intros (s1 & s2 & -> & H1 & H2); exists s1, s2;
    (split; [reflexivity |]); split; [eapply Hx | eapply Ht | eapply Hx | eapply Ht]; eauto.
Qed.

Lemma indep_concat_cons x t : indep x -> indep (RConcat t) -> indep (RConcat (x :: t)).
Proof. intros Hx Ht b e b' e' s H. apply ML_concat_cons_indep in H; auto. now apply ML_concat_cons_indep. Qed.

Lemma range_runes_spec lo hi c : In c (range_runes lo hi) <-> lo <= c <= hi.
Proof.
  unfold range_runes. rewrite in_map_iff. split.
  - intros (k & <- & Hk). apply in_seq in Hk. lia.
  - intros H. exists (Z.to_nat (c - lo)). split; [lia |]. apply in_seq. lia.
Qed.

Lemma fsm_ok_class f rg : fsm_ok (RClass f rg).
Proof.
  intros base ms H. simpl in H. destruct (_ >? max_set_matches); [discriminate |]. inversion H; subst. clear H.
  assert (C : forall b e s, ML b e (RClass f rg) s <-> exists c, s = [c] /\ in_ranges rg c = true).
  { intros b e s. split; [apply CM_chr_inv | intros (c & -> & Hc); now constructor]. }
  split; [intros b e b' e' s Hs; apply C; now apply C in Hs |].
  intros s. rewrite in_flat_map. unfold in_ranges. split.
  - intros (p & Hp & Hs). apply in_map_iff in Hs. destruct Hs as (c & <- & Hc). apply range_runes_spec in Hc.
    exists [c]. split; [reflexivity |]. apply C. exists c. split; [reflexivity |].
    apply existsb_exists. exists p. split; [exact Hp | lia].
  - intros (q & -> & Hq). apply C in Hq. destruct Hq as (c & -> & Hc). apply existsb_exists in Hc.
    destruct Hc as (p & Hp & Hc). exists p. split; [exact Hp |]. apply in_map_iff. exists c.
    split; [reflexivity |]. apply range_runes_spec. lia.
Qed.

Lemma fsm_ok_single r w base ms :
  (forall b e s, ML b e r s <-> s = w) -> ms = [base ++ w] ->
  indep r /\ forall s, In s ms <-> exists q, s = base ++ q /\ ML true true r q.
Proof.
  intros Hw ->. split; [intros b e b' e' s Hs; apply Hw; now apply Hw in Hs |].
  intros s. simpl. split; [intros [<- | []]; exists w; split; [reflexivity | now apply Hw] |].
  intros (q & -> & Hq). apply Hw in Hq. subst. now left.
Qed.

(* a case-sensitive result of the loop: every call was case sensitive, hence exact; the
   expression asked about is h x, the base k x *)
Lemma gather_fsm_ok {A} (h : A -> re) (k : A -> str) xs first acc cs res :
  Forall (fun x => fsm_ok (h x)) xs ->
  gather (fun x => fsm (h x) (k x)) xs first acc cs = Some (res, true) ->
  Forall (fun x => indep (h x)) xs /\
  forall s, In s res <-> In s acc \/ exists x q, In x xs /\ s = k x ++ q /\ ML true true (h x) q.
Proof.
  intros Hok G. apply gather_spec in G. destruct G as (-> & HF & _).
  assert (K : forall x, In x xs -> indep (h x) /\
                forall s, In s (fst (fsm (h x) (k x))) <-> exists q, s = k x ++ q /\ ML true true (h x) q).
  { rewrite Forall_forall in *. intros x Hx. apply (Hok x Hx). destruct (HF x Hx) as [_ <-].
    apply surjective_pairing. }
  split; [apply Forall_forall; intros x Hx; apply (K x Hx) |].
  intros s. rewrite in_app_iff, in_flat_map. split.
  - intros [H | (x & Hx & Hs)]; [now left | right]. apply (K x Hx) in Hs. destruct Hs as (q & -> & Hq). eauto.
  - intros [H | (x & q & Hx & -> & Hq)]; [now left | right]. exists x. split; [exact Hx |]. apply (K x Hx). eauto.
Qed.

(* a failed step returns ([], false), so the flag of a case-sensitive result has not changed
   since the first step *)
Lemma cat_loop_const : forall l ms mcs res,
  cat_loop fsm l false ms mcs = (res, true) -> mcs = true.
Proof.
  induction l as [| x t IH]; intros ms mcs res H; simpl in H.
  - now inversion H.
  - rewrite inner_loop_gather in H.
    destruct (gather (fsm x) ms (false && true) [] mcs) as [[nm mcs'] |] eqn:E; [| discriminate].
    apply gather_spec in E. destruct E as (_ & _ & Hc). rewrite <- (Hc eq_refl). eapply IH; eauto.
Qed.

Lemma cat_loop_ok : forall l i0 P mcs ms, Forall fsm_ok l -> P <> [] ->
  cat_loop fsm l i0 P mcs = (ms, true) ->
  indep (RConcat l) /\
  forall s, In s ms <-> exists p q, In p P /\ s = p ++ q /\ ML true true (RConcat l) q.
Proof.
  induction l as [| x t IH]; intros i0 P mcs ms HF HP H; simpl in H.
  - inversion H; subst. split; [intros b e b' e' s Hs; apply ML_concat_nil in Hs; now apply ML_concat_nil |].
    intros s. split.
    + intros Hs. exists s, []. rewrite app_nil_r. split; [exact Hs |]. split; [reflexivity | now apply ML_concat_nil].
    + intros (p & q & Hp & -> & Hq). apply ML_concat_nil in Hq. subst. now rewrite app_nil_r.
  - inversion HF as [| ? ? Hx Ht]; subst. rewrite inner_loop_gather in H.
    destruct (gather (fsm x) P (i0 && true) [] mcs) as [[nm mcs'] |] eqn:E; [| discriminate].
    assert (mcs' = true) by (eapply cat_loop_const; eauto). subst mcs'.
    pose proof (gather_nonempty _ _ _ _ _ _ _ E HP) as Hnm.
    apply (gather_fsm_ok (fun _ => x) (fun p => p)) in E; [| apply Forall_forall; auto].
    destruct E as [HI HN]. assert (Ix : indep x) by (destruct HI; [congruence | assumption]).
    destruct (IH false nm true ms Ht Hnm H) as [It Hms].
    split; [now apply indep_concat_cons |]. intros s. rewrite Hms. split.
    + intros (p' & q2 & Hp' & -> & H2). apply HN in Hp'. destruct Hp' as [[] | (p & q1 & Hp & -> & H1)].
      exists p, (q1 ++ q2). split; [exact Hp |]. split; [now rewrite app_assoc |].
      apply ML_concat_cons_indep; eauto.
    + intros (p & q & Hp & -> & Hq). apply ML_concat_cons_indep in Hq; auto.
      destruct Hq as (q1 & q2 & -> & H1 & H2). exists (p ++ q1), q2.
      split; [apply HN; right; eauto |]. split; [now rewrite app_assoc | exact H2].
Qed.

Theorem fsm_correct : forall r, fsm_ok r.
Proof.
  induction r using re_ind'; intros base ms H0; simpl in H0; try discriminate.
  - destruct (isnil base); [discriminate |]. injection H0 as <- _.
    apply (fsm_ok_single _ []); [intros b e s; apply CM_eps_iff | now rewrite app_nil_r].
  - injection H0 as <- Hf. destruct f; [discriminate |]. now apply (fsm_ok_single _ rs); [apply ML_lit_cs |].
  - now apply fsm_ok_class.
  - exact (IHr base ms H0).
  - destruct (isnil l); [discriminate |].
    destruct (cat_loop_ok l true [base] false ms H ltac:(discriminate) H0) as [I Hm].
    split; [exact I |]. intros s. rewrite Hm. split.
    + intros (p & q & [<- | []] & -> & Hq). eauto.
    + intros (q & -> & Hq). exists base, q. simpl. auto.
  - rewrite alt_loop_gather in H0.
    destruct (gather (fun x => fsm x base) l true [] false) as [r |] eqn:G; [subst r | discriminate].
    apply (gather_fsm_ok (fun x => x) (fun _ => base)) in G; [| exact H]. destruct G as [HI HN].
    split; [now apply indep_alt |]. intros s. rewrite HN. split.
    + intros [[] | (x & q & Hx & -> & Hq)]. exists q. split; [reflexivity |]. apply ML_alt_iff. eauto.
    + intros (q & -> & Hq). apply ML_alt_iff in Hq. destruct Hq as (x & Hx & Hq). right. eauto.
Qed.

Lemma fsm_exact r ms : fsm r [] = (ms, true) -> forall b e s, ML b e r s <-> In s ms.
Proof.
  intros H b e s. destruct (fsm_correct r [] ms H) as [I Hm]. rewrite Hm. simpl. split.
  - intros Hs. exists s. split; [reflexivity | eapply I; eauto].
  - intros (q & -> & Hq). eapply I; eauto.
Qed.

(* ---- the case-sensitive fragment: no FoldCase flag anywhere, literals non-empty *)
Fixpoint wf_csb (r : re) : bool :=
  match r with
  | REmpty f => negb f
  | RLit f rs => negb f && negb (isnil rs)
  | RClass f _ => negb f
  | RCapture x | RStar x | RPlus x | RQuest x | RRepeat _ _ x => wf_csb x
  | RConcat l | RAlt l => forallb wf_csb l
  | _ => true
  end.

(* in this fragment a set of matches has no empty string, and is case sensitive unless empty *)
Definition ne (m : str) : Prop := m <> [].

Definition wf_res (p : list str * bool) : Prop := Forall ne (fst p) /\ (fst p <> [] -> snd p = true).

Definition fsm_wf_ok (x : re) : Prop := forall base, wf_res (fsm x base).

Lemma wf_res_fail : wf_res ([], false).
Proof. split; [constructor | intros H; now destruct H]. Qed.

Lemma gather_wf {A} (g : A -> list str * bool) xs first cs r :
  (forall x, In x xs -> wf_res (g x)) -> gather g xs first [] cs = Some r -> wf_res r.
Proof.
  destruct r as [res c]. intros Hg G. apply gather_spec in G. destruct G as (-> & HF & _). split; simpl.
  - apply Forall_flat_map, Forall_forall. intros x Hx. apply (Hg x Hx).
  - destruct HF as [| x t [Hx Hc] _]; [intros E; now destruct E |]. intros _. rewrite <- Hc. apply (Hg x); [now left | exact Hx].
Qed.

Lemma cat_loop_wf : forall l i0 ms0 mcs, Forall fsm_wf_ok l ->
  l <> [] \/ wf_res (ms0, mcs) -> wf_res (cat_loop fsm l i0 ms0 mcs).
Proof.
  induction l as [| x t IH]; intros i0 ms0 mcs HF Hm; simpl.
  - destruct Hm; [congruence | assumption].
  - inversion HF as [| ? ? Hx Ht]; subst. rewrite inner_loop_gather.
    destruct (gather (fsm x) ms0 (i0 && true) [] mcs) as [[nm mcs'] |] eqn:E; [| apply wf_res_fail].
    apply IH; [exact Ht | right]. eapply gather_wf; [| exact E]. intros p _. apply Hx.
Qed.

Lemma fsm_wf : forall r, wf_csb r = true -> fsm_wf_ok r.
Proof.
  induction r using re_ind'; intros Hwf base; simpl in Hwf; simpl; try apply wf_res_fail.
  - destruct (isnil base) eqn:E; [apply wf_res_fail |]. split; simpl; [| now rewrite Hwf].
    repeat constructor. intros ->. discriminate.
  - apply andb_true_iff in Hwf. destruct Hwf as [-> Hn]. split; simpl; [| auto].
    repeat constructor. intros E. apply app_eq_nil in E. destruct E as [_ ->]. discriminate.
  - destruct (_ >? _); [apply wf_res_fail |]. split; simpl; [| now rewrite Hwf].
    apply Forall_flat_map, Forall_forall. intros p _. apply Forall_map, Forall_forall. intros c _ E.
    apply app_eq_nil in E. destruct E; discriminate.
  - exact (IHr Hwf base).
  - destruct (isnil l) eqn:E; [apply wf_res_fail |].
    apply cat_loop_wf; [| left; intros ->; discriminate].
    rewrite Forall_forall in *. rewrite forallb_forall in Hwf. auto.
  - rewrite alt_loop_gather. destruct (gather _ l true [] false) as [r |] eqn:G; [| apply wf_res_fail].
    eapply gather_wf; [| exact G]. rewrite Forall_forall in H. rewrite forallb_forall in Hwf. intros x Hx.
    apply H; auto.
Qed.

Lemma star_chr_spec : forall p s b e,
  CM b e (CStar (CChr p)) s <-> forallb (cp_match F p) s = true.
Proof.
  induction s as [| c s IH]; intros b e; simpl.
  - split; auto. intros _. constructor.
  - split.
    + intros H. apply CM_star_inv in H. destruct H as [H | (s1 & s2 & Hs & Hn & H1 & H2)]; [discriminate |].
      apply CM_chr_inv in H1. destruct H1 as (c' & -> & Hc). simpl in Hs. inversion Hs; subst.
      rewrite Hc. simpl. now apply IH in H2.
    + intros H. apply andb_true_iff in H. destruct H as [Hc Hs].
      change (c :: s) with ([c] ++ s). apply CM_star1; [discriminate | now constructor | now apply IH].
Qed.

Lemma plus_chr_spec : forall p s b e,
  CM b e (CCat (CChr p) (CStar (CChr p))) s <-> s <> [] /\ forallb (cp_match F p) s = true.
Proof.
  intros p s b e. split.
  - intros H. apply CM_cat_iff in H. destruct H as (s1 & s2 & -> & H1 & H2).
    apply CM_chr_inv in H1. destruct H1 as (c & -> & Hc). apply star_chr_spec in H2.
    split; [discriminate |]. simpl. now rewrite Hc.
  - intros [Hn H]. destruct s as [| c s]; [congruence |]. simpl in H.
    apply andb_true_iff in H. destruct H as [Hc Hs].
    change (c :: s) with ([c] ++ s). apply CM_cat; [now constructor | now apply star_chr_spec].
Qed.

Lemma quest_chr_spec : forall p s b e,
  CM b e (CAlt (CChr p) CEps) s <-> s = [] \/ exists c, s = [c] /\ cp_match F p c = true.
Proof.
  intros p s b e. split.
  - intros H. apply CM_alt_iff in H. destruct H as [H | H].
    + right. now apply CM_chr_inv in H.
    + left. now apply CM_eps_iff in H.
  - intros [-> | (c & -> & Hc)]; [apply CM_altr; constructor | apply CM_altl; now constructor].
Qed.

Lemma forallb_notnl s : forallb (fun c => negb (c =? 10)) s = negb (memZ 10 s).
Proof.
  unfold memZ. induction s as [| c s IH]; [reflexivity |].
  cbn [forallb existsb]. rewrite IH, negb_orb, (Z.eqb_sym 10 c). reflexivity.
Qed.

Lemma is_suffix_spec p s : is_suffix p s = true <-> exists r, s = r ++ p.
Proof.
  unfold is_suffix. rewrite is_prefix_spec. split.
  - intros (r & Hr). exists (rev r). rewrite <- (rev_involutive s), Hr, rev_app_distr.
    now rewrite rev_involutive.
  - intros (r & ->). exists (rev r). now rewrite rev_app_distr.
Qed.

Lemma drop_suffix_app p r : drop_suffix p (r ++ p) = r.
Proof. unfold drop_suffix. rewrite app_length, Nat.add_sub. apply firstn_length_app. Qed.

Lemma prefix_sem (g : str -> bool) p s :
  is_prefix p s && g (skipn (length p) s) = true <-> exists r, s = p ++ r /\ g r = true.
Proof.
  rewrite andb_true_iff, is_prefix_spec. split.
  - intros ((r & ->) & Hg). rewrite skipn_length_app in Hg. eauto.
  - intros (r & -> & Hg). rewrite skipn_length_app. eauto.
Qed.

Lemma suffix_sem (g : str -> bool) p s :
  is_suffix p s && g (drop_suffix p s) = true <-> exists r, s = r ++ p /\ g r = true.
Proof.
  rewrite andb_true_iff, is_suffix_spec. split.
  - intros ((r & ->) & Hg). rewrite drop_suffix_app in Hg. eauto.
  - intros (r & -> & Hg). rewrite drop_suffix_app. eauto.
Qed.

Lemma contains_lr_spec lf rt sub : forall s pre,
  contains_lr lf rt sub pre s = true <->
  exists a b, s = a ++ sub ++ b /\ lf (rev pre ++ a) = true /\ rt b = true.
Proof.
  assert (Hd : forall s pre, is_prefix sub s && lf (rev pre) && rt (skipn (length sub) s) = true <->
                             exists b, s = sub ++ b /\ lf (rev pre ++ []) = true /\ rt b = true).
  { intros s pre. rewrite <- andb_assoc, (prefix_sem (fun r => lf (rev pre) && rt r)), app_nil_r.
    split; intros (b & -> & H); exists b; (split; [reflexivity |]);
      [now apply andb_true_iff in H | now apply andb_true_iff]. }
  induction s as [| c t IH]; intros pre; cbn [contains_lr]; rewrite orb_true_iff, Hd.
  - split.
    + intros [(b & E & H) | H]; [exists [], b; auto | discriminate].
    + intros ([| c a] & b & E & H); [left; eauto | discriminate].
  - rewrite IH. split.
    + intros [(b & E & H) | (a & b & -> & Hl & Hr)]; [exists [], b; auto |].
      exists (c :: a), b. cbn [rev] in Hl. rewrite <- app_assoc in Hl. auto.
    + intros ([| c' a] & b & E & Hl & Hr); [left; eauto |]. right. inversion E; subst.
      exists a, b. cbn [rev]. rewrite <- app_assoc. auto.
Qed.

Lemma ML_concat_app : forall l1 l2 b e s,
  ML b e (RConcat (l1 ++ l2)) s <->
  exists s1 s2, s = s1 ++ s2 /\ ML b (e && isnil s2) (RConcat l1) s1 /\ ML (b && isnil s1) e (RConcat l2) s2.
Proof.
  induction l1 as [| x l1 IH]; intros l2 b e s.
  - simpl. split.
    + intros H. exists [], s. split; auto. split; [now apply ML_concat_nil | flags H].
    + intros (s1 & s2 & -> & H1 & H2). apply ML_concat_nil in H1. subst. simpl. flags H2.
  - simpl. rewrite ML_concat_cons. split.
    + intros (a & r & -> & Ha & Hr). apply IH in Hr. destruct Hr as (r1 & r2 & -> & H1 & H2).
      exists (a ++ r1), r2. rewrite app_assoc. split; auto. split.
      * apply ML_concat_cons. exists a, r1. split; auto. split; [flags Ha | flags H1].
      * flags H2.
    + intros (s1 & s2 & -> & H1 & H2). apply ML_concat_cons in H1.
      destruct H1 as (a & r1 & -> & Ha & H1).
      exists a, (r1 ++ s2). rewrite app_assoc. split; auto. split; [flags Ha |].
      apply IH. exists r1, s2. split; auto. split; [flags H1 | flags H2].
Qed.
End P.

Lemma all_some_Forall2 {A B} (f : A -> option B) : forall l ys,
  all_some (map f l) = Some ys -> Forall2 (fun x y => f x = Some y) l ys.
Proof.
  induction l as [| x l IH]; intros ys H; simpl in H.
  - inversion H. constructor.
  - destruct (f x) as [y |] eqn:Ex; [| discriminate].
    destruct (all_some (map f l)) as [ys' |]; [| discriminate]. inversion H. constructor; auto.
Qed.

(* what optimizeEqualOrPrefixStringMatchers relies on in the case-sensitive fragment: every
   equality and prefix leaf of an or-tree is case sensitive, prefixes are not empty *)
Fixpoint good_or (m : sm) : bool :=
  match m with
  | SOr l => forallb good_or l
  | SEqual _ cs => cs
  | SPrefix cs p _ => cs && negb (isnil p)
  | _ => true
  end.

Section SM.
Variable F : rune -> rune -> bool.
Variable NL : bytes -> bytes.
Notation smm := (smm F NL).
Notation ML := (ML F).

Definition optm (o : option sm) (s : str) : Prop :=
  match o with Some m => smm m s = true | None => s = [] end.

Definition T3 (lft : option sm) (matches : list str) (rgt : option sm) (s : str) : Prop :=
  exists s1 s2 s3, s = s1 ++ s2 ++ s3 /\ optm lft s1 /\ In s2 matches /\ optm rgt s3.

Lemma smm_contains_both lf rt subs s :
  smm (SContains (Some lf) subs (Some rt)) s = true <-> T3 (Some lf) subs (Some rt) s.
Proof.
  cbn [FastRegex.smm]. rewrite existsb_exists. unfold T3. split.
  - intros (sub & Hin & Hc). apply contains_lr_spec in Hc. destruct Hc as (a & b & -> & Ha & Hb).
    exists a, sub, b. simpl in Ha. simpl. auto.
  - intros (s1 & s2 & s3 & -> & H1 & H2 & H3). exists s2. split; auto.
    apply contains_lr_spec. exists s1, s3. simpl. auto.
Qed.

Lemma smm_contains_left lf subs s :
  smm (SContains (Some lf) subs None) s = true <-> T3 (Some lf) subs None s.
Proof.
  cbn [FastRegex.smm]. rewrite existsb_exists. unfold T3. split.
  - intros (sub & Hin & Hc). apply (suffix_sem (smm lf)) in Hc. destruct Hc as (r & -> & Hr).
    exists r, sub, []. rewrite app_nil_r. simpl. auto.
  - intros (s1 & s2 & s3 & -> & H1 & H2 & ->). exists s2. split; auto.
    apply (suffix_sem (smm lf)). rewrite app_nil_r. eauto.
Qed.

Lemma smm_contains_right rt subs s :
  smm (SContains None subs (Some rt)) s = true <-> T3 None subs (Some rt) s.
Proof.
  cbn [FastRegex.smm]. rewrite existsb_exists. unfold T3. split.
  - intros (sub & Hin & Hc). apply (prefix_sem (smm rt)) in Hc. destruct Hc as (r & -> & Hr).
    exists [], sub, r. simpl. auto.
  - intros (s1 & s2 & s3 & -> & -> & H2 & H3). exists s2. split; auto.
    apply (prefix_sem (smm rt)). simpl. eauto.
Qed.

Lemma smm_suffix_cs lf m1 s : smm (SSuffix lf m1 true) s = true <-> T3 (Some lf) [m1] None s.
Proof. rewrite <- smm_contains_left. cbn [FastRegex.smm existsb]. now rewrite orb_false_r. Qed.

Lemma smm_prefix_cs rt m1 s : smm (SPrefix true m1 rt) s = true <-> T3 None [m1] (Some rt) s.
Proof. rewrite <- smm_contains_right. cbn [FastRegex.smm existsb]. now rewrite orb_false_r. Qed.

Lemma smm_or_equal ms s : smm (SOr (map (fun m => SEqual m true) ms)) s = true <-> T3 None ms None s.
Proof.
  cbn [FastRegex.smm]. rewrite existsb_exists. unfold T3. split.
  - intros (x & Hin & Hx). apply in_map_iff in Hin. destruct Hin as (m & <- & Hm).
    cbn [FastRegex.smm] in Hx. apply str_eqb_eq in Hx. subst.
    exists [], s, []. simpl. rewrite app_nil_r. auto.
  - intros (s1 & s2 & s3 & -> & -> & H2 & ->). cbn [app]. rewrite app_nil_r.
    exists (SEqual s2 true). split; [apply in_map_iff; eauto |]. cbn [FastRegex.smm]. now apply str_eqb_eq.
Qed.

Lemma assemble_correct lft rgt matches M :
  assemble lft rgt matches true = Some M ->
  forall s, smm M s = true <-> T3 lft matches rgt s.
Proof.
  unfold assemble. intros H s. destruct matches as [| m1 mt]; [discriminate |].
  destruct lft as [lf |], rgt as [rt |].
  - injection H as <-. apply smm_contains_both.
  - destruct mt; injection H as <-; [apply smm_suffix_cs | apply smm_contains_left].
  - destruct mt; injection H as <-; [apply smm_prefix_cs | apply smm_contains_right].
  - injection H as <-. exact (smm_or_equal (m1 :: mt) s).
Qed.

Lemma assemble_good lft rgt matches M :
  assemble lft rgt matches true = Some M -> Forall ne matches -> good_or M = true.
Proof.
  unfold assemble. intros H Hn. destruct matches as [| m1 mt]; [discriminate |].
  inversion Hn as [| ? ? Hm1 _]; subst.
  destruct lft, rgt; [| destruct mt | destruct mt |]; injection H as <-; try reflexivity.
  - destruct m1; [exfalso; apply Hm1 |]; reflexivity.
  - simpl. clear. induction mt; simpl; auto.
Qed.

Lemma ML_concat_single b e x s : ML b e (RConcat [x]) s <-> ML b e x s.
Proof.
  rewrite ML_concat_cons. split.
  - intros (s1 & s2 & -> & H1 & H2). apply ML_concat_nil in H2. subst. rewrite app_nil_r. flags H1.
  - intros H. exists s, []. rewrite app_nil_r. split; auto. split; [flags H | now apply ML_concat_nil].
Qed.

Lemma strip_lower : forall r, lower (strip r) = lower r.
Proof. induction r; simpl; auto. Qed.

Lemma ML_strip b e r s : ML b e (strip r) s <-> ML b e r s.
Proof. unfold FastRegexProofs.ML. now rewrite strip_lower. Qed.

Lemma ML_concat_map_strip b e l s : ML b e (RConcat (map strip l)) s <-> ML b e (RConcat l) s.
Proof.
  unfold FastRegexProofs.ML. simpl. rewrite map_map, (map_ext _ lower strip_lower). reflexivity.
Qed.

Lemma wf_strip : forall r, wf_csb r = true -> wf_csb (strip r) = true.
Proof. induction r; simpl; auto. Qed.

Definition p_ok (p : re * option sm) : Prop :=
  wf_csb (fst p) = true /\
  forall mm, snd p = Some mm ->
    good_or mm = true /\ forall b e s, smm mm s = true <-> ML b e (fst p) s.
Definition ps_ok (ps : list (re * option sm)) : Prop := Forall p_ok ps.

(* a wildcard operator with its matcher, as split_wild takes it off an end of the list *)
Definition side (o : option (re * sm)) : list (re * option sm) :=
  match o with Some (x, m) => [(x, Some m)] | None => [] end.

Lemma split_wild_inv ps lft mid rgt : split_wild ps = Some (lft, mid, rgt) ->
  exists L R, ps = side L ++ mid ++ side R /\ lft = option_map snd L /\ rgt = option_map snd R.
Proof.
  unfold split_wild. destruct ps as [| [x0 m0] rest]; [discriminate |].
  set (ps1 := if is_wild_op x0 then rest else (x0, m0) :: rest).
  destruct (is_wild_op x0 && is_none m0) eqn:E0; [discriminate |].
  destruct (last ps1 (RNoMatch, None)) as [xl ml] eqn:El.
  destruct (is_wild_op xl && is_none ml) eqn:E1; [discriminate |]. intros H. inversion H; subst; clear H.
  exists (if is_wild_op x0 then option_map (pair x0) m0 else None),
         (if is_wild_op xl then option_map (pair xl) ml else None).
  assert (R : ps1 = (if is_wild_op xl then removelast ps1 else ps1) ++
                    side (if is_wild_op xl then option_map (pair xl) ml else None)).
  { destruct (is_wild_op xl) eqn:Ew; [| symmetry; apply app_nil_r].
    destruct ml as [m |]; [| discriminate]. cbn [option_map side]. rewrite <- El. apply app_removelast_last.
    intros E. rewrite E in El. discriminate El. }
  unfold ps1 in *. destruct (is_wild_op x0).
  - destruct m0 as [m |]; [| discriminate]. simpl. split; [now rewrite <- R |].
    split; [reflexivity | destruct (is_wild_op xl), ml; reflexivity].
  - simpl. split; [exact R |]. split; [reflexivity | destruct (is_wild_op xl), ml; reflexivity].
Qed.

Lemma side_sem o : ps_ok (side o) ->
  forall b e s, ML b e (RConcat (map fst (side o))) s <-> optm (option_map snd o) s.
Proof.
  destruct o as [[x m] |]; intros H b e s; simpl.
  - inversion H as [| ? ? [_ Hx] _]; subst. rewrite ML_concat_single. symmetry. apply (Hx m eq_refl).
  - apply ML_concat_nil.
Qed.

(* a list cut into an element with a matcher, a middle with a fixed set of strings, and an
   element with a matcher (either element may be missing) *)
Lemma sides_sem L mid R matches :
  ps_ok (side L) -> ps_ok (side R) ->
  (forall b e s, ML b e (RConcat (map fst mid)) s <-> In s matches) ->
  forall b e s, ML b e (RConcat (map fst (side L ++ mid ++ side R))) s <->
                T3 (option_map snd L) matches (option_map snd R) s.
Proof.
  intros HL HR Hmid b e s. rewrite !map_app, ML_concat_app. unfold T3. split.
  - intros (s1 & s' & -> & H1 & H2). apply ML_concat_app in H2. destruct H2 as (s2 & s3 & -> & H2 & H3).
    apply side_sem in H1; [| exact HL]. apply side_sem in H3; [| exact HR]. apply Hmid in H2.
    exists s1, s2, s3. auto.
  - intros (s1 & s2 & s3 & -> & H1 & H2 & H3). exists s1, (s2 ++ s3). split; auto.
    split; [now apply side_sem |]. apply ML_concat_app. exists s2, s3. split; auto.
    split; [now apply Hmid | now apply side_sem].
Qed.

Lemma lit_of_some a f rs : lit_of a = Some (f, rs) -> a = RLit f rs.
Proof. destruct a; simpl; intros H; inversion H; auto. Qed.

Lemma wf_mid mid : ps_ok mid -> wf_csb (RConcat (map fst mid)) = true.
Proof.
  intros H. simpl. induction H as [| p l [Hp _] _ IH]; simpl; auto. now rewrite Hp.
Qed.

(* refine_mid keeps the fixed strings findSetMatches gives for the middle, or, when there are
   none and the middle is a literal next to an expression with a matcher, takes the literal as
   the fixed string and that matcher as the part on its other side. Stated of the result, so
   that the case analysis runs on the goal alone. *)
Definition refine_shape lft mid rgt (r : option sm * option sm * list str * bool) : Prop :=
  let '(lft', rgt', matches, mcs) := r in
  matches <> [] ->
  (lft' = lft /\ rgt' = rgt /\ fsm (RConcat (map fst mid)) [] = (matches, mcs)) \/
  (exists f rs ma c m, mid = [(RLit f rs, ma); (c, Some m)] /\ rgt = None /\
     lft' = lft /\ rgt' = Some m /\ matches = [rs] /\ mcs = negb f) \/
  (exists a m f rs mc, mid = [(a, Some m); (RLit f rs, mc)] /\ lft = None /\
     lft' = Some m /\ rgt' = rgt /\ matches = [rs] /\ mcs = negb f).

Lemma refine_mid_cases lft mid rgt : refine_shape lft mid rgt (refine_mid lft mid rgt).
Proof.
  unfold refine_mid. destruct (fsm (RConcat (map fst mid)) []) as [ms0 c0] eqn:Ef.
  destruct ms0; cbn [isnil]; [| intros _; left; auto].
  assert (D : forall x y c, refine_shape lft mid rgt (x, y, [], c)) by (intros x y c E; now destruct E).
  destruct mid as [| [a ma] [| [c mc] [| ? ?]]]; try apply D.
  (* the second special case, reached whenever the first does not apply *)
  assert (B : refine_shape lft [(a, ma); (c, mc)] rgt
                match lft, lit_of c with
                | None, Some (f, rs) => match ma with
                                        | Some _ => (ma, rgt, [rs], negb f)
                                        | None => (lft, rgt, [], c0) end
                | _, _ => (lft, rgt, [], c0)
                end).
  { destruct lft; [apply D |]. destruct (lit_of c) as [[f rs] |] eqn:Ec; [| apply D].
    destruct ma as [m |]; [| apply D]. intros _. right. right.
    apply lit_of_some in Ec. subst c. do 5 eexists. repeat split; reflexivity. }
  destruct rgt as [rt |]; [destruct (lit_of a) as [[? ?] |]; exact B |].
  destruct (lit_of a) as [[f rs] |] eqn:Ea; [| exact B].
  destruct mc as [m |]; [| apply D]. intros _. right. left.
  apply lit_of_some in Ea. subst a. do 5 eexists. repeat split; reflexivity.
Qed.

(* refine_mid keeps the cut of split_wild or moves one more element with a matcher to a side;
   either way the strings are what findSetMatches gives for the middle *)
Lemma refine_mid_recut L0 mid R0 lft' rgt' matches mcs :
  refine_mid (option_map snd L0) mid (option_map snd R0) = (lft', rgt', matches, mcs) -> matches <> [] ->
  exists L R mid', side L0 ++ mid ++ side R0 = side L ++ mid' ++ side R /\
    lft' = option_map snd L /\ rgt' = option_map snd R /\ fsm (RConcat (map fst mid')) [] = (matches, mcs).
Proof.
  intros Er Hne. pose proof (refine_mid_cases (option_map snd L0) mid (option_map snd R0)) as C.
  rewrite Er in C. clear Er.
  destruct (C Hne) as [(-> & -> & Ef) | [(f & rs & ma & c & m & -> & E & -> & -> & -> & ->)
                                       | (a & m & f & rs & mc & -> & E & -> & -> & -> & ->)]].
  - exists L0, R0, mid. auto.
  - destruct R0 as [[? ?] |]; [discriminate |]. exists L0, (Some (c, m)), [(RLit f rs, ma)].
    repeat (split; [reflexivity |]). now destruct f.
  - destruct L0 as [[? ?] |]; [discriminate |]. exists (Some (a, m)), R0, [(RLit f rs, mc)].
    repeat (split; [reflexivity |]). now destruct f.
Qed.

Lemma concat_logic_correct ps M :
  ps_ok ps -> concat_logic ps = Some M ->
  good_or M = true /\ forall b e s, smm M s = true <-> ML b e (RConcat (map fst ps)) s.
Proof.
  intros Hok H.
  destruct ps as [| [x0 m0] [| p1 rest]].
  - simpl in H. inversion H; subst. split; [reflexivity |]. intros b e s. simpl.
    rewrite ML_concat_nil. destruct s; simpl; split; congruence.
  - simpl in H. subst m0. inversion Hok as [| ? ? [_ H0] _]; subst.
    destruct (H0 M eq_refl) as [Hg Hs]. split; [exact Hg |]. intros b e s. simpl.
    rewrite ML_concat_single. apply Hs.
  - assert (H' : match split_wild ((x0, m0) :: p1 :: rest) with
                 | None => None
                 | Some (lft, mid, rgt) =>
                     let '(lft', rgt', matches, mcs) := refine_mid lft mid rgt in
                     assemble lft' rgt' matches mcs
                 end = Some M) by exact H.
    clear H. destruct (split_wild ((x0, m0) :: p1 :: rest)) as [[[lft mid] rgt] |] eqn:Es; [| discriminate].
    destruct (split_wild_inv _ _ _ _ Es) as (L0 & R0 & Eps & -> & ->). clear Es.
    destruct (refine_mid _ mid _) as [[[lft' rgt'] matches] mcs] eqn:Er.
    assert (Hne : matches <> []). { intros ->. destruct lft', rgt'; discriminate. }
    destruct (refine_mid_recut _ _ _ _ _ _ _ Er Hne) as (L & R & mid' & E & -> & -> & Ef). clear Er.
    rewrite Eps, E in Hok |- *.
    apply Forall_app in Hok. destruct Hok as [HL Hok]. apply Forall_app in Hok. destruct Hok as [Hmid HR].
    pose proof (fsm_wf _ (wf_mid _ Hmid) []) as W. rewrite Ef in W. destruct W as [Hn Hc].
    cbn [fst snd] in Hn, Hc. rewrite (Hc Hne) in *.
    split; [eapply assemble_good; eauto |]. intros b e s.
    rewrite (assemble_correct _ _ _ _ H'). symmetry. apply sides_sem; auto.
    intros b' e' s'. apply (fsm_exact F _ _ Ef).
Qed.

(* ---- the wildcard matchers; nl = "the dot matches newlines" *)
Definition cp (nl : bool) : cpred := if nl then PAny else PNotNL.

Lemma cp_match_cp nl c : cp_match F (cp nl) c = nl || negb (c =? 10).
Proof. destruct nl; reflexivity. Qed.

Lemma forallb_cp nl s : forallb (cp_match F (cp nl)) s = nl || negb (memZ 10 s).
Proof. destruct nl; simpl; [induction s; auto | apply forallb_notnl]. Qed.

Lemma ML_star_any b e s : ML b e (RStar RAny) s.
Proof. apply (star_chr_spec F (cp true)). rewrite forallb_cp. reflexivity. Qed.

Lemma smm_nonl b e s : smm SNoNL s = true <-> ML b e (RStar RAnyNotNL) s.
Proof. unfold FastRegexProofs.ML. simpl. rewrite star_chr_spec. simpl. rewrite forallb_notnl. reflexivity. Qed.

Lemma smm_any_nonempty nl b e s :
  smm (SAnyNonEmpty nl) s = true <-> CM F b e (CCat (CChr (cp nl)) (CStar (CChr (cp nl)))) s.
Proof.
  rewrite plus_chr_spec, forallb_cp. cbn [FastRegex.smm]. destruct s; simpl.
  - split; [discriminate | intros [H _]; congruence].
  - split; [intros H; split; [discriminate | exact H] | tauto].
Qed.

Lemma smm_zero_or_one nl b e s :
  smm (SZeroOrOne nl) s = true <-> CM F b e (CAlt (CChr (cp nl)) CEps) s.
Proof.
  rewrite quest_chr_spec. cbn [FastRegex.smm]. destruct s as [| c [| c' s]].
  - split; auto.
  - rewrite <- cp_match_cp. split.
    + intros H. right. eauto.
    + intros [H | (c0 & H & Hc)]; [discriminate | inversion H; subst; exact Hc].
  - split; [discriminate | intros [H | (c0 & H & _)]; discriminate].
Qed.

(* ---- stringMatcherFromRegexpInternal: a matcher, when there is one, accepts exactly the
   expression, wherever it stands, and has the shape the map optimisation relies on *)
Definition smi_ok (r : re) : Prop :=
  wf_csb r = true -> forall M, smi r = Some M ->
  good_or M = true /\ forall b e s, smm M s = true <-> ML b e r s.

Lemma smi_correct : forall r, smi_ok r.
Proof.
  induction r using re_ind'; intros Hwf M HM; simpl in HM; try discriminate.
  - inversion HM; subst. split; [reflexivity |]. intros b e s. unfold FastRegexProofs.ML. simpl.
    destruct s; simpl; split; intros H; try discriminate; try constructor.
    apply CM_eps_iff in H. discriminate.
  - inversion HM; subst. simpl in Hwf. apply andb_true_iff in Hwf. destruct Hwf as [Hf _].
    apply negb_true_iff in Hf. subst f. split; [reflexivity |]. intros b e s.
    cbn [FastRegex.smm negb]. rewrite str_eqb_eq, ML_lit_cs. split; congruence.
  - apply (IHr Hwf M HM).
  - destruct r; try discriminate; inversion HM; subst; (split; [reflexivity |]); intros b e s.
    + split; auto using ML_star_any.
    + apply smm_nonl.
  - destruct r; try discriminate; inversion HM; subst; (split; [reflexivity |]); intros b e s.
    + exact (smm_any_nonempty true b e s).
    + exact (smm_any_nonempty false b e s).
  - destruct r; try discriminate; inversion HM; subst; (split; [reflexivity |]); intros b e s.
    + exact (smm_zero_or_one true b e s).
    + exact (smm_zero_or_one false b e s).
  - simpl in Hwf. rewrite forallb_forall in Hwf. rewrite Forall_forall in H.
    assert (Hok : ps_ok (map (fun x => (strip x, smi x)) l)).
    { apply Forall_map, Forall_forall. intros x Hx. split; cbn [fst snd]; [apply wf_strip, Hwf, Hx |].
      intros mm Hmm. destruct (H x Hx (Hwf x Hx) mm Hmm) as [Hg Hs]. split; [exact Hg |].
      intros b e s. rewrite ML_strip. apply Hs. }
    destruct (concat_logic_correct _ _ Hok HM) as [Hg Hs]. split; [exact Hg |]. intros b e s.
    rewrite Hs, map_map. apply ML_concat_map_strip.
  - simpl in Hwf. destruct (all_some (map smi l)) as [ms |] eqn:Ea; [| discriminate].
    inversion HM; subst. clear HM. apply all_some_Forall2 in Ea.
    change (forallb good_or ms = true /\
            forall b e s, existsb (fun x => smm x s) ms = true <-> ML b e (RAlt l) s).
    revert H Hwf. induction Ea as [| x m l ms Ex _ IH]; intros H Hwf.
    + split; [reflexivity |]. intros b e s. rewrite ML_alt_nil. simpl. split; [discriminate | tauto].
    + inversion H as [| ? ? Hx Hl]; subst. simpl in Hwf. apply andb_true_iff in Hwf.
      destruct Hwf as [Hwx Hwl]. destruct (Hx Hwx m Ex) as [Hg Hs]. destruct (IH Hl Hwl) as [Hgl Hsl].
      split; [simpl; now rewrite Hg |]. intros b e s. simpl.
      rewrite ML_alt_cons, orb_true_iff, Hs, Hsl. reflexivity.
Qed.
End SM.

Lemma fsm_top_exact : forall F r ms,
  fsm r [] = (ms, true) -> ms <> [] -> forall s, Matches F r s <-> In s ms.
Proof.
  intros F r ms H _ s. exact (fsm_exact F r ms H true true s).
Qed.
