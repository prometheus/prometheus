(* proof/AppendableProofs.v — proofs about model/Appendable.v (C02).
   1. decision table: appendable = the documented table (Inductive relation).
   2. exact duplicate re-append is a no-op.
   3. nothing but accepted entries of a committed appender reaches the series
      (append never stores; a rejected append leaves the appender's batches alone; commit only
      adds entries of the batches; rollback adds nothing).
   4. commit = committing the accepted samples one at a time in append order under the same
      window snapshot — for transactions in which no float staleness marker is followed by a sample
      of its series (proof/AppendableSeq.v), and the refutation of the full statement (a float
      staleness marker re-queued at commit). *)
From Coq Require Import List ZArith Bool Lia.
From Verif Require Import lib.Int64 model.Appendable proof.AppendableSeq.
Import ListNotations.
Open Scope Z_scope.

Lemma value_eqb_eq a b : value_eqb a b = true <-> a = b.
Proof.
  destruct a, b; cbn; try (split; [discriminate|congruence]);
    rewrite Z.eqb_eq; split; congruence.
Qed.

Lemma value_eqb_refl a : value_eqb a a = true.
Proof. apply value_eqb_eq. reflexivity. Qed.

(* the sample cannot go into the in-order chunk: below the appendable window, or older than the
   series' newest in-order sample *)
Definition below (last : option sample) (t : Z) (sn : snap) : Prop :=
  t < sn_minValid sn \/ exists mx lv, last = Some (mx, lv) /\ t < mx.

Inductive table (last : option sample) (t : Z) (v : value) (sn : snap) : bool * option aerr -> Prop :=
| T_fresh : sn_minValid sn <= t -> last = None -> table last t v sn (false, None)
| T_newer mx lv : sn_minValid sn <= t -> last = Some (mx, lv) -> mx < t -> table last t v sn (false, None)
| T_dup_same : sn_minValid sn <= t -> last = Some (t, v) -> table last t v sn (false, None)
| T_dup_diff lv : sn_minValid sn <= t -> last = Some (t, lv) -> lv <> v -> table last t v sn (false, Some EDup)
| T_ooo : below last t sn -> 0 < sn_oooWin sn -> sub64 (sn_headMaxt sn) (sn_oooWin sn) <= t ->
          table last t v sn (true, None)
| T_too_old : below last t sn -> 0 < sn_oooWin sn -> t < sub64 (sn_headMaxt sn) (sn_oooWin sn) ->
              table last t v sn (true, Some ETooOld)
| T_oob : sn_oooWin sn <= 0 -> t < sn_minValid sn -> table last t v sn (false, Some EOOB)
| T_ooo_err mx lv : sn_oooWin sn <= 0 -> sn_minValid sn <= t -> last = Some (mx, lv) -> t < mx ->
                    table last t v sn (false, Some EOOO).

Lemma appendable_below last t v sn :
  below last t sn ->
  appendable last t v sn =
  if (sn_oooWin sn >? 0) && (t >=? sub64 (sn_headMaxt sn) (sn_oooWin sn)) then (true, None)
  else if sn_oooWin sn >? 0 then (true, Some ETooOld)
  else if t <? sn_minValid sn then (false, Some EOOB)
  else (false, Some EOOO).
Proof.
  unfold appendable. intros [B|(mx & lv & -> & Hlt)];
    (destruct (Z.geb_spec t (sn_minValid sn)); [|reflexivity]); [lia|].
  destruct (Z.gtb_spec t mx); [lia|]. destruct (Z.eqb_spec t mx); [lia|reflexivity].
Qed.

Lemma appendable_table last t v sn : table last t v sn (appendable last t v sn).
Proof.
  assert (R : below last t sn -> table last t v sn (appendable last t v sn)).
  { intros B. rewrite (appendable_below last t v sn B).
    destruct (Z.gtb_spec (sn_oooWin sn) 0) as [Hw|Hw]; cbn [andb].
    - destruct (Z.geb_spec t (sub64 (sn_headMaxt sn) (sn_oooWin sn))) as [Ht|Ht].
      + apply T_ooo; [exact B|lia|lia].
      + apply T_too_old; [exact B|lia|lia].
    - destruct (Z.ltb_spec t (sn_minValid sn)) as [Hm|Hm].
      + apply T_oob; lia.
      + destruct B as [B|(mx & lv & E & Hlt)]; [lia|]. eapply T_ooo_err; eauto. }
  destruct (Z.lt_ge_cases t (sn_minValid sn)) as [Hm|Hm]; [apply R; left; exact Hm|].
  destruct last as [[mx lv]|] eqn:El; [|rewrite <- El in *].
  - destruct (Z.lt_trichotomy t mx) as [Hlt|[->|Hgt]].
    + apply R. right. eauto.
    + unfold appendable. destruct (Z.geb_spec mx (sn_minValid sn)); [|lia].
      rewrite Z.gtb_ltb, Z.ltb_irrefl, Z.eqb_refl. destruct (value_eqb lv v) eqn:Ev.
      * apply value_eqb_eq in Ev. subst lv. apply T_dup_same; [lia|reflexivity].
      * eapply T_dup_diff; [lia|reflexivity|]. intros ->. rewrite value_eqb_refl in Ev. discriminate.
    + unfold appendable. destruct (Z.geb_spec t (sn_minValid sn)); [|lia].
      destruct (Z.gtb_spec t mx); [|lia]. eapply T_newer; eauto.
  - unfold appendable. rewrite El. destruct (Z.geb_spec t (sn_minValid sn)); [|lia]. apply T_fresh; auto.
Qed.

Lemma table_appendable last t v sn r : table last t v sn r -> appendable last t v sn = r.
Proof.
  intros H.
  assert (Hin : sn_minValid sn <= t -> (t >=? sn_minValid sn) = true) by (intros; apply Z.geb_le; lia).
  destruct H as [Hm ->|mx lv Hm -> Hlt|Hm ->|lv Hm -> Hne|B Hw Ht|B Hw Ht|Hw Hm|mx lv Hw Hm El Hlt].
  - unfold appendable. rewrite Hin by exact Hm. reflexivity.
  - unfold appendable. rewrite Hin by exact Hm. destruct (Z.gtb_spec t mx); [reflexivity|lia].
  - unfold appendable. rewrite Hin, Z.gtb_ltb, Z.ltb_irrefl, Z.eqb_refl, value_eqb_refl by exact Hm. reflexivity.
  - unfold appendable. rewrite Hin, Z.gtb_ltb, Z.ltb_irrefl, Z.eqb_refl by exact Hm.
    destruct (value_eqb lv v) eqn:Ev; [apply value_eqb_eq in Ev; contradiction|reflexivity].
  - rewrite appendable_below by exact B.
    destruct (Z.gtb_spec (sn_oooWin sn) 0); [|lia]. destruct (Z.geb_spec t (sub64 (sn_headMaxt sn) (sn_oooWin sn))); [reflexivity|lia].
  - rewrite appendable_below by exact B.
    destruct (Z.gtb_spec (sn_oooWin sn) 0); [|lia]. destruct (Z.geb_spec t (sub64 (sn_headMaxt sn) (sn_oooWin sn))); [lia|reflexivity].
  - rewrite appendable_below by (left; exact Hm).
    destruct (Z.gtb_spec (sn_oooWin sn) 0); [lia|]. destruct (Z.ltb_spec t (sn_minValid sn)); [reflexivity|lia].
  - rewrite appendable_below by (right; eauto).
    destruct (Z.gtb_spec (sn_oooWin sn) 0); [lia|]. destruct (Z.ltb_spec t (sn_minValid sn)); [lia|reflexivity].
Qed.

Theorem decision_table last t v sn r : appendable last t v sn = r <-> table last t v sn r.
Proof. split; [intros <-; apply appendable_table|apply table_appendable]. Qed.

Lemma exact_dup_sample cap sn s t v :
  s_last s = Some (t, v) -> sn_minValid sn <= t ->
  appendable (s_last s) t v sn = (false, None) /\ commit_sample cap sn s t v = (s, None).
Proof.
  intros El Hm.
  assert (Ha : appendable (s_last s) t v sn = (false, None)).
  { apply decision_table. rewrite El. apply T_dup_same; [exact Hm|reflexivity]. }
  split; [exact Ha|].
  unfold commit_sample. rewrite Ha. unfold series_append. rewrite El.
  destruct (Z.geb_spec t t) as [_|Hc]; [|lia].
  destruct s as [l i o oo]. cbn in *. subst l. reflexivity.
Qed.

(* as a transaction: the marker conversion does not apply (the last value has the sample's type),
   so the one conversion step is commit_sample, which leaves the series as it is *)
Theorem exact_dup_commit c sn h sid t v :
  head_wf h -> s_last (h_series h sid) = Some (t, v) -> sn_minValid sn <= t ->
  head_eq (commit c h (appender_of sn [(sid, t, v)])) h.
Proof.
  intros Hw El Hm. rewrite commit_single. unfold hstep. rewrite gstep_pair. cbn [e_sid e_t e_val fst snd].
  assert (Ec : cs (c_oooCap c) sn (h_series h sid) t v = (h_series h sid, None)).
  { unfold cs, conv_val, conv_kind. rewrite El.
    destruct (exact_dup_sample (c_oooCap c) sn (h_series h sid) t v El Hm) as [_ Hc].
    destruct v; cbn [is_stale_float]; try exact Hc. destruct (_ =? _); exact Hc. }
  rewrite Ec. cbn [fst snd]. rewrite finish_acc0 by exact Hw. repeat split. cbn [h_series].
  intros k. unfold smap_set. destruct (Z.eqb_spec k sid); congruence.
Qed.

Definition nostale (l : list entry) : Prop := Forall (fun e => is_stale_float (e_val e) = false) l.

(* committing the accepted samples one at a time: each through its own appender holding just
   that sample, all with the window snapshot sn of the original appender *)
Definition commit_each (c : cfg) (sn : snap) (log : list entry) (h : head) : head :=
  fold_left (fun h e => commit c h (appender_of sn [e])) log h.

Lemma nostale_safe l : nostale l -> safe l.
Proof.
  induction 1 as [|e l He Hl IH]; cbn; [exact I|]. split; [|exact IH]. intros St. congruence.
Qed.

Theorem commit_sequential c sn h log :
  head_wf h -> nostale log ->
  head_eq (commit c h (appender_of sn log)) (commit_each c sn log h).
Proof. intros Hw Hn. apply commit_sequential_fold; [exact Hw|apply nostale_safe, Hn]. Qed.

Lemma min_fold_le ts : forall a, fold_left Z.min ts a <= a.
Proof. induction ts as [|t l IH]; intros a; cbn; [lia|]. specialize (IH (Z.min a t)). lia. Qed.
Lemma max_fold_ge ts : forall a, a <= fold_left Z.max ts a.
Proof. induction ts as [|t l IH]; intros a; cbn; [lia|]. specialize (IH (Z.max a t)). lia. Qed.

(* The full statement (no restriction on staleness markers) is false for the code as it is:
   commitFloats converts a float staleness marker of a histogram series at commit and re-queues
   it at the end of the batch's histograms, behind a later histogram of the same series that
   getCurrentBatch put into the same batch; it is then re-checked after that sample. *)
Definition refute_cfg := mkCfg 1000 0 32.
Definition refute_snap := mkSnap (-400) 100 0.
Definition refute_head :=
  mkHead 100 100 minInt64
         (fun k => if k =? 1 then mkSeries (Some (100, VH 5)) [(100, VH 5)] [] [] else empty_series).
Definition refute_log : list entry := [(1, 110, VF staleBits); (1, 120, VH 6)].

Lemma commit_sequential_refuted :
  exists c sn h log, head_wf h /\
    ~ head_eq (commit c h (appender_of sn log)) (commit_each c sn log h).
Proof.
  exists refute_cfg, refute_snap, refute_head, refute_log. split.
  - unfold head_wf, refute_head, maxInt64, minInt64. cbn. lia.
  - intros (_ & _ & _ & D). specialize (D 1). vm_compute in D. discriminate D.
Qed.

(* what the two sides store for that transaction: the marker at 110 is lost *)
Lemma refuted_values :
  s_in (h_series (commit refute_cfg refute_head (appender_of refute_snap refute_log)) 1)
    = [(120, VH 6); (100, VH 5)] /\
  s_in (h_series (commit_each refute_cfg refute_snap refute_log refute_head) 1)
    = [(120, VH 6); (110, VH 0); (100, VH 5)].
Proof. split; vm_compute; reflexivity. Qed.

(* e' is e, or the histogram-typed staleness marker a float staleness marker e was turned into *)
Definition derived (e' e : entry) : Prop :=
  e_sid e' = e_sid e /\ e_t e' = e_t e /\
  (e_val e' = e_val e \/ (is_stale_float (e_val e) = true /\ (e_val e' = VH 0 \/ e_val e' = VFH 0))).

Lemma derived_refl e : derived e e.
Proof. repeat split; auto. Qed.

(* Append / AppendHistogram / AppenderV2.Append never touch the series; a rejected append
   leaves the appender's batches alone; an accepted one adds exactly that sample *)
Lemma append_spec c h a flag sid t v h' a' e :
  append c h a flag sid t v = (h', a', e) ->
  h_series h' = h_series h /\
  (e <> 0 -> a_batches a' = a_batches a /\ a_types a' = a_types a) /\
  (e = 0 -> exists v' a1, a' = add_entry a1 (sid, t, v') /\ derived (sid, t, v') (sid, t, v) /\
                          a_batches a1 = a_batches a /\ a_types a1 = a_types a).
Proof.
  unfold append.
  set (st := match a_snap a with
             | Some sn => (h, a, sn)
             | None => (init_time h t, mkApp (a_v2 a) (a_discard a) (Some (snapshot c (init_time h t))) (a_batches a) (a_types a), snapshot c (init_time h t))
             end).
  assert (Hst : h_series (fst (fst st)) = h_series h /\ a_batches (snd (fst st)) = a_batches a /\
                a_types (snd (fst st)) = a_types a).
  { unfold st. destruct (a_snap a); cbn; [auto|].
    repeat split. unfold init_time. destruct (h_maxt h =? minInt64); reflexivity. }
  destruct st as [[h1 a1] sn]. cbn [fst snd] in Hst. destruct Hst as (Hs & Hb & Ht).
  destruct ((sn_oooWin sn =? 0) && (t <? sn_minValid sn)).
  { intros E. injection E as <- <- <-. split; [exact Hs|]. split; [intros _; auto|intros; discriminate]. }
  set (v' := if is_stale_float v then match lookup_type (a_types a1) sid with
                                      | Some THist | Some TCHist => VH 0 | Some TFHist | Some TCFHist => VFH 0 | _ => v end else v).
  assert (Hd : derived (sid, t, v') (sid, t, v)).
  { unfold derived, v'. cbn. repeat split.
    destruct (is_stale_float v) eqn:Es; [|left; reflexivity].
    destruct (lookup_type (a_types a1) sid) as [[]|]; auto. }
  destruct (appendable (s_last (h_series h1 sid)) t v' sn) as [isOOO err].
  match goal with |- (if ?r then _ else _) = _ -> _ => destruct r end.
  { intros E. injection E as <- <- <-. split; [exact Hs|]. split; [intros _; auto|intros; discriminate]. }
  destruct err as [er|].
  - intros E. injection E as <- <- <-. split; [exact Hs|]. split; [intros _; auto|].
    destruct er; discriminate.
  - intros E. injection E as <- <- <-. split; [exact Hs|]. split; [intros F; congruence|].
    intros _. exists v', a1. auto.
Qed.

Lemma rollback_nothing h a : rollback h a = h.
Proof. reflexivity. Qed.

Lemma in_app3 {A} (x : A) a b c : In x (a ++ b ++ c) <-> In x a \/ In x b \/ In x c.
Proof. rewrite !in_app_iff. tauto. Qed.

Lemma ooo_insert_in l t v : forall l' x, ooo_insert l t v = Some l' -> In x l' -> In x l \/ x = (t, v).
Proof.
  induction l as [|[t' v'] r IH]; intros l' x; cbn.
  - intros E. injection E as <-. cbn. intros [ <- | [] ]. auto.
  - destruct (t <? t').
    + intros E. injection E as <-. cbn. intros [ <- | [ <- | H ] ]; auto.
    + destruct (t =? t'); [discriminate|].
      destruct (ooo_insert r t v) as [r'|] eqn:Er; [|discriminate].
      intros E. injection E as <-. cbn. intros [ <- | H ]; [auto|].
      destruct (IH r' x eq_refl H); auto.
Qed.

Lemma commit_sample_in cap sn s t v x :
  In x (series_samples (fst (commit_sample cap sn s t v))) -> In x (series_samples s) \/ x = (t, v).
Proof.
  unfold commit_sample. destruct (appendable (s_last s) t v sn) as [[|] [er|]]; cbn [fst]; auto.
  - (* memSeries.insert: into the out-of-order head chunk, or into a fresh one after a cut *)
    unfold series_insert, series_samples.
    destruct (Z.of_nat (length (s_ooo s)) =? cap).
    + cbn [ooo_insert s_in s_ooo s_ooo_old]. intros H. apply in_app3 in H. destruct H as [H|[[<-|[]]|H]].
      * left. apply in_app3. auto.
      * right. reflexivity.
      * left. apply in_app3. apply in_app_or in H. tauto.
    + destruct (ooo_insert (s_ooo s) t v) as [cur'|] eqn:E; cbn [s_in s_ooo s_ooo_old]; [|auto].
      intros H. apply in_app3 in H. destruct H as [H|[H|H]]; [left; apply in_app3; auto| |left; apply in_app3; auto].
      destruct (ooo_insert_in _ _ _ _ x E H); [left; apply in_app3; auto|auto].
  - unfold series_append, series_samples.
    destruct (match s_last s with Some p => p | None => (minInt64, VF 0) end) as [mx lv].
    destruct (mx >=? t); cbn [fst s_in s_ooo s_ooo_old rev]; auto.
    intros H. apply in_app_or in H. destruct H as [H|H]; [|left; apply in_or_app; auto].
    apply in_app_or in H. destruct H as [H|[<-|[]]]; [left; apply in_or_app; auto|right; reflexivity].
Qed.

Section OnlyAccepted.
  Variables (cap : Z) (sn : snap) (E : list entry) (m0 : smap).

  Definition justified (sid : Z) (x : sample) : Prop :=
    In x (series_samples (m0 sid)) \/
    exists e, In e E /\ e_sid e = sid /\ fst x = e_t e /\
              (snd x = e_val e \/ (is_stale_float (e_val e) = true /\ (snd x = VH 0 \/ snd x = VFH 0))).

  Definition good (m : smap) : Prop := forall sid x, In x (series_samples (m sid)) -> justified sid x.
  Definition all_derived (l : list entry) : Prop := Forall (fun e' => exists e, In e E /\ derived e' e) l.

  Lemma commit_plain_good m ac e' :
    good m -> (exists e, In e E /\ derived e' e) -> good (fst (commit_plain cap sn (m, ac) e')).
  Proof.
    intros Hg (e & He & Hs & Ht & Hv). rewrite commit_plain_unfold, gstep_pair. cbn [fst].
    intros sid x. unfold smap_set. destruct (Z.eqb_spec sid (e_sid e')) as [->|Hne]; [|apply Hg].
    intros Hx. destruct (commit_sample_in _ _ _ _ _ _ Hx) as [H | -> ]; [apply Hg; exact H|].
    right. exists e. cbn [fst snd]. repeat split; auto.
  Qed.

  Lemma fold_plain_good l : forall m ac,
    good m -> all_derived l -> good (fst (fold_left (commit_plain cap sn) l (m, ac))).
  Proof.
    induction l as [|e' l IH]; intros m ac Hg Hl; cbn [fold_left]; [exact Hg|].
    inversion Hl; subst.
    pose proof (commit_plain_good m ac e' Hg H1) as Hg'.
    destruct (commit_plain cap sn (m, ac) e') as [m' ac']. apply IH; assumption.
  Qed.

  Lemma converted_derived e' w :
    (exists e, In e E /\ derived e' e) -> is_stale_float (e_val e') = true -> w = VH 0 \/ w = VFH 0 ->
    all_derived [(e_sid e', e_t e', w)].
  Proof.
    intros (e & He & Hs & Ht & Hv) St Hw. constructor; [|constructor]. exists e. split; [exact He|].
    repeat split; auto. right. split; [|exact Hw].
    destruct Hv as [Hv|[Hv _]]; [rewrite <- Hv; exact St|exact Hv].
  Qed.

  Lemma fold_float_good fs : forall m ac hs fhs,
    good m -> all_derived fs -> all_derived hs -> all_derived fhs ->
    let r := fold_left (commit_float cap sn) fs (m, ac, hs, fhs) in
    good (fst (fst (fst r))) /\ all_derived (snd (fst r)) /\ all_derived (snd r).
  Proof.
    induction fs as [|e' l IH]; intros m ac hs fhs Hg Hf Hh Hfh; cbn [fold_left]; [cbn; auto|].
    inversion Hf as [|? ? He Hl]; subst. rewrite commit_float_conv.
    destruct (conv_kind_cases (m (e_sid e')) (e_val e')) as [Ek|[St [Ek|Ek]]]; rewrite Ek.
    - pose proof (commit_plain_good m ac e' Hg He) as Hg'.
      destruct (commit_plain cap sn (m, ac) e') as [m' ac']. apply IH; assumption.
    - apply IH; [exact Hg|exact Hl| |exact Hfh]. apply Forall_app. split; [exact Hh|]. apply converted_derived; auto.
    - apply IH; [exact Hg|exact Hl|exact Hh|]. apply Forall_app. split; [exact Hfh|]. apply converted_derived; auto.
  Qed.

  Lemma commit_batch_good m ac b :
    good m -> all_derived (flat b) -> good (fst (commit_batch cap sn (m, ac) b)).
  Proof.
    intros Hg Hb. unfold flat, all_derived in Hb. rewrite !Forall_app in Hb. destruct Hb as (Hf & Hh & Hfh).
    unfold commit_batch.
    pose proof (fold_float_good (b_f b) m ac (b_h b) (b_fh b) Hg Hf Hh Hfh) as R. cbv zeta in R.
    destruct (fold_left (commit_float cap sn) (b_f b) (m, ac, b_h b, b_fh b)) as [[[m1 ac1] hs] fhs].
    cbn [fst snd] in R. destruct R as (G1 & G2 & G3).
    pose proof (fold_plain_good hs m1 ac1 G1 G2) as G4.
    destruct (fold_left (commit_plain cap sn) hs (m1, ac1)) as [m2 ac2].
    apply fold_plain_good; assumption.
  Qed.

  Lemma commit_batches_good bs : forall m ac,
    good m -> all_derived (concat (map flat bs)) ->
    good (fst (fold_left (commit_batch cap sn) bs (m, ac))).
  Proof.
    induction bs as [|b l IH]; intros m ac Hg Hb; cbn [fold_left]; [exact Hg|].
    cbn [map concat] in Hb. unfold all_derived in Hb. rewrite Forall_app in Hb. destruct Hb as [Hb Hl].
    pose proof (commit_batch_good m ac b Hg Hb) as Hg'.
    destruct (commit_batch cap sn (m, ac) b) as [m' ac']. apply IH; assumption.
  Qed.
End OnlyAccepted.

(* every sample a series holds after Commit was there before, or is an accepted sample of the
   committed appender (a float staleness marker possibly as its histogram-typed form) *)
Theorem commit_only_accepted c h a sid x :
  In x (series_samples (h_series (commit c h a) sid)) ->
  In x (series_samples (h_series h sid)) \/
  exists e, In e (entries a) /\ e_sid e = sid /\ fst x = e_t e /\
            (snd x = e_val e \/ (is_stale_float (e_val e) = true /\ (snd x = VH 0 \/ snd x = VFH 0))).
Proof.
  rewrite commit_finish, finish_series.
  apply (commit_batches_good _ _ (entries a) (h_series h) (rev (a_batches a)) (h_series h) acc0).
  - intros s y Hy. left. exact Hy.
  - apply Forall_forall. intros e He. exists e. split; [exact He|apply derived_refl].
Qed.
