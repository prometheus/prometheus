(* proof/IsolationProofs.v — model/Isolation.v (C05), from the ring up.  The txRing is read through its logical
   contents [cont]: add appends to them, cleanupAppendIDsBelow drops the leading ids below the bound, the
   scan of memSeries.iterator finds the first invisible one.  Then the series: the ring stays aligned with
   the newest samples under the commit steps (ser_inv), and the stopAfter computation returns exactly the
   longest visible prefix (read_series_spec).  Then the whole state: the invariant over all traces and
   the C05 statements derived from it. *)
From Coq Require Import List ZArith Bool Arith Lia Sorting.Sorted.
From Verif Require Import lib.SortedList model.Isolation.
Import ListNotations.
Open Scope Z_scope.

Fixpoint dropwhile {A} (p : A -> bool) (l : list A) : list A :=
  match l with
  | [] => []
  | x :: l' => if p x then dropwhile p l' else l
  end.

Lemma takewhile_app_all {A} (p : A -> bool) (l1 l2 : list A) :
  Forall (fun x => p x = true) l1 -> takewhile p (l1 ++ l2) = l1 ++ takewhile p l2.
Proof.
  induction 1 as [|x l1 Hx _ IH]; simpl; auto. rewrite Hx, IH. reflexivity.
Qed.

Lemma takewhile_firstn {A} (p : A -> bool) (l : list A) :
  takewhile p l = firstn (length (takewhile p l)) l.
Proof.
  induction l as [|x l IH]; simpl; auto. destruct (p x); simpl; auto. f_equal. exact IH.
Qed.

Lemma takewhile_Forall {A} (p : A -> bool) (l : list A) : Forall (fun x => p x = true) (takewhile p l).
Proof.
  induction l as [|x l IH]; simpl; auto. destruct (p x) eqn:E; auto.
Qed.

Lemma dropwhile_split {A B} (f : A -> B) (p : B -> bool) (w : list A) :
  exists w1 w2, w = w1 ++ w2 /\ map f w2 = dropwhile p (map f w) /\ Forall (fun x => p (f x) = true) w1.
Proof.
  induction w as [|x w IH]; simpl.
  - exists [], []. auto.
  - destruct (p (f x)) eqn:E.
    + destruct IH as (w1 & w2 & -> & H2 & H3). exists (x :: w1), w2. simpl. auto.
    + exists [], (x :: w). simpl. auto.
Qed.

Lemma nth_set_nth (n m : nat) (x d : Z) (l : list Z) :
  (n < length l)%nat -> nth m (set_nth n x l) d = if Nat.eqb m n then x else nth m l d.
Proof.
  revert m l. induction n as [|n IH]; intros m [|a l] Hn; cbn [length] in Hn; try lia; destruct m; try reflexivity.
  apply (IH m l). lia.
Qed.

Lemma length_set_nth (n : nat) (x : Z) (l : list Z) :
  (n < length l)%nat -> length (set_nth n x l) = length l.
Proof.
  intros Hn. unfold set_nth. rewrite app_length. cbn [length]. rewrite firstn_length, skipn_length. lia.
Qed.

Definition next_pos (len pos : nat) : nat := if Nat.eqb (S pos) len then O else S pos.

Lemma mod_wrap (len f k : nat) :
  (f < len)%nat -> (k <= len)%nat ->
  ((f + k) mod len = if Nat.ltb (f + k) len then f + k else f + k - len)%nat.
Proof.
  intros Hf Hk. destruct (Nat.ltb_spec (f + k) len) as [H|H].
  - apply Nat.mod_small; lia.
  - symmetry. apply (Nat.mod_unique (f + k) len 1); lia.
Qed.

Lemma next_pos_mod (len a : nat) : (0 < len)%nat -> next_pos len (a mod len) = (S a mod len)%nat.
Proof.
  intros Hlen. unfold next_pos.
  pose proof (Nat.mod_upper_bound a len ltac:(lia)) as Hub.
  pose proof (Nat.div_mod a len ltac:(lia)) as Hdm.
  destruct (Nat.eqb_spec (S (a mod len)) len) as [E|E].
  - apply (Nat.mod_unique (S a) len (S (a / len))); lia.
  - apply (Nat.mod_unique (S a) len (a / len)); lia.
Qed.

Definition wf_ring (r : ring) : Prop :=
  (r_count r <= length (r_ids r))%nat /\
  ((r_first r < length (r_ids r))%nat \/ (length (r_ids r) = 0%nat /\ r_first r = 0%nat)).

Definition cont (ids : list Z) (first count : nat) : list Z :=
  map (fun k => nth ((first + k) mod length ids) ids 0) (seq 0 count).

Lemma ring_contents_cont r : ring_contents r = cont (r_ids r) (r_first r) (r_count r).
Proof. reflexivity. Qed.

Lemma length_contents r : length (ring_contents r) = r_count r.
Proof. unfold ring_contents. rewrite map_length, seq_length. reflexivity. Qed.

Lemma wf_ring_new : wf_ring ring_new.
Proof. unfold wf_ring, ring_new; simpl. lia. Qed.

(* writing into the slot behind the last entry of a ring that is not full *)
Lemma ring_push_spec ids first count id :
  (count < length ids)%nat -> (first < length ids)%nat ->
  let r' := mkRing (set_nth ((first + count) mod length ids) id ids) first (S count) in
  wf_ring r' /\ ring_contents r' = cont ids first count ++ [id].
Proof.
  intros Hc Hf.
  assert (Hidx : ((first + count) mod length ids < length ids)%nat) by (apply Nat.mod_upper_bound; lia).
  split; [unfold wf_ring; cbn [r_ids r_first r_count]; rewrite length_set_nth by exact Hidx; lia|].
  rewrite ring_contents_cont. cbn [r_ids r_first r_count]. unfold cont.
  rewrite length_set_nth by exact Hidx.
  rewrite seq_S, map_app. simpl. f_equal.
  - apply map_ext_in. intros k Hk. apply in_seq in Hk.
    rewrite nth_set_nth by exact Hidx.
    destruct (Nat.eqb_spec ((first + k) mod length ids) ((first + count) mod length ids)) as [E|E]; auto.
    exfalso. rewrite !mod_wrap in E by lia.
    destruct (Nat.ltb_spec (first + k) (length ids)), (Nat.ltb_spec (first + count) (length ids)); lia.
  - rewrite nth_set_nth by exact Hidx. rewrite Nat.eqb_refl. reflexivity.
Qed.

Lemma nth_skipn {A} n (l : list A) k d : nth k (skipn n l) d = nth (n + k) l d.
Proof. revert l. induction n as [|n IH]; intros [|a l]; simpl; auto. destruct k; reflexivity. Qed.

Lemma nth_firstn {A} n (l : list A) k d : (k < n)%nat -> nth k (firstn n l) d = nth k l d.
Proof.
  revert l k. induction n as [|n IH]; intros [|a l] [|k] H; simpl; auto; try (exfalso; lia). apply IH. lia.
Qed.

Lemma grown_cont ids first extra :
  (first < length ids)%nat \/ (length ids = 0%nat /\ first = 0%nat) ->
  cont (skipn first ids ++ firstn first ids ++ repeat 0 extra) 0 (length ids) = cont ids first (length ids).
Proof.
  intros Hf. unfold cont. apply map_ext_in. intros k Hk. apply in_seq in Hk.
  destruct Hf as [Hf|[H0 _]]; [|lia].
  rewrite !app_length, skipn_length, firstn_length, repeat_length. simpl.
  rewrite (Nat.mod_small k) by lia. rewrite mod_wrap by lia.
  destruct (Nat.ltb_spec (first + k) (length ids)) as [H|H].
  - rewrite app_nth1 by (rewrite skipn_length; lia). apply nth_skipn.
  - rewrite app_nth2 by (rewrite skipn_length; lia).
    rewrite skipn_length, app_nth1 by (rewrite firstn_length; lia).
    rewrite nth_firstn by lia. f_equal. lia.
Qed.

Lemma ring_add_spec r id :
  wf_ring r ->
  exists r', ring_add r id = Some r' /\ wf_ring r' /\ ring_contents r' = ring_contents r ++ [id].
Proof.
  intros [Hc Hf]. unfold ring_add.
  destruct (Nat.eqb_spec (r_count r) (length (r_ids r))) as [Efull|Enf].
  - (* full: the entries are copied, oldest first, to the front of a longer ring *)
    rewrite (proj2 (Nat.leb_le _ _)) by lia.
    set (newLen := (if Nat.eqb (r_count r * 2) 0 then 4 else r_count r * 2)%nat).
    set (ids' := skipn (r_first r) (r_ids r) ++ firstn (r_first r) (r_ids r) ++ repeat 0 (newLen - length (r_ids r))).
    assert (Hlen' : (length (r_ids r) < length ids')%nat).
    { unfold ids', newLen. rewrite !app_length, skipn_length, firstn_length, repeat_length.
      destruct (Nat.eqb_spec (r_count r * 2) 0); lia. }
    cbn [r_ids r_first r_count].
    destruct (Nat.eqb_spec (length ids') 0) as [E0|E0]; [lia|].
    eexists. split; [reflexivity|].
    destruct (ring_push_spec ids' 0 (r_count r) id) as [W C]; [lia|lia|]. split; [exact W|].
    rewrite C, ring_contents_cont, Efull. f_equal. apply grown_cont, Hf.
  - destruct (Nat.eqb_spec (length (r_ids r)) 0) as [E0|E0]; [lia|].
    destruct Hf as [Hf|[H0 _]]; [|lia].
    eexists. split; [reflexivity|]. apply ring_push_spec; lia.
Qed.

Lemma cont_cons ids first c :
  cont ids first (S c) = nth (first mod length ids) ids 0 :: cont ids (S first) c.
Proof.
  unfold cont. rewrite <- cons_seq, <- seq_shift. simpl. rewrite Nat.add_0_r. f_equal.
  rewrite map_map. apply map_ext. intros k. f_equal. f_equal. lia.
Qed.

Lemma cleanup_loop_spec ids bound :
  (0 < length ids)%nat ->
  forall count first pos,
    pos = (first mod length ids)%nat ->
    exists f' c', cleanup_loop ids bound count first pos = Some (f', c') /\
                  (c' <= count)%nat /\
                  cont ids f' c' = dropwhile (fun x => x <? bound) (cont ids first count).
Proof.
  intros Hlen. induction count as [|c IH]; intros first pos Hpos.
  - exists first, 0%nat. simpl. auto.
  - cbn [cleanup_loop]. rewrite cont_cons.
    assert (Hp : (pos < length ids)%nat) by (subst pos; apply Nat.mod_upper_bound; lia).
    rewrite (nth_error_nth' ids 0 Hp). rewrite <- Hpos. cbn [dropwhile].
    destruct (Z.geb_spec (nth pos ids 0) bound) as [Hge|Hlt].
    + assert (E : (nth pos ids 0 <? bound) = false) by (apply Z.ltb_ge; lia). rewrite E.
      exists first, (S c). rewrite cont_cons, <- Hpos. auto.
    + assert (E : (nth pos ids 0 <? bound) = true) by (apply Z.ltb_lt; lia). rewrite E.
      destruct (IH (S first) (next_pos (length ids) pos)) as (f' & c' & H1 & H2 & H3).
      { subst pos. apply next_pos_mod. exact Hlen. }
      exists f', c'. unfold next_pos in H1. rewrite H1. auto.
Qed.

Lemma cont_first_mod ids first count :
  (0 < length ids)%nat -> cont ids (first mod length ids) count = cont ids first count.
Proof.
  intros Hlen. unfold cont. apply map_ext. intros k. f_equal.
  apply Nat.add_mod_idemp_l. lia.
Qed.

Lemma ring_cleanup_spec r bound :
  wf_ring r ->
  exists r', ring_cleanup r bound = Some r' /\ wf_ring r' /\
             ring_contents r' = dropwhile (fun x => x <? bound) (ring_contents r).
Proof.
  intros [Hc Hf]. unfold ring_cleanup.
  destruct (Nat.eqb_spec (length (r_ids r)) 0) as [E0|E0].
  - exists r. split; auto. split; [split; auto|].
    assert (r_count r = 0%nat) by lia.
    unfold ring_contents. rewrite H. reflexivity.
  - destruct (cleanup_loop_spec (r_ids r) bound ltac:(lia) (r_count r) (r_first r) (r_first r)) as (f' & c' & H1 & H2 & H3).
    { destruct Hf as [Hf|[H0 _]]; [|lia]. symmetry. apply Nat.mod_small. exact Hf. }
    rewrite H1. eexists. split; [reflexivity|]. split.
    + unfold wf_ring. cbn [r_ids r_first r_count]. split; [lia|]. left. apply Nat.mod_upper_bound. lia.
    + rewrite !ring_contents_cont. cbn [r_ids r_first r_count].
      rewrite cont_first_mod by lia. exact H3.
Qed.

(* the scan of memSeries.iterator *)
Fixpoint first_invis (vis : Z -> bool) (l : list Z) (index : nat) : option nat :=
  match l with
  | [] => None
  | x :: l' => if vis x then first_invis vis l' (S index) else Some index
  end.

Lemma scan_spec vis ids :
  (0 < length ids)%nat ->
  forall n first index pos,
    pos = (first mod length ids)%nat ->
    scan vis ids pos n index = Some (first_invis vis (cont ids first n) index).
Proof.
  intros Hlen. induction n as [|n IH]; intros first index pos Hpos.
  - reflexivity.
  - cbn [scan]. rewrite cont_cons. cbn [first_invis].
    assert (Hp : (pos < length ids)%nat) by (subst pos; apply Nat.mod_upper_bound; lia).
    rewrite (nth_error_nth' ids 0 Hp). rewrite <- Hpos.
    destruct (vis (nth pos ids 0)); auto.
    apply IH. subst pos. apply (next_pos_mod (length ids) first Hlen).
Qed.

Lemma first_invis_firstn vis (l : list Z) :
  forall n index, (n <= length l)%nat ->
    first_invis vis (firstn n l) index =
    if Nat.ltb (length (takewhile vis l)) n then Some (index + length (takewhile vis l))%nat else None.
Proof.
  induction l as [|x l IH]; intros n index Hn.
  - simpl in Hn. assert (n = 0%nat) by lia. subst n. reflexivity.
  - destruct n as [|n]; [reflexivity|]. cbn [firstn first_invis takewhile].
    cbn [length] in Hn.
    destruct (vis x).
    + rewrite IH by lia. cbn [length].
      destruct (Nat.ltb_spec (length (takewhile vis l)) n), (Nat.ltb_spec (S (length (takewhile vis l))) (S n)); try lia; auto.
      f_equal. lia.
    + simpl. f_equal. lia.
Qed.

Lemma cont_firstn ids first n count :
  (n <= count)%nat -> firstn n (cont ids first count) = cont ids first n.
Proof.
  intros H. unfold cont. rewrite firstn_map. f_equal.
  replace count with (n + (count - n))%nat by lia. rewrite seq_app, firstn_app, seq_length.
  rewrite Nat.sub_diag. simpl. rewrite app_nil_r. apply firstn_all2. rewrite seq_length. lia.
Qed.

Lemma scan_ring vis r n :
  wf_ring r -> (n <= r_count r)%nat ->
  scan vis (r_ids r) (r_first r) n 0 =
  Some (let q := length (takewhile vis (ring_contents r)) in if Nat.ltb q n then Some q else None).
Proof.
  intros [Hc Hf] Hn. destruct n as [|n'].
  - simpl. destruct (length (takewhile vis (ring_contents r))); reflexivity.
  - assert (Hlen : (0 < length (r_ids r))%nat) by lia.
    rewrite (scan_spec vis (r_ids r) Hlen (S n') (r_first r) 0%nat (r_first r)).
    + f_equal. rewrite <- (cont_firstn _ _ (S n') (r_count r) Hn), <- ring_contents_cont.
      rewrite first_invis_firstn by (rewrite length_contents; exact Hn). reflexivity.
    + symmetry. apply Nat.mod_small. destruct Hf as [Hf|[H0 _]]; lia.
Qed.

Lemma rev_eq_cons {A} (l : list A) c before : rev l = c :: before -> l = rev before ++ [c].
Proof. exact (rev_eq_app l [c] before). Qed.

Lemma rev_eq_nil {A} (l : list A) : rev l = [] -> l = [].
Proof. exact (rev_eq_app l [] []). Qed.

Lemma all_samples_push mm hd cut x r r' :
  all_samples (mkSer mm (push_sample hd cut x) r) = all_samples (mkSer mm hd r') ++ [x].
Proof.
  unfold all_samples, chunks_of, push_sample. cbn [m_mm m_hd].
  destruct (rev hd) as [|c before] eqn:E.
  - apply rev_eq_nil in E. subst hd. rewrite ?concat_app. simpl. rewrite ?app_nil_r. reflexivity.
  - apply rev_eq_cons in E. subst hd.
    destruct cut; rewrite ?concat_app; simpl; rewrite ?app_nil_r, <- ?app_assoc; reflexivity.
Qed.

Lemma ser_mmap_samples s : all_samples (ser_mmap s) = all_samples s /\ m_txs (ser_mmap s) = m_txs s.
Proof.
  unfold ser_mmap, all_samples, chunks_of. destruct (rev (m_hd s)) as [|c before] eqn:E; auto.
  apply rev_eq_cons in E. cbn [m_mm m_hd m_txs]. rewrite E. rewrite <- app_assoc. auto.
Qed.

Definition owners_ok (last : Z) (s : mseries) : Prop :=
  Forall (fun x => 1 <= s_owner x <= last) (all_samples s).

(* P id : "id is visible to every open reader, now and for every reader created later" *)
Definition ser_inv (P : Z -> Prop) (s : mseries) : Prop :=
  wf_ring (m_txs s) /\
  exists pre win, all_samples s = pre ++ win /\ map s_owner win = ring_contents (m_txs s) /\
                  Forall (fun x => P (s_owner x)) pre.

Lemma ser_inv_new P : ser_inv P ser_new.
Proof. split; [apply wf_ring_new|]. exists [], []. repeat split; auto. Qed.

Lemma ser_inv_weaken (P Q : Z -> Prop) s : (forall id, P id -> Q id) -> ser_inv P s -> ser_inv Q s.
Proof.
  intros HPQ (Hwf & pre & win & H1 & H2 & H3). split; auto. exists pre, win. repeat split; auto.
  eapply Forall_impl; [|exact H3]. intros x. apply HPQ.
Qed.

Lemma lastn_app {A} (pre win : list A) : lastn (length win) (pre ++ win) = win.
Proof. unfold lastn. rewrite app_length, Nat.add_sub. apply skipn_length_app. Qed.

Lemma firstn_app_pre {A} (pre win : list A) : firstn (length (pre ++ win) - length win) (pre ++ win) = pre.
Proof. rewrite app_length, Nat.add_sub. apply firstn_length_app. Qed.

(* the same without naming the two parts: the ring covers the newest r_count samples, the owners of
   the older ones satisfy P *)
Lemma ser_inv_aligned P s :
  ser_inv P s ->
  (r_count (m_txs s) <= length (all_samples s))%nat /\
  ring_contents (m_txs s) = map s_owner (lastn (r_count (m_txs s)) (all_samples s)) /\
  Forall (fun x => P (s_owner x)) (firstn (length (all_samples s) - r_count (m_txs s)) (all_samples s)).
Proof.
  intros (_ & pre & win & H1 & H2 & H3).
  assert (Hc : r_count (m_txs s) = length win) by (rewrite <- length_contents, <- H2; apply map_length).
  rewrite Hc, H1, lastn_app, firstn_app_pre, app_length. split; [lia|]. split; [symmetry; exact H2|exact H3].
Qed.

Lemma ser_cleanup_inv P last s b :
  ser_inv P s -> owners_ok last s -> (forall id, 1 <= id < b -> P id) ->
  exists s', ser_cleanup s b = Some s' /\ ser_inv P s' /\ all_samples s' = all_samples s.
Proof.
  intros (Hwf & pre & win & H1 & H2 & H3) Hown Hb. unfold ser_cleanup.
  destruct (ring_cleanup_spec (m_txs s) b Hwf) as (r' & Hr & Hwf' & Hc). rewrite Hr.
  eexists. split; [reflexivity|]. split; [|reflexivity].
  split; [exact Hwf'|]. cbn [m_txs].
  destruct (dropwhile_split s_owner (fun x => x <? b) win) as (w1 & w2 & Hw & Hw2 & Hw1).
  exists (pre ++ w1), w2. unfold all_samples, chunks_of in *. cbn [m_mm m_hd]. repeat split.
  - rewrite H1, Hw, app_assoc. reflexivity.
  - rewrite Hc, <- H2. exact Hw2.
  - apply Forall_app. split; auto.
    unfold owners_ok, all_samples, chunks_of in Hown. rewrite H1, Hw in Hown.
    apply Forall_app in Hown. destruct Hown as [_ Hown]. apply Forall_app in Hown. destruct Hown as [Hown _].
    apply Forall_forall. intros x Hx. apply Hb.
    pose proof (Forall_in Hw1 x Hx) as A. apply Z.ltb_lt in A. pose proof (Forall_in Hown x Hx) as B.
    cbv beta in B. lia.
Qed.

Lemma ser_apply_inv P last s id b t v cut :
  ser_inv P s -> owners_ok last s -> 1 <= id <= last -> (forall i, 1 <= i < b -> P i) ->
  exists s', ser_apply s id b t v cut = Some s' /\ ser_inv P s' /\ owners_ok last s' /\
             (all_samples s' = all_samples s \/ all_samples s' = all_samples s ++ [mkS t v id]).
Proof.
  intros Hinv Hown Hid Hb. unfold ser_apply.
  (* the sample is added (s1) or not, then the ring is trimmed: ser_cleanup of s1 resp. s *)
  assert (K : forall s1, ser_inv P s1 -> owners_ok last s1 ->
            exists s', ser_cleanup s1 b = Some s' /\ ser_inv P s' /\ owners_ok last s' /\
                       all_samples s' = all_samples s1).
  { intros s1 I1 O1. destruct (ser_cleanup_inv P last s1 b I1 O1 Hb) as (s' & Hs' & Hinv' & Hsam).
    exists s'. unfold owners_ok. rewrite Hsam. auto. }
  destruct (match last_t s with None => true | Some lt => t >? lt end).
  - destruct Hinv as (Hwf & pre & win & H1 & H2 & H3).
    destruct (ring_add_spec (m_txs s) id Hwf) as (r1 & Hr1 & Hwf1 & Hc1). rewrite Hr1.
    set (s1 := mkSer (m_mm s) (push_sample (m_hd s) cut (mkS t v id)) r1).
    assert (Hs1 : all_samples s1 = all_samples s ++ [mkS t v id]).
    { unfold s1. rewrite (all_samples_push _ _ _ _ r1 (m_txs s)). destruct s; reflexivity. }
    destruct (K s1) as (s' & Hs' & Hinv' & Hown' & Hsam).
    + split; [exact Hwf1|]. exists pre, (win ++ [mkS t v id]). repeat split; auto.
      * rewrite Hs1, H1, app_assoc. reflexivity.
      * unfold s1. cbn [m_txs]. rewrite Hc1, map_app, H2. reflexivity.
    + unfold owners_ok. rewrite Hs1. apply Forall_app. split; auto.
    + exists s'. split; [exact Hs'|]. split; [exact Hinv'|]. split; [exact Hown'|]. right. rewrite Hsam. exact Hs1.
  - destruct (K s Hinv Hown) as (s' & Hs' & Hinv' & Hown' & Hsam). exists s'. auto.
Qed.

Lemma nth_error_concat_split {A} (cs : list (list A)) ix c :
  nth_error cs ix = Some c ->
  concat cs = concat (firstn ix cs) ++ c ++ concat (skipn (S ix) cs).
Proof.
  revert cs. induction ix as [|ix IH]; intros [|a cs] H; try discriminate H.
  - injection H as ->. reflexivity.
  - cbn [firstn concat skipn]. rewrite <- app_assoc. f_equal. apply IH, H.
Qed.

Lemma chunks_firstn {A} (cs : list (list A)) p :
  concat (map (fun ix => firstn (p - length (concat (firstn ix cs))) (nth ix cs [])) (seq 0 (length cs))) =
  firstn p (concat cs).
Proof.
  induction cs as [|c cs IH] using rev_ind.
  - simpl. rewrite firstn_nil. reflexivity.
  - rewrite app_length. simpl length. rewrite Nat.add_1_r, seq_S, map_app.
    rewrite (concat_app (map _ (seq 0 (length cs)))). cbn [map concat plus]. rewrite app_nil_r.
    rewrite (concat_app cs [c]). cbn [concat]. rewrite app_nil_r. rewrite (firstn_app p (concat cs) c).
    f_equal.
    + rewrite <- IH. f_equal. apply map_ext_in. intros ix Hix. apply in_seq in Hix.
      rewrite firstn_app. replace (ix - length cs)%nat with 0%nat by lia. simpl. rewrite app_nil_r.
      rewrite app_nth1 by lia. reflexivity.
    + rewrite firstn_app, Nat.sub_diag, firstn_all. simpl. rewrite app_nil_r.
      rewrite app_nth2, Nat.sub_diag by lia. reflexivity.
Qed.

Lemma read_chunks_map rd s (g : nat -> list sample) ixs :
  (forall ix, In ix ixs -> read_chunk rd s ix = Some (g ix)) ->
  read_chunks rd s ixs = Some (concat (map g ixs)).
Proof.
  induction ixs as [|ix ixs IH]; intros H; simpl; auto.
  rewrite (H ix (or_introl eq_refl)), IH; auto. intros. apply H. right. assumption.
Qed.

Lemma takewhile_map_len (vis : Z -> bool) (ent : sample -> bool) (win : list sample) :
  (forall x, In x win -> vis (s_owner x) = ent x) ->
  length (takewhile vis (map s_owner win)) = length (takewhile ent win).
Proof.
  induction win as [|x win IH]; intros H; simpl; auto.
  rewrite (H x (or_introl eq_refl)). destruct (ent x); simpl; auto.
  f_equal. apply IH. intros. apply H. right. assumption.
Qed.

(* The heart of C05: for a series whose ring is aligned with its newest samples, and whose
   older samples are all visible to the reader, memSeries.iterator over all chunks yields
   exactly the longest prefix of samples the reader is entitled to. *)
Lemma read_series_spec rd s pre win :
  wf_ring (m_txs s) ->
  all_samples s = pre ++ win ->
  map s_owner win = ring_contents (m_txs s) ->
  Forall (fun x => entitled rd x = true) pre ->
  (forall x, In x win -> visible rd (s_owner x) = entitled rd x) ->
  read_series rd s = Some (takewhile (entitled rd) (all_samples s)).
Proof.
  intros Hwf Hall Hwin Hpre Hvis.
  set (q := length (takewhile (entitled rd) win)).
  set (p := (length pre + q)%nat).
  assert (HT : takewhile (entitled rd) (all_samples s) = firstn p (all_samples s)).
  { rewrite (takewhile_firstn (entitled rd) (all_samples s)). f_equal.
    rewrite Hall, takewhile_app_all by exact Hpre. rewrite app_length. reflexivity. }
  rewrite HT. unfold read_series, all_samples.
  rewrite <- chunks_firstn.
  apply read_chunks_map. intros ix Hix. apply in_seq in Hix.
  unfold read_chunk.
  destruct (nth_error (chunks_of s) ix) as [c|] eqn:Ec.
  2:{ apply nth_error_None in Ec. lia. }
  rewrite (nth_error_nth _ _ [] Ec).
  pose proof (nth_error_concat_split _ _ _ Ec) as Hsplit.
  assert (Hcount : r_count (m_txs s) = length win).
  { rewrite <- length_contents, <- Hwin, map_length. reflexivity. }
  assert (Htot : total_len (chunks_of s) = (length pre + length win)%nat).
  { unfold total_len. fold (all_samples s). rewrite Hall, app_length. reflexivity. }
  assert (Htot2 : total_len (chunks_of s) =
                  (total_len (firstn ix (chunks_of s)) + length c + length (concat (skipn (S ix) (chunks_of s))))%nat).
  { unfold total_len. rewrite (f_equal (@length _) Hsplit), !app_length. lia. }
  set (prev := total_len (firstn ix (chunks_of s))) in *.
  set (after := length (concat (skipn (S ix) (chunks_of s)))) in *.
  fold (total_len (firstn ix (chunks_of s))). fold prev.
  set (n := Z.of_nat (r_count (m_txs s)) - (Z.of_nat (total_len (chunks_of s)) - (Z.of_nat prev + Z.of_nat (length c)))).
  assert (Hn : n = Z.of_nat prev + Z.of_nat (length c) - Z.of_nat (length pre)) by (unfold n; lia).
  assert (Hnle : (Z.to_nat n <= r_count (m_txs s))%nat) by lia.
  rewrite (scan_ring (visible rd) (m_txs s) (Z.to_nat n) Hwf Hnle).
  cbv zeta.
  assert (Hq : length (takewhile (visible rd) (ring_contents (m_txs s))) = q).
  { rewrite <- Hwin. apply takewhile_map_len. exact Hvis. }
  rewrite Hq.
  destruct (Nat.ltb_spec q (Z.to_nat n)) as [Hlt|Hge].
  - f_equal. f_equal. unfold p. lia.
  - f_equal. symmetry. apply firstn_all2. unfold p. lia.
Qed.

Lemma memZ_In x l : memZ x l = true <-> In x l.
Proof. apply (existsb_eqb_In Z.eqb Z.eqb_eq). Qed.

Definition ids (open : list appender) : list Z := map a_id open.

(* appendsOpenList is in issue order *)
Definition older (x y : appender) : Prop := a_id x < a_id y.

Lemma find_app_some a open ap : find_app a open = Some ap -> In ap open /\ a_id ap = a.
Proof.
  unfold find_app. intros H. apply find_some in H. destruct H as [H1 H2]. apply Z.eqb_eq in H2. auto.
Qed.

Lemma in_ids_snoc open x id : In id (ids (open ++ [x])) <-> In id (ids open) \/ id = a_id x.
Proof.
  unfold ids. rewrite map_app, in_app_iff. split.
  - intros [H|[<-|[]]]; auto.
  - intros [H| ->]; [left; exact H|right; left; reflexivity].
Qed.

Lemma in_ids_close a open id :
  In id (ids (filter (fun x => negb (a_id x =? a)) open)) <-> In id (ids open) /\ id <> a.
Proof.
  unfold ids. rewrite !in_map_iff. split.
  - intros (x & <- & Hx). apply filter_In in Hx as [Hx Hn]. apply negb_true_iff, Z.eqb_neq in Hn. eauto.
  - intros [(x & <- & Hx) Hn]. exists x. split; [reflexivity|]. apply filter_In. split; [exact Hx|].
    apply negb_true_iff, Z.eqb_neq, Hn.
Qed.

Lemma first_open_le last open id :
  StronglySorted older open -> In id (ids open) -> first_open last open <= id.
Proof.
  destruct open as [|a open]; simpl; intros Hs Hin; [tauto|].
  apply StronglySorted_inv in Hs as [_ Hf]. destruct Hin as [<-|Hin]; [lia|].
  apply in_map_iff in Hin as (x & <- & Hx). apply Z.lt_le_incl, (Forall_in Hf x Hx).
Qed.

Lemma first_open_le_last last (open : list appender) :
  (forall id, In id (ids open) -> 1 <= id <= last) -> first_open last open <= last.
Proof.
  destruct open as [|a open]; simpl; intros H; [lia|]. specialize (H (a_id a) (or_introl eq_refl)). lia.
Qed.

(* an appender gets the id issued last *)
Lemma first_open_snoc last open b : first_open last (open ++ [mkA last b]) = first_open last open.
Proof. destruct open; reflexivity. Qed.

Lemma first_open_last_mono l l' (open : list appender) : l <= l' -> first_open l open <= first_open l' open.
Proof. destruct open; simpl; lia. Qed.

Lemma first_open_close last open a :
  StronglySorted older open -> (forall id, In id (ids open) -> 1 <= id <= last) ->
  first_open last open <= first_open last (filter (fun x => negb (a_id x =? a)) open).
Proof.
  intros Hs Hr. destruct (filter _ open) as [|x xs] eqn:E; simpl.
  - apply first_open_le_last, Hr.
  - apply first_open_le; [exact Hs|]. eapply proj1, (in_ids_close a). rewrite E. left. reflexivity.
Qed.

Fixpoint lows_desc (l : list reader) : Prop :=
  match l with
  | [] => True
  | rd :: l' => (forall rd', In rd' l' -> rd_low rd' <= rd_low rd) /\ lows_desc l'
  end.

Lemma lows_desc_filter f l : lows_desc l -> lows_desc (filter f l).
Proof.
  induction l as [|rd l IH]; simpl; auto. intros [H1 H2]. destruct (f rd); simpl; auto.
  split; auto. intros rd' Hin. apply filter_In in Hin. apply H1. tauto.
Qed.

(* the oldest reader (last of the list) has the lowest watermark *)
Lemma lows_desc_oldest l rd0 rest :
  lows_desc l -> rev l = rd0 :: rest -> In rd0 l /\ forall rd, In rd l -> rd_low rd0 <= rd_low rd.
Proof.
  intros Hd Hrev. apply rev_eq_cons in Hrev. subst l. split.
  - apply in_or_app. right. left. reflexivity.
  - induction (rev rest) as [|x l IH]; simpl in *.
    + intros rd [<-|[]]. lia.
    + destruct Hd as [H1 H2]. intros rd [<-|Hin].
      * apply H1. apply in_or_app. right. left. reflexivity.
      * apply IH; auto.
Qed.

(* the watermark is the lowest of the open readers' watermarks and the lowest open appendID *)
Lemma low_watermark_le last open readers :
  lows_desc readers -> (forall rd, In rd readers -> rd_low rd <= first_open last open) ->
  low_watermark last open readers <= first_open last open /\
  forall rd, In rd readers -> low_watermark last open readers <= rd_low rd.
Proof.
  intros Hd Hr. unfold low_watermark. destruct (rev readers) as [|rd0 rest] eqn:Er.
  - apply rev_eq_nil in Er. subst readers. split; [apply Z.le_refl|intros rd []].
  - destruct (lows_desc_oldest _ _ _ Hd Er) as [Hin Hmin]. split; [apply Hr, Hin|exact Hmin].
Qed.

Lemma low_watermark_ge last open readers x :
  (forall rd, In rd readers -> x <= rd_low rd) -> x <= first_open last open ->
  x <= low_watermark last open readers.
Proof.
  unfold low_watermark. intros Hr Hf. destruct (rev readers) as [|rd l] eqn:E; [exact Hf|].
  apply Hr, in_rev. rewrite E. left; reflexivity.
Qed.

(* id is visible to every open reader and will be to every reader created from now on *)
Definition stable (st : state) (id : Z) : Prop :=
  In id (st_closed st) /\ forall rd, In rd (st_readers st) -> In id (rd_snap rd).

Definition reader_ok (st : state) (rd : reader) : Prop :=
  incl (rd_snap rd) (st_closed st) /\
  (forall id, 1 <= id -> (visible rd id = true <-> In id (rd_snap rd))) /\
  (forall id, 1 <= id < rd_low rd -> In id (rd_snap rd)) /\
  rd_low rd <= first_open (st_last st) (st_open st).

Record Inv (st : state) : Prop := {
  i_last : 0 <= st_last st;
  i_sorted : StronglySorted older (st_open st);
  i_range : forall id, In id (ids (st_open st)) -> 1 <= id <= st_last st;
  i_part : forall id, 1 <= id <= st_last st -> In id (st_closed st) \/ In id (ids (st_open st));
  i_closed : forall id, In id (st_closed st) -> 1 <= id <= st_last st /\ ~ In id (ids (st_open st));
  i_readers : forall rd, In rd (st_readers st) -> reader_ok st rd;
  i_lows : lows_desc (st_readers st);
  i_bounds : forall a, In a (st_open st) -> forall id, 1 <= id < a_bound a -> stable st id;
  i_series : forall sref, ser_inv (stable st) (st_series st sref) /\ owners_ok (st_last st) (st_series st sref)
}.

Lemma Inv_init : Inv init.
Proof.
  constructor; simpl; try (intros; lia || tauto || contradiction); auto.
  - constructor.
  - intros sref. split; [apply ser_inv_new|constructor].
Qed.

(* an id that is not above the last one issued and below every open one is closed *)
Lemma below_first_open st l id :
  Inv st -> 1 <= id <= st_last st -> id < first_open l (st_open st) -> In id (st_closed st).
Proof.
  intros I Hid Hlt. destruct (i_part st I id Hid) as [Hc|Ho]; [exact Hc|].
  pose proof (first_open_le l (st_open st) id (i_sorted st I) Ho). lia.
Qed.

Lemma owners_ok_mono last last' s : last <= last' -> owners_ok last s -> owners_ok last' s.
Proof. intros H. unfold owners_ok. apply Forall_impl. intros x. lia. Qed.

Lemma ser_inv_mmap P s : ser_inv P s -> ser_inv P (ser_mmap s).
Proof.
  destruct (ser_mmap_samples s) as [H1 H2]. unfold ser_inv. rewrite H1, H2. auto.
Qed.

Lemma upd_same f k s : upd f k s k = s.
Proof. unfold upd. rewrite Z.eqb_refl. reflexivity. Qed.

Lemma upd_other f k s k' : k' <> k -> upd f k s k' = f k'.
Proof. unfold upd. intros H. destruct (Z.eqb_spec k' k); [contradiction|reflexivity]. Qed.

Lemma Inv_upd st sref s' :
  Inv st -> ser_inv (stable st) s' -> owners_ok (st_last st) s' ->
  Inv (mkSt (st_last st) (st_open st) (st_readers st) (upd (st_series st) sref s') (st_closed st)).
Proof.
  intros [] S1 S2. constructor; cbn [st_last st_open st_readers st_series st_closed]; auto.
  intros k. destruct (Z.eq_dec k sref) as [->|Hne]; [rewrite upd_same; split; assumption|].
  rewrite upd_other by exact Hne. apply i_series0.
Qed.

Lemma reader_ok_mono st st' rd :
  reader_ok st rd -> incl (st_closed st) (st_closed st') ->
  first_open (st_last st) (st_open st) <= first_open (st_last st') (st_open st') -> reader_ok st' rd.
Proof.
  intros (R1 & R2 & R3 & R4) Hc Hf. split; [|split; [exact R2|split; [exact R3|lia]]].
  intros x Hx. apply Hc, R1, Hx.
Qed.

Lemma stable_parts st st' :
  (forall id, stable st id -> stable st' id) -> (forall a, In a (st_open st') -> In a (st_open st)) ->
  st_series st' = st_series st -> st_last st' = st_last st -> Inv st ->
  (forall a, In a (st_open st') -> forall id, 1 <= id < a_bound a -> stable st' id) /\
  (forall sref, ser_inv (stable st') (st_series st' sref) /\ owners_ok (st_last st') (st_series st' sref)).
Proof.
  intros Hs Ho Es El I. split.
  - intros a Ha id Hid. apply Hs. exact (i_bounds st I a (Ho a Ha) id Hid).
  - intros sref. rewrite Es, El. destruct (i_series st I sref) as [S1 S2]. split; [|exact S2].
    eapply ser_inv_weaken; [exact Hs|exact S1].
Qed.

(* the invariant is kept, and the lowest open appendID (what a new reader takes as its watermark)
   does not go down *)
Lemma step_inv st e :
  Inv st -> step st e <> RPanic /\
  forall st', step st e = ROk st' ->
    Inv st' /\ first_open (st_last st) (st_open st) <= first_open (st_last st') (st_open st').
Proof.
  intros I. pose proof I as [Hlast Hsorted Hrange Hpart Hclosed Hreaders Hlows Hbounds Hseries].
  destruct e as [|a sref t v cut|a sref|a|key|key|sref]; cbn [step].
  - (* ENewApp *)
    split; [discriminate|]. intros st' E. injection E as <-.
    set (id' := st_last st + 1).
    assert (Hfo : forall b, first_open (st_last st) (st_open st) <= first_open id' (st_open st ++ [mkA id' b])).
    { intros b. rewrite first_open_snoc. apply first_open_last_mono. lia. }
    split; [|apply Hfo].
    constructor; cbn [st_last st_open st_readers st_series st_closed].
    + lia.
    + apply StronglySorted_app. split; [exact Hsorted|]. split; [repeat constructor|].
      intros x y Hx [<-|[]]. specialize (Hrange (a_id x) (in_map a_id _ _ Hx)). unfold older. cbn [a_id]. lia.
    + intros id Hin. apply in_ids_snoc in Hin. destruct Hin as [Hin| ->]; [specialize (Hrange id Hin)|]; cbn [a_id]; lia.
    + intros id Hid. rewrite in_ids_snoc. destruct (Z.eq_dec id id') as [->|Hne]; [auto|].
      destruct (Hpart id ltac:(lia)); auto.
    + intros id Hin. destruct (Hclosed id Hin) as [H1 H2]. split; [lia|].
      rewrite in_ids_snoc. cbn [a_id]. intros [Hin'|E]; [tauto|lia].
    + intros rd Hrd. apply (reader_ok_mono st); [auto|apply incl_refl|apply Hfo].
    + exact Hlows.
    + intros a Hin id Hid. apply in_app_or in Hin. destruct Hin as [Hin|[<-|[]]]; [exact (Hbounds a Hin id Hid)|].
      (* the bound of the new appender is the low watermark: below it everything is closed and
         in the snapshot of every open reader *)
      cbn [a_bound] in Hid.
      destruct (low_watermark_le id' (st_open st ++ [mkA id' 0]) (st_readers st) Hlows) as [L1 L2].
      { intros rd Hrd. destruct (Hreaders rd Hrd) as (_ & _ & _ & R4). specialize (Hfo 0). lia. }
      rewrite first_open_snoc in L1. split.
      * assert (first_open id' (st_open st) <= id').
        { apply first_open_le_last. intros i Hi. specialize (Hrange i Hi). lia. }
        apply (below_first_open st id'); [exact I|lia|lia].
      * intros rd Hrd. destruct (Hreaders rd Hrd) as (_ & _ & R3 & _). apply R3. specialize (L2 rd Hrd). lia.
    + intros sref. destruct (Hseries sref) as [S1 S2]. split; [exact S1|].
      eapply owners_ok_mono; [|exact S2]. lia.
  - (* EApply *)
    destruct (find_app a (st_open st)) as [ap|] eqn:Ef; [|split; [discriminate|discriminate]].
    apply find_app_some in Ef. destruct Ef as [Hin Ha].
    destruct (Hseries sref) as [S1 S2].
    assert (Hida : 1 <= a <= st_last st).
    { apply Hrange. unfold ids. rewrite <- Ha. apply in_map. exact Hin. }
    destruct (ser_apply_inv (stable st) (st_last st) (st_series st sref) a (a_bound ap) t v cut S1 S2 Hida (Hbounds ap Hin))
      as (s' & Hs' & Hinv' & Hown' & _).
    rewrite Hs'. split; [discriminate|]. intros st' E. injection E as <-.
    split; [apply Inv_upd; assumption|apply Z.le_refl].
  - (* ECleanup *)
    destruct (find_app a (st_open st)) as [ap|] eqn:Ef; [|split; [discriminate|discriminate]].
    apply find_app_some in Ef. destruct Ef as [Hin Ha].
    destruct (Hseries sref) as [S1 S2].
    destruct (ser_cleanup_inv (stable st) (st_last st) (st_series st sref) (a_bound ap) S1 S2 (Hbounds ap Hin))
      as (s' & Hs' & Hinv' & Hsam).
    rewrite Hs'. split; [discriminate|]. intros st' E. injection E as <-.
    split; [|apply Z.le_refl]. apply Inv_upd; [exact I|exact Hinv'|]. unfold owners_ok. rewrite Hsam. exact S2.
  - (* EClose *)
    destruct (find_app a (st_open st)) as [ap|] eqn:Ef; [|split; [discriminate|discriminate]].
    apply find_app_some in Ef. destruct Ef as [Hin Ha].
    split; [discriminate|]. intros st' E. injection E as <-.
    set (f := fun x : appender => negb (a_id x =? a)).
    pose proof (first_open_close (st_last st) (st_open st) a Hsorted Hrange) as Hfo. fold f in Hfo.
    split; [|exact Hfo].
    assert (Hain : In a (ids (st_open st))) by (unfold ids; rewrite <- Ha; apply in_map; exact Hin).
    destruct (stable_parts st (mkSt (st_last st) (filter f (st_open st)) (st_readers st) (st_series st) (a :: st_closed st)))
      as [HB HS]; auto.
    { intros id [H1 H2]. split; [right; exact H1|exact H2]. }
    { intros x Hx. apply filter_In in Hx. apply Hx. }
    constructor; cbn [st_last st_open st_readers st_series st_closed]; auto.
    + apply StronglySorted_filter, Hsorted.
    + intros id Hid. apply in_ids_close in Hid. apply Hrange, Hid.
    + intros id Hid. destruct (Z.eq_dec id a) as [->|Hne]; [left; left; reflexivity|].
      destruct (Hpart id Hid) as [Hc|Ho]; [left; right; exact Hc|]. right. apply in_ids_close. auto.
    + unfold f. intros id [<-|Hc]; rewrite in_ids_close.
      * split; [apply Hrange, Hain|]. intros [_ N]. exact (N eq_refl).
      * destruct (Hclosed id Hc) as [H1 H2]. tauto.
    + intros rd Hrd. apply (reader_ok_mono st); [auto|intros x Hx; right; exact Hx|exact Hfo].
  - (* ENewReader *)
    destruct (existsb (fun rd => rd_key rd =? key) (st_readers st)); [split; discriminate|].
    split; [discriminate|]. intros st' E. injection E as <-. split; [|apply Z.le_refl].
    set (rd := mkR key (st_last st) (map a_id (st_open st)) (first_open (st_last st) (st_open st)) (st_closed st)).
    destruct (stable_parts st (mkSt (st_last st) (st_open st) (rd :: st_readers st) (st_series st) (st_closed st)))
      as [HB HS]; auto.
    { intros id [H1 H2]. split; [exact H1|]. intros r [<-|Hr]; [exact H1|apply H2; exact Hr]. }
    constructor; cbn [st_last st_open st_readers st_series st_closed]; auto.
    + intros r [<-|Hr]; [|apply (reader_ok_mono st); [auto|apply incl_refl|apply Z.le_refl]].
      (* the new reader sees exactly the closed appendIDs: those not above the last one and not open *)
      split; [apply incl_refl|]. split; [|split; [|apply Z.le_refl]]; cbn [rd rd_snap rd_low]; intros id Hid.
      * unfold visible. cbn [rd rd_max rd_inc].
        rewrite andb_true_iff, Z.leb_le, negb_true_iff, <- not_true_iff_false, memZ_In. split.
        -- intros [H1 H2]. destruct (Hpart id ltac:(lia)); [assumption|contradiction].
        -- intros Hc. destruct (Hclosed id Hc). split; [lia|assumption].
      * pose proof (first_open_le_last (st_last st) (st_open st) Hrange).
        apply (below_first_open st (st_last st)); [exact I|lia|lia].
    + split; auto. intros rd' Hrd'. destruct (Hreaders rd' Hrd') as (_ & _ & _ & R4). exact R4.
  - (* ECloseReader *)
    destruct (existsb (fun rd => rd_key rd =? key) (st_readers st)); [|split; discriminate].
    split; [discriminate|]. intros st' E. injection E as <-. split; [|apply Z.le_refl].
    set (f := fun rd : reader => negb (rd_key rd =? key)).
    destruct (stable_parts st (mkSt (st_last st) (st_open st) (filter f (st_readers st)) (st_series st) (st_closed st)))
      as [HB HS]; auto.
    { intros id [H1 H2]. split; [exact H1|]. intros r Hr. apply filter_In in Hr. apply H2. tauto. }
    constructor; cbn [st_last st_open st_readers st_series st_closed]; auto.
    + intros r Hr. apply filter_In in Hr. apply (reader_ok_mono st); [apply Hreaders, Hr|apply incl_refl|apply Z.le_refl].
    + apply lows_desc_filter. exact Hlows.
  - (* EMmap *)
    split; [discriminate|]. intros st' E. injection E as <-. destruct (Hseries sref) as [S1 S2].
    split; [|apply Z.le_refl]. apply Inv_upd; [exact I|apply ser_inv_mmap, S1|].
    unfold owners_ok. rewrite (proj1 (ser_mmap_samples _)). exact S2.
Qed.

Lemma run_inv tr : forall st, Inv st -> run st tr <> RPanic /\ forall st', run st tr = ROk st' -> Inv st'.
Proof.
  induction tr as [|e tr IH]; intros st I; cbn [run].
  - split; [discriminate|]. intros st' E. injection E as <-. exact I.
  - destruct (step_inv st e I) as [Hnp Hok].
    destruct (step st e) as [st1| |] eqn:Es; [|split; discriminate|contradiction].
    apply IH, (Hok st1 eq_refl).
Qed.

Lemma reachable_inv tr st : run init tr = ROk st -> Inv st.
Proof. intros H. exact (proj2 (run_inv tr init Inv_init) st H). Qed.

Lemma run_app tr1 : forall st tr2 st1, run st tr1 = ROk st1 -> run st (tr1 ++ tr2) = run st1 tr2.
Proof.
  induction tr1 as [|e tr1 IH]; intros st tr2 st1 H; cbn [run app] in *.
  - injection H as <-. reflexivity.
  - destruct (step st e) as [sm| |]; try discriminate. apply IH. exact H.
Qed.

(* where the ghosts come from: a reader is added by ENewReader only, with the closed set as its
   snapshot; an appendID is added to the closed set by its EClose only *)
Lemma step_ghosts st e st' :
  step st e = ROk st' ->
  (forall rd, In rd (st_readers st') ->
     In rd (st_readers st) \/
     (e = ENewReader (rd_key rd) /\ rd_snap rd = st_closed st /\ rd_low rd = first_open (st_last st) (st_open st))) /\
  (forall a, In a (st_closed st') -> In a (st_closed st) \/ e = EClose a).
Proof.
  destruct e as [|a' sref t v cut|a' sref|a'|key|key|sref]; cbn [step]; intros E.
  - injection E as <-. auto.
  - destruct (find_app a' (st_open st)); [|discriminate]. destruct (ser_apply _ _ _ _ _ _); [|discriminate].
    injection E as <-. auto.
  - destruct (find_app a' (st_open st)); [|discriminate]. destruct (ser_cleanup _ _); [|discriminate].
    injection E as <-. auto.
  - destruct (find_app a' (st_open st)); [|discriminate]. injection E as <-. split; [auto|].
    intros b [<-|Hin]; auto.
  - destruct (existsb _ _); [discriminate|]. injection E as <-. split; [|auto].
    intros rd [<-|Hin]; auto.
  - destruct (existsb _ _); [|discriminate]. injection E as <-. split; [|auto].
    intros rd Hin. apply filter_In in Hin. tauto.
  - injection E as <-. auto.
Qed.

(* an open reader was created by an ENewReader step of the trace, and its ghost snapshot is
   the set of appendIDs closed at that moment *)
Lemma reader_provenance tr : forall st0 st rd,
  run st0 tr = ROk st -> In rd (st_readers st) ->
  In rd (st_readers st0) \/
  exists tr1 st1 tr2, tr = tr1 ++ ENewReader (rd_key rd) :: tr2 /\ run st0 tr1 = ROk st1 /\
                      rd_snap rd = st_closed st1.
Proof.
  induction tr as [|e tr IH]; intros st0 st rd H Hin; cbn [run] in H.
  - injection H as <-. auto.
  - destruct (step st0 e) as [sm| |] eqn:Es; try discriminate.
    destruct (IH sm st rd H Hin) as [Hm|(tr1 & st1 & tr2 & -> & Hr & Hs)].
    + destruct (proj1 (step_ghosts _ _ _ Es) rd Hm) as [H0|(-> & Hsn & _)]; auto.
      right. exists [], st0, tr. auto.
    + right. exists (e :: tr1), st1, tr2. repeat split; auto. cbn [run]. rewrite Es. exact Hr.
Qed.

(* an appendID is in the ghost closed set only if its closeAppend step is in the trace *)
Lemma closed_provenance tr : forall st0 st a,
  run st0 tr = ROk st -> In a (st_closed st) -> In a (st_closed st0) \/ In (EClose a) tr.
Proof.
  induction tr as [|e tr IH]; intros st0 st a H Hin; cbn [run] in H.
  - injection H as <-. auto.
  - destruct (step st0 e) as [sm| |] eqn:Es; try discriminate.
    destruct (IH sm st a H Hin) as [Hm|Hm].
    + destruct (proj2 (step_ghosts _ _ _ Es) a Hm) as [H0| ->]; auto. right. left. reflexivity.
    + right. right. exact Hm.
Qed.

Lemma entitled_In rd x : entitled rd x = true <-> In (s_owner x) (rd_snap rd).
Proof. unfold entitled. apply memZ_In. Qed.

(* what a reader returns for a series is exactly the longest prefix of the series' samples
   whose appenders were closed when the reader was created *)
Lemma read_prefix tr st rd sref :
  run init tr = ROk st -> In rd (st_readers st) ->
  read_series rd (st_series st sref) = Some (takewhile (entitled rd) (all_samples (st_series st sref))).
Proof.
  intros Hrun Hrd. pose proof (reachable_inv tr st Hrun) as I.
  destruct (i_series st I sref) as [(Hwf & pre & win & H1 & H2 & H3) Hown].
  destruct (i_readers st I rd Hrd) as (R1 & R2 & R3 & R4).
  apply (read_series_spec rd _ pre win Hwf H1 H2).
  - eapply Forall_impl; [|exact H3]. intros x [_ Hx]. apply entitled_In. apply Hx. exact Hrd.
  - intros x Hx.
    assert (Ho : 1 <= s_owner x).
    { unfold owners_ok in Hown. rewrite H1 in Hown. rewrite Forall_forall in Hown.
      specialize (Hown x (in_or_app _ _ _ (or_intror Hx))). lia. }
    specialize (R2 (s_owner x) Ho). pose proof (entitled_In rd x) as He.
    destruct (visible rd (s_owner x)), (entitled rd x); auto.
    + symmetry. apply He. apply R2. reflexivity.
    + apply R2. apply He. reflexivity.
Qed.

Lemma ring_alignment tr st sref :
  run init tr = ROk st ->
  let s := st_series st sref in
  wf_ring (m_txs s) /\ (r_count (m_txs s) <= length (all_samples s))%nat /\
  ring_contents (m_txs s) = map s_owner (lastn (r_count (m_txs s)) (all_samples s)).
Proof.
  intros Hrun s. destruct (i_series st (reachable_inv tr st Hrun) sref) as [S _].
  split; [apply S|]. destruct (ser_inv_aligned _ _ S) as (A & B & _). auto.
Qed.

Lemma watermark_sound tr st sref x :
  run init tr = ROk st ->
  let s := st_series st sref in
  In x (firstn (length (all_samples s) - r_count (m_txs s)) (all_samples s)) ->
  In (s_owner x) (st_closed st) /\ forall rd, In rd (st_readers st) -> entitled rd x = true.
Proof.
  intros Hrun s Hin. destruct (i_series st (reachable_inv tr st Hrun) sref) as [S _].
  destruct (ser_inv_aligned _ _ S) as (_ & _ & C). destruct (Forall_in C x Hin) as [Hcl Hrd].
  split; [exact Hcl|]. intros rd Hr. apply entitled_In, Hrd, Hr.
Qed.

(* no dirty read, stated on the trace: the reader was created by an ENewReader step; every
   sample it returns, at any later moment, was written by an appender whose closeAppend step
   precedes that ENewReader step *)
Lemma no_dirty_read tr st rd :
  run init tr = ROk st -> In rd (st_readers st) ->
  exists tr1 st1 tr2,
    tr = tr1 ++ ENewReader (rd_key rd) :: tr2 /\ run init tr1 = ROk st1 /\
    forall sref, exists l, read_series rd (st_series st sref) = Some l /\
      forall x, In x l -> In (s_owner x) (st_closed st1) /\ In (EClose (s_owner x)) tr1.
Proof.
  intros Hrun Hrd.
  destruct (reader_provenance tr init st rd Hrun Hrd) as [[]|(tr1 & st1 & tr2 & Htr & Hr1 & Hsnap)].
  exists tr1, st1, tr2. repeat split; auto. intros sref.
  eexists. split; [apply (read_prefix tr st rd sref Hrun Hrd)|].
  intros x Hx. pose proof (takewhile_Forall (entitled rd) (all_samples (st_series st sref))) as Hf.
  rewrite Forall_forall in Hf. specialize (Hf x Hx). apply entitled_In in Hf. rewrite Hsnap in Hf.
  split; auto. destruct (closed_provenance tr1 init st1 (s_owner x) Hr1 Hf) as [[]|H]. exact H.
Qed.

Lemma complete_partial tr st rd sref l1 x l2 :
  run init tr = ROk st -> In rd (st_readers st) ->
  all_samples (st_series st sref) = l1 ++ x :: l2 ->
  In (s_owner x) (rd_snap rd) -> Forall (fun y => In (s_owner y) (rd_snap rd)) l1 ->
  exists l, read_series rd (st_series st sref) = Some l /\ In x l.
Proof.
  intros Hrun Hrd Hall Hx Hl1. eexists. split; [apply (read_prefix tr st rd sref Hrun Hrd)|].
  rewrite Hall. rewrite takewhile_app_all.
  - apply in_or_app. right. cbn [takewhile]. apply entitled_In in Hx. rewrite Hx. left. reflexivity.
  - eapply Forall_impl; [|exact Hl1]. intros y Hy. apply entitled_In. exact Hy.
Qed.

(* all-or-nothing for a transaction a none of whose samples sits behind a sample the reader
   is not entitled to: closed before the reader -> every sample on every series is returned;
   not closed before the reader -> none is (this half needs no side condition) *)
Lemma whole_txn_partial tr st rd a :
  run init tr = ROk st -> In rd (st_readers st) ->
  (forall sref l1 x l2, all_samples (st_series st sref) = l1 ++ x :: l2 -> s_owner x = a ->
                        Forall (fun y => In (s_owner y) (rd_snap rd)) l1) ->
  (In a (rd_snap rd) ->
   forall sref x, In x (all_samples (st_series st sref)) -> s_owner x = a ->
                  exists l, read_series rd (st_series st sref) = Some l /\ In x l) /\
  (~ In a (rd_snap rd) ->
   forall sref l, read_series rd (st_series st sref) = Some l -> forall x, In x l -> s_owner x <> a).
Proof.
  intros Hrun Hrd Hside. split.
  - intros Ha sref x Hx Hox. destruct (in_split x _ Hx) as (l1 & l2 & Hall).
    apply (complete_partial tr st rd sref l1 x l2 Hrun Hrd Hall).
    + rewrite Hox. exact Ha.
    + exact (Hside sref l1 x l2 Hall Hox).
  - intros Hna sref l Hl x Hx Hox. rewrite (read_prefix tr st rd sref Hrun Hrd) in Hl. injection Hl as <-.
    pose proof (takewhile_Forall (entitled rd) (all_samples (st_series st sref))) as Hf.
    rewrite Forall_forall in Hf. specialize (Hf x Hx). apply entitled_In in Hf. rewrite Hox in Hf. contradiction.
Qed.

Lemma no_panic tr : run init tr <> RPanic.
Proof. exact (proj1 (run_inv tr init Inv_init)). Qed.

(* the finding: A (appendID 1) is open and has applied a sample to series 1; B (appendID 2)
   applies to series 1 and series 3 and closes; a reader created afterwards gets B's sample on
   series 3 and nothing on series 1 *)
Definition tr_finding : list ev :=
  [ENewApp; ENewApp; EApply 1 1 10 1000 false; EApply 2 1 20 2000 false; EApply 2 3 20 2001 false;
   EClose 2; ENewReader 0].

Lemma complete_refuted :
  exists tr st rd x1 x3,
    run init tr = ROk st /\ In rd (st_readers st) /\
    In (s_owner x1) (rd_snap rd) /\ s_owner x3 = s_owner x1 /\
    In x1 (all_samples (st_series st 1)) /\ In x3 (all_samples (st_series st 3)) /\
    read_series rd (st_series st 1) = Some [] /\
    read_series rd (st_series st 3) = Some [x3].
Proof.
  exists tr_finding. eexists. eexists. exists (mkS 20 2000 2), (mkS 20 2001 2).
  split; [vm_compute; reflexivity|]. split; [left; reflexivity|]. vm_compute. repeat split; auto.
Qed.

Definition lw (st : state) : Z := low_watermark (st_last st) (st_open st) (st_readers st).

Lemma step_lw_mono st e st' : Inv st -> step st e = ROk st' -> lw st <= lw st'.
Proof.
  intros I E.
  destruct (low_watermark_le (st_last st) (st_open st) (st_readers st) (i_lows st I)) as [Hf Hr].
  { intros rd Hrd. apply (i_readers st I rd Hrd). }
  apply low_watermark_ge.
  - intros rd Hrd. destruct (proj1 (step_ghosts _ _ _ E) rd Hrd) as [H|(_ & _ & ->)]; [apply Hr, H|exact Hf].
  - pose proof (proj2 (proj2 (step_inv st e I) st' E)). unfold lw. lia.
Qed.

Lemma run_lw_mono tr : forall st st', Inv st -> run st tr = ROk st' -> lw st <= lw st'.
Proof.
  induction tr as [|e tr IH]; intros st st' I H; cbn [run] in H.
  - injection H as <-. apply Z.le_refl.
  - destruct (step st e) as [sm| |] eqn:Es; try discriminate.
    pose proof (step_lw_mono st e sm I Es).
    specialize (IH sm st' (proj1 (proj2 (step_inv st e I) sm Es)) H). lia.
Qed.

(* isolation.lowWatermark() is non-decreasing along every valid trace *)
Lemma watermark_monotone tr1 tr2 st1 st2 :
  run init tr1 = ROk st1 -> run st1 tr2 = ROk st2 -> lw st1 <= lw st2.
Proof. intros H1. apply run_lw_mono, (reachable_inv tr1 st1 H1). Qed.
