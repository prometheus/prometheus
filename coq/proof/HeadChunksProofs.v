(* proof/HeadChunksProofs.v — lemmas and proofs about model/HeadChunks.v (property C25): the
   record layout and what IterateAllChunks / Chunk(ref) make of it, ref allocation, and the
   invariant of the write queue ([Core]: the predicted position is the writer's; every acknowledged
   chunk is in chunkRefMap, in chunkBuffer, or in its file) kept by every atomic step. *)
From Coq Require Import List NArith ZArith Bool Lia Arith.
From Verif Require Import lib.Int64 lib.Bytes lib.Varint lib.SortedList model.HeadChunks.
Import ListNotations.
Open Scope N_scope.

Lemma skipn_app_exact {A} (a b : list A) k : k = length a -> skipn k (a ++ b) = b.
Proof. intros ->. apply skipn_length_app. Qed.

Lemma skipn_add {A} a b (l : list A) : skipn (a + b) l = skipn b (skipn a l).
Proof. revert l. induction a; intros [|x l]; simpl; auto. now destruct b. Qed.

Lemma be_take8 x t : u64_ok x -> be_take 8 0 (put_be64 x ++ t) = Some (x, t).
Proof. intros H. unfold put_be64. rewrite be_take_enc, N.mod_small by exact H. reflexivity. Qed.

Lemma put_be32_length x : length (put_be32 x) = 4%nat.
Proof. apply be_enc_length. Qed.

Lemma uv_len_le : forall f x k, x < 128 ^ N.of_nat k -> (1 <= k)%nat ->
  (1 <= length (uv_enc_fuel (S f) x) <= k)%nat.
Proof.
  induction f as [|f IH]; intros x k Hx Hk.
  - cbn. destruct (x <? 128); cbn; lia.
  - rewrite uv_enc_fuel_S. destruct (x <? 128) eqn:E; [cbn; lia|].
    apply N.ltb_ge in E. cbn [length].
    destruct k as [|k]; [lia|]. destruct k as [|k].
    + cbn in Hx. lia.
    + assert (Hd : x / 128 < 128 ^ N.of_nat (S k)).
      { apply N.div_lt_upper_bound; [discriminate|].
        rewrite (Nnat.Nat2N.inj_succ (S k)), N.pow_succ_r' in Hx. exact Hx. }
      specialize (IH (x / 128) (S k) Hd ltac:(lia)). lia.
Qed.

Lemma put_uvarint_len x : x < 34359738368 -> (1 <= length (put_uvarint x) <= 5)%nat.
Proof. intros H. unfold put_uvarint. apply uv_len_le; [exact H | lia]. Qed.

(* the length field: a uvarint of at most 5 bytes, read from a window of 5 *)
Lemma get_uvarint_5 dl X : dl < 34359738368 ->
  get_uvarint (firstn 5 (put_uvarint dl ++ X)) = Some (dl, firstn (5 - length (put_uvarint dl)) X).
Proof.
  intros H. pose proof (put_uvarint_len dl H). rewrite firstn_app, firstn_all2 by lia.
  apply get_put_uvarint. unfold u64_ok, two64N. lia.
Qed.

Lemma to_u64_zero z : int64 z -> to_u64 z = 0 -> z = 0%Z.
Proof.
  intros Hz H. rewrite <- (wrap64_id z Hz), <- to_i64_to_u64, H. reflexivity.
Qed.

(* the encoding byte: bit 7 is the out-of-order flag, the rest the encoding *)
Definition enc_bits_okb (e : N) : bool :=
  (N.land (N.lor e 128) 127 =? e) && negb (N.land (N.lor e 128) 128 =? 0) &&
  (N.land e 127 =? e) && (N.land e 128 =? 0).

Lemma enc_bits_all : forallb enc_bits_okb (map N.of_nat (seq 0 128)) = true.
Proof. vm_compute. reflexivity. Qed.

Section Fmt.
Variable crc32 : list N -> N.
Notation encode_rec := (encode_rec crc32).
Notation parse_one := (parse_one crc32).

Definition rec_ns (r : rec) : N := match be_take 2 0 (r_data r) with Some (x, _) => x | None => 0 end.
Definition rec_info (r : rec) : cinfo :=
  mkCI (r_series r) (r_mint r) (r_maxt r) (rec_ns r) (r_enc r) (r_ooo r).

(* what the writer is given in practice: a series ref, int64 times, an encoding below the
   out-of-order bit, at least 4 and fewer than 2^35 bytes of data, and not the all-zero triple
   that marks the end of a file's data *)
Definition wf_rec (r : rec) : Prop :=
  u64_ok (r_series r) /\ int64 (r_mint r) /\ int64 (r_maxt r) /\ r_enc r < 128 /\
  (4 <= length (r_data r))%nat /\ nlen (r_data r) < 34359738368 /\
  ~ (r_series r = 0 /\ r_mint r = 0%Z /\ r_maxt r = 0%Z).

Definition rec_len (r : rec) : nat := (25 + length (put_uvarint (nlen (r_data r))) + length (r_data r) + 4)%nat.

Lemma enc_byte_bits r : r_enc r < 128 ->
  N.land (enc_byte r) 127 = r_enc r /\ negb (N.land (enc_byte r) 128 =? 0) = r_ooo r.
Proof.
  intros H. pose proof enc_bits_all as B. rewrite forallb_forall in B. specialize (B (r_enc r)).
  unfold enc_bits_okb in B. rewrite !andb_true_iff, !N.eqb_eq, negb_true_iff in B.
  destruct B as [[[B1 B2] B3] B4]; [rewrite <- (Nnat.N2Nat.id (r_enc r)); apply in_map, in_seq; lia|].
  unfold enc_byte. destruct (r_ooo r); [now rewrite B1, B2|now rewrite B3, B4].
Qed.

(* a record is its 24 bytes of series ref and times, the encoding byte and the length field (the
   header), then the data, then the checksum of all of that *)
Definition meta24 (r : rec) : list N :=
  put_be64 (r_series r) ++ put_be64 (to_u64 (r_mint r)) ++ put_be64 (to_u64 (r_maxt r)).
Definition hdr_bytes (r : rec) : list N := meta24 r ++ enc_byte r :: put_uvarint (nlen (r_data r)).

Lemma meta24_length r : length (meta24 r) = 24%nat.
Proof. unfold meta24. now rewrite !app_length, !put_be64_length. Qed.

Lemma hdr_len r : length (hdr_bytes r) = (25 + length (put_uvarint (nlen (r_data r))))%nat.
Proof. unfold hdr_bytes. rewrite app_length, meta24_length. reflexivity. Qed.

Lemma encode_body_split r : encode_body r = hdr_bytes r ++ r_data r.
Proof. unfold encode_body, hdr_bytes, meta24. cbn [app]. now rewrite <- !app_assoc. Qed.

Lemma encode_rec_split r : encode_rec r = hdr_bytes r ++ r_data r ++ put_be32 (crc32 (encode_body r)).
Proof. unfold HeadChunks.encode_rec. cbv zeta. now rewrite encode_body_split, <- app_assoc. Qed.

Lemma encode_body_length r : length (encode_body r) = (length (hdr_bytes r) + length (r_data r))%nat.
Proof. now rewrite encode_body_split, app_length. Qed.

Lemma encode_rec_length r : length (encode_rec r) = rec_len r.
Proof. rewrite encode_rec_split, !app_length, hdr_len, put_be32_length. unfold rec_len. lia. Qed.

Lemma rec_size_len r : rec_size r = N.of_nat (rec_len r).
Proof. unfold rec_size, rec_len, nlen. lia. Qed.

Lemma nlen_data r : N.to_nat (nlen (r_data r)) = length (r_data r).
Proof. apply Nnat.Nat2N.id. Qed.

(* IterateAllChunks on a record's header followed by any bytes Y that begin like its data: the
   verdict depends on the length of Y and, when Y is long enough, on the checksum *)
Lemma parse_one_hdr r Y : wf_rec r -> (34 <= length (hdr_bytes r ++ Y))%nat -> firstn 2 Y = firstn 2 (r_data r) ->
  parse_one (hdr_bytes r ++ Y) =
    if (length Y <? length (r_data r) + 4)%nat then PCorrupt 2 else
    if negb (bytes_eqb (firstn 4 (skipn (length (r_data r)) Y))
                       (put_be32 (crc32 (firstn (length (encode_body r)) (hdr_bytes r ++ Y)))))
    then PCorrupt 3
    else PChunk (rec_info r) (rec_len r) (skipn (length (r_data r) + 4) Y).
Proof.
  intros (Hs & Hm1 & Hm2 & He & H4 & Hdl & Hnz) Hlen H2.
  pose proof (put_uvarint_len _ Hdl) as HU. set (U := put_uvarint (nlen (r_data r))) in *.
  unfold HeadChunks.parse_one, meta_size. rewrite (proj2 (Nat.ltb_ge _ _) Hlen), encode_body_length, hdr_len. fold U.
  unfold hdr_bytes, meta24. rewrite <- !app_assoc, !be_take8 by (assumption || apply to_u64_ok).
  replace ((r_series r =? 0) && (to_u64 (r_mint r) =? 0) && (to_u64 (r_maxt r) =? 0)) with false.
  2: { symmetry. apply not_true_iff_false. rewrite !andb_true_iff, !N.eqb_eq. intros [[A B] C].
       apply Hnz. auto using to_u64_zero. }
  cbn [app]. fold U. unfold U at 1 2. rewrite get_uvarint_5 by exact Hdl. fold U.
  replace (length (firstn 5 (U ++ Y)) - length (firstn (5 - length U) Y))%nat with (length U)
    by (rewrite !firstn_length, app_length; lia).
  rewrite skipn_app_exact, nlen_data by reflexivity.
  (* the sample count: the first two bytes of Y are those of the data *)
  unfold rec_info, rec_ns.
  destruct (r_data r) as [|y0 [|y1 D]] eqn:Ed; [simpl in H4; lia..|].
  destruct Y as [|z0 [|z1 Y']]; try discriminate. injection H2 as -> ->. cbn [be_take].
  destruct (enc_byte_bits r He) as [-> ->]. rewrite !to_i64_to_u64, !wrap64_id by assumption.
  replace (25 + length U + length (y0 :: y1 :: D) + 4)%nat with (rec_len r) by (unfold rec_len; now rewrite Ed).
  reflexivity.
Qed.

Lemma firstn2_data r X : wf_rec r -> firstn 2 (r_data r ++ X) = firstn 2 (r_data r).
Proof.
  intros (_ & _ & _ & _ & H4 & _). rewrite firstn_app.
  replace (2 - length (r_data r))%nat with 0%nat by lia. apply app_nil_r.
Qed.

(* a complete record followed by anything *)
Lemma parse_one_rec r tail : wf_rec r ->
  parse_one (encode_rec r ++ tail) = PChunk (rec_info r) (rec_len r) tail.
Proof.
  intros Hwf. set (C := put_be32 (crc32 (encode_body r))).
  assert (HC : length C = 4%nat) by apply put_be32_length.
  rewrite encode_rec_split, <- !app_assoc. fold C.
  rewrite parse_one_hdr; [|exact Hwf| |now apply firstn2_data].
  - rewrite (proj2 (Nat.ltb_ge _ _)) by (rewrite !app_length; lia).
    rewrite skipn_app_exact, firstn_app_exact by auto.
    rewrite app_assoc, <- encode_body_split, firstn_app_exact by reflexivity.
    rewrite (proj2 (bytes_eqb_eq _ _) eq_refl). cbn [negb].
    now rewrite (app_assoc _ C), skipn_app_exact by (rewrite app_length; lia).
  - destruct Hwf as (_ & _ & _ & _ & H4 & Hdl & _). pose proof (put_uvarint_len _ Hdl).
    rewrite !app_length, hdr_len. lia.
Qed.

(* a strict prefix of a record: end of data or corruption, never a chunk *)
Lemma parse_one_torn r j : wf_rec r -> (j < rec_len r)%nat ->
  parse_one (firstn j (encode_rec r)) = PStop \/ exists w, parse_one (firstn j (encode_rec r)) = PCorrupt w.
Proof.
  intros Hwf Hj. destruct (Nat.ltb_spec j 34) as [H34|H34].
  - unfold HeadChunks.parse_one. rewrite (proj2 (Nat.ltb_lt _ _)) by (rewrite firstn_length; unfold meta_size; lia).
    destruct (all_zero _); eauto.
  - right. pose proof Hwf as (_ & _ & _ & _ & H4 & Hdl & _). pose proof (put_uvarint_len _ Hdl) as HU.
    pose proof (hdr_len r) as HH. unfold rec_len in Hj.
    rewrite encode_rec_split, firstn_app, (firstn_all2 (hdr_bytes r)) by lia.
    pose proof (put_be32_length (crc32 (encode_body r))) as HC.
    rewrite parse_one_hdr; [|exact Hwf|rewrite app_length, firstn_length, app_length; lia|].
    + rewrite (proj2 (Nat.ltb_lt _ _)) by (rewrite firstn_length; lia). eauto.
    + rewrite firstn_firstn, Nat.min_l by lia. now apply firstn2_data.
Qed.
End Fmt.

Section Iter.
Variable crc32 : list N -> N.
Notation encode_rec := (encode_rec crc32).
Notation parse_one := (parse_one crc32).
Notation iter_file := (iter_file crc32).

Definition recs_bytes (rs : list rec) : list N := concat (map encode_rec rs).

(* what IterateAllChunks reports for records written one after the other from offset off *)
Fixpoint infos (seq off : N) (rs : list rec) : list (ref * cinfo) :=
  match rs with
  | [] => []
  | r :: t => ((seq, off), rec_info r) :: infos seq (off + N.of_nat (rec_len r)) t
  end.

(* number of leading records that lie completely within the first k bytes *)
Fixpoint ncomplete (rs : list rec) (k : nat) : nat :=
  match rs with
  | [] => 0
  | r :: t => if (rec_len r <=? k)%nat then S (ncomplete t (k - rec_len r)) else 0
  end.

Lemma be_take_zeros : forall n l, all_zero l = true -> (n <= length l)%nat ->
  be_take n 0 l = Some (0, skipn n l) /\ all_zero (skipn n l) = true.
Proof.
  unfold all_zero. induction n as [|n IH]; intros l Hz Hn; [cbn; auto|].
  destruct l as [|b t]; [cbn in Hn; lia|].
  cbn [forallb] in Hz. apply andb_true_iff in Hz. destruct Hz as [Hb Ht]. apply N.eqb_eq in Hb. subst b.
  cbn [be_take skipn]. change (0 * 256 + 0) with 0. apply IH; [exact Ht | cbn in Hn; lia].
Qed.

Lemma parse_one_zeros l : all_zero l = true -> parse_one l = PStop.
Proof.
  intros Hz. unfold HeadChunks.parse_one.
  destruct (length l <? meta_size)%nat eqn:E; [rewrite Hz; reflexivity|].
  apply Nat.ltb_ge in E. unfold meta_size in E.
  destruct (be_take_zeros 8 l Hz ltac:(lia)) as [E1 Z1]. rewrite E1.
  assert (L1 : (26 <= length (skipn 8 l))%nat) by (rewrite skipn_length; lia).
  destruct (be_take_zeros 8 _ Z1 ltac:(lia)) as [E2 Z2]. rewrite E2.
  assert (L2 : (18 <= length (skipn 8 (skipn 8 l)))%nat) by (rewrite skipn_length; lia).
  destruct (be_take_zeros 8 _ Z2 ltac:(lia)) as [E3 Z3]. rewrite E3.
  reflexivity.
Qed.

Lemma all_zero_firstn k l : all_zero l = true -> all_zero (firstn k l) = true.
Proof.
  unfold all_zero. revert l. induction k as [|k IH]; intros l H; [reflexivity|].
  destruct l as [|b t]; [reflexivity|]. cbn [forallb firstn] in *. apply andb_true_iff in H. destruct H as [A B].
  rewrite A. cbn [andb]. apply IH. exact B.
Qed.

Lemma all_zero_repeat p : all_zero (repeat 0 p) = true.
Proof. induction p; cbn; auto. Qed.

Lemma recs_bytes_cons r t : recs_bytes (r :: t) = encode_rec r ++ recs_bytes t.
Proof. reflexivity. Qed.

(* iterating over the first k bytes of records ++ zero padding *)
Lemma iter_prefix : forall rs fuel seq idx k p,
  Forall wf_rec rs -> (ncomplete rs k < fuel)%nat ->
  exists e, iter_file fuel seq idx (firstn k (recs_bytes rs ++ repeat 0 p)) =
              (firstn (ncomplete rs k) (infos seq idx rs), e) /\
            (e = EOk \/ exists w, e = ECorrupt w) /\
            ((length (recs_bytes rs) <= k)%nat -> e = EOk).
Proof.
  induction rs as [|r t IH]; intros fuel seq idx k p Hwf Hf.
  - cbn [recs_bytes map concat app ncomplete infos firstn].
    destruct fuel as [|f]; [lia|]. cbn [HeadChunks.iter_file].
    rewrite parse_one_zeros by (apply all_zero_firstn, all_zero_repeat).
    exists EOk. rewrite ?firstn_nil. auto.
  - inversion Hwf as [|? ? Hr Ht]; subst.
    rewrite recs_bytes_cons, <- app_assoc, firstn_app, !app_length, encode_rec_length.
    cbn [ncomplete] in *. destruct fuel as [|f]; [lia|]. cbn [HeadChunks.iter_file].
    destruct (Nat.leb_spec (rec_len r) k) as [E|E].
    + rewrite (firstn_all2 (encode_rec r)), parse_one_rec by (rewrite ?encode_rec_length; assumption).
      destruct (IH f seq (idx + N.of_nat (rec_len r)) (k - rec_len r)%nat p Ht ltac:(lia)) as (e & -> & Hc & Hk).
      exists e. split; [reflexivity|]. split; [exact Hc|]. intros Hlen. apply Hk. lia.
    + replace (k - rec_len r)%nat with 0%nat by lia. rewrite firstn_O, app_nil_r.
      destruct (parse_one_torn crc32 r k Hr E) as [-> | [w ->]]; [exists EOk|exists (ECorrupt w)]; cbn [firstn]; eauto.
      split; [reflexivity|]. split; [eauto|]. lia.
Qed.

Lemma ncomplete_all rs : forall k, (length (recs_bytes rs) <= k)%nat -> ncomplete rs k = length rs.
Proof.
  induction rs as [|r t IH]; intros k H; [reflexivity|].
  rewrite recs_bytes_cons, app_length, encode_rec_length in H.
  cbn [ncomplete length]. rewrite (proj2 (Nat.leb_le _ _)) by lia. f_equal. apply IH. lia.
Qed.

Lemma infos_length seq off rs : length (infos seq off rs) = length rs.
Proof. revert off. induction rs; intros; cbn; auto. Qed.

Lemma ncomplete_le_k rs : forall k, (ncomplete rs k <= k)%nat.
Proof.
  induction rs as [|r t IH]; intros k; cbn [ncomplete]; [lia|].
  destruct (Nat.leb_spec (rec_len r) k); [|lia].
  specialize (IH (k - rec_len r)%nat). unfold rec_len in *. lia.
Qed.

Definition file_bytes (rs : list rec) (p : nat) : list N := hc_header ++ recs_bytes rs ++ repeat 0 p.

(* restart on a file cut at byte k (at or after the header): exactly the records that lie completely
   before k, then a clean end or a corruption error; a clean end when no record is cut *)
Lemma iterate_prefix seq rs p k : Forall wf_rec rs -> (8 <= k <= length (file_bytes rs p))%nat ->
  exists e, iterate_file crc32 seq (firstn k (file_bytes rs p)) =
              (firstn (ncomplete rs (k - 8)) (infos seq 8 rs), e) /\
            (e = EOk \/ exists w, e = ECorrupt w) /\
            ((8 + length (recs_bytes rs) <= k)%nat -> e = EOk).
Proof.
  intros Hwf Hk. unfold iterate_file, file_bytes in *.
  rewrite firstn_app, (firstn_all2 hc_header), skipn_app_exact by (cbn; lia). change (length hc_header) with 8%nat in *.
  destruct (iter_prefix rs (S (length (hc_header ++ firstn (k - 8) (recs_bytes rs ++ repeat 0 p))))
              seq 8 (k - 8)%nat p Hwf) as (e & He & Hc & Hok).
  { pose proof (ncomplete_le_k rs (k - 8)). rewrite app_length in *. rewrite firstn_length. cbn [hc_header length] in *. lia. }
  exists e. split; [exact He|]. split; [exact Hc|]. intros H. apply Hok. lia.
Qed.

(* restart on an intact file: every record, in order, with its ref and meta data *)
Lemma iterate_roundtrip seq rs p : Forall wf_rec rs ->
  iterate_file crc32 seq (file_bytes rs p) = (infos seq 8 rs, EOk).
Proof.
  intros Hwf. assert (L : (8 + length (recs_bytes rs) <= length (file_bytes rs p))%nat).
  { unfold file_bytes. rewrite !app_length. cbn. lia. }
  destruct (iterate_prefix seq rs p (length (file_bytes rs p)) Hwf ltac:(lia)) as (e & He & _ & Hok).
  rewrite firstn_all, ncomplete_all, <- (infos_length seq 8 rs), firstn_all, (Hok L) in He by lia. exact He.
Qed.

Lemma torn_header k bs : (k < 8)%nat -> header_ok (firstn k bs) = false.
Proof.
  intros H. unfold header_ok. now rewrite (proj2 (Nat.leb_gt _ _)) by (rewrite firstn_length; lia).
Qed.
End Iter.

Section ChunkAt.
Variable crc32 : list N -> N.
Notation encode_rec := (encode_rec crc32).

(* the record r occupies the bytes of bs starting at offset off *)
Definition resident (bs : list N) (off : N) (r : rec) : Prop :=
  exists pre post, bs = pre ++ encode_rec r ++ post /\ nlen pre = off.

Lemma chunk_at_resident bs vlen off r :
  wf_rec r -> valid_enc (r_enc r) = true -> resident bs off r -> off + rec_size r <= vlen ->
  chunk_at crc32 bs vlen off = RdOk (r_enc r) (r_data r).
Proof.
  intros Hwf Hve (pre & post & -> & <-) Hv.
  pose proof Hwf as (_ & _ & _ & He & H4 & Hdl & _). pose proof (put_uvarint_len _ Hdl) as HU.
  set (C := put_be32 (crc32 (encode_body r))).
  assert (HC : length C = 4%nat) by apply put_be32_length.
  rewrite rec_size_len in Hv. unfold rec_len in Hv.
  unfold chunk_at. rewrite (proj2 (N.ltb_ge _ _)) by lia.
  replace (N.to_nat (nlen pre + 24)) with (length pre + 24)%nat by (unfold nlen; lia).
  rewrite skipn_add, skipn_app_exact, (encode_rec_split crc32), <- !app_assoc by reflexivity. fold C.
  unfold hdr_bytes at 1. rewrite <- app_assoc, skipn_app_exact by now rewrite meta24_length. cbn [app].
  set (U := put_uvarint (nlen (r_data r))) in *. set (X := r_data r ++ C ++ post).
  assert (HX : (length (r_data r) + 4 <= length X)%nat) by (unfold X; rewrite !app_length; lia).
  rewrite (proj2 (Nat.ltb_ge _ _)) by (rewrite firstn_length, app_length; lia).
  unfold U at 1. rewrite get_uvarint_5 by exact Hdl. fold U.
  replace (5 - length (firstn (5 - length U) X))%nat with (length U) by (rewrite firstn_length; lia).
  rewrite !(proj2 (N.ltb_ge _ _)) by (unfold nlen in *; lia).
  rewrite skipn_app_exact, nlen_data, (proj2 (Nat.ltb_ge _ _)) by (reflexivity || exact HX).
  replace (N.to_nat (nlen pre)) with (length pre) by (unfold nlen; lia). rewrite skipn_app_exact by reflexivity.
  replace (N.to_nat (nlen pre + 24 + 1 + N.of_nat (length U) + nlen (r_data r) - nlen pre)) with (length (encode_body r))
    by (rewrite encode_body_length, hdr_len; fold U; unfold nlen; lia).
  unfold X. rewrite (app_assoc (hdr_bytes r)), <- encode_body_split, firstn_app_exact by reflexivity.
  rewrite skipn_app_exact, (firstn_app_exact C), (firstn_app_exact (r_data r)) by auto.
  rewrite (proj2 (bytes_eqb_eq _ _) eq_refl). cbn [negb].
  destruct (enc_byte_bits r He) as [-> _]. now rewrite Hve.
Qed.
End ChunkAt.

(* the allocated chunks, in order: each starts at or after the end of everything allocated before
   (same file, higher offset, or a later file), after the 8-byte header, and ends at or before
   MaxHeadChunkFileSize; a cut is decided exactly when the ref is the start of the next file *)
Fixpoint chain (q o : N) (l : list (bool * ref * N)) : Prop :=
  match l with
  | [] => True
  | (cut, rf, b) :: t =>
      (if cut then rf = (q + 1, 8) else rf = (q, o)) /\
      8 <= snd rf /\ snd rf + b <= max_file_size /\
      chain (fst rf) (snd rf + b) t
  end.

Lemma alloc_run_chain : forall steps seq off cutf,
  (off = 0 \/ 8 <= off) -> (forall st, In st steps -> 8 + snd st <= max_file_size) ->
  chain seq off (fst (alloc_run seq off cutf steps)).
Proof.
  induction steps as [|[creq btw] t IH]; intros seq off cutf Hoff Hfit; [exact I|].
  pose proof (Hfit (creq, btw) (or_introl eq_refl)) as Hb. cbn [snd] in Hb.
  assert (Ht : forall st, In st t -> 8 + snd st <= max_file_size) by (intros st Hin; apply Hfit; now right).
  cbn [alloc_run]. unfold alloc.
  destruct (cutf || creq || (off =? 0) || (max_file_size <? off + btw)) eqn:Ecut.
  - specialize (IH (seq + 1) (8 + btw) false ltac:(right; lia) Ht).
    destruct (alloc_run (seq + 1) (8 + btw) false t). cbn [fst chain snd]. repeat split; [lia|exact Hb|exact IH].
  - rewrite !orb_false_iff, N.eqb_neq, N.ltb_ge in Ecut. destruct Ecut as [[_ E2] E3].
    specialize (IH seq (off + btw) (cutf || creq) ltac:(right; lia) Ht).
    destruct (alloc_run seq (off + btw) (cutf || creq) t). cbn [fst chain snd]. repeat split; [lia|exact E3|exact IH].
Qed.

(* WriteChunk allocates with exactly this function *)
Lemma do_write_alloc qmax s r : (qmax <=? length (queue s))%nat = false ->
  let '(cut, rf, (q, o, c)) := alloc (ev_seq s) (ev_off s) (ev_cut s) (rec_size r) in
  snd (do_write qmax s r) = ORef rf /\
  ev_seq (fst (do_write qmax s r)) = q /\ ev_off (fst (do_write qmax s r)) = o /\ ev_cut (fst (do_write qmax s r)) = c.
Proof.
  intros Hq. unfold do_write, alloc. rewrite Hq. cbn [fst snd ev_seq ev_off ev_cut]. auto.
Qed.

Lemma ref_eqb_eq a b : ref_eqb a b = true <-> a = b.
Proof.
  unfold ref_eqb. destruct a as [a1 a2], b as [b1 b2]. cbn [fst snd].
  rewrite andb_true_iff, !N.eqb_eq. split; [intros [-> ->]; reflexivity | intros H; inversion H; auto].
Qed.

Lemma ref_eqb_refl a : ref_eqb a a = true.
Proof. now apply ref_eqb_eq. Qed.

Lemma ref_eqb_neq a b : a <> b -> ref_eqb a b = false.
Proof. intros H. destruct (ref_eqb a b) eqn:E; [apply ref_eqb_eq in E; contradiction | reflexivity]. Qed.

Lemma lookup_ref_filter_key {A} (p : ref -> bool) rf (l : list (ref * A)) :
  lookup_ref rf (filter (fun e => p (fst e)) l) = if p rf then lookup_ref rf l else None.
Proof.
  induction l as [|[k v] t IH]; [destruct (p rf); reflexivity|]. cbn [filter fst].
  destruct (p k) eqn:Ek; cbn [lookup_ref]; destruct (ref_eqb rf k) eqn:E; try exact IH;
    apply ref_eqb_eq in E; subst; rewrite Ek in *; [reflexivity|exact IH].
Qed.

Lemma lookup_ref_remove {A} (k rf : ref) (l : list (ref * A)) :
  lookup_ref rf (remove_ref k l) = if ref_eqb k rf then None else lookup_ref rf l.
Proof.
  unfold remove_ref. rewrite (lookup_ref_filter_key (fun k' => negb (ref_eqb k k'))). now destruct (ref_eqb k rf).
Qed.

(* the highest file number, by the list of numbers *)
Lemma dmax_fold {A} (l : list (N * A)) : forall m,
  fold_left (fun m e => N.max m (fst e)) l m = N.max m (dmax l).
Proof. unfold dmax. induction l as [|x t IH]; intros m; cbn; [lia|]. rewrite IH, (IH (N.max 0 _)). lia. Qed.

Lemma dmax_cons {A} (x : N * A) l : dmax (x :: l) = N.max (fst x) (dmax l).
Proof. unfold dmax at 1. cbn. rewrite dmax_fold. lia. Qed.

Lemma dmax_fold_mono {A} (l : list (N * A)) : forall m m', m <= m' ->
  fold_left (fun m e => N.max m (fst e)) l m <= fold_left (fun m e => N.max m (fst e)) l m'.
Proof. intros m m' H. rewrite !dmax_fold. lia. Qed.

Lemma dmax_in {A} (l : list (N * A)) e : In e l -> fst e <= dmax l.
Proof.
  induction l as [|x t IH]; [intros []|]. rewrite dmax_cons. intros [->|H]; [lia|]. specialize (IH H). lia.
Qed.

Lemma dmax_bound {A} (l : list (N * A)) b : (forall e, In e l -> fst e <= b) -> dmax l <= b.
Proof.
  induction l as [|x t IH]; intros H; [cbn; lia|]. rewrite dmax_cons.
  pose proof (H x (or_introl eq_refl)). specialize (IH (fun e He => H e (or_intror He))). lia.
Qed.

Lemma dmax_keys {A B} (l : list (N * A)) (l' : list (N * B)) : map fst l = map fst l' -> dmax l = dmax l'.
Proof.
  revert l'. induction l as [|x t IH]; intros [|y t'] H; try discriminate; [reflexivity|].
  injection H as H1 H2. now rewrite !dmax_cons, H1, (IH _ H2).
Qed.

Lemma dmax_app1 {A} (l : list (N * A)) q v : dmax l < q -> dmax (l ++ [(q, v)]) = q.
Proof. intros H. unfold dmax in *. rewrite fold_left_app. cbn. lia. Qed.

Lemma lookup_in {A} q (l : list (N * A)) v : lookup q l = Some v -> In (q, v) l.
Proof.
  induction l as [|[k x] t IH]; [discriminate|]. cbn. destruct (N.eqb_spec q k) as [->|_].
  - intros [= ->]. now left.
  - intros H. right. apply IH. exact H.
Qed.

Lemma lookup_app {A} q (l l2 : list (N * A)) :
  lookup q (l ++ l2) = match lookup q l with Some v => Some v | None => lookup q l2 end.
Proof. induction l as [|[k x] t IH]; [reflexivity|]. cbn. now destruct (q =? k). Qed.

Lemma lookup_none_dmax {A} q (l : list (N * A)) : dmax l < q -> lookup q l = None.
Proof.
  intros H. destruct (lookup q l) eqn:E; [|reflexivity].
  apply lookup_in, dmax_in in E. cbn in E. lia.
Qed.

Lemma set_file_keys seq f fs : map fst (set_file seq f fs) = map fst fs.
Proof.
  induction fs as [|[q bs] t IH]; [reflexivity|]. cbn. destruct (q =? seq); cbn; [reflexivity|]. f_equal. exact IH.
Qed.

Lemma lookup_set_file_same seq f fs bs : lookup seq fs = Some bs -> lookup seq (set_file seq f fs) = Some (f bs).
Proof.
  induction fs as [|[q b] t IH]; [discriminate|]. cbn. rewrite (N.eqb_sym q). destruct (seq =? q) eqn:E; cbn; rewrite E.
  - now intros [= ->].
  - exact IH.
Qed.

Lemma lookup_set_file_other seq q f fs : q <> seq -> lookup q (set_file seq f fs) = lookup q fs.
Proof.
  intros Hn. induction fs as [|[k b] t IH]; [reflexivity|]. cbn. destruct (N.eqb_spec k seq) as [->|_]; cbn.
  - now rewrite (proj2 (N.eqb_neq _ _) Hn).
  - destruct (q =? k); [reflexivity | exact IH].
Qed.

Lemma lookup_filter_key {A} (p : N -> bool) q (l : list (N * A)) :
  lookup q (filter (fun e => p (fst e)) l) = if p q then lookup q l else None.
Proof.
  induction l as [|[k v] t IH]; [destruct (p q); reflexivity|]. cbn [filter fst].
  destruct (p k) eqn:Ek; cbn [lookup]; destruct (N.eqb_spec q k) as [->|_]; try exact IH;
    rewrite Ek in *; [reflexivity|exact IH].
Qed.

Lemma take_while_all {A} (p : A -> bool) l : (forall x, In x l -> p x = true) <-> take_while p l = l.
Proof.
  induction l as [|a t IH]; [now split|]. cbn. split.
  - intros H. rewrite (H a (or_introl eq_refl)). f_equal. apply IH. auto.
  - destruct (p a) eqn:E; [|discriminate]. intros [= H] x [<-|Hx]; [exact E|]. now apply IH.
Qed.

Lemma take_while_length {A} (p : A -> bool) l : length (take_while p l) = length l -> take_while p l = l.
Proof.
  induction l as [|a t IH]; [reflexivity|]. cbn. destruct (p a); cbn; [|discriminate]. intros [= H]. f_equal. auto.
Qed.

Lemma take_while_In {A} (p : A -> bool) l x : In x (take_while p l) -> p x = true /\ In x l.
Proof.
  induction l as [|a t IH]; simpl; [tauto|].
  destruct (p a) eqn:E; simpl; [|tauto].
  intros [->|H]; [auto|]. destruct (IH H); auto.
Qed.

(* Truncate keeps file q unless q is one of the leading files that are older than n and not the current one *)
Definition trunc_keeps (s : st) (n q : N) : bool :=
  negb (existsb (N.eqb q)
          (take_while (fun q => negb (q =? cur_seq s) && ((q mod 4294967296) <? n)) (map fst (files s)))).

Lemma trunc_files s n : files (do_trunc s n) = filter (fun e => trunc_keeps s n (fst e)) (files s).
Proof. reflexivity. Qed.

Lemma trunc_keeps_false s n q : trunc_keeps s n q = false -> q mod 4294967296 < n /\ q <> cur_seq s.
Proof.
  unfold trunc_keeps. intros H. apply negb_false_iff, (existsb_eqb_In N.eqb N.eqb_eq), take_while_In in H. destruct H as [H _].
  apply andb_true_iff in H. destruct H as [H1 H2]. apply negb_true_iff, N.eqb_neq in H1. now apply N.ltb_lt in H2.
Qed.

(* every file of the new state was there before with the same bytes; a file that disappeared
   has a number below n (as uint32) and is not the file being written *)
Lemma trunc_only_older s n :
  let s' := do_trunc s n in
  (forall e, In e (files s') -> In e (files s)) /\
  (forall q bs, In (q, bs) (files s) -> ~ In (q, bs) (files s') ->
      q mod 4294967296 < n /\ q <> cur_seq s) /\
  cur_seq s' = cur_seq s /\ cur_off s' = cur_off s /\ wbuf s' = wbuf s /\
  pend s' = pend s /\ queue s' = queue s /\ wk s' = wk s /\ cbuf s' = cbuf s.
Proof.
  cbn zeta. rewrite trunc_files. split; [|split; [|now repeat split]].
  - intros e He. apply filter_In in He. tauto.
  - intros q bs Hin Hout. apply trunc_keeps_false. destruct (trunc_keeps s n q) eqn:E; [|reflexivity].
    destruct Hout. apply filter_In. auto.
Qed.

Lemma trunc_lookup s n q :
  lookup q (files (do_trunc s n)) = if trunc_keeps s n q then lookup q (files s) else None.
Proof. rewrite trunc_files. apply lookup_filter_key. Qed.

Lemma trunc_keeps_cur s n : trunc_keeps s n (cur_seq s) = true.
Proof. destruct (trunc_keeps s n (cur_seq s)) eqn:Ek; [reflexivity|]. now destruct (trunc_keeps_false _ _ _ Ek). Qed.

(* the position of the next chunk is reset only when the directory is emptied and nothing is pending *)
Lemma trunc_ev_seq s n :
  ev_seq (do_trunc s n) = match files (do_trunc s n), pend s with [], [] => 0 | _, _ => ev_seq s end.
Proof.
  set (pr := fun q => negb (q =? cur_seq s) && (q mod 4294967296 <? n)). set (idxs := map fst (files s)).
  assert (Hall : (length idxs =? length (take_while pr idxs))%nat = true <-> files (do_trunc s n) = []).
  { rewrite trunc_files, filter_nil_iff, Nat.eqb_eq. split.
    - intros Hl e He. symmetry in Hl. apply take_while_length in Hl. unfold trunc_keeps. fold pr idxs. rewrite Hl.
      now apply negb_false_iff, (existsb_eqb_In N.eqb N.eqb_eq), in_map.
    - intros Hk. f_equal. symmetry. apply take_while_all. intros q Hq. apply in_map_iff in Hq.
      destruct Hq as (e & <- & He). destruct (trunc_keeps_false _ _ _ (Hk e He)) as [H1 H2]. unfold pr.
      now rewrite (proj2 (N.eqb_neq _ _) H2), (proj2 (N.ltb_lt _ _) H1). }
  change (ev_seq (do_trunc s n)) with (if (length idxs =? length (take_while pr idxs))%nat
                                       then (match pend s with [] => 0 | _ => ev_seq s end) else ev_seq s).
  destruct (length idxs =? _)%nat eqn:El; [rewrite (proj1 Hall eq_refl); now destruct (pend s)|].
  destruct (files (do_trunc s n)); [discriminate (proj2 Hall eq_refl)|reflexivity].
Qed.

Section RYW.
Variable crc32 : list N -> N.
Variable bufsize : N.
Variable qmax : nat.
Notation encode_rec := (HeadChunks.encode_rec crc32).
Notation resident := (resident crc32).
Notation append := (HeadChunks.append crc32).

(* a chunk the writer accepts: well formed, an encoding pool.Get knows, and small enough for a file *)
Definition wf_write (r : rec) : Prop :=
  wf_rec r /\ valid_enc (r_enc r) = true /\ 8 + rec_size r <= max_file_size.
Definition rok (rf : ref) (r : rec) : Prop :=
  wf_rec r /\ valid_enc (r_enc r) = true /\ snd rf + rec_size r <= max_file_size.

Lemma rec_size_pos r : 29 <= rec_size r.
Proof. unfold rec_size. lia. Qed.

Lemma encode_rec_nlen r : nlen (encode_rec r) = rec_size r.
Proof. unfold nlen. rewrite encode_rec_length, rec_size_len. reflexivity. Qed.

Lemma resident_app bs off r X : resident bs off r -> resident (bs ++ X) off r.
Proof.
  intros (pre & post & -> & H). exists pre, (post ++ X). split; [|exact H].
  rewrite <- !app_assoc. reflexivity.
Qed.

Lemma resident_end bs off r : resident bs off r -> off + rec_size r <= nlen bs.
Proof. intros (pre & post & -> & <-). unfold nlen. rewrite !app_length, encode_rec_length, rec_size_len. lia. Qed.

(* jobs not yet written, oldest first *)
Definition uncut (j : job) : job := mkJob false (j_ref j) (j_rec j).

Definition pjobs (s : st) : list job :=
  match wk s with
  | WStart j => j :: queue s
  | WRun j p =>
      match p with
      | PClr1 | PNew => j :: queue s                   (* the cut is not finished *)
      | PPre | PClr2 | PApp => uncut j :: queue s      (* the file is there, the chunk not yet appended *)
      | PPost | PClr3 => queue s
      end
  | _ => queue s
  end.

(* where the writer will be after the jobs js, starting at file q, offset o (opn: a file is open);
   None when a job's ref is not the position it will be written at *)
Fixpoint replay (opn : bool) (q o : N) (js : list job) : option (bool * N * N) :=
  match js with
  | [] => Some (opn, q, o)
  | j :: t =>
      if j_cut j then
        (if ref_eqb (j_ref j) (q + 1, 8) then replay true (q + 1) (8 + rec_size (j_rec j)) t else None)
      else
        (if opn && ref_eqb (j_ref j) (q, o) then replay true q (o + rec_size (j_rec j)) t else None)
  end.

Lemma replay_app opn q o js j :
  replay opn q o (js ++ [j]) =
  match replay opn q o js with Some (opn', q', o') => replay opn' q' o' [j] | None => None end.
Proof.
  revert opn q o. induction js as [|a t IH]; intros opn q o; cbn [app replay]; [destruct (j_cut j); reflexivity|].
  destruct (j_cut a).
  - destruct (ref_eqb _ _); [apply IH | reflexivity].
  - destruct (opn && ref_eqb _ _); [apply IH | reflexivity].
Qed.

(* after at least one job a file is open *)
Lemma replay_opn : forall js opn q o opn' q' o', replay opn q o js = Some (opn', q', o') ->
  opn' = true \/ (js = [] /\ opn' = opn).
Proof.
  induction js as [|a t IH]; intros opn q o opn' q' o'; cbn [replay]; [intros [= <- _ _]; auto|].
  destruct (j_cut a); [destruct (ref_eqb _ _)|destruct (opn && ref_eqb _ _)]; try discriminate;
    intros H; left; now destruct (IH _ _ _ _ _ _ H) as [?|[_ ?]].
Qed.

(* every job's record ends at or before the final position and starts at or after the initial one *)
Lemma replay_refs : forall js opn q o opn' q' o', replay opn q o js = Some (opn', q', o') ->
  (q < q' \/ (q = q' /\ o <= o')) /\
  forall j, In j js ->
    (fst (j_ref j) < q' \/ (fst (j_ref j) = q' /\ snd (j_ref j) + rec_size (j_rec j) <= o')) /\
    (q < fst (j_ref j) \/ (fst (j_ref j) = q /\ opn = true /\ o <= snd (j_ref j))).
Proof.
  induction js as [|a t IH]; intros opn q o opn' q' o'; cbn [replay].
  - intros [= _ <- <-]. split; [right; split; [reflexivity | lia]|]. intros j [].
  - pose proof (rec_size_pos (j_rec a)).
    destruct (j_cut a); [|destruct opn; cbn [andb]; [|discriminate]];
      (destruct (ref_eqb (j_ref a) _) eqn:E; [apply ref_eqb_eq in E|discriminate]);
      intros H'; destruct (IH _ _ _ _ _ _ H') as [Hp Hj]; (split; [lia|]);
      intros j [->|Hin]; try (rewrite E; cbn [fst snd]; lia); destruct (Hj j Hin); lia.
Qed.

(* where a chunk that must be readable is found once its job is written: in a file, its bytes either
   on disk (and in chunkBuffer or not) or, for the file being written, still in chunkBuffer and writer *)
Definition Loc (s : st) (rf : ref) (r : rec) : Prop :=
  exists bs, lookup (fst rf) (files s) = Some bs /\
    (lookup_ref rf (pend s) = None \/ lookup_ref rf (pend s) = Some r) /\
    ( (resident bs (snd rf) r /\
         (fst rf = cur_seq s -> lookup_ref rf (cbuf s) = None \/ lookup_ref rf (cbuf s) = Some r))
      \/ (cur_open s = true /\ fst rf = cur_seq s /\ lookup_ref rf (cbuf s) = Some r /\
          resident (bs ++ wbuf s) (snd rf) r) ).

(* J = jobs not yet written *)
Definition E (s : st) (J : list job) (rf : ref) (r : rec) : Prop :=
  rok rf r /\ ((exists j, In j J /\ j_ref j = rf /\ j_rec j = r) \/ Loc s rf r).

Record Core (s : st) (G : list (ref * rec)) (J : list job) : Prop := mkCore {
  c_pos : exists opn', replay (cur_open s) (dmax (files s)) (cur_off s) J = Some (opn', ev_seq s, ev_off s);
  c_closed : cur_open s = false -> cur_off s = 0 /\ cbuf s = [] /\ wbuf s = [];
  c_open : cur_open s = true -> cur_seq s = dmax (files s) /\
             exists bs, lookup (cur_seq s) (files s) = Some bs /\ nlen (bs ++ wbuf s) = cur_off s;
  c_jobs : Forall (fun j => rok (j_ref j) (j_rec j) /\ lookup_ref (j_ref j) (pend s) = Some (j_rec j)) J;
  c_live : forall rf r, lookup_ref rf G = Some r -> E s J rf r }.

Lemma E_mono s s' J rf r : (Loc s rf r -> Loc s' rf r) -> E s J rf r -> E s' J rf r.
Proof. intros HL [Hr [A|L]]; split; auto. Qed.

Lemma E_jobs s J J' rf r :
  (forall j, In j J -> exists j', In j' J' /\ j_ref j' = j_ref j /\ j_rec j' = j_rec j) ->
  E s J rf r -> E s J' rf r.
Proof.
  intros HJ [Hr [(j & Hin & <- & <-)|L]]; (split; [exact Hr|]); [left|now right].
  destruct (HJ j Hin) as (j' & ? & ? & ?). eauto.
Qed.

Lemma in_uncut j J : forall j0, In j0 (j :: J) -> exists j', In j' (uncut j :: J) /\ j_ref j' = j_ref j0 /\ j_rec j' = j_rec j0.
Proof. intros j0 [<-|H]; [exists (uncut j)|exists j0]; cbn; auto. Qed.

(* a located record in the file being written ends at or before the writer's position *)
Lemma Loc_below s rf r bs0 : lookup (cur_seq s) (files s) = Some bs0 -> Loc s rf r -> fst rf = cur_seq s ->
  snd rf + rec_size r <= nlen (bs0 ++ wbuf s).
Proof.
  intros H0 (bs & Hf & _ & Hloc) Eq. rewrite Eq, H0 in Hf. injection Hf as <-. apply resident_end.
  destruct Hloc as [[Hr _]|(_ & _ & _ & Hr)]; [now apply resident_app|exact Hr].
Qed.

Lemma read_live s G J rf r : Core s G J -> lookup_ref rf G = Some r ->
  do_read crc32 s rf = RdOk (r_enc r) (r_data r).
Proof.
  intros C HG. unfold do_read.
  destruct (c_live _ _ _ C rf r HG) as [(Hwf & Hve & Hmax) [(j & Hin & <- & <-) | (bs & Hf & Hp & Hloc)]].
  - pose proof (c_jobs _ _ _ C) as HJ. rewrite Forall_forall in HJ. now destruct (HJ j Hin) as [_ ->].
  - destruct Hp as [-> | ->]; [|reflexivity].
    destruct Hloc as [[Hres Hcb] | (Ho & Hseq & Hcb & Hres)].
    + rewrite Hf, (chunk_at_resident crc32 bs _ (snd rf) r); try assumption.
      * destruct (N.eqb_spec (fst rf) (cur_seq s)) as [Eq|_]; [destruct (Hcb Eq) as [-> | ->]|]; reflexivity.
      * pose proof (resident_end _ _ _ Hres). destruct (existsb _ _); lia.
    + now rewrite Hseq, N.eqb_refl, <- Hseq, Hcb.
Qed.

Lemma flushout_dmax s : dmax (files (flushout s)) = dmax (files s).
Proof. apply dmax_keys, set_file_keys. Qed.

(* chkWriter.Flush(): what was in chunkBuffer and writer is now in the file as well *)
Lemma core_flushout s G J : Core s G J -> cur_open s = true -> Core (flushout s) G J.
Proof.
  intros [Hpos Hcl Hop HJ Hlive] Ho. destruct (Hop Ho) as (Hseq & bs0 & Hbs & Hlen).
  pose proof (lookup_set_file_same _ (fun b => b ++ wbuf s) _ _ Hbs) as Hbs'.
  constructor; rewrite ?flushout_dmax; unfold flushout; cbn [ev_seq ev_off cur_open cur_seq cur_off wbuf cbuf files pend];
    try assumption.
  - congruence.
  - intros _. split; [exact Hseq|]. exists (bs0 ++ wbuf s). now rewrite app_nil_r.
  - intros rf r HG. apply (E_mono s); [|exact (Hlive rf r HG)].
    intros (bs & Hf & Hp & Hloc). unfold Loc. cbn [cur_open cur_seq wbuf cbuf files pend].
    destruct (N.eq_dec (fst rf) (cur_seq s)) as [Eq|Ne].
    + rewrite Eq, Hbs in Hf. injection Hf as <-. exists (bs0 ++ wbuf s). rewrite Eq at 1.
      split; [exact Hbs'|]. split; [exact Hp|]. left.
      destruct Hloc as [[Hr Hc]|(_ & _ & Hc & Hr)]; (split; [|auto]); [now apply resident_app|exact Hr].
    + exists bs. rewrite lookup_set_file_other by exact Ne. split; [exact Hf|]. split; [exact Hp|]. left.
      destruct Hloc as [[Hr _]|(_ & Hs & _)]; [|contradiction]. split; [exact Hr|intros; contradiction].
Qed.

(* chunkBuffer.clear() once the writer is empty: every buffered chunk is in the file *)
Lemma core_clear s G J : Core s G J -> wbuf s = [] -> Core (clearbuf s) G J.
Proof.
  intros [Hpos Hcl Hop HJ Hlive] Hw.
  constructor; unfold clearbuf; cbn [ev_seq ev_off cur_open cur_seq cur_off wbuf cbuf files pend]; try assumption.
  - intros H. destruct (Hcl H) as (A & _ & B). auto.
  - intros rf r HG. apply (E_mono s); [|exact (Hlive rf r HG)].
    intros (bs & Hf & Hp & Hloc). exists bs. cbn [cur_open cur_seq wbuf cbuf files pend lookup_ref].
    split; [exact Hf|]. split; [exact Hp|]. left. split; [|now left].
    destruct Hloc as [[Hr _]|(_ & _ & _ & Hr)]; [exact Hr|]. now rewrite Hw, app_nil_r in Hr.
Qed.

Lemma core_uncut s G j J : Core s G (j :: J) -> j_cut j = false -> Core s G (uncut j :: J).
Proof.
  intros [(opn' & Hrep) Hcl Hop HJ Hlive] Hcut. constructor; try assumption.
  - exists opn'. cbn [replay uncut j_cut j_ref j_rec] in *. now rewrite Hcut in Hrep.
  - inversion HJ; subst. now constructor.
  - intros rf r HG. exact (E_jobs s _ _ rf r (in_uncut j J) (Hlive rf r HG)).
Qed.

(* cutSegmentFile: the next file, with its header, becomes the file being written *)
Lemma core_newfile s G j J : Core s G (j :: J) -> j_cut j = true -> cbuf s = [] -> wbuf s = [] ->
  Core (newfile s) G (uncut j :: J).
Proof.
  intros [(opn' & Hrep) Hcl Hop HJ Hlive] Hcut Hcb Hwb.
  assert (Hd : dmax (files s ++ [(dmax (files s) + 1, hc_header)]) = dmax (files s) + 1) by (apply dmax_app1; lia).
  cbn [replay] in Hrep. rewrite Hcut in Hrep.
  destruct (ref_eqb (j_ref j) (dmax (files s) + 1, 8)) eqn:Eref; [|discriminate].
  constructor; unfold newfile; cbn [ev_seq ev_off cur_open cur_seq cur_off wbuf cbuf files pend]; rewrite ?Hd.
  - exists opn'. cbn [replay uncut j_cut j_ref j_rec andb]. now rewrite Eref.
  - discriminate.
  - intros _. split; [reflexivity|]. exists hc_header. split; [|reflexivity].
    rewrite lookup_app, lookup_none_dmax by lia. cbn. now rewrite N.eqb_refl.
  - inversion HJ; subst. now constructor.
  - intros rf r HG. apply (E_jobs _ _ _ _ _ (in_uncut j J)), (E_mono s); [|exact (Hlive rf r HG)].
    intros (bs & Hf & Hp & Hloc). exists bs. cbn [cur_open cur_seq wbuf cbuf files pend].
    split; [now rewrite lookup_app, Hf|]. split; [exact Hp|]. left. rewrite Hcb in *.
    destruct Hloc as [[Hr _]|(_ & _ & Hc & _)]; [|discriminate]. split; [exact Hr|now left].
Qed.

(* the chunk's bytes go to the writer and the chunk to chunkBuffer: the job is written *)
Lemma core_append s G j J : Core s G (j :: J) -> j_cut j = false ->
  Core (append s j) G J /\
  cur_open s = true /\ fst (j_ref j) = dmax (files s) /\ snd (j_ref j) = cur_off s.
Proof.
  intros [(opn' & Hrep) Hcl Hop HJ Hlive] Hcut. cbn [replay] in Hrep. rewrite Hcut in Hrep.
  destruct (cur_open s) eqn:Ho; cbn [andb] in Hrep; [|discriminate].
  destruct (ref_eqb (j_ref j) (dmax (files s), cur_off s)) eqn:Eref; [|discriminate].
  apply ref_eqb_eq in Eref.
  destruct (Hop eq_refl) as (Hseq & bs0 & Hbs & Hlen).
  inversion HJ as [|? ? [Hjrok Hjp] Ht]; subst.
  split; [|rewrite Eref; cbn; auto].
  constructor; unfold HeadChunks.append; cbn [ev_seq ev_off cur_open cur_seq cur_off wbuf cbuf files pend];
    try assumption.
  - exists opn'. now rewrite Ho, encode_rec_nlen.
  - rewrite Ho. discriminate.
  - intros _. split; [exact Hseq|]. exists bs0. split; [exact Hbs|].
    rewrite app_assoc. unfold nlen in *. rewrite app_length, <- Hlen, encode_rec_length. lia.
  - intros rf r HG. destruct (Hlive rf r HG) as [Hrok [(j' & [<-|Hin] & <- & <-) | L]]; (split; [exact Hrok|]).
    + (* the job just written: in chunkBuffer, its bytes at the end of the writer *)
      right. exists bs0. cbn [cur_open cur_seq wbuf cbuf files pend lookup_ref].
      rewrite Eref, Hseq, ref_eqb_refl, Ho in *. cbn [fst snd].
      split; [exact Hbs|]. split; [right; exact Hjp|]. right. repeat split.
      exists (bs0 ++ wbuf s), []. now rewrite app_nil_r, <- app_assoc.
    + left. eauto.
    + right. pose proof (Loc_below _ _ _ _ Hbs L) as Hbel. destruct L as (bs & Hf & Hp & Hloc).
      exists bs. cbn [cur_open cur_seq wbuf cbuf files pend lookup_ref].
      pose proof (rec_size_pos r).
      rewrite ref_eqb_neq by (intros ->; rewrite Eref, Hseq in Hbel; specialize (Hbel eq_refl); cbn [snd] in Hbel; lia).
      split; [exact Hf|]. split; [exact Hp|].
      destruct Hloc as [Hl|(H1 & H2 & H3 & Hr)]; [now left|right]. repeat split; try assumption.
      rewrite app_assoc. now apply resident_app.
Qed.

Lemma core_ext s s' G J :
  ev_seq s' = ev_seq s -> ev_off s' = ev_off s -> pend s' = pend s -> cbuf s' = cbuf s ->
  cur_open s' = cur_open s -> cur_seq s' = cur_seq s -> cur_off s' = cur_off s -> wbuf s' = wbuf s ->
  files s' = files s -> Core s G J -> Core s' G J.
Proof.
  intros H1 H2 H3 H4 H5 H6 H7 H8 H9 C.
  constructor; unfold E, Loc; rewrite ?H1, ?H2, ?H3, ?H4, ?H5, ?H6, ?H7, ?H8, ?H9; apply C.
Qed.

(* what is known about the writer in each phase of the worker *)
Definition done_ok (s : st) (j : job) : Prop :=
  cur_open s = true /\ fst (j_ref j) = dmax (files s) /\
  snd (j_ref j) + rec_size (j_rec j) <= cur_off s.

Definition wk_ok (s : st) : Prop :=
  match wk s with
  | WDone j => done_ok s j
  | WRun j PClr1 => j_cut j = true /\ cur_open s = true /\ wbuf s = []
  | WRun j PNew => j_cut j = true /\ cbuf s = [] /\ wbuf s = []
  | WRun j PClr2 => wbuf s = [] /\ cur_open s = true
  | WRun j PPost => done_ok s j
  | WRun j PClr3 => done_ok s j /\ wbuf s = []
  | _ => True
  end.

Definition Inv (s : st) (G : list (ref * rec)) : Prop := Core s G (pjobs s) /\ wk_ok s.

(* the worker moves on to phase w in a state s' for which Core holds with the jobs that phase leaves *)
Lemma inv_set_wk s' w G : Core s' G (pjobs (set_wk s' w)) -> wk_ok (set_wk s' w) -> Inv (set_wk s' w) G.
Proof. intros C W. split; [|exact W]. now apply (core_ext s'). Qed.

(* one atomic action of the worker keeps the invariant: in particular in the state between
   chkWriter.Flush() and chunkBuffer.clear(), and in the state just before Flush() *)
Lemma step_micro s G : Inv s G -> Inv (fst (micro crc32 bufsize s)) G.
Proof.
  intros [C W]. unfold micro. destruct (wk s) as [|j|j p|j] eqn:Hwk; try (cbn [fst]; now split);
    unfold pjobs in C; unfold wk_ok in W; rewrite Hwk in C, W.
  - (* WStart *)
    destruct (j_cut j) eqn:Hcut; [destruct (cur_open s) eqn:Ho|]; cbn [fst].
    + apply inv_set_wk; [now apply core_flushout|now cbn].
    + apply inv_set_wk; [exact C|]. destruct (c_closed _ _ _ C Ho) as (_ & A & B). now cbn.
    + apply inv_set_wk; [now apply core_uncut|exact I].
  - (* WRun *)
    destruct p.
    + (* PClr1 *) destruct W as (Hcut & Ho & Hw). cbn [fst].
      apply inv_set_wk; [now apply core_clear|now cbn].
    + (* PNew *) destruct W as (Hcut & Hcb & Hw).
      pose proof (core_newfile s G j (queue s) C Hcut Hcb Hw) as C1.
      destruct (core_append (newfile s) G (uncut j) (queue s) C1 eq_refl) as (_ & Ho1 & Hf1 & Hs1).
      destruct (c_open _ _ _ C1 Ho1) as (Hseq1 & _).
      replace (ref_eqb (cur_seq (newfile s), 8) (j_ref j)) with true.
      * cbn [negb fst]. apply inv_set_wk; [exact C1|exact I].
      * symmetry. apply ref_eqb_eq. cbn [uncut j_ref] in Hf1, Hs1. destruct (j_ref j). cbn [fst snd] in *.
        now rewrite Hseq1, Hf1, Hs1.
    + (* PPre *)
      destruct (core_append s G (uncut j) (queue s) C eq_refl) as (_ & Ho & _ & _).
      rewrite Ho. cbn [negb]. destruct (pre_flush bufsize s j); cbn [fst].
      * apply inv_set_wk; [now apply core_flushout|now cbn].
      * apply inv_set_wk; [exact C|exact I].
    + (* PClr2 *) destruct W as (Hw & Ho). cbn [fst].
      apply inv_set_wk; [now apply core_clear|exact I].
    + (* PApp *)
      destruct (core_append s G (uncut j) (queue s) C eq_refl) as (C3 & Ho & Hf & Hs).
      cbn [uncut j_ref j_rec] in Hf, Hs.
      assert (C3' : Core (append s j) G (queue s)) by (now apply (core_ext (append s (uncut j)))).
      assert (D : done_ok (append s j) j).
      { unfold done_ok, HeadChunks.append. cbn [cur_open files cur_off]. rewrite Hs, encode_rec_nlen. auto using N.le_refl. }
      destruct (nlen (r_data (j_rec j)) + 34 <? bufsize); cbn [fst].
      * split; [exact C3'|exact D].
      * apply inv_set_wk; [exact C3'|exact D].
    + (* PPost *) destruct W as (Ho & Hf & Hs). cbn [fst].
      apply inv_set_wk; [now apply core_flushout|].
      split; [|reflexivity]. unfold done_ok. cbn [set_wk cur_open cur_off files]. now rewrite flushout_dmax.
    + (* PClr3 *) destruct W as (D & Hw). cbn [fst].
      apply inv_set_wk; [now apply core_clear|exact D].
Qed.

Lemma to_site_inv G : forall fuel b s s', Inv s G -> to_site crc32 bufsize fuel b s = Some s' -> Inv s' G.
Proof.
  induction fuel as [|f IH]; intros b s s' HI; cbn [to_site]; destruct (at_site bufsize b s); try discriminate;
    try (now intros [= <-]).
  pose proof (step_micro s G HI) as HI'. destruct (micro crc32 bufsize s) as [s1 [| | |]]; try discriminate.
  now apply IH.
Qed.

Lemma run_micro_inv G : forall fuel n s, Inv s G -> Inv (fst (run_micro crc32 bufsize fuel n s)) G.
Proof.
  induction fuel as [|f IH]; intros n s HI; cbn [run_micro]; [exact HI|].
  pose proof (step_micro s G HI) as HI'. destruct (micro crc32 bufsize s) as [s1 [| | |]]; cbn [fst] in *; auto.
Qed.

Definition has_file (q : N) (fs : list (N * list N)) : bool :=
  match lookup q fs with Some _ => true | None => false end.

Definition ghost (G : list (ref * rec)) (s : st) (x : step) (s' : st) (o : out) : list (ref * rec) :=
  match x, o with
  | SWrite r, ORef rf => (rf, r) :: G
  | STrunc _, _ =>
      filter (fun e => negb (has_file (fst (fst e)) (files s)) || has_file (fst (fst e)) (files s')) G
  | _, _ => G
  end.

(* Writes hand over well-formed chunks.  A Truncate must not lower the highest file number of
   the directory while no file is open, unless nothing is queued and the directory becomes empty
   (this excludes exactly the schedule of C25_read_your_write_refuted). *)
Definition safe_step (s : st) (x : step) : Prop :=
  match x with
  | SWrite r => wf_write r
  | STrunc n =>
      cur_open s = true \/ dmax (files (do_trunc s n)) = dmax (files s) \/
      (pend s = [] /\ files (do_trunc s n) = [])
  | _ => True
  end.

(* WriteChunk: the new job goes to the end of the queue with the ref the writer will reach *)
Lemma step_write s G r : Inv s G -> wf_write r ->
  Inv (fst (do_write qmax s r)) (ghost G s (SWrite r) (fst (do_write qmax s r)) (snd (do_write qmax s r))).
Proof.
  intros [C W] (Hwf & Hve & Hsz). pose proof C as [(opn' & Hrep) Hcl Hop HJ Hlive]. unfold do_write.
  destruct (qmax <=? length (queue s))%nat; [now split|].
  set (btw := rec_size r).
  set (cut := ev_cut s || (ev_off s =? 0) || (max_file_size <? ev_off s + btw)).
  set (seq := if cut then ev_seq s + 1 else ev_seq s).
  set (off := if cut then 8 else ev_off s).
  cbn [fst snd ghost].
  set (jn := mkJob cut (seq, off) r).
  match goal with |- Inv ?S _ => set (s' := S) end.
  assert (Hpj : pjobs s' = pjobs s ++ [jn]).
  { unfold pjobs, s'. cbn [wk queue]. destruct (wk s) as [| |? []|]; reflexivity. }
  destruct (replay_refs _ _ _ _ _ _ _ Hrep) as [_ Hrefs].
  assert (Hnew : replay opn' (ev_seq s) (ev_off s) [jn] = Some (true, seq, off + btw) /\ rok (seq, off) r).
  { unfold jn, seq, off, rok. cbn [replay j_cut j_ref j_rec snd]. destruct cut eqn:Ecut.
    - now rewrite ref_eqb_refl.
    - unfold cut in Ecut. rewrite !orb_false_iff, N.eqb_neq, N.ltb_ge in Ecut. destruct Ecut as [[_ E2] E3].
      replace opn' with true; [now rewrite ref_eqb_refl|].
      (* a position other than offset 0 means a file is open, now or after the first job *)
      destruct (replay_opn _ _ _ _ _ _ _ Hrep) as [->|[Hnil ->]]; [reflexivity|].
      destruct (cur_open s) eqn:Eo; [reflexivity|]. destruct (Hcl eq_refl) as (Hz0 & _).
      rewrite Hnil in Hrep. cbn in Hrep. congruence. }
  destruct Hnew as [Hnew Hrok].
  assert (Hfresh : forall j, In j (pjobs s) -> j_ref j <> (seq, off)).
  { intros j Hin Heq. destruct (Hrefs j Hin) as [Hend _]. rewrite Heq in Hend. cbn [fst snd] in Hend.
    pose proof (rec_size_pos (j_rec j)). unfold seq, off in Hend. destruct cut; lia. }
  split; [|exact W].
  rewrite Hpj. constructor; unfold s'; cbn [ev_seq ev_off cur_open cur_seq cur_off wbuf cbuf files pend];
    try assumption.
  - exists true. now rewrite replay_app, Hrep.
  - apply Forall_app. split; [|constructor; [split; [exact Hrok|cbn; now rewrite ref_eqb_refl]|constructor]].
    rewrite Forall_forall in *. intros j Hin. destruct (HJ j Hin) as [A B].
    split; [exact A|]. cbn [lookup_ref]. now rewrite (ref_eqb_neq _ _ (Hfresh j Hin)).
  - intros rf r0 HG. cbn [lookup_ref] in HG. destruct (ref_eqb rf (seq, off)) eqn:Er.
    + apply ref_eqb_eq in Er. injection HG as <-. subst rf. split; [exact Hrok|]. left. exists jn.
      split; [apply in_or_app; right; now left | split; reflexivity].
    + apply (E_jobs _ (pjobs s)); [intros j Hin; exists j; split; [apply in_or_app; now left|auto]|].
      apply (E_mono s); [|exact (Hlive rf r0 HG)].
      unfold Loc. cbn [cur_open cur_seq wbuf cbuf files pend lookup_ref]. now rewrite Er.
Qed.

(* the job leaves chunkRefMap: its chunk is in chunkBuffer or in the file *)
Lemma step_done s G j : Inv s G -> wk s = WDone j -> Inv (fst (do_done s)) G.
Proof.
  intros [C W] Hwk. unfold do_done, wk_ok, pjobs in *. rewrite Hwk in *. cbn [fst]. destruct W as (Ho & Hf & Hs).
  destruct C as [(opn' & Hrep) Hcl Hop HJ Hlive].
  destruct (replay_refs _ _ _ _ _ _ _ Hrep) as [_ Hrefs].
  assert (Hne : forall j', In j' (queue s) -> j_ref j <> j_ref j').
  { intros j' Hin Heq. destruct (Hrefs j' Hin) as [_ Hst]. rewrite <- Heq in Hst.
    pose proof (rec_size_pos (j_rec j)). lia. }
  split; [|exact I]. cbn [wk queue].
  constructor; cbn [ev_seq ev_off cur_open cur_seq cur_off wbuf cbuf files pend]; eauto.
  - rewrite Forall_forall in *. intros j' Hin. destruct (HJ j' Hin) as [A B].
    split; [exact A|]. now rewrite lookup_ref_remove, ref_eqb_neq by (apply Hne; exact Hin).
  - intros rf r HG. apply (E_mono s); [|exact (Hlive rf r HG)].
    intros (b & Hfl & Hp & Hloc). exists b. cbn [cur_open cur_seq wbuf cbuf files pend].
    split; [exact Hfl|]. split; [|exact Hloc].
    rewrite lookup_ref_remove. destruct (ref_eqb (j_ref j) rf); [now left|exact Hp].
Qed.

Lemma pjobs_nil_of_pend s G : Core s G (pjobs s) -> pend s = [] -> pjobs s = [].
Proof.
  intros C Hp. pose proof (c_jobs _ _ _ C) as HJ. destruct (pjobs s) as [|j t]; [reflexivity|].
  inversion HJ as [|? ? [_ Hl] _]; subst. rewrite Hp in Hl. discriminate.
Qed.

(* Truncate removes files and nothing else a reader sees; the position of the next chunk follows
   the directory's highest number, which an admissible Truncate leaves alone or resets with it *)
Lemma step_trunc s G n : Inv s G -> safe_step s (STrunc n) ->
  Inv (do_trunc s n) (ghost G s (STrunc n) (do_trunc s n) (OTrunc (map fst (files s)) (map fst (files (do_trunc s n))))).
Proof.
  intros [C W] Hsafe. pose proof C as [(opn' & Hrep) Hcl Hop HJ Hlive]. cbn [safe_step ghost] in *.
  set (s' := do_trunc s n) in *.
  (* the directory's highest number and the eventual sequence stay in step *)
  assert (Hpos : dmax (files s') = dmax (files s) /\ ev_seq s' = ev_seq s
                 \/ (pjobs s = [] /\ cur_open s = false /\ files s' = [] /\ ev_seq s' = 0)).
  { unfold s' at 2 4. rewrite trunc_ev_seq. fold s'. destruct (cur_open s) eqn:Ho.
    - left. destruct (Hop eq_refl) as (Hseq & bs & Hbs & _).
      assert (Hin : In (cur_seq s, bs) (files s')) by (apply lookup_in; unfold s'; now rewrite trunc_lookup, trunc_keeps_cur).
      split; [|now destruct (files s')]. apply N.le_antisymm; [|rewrite <- Hseq; exact (dmax_in _ _ Hin)].
      apply dmax_bound. intros e He. unfold s' in He. rewrite trunc_files in He. apply filter_In in He. now apply dmax_in.
    - destruct (files s') eqn:Ef; [destruct (pend s) eqn:Ep; [right; eauto using pjobs_nil_of_pend|]|];
        (left; split; [|reflexivity]; destruct Hsafe as [Hs | [Hs | [Hp Hs]]]; [discriminate|exact Hs|discriminate]). }
  split.
  - change (pjobs s') with (pjobs s).
    constructor; change (cur_open s') with (cur_open s); change (cur_off s') with (cur_off s);
      change (cur_seq s') with (cur_seq s); change (wbuf s') with (wbuf s); change (cbuf s') with (cbuf s);
      change (pend s') with (pend s); change (ev_off s') with (ev_off s); try assumption.
    + destruct Hpos as [[-> ->] | (Hj & Ho & -> & ->)]; [eauto|].
      rewrite Hj in *. cbn [replay] in *. injection Hrep as _ _ <-. eauto.
    + intros Ho. destruct (Hop Ho) as (Hseq & bs & Hbs & Hlen).
      destruct Hpos as [[-> _] | (_ & Ho' & _)]; [|congruence].
      split; [exact Hseq|]. exists bs. unfold s'. now rewrite trunc_lookup, trunc_keeps_cur.
    + intros rf r HG.
      rewrite (lookup_ref_filter_key (fun k => negb (has_file (fst k) (files s)) || has_file (fst k) (files s'))) in HG.
      destruct (negb (has_file (fst rf) (files s)) || has_file (fst rf) (files s')) eqn:Ek; [|discriminate].
      apply (E_mono s); [|exact (Hlive rf r HG)].
      intros (b & Hfl & Hloc). exists b. split; [|exact Hloc].
      unfold has_file, s' in *. rewrite Hfl, trunc_lookup in *. now destruct (trunc_keeps s n (fst rf)).
  - assert (Hdone : forall j, done_ok s j -> done_ok s' j).
    { intros j (Ho & Hf & Hs). destruct Hpos as [[Hd _] | (_ & Ho' & _)]; [|congruence].
      unfold done_ok. now rewrite Hd. }
    unfold wk_ok in *. change (wk s') with (wk s).
    destruct (wk s) as [| |j []|j]; try exact W; try (apply Hdone; exact W).
    destruct W as [W1 W2]. split; [apply Hdone; exact W1 | exact W2].
Qed.

Lemma step_inv s G x : Inv s G -> safe_step s x ->
  Inv (fst (do_step crc32 bufsize qmax s x)) (ghost G s x (fst (do_step crc32 bufsize qmax s x)) (snd (do_step crc32 bufsize qmax s x))).
Proof.
  intros HI Hs. destruct x as [r | | n | | | | | b | rf]; cbn [do_step].
  - now apply step_write.
  - destruct HI as [C W]. split; [now apply (core_ext s)|exact W].
  - now apply step_trunc.
  - (* pop *) unfold do_pop. destruct HI as [C W].
    destruct (wk s) eqn:Hwk; try (now split). destruct (queue s) as [|j q] eqn:Hq; [now split|].
    split; [|exact I]. unfold pjobs in *. rewrite Hwk, Hq in C. now apply (core_ext s).
  - (* proc *) now apply run_micro_inv.
  - (* done *) destruct (wk s) as [|j|j p|j] eqn:Hwk; try (unfold do_done; now rewrite Hwk).
    now apply (step_done s G j).
  - (* micro *) now apply step_micro.
  - (* site *) destruct (to_site crc32 bufsize 10 b s) as [s1|] eqn:Es; [|exact HI].
    exact (to_site_inv G 10 b s s1 HI Es).
  - exact HI.
Qed.

Fixpoint grun (s : st) (G : list (ref * rec)) (tr : list step) : st * list (ref * rec) :=
  match tr with
  | [] => (s, G)
  | x :: t => let so := do_step crc32 bufsize qmax s x in grun (fst so) (ghost G s x (fst so) (snd so)) t
  end.

Fixpoint safe (s : st) (tr : list step) : Prop :=
  match tr with
  | [] => True
  | x :: t => safe_step s x /\ safe (fst (do_step crc32 bufsize qmax s x)) t
  end.

Lemma inv_init fs : Inv (init_state fs) [].
Proof.
  split; [|exact I]. unfold pjobs. cbn [init_state wk queue]. constructor; cbn; auto; try discriminate.
  now exists false.
Qed.

Lemma grun_inv : forall tr s G, Inv s G -> safe s tr -> Inv (fst (grun s G tr)) (snd (grun s G tr)).
Proof.
  induction tr as [|x t IH]; intros s G HI Hs; [exact HI|].
  cbn [grun]. destruct Hs as [H1 H2]. apply IH; [now apply step_inv | exact H2].
Qed.

(* read-your-write at every point of every admissible schedule *)
Theorem read_your_write fs tr rf r : safe (init_state fs) tr ->
  lookup_ref rf (snd (grun (init_state fs) [] tr)) = Some r ->
  do_read crc32 (fst (grun (init_state fs) [] tr)) rf = RdOk (r_enc r) (r_data r).
Proof.
  intros Hs HG. destruct (grun_inv tr _ _ (inv_init fs) Hs) as [C _].
  exact (read_live _ _ _ _ _ C HG).
Qed.
End RYW.
