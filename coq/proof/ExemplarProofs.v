(* proof/ExemplarProofs.v — lemmas for C21 (the statements that count are in props/C21.v).
   Ring level: each primitive of the ring model is read as an operation on the ring seen from
   nextIndex ([view]): a store drops the front and pushes at the end, a shrink pushes holes, the
   copy ranges take a suffix; so the view stays "holes first, then the retained exemplars".
   Reference: the window rule on int64 inputs, Select, capacity.  Pointer level: what [wfb] gives
   the three reads. *)
From Coq Require Import List ZArith Bool Lia Permutation Sorted.
From Verif Require Import lib.Int64 lib.SortedList model.Exemplar.
Import ListNotations.
Open Scope Z_scope.

Lemma zlen_nonneg {A} (l : list A) : 0 <= zlen l.
Proof. unfold zlen. lia. Qed.

Lemma zlen_app {A} (a b : list A) : zlen (a ++ b) = zlen a + zlen b.
Proof. unfold zlen. rewrite app_length. lia. Qed.

Lemma zlen_repeat {A} (x : A) n : zlen (repeat x n) = Z.of_nat n.
Proof. unfold zlen. now rewrite repeat_length. Qed.

Lemma zlen_map {A B} (f : A -> B) l : zlen (map f l) = zlen l.
Proof. unfold zlen. now rewrite map_length. Qed.

Lemma upd_nat_length {A} (l : list A) n f : length (upd_nat l n f) = length l.
Proof. revert n; induction l as [|x t IH]; intros [|n]; simpl; auto. Qed.

Lemma upd_nat_0 {A} (l : list A) f x t : l = x :: t -> upd_nat l 0 f = f x :: t.
Proof. intros ->. reflexivity. Qed.

Lemma upd_nat_at {A} (a : list A) x b f : upd_nat (a ++ x :: b) (length a) f = a ++ f x :: b.
Proof. induction a; simpl; congruence. Qed.

Lemma skipn_repeat {A} (x : A) d h : skipn d (repeat x h) = repeat x (h - d).
Proof. revert d; induction h; intros [|d]; simpl; auto. Qed.

Lemma skipn_skipn1 {A} k (l : list A) : skipn k (skipn 1 l) = skipn (S k) l.
Proof. destruct l; [destruct k|]; reflexivity. Qed.

Lemma rotate_app {A} (a b : list A) : rotate (Z.to_nat (zlen a)) (a ++ b) = b ++ a.
Proof.
  unfold rotate, zlen. now rewrite Nat2Z.id, skipn_length_app, firstn_length_app.
Qed.

Lemma rotate_length {A} (l : list A) k : length (rotate k l) = length l.
Proof.
  unfold rotate. rewrite app_length, Nat.add_comm, <- app_length, firstn_skipn. reflexivity.
Qed.

Lemma zlen_rotate {A} (l : list A) k : zlen (rotate k l) = zlen l.
Proof. unfold zlen. now rewrite rotate_length. Qed.

Lemma rotate_0 {A} (l : list A) : rotate 0 l = l.
Proof. unfold rotate. simpl. now rewrite app_nil_r. Qed.

Lemma rotate_map {A B} (f : A -> B) k l : rotate k (map f l) = map f (rotate k l).
Proof. unfold rotate. now rewrite map_app, skipn_map, firstn_map. Qed.

Lemma somes_app {A} (a b : list (option A)) : somes (a ++ b) = somes a ++ somes b.
Proof. induction a as [|[x|] t IH]; simpl; auto. now rewrite IH. Qed.
Lemma somes_none {A} n : somes (repeat (@None A) n) = [].
Proof. induction n; simpl; auto. Qed.
Lemma somes_some {A} (l : list A) : somes (map Some l) = l.
Proof. induction l; simpl; auto. now rewrite IHl. Qed.

Lemma lastn_all {A} (l : list A) n : (length l <= n)%nat -> lastn n l = l.
Proof. intros H. unfold lastn. replace (length l - n)%nat with 0%nat by lia. reflexivity. Qed.

Lemma lastn_length {A} (l : list A) n : length (lastn n l) = Nat.min n (length l).
Proof. unfold lastn. rewrite skipn_length. lia. Qed.

Lemma gorem_small a b : 0 <= a < b -> gorem a b = a.
Proof. intros. unfold gorem. apply Z.rem_small. lia. Qed.
Lemma gorem_self a : 0 < a -> gorem a a = 0.
Proof. intros. unfold gorem. rewrite Z.rem_mod_nonneg by lia. apply Z_mod_same_full. Qed.
Lemma gorem_wrap a b : 0 < b -> b <= a < 2 * b -> gorem a b = a - b.
Proof.
  intros Hb H. unfold gorem. rewrite Z.rem_mod_nonneg by lia.
  symmetry. apply Z.mod_unique_pos with (q := 1); lia.
Qed.
Lemma gorem_range a b : 0 <= a -> 0 < b -> 0 <= gorem a b < b.
Proof. intros. unfold gorem. apply Z.rem_bound_pos; lia. Qed.
Lemma gorem_succ a b : 0 <= a -> 0 < b -> gorem (gorem a b + 1) b = gorem (a + 1) b.
Proof.
  intros Ha Hb. pose proof (gorem_range a b Ha Hb). unfold gorem in *.
  rewrite !Z.rem_mod_nonneg by lia. apply Zplus_mod_idemp_l.
Qed.

Lemma setz_ok {A} (l : list A) i f : 0 <= i < zlen l -> setz l i f = Ok (upd_nat l (Z.to_nat i) f).
Proof.
  intros H. unfold setz.
  destruct (Z.ltb_spec i 0); [lia|]. destruct (Z.leb_spec (zlen l) i); [lia|]. reflexivity.
Qed.

Lemma slicez_ok {A} (l : list A) f t : 0 <= f <= t -> t <= zlen l ->
  slicez l f t = Ok (firstn (Z.to_nat (t - f)) (skipn (Z.to_nat f) l)).
Proof.
  intros H1 H2. unfold slicez.
  destruct (Z.ltb_spec f 0); [lia|]. destruct (Z.ltb_spec t f); [lia|]. destruct (Z.ltb_spec (zlen l) t); [lia|].
  reflexivity.
Qed.

Lemma ring_at {A} (l : list A) k : 0 <= k < zlen l -> exists a x b, l = a ++ x :: b /\ zlen a = k.
Proof.
  intros H. exists (firstn (Z.to_nat k) l). destruct (skipn (Z.to_nat k) l) as [|x b] eqn:E.
  - apply (f_equal (@length _)) in E. rewrite skipn_length in E. unfold zlen in H. simpl in E. lia.
  - exists x, b. split; [now rewrite <- E, firstn_skipn|]. unfold zlen in *. rewrite firstn_length. lia.
Qed.

Lemma getz_at {A} (a : list A) x b : getz (a ++ x :: b) (zlen a) = Ok x.
Proof.
  unfold getz, zlen. destruct (Z.ltb_spec (Z.of_nat (length a)) 0); [lia|].
  now rewrite Nat2Z.id, nth_error_app2, Nat.sub_diag by lia.
Qed.

Lemma setz_at {A} (a : list A) x b f : setz (a ++ x :: b) (zlen a) f = Ok (a ++ f x :: b).
Proof.
  rewrite setz_ok by (rewrite zlen_app; pose proof (zlen_nonneg a); unfold zlen; simpl length; lia).
  unfold zlen. now rewrite Nat2Z.id, upd_nat_at.
Qed.

(* the ring seen from the slot after slot k (modulo its length): slot k has moved to the end *)
Lemma rotate_next {A} (a : list A) x b :
  rotate (Z.to_nat (gorem (zlen a + 1) (zlen (a ++ x :: b)))) (a ++ x :: b) = b ++ a ++ [x].
Proof.
  pose proof (zlen_nonneg a). pose proof (zlen_nonneg b). rewrite zlen_app. destruct b as [|y b].
  - change (zlen [x]) with 1. rewrite gorem_self by lia. now rewrite rotate_0.
  - rewrite gorem_small by (unfold zlen in *; simpl length; lia).
    replace (zlen a + 1) with (zlen (a ++ [x])) by apply zlen_app.
    replace (a ++ x :: y :: b) with ((a ++ [x]) ++ y :: b) by now rewrite <- app_assoc.
    apply rotate_app.
Qed.

(* overwriting slot k and moving on to the next slot: seen from there, the old content of slot k
   is gone from the front and the new content stands at the end *)
Lemma ring_push {A} (l : list A) k y : 0 <= k < zlen l ->
  exists l', setz l k (fun _ => y) = Ok l' /\ zlen l' = zlen l /\
    rotate (Z.to_nat (gorem (k + 1) (zlen l))) l' = skipn 1 (rotate (Z.to_nat k) l ++ [y]).
Proof.
  intros H. destruct (ring_at l k H) as (a & x & b & -> & <-).
  exists (a ++ y :: b). rewrite setz_at. split; [reflexivity|].
  assert (E : zlen (a ++ y :: b) = zlen (a ++ x :: b)) by now rewrite !zlen_app.
  split; [exact E|]. rewrite <- E, rotate_next, rotate_app. simpl. now rewrite app_assoc.
Qed.

Definition view (r : rstate) : list (option (Z * exemplar)) := rotate (Z.to_nat (r_next r)) (r_ring r).

Definition RInv (r : rstate) : Prop :=
  ((r_ring r = [] /\ r_next r = 0) \/ 0 <= r_next r < zlen (r_ring r))
  /\ exists h, view r = repeat None h ++ map Some (r_kept r).

Lemma RInv_intro r h K :
  ((r_ring r = [] /\ r_next r = 0) \/ 0 <= r_next r < zlen (r_ring r)) ->
  view r = repeat None h ++ map Some K -> RInv r /\ r_kept r = K.
Proof.
  intros Hn Hv. assert (Hk : r_kept r = K).
  { change (r_kept r) with (somes (view r)). now rewrite Hv, somes_app, somes_none, somes_some. }
  split; [split; [exact Hn|exists h; now rewrite Hk]|exact Hk].
Qed.

Lemma RInv_new l w : RInv (r_new l w).
Proof.
  apply (RInv_intro (r_new l w) (Z.to_nat (Z.max l 0)) []); cbn [r_new r_ring r_next].
  - destruct (Z.to_nat (Z.max l 0)) eqn:E; [left; auto|right]. rewrite zlen_repeat. lia.
  - unfold view. cbn [r_new r_ring r_next]. now rewrite rotate_0, app_nil_r.
Qed.

Lemma RInv_len r h K : view r = repeat None h ++ map Some K -> zlen (r_ring r) = Z.of_nat h + zlen K.
Proof.
  intros H. rewrite <- (zlen_rotate _ (Z.to_nat (r_next r))). fold (view r).
  now rewrite H, zlen_app, zlen_repeat, zlen_map.
Qed.

Lemma kept_le_cap r : RInv r -> zlen (r_kept r) <= zlen (r_ring r).
Proof. intros [_ [h H]]. rewrite (RInv_len r h _ H). lia. Qed.

Lemma holes_skipn {A} (K : list A) (h d l : nat) : (d + l = h + length K)%nat ->
  skipn d (repeat None h ++ map Some K) = repeat None (h - d) ++ map Some (lastn l K).
Proof.
  intros H. rewrite skipn_app, skipn_repeat, repeat_length, skipn_map. unfold lastn.
  do 3 f_equal. lia.
Qed.

Lemma r_validate_spec r sid e : r_validate r sid e = sp_validate WFixed (r_spec r) sid e.
Proof. reflexivity. Qed.

Lemma r_add_stored r x :
  RInv r -> r_ring r <> [] ->
  exists r', (rg <- setz (r_ring r) (r_next r) (fun _ => Some x) ;;
              Ok (mkR rg (gorem (r_next r + 1) (zlen rg)) (r_win r), AddStored)) = Ok (r', AddStored)
             /\ RInv r' /\ zlen (r_ring r') = zlen (r_ring r) /\ r_win r' = r_win r
             /\ r_kept r' = lastn (Z.to_nat (zlen (r_ring r))) (r_kept r ++ [x]).
Proof.
  intros [[[E _]|Hn] [h Hv]] Hne; [contradiction|].
  pose proof (RInv_len r h _ Hv) as HL.
  destruct (ring_push (r_ring r) (r_next r) (Some x) Hn) as (rg & -> & Hz & Hp). cbn [bind].
  rewrite Hz. set (r' := mkR rg _ _). exists r'. split; [reflexivity|].
  destruct (RInv_intro r' (h - 1) (lastn (Z.to_nat (zlen (r_ring r))) (r_kept r ++ [x]))) as [HI Hk].
  - right. cbn [r' r_ring r_next]. rewrite Hz. apply gorem_range; lia.
  - unfold view. cbn [r' r_ring r_next]. rewrite Hp. fold (view r). rewrite Hv, <- app_assoc.
    change [Some x] with (map Some [x]). rewrite <- map_app. apply holes_skipn.
    rewrite app_length. unfold zlen in *. simpl length. lia.
  - auto.
Qed.

Lemma r_add_refines r sid e : RInv r ->
  exists r' a, r_add r sid e = Ok (r', a) /\ RInv r' /\ sp_add WFixed (r_spec r) sid e = (r_spec r', a).
Proof.
  intros HI. unfold r_add, sp_add. rewrite r_validate_spec.
  change (sp_kept (r_spec r)) with (r_kept r).
  destruct (sp_validate WFixed (r_spec r) sid e) eqn:Ev; [destruct (sp_mid_dup (series_list sid (r_kept r)) e)|..];
    try (do 2 eexists; split; [reflexivity|split; [exact HI|reflexivity]]).
  - assert (Hne : r_ring r <> []).
    { intros E. unfold sp_validate, r_spec in Ev. simpl in Ev. rewrite E in Ev. simpl in Ev. discriminate. }
    destruct (r_add_stored r (sid, e) HI Hne) as (r' & Hs & HI' & Hz & Hw & Hk).
    exists r', AddStored. split; [exact Hs|split; [exact HI'|]].
    unfold r_spec. simpl. rewrite Hz, Hw, Hk. reflexivity.
Qed.

(* Shrinking clears the k slots from slot ds + i on, one by one: k pushes of a hole. *)
Lemma r_clear_view {A} n ds : 0 <= ds < n -> forall k i (rg : list (option A)),
  zlen rg = n -> 0 <= i -> Z.of_nat k <= n ->
  exists rg', r_clear rg n ds i k = Ok rg' /\ zlen rg' = n /\
    rotate (Z.to_nat (gorem (ds + (i + Z.of_nat k)) n)) rg'
    = skipn k (rotate (Z.to_nat (gorem (ds + i) n)) rg) ++ repeat None k.
Proof.
  intros Hds. induction k as [|k IH]; intros i rg Hl Hi Hk.
  - exists rg. simpl. rewrite Z.add_0_r, app_nil_r. auto.
  - cbn [r_clear].
    destruct (ring_push rg (gorem (ds + i) n) None) as (rg1 & -> & Hl1 & Hp);
      [rewrite Hl; apply gorem_range; lia|]. cbn [bind]. rewrite Hl in Hl1, Hp.
    destruct (IH (i + 1) rg1 Hl1) as (rg' & -> & Hl' & Hv); [lia..|].
    exists rg'. split; [reflexivity|]. split; [exact Hl'|].
    replace (ds + (i + Z.of_nat (S k))) with (ds + (i + 1 + Z.of_nat k)) by lia. rewrite Hv.
    replace (ds + (i + 1)) with (ds + i + 1) by lia. rewrite <- gorem_succ, Hp by lia.
    rewrite skipn_skipn1, skipn_app, <- app_assoc. do 2 f_equal.
    rewrite rotate_length. replace (S k - length rg)%nat with 0%nat by (unfold zlen in Hl; lia). reflexivity.
Qed.

(* Copying the one or two ranges that lead from slot de round to slot ds yields the ring seen from
   de, as far as ds. *)
Lemma r_copy_wrap {A} (L : list A) n ds de : zlen L = n -> 0 <= ds <= de -> de <= n ->
  r_copy L [(de, n); (0, ds)] = Ok (firstn (Z.to_nat (n - de + ds)) (rotate (Z.to_nat de) L)).
Proof.
  intros <- H1 H2. cbn [r_copy]. rewrite !slicez_ok by lia. cbn [bind]. f_equal. unfold rotate.
  rewrite app_nil_r, Z.sub_0_r. change (skipn (Z.to_nat 0) L) with L.
  rewrite firstn_all2 by (rewrite skipn_length; unfold zlen; lia).
  replace (Z.to_nat (zlen L - de + ds)) with (length (skipn (Z.to_nat de) L) + Z.to_nat ds)%nat
    by (rewrite skipn_length; unfold zlen in *; lia).
  rewrite firstn_app_2, firstn_firstn. do 2 f_equal. lia.
Qed.

Lemma r_copy_flat {A} (L : list A) de ds : 0 <= de <= ds -> ds <= zlen L ->
  r_copy L [(de, ds)] = Ok (firstn (Z.to_nat (ds - de)) (rotate (Z.to_nat de) L)).
Proof.
  intros H1 H2. cbn [r_copy]. rewrite slicez_ok by lia. cbn [bind]. rewrite app_nil_r. f_equal. unfold rotate.
  rewrite firstn_app.
  replace (Z.to_nat (ds - de) - length (skipn (Z.to_nat de) L))%nat with 0%nat
    by (rewrite skipn_length; unfold zlen in *; lia).
  simpl. now rewrite app_nil_r.
Qed.

Lemma zmax_if l : (if l <=? 0 then 0 else l) = Z.max l 0.
Proof. destruct (Z.leb_spec l 0); lia. Qed.

(* Resize, in the terms of the ring: the new ring shows the newest exemplars that fit; the count
   returned is their number (0 when the size does not change). *)
Lemma r_resize_spec r l : RInv r ->
  exists r', r_resize r l = Ok (r', if Z.max l 0 =? zlen (r_ring r) then 0 else zlen (r_kept r')) /\ RInv r' /\
    zlen (r_ring r') = Z.max l 0 /\
    r_kept r' = lastn (Z.to_nat (Z.max l 0)) (r_kept r) /\ r_win r' = r_win r.
Proof.
  intros HI. pose proof HI as [Hn [h Hv]]. pose proof (RInv_len r h _ Hv) as HL.
  unfold r_resize. rewrite zmax_if. set (l' := Z.max l 0). set (n := zlen (r_ring r)) in *.
  assert (Hnx : 0 <= r_next r <= n) by (destruct Hn as [[_ ->]|Hn]; pose proof (zlen_nonneg (r_ring r)); lia).
  assert (HV : zlen (view r) = n) by apply zlen_rotate. assert (Hl' : 0 <= l') by apply Z.le_max_r.
  destruct (Z.eqb_spec l' n) as [E|NE].
  - exists r. rewrite E, lastn_all by (unfold zlen in HL; lia). auto.
  - destruct (Z.ltb_spec n l') as [Hg|Hs].
    + (* grow: the view, then new holes; nextIndex = the old length *)
      rewrite (r_copy_wrap _ n) by (reflexivity || lia). cbn [bind]. fold (view r).
      rewrite firstn_all2 by (unfold zlen in HV; lia). rewrite HV. set (r' := mkR _ _ _).
      destruct (RInv_intro r' (Z.to_nat (l' - n) + h) (r_kept r)) as [HI' Hk].
      * right. cbn [r' r_ring r_next]. rewrite zlen_app, zlen_repeat. lia.
      * unfold view at 1. cbn [r' r_ring r_next]. rewrite <- HV at 1.
        now rewrite rotate_app, Hv, app_assoc, <- repeat_app.
      * exists r'. change (somes (view r)) with (r_kept r). rewrite Hk. split; [reflexivity|].
        split; [exact HI'|]. split; [cbn [r' r_ring]; rewrite zlen_app, zlen_repeat; lia|].
        split; [symmetry; apply lastn_all; unfold zlen in HL; lia|reflexivity].
    + (* shrink: the oldest n - l' slots are cleared, the rest is copied to the front *)
      destruct Hn as [[E1 _]|Hn]; [assert (n = 0) by (unfold n; now rewrite E1); lia|].
      destruct (Z.eqb_spec n 0) as [E0|_]; [lia|].
      set (diff := n - l'). set (ds := r_next r) in *.
      destruct (r_clear_view n ds Hn (Z.to_nat diff) 0 (r_ring r) eq_refl) as (rg & -> & Hlrg & Hvrg); [lia..|].
      rewrite Z.add_0_l, Z.add_0_r, Z2Nat.id, (gorem_small ds) in Hvrg by lia.
      change (rotate (Z.to_nat ds) (r_ring r)) with (view r) in Hvrg.
      cbn [bind]. set (de := gorem (ds + diff) n) in *.
      assert (Hde : (ds + diff < n /\ de = ds + diff) \/ (n <= ds + diff /\ de = ds + diff - n)).
      { unfold de. destruct (Z.lt_ge_cases (ds + diff) n); [left; rewrite gorem_small|right; rewrite gorem_wrap]; lia. }
      destruct (Z.eqb_spec ds de) as [Ed|Nd].
      * (* to zero *)
        replace l' with 0 by lia. set (r' := mkR _ _ _).
        destruct (RInv_intro r' 0 []) as [HI' Hk]; [left; split; reflexivity|reflexivity|].
        exists r'. rewrite Hk. unfold lastn. now rewrite Nat.sub_0_r, skipn_all.
      * destruct (Z.eqb_spec l' 0) as [El|Nl]; [lia|].
        set (c := skipn (Z.to_nat diff) (view r)) in *.
        assert (Hzc : zlen c = l') by (unfold c, zlen in *; rewrite skipn_length; lia).
        assert (Hc : (if ds <? de then r_copy rg [(de, n); (0, ds)] else r_copy rg [(de, ds)]) = Ok c).
        { rewrite <- (firstn_app_exact c (repeat None (Z.to_nat diff)) (Z.to_nat l')), <- Hvrg by (unfold zlen in Hzc; lia).
          destruct (Z.ltb_spec ds de); [rewrite (r_copy_wrap rg n) by lia|rewrite r_copy_flat by lia]; do 3 f_equal; lia. }
        rewrite Hc. cbn [bind]. rewrite Hzc, Z.sub_diag, app_nil_r, gorem_self by lia. set (r' := mkR _ _ _).
        destruct (RInv_intro r' (h - Z.to_nat diff) (lastn (Z.to_nat l') (r_kept r))) as [HI' Hk].
        -- right. cbn [r' r_ring r_next]. lia.
        -- unfold view at 1. cbn [r' r_ring r_next]. rewrite rotate_0. unfold c. rewrite Hv. apply holes_skipn.
           unfold diff, zlen in *. lia.
        -- exists r'. replace (somes c) with (r_kept r') by (unfold r_kept; cbn [r' r_ring r_next]; now rewrite rotate_0).
           auto.
Qed.

Lemma r_resize_refines r l : RInv r ->
  exists r' m, r_resize r l = Ok (r', m) /\ RInv r' /\ sp_resize (r_spec r) l = (r_spec r', m).
Proof.
  intros HI. destruct (r_resize_spec r l HI) as (r' & -> & HI' & Hz & Hk & Hw).
  do 2 eexists. split; [reflexivity|]. split; [exact HI'|].
  unfold sp_resize. cbn [r_spec sp_cap sp_kept sp_win]. rewrite <- Hk, <- Hw, <- Hz.
  destruct (_ =? _) eqn:E; [|reflexivity]. apply Z.eqb_eq in E. unfold r_spec. rewrite <- E, Hk, lastn_all, Hw; [reflexivity|].
  pose proof (kept_le_cap r HI). unfold zlen in *. lia.
Qed.

Lemma r_step_refines r o : RInv r ->
  exists r' b, r_step r o = Ok (r', b) /\ RInv r' /\ sp_step WFixed (r_spec r) o = (r_spec r', b).
Proof.
  intros HI. destruct o as [sid e|sid e|l|d|lo hi m| |]; simpl;
    try (do 2 eexists; split; [reflexivity|split; [exact HI|reflexivity]]).
  - destruct (r_add_refines r sid e HI) as (r' & a & -> & HI' & ->). simpl. eauto.
  - destruct (r_resize_refines r l HI) as (r' & m & -> & HI' & ->). simpl. eauto.
Qed.

Lemma r_spec_new l w : r_spec (r_new l w) = sp_new l w.
Proof.
  unfold r_spec, r_new, sp_new, r_kept. simpl. rewrite rotate_0, somes_none, zlen_repeat.
  f_equal. lia.
Qed.

Definition r_exec (r : rstate) (ops : list op) : res rstate :=
  fold_left (fun acc o => r <- acc ;; '(r', _) <- r_step r o ;; Ok r') ops (Ok r).

Lemma r_exec_inv ops : forall r, RInv r -> exists r', r_exec r ops = Ok r' /\ RInv r'.
Proof.
  unfold r_exec. induction ops as [|o t IH]; intros r HI; simpl; [eauto|].
  destruct (r_step_refines r o HI) as (r' & b & -> & HI' & _). simpl. auto.
Qed.

Lemma r_add_evicts_oldest r sid e r' :
  RInv r -> r_add r sid e = Ok (r', AddStored) ->
  r_kept r' = lastn (Z.to_nat (zlen (r_ring r))) (r_kept r ++ [(sid, e)]) /\ zlen (r_ring r') = zlen (r_ring r).
Proof.
  intros HI H. destruct (r_add_refines r sid e HI) as (r2 & a & H2 & _ & Hs).
  rewrite H in H2. injection H2 as <- <-.
  unfold sp_add in Hs. destruct (sp_validate WFixed (r_spec r) sid e); try discriminate.
  destruct (sp_mid_dup _ _); [discriminate|]. unfold r_spec in Hs. simpl in Hs.
  injection Hs as Hc Hw Hk. split; [now rewrite <- Hk|now rewrite <- Hc].
Qed.

Ltac Zify.zify_post_hook ::= Z.div_mod_to_equations.

Lemma too_old_fixed_ideal w ne e :
  int64 w -> int64 (e_ts ne) -> int64 (e_ts e) -> e_ts e < e_ts ne ->
  too_old WFixed w ne e = too_old WIdeal w ne e.
Proof.
  unfold int64, minInt64, maxInt64. intros Hw Hn He Hlt. simpl.
  destruct (Z.leb_spec w 0) as [H0|H0]; simpl.
  - symmetry. apply Z.leb_le. lia.
  - assert (E1 : u64 w = w) by (unfold u64, two64; apply Z.mod_small; lia).
    assert (E2 : u64 (sub64 (e_ts ne) (e_ts e)) = e_ts ne - e_ts e).
    { unfold u64, sub64, wrap64, two64. lia. }
    rewrite E1, E2. apply Bool.eq_iff_eq_true. rewrite !Z.leb_le. lia.
Qed.

Lemma ooo_rule_fixed_ideal w ne e :
  int64 w -> int64 (e_ts ne) -> int64 (e_ts e) -> ooo_rule WFixed w ne e = ooo_rule WIdeal w ne e.
Proof.
  intros Hw Hn He. unfold ooo_rule. destruct (Z.ltb_spec (e_ts e) (e_ts ne)) as [H|H]; [|reflexivity].
  now rewrite too_old_fixed_ideal.
Qed.

Lemma validate_fixed_ideal w newest e :
  int64 w -> int64 (e_ts e) -> (forall ne, newest = Some ne -> int64 (e_ts ne)) ->
  validate_against WFixed w newest e = validate_against WIdeal w newest e.
Proof.
  intros Hw He Hn. unfold validate_against. destruct (lab_too_long 0 (e_lens e)); [reflexivity|].
  destruct newest as [ne|]; [|reflexivity]. now rewrite ooo_rule_fixed_ideal by auto.
Qed.

(* the code before the fix disagreed with the documented rule on int64 inputs *)
Lemma window_wrap_old_refuted : exists w ne e,
  int64 w /\ int64 (e_ts ne) /\ int64 (e_ts e) /\
  validate_against WOld w (Some ne) e = VOOO /\ validate_against WIdeal w (Some ne) e = VOk.
Proof.
  exists 10, (mkEx 1 [(8, 1)] 7 (Some 1) (minInt64 + 5) true), (mkEx 1 [(8, 1)] 7 (Some 1) (minInt64 + 2) true).
  repeat split; vm_compute; congruence.
Qed.

(* [ins_ts], [insert_by_key] and [insert_z] are one function at three keys: [insf] is any function
   with that defining equation. *)
Section InsertionSort.
  Context {A B : Type} (key : A -> Z) (insf : A -> list A -> list A) (g : B -> A).
  Hypothesis insf_eq : forall y l, insf y l =
    match l with [] => [y] | x :: t => if key y <? key x then y :: l else x :: insf y t end.

  Lemma ins_perm y l : Permutation (insf y l) (y :: l).
  Proof.
    induction l as [|x t IH]; rewrite insf_eq; [reflexivity|].
    destruct (key y <? key x); [reflexivity|]. rewrite IH. apply perm_swap.
  Qed.

  Lemma ins_sorted y l : StronglySorted (fun a b => key a <= key b) l ->
    StronglySorted (fun a b => key a <= key b) (insf y l).
  Proof.
    induction 1 as [|x t Hs IH Hx]; rewrite insf_eq; [repeat constructor|].
    destruct (Z.ltb_spec (key y) (key x)) as [H|H].
    - constructor; [now constructor|]. constructor; [lia|].
      eapply Forall_impl; [|exact Hx]. simpl; intros; lia.
    - constructor; [exact IH|]. rewrite ins_perm. constructor; [lia|exact Hx].
  Qed.

  Lemma isort_perm l : forall acc,
    Permutation (fold_left (fun acc b => insf (g b) acc) l acc) (acc ++ map g l).
  Proof.
    induction l as [|x t IH]; intros acc; simpl; [now rewrite app_nil_r|].
    rewrite IH, ins_perm. apply Permutation_middle.
  Qed.

  Lemma isort_sorted l : forall acc, StronglySorted (fun a b => key a <= key b) acc ->
    StronglySorted (fun a b => key a <= key b) (fold_left (fun acc b => insf (g b) acc) l acc).
  Proof. induction l; intros acc H; simpl; auto using ins_sorted. Qed.
End InsertionSort.

Lemma ins_ts_eq y l : ins_ts y l =
  match l with [] => [y] | x :: t => if e_ts y <? e_ts x then y :: l else x :: ins_ts y t end.
Proof. now destruct l. Qed.

Lemma insert_z_eq k l : insert_z k l =
  match l with [] => [k] | x :: t => if k <? x then k :: l else x :: insert_z k t end.
Proof. now destruct l. Qed.

Lemma insert_by_key_eq {A} (p : Z * A) l : insert_by_key (fst p) (snd p) l =
  match l with [] => [p] | x :: t => if fst p <? fst x then p :: l else x :: insert_by_key (fst p) (snd p) t end.
Proof. destruct p, l as [|[] ?]; reflexivity. Qed.

Lemma sort_ts_perm l : Permutation (sort_ts l) l.
Proof. rewrite <- (map_id l) at 2. exact (isort_perm e_ts ins_ts (fun y => y) ins_ts_eq l []). Qed.

Definition sorted (l : list exemplar) : Prop := StronglySorted (fun a b => e_ts a <= e_ts b) l.

Lemma sort_ts_sorted l : sorted (sort_ts l).
Proof. exact (isort_sorted e_ts ins_ts (fun y => y) ins_ts_eq l [] (SSorted_nil _)). Qed.

Lemma in_series_list sid kept e : In e (series_list sid kept) <-> In (sid, e) kept.
Proof.
  unfold series_list, of_series. rewrite sort_ts_perm, in_map_iff. split.
  - intros ([s x] & <- & H). apply filter_In in H. destruct H as [H E]. apply Z.eqb_eq in E. simpl in *. now subst.
  - intros H. exists (sid, e). split; [reflexivity|]. apply filter_In. split; [auto|apply Z.eqb_refl].
Qed.

Lemma in_dedup_sorted x l : In x (dedup_sorted l) <-> In x l.
Proof.
  induction l as [|a t IH]; [simpl; tauto|].
  destruct t as [|b t']; [simpl; tauto|].
  change (dedup_sorted (a :: b :: t')) with (if a =? b then dedup_sorted (b :: t') else a :: dedup_sorted (b :: t')).
  destruct (Z.eqb_spec a b) as [->|N].
  - rewrite IH. simpl. tauto.
  - simpl In at 1. rewrite IH. simpl. tauto.
Qed.

Lemma in_series_ids sid kept : In sid (series_ids kept) <-> exists e, In (sid, e) kept.
Proof.
  unfold series_ids. rewrite in_dedup_sorted, (isort_perm (fun k => k) insert_z fst insert_z_eq). cbn [app].
  rewrite in_map_iff. split.
  - intros ([s e] & <- & H). exists e. exact H.
  - intros [e H]. exists (sid, e). auto.
Qed.

Lemma perm_filter {A} (f : A -> bool) a b : Permutation a b -> Permutation (filter f a) (filter f b).
Proof.
  induction 1; simpl.
  - reflexivity.
  - destruct (f x); [apply perm_skip|]; assumption.
  - destruct (f x), (f y); try reflexivity. apply perm_swap.
  - etransitivity; eassumption.
Qed.

(* what Select returns for one series: nothing, or the series with its retained exemplars in range *)
Definition sel1 (kept : list (Z * exemplar)) (lo hi : Z) (m : list Z) (sid : Z) : list (Z * list exemplar) :=
  if existsb (Z.eqb sid) m then
    match filter (in_range lo hi) (series_list sid kept) with [] => [] | l => [(sid, l)] end
  else [].

Lemma sp_select_sel1 s lo hi m :
  sp_select s lo hi m = flat_map (sel1 (sp_kept s) lo hi m) (series_ids (sp_kept s)).
Proof. reflexivity. Qed.

Lemma in_sel1 kept lo hi m sid x : In x (sel1 kept lo hi m sid) <->
  In sid m /\ snd x <> [] /\ x = (sid, filter (in_range lo hi) (series_list sid kept)).
Proof.
  unfold sel1. rewrite <- (existsb_eqb_In Z.eqb Z.eqb_eq sid m).
  destruct (existsb (Z.eqb sid) m); [|split; [intros []|intros [H _]; discriminate]].
  destruct (filter (in_range lo hi) (series_list sid kept)) as [|e l]; simpl.
  - split; [intros []|intros (_ & H & ->); now destruct H].
  - split; [intros [<-|[]]; now repeat split|intros (_ & _ & ->); now left].
Qed.

Lemma sel1_shape kept lo hi m k : sel1 kept lo hi m k = [] \/ exists v, sel1 kept lo hi m k = [(k, v)].
Proof. unfold sel1. destruct (existsb _ m); [|now left]. destruct (filter _ _); [now left|right; eauto]. Qed.

(* Select is sound: every returned group belongs to a matching series, is non-empty, sorted by
   timestamp, and is exactly (with multiplicity) the series' retained exemplars in range *)
Lemma sp_select_sound s lo hi m sid l :
  In (sid, l) (sp_select s lo hi m) ->
  In sid m /\ l <> [] /\ sorted l /\
  Permutation l (filter (in_range lo hi) (of_series sid (sp_kept s))).
Proof.
  rewrite sp_select_sel1, in_flat_map. intros (sid' & _ & H). apply in_sel1 in H.
  destruct H as (Hm & Hne & [= -> ->]). split; [exact Hm|]. split; [exact Hne|]. split.
  - apply StronglySorted_filter, sort_ts_sorted.
  - unfold series_list. apply perm_filter, sort_ts_perm.
Qed.

(* ... and complete: every retained exemplar of a matching series within the range is returned *)
Lemma sp_select_complete s lo hi m sid e :
  In (sid, e) (sp_kept s) -> In sid m -> in_range lo hi e = true ->
  exists l, In (sid, l) (sp_select s lo hi m) /\ In e l.
Proof.
  intros Hk Hm Hr.
  assert (He : In e (filter (in_range lo hi) (series_list sid (sp_kept s)))).
  { apply filter_In. split; [now apply in_series_list|exact Hr]. }
  eexists. split; [|exact He]. rewrite sp_select_sel1, in_flat_map. exists sid.
  split; [apply in_series_ids; eauto|]. apply in_sel1. split; [exact Hm|]. split; [|reflexivity].
  intros E. simpl in E. now rewrite E in He.
Qed.

(* a series that Select returns has a retained exemplar *)
Lemma sel1_kept kept lo hi m k x : In x (sel1 kept lo hi m k) -> fst x = k /\ exists e, In (k, e) kept.
Proof.
  intros H. apply in_sel1 in H. destruct H as (_ & Hne & ->). split; [reflexivity|]. simpl in Hne.
  destruct (filter _ _) as [|e l] eqn:E; [contradiction|]. exists e. apply in_series_list.
  assert (H : In e (filter (in_range lo hi) (series_list k kept))) by (rewrite E; now left).
  apply filter_In in H. tauto.
Qed.

Definition op_int64 (o : op) : Prop :=
  match o with
  | OAdd _ e | OValidate _ e => int64 (e_ts e)
  | OSetWin d => int64 d
  | _ => True
  end.
Definition SpInt (s : spec) : Prop := int64 (sp_win s) /\ Forall (fun p => int64 (e_ts (snd p))) (sp_kept s).

Lemma last_map_some {A} (l : list A) x : last (map Some l) None = Some x -> In x l.
Proof.
  destruct l as [|a t] using rev_ind; simpl; [discriminate|].
  rewrite map_app. simpl. rewrite last_last. intros [= ->]. apply in_or_app. right. now left.
Qed.

Lemma Forall_skipn {A} (P : A -> Prop) n l : Forall P l -> Forall P (skipn n l).
Proof. intros H. rewrite <- (firstn_skipn n l) in H. apply Forall_app in H. tauto. Qed.

Lemma sp_validate_fixed_ideal s sid e : SpInt s -> int64 (e_ts e) ->
  sp_validate WFixed s sid e = sp_validate WIdeal s sid e.
Proof.
  intros [Hw Hk] He. unfold sp_validate. destruct (sp_cap s =? 0); [reflexivity|].
  apply validate_fixed_ideal; auto. intros ne Hne. apply last_map_some in Hne.
  apply in_series_list in Hne. rewrite Forall_forall in Hk. apply (Hk (sid, ne) Hne).
Qed.

Lemma sp_step_fixed_ideal s o : SpInt s -> op_int64 o ->
  sp_step WFixed s o = sp_step WIdeal s o /\ SpInt (fst (sp_step WIdeal s o)).
Proof.
  intros HI Ho. pose proof HI as [Hw Hk]. destruct o as [sid e|sid e|l|d|lo hi m| |]; simpl in *; auto.
  - unfold sp_add. rewrite sp_validate_fixed_ideal by auto. split; [reflexivity|].
    destruct (sp_validate WIdeal s sid e); simpl; auto.
    destruct (sp_mid_dup _ _); simpl; auto. split; [exact Hw|]. simpl.
    apply Forall_skipn, Forall_app. split; [exact Hk|]. constructor; [exact Ho|constructor].
  - rewrite sp_validate_fixed_ideal by auto. auto.
  - split; [reflexivity|]. unfold sp_resize. destruct (_ =? _); simpl; auto.
    split; [exact Hw|]. simpl. now apply Forall_skipn.
  - split; [reflexivity|]. split; simpl; auto.
Qed.

Lemma SpInt_new l w : int64 w -> SpInt (sp_new l w).
Proof. intros H. split; simpl; [|constructor]. unfold int64, minInt64, maxInt64 in *. lia. Qed.

Definition SpCap (s : spec) : Prop := 0 <= sp_cap s /\ zlen (sp_kept s) <= sp_cap s.

Lemma zlen_lastn {A} (l : list A) n : 0 <= n -> zlen (lastn (Z.to_nat n) l) <= n.
Proof. intros H. unfold zlen. rewrite lastn_length. lia. Qed.

Lemma sp_step_cap k s o : SpCap s -> SpCap (fst (sp_step k s o)).
Proof.
  intros [H0 H1]. destruct o as [sid e|sid e|l|d|lo hi m| |]; simpl; try (split; assumption).
  - unfold sp_add. destruct (sp_validate k s sid e); simpl; try (split; assumption).
    destruct (sp_mid_dup _ _); simpl; try (split; assumption).
    split; simpl; [exact H0|]. now apply zlen_lastn.
  - unfold sp_resize. destruct (_ =? _); simpl; try (split; assumption).
    split; simpl; [lia|]. apply zlen_lastn. lia.
Qed.

Lemma sp_exec_cap k ops : forall s, SpCap s -> SpCap (sp_exec k s ops).
Proof. unfold sp_exec. induction ops; intros s H; simpl; auto using sp_step_cap. Qed.

Lemma SpCap_new l w : SpCap (sp_new l w).
Proof. split; simpl; [lia|]. unfold zlen. simpl. lia. Qed.

(* the exemplars stored (not rejected, not dropped as duplicates) by a history, in order *)
Definition stored_of (k : wrule) (s : spec) (o : op) : list (Z * exemplar) :=
  match o with
  | OAdd sid e => match snd (sp_add k s sid e) with AddStored => [(sid, e)] | _ => [] end
  | _ => []
  end.
Fixpoint sp_log (k : wrule) (s : spec) (ops : list op) : list (Z * exemplar) :=
  match ops with
  | [] => []
  | o :: t => stored_of k s o ++ sp_log k (fst (sp_step k s o)) t
  end.
Definition no_resize (o : op) : Prop := match o with OResize _ => False | _ => True end.

Lemma lastn_lastn_app {A} n (a b : list A) : lastn n (lastn n a ++ b) = lastn n (a ++ b).
Proof.
  destruct (Nat.le_gt_cases (length a) n) as [H|H]; [now rewrite (lastn_all a)|].
  unfold lastn at 2. rewrite <- (firstn_skipn (length a - n) a) at 3.
  set (a1 := firstn _ a). set (a2 := skipn _ a).
  assert (H1 : length a1 = (length a - n)%nat) by (unfold a1; rewrite firstn_length; lia).
  assert (H2 : length a2 = n) by (unfold a2; rewrite skipn_length; lia).
  unfold lastn. rewrite <- app_assoc, (skipn_app _ a1), (skipn_all2 a1), !app_length by (rewrite !app_length; lia).
  simpl. f_equal. lia.
Qed.

Lemma sp_step_kept k s o : no_resize o ->
  sp_cap (fst (sp_step k s o)) = sp_cap s /\
  sp_kept (fst (sp_step k s o)) =
    match stored_of k s o with [] => sp_kept s | st => lastn (Z.to_nat (sp_cap s)) (sp_kept s ++ st) end.
Proof.
  destruct o as [sid e|sid e|l|d|lo hi m| |]; simpl; intros H; try contradiction; auto.
  unfold sp_add. destruct (sp_validate k s sid e); simpl; auto.
  destruct (sp_mid_dup _ _); simpl; auto.
Qed.

Lemma sp_retains_newest k ops : forall s, Forall no_resize ops -> zlen (sp_kept s) <= sp_cap s ->
  sp_cap (sp_exec k s ops) = sp_cap s /\
  sp_kept (sp_exec k s ops) = lastn (Z.to_nat (sp_cap s)) (sp_kept s ++ sp_log k s ops).
Proof.
  unfold sp_exec. induction ops as [|o t IH]; intros s Hn Hc; simpl.
  - split; [reflexivity|]. rewrite app_nil_r. rewrite lastn_all; [reflexivity|]. unfold zlen in Hc. lia.
  - inversion Hn as [|? ? Hn1 Hn2]; subst.
    destruct (sp_step_kept k s o Hn1) as [Ec Ek].
    assert (Hc' : zlen (sp_kept (fst (sp_step k s o))) <= sp_cap (fst (sp_step k s o))).
    { rewrite Ec, Ek. destruct (stored_of k s o); [exact Hc|]. apply zlen_lastn.
      pose proof (zlen_nonneg (sp_kept s)). lia. }
    destruct (IH _ Hn2 Hc') as [E1 E2]. rewrite E1, E2, Ec, Ek. split; [reflexivity|].
    destruct (stored_of k s o) eqn:Es.
    + reflexivity.
    + rewrite lastn_lastn_app. now rewrite <- app_assoc.
Qed.

(* non-vacuity: a history with out-of-order insertion, eviction, duplicates, shrink and grow *)
Definition ex1 (ts v : Z) : exemplar := mkEx 1 [(8, 1)] 7 (Some v) ts true.
Definition demo_ops : list op :=
  [OAdd 0 (ex1 100 1); OAdd 0 (ex1 110 1); OAdd 0 (ex1 120 1); OAdd 0 (ex1 105 1); OAdd 0 (ex1 105 2);
   OAdd 1 (ex1 90 1); OAdd 0 (ex1 20 1); OResize 2; OAdd 1 (ex1 95 1); OResize 4; OIter;
   OSelect 0 200 [0; 1]].
Lemma demo_nonvacuous :
  Forall op_int64 demo_ops /\
  r_run (r_new 3 50) demo_ops =
    [BErr VOk; BErr VOk; BErr VOk; BErr VOk; BErr VOk; BErr VOk; BErr VOOO; BInt 2; BErr VOk; BInt 2;
     BIter [(1, ex1 90 1); (1, ex1 95 1)]; BSel [(1, [ex1 90 1; ex1 95 1])]] /\
  run (new_state 3 50) demo_ops = r_run (r_new 3 50) demo_ops.
Proof.
  split; [|split; vm_compute; reflexivity].
  apply Forall_forall. intros o Ho. simpl in Ho.
  repeat (destruct Ho as [<-|Ho]; [simpl; unfold int64, minInt64, maxInt64; simpl; try lia; exact I|]).
  contradiction.
Qed.

Definition abs_slot (s : slot) : option (Z * exemplar) :=
  match s_ref s with Some sid => Some (sid, s_ex s) | None => None end.

Lemma abs_ring_ring st : r_ring (abs_ring st) = map abs_slot (ring st).
Proof. reflexivity. Qed.

Lemma ex_eqb_eq a b : ex_eqb a b = true -> a = b.
Proof.
  unfold ex_eqb. rewrite !andb_true_iff. intros [[[[[H1 H2] H3] H4] H5] H6].
  destruct a as [l1 n1 h1 v1 t1 b1], b as [l2 n2 h2 v2 t2 b2]; simpl in *.
  apply Z.eqb_eq in H1, H3, H5. apply Bool.eqb_prop in H6. subst.
  assert (v1 = v2) by (destruct v1, v2; simpl in H4; try discriminate; [apply Z.eqb_eq in H4; now subst|reflexivity]).
  subst. f_equal. clear -H2. revert n2 H2. induction n1 as [|[x y] t IH]; intros [|[x' y'] t'] H; simpl in H; try discriminate; auto.
  rewrite !andb_true_iff in H. destruct H as [[Hx Hy] Ht]. apply Z.eqb_eq in Hx, Hy. subst. f_equal. auto.
Qed.

Lemma list_eqb_eq {A} (f : A -> A -> bool) : (forall a b, f a b = true -> a = b) ->
  forall a b, list_eqb f a b = true -> a = b.
Proof.
  intros Hf. induction a as [|x a IH]; intros [|y b] H; simpl in H; try discriminate; auto.
  apply andb_true_iff in H. destruct H as [H1 H2]. f_equal; auto.
Qed.

Lemma ix_get_in ix k v : ix_get ix k = Some v -> In (k, v) ix.
Proof.
  induction ix as [|[k' v'] t IH]; simpl; [discriminate|].
  destruct (Z.eqb_spec k' k) as [->|N]; [intros [= ->]; now left|intros H; right; auto].
Qed.

Lemma nodupb_NoDup l : nodupb l = true -> NoDup l.
Proof. apply (SortedList.nodupb_spec Z.eqb Z.eqb_eq). Qed.

Lemma chain_from_spec fuel r : forall i ps, chain_from fuel r i = Some ps ->
  (ps = [] \/ exists t, ps = i :: t) /\ forall p, In p ps -> getz r p = Ok (slot_at r p).
Proof.
  induction fuel as [|f IH]; intros i ps H; simpl in H; [discriminate|].
  destruct (i =? noEx); [injection H as <-; split; [now left|intros ? []]|].
  destruct (getz r i) as [s| | |] eqn:Eg; try discriminate.
  destruct (chain_from f r (s_next s)) as [t|] eqn:Ec; [|discriminate]. injection H as <-.
  split; [right; eauto|]. intros p [<-|Hp]; [unfold slot_at; now rewrite Eg|].
  apply (proj2 (IH _ _ Ec)), Hp.
Qed.

Lemma chain_ok_spec st kept sid o n : chain_ok st kept (sid, (o, n)) = true ->
  exists ps L0, chain_from (S (length (ring st))) (ring st) o = Some (o :: ps) /\
    getz (ring st) o = Ok (slot_at (ring st) o) /\ getz (ring st) n = Ok (slot_at (ring st) n) /\
    map (fun p => s_ex (slot_at (ring st) p)) (o :: ps) = series_list sid kept /\
    series_list sid kept = L0 ++ [s_ex (slot_at (ring st) n)].
Proof.
  unfold chain_ok. destruct (chain_from _ _ o) as [ps|] eqn:Ec; [|discriminate].
  rewrite !andb_true_iff. intros [[[[Hne Hlast] _] _] Hlist].
  apply Z.eqb_eq in Hlast. apply (list_eqb_eq ex_eqb ex_eqb_eq) in Hlist.
  destruct (chain_from_spec _ _ _ _ Ec) as [[->|[t ->]] Hin]; [discriminate|].
  destruct (exists_last (l := o :: t)) as (q & z & Eq); [discriminate|].
  rewrite Eq, last_last in Hlast. subst z.
  exists t, (map (fun p => s_ex (slot_at (ring st) p)) q). split; [reflexivity|].
  split; [apply Hin; now left|]. split; [apply Hin; rewrite Eq; apply in_or_app; right; now left|].
  split; [exact Hlist|]. now rewrite <- Hlist, Eq, map_app.
Qed.

Lemma wfb_spec st : wfb st = true ->
  ((zlen (ring st) = 0 /\ nexti st = 0) \/ 0 <= nexti st < zlen (ring st)) /\
  NoDup (map fst (index st)) /\
  forallb (chain_ok st (r_kept (abs_ring st))) (index st) = true /\
  (forall sid e, In (sid, e) (r_kept (abs_ring st)) -> exists on, ix_get (index st) sid = Some on).
Proof.
  unfold wfb. rewrite !andb_true_iff. intros [[[[[Hrange _] Hnd] Hchains] Hkept] _].
  split; [|split; [now apply nodupb_NoDup|split; [exact Hchains|]]].
  - apply orb_true_iff in Hrange. destruct Hrange as [H|H]; apply andb_true_iff in H; destruct H as [H1 H2].
    + left. apply Z.eqb_eq in H1, H2. auto.
    + right. apply Z.leb_le in H1. apply Z.ltb_lt in H2. lia.
  - intros sid e Hin. rewrite forallb_forall in Hkept. specialize (Hkept _ Hin). simpl in Hkept.
    destruct (ix_get (index st) sid); [eauto|discriminate].
Qed.

Lemma iter_loop_correct r ix : forall k idx, 0 <= idx < zlen r -> (k <= length r)%nat ->
  iter_loop r ix idx k = Ok (somes (firstn k (rotate (Z.to_nat idx) (map abs_slot r)))).
Proof.
  induction k as [|k IH]; intros idx Hi Hk; [reflexivity|].
  cbn [iter_loop]. rewrite IH by (try apply gorem_range; lia).
  destruct (ring_at r idx Hi) as (a & s & b & -> & <-). rewrite getz_at. cbn [bind].
  rewrite !rotate_map, rotate_next, rotate_app, app_assoc, map_app, firstn_app.
  replace (k - length (map abs_slot (b ++ a)))%nat with 0%nat
    by (rewrite map_length, !app_length in *; simpl in Hk; lia).
  cbn [firstn]. rewrite app_nil_r. cbn [app map firstn somes].
  change (abs_slot s) with (match s_ref s with Some sid => Some (sid, s_ex s) | None => None end).
  destruct (s_ref s); reflexivity.
Qed.

(* IterateExemplars returns the retained exemplars in ingestion order *)
Lemma iterate_correct st : wfb st = true -> iterate st = Ok (r_kept (abs_ring st)).
Proof.
  intros Hwf. destruct (wfb_spec st Hwf) as ([[H0 Hn]|H] & _); unfold iterate, r_kept.
  - destruct (ring st) eqn:E; [|unfold zlen in H0; simpl in H0; lia].
    unfold abs_ring. rewrite E, Hn. reflexivity.
  - rewrite iter_loop_correct by (auto; lia). simpl.
    rewrite firstn_all2 by (rewrite rotate_length, map_length; lia). reflexivity.
Qed.

(* ValidateExemplar in a well-formed state decides by the ring-level rule *)
Lemma validate_op_correct st sid e : wfb st = true ->
  validate_op st sid e = Ok (r_validate (abs_ring st) sid e).
Proof.
  intros Hwf. destruct (wfb_spec st Hwf) as (_ & _ & Hchains & Hkept).
  unfold validate_op, validate, r_validate. rewrite abs_ring_ring, zlen_map.
  destruct (zlen (ring st) =? 0); [reflexivity|].
  change (r_win (abs_ring st)) with (window st). set (kept := r_kept (abs_ring st)) in *.
  destruct (ix_get (index st) sid) as [[o n]|] eqn:Eg.
  - apply ix_get_in in Eg. rewrite forallb_forall in Hchains.
    destruct (chain_ok_spec _ _ _ _ _ (Hchains _ Eg)) as (ps & L0 & _ & _ & Hgn & _ & EL).
    unfold validate_against. destruct (lab_too_long 0 (e_lens e)); [reflexivity|].
    rewrite Hgn, EL, map_app. cbn [map]. now rewrite last_last.
  - destruct (series_list sid kept) as [|x t] eqn:El; [reflexivity|].
    destruct (Hkept sid x) as [on Hon]; [apply in_series_list; rewrite El; now left|congruence].
Qed.

Definition keylt {A} (a b : Z * A) : Prop := fst a < fst b.

Lemma sorted_key_ext {A} (l1 l2 : list (Z * A)) :
  StronglySorted keylt l1 -> StronglySorted keylt l2 -> (forall x, In x l1 <-> In x l2) -> l1 = l2.
Proof.
  intros H1. revert l2. induction H1 as [|a t1 Hs1 IH Ha]; intros l2 H2 Hin; destruct H2 as [|b t2 Hs2 Hb].
  - reflexivity.
  - destruct (proj2 (Hin b)). now left.
  - destruct (proj1 (Hin a)). now left.
  - rewrite Forall_forall in Ha, Hb. unfold keylt in *.
    (* each head is below every element of the other tail *)
    assert (a = b).
    { destruct (proj1 (Hin a) (or_introl eq_refl)) as [E|Hin2]; [auto|].
      destruct (proj2 (Hin b) (or_introl eq_refl)) as [E|Hin1]; [auto|].
      specialize (Ha _ Hin1). specialize (Hb _ Hin2). lia. }
    subst b. f_equal. apply IH; [exact Hs2|]. intros x. split; intros Hx.
    + destruct (proj1 (Hin x) (or_intror Hx)) as [<-|H]; [specialize (Ha _ Hx); lia|exact H].
    + destruct (proj2 (Hin x) (or_intror Hx)) as [<-|H]; [specialize (Hb _ Hx); lia|exact H].
Qed.

Definition keyle {A} (a b : Z * A) : Prop := fst a <= fst b.

Lemma sort_by_key_perm {A} (l : list (Z * A)) : Permutation (sort_by_key l) l.
Proof.
  rewrite <- (map_id l) at 2.
  exact (isort_perm fst (fun p => insert_by_key (fst p) (snd p)) (fun p => p) insert_by_key_eq l []).
Qed.

Lemma sort_by_key_spec {A} (l : list (Z * A)) :
  StronglySorted keyle (sort_by_key l) /\ (forall x, In x (sort_by_key l) <-> In x l).
Proof.
  split; [|intros x; now rewrite sort_by_key_perm].
  exact (isort_sorted fst (fun p => insert_by_key (fst p) (snd p)) (fun p => p) insert_by_key_eq l [] (SSorted_nil _)).
Qed.

Lemma keyle_nodup_strict {A} (l : list (Z * A)) :
  StronglySorted keyle l -> NoDup (map fst l) -> StronglySorted keylt l.
Proof.
  induction 1 as [|a t Hs IH Ha]; intros Hnd; [constructor|].
  simpl in Hnd. inversion Hnd as [|? ? Hni Hnd']; subst.
  constructor; [auto|]. rewrite Forall_forall in *. intros z Hz. specialize (Ha z Hz).
  unfold keyle, keylt in *. assert (fst a <> fst z); [|lia].
  intros E. apply Hni. rewrite E. now apply in_map.
Qed.

Lemma sort_by_key_strict {A} (l : list (Z * A)) : NoDup (map fst l) -> StronglySorted keylt (sort_by_key l).
Proof.
  intros Hnd. apply keyle_nodup_strict; [apply sort_by_key_spec|]. now rewrite sort_by_key_perm.
Qed.

Lemma dedup_sorted_strict l : StronglySorted Z.le l -> StronglySorted Z.lt (dedup_sorted l).
Proof.
  induction 1 as [|a t Hs IH Ha]; [constructor|].
  destruct t as [|b t']; [constructor; constructor|].
  change (dedup_sorted (a :: b :: t')) with (if a =? b then dedup_sorted (b :: t') else a :: dedup_sorted (b :: t')).
  destruct (Z.eqb_spec a b) as [->|N]; [exact IH|].
  constructor; [exact IH|]. rewrite Forall_forall in *. intros z Hz. apply (proj1 (in_dedup_sorted _ _)) in Hz.
  inversion Hs as [|? ? _ Hb]; subst. rewrite Forall_forall in Hb.
  destruct Hz as [<-|Hz]; [specialize (Ha b (or_introl eq_refl)); lia|].
  specialize (Hb z Hz). specialize (Ha b (or_introl eq_refl)). lia.
Qed.

Lemma series_ids_strict kept : StronglySorted Z.lt (series_ids kept).
Proof.
  apply dedup_sorted_strict.
  exact (isort_sorted (fun k => k) insert_z fst insert_z_eq kept [] (SSorted_nil _)).
Qed.

Lemma flat_map_key_strict {A} (g : Z -> list (Z * A)) ids :
  (forall k, g k = [] \/ exists v, g k = [(k, v)]) -> StronglySorted Z.lt ids ->
  StronglySorted keylt (flat_map g ids).
Proof.
  intros Hg. induction 1 as [|a t Hs IH Ha]; simpl; [constructor|].
  destruct (Hg a) as [->|[v ->]]; simpl; [exact IH|].
  constructor; [exact IH|]. rewrite Forall_forall in *. intros z Hz.
  apply in_flat_map in Hz. destruct Hz as (k & Hk & Hz). specialize (Ha k Hk).
  destruct (Hg k) as [E|[v' E]]; rewrite E in Hz; [contradiction|].
  destruct Hz as [<-|[]]. unfold keylt. simpl. lia.
Qed.

(* what the walk over a chain collects *)
Fixpoint walk_list (lo hi : Z) (l : list exemplar) : list exemplar :=
  match l with
  | [] => []
  | x :: t => if e_ts x <=? hi then (if lo <=? e_ts x then [x] else []) ++ walk_list lo hi t else []
  end.

(* on a sorted list the early exit of the walk loses nothing *)
Lemma walk_list_sorted lo hi l : sorted l -> walk_list lo hi l = filter (in_range lo hi) l.
Proof.
  unfold sorted. induction 1 as [|x t Hs IH Hx]; simpl; [reflexivity|].
  unfold in_range at 1. destruct (Z.leb_spec (e_ts x) hi) as [H|H].
  - rewrite IH. destruct (lo <=? e_ts x); reflexivity.
  - rewrite andb_false_r, filter_none; [reflexivity|].
    rewrite Forall_forall in Hx. intros y Hy. specialize (Hx y Hy). unfold in_range.
    destruct (Z.leb_spec (e_ts y) hi); [lia|apply andb_false_r].
Qed.

Lemma sel_walk_chain r lo hi : forall fuel p t s acc,
  chain_from fuel r p = Some (p :: t) -> getz r p = Ok s ->
  sel_walk fuel r lo hi s acc = Ok (acc ++ walk_list lo hi (map (fun q => s_ex (slot_at r q)) (p :: t))).
Proof.
  induction fuel as [|f IH]; intros p t s acc Hc Hg; [discriminate|].
  simpl in Hc. destruct (p =? noEx) eqn:Ep; [discriminate|]. rewrite Hg in Hc.
  destruct (chain_from f r (s_next s)) as [t'|] eqn:Ec; [|discriminate]. injection Hc as <-.
  assert (Es : slot_at r p = s) by (unfold slot_at; now rewrite Hg).
  cbn [sel_walk map walk_list]. rewrite Es.
  destruct (Z.leb_spec (e_ts (s_ex s)) hi) as [H|H]; [|now rewrite app_nil_r].
  destruct f as [|f']; [discriminate|].
  destruct (Z.eqb_spec (s_next s) noEx) as [En|Nn].
  - simpl in Ec. rewrite En in Ec. simpl in Ec. injection Ec as <-. simpl. rewrite app_nil_r.
    destruct (lo <=? e_ts (s_ex s)); [reflexivity|now rewrite app_nil_r].
  - pose proof Ec as Ec'. simpl in Ec'. destruct (s_next s =? noEx) eqn:E2; [apply Z.eqb_eq in E2; contradiction|].
    destruct (getz r (s_next s)) as [s'| | |] eqn:Eg'; try discriminate.
    destruct (chain_from f' r (s_next s')) as [t''|] eqn:Ec''; [|discriminate]. injection Ec' as <-.
    cbn [bind]. rewrite (IH (s_next s) t'' s' _ Ec Eg').
    destruct (lo <=? e_ts (s_ex s)); simpl; [rewrite <- app_assoc; reflexivity|reflexivity].
Qed.

Lemma sorted_app_last l x : sorted (l ++ [x]) -> forall y, In y (l ++ [x]) -> e_ts y <= e_ts x.
Proof.
  intros H y Hy. apply StronglySorted_app in H as (_ & _ & H).
  apply in_app_or in Hy as [Hy|[<-|[]]]; [apply H; [exact Hy|now left]|lia].
Qed.

Lemma sel1_nil kept lo hi m k : filter (in_range lo hi) (series_list k kept) = [] -> sel1 kept lo hi m k = [].
Proof. unfold sel1. intros ->. now destruct (existsb _ m). Qed.

Lemma sel_loop_correct st lo hi m ix : let kept := r_kept (abs_ring st) in
  forallb (chain_ok st kept) ix = true ->
  sel_loop st lo hi m ix = Ok (flat_map (fun e => sel1 kept lo hi m (fst e)) ix).
Proof.
  intros kept. induction ix as [|[sid [o n]] t IH]; intros Hc; [reflexivity|].
  cbn [forallb] in Hc. apply andb_true_iff in Hc. destruct Hc as [Hc Ht]. specialize (IH Ht).
  destruct (chain_ok_spec _ _ _ _ _ Hc) as (ps & L0 & Ec & Hgo & Hgn & Hlist & EL).
  assert (Hsorted : sorted (series_list sid kept)) by apply sort_ts_sorted.
  pose proof (walk_list_sorted lo hi _ Hsorted) as HF.
  cbn [sel_loop flat_map fst]. rewrite Hgo. cbn [bind].
  destruct (Z.ltb_spec hi (e_ts (s_ex (slot_at (ring st) o)))) as [H1|H1].
  - (* the oldest exemplar of the series is beyond hi *)
    cbn [bind]. rewrite IH, sel1_nil; [reflexivity|]. rewrite <- HF, <- Hlist. simpl.
    destruct (Z.leb_spec (e_ts (s_ex (slot_at (ring st) o))) hi); [lia|reflexivity].
  - rewrite Hgn. cbn [bind].
    destruct (Z.ltb_spec (e_ts (s_ex (slot_at (ring st) n))) lo) as [H2|H2].
    + (* the newest one is before lo *)
      rewrite IH, sel1_nil; [reflexivity|]. apply filter_none. intros x Hx.
      rewrite EL in Hx, Hsorted. pose proof (sorted_app_last _ _ Hsorted x Hx).
      unfold in_range. destruct (Z.leb_spec lo (e_ts x)); [lia|reflexivity].
    + unfold sel1 at 1. destruct (existsb (Z.eqb sid) m); cbn [negb]; [|now rewrite IH].
      rewrite (sel_walk_chain (ring st) lo hi _ o ps _ [] Ec Hgo). cbn [bind app]. rewrite IH. cbn [bind].
      rewrite <- HF, <- Hlist.
      destruct (walk_list lo hi (map (fun q => s_ex (slot_at (ring st) q)) (o :: ps))); reflexivity.
Qed.

(* Select in a well-formed state returns what the reference returns *)
Lemma select_correct st lo hi m : wfb st = true ->
  select st lo hi m = Ok (sp_select (r_spec (abs_ring st)) lo hi m).
Proof.
  intros Hwf. destruct (wfb_spec st Hwf) as (_ & Hnd & Hchains & Hkept).
  unfold select. destruct (Z.eqb_spec (zlen (ring st)) 0) as [E0|N0].
  - assert (ring st = []) by (destruct (ring st); [reflexivity|unfold zlen in E0; simpl in E0; lia]).
    unfold sp_select, r_spec, r_kept, abs_ring. simpl. rewrite H. simpl.
    unfold rotate. rewrite skipn_nil, firstn_nil. reflexivity.
  - rewrite (sel_loop_correct st lo hi m (index st) Hchains). cbn [bind]. f_equal.
    rewrite sp_select_sel1. cbn [r_spec sp_kept]. set (kept := r_kept (abs_ring st)) in *.
    set (X := flat_map (fun e : Z * (Z * Z) => sel1 kept lo hi m (fst e)) (index st)).
    assert (Hnd' : NoDup (map fst X)).
    { unfold X. clear -Hnd. induction (index st) as [|[k v] t IH]; simpl; [constructor|].
      simpl in Hnd. inversion Hnd as [|? ? Hni Hnd']; subst. rewrite map_app.
      destruct (sel1_shape kept lo hi m k) as [->|[v' ->]]; simpl; [auto|].
      constructor; [|auto]. intros Hin. apply Hni. apply in_map_iff in Hin.
      destruct Hin as (x & Ex & Hx). apply in_flat_map in Hx. destruct Hx as (entry & He & Hx).
      apply sel1_kept in Hx. destruct Hx as [Hx _]. rewrite <- Ex, Hx. now apply in_map. }
    apply sorted_key_ext; [now apply sort_by_key_strict| |].
    + apply flat_map_key_strict; [apply sel1_shape|apply series_ids_strict].
    + intros x. rewrite sort_by_key_perm. unfold X. rewrite !in_flat_map. split.
      * intros (entry & He & Hx). exists (fst entry). split; [|exact Hx].
        apply sel1_kept in Hx. destruct Hx as [_ [e Hx]]. apply in_series_ids. eauto.
      * intros (k & Hk & Hx). destruct (sel1_kept _ _ _ _ _ _ Hx) as [_ [e He]].
        destruct (Hkept _ _ He) as [v Eg]. apply ix_get_in in Eg. exists (k, v). split; [exact Eg|exact Hx].
Qed.

(* all three reads at once, as observations of [step] *)
Lemma reads_correct st o : wfb st = true ->
  match o with
  | OValidate _ _ | OSelect _ _ _ | OIter =>
      exists b, step st o = Ok (st, b) /\ r_step (abs_ring st) o = Ok (abs_ring st, b)
  | _ => True
  end.
Proof.
  intros Hwf. destruct o as [sid e|sid e|l|d|lo hi m| |]; try exact I; simpl.
  - rewrite validate_op_correct by exact Hwf. cbn [bind]. eauto.
  - rewrite select_correct by exact Hwf. cbn [bind]. eauto.
  - rewrite iterate_correct by exact Hwf. cbn [bind]. eauto.
Qed.

Lemma demo_wf : exists st, exec (new_state 3 50) (firstn 6 demo_ops) = Ok st /\ wfb st = true /\
  index st = [(0, (0, 2)); (1, (1, 1))] /\ nexti st = 2.
Proof. eexists. split; [vm_compute; reflexivity|]. vm_compute. auto. Qed.

Lemma r_head_commit_refines sid es : forall r, RInv r ->
  exists r', r_head_commit r sid es = Ok r' /\ RInv r' /\ sp_head_commit WFixed (r_spec r) sid es = r_spec r'.
Proof.
  induction es as [|e t IH]; intros r HI; simpl.
  - exists r. auto.
  - destruct (r_add_refines r sid e HI) as (r1 & a & -> & HI1 & Hs). cbn [bind].
    destruct (IH r1 HI1) as (r' & H1 & H2 & H3). exists r'. split; [exact H1|split; [exact H2|]].
    unfold sp_head_commit in *. simpl. rewrite Hs. exact H3.
Qed.

Lemma r_hstep_refines r h : RInv r ->
  exists r' b, r_hstep r h = Ok (r', b) /\ RInv r' /\ sp_hstep WFixed (r_spec r) h = (r_spec r', b).
Proof.
  intros HI. destruct h as [o|v2 sid es]; simpl.
  - apply r_step_refines, HI.
  - change (r_head_validate r sid) with (sp_head_validate WFixed (r_spec r) sid).
    destruct (sp_head_validate WFixed (r_spec r) sid _) as [p errs].
    destruct (r_head_commit_refines sid p r HI) as (r' & -> & HI' & ->). cbn [bind]. eauto.
Qed.

Lemma r_hrun_refines ops : forall r, RInv r -> r_hrun r ops = sp_hrun WFixed (r_spec r) ops.
Proof.
  induction ops as [|o t IH]; intros r HI; simpl; [reflexivity|].
  destruct (r_hstep_refines r o HI) as (r' & b & -> & HI' & ->). now rewrite IH.
Qed.

Definition hop_int64 (h : hop) : Prop :=
  match h with
  | HPlain o => op_int64 o
  | HHead _ _ es => Forall (fun x => int64 (e_ts (fst x))) es
  end.

Lemma sp_head_validate_fixed_ideal s sid es : SpInt s -> Forall (fun e => int64 (e_ts e)) es ->
  sp_head_validate WFixed s sid es = sp_head_validate WIdeal s sid es /\
  Forall (fun e => int64 (e_ts e)) (fst (sp_head_validate WIdeal s sid es)).
Proof.
  intros HI. induction 1 as [|e t He Ht IH]; simpl; [split; [reflexivity|constructor]|].
  destruct IH as [E F]. unfold sp_head_validate in *. simpl. rewrite E.
  rewrite sp_validate_fixed_ideal by auto. split; [reflexivity|].
  unfold head_sort. destruct (sp_validate WIdeal s sid e); simpl; auto.
Qed.

Lemma sp_head_commit_fixed_ideal sid es : forall s, SpInt s -> Forall (fun e => int64 (e_ts e)) es ->
  sp_head_commit WFixed s sid es = sp_head_commit WIdeal s sid es /\ SpInt (sp_head_commit WIdeal s sid es).
Proof.
  unfold sp_head_commit. induction es as [|e t IH]; intros s HI Hf; simpl; [auto|].
  inversion Hf as [|? ? He Ht]; subst.
  destruct (sp_step_fixed_ideal s (OAdd sid e) HI He) as [E HI']. simpl in E, HI'.
  assert (E1 : fst (sp_add WFixed s sid e) = fst (sp_add WIdeal s sid e)).
  { destruct (sp_add WFixed s sid e), (sp_add WIdeal s sid e). simpl in *. congruence. }
  rewrite E1. apply IH; [|exact Ht].
  destruct (sp_add WIdeal s sid e). exact HI'.
Qed.

Lemma sp_hstep_fixed_ideal s h : SpInt s -> hop_int64 h ->
  sp_hstep WFixed s h = sp_hstep WIdeal s h /\ SpInt (fst (sp_hstep WIdeal s h)).
Proof.
  intros HI Hh. destruct h as [o|v2 sid es]; simpl in *.
  - apply sp_step_fixed_ideal; auto.
  - assert (Hf : Forall (fun e => int64 (e_ts e)) (map (fun x => without_empty (fst x) (snd x)) es)).
    { rewrite Forall_map. simpl. exact Hh. }
    destruct (sp_head_validate_fixed_ideal s sid _ HI Hf) as [E F]. rewrite E.
    destruct (sp_head_validate WIdeal s sid _) as [p errs]. simpl in F.
    destruct (sp_head_commit_fixed_ideal sid p s HI F) as [E2 HI2]. rewrite E2. auto.
Qed.

Lemma sp_hrun_fixed_ideal ops : forall s, SpInt s -> Forall hop_int64 ops ->
  sp_hrun WFixed s ops = sp_hrun WIdeal s ops.
Proof.
  induction ops as [|o t IH]; intros s HI Ho; simpl; [reflexivity|].
  inversion Ho as [|? ? Ho1 Ho2]; subst.
  destruct (sp_hstep_fixed_ideal s o HI Ho1) as [E HI']. rewrite E.
  destruct (sp_hstep WIdeal s o) as [s' b]. simpl in HI'. now rewrite IH.
Qed.

(* Every int64 history on the ring, entry points of the head appender included, returns what the
   reference returns under the documented window rule. *)
Lemma r_hrun_ideal l w ops : int64 w -> Forall hop_int64 ops ->
  r_hrun (r_new l w) ops = sp_hrun WIdeal (sp_new l w) ops.
Proof.
  intros Hw Ho. rewrite r_hrun_refines by apply RInv_new. rewrite r_spec_new.
  apply sp_hrun_fixed_ideal; [now apply SpInt_new|exact Ho].
Qed.

(* histories without the head appender's entry points are a special case *)
Lemma r_hrun_plain ops : forall r, r_hrun r (map HPlain ops) = r_run r ops.
Proof. induction ops as [|o t IH]; intros r; simpl; [reflexivity|]. destruct (r_step r o) as [[r' b]| | |]; now rewrite ?IH. Qed.

Lemma sp_hrun_plain k ops : forall s, sp_hrun k s (map HPlain ops) = sp_run k s ops.
Proof. induction ops as [|o t IH]; intros s; simpl; [reflexivity|]. destruct (sp_step k s o). now rewrite IH. Qed.

(* an empty-valued label neither counts towards the length limit nor distinguishes a duplicate *)
Lemma without_empty_props e o :
  e_ts (without_empty e o) = e_ts e /\ e_val (without_empty e o) = e_val e /\
  Forall (fun p => snd p <> 0) (e_lens (without_empty e o)).
Proof.
  repeat split. simpl. apply Forall_forall. intros p Hp. apply filter_In in Hp.
  destruct Hp as [_ Hp]. apply negb_true_iff in Hp. now apply Z.eqb_neq in Hp.
Qed.
