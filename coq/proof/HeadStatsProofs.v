(* proof/HeadStatsProofs.v — the counters of model/HeadStats.v equal the recount over the model
   head after every history whose oracles are well formed ([Inv], [step_inv], [inv_recount]); the
   active-appender gauge is right after every history whatever the oracles say ([step_active]). *)
From Coq Require Import List ZArith Bool Lia.
From Verif Require Import model.HeadStats.
Import ListNotations.
Open Scope Z_scope.

Local Arguments Z.add : simpl never.
Local Arguments Z.sub : simpl never.

(* Five of the six counters are sums over the series of the head: [reading g] is the counter,
   [weight g s] what the series s contributes to it.  Everything below is stated once for all g. *)
Inductive gauge := GSeries | GStale | GHist | GBuckets | GChunks.

Definition reading (g : gauge) (c : ctrs) : Z :=
  match g with
  | GSeries => c_series c | GStale => c_stale c | GHist => c_hist c
  | GBuckets => c_buckets c | GChunks => c_chunks c
  end.

Definition weight (g : gauge) (s : mser) : Z :=
  match g with
  | GSeries => 1
  | GStale => b2z (lv_stale (s_last s))
  | GHist => b2z (lv_hist (s_last s))
  | GBuckets => lv_nb (s_last s)
  | GChunks => ser_chunks s
  end.

Lemma ctrs_ext : forall c c', (forall g, reading g c = reading g c') -> c_active c = c_active c' -> c = c'.
Proof.
  intros [a1 a2 a3 a4 a5 a6] [b1 b2 b3 b4 b5 b6] H A.
  pose proof (H GSeries). pose proof (H GStale). pose proof (H GHist).
  pose proof (H GBuckets). pose proof (H GChunks). simpl in *. congruence.
Qed.

Lemma reading_add_series : forall g d c, reading g (add_series d c) = reading g c + match g with GSeries => d | _ => 0 end.
Proof. destruct g; simpl; lia. Qed.
Lemma reading_add_stale : forall g d c, reading g (add_stale d c) = reading g c + match g with GStale => d | _ => 0 end.
Proof. destruct g; simpl; lia. Qed.
Lemma reading_add_hist : forall g d c, reading g (add_hist d c) = reading g c + match g with GHist => d | _ => 0 end.
Proof. destruct g; simpl; lia. Qed.
Lemma reading_add_buckets : forall g d c, reading g (add_buckets d c) = reading g c + match g with GBuckets => d | _ => 0 end.
Proof. destruct g; simpl; lia. Qed.
Lemma reading_add_chunks : forall g d c, reading g (add_chunks d c) = reading g c + match g with GChunks => d | _ => 0 end.
Proof. destruct g; simpl; lia. Qed.
(* onChunkCreated: chunks.Inc() when the append cut a chunk *)
Lemma reading_chunk_created : forall g (b : bool) c,
  reading g (if b then add_chunks 1 c else c) = reading g c + match g with GChunks => b2z b | _ => 0 end.
Proof. intros g [] c; [apply reading_add_chunks | destruct g; simpl; lia]. Qed.
Lemma reading_add_active : forall g d c, reading g (add_active d c) = reading g c.
Proof. destruct g; reflexivity. Qed.

(* updateStaleSeriesMetricOnAppend and updateNativeHistogramMetricsOnAppend add the difference of
   the new and the old state of the series *)
Lemma upd_stale_add : forall was is_ c, upd_stale was is_ c = add_stale (b2z is_ - b2z was) c.
Proof. intros was is_ []. destruct was, is_; unfold upd_stale, add_stale, b2z; simpl; f_equal; lia. Qed.

Lemma upd_hist_add : forall was is_ oldb newb c,
  upd_hist was is_ oldb newb c = add_buckets (newb - oldb) (add_hist (b2z is_ - b2z was) c).
Proof.
  intros was is_ oldb newb c. unfold upd_hist.
  replace (if negb was && is_ then add_hist 1 c else if was && negb is_ then add_hist (-1) c else c)
    with (add_hist (b2z is_ - b2z was) c)
    by (destruct c, was, is_; unfold add_hist, b2z; simpl; f_equal; lia).
  destruct (Z.eqb_spec newb oldb) as [->|_]; [|reflexivity].
  unfold add_buckets, add_hist; simpl. f_equal; lia.
Qed.

(* the three-way update of commitHistograms / commitFloats: a float sample after a histogram
   sample takes the series out of the histogram counters *)
Lemma hist_update : forall (hist : bool) was nb c,
  (if hist then upd_hist (lv_hist was) true (lv_nb was) nb c
   else if lv_hist was then upd_hist true false (lv_nb was) 0 c else c)
  = add_buckets ((if hist then nb else 0) - lv_nb was) (add_hist (b2z hist - b2z (lv_hist was)) c).
Proof.
  intros hist was nb c. destruct hist; [apply upd_hist_add|].
  destruct was as [b | b n]; simpl; [|apply upd_hist_add].
  destruct c. unfold add_buckets, add_hist. simpl. f_equal; lia.
Qed.

(* the share of counter g in the report of a pass that removes series (the argument of sub_removed) *)
Definition removed (g : gauge) (x : Z * Z * Z * Z * Z) : Z :=
  let '(rm, del, st, hi, bu) := x in
  match g with GSeries => del | GStale => st | GHist => hi | GBuckets => bu | GChunks => rm end.

Lemma reading_sub_removed : forall g c x, reading g (sub_removed c x) = reading g c - removed g x.
Proof. intros g c [[[[rm del] st] hi] bu]. destruct g; reflexivity. Qed.

Lemma sub_removed_active : forall c x, c_active (sub_removed c x) = c_active c.
Proof. intros c [[[[rm del] st] hi] bu]. reflexivity. Qed.

(* what ooo_ok says of a series: the count of out-of-order m-mapped chunks is not negative, and
   without s.ooo there are no out-of-order chunks at all *)
Definition ok (s : mser) : Prop :=
  0 <= s_omm s /\ (s_ostruct s = true \/ (s_omm s = 0 /\ s_ohead s = None)).

Lemma ooo_ok_iff : forall s, ooo_ok s = true <-> ok s.
Proof.
  intros s. unfold ok, ooo_ok. rewrite andb_true_iff, orb_true_iff, andb_true_iff, Z.leb_le, Z.eqb_eq.
  destruct (s_ohead s); simpl; intuition congruence.
Qed.

(* the five summed counters are right for the series l, and every series of l is ok *)
Definition counted (c : ctrs) (l : list mser) : Prop :=
  (forall g, reading g c = sumf (weight g) l) /\ Forall ok l.

Definition Inv (st : state) : Prop :=
  counted (st_c st) (st_series st) /\ c_active (st_c st) = zlen (st_open st).

Lemma zlen_app : forall A (a b : list A), zlen (a ++ b) = zlen a + zlen b.
Proof. intros. unfold zlen. rewrite app_length. lia. Qed.
Lemma zlen_cons : forall A (x : A) l, zlen (x :: l) = 1 + zlen l.
Proof. intros. unfold zlen. simpl length. lia. Qed.
Lemma zlen_nil : forall A, zlen (@nil A) = 0.
Proof. reflexivity. Qed.
Lemma zlen_nonneg : forall A (l : list A), 0 <= zlen l.
Proof. intros. unfold zlen. lia. Qed.
Lemma zlen_rev : forall A (l : list A), zlen (rev l) = zlen l.
Proof. intros. unfold zlen. rewrite rev_length. reflexivity. Qed.

Lemma sumf_app : forall f a b, sumf f (a ++ b) = sumf f a + sumf f b.
Proof. induction a; simpl; intros; [lia | rewrite IHa; lia]. Qed.

Lemma sumf_ext : forall f g l, (forall s, In s l -> f (g s) = f s) -> sumf f (map g l) = sumf f l.
Proof. induction l; simpl; intros; [reflexivity | rewrite H, IHl by auto; reflexivity]. Qed.

Lemma sumf_series : forall l, sumf (weight GSeries) l = zlen l.
Proof. induction l; simpl; [reflexivity | rewrite IHl, zlen_cons; reflexivity]. Qed.

Lemma inv_recount : forall st, Inv st -> st_c st = recount st.
Proof.
  intros st [[H _] A]. apply ctrs_ext; [|exact A].
  intros g. rewrite H. destruct g; try reflexivity. apply sumf_series.
Qed.

Lemma inv0 : Inv state0.
Proof. repeat split; [intros []; reflexivity | constructor]. Qed.

Lemma find_in : forall r l s, find_ser r l = Some s -> In s l /\ s_ref s = r.
Proof.
  induction l as [|a l IH]; simpl; intros s H; [discriminate|].
  destruct (s_ref a =? r) eqn:E.
  - inversion H; subst. split; [left; reflexivity | apply Z.eqb_eq; assumption].
  - destruct (IH _ H). split; [right; assumption | assumption].
Qed.

Lemma find_ok : forall r l s, Forall ok l -> find_ser r l = Some s -> ok s.
Proof. intros r l s H E. rewrite Forall_forall in H. apply H. eapply find_in; eassumption. Qed.

Lemma upd_sum : forall f r g l,
  sumf f (upd_ser r g l) = sumf f l + match find_ser r l with Some s => f (g s) - f s | None => 0 end.
Proof.
  induction l as [|a l IH]; simpl; [lia|].
  destruct (s_ref a =? r); simpl; [lia | rewrite IH; lia].
Qed.

Lemma upd_len : forall r g l, zlen (upd_ser r g l) = zlen l.
Proof. intros. rewrite <- !sumf_series, upd_sum. destruct (find_ser r l); simpl; lia. Qed.

Lemma find_none_upd : forall r g l, find_ser r l = None -> upd_ser r g l = l.
Proof.
  induction l as [|a l IH]; simpl; intros H; [reflexivity|].
  destruct (s_ref a =? r); [discriminate | rewrite IH by assumption; reflexivity].
Qed.

Lemma upd_forall : forall (P : mser -> Prop) r g l, (forall s, P s -> P (g s)) -> Forall P l -> Forall P (upd_ser r g l).
Proof.
  induction l as [|a l IH]; simpl; intros Hg H; [constructor|].
  inversion H; subst. destruct (s_ref a =? r); constructor; auto.
Qed.

Lemma find_upd_ref : forall r r' g l, (forall s, s_ref s = r -> s_ref (g s) = r) ->
  is_some (find_ser r' (upd_ser r g l)) = is_some (find_ser r' l).
Proof.
  induction l as [|a l IH]; simpl; intros Hg; [reflexivity|].
  destruct (Z.eqb_spec (s_ref a) r) as [E|E]; simpl.
  - rewrite (Hg a E), <- E. destruct (s_ref a =? r'); reflexivity.
  - destruct (s_ref a =? r'); [reflexivity | apply IH; assumption].
Qed.

Lemma find_upd_some : forall r r' g l, (forall s, s_ref (g s) = s_ref s) ->
  is_some (find_ser r' (upd_ser r g l)) = is_some (find_ser r' l).
Proof. intros r r' g l Hg. apply find_upd_ref. intros s <-. apply Hg. Qed.

(* an update of one series that no counter sees *)
Definition neutral (f : mser -> mser) : Prop :=
  forall s, ok s -> ok (f s) /\ forall g, weight g (f s) = weight g s.

Lemma counted_upd : forall c r f l, neutral f -> counted c l -> counted c (upd_ser r f l).
Proof.
  intros c r f l Hf [HG HO]. split.
  - intros g. rewrite upd_sum, HG. destruct (find_ser r l) as [s|] eqn:E; [|lia].
    rewrite (proj2 (Hf s (find_ok _ _ _ HO E))). lia.
  - apply upd_forall; [intros s Hs; apply Hf, Hs | exact HO].
Qed.

Lemma counted_map : forall c f l, neutral f -> counted c l -> counted c (map f l).
Proof.
  intros c f l Hf [HG HO]. split.
  - intros g. rewrite sumf_ext; [apply HG|]. rewrite Forall_forall in HO. intros s Hs. apply Hf, HO, Hs.
  - apply Forall_map. eapply Forall_impl; [|exact HO]. intros s Hs. apply Hf, Hs.
Qed.

Lemma counted_add_active : forall c d l, counted c l -> counted (add_active d c) l.
Proof. intros c d l [HG HO]. split; [intros g; rewrite reading_add_active; apply HG | exact HO]. Qed.

Lemma counted_new_ser : forall c l r, counted c l -> counted (add_series 1 c) (l ++ [new_ser r]).
Proof.
  intros c l r [HG HO]. split.
  - intros g. rewrite reading_add_series, sumf_app, HG. simpl sumf.
    replace (weight g (new_ser r)) with (match g with GSeries => 1 | _ => 0 end) by (destruct g; reflexivity). lia.
  - apply Forall_app; split; [assumption | constructor; [|constructor]].
    split; [apply Z.le_refl | right; split; reflexivity].
Qed.

Lemma neutral_set_pend : forall p, neutral (set_pend p).
Proof. intros p s Hs. split; [exact Hs | intros []; reflexivity]. Qed.

Lemma counted_clear_pend : forall c rs l, counted c l -> counted c (clear_pend rs l).
Proof. induction rs as [|r rs IH]; simpl; intros l H; [exact H | apply IH, counted_upd; [apply neutral_set_pend | exact H]]. Qed.

(* Head.mmapHeadChunks moves chunks from one list to the other *)
Lemma neutral_mmap1 : neutral mmap1.
Proof.
  intros s Hs. unfold mmap1. destruct (s_hc s) as [|n [|o r]] eqn:E; try (split; [exact Hs | reflexivity]).
  split; [exact Hs|]. intros []; try reflexivity.
  simpl. unfold ser_chunks; simpl. rewrite E, !zlen_app, zlen_rev, !zlen_cons, zlen_nil. lia.
Qed.

(* an out-of-order head chunk flushed into one m-mapped chunk *)
Lemma neutral_flush1 : neutral (flush1 1).
Proof.
  intros s Hs. unfold flush1. destruct (s_ohead s) eqn:E; [|split; [exact Hs | reflexivity]].
  destruct (s_ostruct s); [|split; [exact Hs | reflexivity]].
  split; [split; [simpl; destruct Hs; lia | left; reflexivity]|].
  intros []; try reflexivity. simpl. unfold ser_chunks; simpl. rewrite E. simpl. lia.
Qed.

Lemma counted_flush_list : forall c fl l,
  forallb (fun p : Z * Z => snd p =? 1) fl = true -> counted c l -> counted c (flush_list fl l).
Proof.
  induction fl as [|[r k] fl IH]; simpl; intros l Hwf H; [exact H|].
  apply andb_true_iff in Hwf. destruct Hwf as [Hk Hfl]. simpl in Hk. apply Z.eqb_eq in Hk. subst k.
  apply IH; [exact Hfl | apply counted_upd; [exact neutral_flush1 | exact H]].
Qed.

(* appendPreprocessor cuts a chunk when there is none, otherwise when the oracle says so *)
Lemma push_or_bump_len : forall cut t hc,
  let cut' := match hc with [] => true | _ => cut end in
  zlen (push_or_bump cut' t hc) = zlen hc + b2z cut'.
Proof.
  intros cut t [|h hc]; [reflexivity|].
  destruct cut; unfold push_or_bump; rewrite !zlen_cons; simpl; lia.
Qed.

Lemma commit_ser_active : forall cap c0 s x, c_active (snd (commit_ser cap c0 s x)) = c_active c0.
Proof.
  intros cap c0 s [r t hist stale nbi nba cut | r k dup]; simpl.
  - rewrite hist_update, upd_stale_add. destruct (match s_hc s with [] => true | _ => cut end); reflexivity.
  - destruct (match s_ohead s with Some n => n =? cap | None => true end); reflexivity.
Qed.

Lemma commit_ser_ref : forall cap c0 s x, s_ref (fst (commit_ser cap c0 s x)) = s_ref s.
Proof.
  intros cap c0 s [r t hist stale nbi nba cut | r k dup]; simpl; [reflexivity|].
  destruct (match s_ohead s with Some n => n =? cap | None => true end); reflexivity.
Qed.

(* one committed sample moves every counter by the difference of the series' weights *)
Lemma commit_ser_delta : forall cap c0 s x l,
  wf_landed l x = true -> ok s ->
  let '(s', c) := commit_ser cap c0 s x in
  (forall g, reading g c = reading g c0 - weight g s + weight g s') /\ ok s'.
Proof.
  intros cap c0 s x l Hwf Hok.
  unfold wf_landed in Hwf. apply andb_true_iff in Hwf. destruct Hwf as [_ Hwf].
  destruct x as [r0 t hist stale nbi nba cut | r0 k dup]; simpl.
  - rewrite hist_update, upd_stale_add. split; [|exact Hok].
    pose proof (push_or_bump_len cut t (s_hc s)) as L. cbv zeta in L.
    destruct hist; [apply Z.eqb_eq in Hwf; subst nba|];
      intros g; rewrite reading_chunk_created, reading_add_buckets, reading_add_hist, reading_add_stale;
      destruct g; simpl; unfold ser_chunks; simpl; rewrite ?L; lia.
  - (* out of order: the previous head chunk, if full, was m-mapped into k = 1 chunks *)
    apply Z.eqb_eq in Hwf. subst k.
    destruct Hok as [Hpos _].
    destruct (s_ohead s) as [n|] eqn:E; [destruct (n =? cap)|];
      (split; [|split; [simpl; lia | left; reflexivity]]);
      intros g; rewrite ?reading_add_chunks; destruct g; simpl; unfold ser_chunks; simpl; rewrite ?E; simpl; lia.
Qed.

Lemma counted_commit1 : forall cap st x,
  wf_landed (st_series st) x = true -> counted (st_c st) (st_series st) ->
  counted (st_c (commit1 cap st x)) (st_series (commit1 cap st x)).
Proof.
  intros cap st x Hwf [HG HO]. unfold commit1.
  destruct (find_ser (landed_ref x) (st_series st)) as [s|] eqn:E;
    [|unfold wf_landed in Hwf; rewrite E in Hwf; discriminate].
  pose proof (commit_ser_delta cap (st_c st) s x _ Hwf (find_ok _ _ _ HO E)) as D.
  destruct (commit_ser cap (st_c st) s x) as [s' c]. destruct D as [D Hok']. split; simpl.
  - intros g. rewrite upd_sum, E, D, HG. lia.
  - apply upd_forall; [intros; exact Hok' | exact HO].
Qed.

Lemma commit1_find : forall cap st x r,
  is_some (find_ser r (st_series (commit1 cap st x))) = is_some (find_ser r (st_series st)).
Proof.
  intros. unfold commit1.
  destruct (find_ser (landed_ref x) (st_series st)) as [s|] eqn:E.
  - pose proof (commit_ser_ref cap (st_c st) s x) as Hr.
    destruct (commit_ser cap (st_c st) s x) as [s' c]. simpl in *.
    apply find_upd_ref. intros _ _. rewrite Hr. eapply find_in; eassumption.
  - destruct (find_ser (landed_ref x) (st_orph st)) as [s|]; [|reflexivity].
    destruct (commit_ser cap (st_c st) s x). reflexivity.
Qed.

Lemma counted_commit_fold : forall cap l st,
  forallb (wf_landed (st_series st)) l = true -> counted (st_c st) (st_series st) ->
  counted (st_c (fold_left (commit1 cap) l st)) (st_series (fold_left (commit1 cap) l st)).
Proof.
  induction l as [|x l IH]; simpl; intros st Hwf H; [assumption|].
  apply andb_true_iff in Hwf. destruct Hwf as [Hx Hl].
  apply IH; [|apply counted_commit1; assumption].
  rewrite forallb_forall in *. intros y Hy. unfold wf_landed. rewrite commit1_find. apply (Hl y Hy).
Qed.

Lemma first_below_bound : forall mint hc i j, first_below mint hc i = Some j -> (i <= j < i + length hc)%nat.
Proof.
  induction hc as [|c r IH]; simpl; intros i j H; [discriminate|].
  destruct (c <? mint); [inversion H; lia|]. apply IH in H. lia.
Qed.

Lemma count_prefix_bound : forall mint mm, (count_prefix_below mint mm <= length mm)%nat.
Proof. induction mm as [|c r IH]; simpl; [lia | destruct (c <? mint); simpl; lia]. Qed.

(* the in-order half of truncateChunksBefore: what is left and what is reported as removed add up *)
Lemma truncate_inorder_len : forall mint mm hc,
  let '(mm', hc', rin) :=
    match first_below mint hc O with
    | Some i => ([], firstn i hc, Z.of_nat (length hc - i) + zlen mm)
    | None => let n := count_prefix_below mint mm in (skipn n mm, hc, Z.of_nat n)
    end in
  zlen mm' + zlen hc' = zlen mm + zlen hc - rin.
Proof.
  intros mint mm hc. destruct (first_below mint hc 0) as [i|] eqn:E.
  - apply first_below_bound in E. unfold zlen. rewrite firstn_length. simpl length. lia.
  - pose proof (count_prefix_bound mint mm). unfold zlen. rewrite skipn_length. lia.
Qed.

Lemma truncate_props : forall mint ooorm s, ok s ->
  let '(s', r) := truncate_chunks mint ooorm s in
  (forall g, weight g s' = weight g s - match g with GChunks => r | _ => 0 end) /\ ok s'.
Proof.
  intros mint ooorm s [Hpos Hoo]. unfold truncate_chunks.
  pose proof (truncate_inorder_len mint (s_mm s) (s_hc s)) as L.
  destruct (match first_below mint (s_hc s) 0 with Some i => _ | None => _ end) as [[mm' hc'] rin].
  split.
  - intros []; simpl; unfold ser_chunks; simpl; lia.
  - (* the out-of-order half: at most s_omm chunks go; s.ooo is dropped when nothing is left *)
    unfold ok. simpl. destruct (s_ostruct s); simpl.
    + destruct (Z.ltb_spec 0 (s_omm s)); simpl; [|split; [lia | auto]].
      destruct (Z.eqb_spec (s_omm s - Z.max 0 (Z.min ooorm (s_omm s))) 0); destruct (s_ohead s); simpl; (split; [lia | auto]).
    + destruct Hoo as [Hoo | [-> ->]]; [discriminate|]. simpl. split; [lia | auto].
Qed.

Lemma keeps_false_chunks : forall s, ok s -> keeps s = false -> weight GChunks s = 0.
Proof.
  intros s [Hpos Hoo] H. unfold keeps in H. simpl. unfold ser_chunks.
  destruct (s_mm s); [|discriminate]. destruct (s_hc s); [|discriminate]. simpl in H.
  destruct (s_pend s); [discriminate|]. simpl in H. rewrite zlen_nil.
  destruct (s_ostruct s); simpl in H.
  - apply orb_false_iff in H. destruct H as [H1 H2]. apply Z.ltb_ge in H1. destruct (s_ohead s); [discriminate|]. simpl. lia.
  - destruct Hoo as [Hoo | [-> ->]]; [discriminate|]. simpl. lia.
Qed.

(* A pass over the head that drops series (Head.gc, gcSeries) returns the survivors l2 of l and a
   report x of what went; the counters keep counting when the report is subtracted. *)
Definition swept (l l2 : list mser) (x : Z * Z * Z * Z * Z) : Prop :=
  Forall ok l2 /\ forall g, sumf (weight g) l2 = sumf (weight g) l - removed g x.

Lemma counted_removed : forall c l l2 x, counted c l -> swept l l2 x -> counted (sub_removed c x) l2.
Proof. intros c l l2 x [HG _] [H2 E]. split; [|exact H2]. intros g. rewrite reading_sub_removed, E, HG. reflexivity. Qed.

Lemma gc_list_inv : forall mint ooorm l, Forall ok l ->
  let '(l2, _, x) := gc_list mint ooorm l in swept l l2 x.
Proof.
  intros mint ooorm l Hok. induction Hok as [|s t Hs Ht IH]; simpl.
  - split; [constructor | intros []; reflexivity].
  - revert IH. destruct (gc_list mint ooorm t) as [[t' d'] [[[[rm' del'] st'] hi'] bu']]. intros [G W].
    pose proof (truncate_props mint (lookupz (s_ref s) ooorm) s Hs) as P.
    destruct (truncate_chunks mint (lookupz (s_ref s) ooorm) s) as [s' r]. destruct P as [P1 P3].
    destruct (keeps s') eqn:EK.
    + split; [constructor; assumption|]. intros g. simpl sumf. rewrite (W g), (P1 g).
      destruct g; simpl; lia.
    + (* a series that goes has no chunk left, and is reported with the weights it had *)
      pose proof (keeps_false_chunks _ P3 EK) as Z0.
      split; [assumption|]. intros g. simpl sumf. rewrite (W g). specialize (P1 g).
      destruct g; simpl in P1, Z0 |- *; lia.
Qed.

Lemma evict_list_inv : forall so refs maxt l, Forall ok l ->
  let '(l2, _, x) := evict_list so refs maxt l in swept l l2 x.
Proof.
  intros so refs maxt l Hok. induction Hok as [|s t Hs Ht IH]; simpl.
  - split; [constructor | intros []; reflexivity].
  - revert IH. destruct (evict_list so refs maxt t) as [[t' d'] [[[[rm' del'] st'] hi'] bu']]. intros [G W].
    destruct (evictable so refs maxt s) eqn:EV.
    + (* only series without out-of-order data are evicted, so rmChunks is all their chunks *)
      assert (Z0 : ser_chunks s = zlen (s_hc s) + zlen (s_mm s)).
      { unfold evictable in EV. destruct Hs as [_ [Hc | [Ho Hh]]].
        - rewrite Hc, andb_false_r in EV. discriminate.
        - unfold ser_chunks. rewrite Ho, Hh. simpl. lia. }
      split; [assumption|]. intros g. simpl sumf. rewrite (W g). destruct g; simpl; lia.
    + split; [constructor; assumption|]. intros g. simpl sumf. rewrite (W g). destruct g; simpl; lia.
Qed.

Lemma replay_ser_reading : forall g c s, s_snap s = 0 -> reading g (replay_ser c s) = reading g c + weight g s.
Proof.
  intros g c s Hs. unfold replay_ser. rewrite Hs.
  destruct (s_last s) as [b | b n] eqn:E; simpl;
    rewrite ?upd_hist_add, upd_stale_add, ?reading_add_buckets, ?reading_add_hist, reading_add_stale,
            reading_add_chunks, reading_add_series;
    destruct g; simpl; rewrite ?E; simpl; lia.
Qed.

Lemma replay_ser_active : forall c s, c_active (replay_ser c s) = c_active c.
Proof.
  intros c s. unfold replay_ser. rewrite upd_stale_add.
  destruct (lv_hist (s_last s)); [rewrite upd_hist_add|]; reflexivity.
Qed.

Lemma replay_fold : forall l c, forallb wf_ser l = true ->
  forall g, reading g (fold_left replay_ser l c) = reading g c + sumf (weight g) l.
Proof.
  induction l as [|s t IH]; simpl; intros c Hwf g; [lia|].
  apply andb_true_iff in Hwf. destruct Hwf as [Hs Ht]. rewrite (IH _ Ht).
  unfold wf_ser in Hs. apply andb_true_iff in Hs. destruct Hs as [Hsn _]. apply Z.eqb_eq in Hsn.
  rewrite replay_ser_reading by exact Hsn. lia.
Qed.

Lemma replay_active : forall l c, c_active (fold_left replay_ser l c) = c_active c.
Proof. induction l as [|s t IH]; simpl; intros c; [reflexivity|]. rewrite IH. apply replay_ser_active. Qed.

Lemma wf_sers_ok : forall l, forallb wf_ser l = true -> Forall ok l.
Proof.
  intros l H. rewrite forallb_forall in H. apply Forall_forall. intros s Hs. specialize (H s Hs).
  unfold wf_ser in H. apply andb_true_iff in H. apply ooo_ok_iff, H.
Qed.

Lemma remove1_len : forall a l, mem a l = true -> zlen (remove1 a l) = zlen l - 1.
Proof.
  unfold mem. induction l as [|x l IH]; simpl; intros H; [discriminate|].
  rewrite Z.eqb_sym in H. destruct (x =? a); simpl in H; rewrite !zlen_cons; [lia|].
  rewrite IH by assumption. lia.
Qed.

(* The active-appender gauge.  Nothing here needs an assumption on the oracles. *)
Lemma commit1_open : forall cap st x, st_open (commit1 cap st x) = st_open st /\ c_active (st_c (commit1 cap st x)) = c_active (st_c st).
Proof.
  intros. unfold commit1.
  destruct (find_ser (landed_ref x) (st_series st)) as [s|];
    [|destruct (find_ser (landed_ref x) (st_orph st)) as [s|]; [|auto]];
    pose proof (commit_ser_active cap (st_c st) s x) as A;
    destruct (commit_ser cap (st_c st) s x) as [s' c]; (split; [reflexivity | exact A]).
Qed.

Lemma commit_fold_open : forall cap l st,
  st_open (fold_left (commit1 cap) l st) = st_open st /\ c_active (st_c (fold_left (commit1 cap) l st)) = c_active (st_c st).
Proof.
  induction l as [|x l IH]; simpl; intros st; [auto|].
  destruct (IH (commit1 cap st x)) as [A B]. destruct (commit1_open cap st x) as [C D]. split; congruence.
Qed.

Theorem step_active : forall cap st o,
  c_active (st_c st) = zlen (st_open st) -> c_active (st_c (step cap st o)) = zlen (st_open (step cap st o)).
Proof.
  intros cap st o H. destruct o as [a | a created okr | a touched l | a touched | | ran mint flush ooorm | so refs maxt | | post extra bextra]; simpl.
  - rewrite zlen_cons. lia.
  - destruct created as [r|]; [destruct (find_ser r (st_series st))|]; destruct okr; simpl; assumption.
  - destruct (mem a (st_open st)) eqn:EM; [|assumption]. simpl.
    destruct (commit_fold_open cap l st) as [A B]. rewrite A, B, remove1_len by assumption. lia.
  - destruct (mem a (st_open st)) eqn:EM; [|assumption]. simpl. rewrite remove1_len by assumption. lia.
  - assumption.
  - destruct ran; [|assumption].
    destruct (gc_list mint ooorm (flush_list flush (st_series st))) as [[l2 d] x]. simpl. rewrite sub_removed_active. assumption.
  - destruct (evict_list so refs maxt (st_series st)) as [[l2 d] x]. simpl. rewrite sub_removed_active. assumption.
  - assumption.
  - rewrite replay_active. reflexivity.
Qed.

Theorem run_active : forall cap ops st,
  c_active (st_c st) = zlen (st_open st) ->
  c_active (st_c (fold_left (step cap) ops st)) = zlen (st_open (fold_left (step cap) ops st)).
Proof. induction ops as [|o r IH]; simpl; intros st H; [assumption | apply IH, step_active; assumption]. Qed.

Theorem step_inv : forall cap st o, wf_op st o = true -> Inv st -> Inv (step cap st o).
Proof.
  intros cap st o Hwf [HC HA]. split; [|apply step_active, HA].
  destruct o as [a | a created okr | a touched l | a touched | | ran mint flush ooorm | so refs maxt | | post extra bextra]; simpl in *.
  - apply counted_add_active, HC.
  - (* OAppend: possibly a new series, then pendingCommit set on one series *)
    destruct okr as [r|]; simpl; [apply counted_upd; [apply neutral_set_pend|]|];
      (destruct created as [r0|]; [destruct (find_ser r0 (st_series st))|]; simpl;
       [exact HC | apply counted_new_ser, HC | exact HC]).
  - destruct (mem a (st_open st)); [|assumption]. simpl.
    apply counted_clear_pend, counted_add_active, counted_commit_fold; assumption.
  - destruct (mem a (st_open st)); [|assumption]. simpl.
    apply counted_clear_pend, counted_add_active, HC.
  - apply counted_map; [exact neutral_mmap1 | exact HC].
  - pose proof (counted_flush_list _ flush _ Hwf HC) as HF.
    destruct ran; [|exact HF].
    pose proof (gc_list_inv mint ooorm _ (proj2 HF)) as S.
    destruct (gc_list mint ooorm (flush_list flush (st_series st))) as [[l2 d] x].
    exact (counted_removed _ _ _ _ HF S).
  - pose proof (evict_list_inv so refs maxt _ (proj2 HC)) as S.
    destruct (evict_list so refs maxt (st_series st)) as [[l2 d] x].
    exact (counted_removed _ _ _ _ HC S).
  - assumption.
  - apply andb_true_iff in Hwf. destruct Hwf as [Hwf Hb]. apply Z.eqb_eq in Hb. subst bextra.
    apply andb_true_iff in Hwf. destruct Hwf as [Hp He]. apply Z.eqb_eq in He. subst extra.
    split; [|exact (wf_sers_ok _ Hp)]. intros g.
    rewrite reading_add_buckets, reading_add_chunks, (replay_fold post ctrs0 Hp). destruct g; simpl; lia.
Qed.

Theorem run_inv : forall cap ops st, wf_run cap st ops = true -> Inv st -> Inv (fold_left (step cap) ops st).
Proof.
  induction ops as [|o r IH]; simpl; intros st Hwf HI; [assumption|].
  apply andb_true_iff in Hwf. destruct Hwf as [Ho Hr].
  apply IH; [assumption | apply step_inv; assumption].
Qed.

Theorem trace_inv : forall cap ops st, wf_run cap st ops = true -> Inv st -> Forall Inv (trace cap st ops).
Proof.
  induction ops as [|o r IH]; simpl; intros st Hwf HI; [constructor|].
  apply andb_true_iff in Hwf. destruct Hwf as [Ho Hr].
  pose proof (step_inv cap st o Ho HI) as H1. constructor; [assumption | apply IH; assumption].
Qed.
