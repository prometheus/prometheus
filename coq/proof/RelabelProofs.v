(* proof/RelabelProofs.v — proofs about model/Relabel.v (C38): labels.Builder is a map (Get after Set and
   Del, Range enumerates the non-empty bindings, Labels() is the canonical list with the same lookups);
   relabel and ProcessBuilder refine the documented semantics on canonical label sets; Builder.Del's
   in-place loop removes exactly the named entry. *)
From Coq Require Import List ZArith NArith Bool Lia Permutation Sorted.
From Verif Require Import lib.SortedList lib.LexOrder lib.LabelMerge model.Relabel.
Import ListNotations.

Lemma str_eqb_eq a b : str_eqb a b = true <-> a = b.
Proof. exact (eqb_list_eq N.eqb N.eqb_eq a b). Qed.
Lemma str_eqb_spec a b : reflect (a = b) (str_eqb a b).
Proof. apply iff_reflect. symmetry. apply str_eqb_eq. Qed.
Lemma str_eqb_refl a : str_eqb a a = true.
Proof. apply str_eqb_eq; reflexivity. Qed.
Lemma str_eqb_sym a b : str_eqb a b = str_eqb b a.
Proof. apply eq_true_iff_eq. rewrite !str_eqb_eq. split; auto. Qed.
Lemma str_eqb_neq a b : str_eqb a b = false <-> a <> b.
Proof. rewrite <- str_eqb_eq. destruct (str_eqb a b); split; congruence. Qed.

(* str_cmp and str_ltb are lex_cmp and lex_ltb over N.compare *)
Lemma str_cmp_eq a b : str_cmp a b = Eq <-> a = b.
Proof. exact (lex_cmp_eq N.compare N.compare_eq_iff a b). Qed.
Lemma str_ltb_trans a b c : str_ltb a b = true -> str_ltb b c = true -> str_ltb a c = true.
Proof. exact (lex_ltb_trans N.compare N.compare_eq_iff N.lt_trans a b c). Qed.
Lemma str_ltb_irrefl a : str_ltb a a = false.
Proof. exact (lex_ltb_irrefl N.compare N.compare_eq_iff a). Qed.
Lemma str_ltb_neq a b : str_ltb a b = true -> a <> b.
Proof. intros H ->. rewrite str_ltb_irrefl in H. discriminate. Qed.
Lemma str_ltb_asym a b : str_ltb a b = true -> str_ltb b a = false.
Proof. exact (lex_ltb_asym N.compare N.compare_antisym a b). Qed.
Lemma str_cmp_cases n m :
  (str_cmp n m = Lt /\ str_ltb n m = true) \/ (str_cmp n m = Eq /\ n = m) \/ (str_cmp n m = Gt /\ str_ltb m n = true).
Proof. exact (lex_cmp_cases N.compare N.compare_eq_iff N.compare_antisym n m). Qed.
Lemma str_ltb_total a b : str_ltb a b = false -> str_ltb b a = false -> a = b.
Proof. exact (lex_ltb_total N.compare N.compare_eq_iff N.compare_antisym a b). Qed.

Lemma name_is_true n l : name_is n l = true <-> lname l = n.
Proof. unfold name_is. apply str_eqb_eq. Qed.
Lemma name_is_spec n l : reflect (lname l = n) (name_is n l).
Proof. apply str_eqb_spec. Qed.
Lemma name_is_pair m n v : name_is m (n, v) = str_eqb m n.
Proof. apply str_eqb_sym. Qed.
Lemma name_is_refl n v : name_is n (n, v) = true.
Proof. unfold name_is. simpl. apply str_eqb_refl. Qed.
Lemma name_is_neq m n v : m <> n -> name_is m (n, v) = false.
Proof. intros H. unfold name_is. simpl. apply str_eqb_neq. congruence. Qed.

Lemma is_empty_true v : is_empty v = true <-> v = [].
Proof. destruct v; simpl; split; intros; auto; discriminate. Qed.

Lemma find_name_some n L l : find (name_is n) L = Some l -> lname l = n /\ In l L.
Proof. intros H. apply find_some in H as [H1 H2]. apply name_is_true in H2. auto. Qed.

Lemma find_name_none n L : find (name_is n) L = None <-> ~ In n (map lname L).
Proof.
  induction L as [|a L IH]; simpl; [tauto|].
  destruct (name_is_spec n a) as [E|E]; [split; [discriminate | intros H; exfalso; auto]|].
  rewrite IH. tauto.
Qed.

Lemma has_name_find n L : has_name n L = match find (name_is n) L with Some _ => true | None => false end.
Proof. unfold has_name. induction L as [|a L IH]; simpl; auto. destruct (name_is n a); simpl; auto. Qed.

Lemma mem_str_in n l : mem_str n l = true <-> In n l.
Proof. apply (existsb_eqb_In str_eqb str_eqb_eq). Qed.
Lemma mem_str_app n l1 l2 : mem_str n (l1 ++ l2) = mem_str n l1 || mem_str n l2.
Proof. unfold mem_str. apply existsb_app. Qed.
Lemma mem_str_cons m x t : mem_str m (x :: t) = str_eqb m x || mem_str m t.
Proof. reflexivity. Qed.

Lemma find_app {A} (p : A -> bool) l1 l2 :
  find p (l1 ++ l2) = match find p l1 with Some x => Some x | None => find p l2 end.
Proof. induction l1 as [|a t IH]; simpl; auto. destruct (p a); auto. Qed.

Lemma find_remove_add n add m :
  find (name_is m) (remove_add n add) = if str_eqb m n then None else find (name_is m) add.
Proof.
  unfold remove_add. induction add as [|a t IH]; simpl; [destruct (str_eqb m n); reflexivity|].
  destruct (name_is_spec n a) as [E|E]; simpl; rewrite IH.
  - destruct (str_eqb_spec m n) as [|N]; auto. destruct (name_is_spec m a); [congruence|reflexivity].
  - destruct (name_is_spec m a) as [E2|]; auto. destruct (str_eqb_spec m n); [congruence|reflexivity].
Qed.

Lemma find_set_add n v add m :
  find (name_is m) (set_add n v add) = if str_eqb m n then Some (n, v) else find (name_is m) add.
Proof.
  induction add as [|a t IH]; simpl; [rewrite name_is_pair; reflexivity|].
  destruct (name_is_spec n a) as [E|E]; simpl.
  - rewrite E, name_is_pair. destruct (str_eqb_spec m n) as [|N]; auto.
    destruct (name_is_spec m a); [congruence|reflexivity].
  - rewrite IH. destruct (name_is_spec m a) as [E2|]; auto. destruct (str_eqb_spec m n); [congruence|reflexivity].
Qed.

Lemma bget_bdel b n m : bget (bdel b n) m = if str_eqb m n then [] else bget b m.
Proof.
  unfold bget, bdel; simpl. rewrite find_remove_add, mem_str_app. simpl. rewrite orb_false_r.
  destruct (str_eqb m n); [rewrite orb_true_r|rewrite orb_false_r]; reflexivity.
Qed.

Lemma bget_bset b n v m : bget (bset b n v) m = if str_eqb m n then v else bget b m.
Proof.
  unfold bset. destruct (is_empty v) eqn:Ev.
  - rewrite bget_bdel. apply is_empty_true in Ev. subst. reflexivity.
  - unfold bget; simpl. rewrite find_set_add. destruct (str_eqb m n); reflexivity.
Qed.

Definition lb_all (n : str) (L : list label) : Prop := forall l, In l L -> str_ltb n (lname l) = true.

Lemma lget_cons a L m : lget (a :: L) m = if name_is m a then lvalue a else lget L m.
Proof. unfold lget. simpl. destruct (name_is m a); reflexivity. Qed.

Lemma lget_app e X m :
  lget (e ++ X) m = match find (name_is m) e with Some x => lvalue x | None => lget X m end.
Proof. unfold lget. rewrite find_app. destruct (find _ e); auto. Qed.

Lemma ssorted_cons a L : ssorted (a :: L) = true <-> lb_all (lname a) L /\ ssorted L = true.
Proof.
  revert a. induction L as [|b t IH]; intros a.
  - simpl. split; auto. intros _. split; auto. intros l [].
  - change (ssorted (a :: b :: t)) with (str_ltb (lname a) (lname b) && ssorted (b :: t)).
    rewrite andb_true_iff. split.
    + intros [H1 H2]. split; auto. intros l [<-|Hl]; auto.
      apply IH in H2 as [H2 _]. eapply str_ltb_trans; eauto.
    + intros [H1 H2]. split; auto. apply H1. left; reflexivity.
Qed.

Lemma ssorted_strongly L : ssorted L = true <-> StronglySorted (klt str_ltb) L.
Proof.
  induction L as [|a t IH]; [split; [constructor|reflexivity]|].
  rewrite ssorted_cons, IH. unfold lb_all. rewrite <- Forall_forall. split.
  - intros [H1 H2]. constructor; assumption.
  - intros H. apply StronglySorted_inv in H. tauto.
Qed.

Lemma lget_absent L m : ~ In m (map lname L) -> lget L m = [].
Proof. intros H. unfold lget. apply find_name_none in H. rewrite H. reflexivity. Qed.

Lemma lb_all_notin n m L : lb_all n L -> (m = n \/ str_ltb m n = true) -> ~ In m (map lname L).
Proof.
  intros H Hm Hin. apply in_map_iff in Hin as [l [H1 H2]]. apply H in H2. subst m.
  destruct Hm as [Hm|Hm].
  - rewrite Hm, str_ltb_irrefl in H2. discriminate.
  - apply str_ltb_asym in Hm. congruence.
Qed.

Lemma lget_below L n m : lb_all n L -> (m = n \/ str_ltb m n = true) -> lget L m = [].
Proof. intros H1 H2. apply lget_absent. eapply lb_all_notin; eauto. Qed.

Lemma lget_put T n v m : lget T n = [] ->
  lget (if is_empty v then T else (n, v) :: T) m = if str_eqb m n then v else lget T m.
Proof.
  intros H. destruct (is_empty v) eqn:Ev.
  - apply is_empty_true in Ev. subst v. destruct (str_eqb_spec m n) as [->|]; auto.
  - rewrite lget_cons, name_is_pair. reflexivity.
Qed.

Lemma lget_lset L n v m : ssorted L = true -> lget (lset L n v) m = if str_eqb m n then v else lget L m.
Proof.
  induction L as [|a t IH]; intros Hs; simpl.
  - apply (lget_put [] n v m). reflexivity.
  - apply ssorted_cons in Hs as [Hlb Hs].
    destruct (str_cmp_cases n (lname a)) as [[-> Hlt]|[[-> Heq]|[-> Hgt]]]; cbv iota.
    + apply (lget_put (a :: t)). apply (lget_below _ n); auto.
      intros l [<-|Hl]; auto. eapply str_ltb_trans; eauto.
    + rewrite (lget_put t) by exact (lget_below t _ n Hlb (or_introl Heq)). rewrite lget_cons.
      destruct (str_eqb_spec m n) as [|Hne]; auto.
      destruct (name_is_spec m a); [congruence|reflexivity].
    + rewrite !lget_cons, IH by assumption.
      destruct (name_is_spec m a) as [E|]; auto. destruct (str_eqb_spec m n) as [Emn|]; auto.
      rewrite E, Emn, str_ltb_irrefl in Hgt. discriminate.
Qed.

Lemma lset_in L n v l : In l (lset L n v) -> In l L \/ (l = (n, v) /\ is_empty v = false).
Proof.
  induction L as [|a t IH]; cbn [lset].
  - destruct (is_empty v); cbn [In]; intuition auto.
  - destruct (str_cmp n (lname a)), (is_empty v); cbn [In]; intuition auto.
Qed.

Lemma ssorted_lset L n v : ssorted L = true -> ssorted (lset L n v) = true.
Proof.
  induction L as [|a t IH]; intros Hs.
  - simpl. destruct (is_empty v); reflexivity.
  - pose proof Hs as Hs0. apply ssorted_cons in Hs as [Hlb Hs]. simpl.
    destruct (str_cmp_cases n (lname a)) as [[E Hlt]|[[E Heq]|[E Hgt]]]; rewrite E.
    + destruct (is_empty v); auto. apply ssorted_cons. split; auto.
      intros l [<-|Hl]; simpl; auto. eapply str_ltb_trans; eauto.
    + destruct (is_empty v); auto. apply ssorted_cons. split; auto. simpl. rewrite Heq. auto.
    + apply ssorted_cons. split; auto. intros l Hl. apply lset_in in Hl as [Hl|[-> _]]; auto.
Qed.

Lemma no_empty_forall L : no_empty L = true <-> forall l, In l L -> lvalue l <> [].
Proof.
  unfold no_empty. rewrite forallb_forall. split; intros H l Hl; specialize (H l Hl).
  - intros E. rewrite E in H. discriminate.
  - destruct (lvalue l); simpl; auto; try contradiction.
Qed.

Lemma no_empty_lset L n v : no_empty L = true -> no_empty (lset L n v) = true.
Proof.
  rewrite !no_empty_forall. intros H l Hl. apply lset_in in Hl as [Hl|[-> Ev]]; auto.
  simpl. intros ->. discriminate Ev.
Qed.

Lemma canonical_iff L : canonical L = true <-> ssorted L = true /\ no_empty L = true.
Proof. unfold canonical. apply andb_true_iff. Qed.

Lemma canonical_lset L n v : canonical L = true -> canonical (lset L n v) = true.
Proof. rewrite !canonical_iff. intros [H1 H2]. split; [apply ssorted_lset|apply no_empty_lset]; auto. Qed.

Definition binv (b : builder) : Prop :=
  ssorted (b_base b) = true /\ NoDup (map lname (b_add b)) /\
  (forall a, In a (b_add b) -> lvalue a <> []) /\
  (forall l, In l (b_base b) -> lvalue l = [] -> In (lname l) (b_del b)).

Lemma remove_add_names n add : forall x, In x (map lname (remove_add n add)) -> In x (map lname add).
Proof.
  intros x H. apply in_map_iff in H as [l [H1 H2]]. apply filter_In in H2 as [H2 _].
  apply in_map_iff. eauto.
Qed.
Lemma NoDup_remove_add n add : NoDup (map lname add) -> NoDup (map lname (remove_add n add)).
Proof.
  unfold remove_add. induction add as [|a t IH]; simpl; intros H; auto.
  inversion H; subst. destruct (name_is n a); simpl; auto. constructor; auto.
  intros Hin. apply H2. eapply remove_add_names; eauto.
Qed.
Lemma set_add_names n v add :
  map lname (set_add n v add) = if has_name n add then map lname add else map lname add ++ [n].
Proof.
  unfold has_name. induction add as [|a t IH]; simpl; auto.
  destruct (name_is n a) eqn:E; simpl; auto. rewrite IH. destruct (existsb (name_is n) t); reflexivity.
Qed.
Lemma has_name_in n add : has_name n add = true <-> In n (map lname add).
Proof.
  unfold has_name. rewrite existsb_exists, in_map_iff. split; intros [l [H1 H2]].
  - apply name_is_true in H2. eauto.
  - exists l. split; auto. apply name_is_true; auto.
Qed.
Lemma set_add_in n v add l : In l (set_add n v add) -> lvalue l = v \/ In l add.
Proof.
  induction add as [|a t IH]; simpl.
  - intros [<-|[]]. auto.
  - destruct (name_is n a); simpl; intros [<-|H]; auto. apply IH in H. tauto.
Qed.

Lemma binv_bdel b n : binv b -> binv (bdel b n).
Proof.
  intros (H1 & H2 & H3 & H4). unfold binv, bdel; simpl. repeat split; auto.
  - apply NoDup_remove_add; auto.
  - intros a Ha. apply filter_In in Ha as [Ha _]. auto.
  - intros l Hl Hv. apply in_or_app. left. auto.
Qed.
Lemma binv_bset b n v : binv b -> binv (bset b n v).
Proof.
  intros Hb. unfold bset. destruct (is_empty v) eqn:Ev; [apply binv_bdel; auto|].
  destruct Hb as (H1 & H2 & H3 & H4). unfold binv; simpl. repeat split; auto.
  - rewrite set_add_names. destruct (has_name n (b_add b)) eqn:E; auto.
    apply NoDup_app_disjoint; [exact H2|repeat constructor; intros []|].
    intros x Hx [<-|[]]. apply has_name_in in Hx. congruence.
  - intros a Ha. apply set_add_in in Ha as [Ha|Ha]; auto. rewrite Ha. intros ->. discriminate.
Qed.

Lemma find_unique L l : NoDup (map lname L) -> In l L -> find (name_is (lname l)) L = Some l.
Proof.
  induction L as [|a t IH]; simpl; intros Hnd Hin; [contradiction|].
  inversion Hnd; subst. destruct Hin as [->|Hin].
  - unfold name_is. rewrite str_eqb_refl. reflexivity.
  - destruct (name_is_spec (lname l) a) as [E|]; auto.
    exfalso. apply H1. rewrite E. apply in_map. exact Hin.
Qed.

Lemma ssorted_NoDup L : ssorted L = true -> NoDup (map lname L).
Proof.
  induction L as [|a t IH]; intros Hs; simpl; [constructor|].
  apply ssorted_cons in Hs as [Hlb Hs]. constructor; auto.
  apply (lb_all_notin _ _ _ Hlb). left; reflexivity.
Qed.

Lemma lget_in L l : NoDup (map lname L) -> In l L -> lget L (lname l) = lvalue l.
Proof. intros H1 H2. unfold lget. rewrite (find_unique _ _ H1 H2). reflexivity. Qed.

Lemma lget_nonempty_in L n : lget L n <> [] -> In (n, lget L n) L.
Proof.
  unfold lget. destruct (find (name_is n) L) as [l|] eqn:E; [|congruence].
  intros _. apply find_name_some in E as [E1 E2]. destruct l; simpl in *; subst; auto.
Qed.

Lemma brange_in b l : binv b -> (In l (brange b) <-> (bget b (lname l) = lvalue l /\ lvalue l <> [])).
Proof.
  intros (H1 & H2 & H3 & H4). unfold brange, bget. rewrite in_app_iff, filter_In. split.
  - intros [[Hl Hf]|Hl].
    + apply andb_true_iff in Hf as [Hd Ha]. apply negb_true_iff in Hd, Ha.
      rewrite has_name_find in Ha. destruct (find (name_is (lname l)) (b_add b)); [discriminate|].
      rewrite Hd. rewrite lget_in; auto using ssorted_NoDup. split; auto.
      intros Hv. apply H4 in Hv; auto. apply mem_str_in in Hv. congruence.
    + rewrite (find_unique _ _ H2 Hl). auto.
  - intros [Hg Hv]. destruct (find (name_is (lname l)) (b_add b)) as [a|] eqn:E.
    + right. apply find_name_some in E as [E1 E2]. destruct a, l; simpl in *; subst; auto.
    + left. destruct (mem_str (lname l) (b_del b)) eqn:Ed; [congruence|].
      rewrite <- Hg in Hv. apply lget_nonempty_in in Hv. rewrite Hg in Hv. destruct l; simpl in *.
      split; auto. rewrite has_name_find, E. reflexivity.
Qed.

Lemma bget_fold_keep (k : str -> bool) ls : forall b m,
  bget (fold_left (fun b' l => if k (lname l) then b' else bdel b' (lname l)) ls b) m
  = if existsb (fun l => negb (k (lname l)) && str_eqb m (lname l)) ls then [] else bget b m.
Proof.
  induction ls as [|l ls IH]; intros b m; simpl; auto.
  rewrite IH. destruct (existsb _ ls); [rewrite orb_true_r; reflexivity|]. rewrite orb_false_r.
  destruct (k (lname l)); simpl; auto. apply bget_bdel.
Qed.

Lemma lget_filter_name (p : str -> bool) L m :
  lget (filter (fun l => p (lname l)) L) m = if p m then lget L m else [].
Proof.
  induction L as [|a t IH]; simpl; [destruct (p m); reflexivity|].
  destruct (p (lname a)) eqn:Ea; rewrite ?lget_cons, IH;
    destruct (name_is_spec m a) as [<-|]; auto; rewrite Ea; reflexivity.
Qed.

Lemma ssorted_filter (p : label -> bool) L : ssorted L = true -> ssorted (filter p L) = true.
Proof.
  induction L as [|a t IH]; simpl; auto. intros Hs. apply ssorted_cons in Hs as [Hlb Hs].
  destruct (p a); auto. apply ssorted_cons. split; auto.
  intros l Hl. apply filter_In in Hl as [Hl _]. auto.
Qed.
Lemma canonical_filter (p : label -> bool) L : canonical L = true -> canonical (filter p L) = true.
Proof.
  rewrite !canonical_iff. intros [H1 H2]. split; [apply ssorted_filter; auto|].
  rewrite no_empty_forall in *. intros l Hl. apply filter_In in Hl as [Hl _]. auto.
Qed.

Lemma bget_range_keep (k : str -> bool) b m : binv b ->
  bget (fold_left (fun b' l => if k (lname l) then b' else bdel b' (lname l)) (brange b) b) m
  = if k m then bget b m else [].
Proof.
  intros Hb. rewrite bget_fold_keep.
  destruct (existsb _ (brange b)) eqn:E.
  - apply existsb_exists in E as [l [_ E]]. apply andb_true_iff in E as [E1 E2].
    apply str_eqb_eq in E2. subst m. apply negb_true_iff in E1. rewrite E1. reflexivity.
  - destruct (k m) eqn:Ek; auto.
    destruct (bget b m) as [|c v] eqn:Eg; auto. exfalso.
    assert (Hin : In (m, c :: v) (brange b)).
    { apply brange_in; auto. simpl. split; auto. discriminate. }
    assert (Ht : existsb (fun l => negb (k (lname l)) && str_eqb m (lname l)) (brange b) = true).
    { apply existsb_exists. exists (m, c :: v). split; [exact Hin|]. simpl. rewrite Ek, str_eqb_refl. reflexivity. }
    congruence.
Qed.

Lemma canonical_in L l : canonical L = true -> (In l L <-> (lget L (lname l) = lvalue l /\ lvalue l <> [])).
Proof.
  intros Hc. apply canonical_iff in Hc as [Hs Hn]. split.
  - intros Hin. split; [apply lget_in; auto using ssorted_NoDup|]. rewrite no_empty_forall in Hn. auto.
  - intros [Hg Hv]. rewrite <- Hg in Hv. apply lget_nonempty_in in Hv. rewrite Hg in Hv.
    destruct l; simpl in *; auto.
Qed.

(* two canonical label sets with the same lookups are the same list *)
Lemma canonical_ext L1 L2 : canonical L1 = true -> canonical L2 = true ->
  (forall n, lget L1 n = lget L2 n) -> L1 = L2.
Proof.
  intros C1 C2 H. pose proof (proj1 (canonical_iff _) C1) as [S1 _]. pose proof (proj1 (canonical_iff _) C2) as [S2 _].
  apply (klt_same str_ltb str_ltb_irrefl str_ltb_trans); [apply ssorted_strongly, S1|apply ssorted_strongly, S2|].
  intros l. rewrite (canonical_in _ _ C1), (canonical_in _ _ C2), H. tauto.
Qed.

Definition labels_spec (b : builder) (L : list label) : Prop :=
  canonical L = true /\ forall n, lget L n = bget b n.

Lemma labels_spec_unique b L1 L2 : labels_spec b L1 -> labels_spec b L2 -> L1 = L2.
Proof. intros [C1 G1] [C2 G2]. apply canonical_ext; auto. intros n. rewrite G1, G2. reflexivity. Qed.

Lemma spec_set b L n v : labels_spec b L -> labels_spec (bset b n v) (lset L n v).
Proof.
  intros [Hc Hg]. split; [apply canonical_lset; auto|].
  intros m. rewrite lget_lset, bget_bset, Hg; auto. apply canonical_iff in Hc. tauto.
Qed.

Lemma spec_range_iff b L : binv b -> labels_spec b L -> forall l, In l L <-> In l (brange b).
Proof.
  intros Hb [Hc Hg] l. rewrite (canonical_in _ _ Hc), (brange_in _ _ Hb), Hg. tauto.
Qed.

Lemma spec_range_keep (f : builder -> label -> builder) (k : str -> bool) b L :
  (forall b' l, f b' l = if k (lname l) then b' else bdel b' (lname l)) ->
  binv b -> labels_spec b L ->
  labels_spec (fold_left f (brange b) b) (filter (fun l => k (lname l)) L).
Proof.
  intros Hf Hb [Hc Hg]. rewrite (fold_left_ext _ _ _ Hf). split; [apply canonical_filter; auto|].
  intros m. rewrite lget_filter_name, bget_range_keep, Hg by assumption. reflexivity.
Qed.

Lemma source_val_ext r g1 g2 : (forall n, g1 n = g2 n) -> source_val r g1 = source_val r g2.
Proof. intros H. unfold source_val. f_equal. apply map_ext. auto. Qed.

(* two Sets commute unless they give one name two different values *)
Lemma lset_comm L n v m w : canonical L = true -> (n = m -> v = w) ->
  lset (lset L n v) m w = lset (lset L m w) n v.
Proof.
  intros Hc H. apply canonical_ext; auto using canonical_lset.
  intros k. apply canonical_iff in Hc as [Hs _]. rewrite !lget_lset by auto using ssorted_lset.
  destruct (str_eqb_spec k m) as [E1|], (str_eqb_spec k n) as [E2|]; auto. subst. symmetry. auto.
Qed.

Section LabelMapFold.
Variables (p : str -> bool) (f : str -> str).

Definition lm_stepB (b : builder) (l : label) : builder :=
  if p (lname l) then bset b (f (lname l)) (lvalue l) else b.
Definition lm_stepL (L : list label) (l : label) : list label :=
  if p (lname l) then lset L (f (lname l)) (lvalue l) else L.

Lemma spec_fold_map ls : forall b L, labels_spec b L -> labels_spec (fold_left lm_stepB ls b) (fold_left lm_stepL ls L).
Proof.
  induction ls as [|l ls IH]; simpl; auto. intros b L H. apply IH. unfold lm_stepB, lm_stepL.
  destruct (p (lname l)); auto using spec_set.
Qed.

Definition collision_free (ls : list label) : Prop :=
  forall l1 l2, In l1 ls -> In l2 ls -> p (lname l1) = true -> p (lname l2) = true ->
                f (lname l1) = f (lname l2) -> lvalue l1 = lvalue l2.

(* without colliding targets the steps commute, so the visiting order does not matter *)
Lemma fold_map_perm ls1 ls2 : Permutation ls1 ls2 -> forall L, canonical L = true -> collision_free ls1 ->
  fold_left lm_stepL ls1 L = fold_left lm_stepL ls2 L.
Proof.
  induction 1 as [|x l1 l2 P IH|x y l|l1 l2 l3 P1 IH1 P2 IH2]; intros L Hc Hcf; simpl; auto.
  - apply IH; [unfold lm_stepL; destruct (p (lname x)); auto using canonical_lset|].
    intros a b Ha Hb. apply Hcf; simpl; auto.
  - f_equal. unfold lm_stepL. destruct (p (lname x)) eqn:Px, (p (lname y)) eqn:Py; auto.
    apply lset_comm; auto. intros E. apply Hcf; simpl; auto.
  - rewrite (IH1 L Hc Hcf). apply IH2; auto.
    intros a b Ha Hb. apply Hcf; apply (Permutation_in _ (Permutation_sym P1)); assumption.
Qed.
End LabelMapFold.

Definition default_re_text : str := [40; 46; 42; 41]%N.   (* the four bytes of DefaultRelabelConfig's regex: paren dot star paren *)

Lemma ins_label_in x L l : In l (ins_label x L) <-> In l (x :: L).
Proof.
  induction L as [|y t IH]; simpl; [tauto|].
  destruct (str_ltb (lname y) (lname x)); simpl; rewrite ?IH; simpl; tauto.
Qed.
Lemma sort_labels_in L l : In l (sort_labels L) <-> In l L.
Proof.
  induction L as [|a t IH]; simpl; [tauto|]. rewrite ins_label_in. simpl. rewrite IH. tauto.
Qed.
Lemma sort_labels_names L n : In n (map lname (sort_labels L)) <-> In n (map lname L).
Proof. rewrite !in_map_iff. split; intros [l [H1 H2]]; exists l; split; auto; apply sort_labels_in; auto. Qed.

Lemma ins_label_sorted x L : ssorted L = true -> ~ In (lname x) (map lname L) -> ssorted (ins_label x L) = true.
Proof.
  induction L as [|y t IH]; intros Hs Hx; simpl; auto.
  apply ssorted_cons in Hs as [Hlb Hs].
  destruct (str_ltb (lname y) (lname x)) eqn:E.
  - apply ssorted_cons. split.
    + intros l Hl. apply ins_label_in in Hl as [<-|Hl]; auto.
    + apply IH; auto. simpl in Hx. tauto.
  - assert (Hxy : str_ltb (lname x) (lname y) = true).
    { destruct (str_ltb (lname x) (lname y)) eqn:E2; auto. exfalso. apply Hx. simpl. left.
      symmetry. apply str_ltb_total; auto. }
    apply ssorted_cons. split.
    + intros l [<-|Hl]; auto. eapply str_ltb_trans; eauto.
    + apply ssorted_cons. auto.
Qed.
Lemma sort_labels_sorted L : NoDup (map lname L) -> ssorted (sort_labels L) = true.
Proof.
  induction L as [|a t IH]; simpl; intros H; auto. inversion H; subst.
  apply ins_label_sorted; auto. rewrite sort_labels_names. auto.
Qed.

Lemma ins_str_in x d y : In y (ins_str x d) <-> In y (x :: d).
Proof.
  induction d as [|z t IH]; simpl; [tauto|].
  destruct (str_ltb z x); simpl; rewrite ?IH; simpl; tauto.
Qed.
Lemma sort_strs_in d y : In y (sort_strs d) <-> In y d.
Proof. induction d as [|a t IH]; simpl; [tauto|]. rewrite ins_str_in. simpl. rewrite IH. tauto. Qed.

Lemma str_lt_le_trans z x y : str_ltb z x = true -> str_ltb y x = false -> str_ltb z y = true.
Proof.
  intros H1 H2. destruct (str_cmp_cases x y) as [[_ H]|[[_ H]|[_ H]]].
  - eapply str_ltb_trans; eauto.
  - subst; auto.
  - congruence.
Qed.

(* slices.Sort(b.del): ascending, duplicates stay *)
Lemma ins_str_sorted x d : StronglySorted (kle str_ltb) d -> StronglySorted (kle str_ltb) (ins_str x d).
Proof.
  induction 1 as [|y t S IH F]; simpl; [repeat constructor|].
  destruct (str_ltb y x) eqn:E; constructor; auto using SSorted_cons.
  - apply Forall_forall. intros z Hz. apply ins_str_in in Hz as [<-|Hz]; [exact (str_ltb_asym _ _ E)|exact (Forall_in F z Hz)].
  - constructor; [exact E|]. eapply Forall_impl; [|exact F]. unfold kle. intros z Hz.
    destruct (str_ltb z x) eqn:Ez; auto. rewrite (str_lt_le_trans _ _ _ Ez E) in Hz. discriminate.
Qed.
Lemma sort_strs_sorted d : StronglySorted (kle str_ltb) (sort_strs d).
Proof. induction d; simpl; [constructor|auto using ins_str_sorted]. Qed.

(* the loop of Builder.Labels is lmerge *)
Lemma drop_lt_keys n d : drop_lt n d = ge_keys str_ltb d n.
Proof. induction d as [|x t IH]; simpl; [reflexivity|]. rewrite IH. reflexivity. Qed.
Lemma span_lt_parts n a : span_lt n a = (lt_part str_ltb n a, ge_part str_ltb n a).
Proof. induction a as [|x t IH]; simpl; [reflexivity|]. rewrite IH. unfold lname. destruct (str_ltb (fst x) n); reflexivity. Qed.
Lemma merge_labels_lmerge base : forall d a, merge_labels base d a = lmerge str_ltb str_eqb base d a.
Proof.
  induction base as [|l rest IH]; intros d a; [reflexivity|]. cbn [merge_labels lmerge]. cbv zeta.
  rewrite drop_lt_keys, span_lt_parts. unfold lname.
  destruct (ge_keys str_ltb d (fst l)) as [|x t]; [|destruct (str_eqb x (fst l)); [apply IH|]];
    (destruct (ge_part str_ltb (fst l) a) as [|y a'']; [|destruct (str_eqb (fst y) (fst l))]; rewrite IH; reflexivity).
Qed.

Lemma brange_mem b l :
  In l (brange b) <-> In l (b_add b) \/ (In l (b_base b) /\ ~ In (lname l) (b_del b) /\ ~ In (lname l) (map lname (b_add b))).
Proof.
  unfold brange. rewrite in_app_iff, filter_In, andb_true_iff, !negb_true_iff, <- !not_true_iff_false, mem_str_in, has_name_in.
  tauto.
Qed.

(* a sorted list with the labels that Range enumerates has the lookups of the builder *)
Lemma labels_spec_range b L : binv b -> ssorted L = true /\ (forall l, In l L <-> In l (brange b)) -> labels_spec b L.
Proof.
  intros Hb [Hs H].
  assert (Hin : forall l, In l L <-> bget b (lname l) = lvalue l /\ lvalue l <> []).
  { intros l. rewrite H. apply brange_in, Hb. }
  split.
  - apply canonical_iff. split; [exact Hs|]. apply no_empty_forall. intros l Hl. apply Hin, Hl.
  - intros n. destruct (bget b n) as [|c v] eqn:E.
    + destruct (lget L n) as [|c v] eqn:E2; [reflexivity|].
      assert (Hl : In (n, lget L n) L) by (apply lget_nonempty_in; congruence).
      apply Hin in Hl as [Hl _]. simpl in Hl. congruence.
    + apply (lget_in L (n, c :: v)); [apply ssorted_NoDup, Hs|]. apply Hin. simpl. split; [exact E|discriminate].
Qed.

(* the loop on the sorted deletions and additions: the sorted list of the labels that Range enumerates *)
Lemma merge_labels_spec base del add : ssorted base = true -> NoDup (map lname add) ->
  ssorted (merge_labels base (sort_strs del) (sort_labels add)) = true /\
  forall l, In l (merge_labels base (sort_strs del) (sort_labels add)) <->
            In l add \/ (In l base /\ ~ In (lname l) del /\ ~ In (lname l) (map lname add)).
Proof.
  intros Hb Ha. rewrite merge_labels_lmerge.
  destruct (lmerge_spec str_ltb str_eqb str_eqb_spec str_ltb_irrefl str_ltb_trans str_ltb_total
              base (sort_strs del) (sort_labels add)) as [S M];
    [apply ssorted_strongly, Hb|apply sort_strs_sorted|apply ssorted_strongly, sort_labels_sorted, Ha|].
  split; [apply ssorted_strongly, S|]. intros l.
  rewrite M, sort_labels_in, sort_strs_in. unfold lname. rewrite sort_labels_names. reflexivity.
Qed.

(* Builder.Labels() returns the canonical label set whose lookups are the builder's Get *)
Theorem blabels_spec b : binv b -> labels_spec b (blabels b).
Proof.
  intros Hb. apply labels_spec_range; [exact Hb|]. destruct Hb as (H1 & H2 & _).
  pose proof (merge_labels_spec (b_base b) (b_del b) (b_add b) H1 H2) as [S M].
  pose proof (brange_mem b) as R. unfold blabels.
  destruct (b_del b); [destruct (b_add b)|]; (split; [assumption|]); intros x; rewrite R; try apply M.
  simpl. tauto.
Qed.

Lemma spec_blabels b L : binv b -> labels_spec b L -> L = blabels b.
Proof. intros Hb Hs. apply (labels_spec_unique b); auto using blabels_spec. Qed.

Definition strip_empty (base : list label) : list label :=
  filter (fun l => negb (is_empty (lvalue l))) base.

Lemma binv_new base : ssorted base = true -> binv (new_builder base).
Proof.
  intros Hs. unfold binv, new_builder; simpl. split; [exact Hs|]. split; [constructor|]. split; [intros a []|].
  intros l Hl Hv. apply in_map_iff. exists l. split; auto. apply filter_In. split; auto.
  apply is_empty_true. auto.
Qed.

Lemma spec_new base : ssorted base = true -> labels_spec (new_builder base) (strip_empty base).
Proof.
  intros Hs. split.
  - apply canonical_iff. split; [apply ssorted_filter; auto|].
    apply no_empty_forall. intros l Hl. apply filter_In in Hl as [_ Hl]. apply negb_true_iff in Hl.
    intros Hv. rewrite Hv in Hl. discriminate.
  - intros m. transitivity (lget base m).
    + unfold strip_empty. induction base as [|a t IH]; auto. apply ssorted_cons in Hs as [Hlb Hs].
      simpl. rewrite lget_cons. destruct (is_empty (lvalue a)) eqn:Ev; simpl; rewrite ?lget_cons, IH by auto; auto.
      destruct (name_is_spec m a) as [<-|]; auto.
      apply is_empty_true in Ev. rewrite Ev. apply (lget_below t (lname a)); auto.
    + unfold bget, new_builder; simpl. destruct (mem_str m _) eqn:E; auto.
      apply mem_str_in, in_map_iff in E as (l & <- & Hl). apply filter_In in Hl as [Hl Hv].
      apply is_empty_true in Hv. rewrite lget_in; auto using ssorted_NoDup.
Qed.

(* builders reached from b through Builder.Set and Builder.Del *)
Inductive reach (b : builder) : builder -> Prop :=
| reach_refl : reach b b
| reach_set b' n v : reach b b' -> reach b (bset b' n v)
| reach_del b' n : reach b b' -> reach b (bdel b' n).

Lemma reach_fold b0 (f : builder -> label -> builder) ls :
  (forall b l, reach b0 b -> reach b0 (f b l)) -> forall b, reach b0 b -> reach b0 (fold_left f ls b).
Proof. intros Hf. induction ls as [|l ls IH]; simpl; auto. Qed.

Lemma reach_binv b b' : reach b b' -> binv b -> binv b'.
Proof. induction 1; auto using binv_bset, binv_bdel. Qed.

(* relabel uses the builder through Set and Del only; a drop returns it as it was *)
Lemma relabel_touches O r b :
  match relabel O r b with OKeep b' => reach b b' | ODrop b' => b' = b | OPanic => True end.
Proof.
  unfold relabel. destruct (r_action r).
  - destruct (fast_path r _); [repeat constructor|].
    destruct (o_find O _ _); [|constructor]. destruct (negb _); [constructor|].
    destruct (is_empty _); repeat constructor.
  - destruct (o_match O _ _); [constructor|reflexivity].
  - destruct (o_match O _ _); [reflexivity|constructor].
  - destruct (str_eqb _ _); [constructor|reflexivity].
  - destruct (str_eqb _ _); [reflexivity|constructor].
  - destruct (Z.eqb _ _); [exact I|repeat constructor].
  - apply reach_fold; [|constructor]. intros b0 l H. destruct (o_match O _ _); [constructor|]; exact H.
  - apply reach_fold; [|constructor]. intros b0 l H. destruct (o_match O _ _); [constructor|]; exact H.
  - apply reach_fold; [|constructor]. intros b0 l H. destruct (o_match O _ _); [|constructor]; exact H.
  - repeat constructor.
  - repeat constructor.
Qed.

Lemma relabel_binv O r b : binv b ->
  match relabel O r b with OKeep b' | ODrop b' => binv b' | OPanic => True end.
Proof.
  intros Hb. pose proof (relabel_touches O r b) as H.
  destruct (relabel O r b); subst; eauto using reach_binv.
Qed.

Lemma process_binv O rs : forall b, binv b ->
  match process O rs b with OKeep b' | ODrop b' => binv b' | OPanic => True end.
Proof.
  induction rs as [|r rs IH]; intros b Hb; simpl; auto.
  pose proof (relabel_binv O r b Hb) as H. destruct (relabel O r b); auto. apply IH. exact H.
Qed.

(* a rule that drops leaves the builder as it was *)
Lemma relabel_drop_unchanged O r b b' : relabel O r b = ODrop b' -> b' = b.
Proof. intros H. pose proof (relabel_touches O r b) as T. rewrite H in T. exact T. Qed.

(* keep/drop never touch the label set; a drop stops the chain *)
Lemma process_app O rs1 : forall rs2 b,
  process O (rs1 ++ rs2) b = match process O rs1 b with OKeep b' => process O rs2 b' | o => o end.
Proof.
  induction rs1 as [|r rs1 IH]; intros rs2 b; simpl; auto.
  destruct (relabel O r b); auto.
Qed.

Lemma brange_NoDup b : binv b -> NoDup (brange b).
Proof.
  intros (H1 & H2 & H3 & H4). unfold brange. apply NoDup_app_disjoint.
  - apply NoDup_filter. eapply NoDup_map_inv. apply ssorted_NoDup; auto.
  - eapply NoDup_map_inv; eauto.
  - intros x Hx Hin. apply filter_In in Hx as [_ Hx]. apply andb_true_iff in Hx as [_ Hx].
    apply negb_true_iff in Hx. assert (Ht : has_name (lname x) (b_add b) = true).
    { apply has_name_in. apply in_map. auto. }
    congruence.
Qed.

Lemma brange_perm b L : binv b -> labels_spec b L -> Permutation (brange b) L.
Proof.
  intros Hb Hs. apply NoDup_Permutation.
  - apply brange_NoDup; auto.
  - destruct Hs as [Hc _]. apply canonical_iff in Hc as [Hc _]. eapply NoDup_map_inv, ssorted_NoDup; auto.
  - intros l. symmetry. apply spec_range_iff; auto.
Qed.

Lemma is_labelmap (a : action) : {a = LabelMap} + {a <> LabelMap}.
Proof. destruct a; (left; reflexivity) || (right; discriminate). Qed.

Section Refine.
Variable O : oracle.
(* assumed behaviour of the oracles (Go regexp): a template without '$' expands to itself;
   the default regex (dot-star in one group) matches the empty string *)
Hypothesis expand_literal : forall re t s idx, has_dollar t = false -> o_expand O re t s idx = t.
Hypothesis default_matches_empty : o_find O default_re_text [] <> None.

(* what Config.Validate guarantees and the property presupposes ("valid rule sequences") *)
Definition rule_ok (r : rule) : Prop :=
  (r_action r = HashMod -> r_modulus r <> 0%Z) /\
  (r_action r = Replace -> has_dollar (r_target r) = false -> o_valid O (r_utf8 r) (r_target r) = true) /\
  (r_default_re r = true -> r_regex r = default_re_text).

(* no two labels that labelmap copies to the same target name carry different values *)
Definition lm_cf (r : rule) (L : list label) : Prop :=
  r_action r = LabelMap ->
  collision_free (o_match O (r_regex r)) (fun n => o_replace_all O (r_regex r) n (r_repl r)) L.

Lemma relabel_refines_fn r b L : binv b -> labels_spec b L -> rule_ok r -> r_action r <> LabelMap ->
  match relabel O r b with
  | OKeep b' => exists L', doc_rule O r L = DKeep L' /\ labels_spec b' L'
  | ODrop b' => doc_rule O r L = DDrop
  | OPanic => False
  end.
Proof.
  intros Hb Hs (Hmod & Hval & Hdef) Hlm. pose proof Hs as [Hc Hg].
  unfold relabel, doc_rule.
  rewrite (source_val_ext r (lget L) (bget b) Hg). set (val := source_val r (bget b)).
  destruct (r_action r) eqn:Ea.
  - (* Replace *)
    destruct (fast_path r val) eqn:Efp.
    + unfold fast_path in Efp. rewrite !andb_true_iff, !negb_true_iff, is_empty_true in Efp.
      destruct Efp as [[[Ev Ed] Et] Er]. rewrite Ev, (Hdef Ed).
      destruct (o_find O default_re_text []) as [idx|] eqn:Ef; [|contradiction].
      rewrite !expand_literal by assumption. rewrite (Hval eq_refl Et). eauto using spec_set.
    + destruct (o_find O (r_regex r) val) as [idx|]; [|eauto].
      destruct (o_valid O (r_utf8 r) (o_expand O (r_regex r) (r_target r) val idx)); simpl; [|eauto].
      destruct (is_empty (o_expand O (r_regex r) (r_repl r) val idx)) eqn:Ee; [|eauto using spec_set].
      apply is_empty_true in Ee. rewrite Ee. eexists; split; eauto. apply (spec_set b L _ []); auto.
  - destruct (o_match O (r_regex r) val); eauto.
  - destruct (o_match O (r_regex r) val); eauto.
  - rewrite Hg. destruct (str_eqb _ val); eauto.
  - rewrite Hg. destruct (str_eqb _ val); eauto.
  - (* HashMod *)
    destruct (Z.eqb_spec (r_modulus r) 0) as [Em|]; [exact (Hmod eq_refl Em)|]. eauto using spec_set.
  - contradiction.
  - (* LabelDrop *)
    eexists; split; [reflexivity|]. apply (spec_range_keep _ (fun n => negb (o_match O (r_regex r) n))); auto.
    intros b0 l. destruct (o_match O (r_regex r) (lname l)); reflexivity.
  - (* LabelKeep *)
    eexists; split; [reflexivity|]. apply (spec_range_keep _ (o_match O (r_regex r))); auto.
  - eauto using spec_set.
  - eauto using spec_set.
Qed.

Lemma relabel_labelmap r b L : labels_spec b L -> r_action r = LabelMap ->
  exists b', relabel O r b = OKeep b' /\
             labels_spec b' (fold_left (lm_stepL (o_match O (r_regex r)) (fun n => o_replace_all O (r_regex r) n (r_repl r)))
                                       (brange b) L).
Proof.
  intros Hs Ea. unfold relabel. rewrite Ea. eexists. split; [reflexivity|].
  apply (spec_fold_map (o_match O (r_regex r)) (fun n => o_replace_all O (r_regex r) n (r_repl r))). exact Hs.
Qed.

End Refine.

Section Chain.
Variable O : oracle.

(* along the documented run, no labelmap step has colliding targets with different values *)
Fixpoint chain_cf (rs : list rule) (L : list label) : Prop :=
  match rs with
  | [] => True
  | r :: rs' => lm_cf O r L /\ match doc_rule O r L with DKeep L' => chain_cf rs' L' | DDrop => True end
  end.
End Chain.

(* the documented semantics with the labelmap visiting order left unspecified *)
Section AnyOrder.
Variable O : oracle.
Hypothesis expand_literal : forall re t s idx, has_dollar t = false -> o_expand O re t s idx = t.
Hypothesis default_matches_empty : o_find O default_re_text [] <> None.

Definition doc_labelmap (r : rule) (ord L : list label) : list label :=
  fold_left (fun acc l => if o_match O (r_regex r) (lname l)
                          then lset acc (o_replace_all O (r_regex r) (lname l) (r_repl r)) (lvalue l)
                          else acc) ord L.

Inductive doc_rule_rel (r : rule) (L : list label) : doc_outcome -> Prop :=
| drr_labelmap ord : r_action r = LabelMap -> Permutation ord L -> doc_rule_rel r L (DKeep (doc_labelmap r ord L))
| drr_other : r_action r <> LabelMap -> doc_rule_rel r L (doc_rule O r L).

Inductive doc_process_rel : list rule -> list label -> doc_outcome -> Prop :=
| dpr_nil L : doc_process_rel [] L (DKeep L)
| dpr_keep r rs L L' out : doc_rule_rel r L (DKeep L') -> doc_process_rel rs L' out -> doc_process_rel (r :: rs) L out
| dpr_drop r rs L : doc_rule_rel r L DDrop -> doc_process_rel (r :: rs) L DDrop.

(* one rule: the outcome is a documented one, and THE documented one (labelmap in name order) when
   labelmap's targets do not collide *)
Lemma relabel_refines r b L : binv b -> labels_spec b L -> rule_ok O r ->
  match relabel O r b with
  | OKeep b' => exists L', labels_spec b' L' /\ doc_rule_rel r L (DKeep L') /\ (lm_cf O r L -> doc_rule O r L = DKeep L')
  | ODrop b' => doc_rule_rel r L DDrop /\ doc_rule O r L = DDrop
  | OPanic => False
  end.
Proof.
  intros Hb Hs Hok. destruct (is_labelmap (r_action r)) as [Ea|Ea].
  - destruct (relabel_labelmap O r b L Hs Ea) as (b' & -> & Hs'). exists (doc_labelmap r (brange b) L).
    split; [exact Hs'|]. split; [constructor; auto; apply brange_perm; auto|].
    intros Hcf. unfold doc_rule. rewrite Ea. f_equal.
    apply (fold_map_perm (o_match O (r_regex r)) (fun n => o_replace_all O (r_regex r) n (r_repl r))); auto.
    + apply Permutation_sym, brange_perm; auto.
    + apply Hs.
  - pose proof (relabel_refines_fn O expand_literal default_matches_empty r b L Hb Hs Hok Ea) as H.
    pose proof (drr_other r L Ea) as D.
    destruct (relabel O r b) as [b'|b'|]; auto.
    + destruct H as (L' & E & Hs'). rewrite E in D. eauto.
    + rewrite H in D. auto.
Qed.

Lemma process_refines rs : forall b L, binv b -> labels_spec b L -> Forall (rule_ok O) rs ->
  match process O rs b with
  | OKeep b' => exists L', labels_spec b' L' /\ doc_process_rel rs L (DKeep L') /\
                           (chain_cf O rs L -> doc_process O rs L = DKeep L')
  | ODrop _ => doc_process_rel rs L DDrop /\ (chain_cf O rs L -> doc_process O rs L = DDrop)
  | OPanic => False
  end.
Proof.
  induction rs as [|r rs IH]; intros b L Hb Hs Hok; simpl.
  - exists L. split; [exact Hs|]. split; [constructor|auto].
  - pose proof (Forall_inv Hok) as H1. apply Forall_inv_tail in Hok.
    pose proof (relabel_refines r b L Hb Hs H1) as Hr. pose proof (relabel_binv O r b Hb) as Hb'.
    destruct (relabel O r b) as [b'|b'|]; [| |exact Hr].
    + destruct Hr as (L' & Hs' & HL' & Hd). specialize (IH b' L' Hb' Hs' Hok).
      destruct (process O rs b') as [b''|b''|]; auto.
      * destruct IH as (L'' & Hs'' & HL'' & Hd'). exists L''. split; auto. split; [eapply dpr_keep; eauto|].
        intros [C1 C2]. rewrite (Hd C1) in *. auto.
      * destruct IH as [HL'' Hd']. split; [eapply dpr_keep; eauto|]. intros [C1 C2]. rewrite (Hd C1) in *. auto.
    + destruct Hr as [D E]. split; [apply dpr_drop; auto|]. intros _. rewrite E. reflexivity.
Qed.

(* from a sorted base: Labels() of the outcome is what the documentation computes from the stripped base *)
Lemma process_labels base rs : ssorted base = true -> Forall (rule_ok O) rs ->
  match process O rs (new_builder base) with
  | OKeep b' => doc_process_rel rs (strip_empty base) (DKeep (blabels b')) /\
                (chain_cf O rs (strip_empty base) -> doc_process O rs (strip_empty base) = DKeep (blabels b'))
  | ODrop _ => doc_process_rel rs (strip_empty base) DDrop /\
               (chain_cf O rs (strip_empty base) -> doc_process O rs (strip_empty base) = DDrop)
  | OPanic => False
  end.
Proof.
  intros Hs Hok. pose proof (process_binv O rs _ (binv_new base Hs)) as Hb'.
  pose proof (process_refines rs _ _ (binv_new base Hs) (spec_new base Hs) Hok) as H.
  destruct (process O rs (new_builder base)) as [b'|b'|]; auto.
  destruct H as (L' & Hs' & H). rewrite <- (spec_blabels b' L'); auto.
Qed.
End AnyOrder.

(* the loop steps over entries with other names *)
Lemma del_loop_skip n : forall s1 s2 steps i arr len, steps = s1 + s2 -> i + s1 <= length arr ->
  (forall j a, i <= j < i + s1 -> nth_error arr j = Some a -> name_is n a = false) ->
  del_loop n steps i arr len = del_loop n s2 (i + s1) arr len.
Proof.
  induction s1 as [|s1 IH]; intros s2 steps i arr len -> Hlen Hno; [rewrite Nat.add_0_r; reflexivity|]. cbn [Nat.add del_loop].
  destruct (nth_error arr i) as [a|] eqn:E; [|apply nth_error_None in E; lia].
  rewrite (Hno i a) by first [lia|exact E].
  rewrite (IH s2 _ (S i)); [f_equal; lia|reflexivity|lia|]. intros j x Hj. apply Hno. lia.
Qed.

Lemma remove_add_nomatch n L : (forall a, In a L -> name_is n a = false) -> remove_add n L = L.
Proof. intros H. apply filter_all. intros a Ha. rewrite (H a Ha). reflexivity. Qed.

Lemma remove_add_app n L1 L2 : remove_add n (L1 ++ L2) = remove_add n L1 ++ remove_add n L2.
Proof. unfold remove_add. apply filter_app. Qed.

(* under the builder invariant (names in b.add pairwise distinct) Del's loop does not panic and
   removes exactly the entry with that name: it steps over the entries before it, moves the tail down by
   one slot, and steps over the moved entries and the stale last slot *)
Theorem go_del_add_spec n add : NoDup (map lname add) -> go_del_add n add = Some (remove_add n add).
Proof.
  intros Hnd. unfold go_del_add.
  destruct (existsb (name_is n) add) eqn:Ex.
  - apply existsb_exists in Ex as (a & Ha & Ea). apply in_split in Ha as (pre & suf & ->).
    assert (Hoth : forall x, In x (pre ++ suf) -> name_is n x = false).
    { intros x Hx. destruct (name_is_spec n x) as [E|]; [|reflexivity].
      rewrite map_app in Hnd. simpl in Hnd. apply NoDup_remove_2 in Hnd. destruct Hnd.
      apply name_is_true in Ea. rewrite Ea, <- E, <- map_app. apply in_map, Hx. }
    set (arr := pre ++ a :: suf). set (X := skipn (length arr - 1) arr).
    assert (L : length arr = length pre + S (length suf)) by (unfold arr; rewrite app_length; reflexivity).
    rewrite (del_loop_skip n (length pre) (S (length suf)) _ 0); [|exact L|lia|].
    2:{ intros j x Hj Hx. apply Hoth, in_or_app. left. unfold arr in Hx. rewrite nth_error_app1 in Hx by lia. eapply nth_error_In, Hx. }
    cbn [Nat.add del_loop]. unfold arr at 1. rewrite nth_error_app2, Nat.sub_diag by lia. cbn [nth_error]. rewrite Ea.
    replace (S (length pre) <=? length arr) with true by (symmetry; apply Nat.leb_le; lia).
    rewrite firstn_all. fold X. unfold arr at 1. rewrite firstn_length_app.
    replace (skipn (S (length pre)) arr) with suf by (unfold arr; clear; induction pre; simpl; auto).
    (* the slots still to visit hold the rest of suf and the stale last entry *)
    assert (HX : forall m x, In x (skipn (length pre + S m) arr) -> In x suf).
    { intros m x Hx. unfold arr in Hx. clear - Hx. induction pre; simpl in Hx; auto.
      rewrite <- (firstn_skipn m suf). apply in_or_app. right. exact Hx. }
    rewrite (del_loop_skip n (length suf) 0); [|apply plus_n_O|rewrite !app_length; unfold X; rewrite skipn_length; lia|].
    2:{ intros j x Hj Hx. apply Hoth, in_or_app. right. rewrite nth_error_app2 in Hx by lia.
        apply nth_error_In, in_app_or in Hx as [Hx|Hx]; [exact Hx|].
        destruct suf as [|s0 st]; [simpl in Hj; lia|]. apply (HX (length st)). unfold X in Hx. rewrite L in Hx. simpl in Hx.
        replace (length pre + S (S (length st)) - 1) with (length pre + S (length st)) in Hx by lia. exact Hx. }
    cbn [del_loop]. f_equal. rewrite app_assoc. replace (length arr - 1) with (length (pre ++ suf)) by (rewrite app_length; lia).
    rewrite firstn_length_app. unfold arr. rewrite remove_add_app, remove_add_nomatch by (intros x Hx; apply Hoth, in_or_app; auto).
    unfold remove_add at 1. cbn [filter]. rewrite Ea. cbn [negb]. f_equal. symmetry.
    apply remove_add_nomatch. intros x Hx. apply Hoth, in_or_app; auto.
  - assert (Hno : forall x, In x add -> name_is n x = false).
    { intros x Hx. destruct (name_is n x) eqn:E; [|reflexivity]. rewrite <- Ex. symmetry. apply existsb_exists. eauto. }
    rewrite (del_loop_skip n (length add) 0); [|apply plus_n_O|lia|intros j x _ Hx; apply Hno, (nth_error_In _ _ Hx)].
    cbn [del_loop]. rewrite firstn_all. f_equal. symmetry. apply remove_add_nomatch, Hno.
Qed.
