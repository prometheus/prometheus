(* proof/FastRegexProofs2.v — C17, continued: clearBeginEndText keeps the anchored meaning
   (cbe_sem), optimizeEqualOrPrefixStringMatchers keeps what the matcher accepts
   (optimize_eop_correct), hence stringMatcherFromRegexp is exact (smfr_correct); the witnesses
   of the refuted statements. *)
From Coq Require Import List ZArith Bool Lia.
From Verif Require Import lib.Regex lib.RegexProofs model.FastRegex proof.FastRegexProofs.
Import ListNotations.
Open Scope Z_scope.

Section Sem.
Variable F : rune -> rune -> bool.
Notation CM := (CM F).
Notation ML := (ML F).

Definition oe (c : cre) : Prop := forall b e s, CM b e c s -> s = [].

Lemma oe_beg : oe CBeg. Proof. intros b e s H. now apply CM_beg_inv in H. Qed.
Lemma oe_end : oe CEnd. Proof. intros b e s H. now apply CM_end_inv in H. Qed.
Lemma oe_eps : oe CEps. Proof. intros b e s H. now apply CM_eps_iff in H. Qed.
Lemma oe_cat a c : oe a -> oe c -> oe (CCat a c).
Proof.
  intros Ha Hc b e s H. apply CM_cat_iff in H. destruct H as (s1 & s2 & -> & H1 & H2).
  apply Ha in H1. apply Hc in H2. now subst.
Qed.
Lemma oe_alt a c : oe a -> oe c -> oe (CAlt a c).
Proof. intros Ha Hc b e s H. apply CM_alt_iff in H. destruct H; eauto. Qed.
Lemma oe_star a : oe a -> oe (CStar a).
Proof.
  intros Ha b e s H. apply CM_star_inv in H. destruct H as [H | (s1 & s2 & _ & Hn & H1 & _)]; auto.
  apply Ha in H1. congruence.
Qed.
Lemma oe_crep n a : oe a -> oe (crep n a).
Proof. intros Ha. induction n; simpl; [apply oe_eps | now apply oe_cat]. Qed.
Lemma oe_copt n a : oe a -> oe (copt n a).
Proof. intros Ha. induction n; simpl; [apply oe_eps | apply oe_alt; [apply oe_eps | now apply oe_cat]]. Qed.

Lemma null_crep n a b e : nullable b e a = true -> nullable b e (crep n a) = true.
Proof. intros H. induction n; simpl; auto. now rewrite H, IHn. Qed.
Lemma null_copt n a b e : nullable b e (copt n a) = true.
Proof. destruct n; reflexivity. Qed.

Lemma anchor_sem c s : oe c -> nullable true true c = true ->
  (CM true true CEps s <-> CM true true c s).
Proof.
  intros Ho Hn. split; intros H.
  - apply CM_eps_iff in H. subst. now apply nullable_spec.
  - apply Ho in H. subst. constructor.
Qed.

Lemma is_begin_eq x : is_begin x = true -> x = RBeginText.
Proof. destruct x; simpl; congruence. Qed.
Lemma is_end_eq x : is_end x = true -> x = REndText.
Proof. destruct x; simpl; congruence. Qed.

Lemma anchor_cases x : is_begin x || is_end x = true ->
  oe (lower x) /\ nullable true true (lower x) = true.
Proof.
  intros H. apply orb_true_iff in H. destruct H as [H | H].
  - apply is_begin_eq in H. subst. split; [apply oe_beg | reflexivity].
  - apply is_end_eq in H. subst. split; [apply oe_end | reflexivity].
Qed.

Lemma drop_begin e t s : ML true e (RConcat (RBeginText :: t)) s <-> ML true e (RConcat t) s.
Proof.
  rewrite ML_concat_cons. split.
  - intros (s1 & s2 & -> & H1 & H2). apply CM_beg_inv in H1. destruct H1 as [-> _]. simpl. flags H2.
  - intros H. exists [], s. split; auto. split; [constructor | flags H].
Qed.

Lemma drop_end b l s : l <> [] -> last l RNoMatch = REndText ->
  (ML b true (RConcat l) s <-> ML b true (RConcat (removelast l)) s).
Proof.
  intros Hne Hl. rewrite (app_removelast_last RNoMatch Hne) at 1. rewrite Hl, ML_concat_app. split.
  - intros (s1 & s2 & -> & H1 & H2). rewrite ML_concat_single in H2. apply CM_end_inv in H2.
    destruct H2 as [-> _]. rewrite app_nil_r. flags H1.
  - intros H. exists s, []. rewrite app_nil_r. split; auto. split; [flags H |].
    rewrite ML_concat_single. constructor.
Qed.

(* the anchor stripping that clearBeginEndText and optimizeConcatRegex have in common *)
Definition strip_anchors (sub : list re) : list re :=
  let sub := match sub with x :: t => if is_begin x then t else sub | [] => sub end in
  if isnil sub then sub else if is_end (last sub RNoMatch) then removelast sub else sub.

Lemma cbe_concat2 x y t :
  clear_begin_end (RConcat (x :: y :: t)) = RConcat (strip_anchors (x :: y :: t)).
Proof. unfold strip_anchors. cbn [clear_begin_end]. destruct (is_begin x); reflexivity. Qed.

Lemma strip_anchors_sem sub s :
  ML true true (RConcat (strip_anchors sub)) s <-> ML true true (RConcat sub) s.
Proof.
  unfold strip_anchors.
  set (sub1 := match sub with x :: t => if is_begin x then t else sub | [] => sub end).
  assert (H1 : ML true true (RConcat sub1) s <-> ML true true (RConcat sub) s).
  { unfold sub1. destruct sub as [| x t]; [reflexivity |]. destruct (is_begin x) eqn:E; [| reflexivity].
    apply is_begin_eq in E. subst x. symmetry. apply drop_begin. }
  rewrite <- H1. destruct (isnil sub1) eqn:En; [reflexivity |].
  destruct (is_end (last sub1 RNoMatch)) eqn:Ee; [| reflexivity].
  apply is_end_eq in Ee. symmetry. apply drop_end; [| exact Ee]. intros E. rewrite E in En. discriminate.
Qed.

Lemma forallb_removelast {A} (f : A -> bool) l : forallb f l = true -> forallb f (removelast l) = true.
Proof.
  induction l as [| a [| b l] IH]; simpl; auto. intros H. apply andb_true_iff in H.
  destruct H as [Ha H]. rewrite Ha. simpl. apply IH. exact H.
Qed.

Lemma wf_strip_anchors sub : forallb wf_csb sub = true -> forallb wf_csb (strip_anchors sub) = true.
Proof.
  intros H. unfold strip_anchors.
  set (sub1 := match sub with x :: t => if is_begin x then t else sub | [] => sub end).
  assert (H1 : forallb wf_csb sub1 = true).
  { unfold sub1. destruct sub as [| x t]; auto. destruct (is_begin x); auto.
    simpl in H. apply andb_true_iff in H. tauto. }
  destruct (isnil sub1); auto. destruct (is_end _); auto. now apply forallb_removelast.
Qed.

Theorem cbe_sem r s : Matches F (clear_begin_end r) s <-> Matches F r s.
Proof.
  unfold Matches. destruct r; try reflexivity.
  (* an operator over a lone anchor matches the empty string only *)
  1-5: cbn [clear_begin_end]; destruct (is_begin r || is_end r) eqn:E; [| reflexivity];
       destruct (anchor_cases r E) as [Ho Hn]; apply anchor_sem; simpl;
       try match goal with |- context [?x <? 0] => destruct (x <? 0) end;
       rewrite ?(null_crep _ _ _ _ Hn), ?null_copt, ?Hn;
       auto using oe_cat, oe_alt, oe_star, oe_eps, oe_crep, oe_copt.
  change (CM true true (lower ?x) s) with (ML true true x s).
  destruct l as [| x [| y t]]; try reflexivity.
  - simpl. destruct (is_begin x || is_end x) eqn:E; [| reflexivity].
    destruct (anchor_cases x E) as [Ho Hn]. rewrite ML_concat_single. now apply anchor_sem.
  - rewrite cbe_concat2. apply strip_anchors_sem.
Qed.

Lemma cbe_wf r : wf_csb r = true -> wf_csb (clear_begin_end r) = true.
Proof.
  destruct r; try (simpl; auto; destruct (is_begin r || is_end r); auto).
  destruct l as [| x [| y t]]; auto.
  - simpl. destruct (is_begin x || is_end x); auto.
  - rewrite cbe_concat2. apply wf_strip_anchors.
Qed.
End Sem.

Section SmIndOr.
Variable P : sm -> Prop.
Hypothesis H_or : forall l, Forall P l -> P (SOr l).
Hypothesis H_other : forall m, (forall l, m <> SOr l) -> P m.
Lemma sm_ind_or : forall m, P m.
Proof.
  fix IH 1. intros m. destruct m as [ | | l | | | | | | | | | ];
    try (apply H_other; intros l' E; discriminate).
  apply H_or. induction l as [| a l IHl]; constructor; [apply IH | exact IHl].
Qed.
End SmIndOr.

Section Opt.
Variable F : rune -> rune -> bool.
Variable NL TL : bytes -> bytes.
Notation smm := (smm F NL).

Definition leafm (s : str) (l : leaf) : bool :=
  match l with LEq v cs => smm (SEqual v cs) s | LPre _ _ m => smm m s end.

Definition good_leaf (l : leaf) : Prop :=
  match l with
  | LEq _ cs => cs = true
  | LPre p cs m => cs = true /\ p <> [] /\ exists rt, m = SPrefix true p rt
  end.

(* findEqualOrPrefixStringMatchers: the leaves match what the or-tree matches, and inherit
   its shape *)
Lemma leaves_spec : forall M lv, leaves M = Some lv ->
  (forall s, smm M s = existsb (leafm s) lv) /\ (good_or M = true -> Forall good_leaf lv).
Proof.
  intros M. induction M using sm_ind_or; intros lv Hl.
  - simpl in Hl. destruct (all_some (map leaves l)) as [ls |] eqn:E; [| discriminate].
    inversion Hl; subst. clear Hl. apply all_some_Forall2 in E. cbn [FastRegex.smm good_or]. revert H.
    induction E as [| x lx l ls Ex _ IH]; intros H; [split; [reflexivity | constructor] |].
    inversion H as [| ? ? Hx Hl]; subst. destruct (Hx lx Ex) as [Sx Gx]. destruct (IH Hl) as [Sl Gl]. split.
    + intros s. simpl. now rewrite existsb_app, Sx, Sl.
    + simpl. intros Hg. apply andb_true_iff in Hg. destruct Hg. apply Forall_app. auto.
  - destruct M; simpl in Hl; try discriminate; inversion Hl; subst; simpl.
    + split; [intros s0; now rewrite orb_false_r | intros Hg; repeat constructor; exact Hg].
    + exfalso. eapply H. reflexivity.
    + split; [intros s; now rewrite orb_false_r |]. intros Hg. apply andb_true_iff in Hg.
      destruct Hg as [-> Hp]. repeat constructor; [intros ->; discriminate | eauto].
Qed.

Definition pre_hit (g : sm -> bool) (k : bytes) (p : bytes * list sm) : bool :=
  match p with (k', ms) => str_eqb k' k && existsb g ms end.

Lemma add_prefix_sem g k k0 m : forall acc,
  existsb (pre_hit g k) (add_prefix k0 m acc) = existsb (pre_hit g k) acc || (str_eqb k0 k && g m).
Proof.
  induction acc as [| [k' ms] t IH]; simpl.
  - now rewrite !orb_false_r.
  - destruct (str_eqb k' k0) eqn:E; simpl.
    + apply str_eqb_eq in E. subst k'. rewrite existsb_app. simpl.
      destruct (str_eqb k0 k), (existsb g ms), (g m), (existsb (pre_hit g k) t); reflexivity.
    + rewrite IH. now rewrite orb_assoc.
Qed.

Definition pre_step (cs : bool) (minp : Z) (acc : list (bytes * list sm)) (l : leaf) :=
  match l with
  | LPre p _ m =>
      let k := firstn (Z.to_nat minp) (enc p) in
      add_prefix (if cs then k else to_lower TL k) m acc
  | _ => acc
  end.

Lemma pre_fold_sem g k minp : forall lv acc,
  existsb (pre_hit g k) (fold_left (pre_step true minp) lv acc) =
  existsb (pre_hit g k) acc ||
  existsb (fun l => match l with
                    | LPre p _ m => str_eqb (firstn (Z.to_nat minp) (enc p)) k && g m
                    | _ => false end) lv.
Proof.
  induction lv as [| l lv IH]; intros acc; simpl.
  - now rewrite orb_false_r.
  - rewrite IH. destruct l; simpl; [reflexivity |]. rewrite add_prefix_sem. now rewrite orb_assoc.
Qed.

Definition min_step (a : option Z) (l : leaf) : option Z :=
  match l with
  | LPre p _ _ => match a with None => Some (blen p) | Some x => Some (Z.min x (blen p)) end
  | _ => a
  end.

Lemma enc_app a b : enc (a ++ b) = enc a ++ enc b.
Proof. unfold enc. apply flat_map_app. Qed.

Lemma enc1_len r : (1 <= length (enc1 r))%nat.
Proof. unfold enc1. destruct (r <? 128), (r <? 2048), (r <? 65536); simpl; lia. Qed.

Lemma blen_pos p : p <> [] -> 0 < blen p.
Proof.
  destruct p as [| r p]; [congruence |]. intros _. unfold blen, len, enc. simpl.
  rewrite app_length. pose proof (enc1_len r). lia.
Qed.

(* minPrefixLen: positive and at most the length of every prefix, when there is a prefix *)
Lemma minp_spec lv : Forall good_leaf lv ->
  match fold_left min_step lv None with
  | Some y => 0 < y /\ forall p cs m, In (LPre p cs m) lv -> y <= blen p
  | None => forall p cs m, ~ In (LPre p cs m) lv
  end.
Proof.
  induction lv as [| l lv IH] using rev_ind; intros Hg; [intros p cs m [] |].
  apply Forall_app in Hg. destruct Hg as [Hg Hl]. inversion Hl as [| ? ? Hl' _]; subst. specialize (IH Hg).
  assert (Hin : forall p cs m, In (LPre p cs m) (lv ++ [l]) -> In (LPre p cs m) lv \/ l = LPre p cs m).
  { intros p cs m H. apply in_app_iff in H. simpl in H. tauto. }
  rewrite fold_left_app. destruct l as [v c | p c m]; simpl.
  - destruct (fold_left min_step lv None) as [y |].
    + split; [apply IH |]. intros p cs m H. destruct (Hin _ _ _ H) as [H' | H']; [exact (proj2 IH _ _ _ H') | discriminate].
    + intros p cs m H. destruct (Hin _ _ _ H) as [H' | H']; [now apply IH in H' | discriminate].
  - destruct Hl' as (_ & Hp & _). apply blen_pos in Hp. destruct (fold_left min_step lv None) as [y |].
    + destruct IH as [Hy Hle]. split; [lia |]. intros p' cs m' H.
      destruct (Hin _ _ _ H) as [H' | H']; [specialize (Hle _ _ _ H'); lia | inversion H'; lia].
    + split; [exact Hp |]. intros p' cs m' H.
      destruct (Hin _ _ _ H) as [H' | H']; [now apply IH in H' | inversion H'; lia].
Qed.

Lemma blen_app a b : blen (a ++ b) = blen a + blen b.
Proof. unfold blen, len. rewrite enc_app, app_length. lia. Qed.

Lemma blen_nonneg a : 0 <= blen a.
Proof. unfold blen, len. lia. Qed.

Lemma mask_of_mem vs s : mem_str s vs = true -> mask_ok vs s = true.
Proof.
  intros H. apply mem_str_In in H. unfold mask_ok. apply existsb_exists. exists s. split; auto.
  apply Z.eqb_refl.
Qed.

(* the case-sensitive multi matchers: the length mask never rejects a member *)
Lemma smm_slice_cs vs s : smm (SMultiSlice true vs) s = mem_str s vs.
Proof.
  cbn [FastRegex.smm]. destruct (mem_str s vs) eqn:E; [now rewrite (mask_of_mem _ _ E) | apply andb_false_r].
Qed.

Lemma smm_map_cs vs minp pres s :
  smm (SMultiMap true vs minp pres) s =
  mem_str s vs || (if (0 <? minp) && (minp <=? blen s)
                   then existsb (pre_hit (fun x => smm x s) (firstn (Z.to_nat minp) (enc s))) pres else false).
Proof.
  cbn [FastRegex.smm]. destruct vs as [| v vs']; [reflexivity |]. cbn [isnil]. set (vs := v :: vs').
  destruct (mem_str s vs) eqn:E.
  - rewrite (mask_of_mem _ _ E), andb_false_r. reflexivity.
  - destruct ((minp =? 0) && true && negb (mask_ok vs s)) eqn:Em; [| reflexivity].
    apply andb_true_iff in Em. destruct Em as [Em _]. apply andb_true_iff in Em. destruct Em as [Em _].
    apply Z.eqb_eq in Em. subst minp. reflexivity.
Qed.

Lemma str_eqb_sym a b : str_eqb a b = str_eqb b a.
Proof. apply eq_true_iff_eq. rewrite !str_eqb_eq. split; congruence. Qed.

Lemma mem_str_sym_exists s vals :
  existsb (fun v => str_eqb v s) vals = mem_str s vals.
Proof.
  unfold mem_str. induction vals as [| v vals IH]; simpl; auto. now rewrite IH, str_eqb_sym.
Qed.

Lemma no_pre_of_len lv : len (filter (fun l => negb (is_leq l)) lv) = 0 ->
  forall p cs m, ~ In (LPre p cs m) lv.
Proof.
  intros H p cs m Hin.
  assert (Hf : In (LPre p cs m) (filter (fun l => negb (is_leq l)) lv)) by (apply filter_In; auto).
  destruct (filter (fun l => negb (is_leq l)) lv); [auto | unfold len in H; simpl in H; lia].
Qed.

Definition vals_of (lv : list leaf) : list str :=
  flat_map (fun l => match l with LEq s _ => [s] | _ => [] end) lv.
Definition pm (s : str) (l : leaf) : bool :=
  match l with LPre _ _ m => smm m s | _ => false end.

Lemma split_leaves s lv : Forall good_leaf lv ->
  existsb (leafm s) lv = mem_str s (vals_of lv) || existsb (pm s) lv.
Proof.
  induction 1 as [| l lv Hl _ IH]; simpl; auto. rewrite IH. destruct l as [v c | p c m]; simpl.
  - simpl in Hl. subst c. unfold mem_str. simpl. rewrite (str_eqb_sym v s).
    now rewrite orb_assoc.
  - destruct (smm m s), (mem_str s (vals_of lv)); reflexivity.
Qed.

Lemma no_pre_pm s lv : (forall p cs m, ~ In (LPre p cs m) lv) -> existsb (pm s) lv = false.
Proof.
  intros H. induction lv as [| l lv IH]; simpl; auto. destruct l as [v c | p c m]; simpl.
  - apply IH. intros p cs m Hin. eapply H. right. eauto.
  - exfalso. eapply H. left. eauto.
Qed.

Lemma firstn_key p r n : Z.of_nat n <= blen p -> firstn n (enc (p ++ r)) = firstn n (enc p).
Proof.
  intros H. rewrite enc_app, firstn_app.
  replace (n - length (enc p))%nat with 0%nat by (unfold blen, len in H; lia).
  simpl. now rewrite app_nil_r.
Qed.

(* the prefix map: every key is cut at y bytes, so a prefix leaf is found under the key of s
   exactly when s is long enough, and then its own matcher compares the whole prefix *)
Lemma prefix_map_sem s y lv : Forall good_leaf lv -> 0 < y ->
  (forall p cs m, In (LPre p cs m) lv -> y <= blen p) ->
  (if (0 <? y) && (y <=? blen s)
   then existsb (pre_hit (fun x => smm x s) (firstn (Z.to_nat y) (enc s))) (fold_left (pre_step true y) lv [])
   else false) = existsb (pm s) lv.
Proof.
  intros Hg Hy Hall. rewrite pre_fold_sem, (proj2 (Z.ltb_lt 0 y) Hy). cbn [existsb orb andb].
  induction Hg as [| l lv Hl _ IH]; cbn [existsb]; [now destruct (y <=? blen s) |].
  rewrite <- IH by (intros; eapply Hall; right; eauto).
  destruct l as [v c | p c m]; cbn [pm]; [now destruct (y <=? blen s) |].
  destruct Hl as (-> & Hp & rt & ->). cbn [FastRegex.smm].
  destruct (is_prefix p s) eqn:E; [| rewrite andb_false_r; now destruct (y <=? blen s)].
  apply is_prefix_spec in E. destruct E as (r & ->).
  pose proof (Hall _ _ _ (or_introl eq_refl)). pose proof (blen_nonneg r).
  rewrite (proj2 (Z.leb_le y (blen _))) by (rewrite blen_app; lia).
  rewrite firstn_key by (rewrite Z2Nat.id by lia; assumption).
  rewrite (proj2 (str_eqb_eq _ _) eq_refl). reflexivity.
Qed.

Theorem optimize_eop_correct th M : good_or M = true ->
  forall s, smm (optimize_eop NL TL th M) s = smm M s.
Proof.
  intros Hg s. unfold optimize_eop. destruct M; try reflexivity.
  destruct (leaves (SOr l)) as [lv |] eqn:El; [| reflexivity].
  destruct (leaves_spec _ _ El) as [Hs Hgl]. specialize (Hs s). specialize (Hgl Hg).
  destruct (negb (forallb _ lv)); [reflexivity |].
  destruct (_ <? th); [reflexivity |].
  rewrite Hs, (split_leaves s lv Hgl).
  assert (Hcs : lv <> [] -> match lv with l0 :: _ => leaf_cs l0 | [] => false end = true).
  { destruct lv as [| l0 lv']; [congruence |]. intros _. inversion Hgl as [| ? ? H0 _]; subst.
    destruct l0; simpl in *; tauto. }
  destruct lv as [| l0 lv'].
  { simpl. reflexivity. }
  rewrite (Hcs ltac:(discriminate)). clear Hcs. set (lv := l0 :: lv') in *. clearbody lv.
  change (flat_map (fun l1 => match l1 with LEq s0 _ => [s0] | LPre _ _ _ => [] end) lv) with (vals_of lv).
  destruct ((len (filter is_leq lv) <? min_equal_multi_threshold) &&
            (len (filter (fun l1 => negb (is_leq l1)) lv) =? 0)) eqn:Eslice.
  - apply andb_true_iff in Eslice. destruct Eslice as [_ Enp]. apply Z.eqb_eq in Enp.
    rewrite (no_pre_pm s lv (no_pre_of_len lv Enp)), orb_false_r. apply smm_slice_cs.
  - clear Eslice.
    change (fold_left _ lv None) with (fold_left min_step lv None).
    set (minp := match fold_left min_step lv None with Some x => x | None => 0 end).
    change (fold_left _ lv []) with (fold_left (pre_step true minp) lv []).
    change (flat_map (fun l1 => match l1 with LEq s0 _ => [s0] | LPre _ _ _ => [] end) lv) with (vals_of lv).
    rewrite smm_map_cs. f_equal.
    unfold minp. pose proof (minp_spec lv Hgl) as Hm. destruct (fold_left min_step lv None) as [y |].
    + now apply prefix_map_sem.
    + symmetry. apply no_pre_pm, Hm.
Qed.
End Opt.

Theorem smfr_correct F NL TL r m :
  wf_csb r = true -> string_matcher_from_regexp NL TL r = Some m ->
  forall s, smm F NL m s = true <-> Matches F r s.
Proof.
  intros Hwf H s. unfold string_matcher_from_regexp in H.
  destruct (smi (clear_begin_end r)) as [m0 |] eqn:E; [| discriminate]. inversion H; subst.
  destruct (smi_correct F NL _ (cbe_wf r Hwf) m0 E) as [Hg Hs].
  rewrite (optimize_eop_correct F NL TL _ m0 Hg s), (Hs true true s). apply cbe_sem.
Qed.

(* witnesses of the refutations in props/C17.v, replayed on the real code by the harness corpus *)
Definition tabf (t : list (bytes * bytes)) (b : bytes) : bytes :=
  match lookup b t with Some v => v | None => oracle_miss end.

(* ".*a(b).*" : [.*; "a"; ("b"); .*] — the two literals become adjacent literal nodes after
   clearCapture; isSimpleConcatenationPattern accepts, the match degenerates to
   containsInOrder(["a";"b"]) and "axb" matches. *)
Definition adj_pat : str := [46; 42; 97; 40; 98; 41; 46; 42].
Definition adj_ast : re := RConcat [RStar RAny; RLit false [97]; RCapture (RLit false [98]); RStar RAny].

Lemma adjacent_literals_fixed :
  match_string (fun _ _ => false) (fun b => b) (new_frm (fun b => b) (fun b => b) adj_pat adj_ast)
    [97; 120; 98] = false.
Proof. vm_compute. auto. Qed.

(* "(?i:fi|v0|...|v15)" as parsed by Go; oracles: the real fold orbits of the runes involved and
   toNormalisedLower("ﬁ") = "fi" (NFKD). The ligature U+FB01 matches although the
   expression does not. *)
Definition ci_pat : str :=
  [40; 63; 105; 58; 102; 105; 124; 118; 48; 124; 118; 49; 124; 118; 50; 124; 118; 51; 124; 118; 52;
   124; 118; 53; 124; 118; 54; 124; 118; 55; 124; 118; 56; 124; 118; 57; 124; 118; 49; 48; 124; 118;
   49; 49; 124; 118; 49; 50; 124; 118; 49; 51; 124; 118; 49; 52; 124; 118; 49; 53; 41].
Definition ci_ast : re :=
  RAlt [RLit true [70; 73];
        RConcat [RLit true [86];
                 RAlt [RClass true [(48, 57)]; RConcat [RLit true [49]; RClass true [(48, 53)]]]]].
Definition ci_orbits : list (list rune) := [[73; 105]; [70; 102]; [86; 118]; [75; 107; 8490]].
Definition ci_nl : list (bytes * bytes) :=
  [([239; 172; 129], [102; 105]); ([226; 132; 170; 120], [107; 120]); ([226; 132; 170], [107]);
   ([226], [239; 191; 189])].

(* "(?i:k.*|v0|...|v15)": the Kelvin sign U+212A folds to k, so "Kx" matches the
   expression, but the prefix-map key s[:1] = 0xE2 is not the key "k". *)
Definition cik_pat : str :=
  [40; 63; 105; 58; 107; 46; 42; 124; 118; 48; 124; 118; 49; 124; 118; 50; 124; 118; 51; 124; 118; 52;
   124; 118; 53; 124; 118; 54; 124; 118; 55; 124; 118; 56; 124; 118; 57; 124; 118; 49; 48; 124; 118;
   49; 49; 124; 118; 49; 50; 124; 118; 49; 51; 124; 118; 49; 52; 124; 118; 49; 53; 41].
Definition cik_ast : re :=
  RAlt [RConcat [RLit true [75]; RStar RAny];
        RConcat [RLit true [86];
                 RAlt [RClass true [(48, 57)]; RConcat [RLit true [49]; RClass true [(48, 53)]]]]].
