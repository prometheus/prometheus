(* proof/CompactMergeProofs.v — proofs for C07 (model/CompactMerge.v).
   Built on proof/IntervalsProofs.v (C20: Intervals.Add) and proof/MergeProofs.v (C19: k-way
   series-set merge, compacting chunk merger). *)
From Coq Require Import List ZArith Bool Lia Sorted Permutation.
From Verif Require Import lib.Int64 lib.SortedList model.Intervals proof.IntervalsProofs model.Merge
     proof.MergeProofs model.CompactMerge.
Import ListNotations.
Open Scope Z_scope.

Lemma coveredb_spec ivs t : coveredb ivs t = true <-> covered ivs t.
Proof.
  unfold coveredb, covered. rewrite existsb_exists, Exists_exists.
  split; intros [i [Hi H]]; exists i; (split; [exact Hi|]).
  - apply andb_true_iff in H as [H1 H2]. apply Z.leb_le in H1, H2. lia.
  - apply andb_true_iff. rewrite !Z.leb_le. lia.
Qed.

Lemma coveredb_false ivs t : coveredb ivs t = false <-> ~ covered ivs t.
Proof. rewrite <- coveredb_spec. destruct (coveredb ivs t); split; intros; congruence. Qed.

Lemma coveredb_ext a b t : (covered a t <-> covered b t) -> coveredb a t = coveredb b t.
Proof.
  intros H. destruct (coveredb a t) eqn:Ha, (coveredb b t) eqn:Hb; try reflexivity.
  - apply coveredb_spec, H, coveredb_spec in Ha. congruence.
  - apply coveredb_spec, H, coveredb_spec in Hb. congruence.
Qed.

Lemma in_bounds_spec i t : in_bounds i t = true <-> imin i <= t <= imax i.
Proof. unfold in_bounds. rewrite andb_true_iff, !Z.leb_le. tauto. Qed.

(* DeletedIterator.Next over canonical intervals and time-sorted samples = filter *)
Lemma del_check_spec ts : forall ivs, canonS ivs ->
  fst (del_check ts ivs) = negb (coveredb ivs ts) /\ canonS (snd (del_check ts ivs)) /\
  (forall t, ts <= t -> coveredb (snd (del_check ts ivs)) t = coveredb ivs t).
Proof.
  induction ivs as [|tr r IH]; intros Hc; [repeat split|].
  cbn [del_check]. pose proof Hc as (Hw & Hlt & Hr). rewrite Forall_forall in Hlt.
  destruct (in_bounds tr ts) eqn:Hb; [|destruct (Z.leb_spec ts (imax tr)) as [Hle|Hle]]; cbn [fst snd].
  - split; [|split; [exact Hc|reflexivity]]. apply in_bounds_spec in Hb.
    symmetry. apply negb_false_iff, coveredb_spec. left. exact Hb.
  - (* ts lies before tr, hence before all intervals *)
    split; [|split; [exact Hc|reflexivity]]. symmetry. apply negb_true_iff, coveredb_false. intros Hcov.
    apply Exists_cons in Hcov as [Hx|Hx]; [apply in_bounds_spec in Hx; congruence|].
    apply Exists_exists in Hx as [i [Hi Hin]]. specialize (Hlt i Hi). unfold lt_iv in Hlt. lia.
  - (* tr ends before ts: it covers nothing from ts on *)
    assert (Hdrop : forall t, ts <= t -> coveredb r t = coveredb (tr :: r) t).
    { intros t Ht. apply coveredb_ext. unfold covered. rewrite Exists_cons. split; [auto|]. intros [H|H]; [lia|exact H]. }
    destruct (IH Hr) as (H1 & H2 & H3).
    split; [rewrite H1, Hdrop by lia; reflexivity|]. split; [exact H2|].
    intros t Ht. rewrite H3, Hdrop by lia. reflexivity.
Qed.

Lemma del_filter_spec : forall l ivs, canonS ivs -> ssorted l ->
  del_filter ivs l = filter (fun s => negb (coveredb ivs (s_t s))) l.
Proof.
  induction l as [|s r IH]; intros ivs Hc Hs; [reflexivity|].
  cbn [del_filter filter]. destruct (del_check_spec (s_t s) ivs Hc) as (H1 & H2 & H3).
  destruct (del_check (s_t s) ivs) as [keep ivs']. cbn [fst snd] in *.
  apply StronglySorted_inv in Hs as [Hs' Hf]. rewrite Forall_forall in Hf.
  rewrite (IH ivs' H2 Hs'), (filter_ext_in _ (fun x => negb (coveredb ivs (s_t x))) r), H1; [reflexivity|].
  intros x Hx. f_equal. apply H3. specialize (Hf x Hx). lia.
Qed.

Definition kinds_uniform (c : chunk) : Prop :=
  forall x y, In x (c_smp c) -> In y (c_smp c) -> s_k x = s_k y.

Definition live (ivs : list interval) (s : sample) : bool := negb (coveredb ivs (s_t s)).

Lemma canonS_filter p ivs : canonS ivs -> canonS (filter p ivs).
Proof.
  rewrite !canonS_iff. intros [H1 H2]. split; [apply Forall_filter|apply StronglySorted_filter]; assumption.
Qed.

(* the intervals that overlap the chunk decide the same samples as all intervals *)
Lemma overlap_cover ivs c r : cb c ->
  (forall t, covered r t <-> Exists (fun n => imin n <= t <= imax n) (filter (overlaps_closed c) ivs)) ->
  forall x, In x (c_smp c) -> coveredb r (s_t x) = coveredb ivs (s_t x).
Proof.
  intros Hcb Hr x Hx. apply coveredb_ext. rewrite Hr. unfold covered.
  pose proof (cb_bounds c Hcb x Hx) as Hb.
  rewrite !Exists_exists. split; intros [i [Hi Hin]]; exists i; (split; [|exact Hin]).
  - apply filter_In in Hi. tauto.
  - apply filter_In. split; [exact Hi|].
    unfold overlaps_closed. apply andb_true_iff. rewrite !Z.leb_le. lia.
Qed.

Lemma cb_sub c c' : cb c -> cb c' -> incl (c_smp c') (c_smp c) ->
  c_min c <= c_min c' /\ c_max c' <= c_max c.
Proof.
  intros Hc Hc' Hi. destruct (cb_min c' Hc') as [x [Hx <-]]. destruct (cb_max c' Hc') as [y [Hy <-]].
  pose proof (cb_bounds c Hc x (Hi x Hx)). pose proof (cb_bounds c Hc y (Hi y Hy)). lia.
Qed.

Lemma del_chunk_spec ivs c : canonS ivs -> cb c -> kinds_uniform c ->
  (filter (live ivs) (c_smp c) = [] /\ del_chunk ivs c = Some None) \/
  (exists c', del_chunk ivs c = Some (Some c') /\ c_smp c' = filter (live ivs) (c_smp c) /\
              cb c' /\ kinds_uniform c').
Proof.
  intros Hc Hcb Hu. unfold del_chunk.
  destruct (adds_reachable (filter (overlaps_closed c) ivs)) as (r & -> & Hcr & Hcov).
  { apply Forall_filter, Forall_forall, canonS_wf, Hc. }
  pose proof (overlap_cover ivs c r Hcb Hcov) as Heq.
  assert (Hlive : forall x, In x (c_smp c) -> negb (coveredb r (s_t x)) = live ivs x).
  { intros x Hx. unfold live. rewrite (Heq x Hx). reflexivity. }
  destruct r as [|i0 r0].
  - (* no interval overlaps: the chunk is taken as it is *)
    right. exists c. split; [reflexivity|]. split; [|split; assumption].
    symmetry. apply filter_all. intros x Hx. rewrite <- (Hlive x Hx). reflexivity.
  - rewrite del_filter_spec, (filter_ext_in _ _ _ Hlive);
      [|apply canonical_canonS; exact Hcr|apply cb_sorted; exact Hcb].
    destruct (filter (live ivs) (c_smp c)) as [|s k] eqn:Hk; [left; split; reflexivity|right].
    assert (Hsub : incl (s :: k) (c_smp c)) by (rewrite <- Hk; apply incl_filter).
    assert (Hkinds : forall x y, In x (s :: k) -> In y (s :: k) -> s_k x = s_k y) by (intros x y Hx Hy; apply Hu; apply Hsub; assumption).
    assert (Hall : forallb (fun x => s_k x =? s_k s) k = true).
    { apply forallb_forall. intros x Hx. apply Z.eqb_eq, Hkinds; [right; exact Hx|left; reflexivity]. }
    rewrite Hall. eexists. split; [reflexivity|]. split; [reflexivity|]. split; [|exact Hkinds].
    apply cb_open; [eexists; reflexivity| |rewrite <- Hk; apply StronglySorted_filter, cb_sorted, Hcb].
    exists (removelast (s :: k)). replace (last k s) with (last (s :: k) s) by (destruct k; reflexivity).
    apply app_removelast_last. discriminate.
Qed.

Lemma smps_nil : smps [] = []. Proof. reflexivity. Qed.

Lemma del_chunks_spec ivs : canonS ivs -> forall cs, iter_ok cs -> Forall kinds_uniform cs ->
  exists out, del_chunks ivs cs = Some out /\ iter_ok out /\ Forall kinds_uniform out /\
    smps out = filter (live ivs) (smps cs).
Proof.
  intros Hc. induction cs as [|c r IH]; intros Hok Hu.
  - exists []. repeat split; constructor.
  - apply iter_ok_inv in Hok as (Hcb & Hokr & Hgap). apply Forall_cons_iff in Hu as [Hu1 Hu2].
    destruct (IH Hokr Hu2) as (out & He & [Ho1 Ho2] & Ho3 & Ho4).
    cbn [del_chunks]. rewrite He, smps_cons, filter_app.
    destruct (del_chunk_spec ivs c Hc Hcb Hu1) as [[Hk ->]|(c' & -> & Hs & Hcb' & Hu')].
    + exists out. rewrite Hk. repeat split; assumption.
    + exists (c' :: out). split; [reflexivity|]. split; [|split; [constructor; assumption|]].
      * split; [constructor; assumption|]. constructor; [exact Ho2|].
        (* every chunk of out holds a sample of r, which lies after c and so after c' *)
        apply Forall_forall. intros d Hd. destruct (cb_min d (Forall_in Ho1 d Hd)) as [y [Hy <-]].
        assert (Hyr : In y (smps r)).
        { eapply incl_filter. rewrite <- Ho4. apply in_smps. eauto. }
        apply in_smps in Hyr as (b & Hb & Hyb). specialize (Hgap b Hb).
        pose proof (cb_bounds b (Forall_in (proj1 Hokr) b Hb) y Hyb).
        destruct (cb_sub c c' Hcb Hcb') as [_ Hmax]; [rewrite Hs; apply incl_filter|]. lia.
      * rewrite smps_cons, Hs, Ho4. reflexivity.
Qed.

Record series_wf (s : bseries) : Prop := mkSW {
  sw_cb : Forall cb (bs_chunks s);
  sw_disj : cdisj (bs_chunks s);
  sw_unif : Forall kinds_uniform (bs_chunks s);
  sw_tombs : canonical (bs_tombs s);
  sw_int : forall c, In c (bs_chunks s) -> int64 (c_min c) /\ int64 (c_max c) }.

Lemma alive_spec mint maxt s x :
  alive mint maxt s x = true <-> mint <= s_t x <= maxt /\ ~ covered (bs_tombs s) (s_t x).
Proof.
  unfold alive. rewrite !andb_true_iff, !Z.leb_le, negb_true_iff, coveredb_false. tauto.
Qed.

Lemma all_smps_smps cs : all_smps cs = smps cs. Proof. reflexivity. Qed.

(* the chunks the prefilter drops hold no surviving sample *)
Lemma dropped_chunk mint maxt s c : cb c ->
  keep_chunk mint maxt (bs_tombs s) c = false -> filter (alive mint maxt s) (c_smp c) = [].
Proof.
  intros Hcb Hk. apply filter_none. intros x Hx.
  destruct (alive mint maxt s x) eqn:Ha; [|reflexivity]. exfalso.
  apply alive_spec in Ha as [Hr Hnc]. pose proof (cb_bounds c Hcb x Hx) as Hb.
  unfold keep_chunk in Hk. rewrite !andb_false_iff, !negb_false_iff, !Z.ltb_lt in Hk.
  destruct Hk as [[Hk|Hk]|Hk]; [lia|lia|].
  apply existsb_exists in Hk as [r [Hr1 Hr2]]. rewrite andb_true_iff, !in_bounds_spec in Hr2.
  apply Hnc, Exists_exists. exists r. split; [exact Hr1|lia].
Qed.

Lemma filter_kept_smps mint maxt s cs : Forall cb cs ->
  filter (alive mint maxt s) (smps (filter (keep_chunk mint maxt (bs_tombs s)) cs)) =
  filter (alive mint maxt s) (smps cs).
Proof.
  induction 1 as [|c r Hc Hr IH]; [reflexivity|].
  cbn [filter]. destruct (keep_chunk mint maxt (bs_tombs s) c) eqn:Hk.
  - rewrite !smps_cons, !filter_app, IH. reflexivity.
  - rewrite smps_cons, filter_app, (dropped_chunk mint maxt s c Hc Hk). exact IH.
Qed.

(* the optional trimming interval of blockBaseSeriesSet.Next; lo', hi': its ends as computed in int64 *)
Lemma trim_add (b : bool) ivs lo hi lo' hi' : canonical ivs ->
  (b = true -> lo' = lo /\ hi' = hi /\ wf_iv (mkI lo hi)) ->
  exists r, (if b then add ivs (mkI lo' hi') else Ok ivs) = Ok r /\ canonical r /\
            forall t, covered r t <-> covered ivs t \/ (b = true /\ lo <= t <= hi).
Proof.
  intros Hc Hw. destruct b.
  - destruct (Hw eq_refl) as (-> & -> & Hw'). destruct (add_spec ivs _ Hc Hw') as (r & Hr & Hcr & Hcov).
    exists r. split; [exact Hr|]. split; [exact Hcr|]. intros t. rewrite Hcov. cbn [imin imax]. tauto.
  - exists ivs. split; [reflexivity|]. split; [exact Hc|]. intros t. split; [tauto|].
    intros [H|[H _]]; [exact H|discriminate].
Qed.

Lemma base_series_spec mint maxt s : series_wf s -> int64 mint -> int64 maxt ->
  (base_series mint maxt s = Some None /\ filter (alive mint maxt s) (smps (bs_chunks s)) = []) \/
  (exists chks ivs, base_series mint maxt s = Some (Some (chks, ivs)) /\ canonS ivs /\
      iter_ok chks /\ Forall kinds_uniform chks /\
      filter (live ivs) (smps chks) = filter (alive mint maxt s) (smps (bs_chunks s))).
Proof.
  intros [Hcb Hd Hu Ht Hint] Hmi Hma. unfold base_series.
  rewrite <- (filter_kept_smps mint maxt s (bs_chunks s) Hcb).
  assert (Hin : forall c, In c (filter (keep_chunk mint maxt (bs_tombs s)) (bs_chunks s)) ->
                          cb c /\ int64 (c_min c) /\ int64 (c_max c)).
  { intros c Hc. apply filter_In in Hc as [Hc _]. split; [|apply Hint, Hc].
    apply (Forall_in Hcb), Hc. }
  assert (Hok : iter_ok (filter (keep_chunk mint maxt (bs_tombs s)) (bs_chunks s))).
  { split; [apply Forall_filter, Hcb|apply StronglySorted_filter, Hd]. }
  pose proof (Forall_filter _ (keep_chunk mint maxt (bs_tombs s)) _ Hu) as Hu'.
  destruct (filter _ (bs_chunks s)) as [|c0 r0]; [left; split; reflexivity|right].
  set (chks := c0 :: r0) in *. cbv zeta.
  set (tf := existsb (fun c => c_min c <? mint) chks). set (tb := existsb (fun c => maxt <? c_max c) chks).
  (* a chunk sticking out of the range keeps the trimming interval inside int64 *)
  destruct (trim_add tf (bs_tombs s) minInt64 (mint - 1) minInt64 (wrap64 (mint - 1)) Ht)
    as (ivs1 & -> & Hc1 & Hcov1).
  { intros E. apply existsb_exists in E as [c [Hc Hlt]]. apply Z.ltb_lt in Hlt.
    destruct (Hin c Hc) as (_ & Hi & _). unfold wf_iv, int64, minInt64, maxInt64 in *. cbn [imin imax].
    rewrite wrap64_id by (unfold int64, minInt64, maxInt64; lia). lia. }
  destruct (trim_add tb ivs1 (maxt + 1) maxInt64 (wrap64 (maxt + 1)) maxInt64 Hc1)
    as (ivs2 & -> & Hc2 & Hcov2).
  { intros E. apply existsb_exists in E as [c [Hc Hlt]]. apply Z.ltb_lt in Hlt.
    destruct (Hin c Hc) as (_ & _ & Hi). unfold wf_iv, int64, minInt64, maxInt64 in *. cbn [imin imax].
    rewrite wrap64_id by (unfold int64, minInt64, maxInt64; lia). lia. }
  exists chks, ivs2. split; [reflexivity|]. split; [apply canonical_canonS, Hc2|].
  split; [exact Hok|]. split; [exact Hu'|].
  apply filter_ext_in. intros x Hx. apply in_smps in Hx as [c [Hc Hxc]].
  destruct (Hin c Hc) as (Hcbc & Hi1 & Hi2). pose proof (cb_bounds c Hcbc x Hxc) as Hbx.
  (* outside the range x is covered by a trimming interval, for its chunk sticks out there *)
  assert (Htf : s_t x < mint -> tf = true).
  { intros H. apply existsb_exists. exists c. split; [exact Hc|]. apply Z.ltb_lt. lia. }
  assert (Htb : maxt < s_t x -> tb = true).
  { intros H. apply existsb_exists. exists c. split; [exact Hc|]. apply Z.ltb_lt. lia. }
  apply eq_iff_eq_true. unfold live. rewrite negb_true_iff, coveredb_false, alive_spec, Hcov2, Hcov1. split.
  - intros Hn. split; [|intros H; apply Hn; auto].
    destruct (Z.lt_ge_cases (s_t x) mint) as [H|H];
      [destruct Hn; left; right; split; [apply Htf, H|unfold int64 in *; lia]|].
    destruct (Z.lt_ge_cases maxt (s_t x)) as [H'|H']; [|lia].
    destruct Hn. right. split; [apply Htb, H'|unfold int64 in *; lia].
  - intros [Hr Hnc] [[H|[_ H]]|[_ H]]; [tauto|lia|lia].
Qed.

Definition bsorted (ss : list bseries) : Prop := StronglySorted (fun a b => bs_l a < bs_l b) ss.
Definition csorted (set : list cseries) : Prop := StronglySorted (fun a b => fst a < fst b) set.

(* what a block's chunk series set holds for series s: chunks cs *)
Definition set_entry (mint maxt : Z) (s : bseries) (cs : list chunk) : Prop :=
  iter_ok cs /\ Forall kinds_uniform cs /\ smps cs = filter (alive mint maxt s) (smps (bs_chunks s)).

(* the set of the series ss: label-sorted, every entry comes from a series of ss, and every
   series with a surviving sample has its entry *)
Definition set_rel (mint maxt : Z) (ss : list bseries) (set : list cseries) : Prop :=
  csorted set /\
  (forall l cs, In (l, cs) set -> exists s, In s ss /\ bs_l s = l /\ set_entry mint maxt s cs) /\
  (forall s, In s ss -> filter (alive mint maxt s) (smps (bs_chunks s)) <> [] ->
             exists cs, In (bs_l s, cs) set /\ set_entry mint maxt s cs).

Lemma block_set_spec mint maxt : int64 mint -> int64 maxt ->
  forall ss, Forall series_wf ss -> bsorted ss ->
  exists set, block_set mint maxt ss = Some set /\ set_rel mint maxt ss set.
Proof.
  intros Hmi Hma. induction ss as [|s r IH]; intros Hwf Hs.
  - exists []. split; [reflexivity|]. split; [constructor|]. split; [intros ? ? []|intros ? []].
  - apply Forall_cons_iff in Hwf as [Hw1 Hw2]. apply StronglySorted_inv in Hs as [Hs2 Hs1].
    destruct (IH Hw2 Hs2) as (set & He & Hcs & Hsound & Hcompl). cbn [block_set]. rewrite He.
    assert (Hsound' : forall l cs, In (l, cs) set -> exists s0, In s0 (s :: r) /\ bs_l s0 = l /\ set_entry mint maxt s0 cs).
    { intros l cs Hin. destruct (Hsound l cs Hin) as (s0 & Hs0 & Hrest). exists s0. split; [right; exact Hs0|exact Hrest]. }
    destruct (base_series_spec mint maxt s Hw1 Hmi Hma) as [[-> Hnil]|(chks & ivs & -> & Hci & Hok & Hu & Hsm)].
    + exists set. split; [reflexivity|]. split; [exact Hcs|]. split; [exact Hsound'|].
      intros s0 [<-|Hs0] Hne; [congruence|]. apply Hcompl; assumption.
    + destruct (del_chunks_spec ivs Hci chks Hok Hu) as (out & -> & Ho1 & Ho3 & Ho4).
      exists ((bs_l s, out) :: set). split; [reflexivity|].
      assert (Hent : set_entry mint maxt s out).
      { split; [exact Ho1|]. split; [exact Ho3|]. rewrite Ho4, Hsm. reflexivity. }
      split; [|split].
      * constructor; [exact Hcs|]. apply Forall_forall. intros [l cs] Hin. cbn [fst].
        destruct (Hsound l cs Hin) as (s0 & Hs0 & <- & _). apply (Forall_in Hs1), Hs0.
      * intros l cs [Heq|Hin]; [|apply Hsound', Hin].
        injection Heq as <- <-. exists s. split; [left; reflexivity|]. split; [reflexivity|exact Hent].
      * intros s0 [<-|Hs0] Hne; [exists out; split; [left; reflexivity|exact Hent]|].
        destruct (Hcompl s0 Hs0 Hne) as (cs & Hin & Hrest). exists cs. split; [right; exact Hin|exact Hrest].
Qed.

Definition block_wf (b : block) : Prop := Forall series_wf (b_series b) /\ bsorted (b_series b).

Lemma block_sets_spec mint maxt : int64 mint -> int64 maxt ->
  forall bs, Forall block_wf bs ->
  exists sets, block_sets mint maxt bs = Some sets /\
    Forall2 (fun b set => set_rel mint maxt (b_series b) set) bs sets.
Proof.
  intros Hmi Hma. induction bs as [|b r IH]; intros Hwf.
  - exists []. split; [reflexivity|constructor].
  - apply Forall_cons_iff in Hwf as [[H1 H2] Hr]. destruct (IH Hr) as (sets & He & Hf).
    destruct (block_set_spec mint maxt Hmi Hma (b_series b) H1 H2) as (set & Hs & Hrest).
    exists (set :: sets). cbn [block_sets]. rewrite Hs, He. split; [reflexivity|]. constructor; assumption.
Qed.

Definition tag (k : Z) (y : cseries) : series := mkSer (fst y) [mkS k 0 0].

Lemma tag_eq k k' y : k = k' -> tag k y = tag k' y.
Proof. intros ->. reflexivity. Qed.

Lemma tag_sets_in : forall sets i x, In x (concat (tag_sets i sets)) <->
  exists k set y, nth_error sets k = Some set /\ In y set /\ x = tag (i + Z.of_nat k) y.
Proof.
  induction sets as [|s r IH]; intros i x.
  - simpl. split; [intros []|]. intros (k & set & y & Hn & _). destruct k; discriminate.
  - cbn [tag_sets concat]. rewrite in_app_iff, IH, in_map_iff. split.
    + intros [(y & <- & Hy)|(k & set & y & Hn & Hy & ->)].
      * exists O, s, y. split; [reflexivity|]. split; [exact Hy|]. apply (tag_eq i). lia.
      * exists (S k), set, y. split; [exact Hn|]. split; [exact Hy|]. apply tag_eq. lia.
    + intros (k & set & y & Hn & Hy & ->). destruct k as [|k].
      * left. injection Hn as <-. exists y. split; [|exact Hy]. apply (tag_eq i). lia.
      * right. exists k, set, y. split; [exact Hn|]. split; [exact Hy|]. apply tag_eq. lia.
Qed.

Lemma tag_sets_lsorted : forall sets i, Forall csorted sets -> Forall lsorted (tag_sets i sets).
Proof.
  induction sets as [|s r IH]; intros i H; [constructor|]. apply Forall_cons_iff in H as [H1 H2].
  cbn [tag_sets]. constructor; [|apply IH, H2]. revert H1. apply StronglySorted_map. auto.
Qed.

Lemma find_csorted set : csorted set -> forall y, In y set -> find (fun z => fst z =? fst y) set = Some y.
Proof.
  induction 1 as [|a l Hs IH Hf]; intros y Hy; [destruct Hy|].
  cbn [find]. destruct Hy as [<-|Hy]; [rewrite Z.eqb_refl; reflexivity|].
  apply (Forall_in Hf) in Hy as Hlt.
  destruct (Z.eqb_spec (fst a) (fst y)); [lia|]. apply IH, Hy.
Qed.

Lemma resolve_tag sets k set y : Forall csorted sets -> nth_error sets k = Some set -> In y set ->
  resolve sets (tag (Z.of_nat k) y) = Some (snd y).
Proof.
  intros Hcs Hn Hy. unfold resolve, tag. cbn [ser_s ser_l s_t]. rewrite Nat2Z.id, Hn.
  rewrite (find_csorted set (Forall_in Hcs set (nth_error_In _ _ Hn)) y Hy). reflexivity.
Qed.

Lemma resolve_all_spec sets : forall g, (forall x, In x g -> exists cs, resolve sets x = Some cs) ->
  exists css, resolve_all sets g = Some css /\ Forall2 (fun x cs => resolve sets x = Some cs) g css.
Proof.
  induction g as [|x g IH]; intros H; [exists []; split; [reflexivity|constructor]|].
  destruct (H x (or_introl eq_refl)) as (cs & Hcs).
  destruct IH as (css & He & Hf); [intros x0 Hx0; apply H; right; exact Hx0|].
  exists (cs :: css). cbn [resolve_all]. rewrite Hcs, He. split; [reflexivity|]. constructor; assumption.
Qed.

Definition cnt (p : chunk -> bool) (cs : list chunk) : Z :=
  fold_right (fun c a => if p c then nsamples c + a else a) 0 cs.
Definition is_hist (c : chunk) : bool := (chunk_kind c =? 2) || (chunk_kind c =? 3).
Definition is_float (c : chunk) : bool := chunk_kind c =? 1.

Lemma cnt_app p a b : cnt p (a ++ b) = cnt p a + cnt p b.
Proof. induction a as [|c a IH]; simpl; [reflexivity|]. rewrite IH. destruct (p c); lia. Qed.

Lemma fold_chunk_stats : forall chks st,
  fold_left add_chunk_stats chks st =
  mkSt (st_series st) (st_chunks st) (st_samples st + cnt (fun _ => true) chks)
       (st_hist st + cnt is_hist chks) (st_float st + cnt is_float chks).
Proof.
  induction chks as [|c r IH]; intros st.
  - simpl. destruct st; simpl. f_equal; lia.
  - cbn [fold_left]. rewrite IH. unfold add_chunk_stats. cbn [st_series st_chunks st_samples st_hist st_float cnt fold_right].
    fold (cnt (fun _ => true) r) (cnt is_hist r) (cnt is_float r). unfold is_hist at 2, is_float at 2.
    destruct ((chunk_kind c =? 2) || (chunk_kind c =? 3)), (chunk_kind c =? 1); f_equal; lia.
Qed.

Lemma fold_series_stats : forall (out : list cseries) st,
  fold_left add_series_stats (map (@snd _ _) out) st =
  let cs := flat_map (@snd _ _) out in
  mkSt (st_series st + Z.of_nat (length out)) (st_chunks st + Z.of_nat (length cs))
       (st_samples st + cnt (fun _ => true) cs) (st_hist st + cnt is_hist cs) (st_float st + cnt is_float cs).
Proof.
  induction out as [|o r IH]; intros st.
  - simpl. destruct st; simpl. f_equal; lia.
  - cbn [map fold_left]. rewrite IH. unfold add_series_stats. rewrite fold_chunk_stats.
    cbn [st_series st_chunks st_samples st_hist st_float flat_map]. cbv zeta.
    rewrite !cnt_app, app_length. cbn [length]. f_equal; lia.
Qed.

Lemma stats_count out : fold_left add_series_stats (map (@snd _ _) out) stats0 = count_stats out.
Proof. rewrite fold_series_stats. reflexivity. Qed.

Definition group_res (css : list (list chunk)) (chks : list chunk) : Prop :=
  Forall cb chks /\ cdisj chks /\
  map s_t (smps chks) = merged_ts (map c_smp (concat css)) /\
  incl (smps chks) (smps (concat css)).

Lemma merge_group_spec ch css : css <> [] -> Forall iter_ok css -> above (smps (concat css)) ->
  exists chks ch', merge_group ch true css = (Some chks, ch') /\ group_res css chks.
Proof.
  intros Hne Hok Hab. destruct css as [|a [|b r]]; [congruence| |].
  - exists a, ch. split; [reflexivity|]. apply Forall_inv in Hok as [H1 H2].
    unfold group_res. cbn [concat]. rewrite app_nil_r. split; [exact H1|]. split; [exact H2|].
    split; [|apply incl_refl]. apply merged_ts_unique; [apply ssorted_ts, out_sorted; assumption|reflexivity].
  - destruct (compact_chunks_correct ch (a :: b :: r) Hok Hab) as (out & ch' & He & H1 & H2 & H3 & H4).
    exists out, ch'. split; [exact He|]. repeat split; assumption.
Qed.

Lemma cdisj_inorder cs : cdisj cs -> chunks_inorder cs = true.
Proof.
  induction 1 as [|a l Hs IH Hf]; [reflexivity|]. destruct l as [|b l]; [reflexivity|].
  change (chunks_inorder (a :: b :: l)) with ((c_max a <? c_min b) && chunks_inorder (b :: l)).
  rewrite IH. apply Forall_inv in Hf. apply andb_true_iff. split; [apply Z.ltb_lt; assumption|reflexivity].
Qed.

(* the group g resolves and merges, under every tie-breaking, to ordered chunks of which Q holds *)
Definition group_yields sets (Q : Z -> list chunk -> Prop) (g : list series) : Prop :=
  g <> [] /\ exists css, resolve_all sets g = Some css /\
    forall ch, exists chks ch', merge_group ch true css = (Some chks, ch') /\
                                cdisj chks /\ Q (group_label g) chks.

(* A group whose chunks are all deleted is skipped; the labels written are among those of the
   groups, in order. *)
Lemma populate_loop_spec sets (Q : Z -> list chunk -> Prop) : forall groups ch st,
  (forall g, In g groups -> group_yields sets Q g) ->
  exists out st' ch', populate_loop ch true sets groups st = (Some (out, st'), ch') /\
    st' = fold_left add_series_stats (map (@snd _ _) out) st /\
    (forall b, StronglySorted Z.lt (b :: map group_label groups) -> StronglySorted Z.lt (b :: map fst out)) /\
    (forall l chks, In (l, chks) out -> chks <> [] /\ Q l chks) /\
    (forall g, In g groups -> In (group_label g) (map fst out) \/ Q (group_label g) []).
Proof.
  induction groups as [|g rest IH]; intros ch st H.
  - exists [], st, ch. split; [reflexivity|]. split; [reflexivity|]. split; [auto|]. split; [intros ? ? []|intros ? []].
  - destruct (H g (or_introl eq_refl)) as (Hne & css & Hres & Hm).
    destruct (Hm ch) as (chks & ch1 & Hmg & Hd & HQ).
    destruct g as [|x g']; [congruence|]. cbn [populate_loop]. rewrite Hres, Hmg.
    assert (Hdrop : forall b, StronglySorted Z.lt (b :: map group_label ((x :: g') :: rest)) ->
                              StronglySorted Z.lt (b :: map group_label rest)).
    { intros b Hb. apply StronglySorted_inv in Hb as [Hb1 Hb2]. apply StronglySorted_inv in Hb1 as [Hb1 _].
      apply Forall_inv_tail in Hb2. constructor; assumption. }
    destruct chks as [|c0 chks0].
    + destruct (IH ch1 st (fun g0 Hg0 => H g0 (or_intror Hg0))) as (out & st' & ch' & He & Hst & Hso & Hout & Hin).
      exists out, st', ch'. split; [exact He|]. split; [exact Hst|]. split; [|split; [exact Hout|]].
      * intros b Hb. apply Hso, Hdrop, Hb.
      * intros g0 [<-|Hg0]; [right; exact HQ|apply Hin, Hg0].
    + rewrite (cdisj_inorder _ Hd). cbn [negb].
      destruct (IH ch1 (add_series_stats st (c0 :: chks0)) (fun g0 Hg0 => H g0 (or_intror Hg0)))
        as (out & st' & ch' & -> & Hst & Hso & Hout & Hin).
      exists ((ser_l x, c0 :: chks0) :: out), st', ch'. split; [reflexivity|]. split; [exact Hst|].
      split; [|split].
      * intros b Hb. apply StronglySorted_inv in Hb as [Hb1 Hb2]. apply Forall_inv in Hb2.
        apply sorted_cons_lt; [exact Hb2|apply Hso, Hb1].
      * intros l chks [E|Hin']; [injection E as <- <-; split; [discriminate|exact HQ]|apply Hout, Hin'].
      * intros g0 [<-|Hg0]; [left; left; reflexivity|]. destruct (Hin g0 Hg0) as [H0|H0]; [left; right; exact H0|right; exact H0].
Qed.

Lemma Forall2_in_l {A B} (P : A -> B -> Prop) l1 l2 : Forall2 P l1 l2 ->
  forall a, In a l1 -> exists b, In b l2 /\ P a b.
Proof. exact (SortedList.Forall2_in_l P l1 l2). Qed.

Lemma Forall2_in_r {A B} (P : A -> B -> Prop) l1 l2 : Forall2 P l1 l2 ->
  forall b, In b l2 -> exists a, In a l1 /\ P a b.
Proof.
  induction 1 as [|x y l1 l2 Hxy Hf IH]; intros b Hb; [destruct Hb|].
  destruct Hb as [<-|Hb]; [exists x; split; [left; reflexivity|exact Hxy]|].
  destruct (IH b Hb) as (a & Ha & Hp). exists a. split; [right; exact Ha|exact Hp].
Qed.

Lemma in_survivors mint maxt blocks l x : In x (survivors mint maxt blocks l) <->
  exists b s, In b blocks /\ In s (b_series b) /\ bs_l s = l /\
              In x (filter (alive mint maxt s) (smps (bs_chunks s))).
Proof.
  unfold survivors. rewrite in_flat_map. split.
  - intros (b & Hb & Hx). apply in_flat_map in Hx as (s & Hs & Hx).
    destruct (Z.eqb_spec (bs_l s) l) as [E|E]; [|destruct Hx]. exists b, s. auto.
  - intros (b & s & Hb & Hs & Hl & Hx). exists b. split; [exact Hb|]. apply in_flat_map.
    exists s. split; [exact Hs|]. apply Z.eqb_eq in Hl. rewrite Hl. exact Hx.
Qed.

Lemma smps_concat_in css x : In x (smps (concat css)) <-> exists cs, In cs css /\ In x (smps cs).
Proof.
  induction css as [|cs css IH]; cbn [concat].
  - split; [intros []|intros (cs & [] & _)].
  - rewrite smps_app, in_app_iff, IH. split.
    + intros [H|(cs' & H1 & H2)]; [exists cs; split; [left; reflexivity|exact H]|].
      exists cs'. split; [right; exact H1|exact H2].
    + intros (cs' & [<-|H1] & H2); [left; exact H2|right; exists cs'; split; assumption].
Qed.

Lemma label_unique (groups : list (list series)) :
  StronglySorted Z.lt (map group_label groups) ->
  forall a b, In a groups -> In b groups -> group_label a = group_label b -> a = b.
Proof.
  induction groups as [|g r IH]; intros Hs a b Ha Hb Hl; [destruct Ha|].
  cbn [map] in Hs. apply StronglySorted_inv in Hs as [Hs' Hf]. rewrite Forall_forall in Hf.
  destruct Ha as [<-|Ha], Hb as [<-|Hb]; [reflexivity| | |apply IH; assumption].
  - specialize (Hf (group_label b) (in_map _ _ _ Hb)). lia.
  - specialize (Hf (group_label a) (in_map _ _ _ Ha)). lia.
Qed.

Definition blocks_above (blocks : list block) : Prop :=
  forall b s x, In b blocks -> In s (b_series b) -> In x (smps (bs_chunks s)) -> minInt64 < s_t x.

Definition series_ok (mint maxt : Z) (blocks : list block) (l : Z) (chks : list chunk) : Prop :=
  Forall cb chks /\ cdisj chks /\
  map s_t (smps chks) = dedup_ts (survivors mint maxt blocks l) /\
  (forall x, In x (smps chks) -> In x (survivors mint maxt blocks l)).

Lemma merged_ts_members A B :
  (forall x, In x (concat A) <-> In x (concat B)) -> merged_ts A = merged_ts B.
Proof.
  intros H. destruct (merged_ts_in A) as [Ha1 Ha2]. apply merged_ts_unique; [exact Ha1|].
  intros t. rewrite Ha2. apply map_mem, H.
Qed.

Section Groups.
  Variables (mint maxt : Z) (blocks : list block) (sets : list (list cseries)) (groups : list (list series)).
  Hypothesis Hrel : Forall2 (fun b set => set_rel mint maxt (b_series b) set) blocks sets.
  Hypothesis Habove : blocks_above blocks.
  Hypothesis Hperm : Permutation (concat groups) (concat (tag_sets 0 sets)).
  Hypothesis Hlab : Forall (fun g => g <> [] /\ forall s, In s g -> ser_l s = group_label g) groups.
  Hypothesis Hsorted : StronglySorted Z.lt (map group_label groups).

  Lemma sets_csorted : Forall csorted sets.
  Proof.
    apply Forall_forall. intros set Hin. destruct (Forall2_in_r _ _ _ Hrel set Hin) as (b & _ & H & _). exact H.
  Qed.

  (* the members of the groups are the tagged entries of the sets *)
  Lemma group_member x : In x (concat groups) <->
    exists k set y, nth_error sets k = Some set /\ In y set /\ x = tag (Z.of_nat k) y.
  Proof. rewrite (perm_mem Hperm). apply tag_sets_in. Qed.

  (* an entry of the k-th set sits, tagged, in the group of its label *)
  Lemma entry_group k set l cs : nth_error sets k = Some set -> In (l, cs) set ->
    exists g, In g groups /\ group_label g = l /\ In (tag (Z.of_nat k) (l, cs)) g.
  Proof.
    intros Hn Hy.
    assert (Hx : In (tag (Z.of_nat k) (l, cs)) (concat groups)) by (apply group_member; eauto 6).
    apply in_concat in Hx as (g & Hg & Hx). exists g. split; [exact Hg|]. split; [|exact Hx].
    symmetry. apply (proj2 (Forall_in Hlab g Hg) _ Hx).
  Qed.

  Lemma entry_survivors set l cs : In set sets -> In (l, cs) set ->
    iter_ok cs /\ incl (smps cs) (survivors mint maxt blocks l).
  Proof.
    intros Hset Hy. destruct (Forall2_in_r _ _ _ Hrel set Hset) as (b & Hb & _ & Hsound & _).
    destruct (Hsound l cs Hy) as (s & Hs & Hl & Hok & _ & Hsm). split; [exact Hok|].
    intros z Hz. apply in_survivors. exists b, s. rewrite <- Hsm. auto.
  Qed.

  Lemma survivor_entry l z : In z (survivors mint maxt blocks l) ->
    exists k set cs, nth_error sets k = Some set /\ In (l, cs) set /\ In z (smps cs).
  Proof.
    intros Hz. apply in_survivors in Hz as (b & s & Hb & Hs & <- & Hz).
    destruct (Forall2_in_l _ _ _ Hrel b Hb) as (set & Hset & _ & _ & Hcompl).
    destruct (Hcompl s Hs) as (cs & Hin & _ & _ & Hsm); [intros E; rewrite E in Hz; destruct Hz|].
    apply In_nth_error in Hset as [k Hk]. exists k, set, cs. rewrite Hsm. auto.
  Qed.

  Lemma group_spec g : In g groups ->
    g <> [] /\ exists css, resolve_all sets g = Some css /\ css <> [] /\ Forall iter_ok css /\
      (forall z, In z (smps (concat css)) <-> In z (survivors mint maxt blocks (group_label g))).
  Proof.
    intros Hg. destruct (Forall_in Hlab g Hg) as [Hne Hsame]. split; [exact Hne|].
    (* every member x of g is tag k y for an entry y, and resolves to the chunks of y *)
    assert (Hmem : forall x, In x g -> exists k set y, nth_error sets k = Some set /\ In y set /\
                     x = tag (Z.of_nat k) y /\ fst y = group_label g /\ resolve sets x = Some (snd y)).
    { intros x Hx. destruct (proj1 (group_member x)) as (k & set & y & Hn & Hy & ->); [apply in_concat; eauto|].
      exists k, set, y. split; [exact Hn|]. split; [exact Hy|]. split; [reflexivity|].
      split; [apply (Hsame _ Hx)|apply (resolve_tag sets k set y sets_csorted Hn Hy)]. }
    destruct (resolve_all_spec sets g) as (css & He & Hf2).
    { intros x Hx. destruct (Hmem x Hx) as (k & set & y & _ & _ & _ & _ & Hr). eauto. }
    exists css. split; [exact He|].
    assert (Hsound : forall cs, In cs css -> iter_ok cs /\
              incl (smps cs) (survivors mint maxt blocks (group_label g))).
    { intros cs Hcs. destruct (Forall2_in_r _ _ _ Hf2 cs Hcs) as (x & Hx & Hr).
      destruct (Hmem x Hx) as (k & set & [l cs'] & Hn & Hy & _ & <- & Hr'). rewrite Hr in Hr'. injection Hr' as ->.
      apply (entry_survivors set); [eapply nth_error_In; eauto|exact Hy]. }
    split; [|split].
    - destruct g as [|x g']; [congruence|]. inversion Hf2; subst. discriminate.
    - apply Forall_forall. intros cs Hcs. apply Hsound, Hcs.
    - intros z. rewrite smps_concat_in. split.
      + intros (cs & Hcs & Hz). apply (Hsound cs Hcs), Hz.
      + intros Hz. destruct (survivor_entry _ z Hz) as (k & set & cs & Hn & Hy & Hzc).
        (* the group that holds the tagged entry is, by its label, g *)
        destruct (entry_group k set _ cs Hn Hy) as (g' & Hg' & Hl' & Hx).
        apply (label_unique groups Hsorted g' g Hg' Hg) in Hl'. subst g'.
        destruct (Forall2_in_l _ _ _ Hf2 _ Hx) as (cs' & Hcs' & Hr).
        rewrite (resolve_tag sets k set _ sets_csorted Hn Hy) in Hr. injection Hr as <-. eauto.
  Qed.

  Lemma group_merge g : In g groups -> group_yields sets (series_ok mint maxt blocks) g.
  Proof.
    intros Hg. destruct (group_spec g Hg) as (Hne & css & He & Hcne & Hok & Hmem).
    split; [exact Hne|]. exists css. split; [exact He|]. intros ch.
    destruct (merge_group_spec ch css Hcne Hok) as (chks & ch' & Hm & G1 & G2 & G3 & G4).
    { intros z Hz. apply Hmem, in_survivors in Hz as (b & s & Hb & Hs & _ & Hin).
      apply filter_In in Hin as [Hin _]. eapply Habove; eauto. }
    exists chks, ch'. split; [exact Hm|]. split; [exact G2|]. split; [exact G1|]. split; [exact G2|].
    split; [|intros x Hx; apply Hmem, G4, Hx].
    rewrite G3. apply merged_ts_members. intros x. cbn [concat]. rewrite app_nil_r. apply Hmem.
  Qed.

  Lemma survivor_group l z : In z (survivors mint maxt blocks l) -> exists g, In g groups /\ group_label g = l.
  Proof.
    intros Hz. destruct (survivor_entry l z Hz) as (k & set & cs & Hn & Hy & _).
    destruct (entry_group k set l cs Hn Hy) as (g & Hg & Hl & _). eauto.
  Qed.
End Groups.

Definition inputs_ok (blocks : list block) (mint maxt : Z) : Prop :=
  blocks <> [] /\ Forall block_wf blocks /\ blocks_above blocks /\ int64 mint /\ minInt64 < maxt <= maxInt64.

Theorem populate_block_correct ch blocks mint maxt : inputs_ok blocks mint maxt ->
  exists out st ch', populate_block ch true blocks mint maxt = (Some (out, st), ch') /\
    StronglySorted Z.lt (map fst out) /\
    (forall l chks, In (l, chks) out -> chks <> [] /\ series_ok mint (maxt - 1) blocks l chks) /\
    (forall l, survivors mint (maxt - 1) blocks l <> [] -> In l (map fst out)) /\
    st = count_stats out.
Proof.
  intros (Hne & Hwf & Hab & Hmi & Hma). unfold populate_block.
  destruct blocks as [|b0 br] eqn:Eb; [congruence|]. rewrite <- Eb in *. clear Eb Hne.
  rewrite wrap64_id by (unfold int64, minInt64, maxInt64 in *; lia). set (mx := maxt - 1).
  destruct (block_sets_spec mint mx Hmi) with (bs := blocks) as (sets & -> & Hrel);
    [unfold mx, int64, minInt64, maxInt64 in *; lia|exact Hwf|].
  pose proof (sets_csorted mint mx blocks sets Hrel) as Hcs.
  destruct (merge_sets_correct ch (tag_sets 0 sets) (tag_sets_lsorted sets 0 Hcs))
    as (groups & ch1 & -> & Hperm & Hlab & Hsorted).
  destruct (populate_loop_spec sets (series_ok mint mx blocks) groups ch1 stats0)
    as (out & st & ch2 & -> & Hst & Hso & Hout & Hin).
  { apply (group_merge mint mx blocks sets groups Hrel Hab Hperm Hlab Hsorted). }
  exists out, st, ch2. split; [reflexivity|]. split; [|split; [exact Hout|split]].
  - destruct (lower_bound (map group_label groups)) as [b Hb].
    apply (StronglySorted_inv (a := b)), Hso. constructor; [exact Hsorted|apply Forall_forall, Hb].
  - intros l Hsurv. destruct (survivors mint mx blocks l) as [|z zs] eqn:Ez; [congruence|].
    assert (Hz : In z (survivors mint mx blocks l)) by (rewrite Ez; left; reflexivity).
    destruct (survivor_group mint mx blocks sets groups Hrel Hperm Hlab l z Hz) as (g & Hg & <-).
    destruct (Hin g Hg) as [H|(_ & _ & H & _)]; [exact H|exfalso].
    (* nothing written for the group: its survivors have no timestamp *)
    destruct (merged_ts_in [survivors mint mx blocks (group_label g)]) as [_ Hm].
    unfold dedup_ts in H. rewrite <- H in Hm. apply (Hm (s_t z)), in_map. cbn [concat]. rewrite app_nil_r. exact Hz.
  - rewrite Hst. apply stats_count.
Qed.

Lemma pb_total ch blocks mint maxt : inputs_ok blocks mint maxt ->
  exists out st ch', populate_block ch true blocks mint maxt = (Some (out, st), ch').
Proof.
  intros H. destruct (populate_block_correct ch blocks mint maxt H) as (out & st & ch' & E & _). eauto.
Qed.

Lemma pb_correct ch blocks mint maxt out st ch' : inputs_ok blocks mint maxt ->
  populate_block ch true blocks mint maxt = (Some (out, st), ch') ->
  StronglySorted Z.lt (map fst out) /\
  (forall l chks, In (l, chks) out -> chks <> [] /\ series_ok mint (maxt - 1) blocks l chks) /\
  (forall l, survivors mint (maxt - 1) blocks l <> [] -> In l (map fst out)) /\
  st = count_stats out.
Proof.
  intros H He. destruct (populate_block_correct ch blocks mint maxt H) as (out' & st' & ch'' & E & P).
  rewrite E in He. injection He as <- <- <-. exact P.
Qed.

Lemma pb_series ch blocks mint maxt out st ch' : inputs_ok blocks mint maxt ->
  populate_block ch true blocks mint maxt = (Some (out, st), ch') ->
  StronglySorted Z.lt (map fst out) /\
  forall l, In l (map fst out) <-> survivors mint (maxt - 1) blocks l <> [].
Proof.
  intros H He. destruct (pb_correct _ _ _ _ _ _ _ H He) as (P1 & P2 & P3 & _).
  split; [exact P1|]. intros l. split; [|apply P3].
  intros Hin. apply in_map_iff in Hin as ([l' chks] & <- & Hin). cbn [fst].
  destruct (P2 l' chks Hin) as (A & B & _ & _ & D).
  (* the first chunk holds a sample, which is a survivor *)
  destruct chks as [|c r]; [congruence|]. apply Forall_inv in B.
  destruct (cb_min c B) as [x [Hx _]]. specialize (D x (in_or_app _ _ _ (or_introl Hx))).
  intros En. rewrite En in D. exact D.
Qed.

Lemma uniform_one a k v : kinds_uniform (mkC a a [mkS a k v]).
Proof. intros x y [<-|[]] [<-|[]]. reflexivity. Qed.
Lemma uniform_two a b k v w : kinds_uniform (mkC a b [mkS a k v; mkS b k w]).
Proof. intros x y [<-|[<-|[]]] [<-|[<-|[]]]; reflexivity. Qed.

Lemma series_wf_intro l cs tombs : Forall cb cs -> cdisj cs -> Forall kinds_uniform cs -> canonical tombs ->
  Forall (fun c => int64 (c_min c) /\ int64 (c_max c)) cs -> series_wf (mkBS l cs tombs).
Proof. intros H1 H2 H3 H4 H5. constructor; try assumption. apply Forall_forall, H5. Qed.

Lemma blocks_above_intro blocks :
  Forall (fun b => Forall (fun s => Forall (fun x => minInt64 < s_t x) (smps (bs_chunks s))) (b_series b)) blocks ->
  blocks_above blocks.
Proof.
  intros H b s x Hb Hs. apply (Forall_in H) in Hb.
  apply (Forall_in Hb) in Hs. apply (Forall_in Hs).
Qed.

(* The hypotheses about a closed input are trees of Forall / StronglySorted / conjunctions over
   its chunks (all of the two shapes of cb_one and cb_two), with comparisons of numerals as leaves:
   auto takes them apart by the head symbol. *)
Create HintDb closed discriminated.
#[local] Hint Resolve Forall_cons Forall_nil SSorted_cons SSorted_nil conj cb_two cb_one uniform_two uniform_one
  series_wf_intro blocks_above_intro : closed.
#[local] Hint Unfold inputs_ok block_wf cdisj bsorted wf_iv int64 : closed.
#[local] Hint Extern 1 (_ < _) => reflexivity : closed.
#[local] Hint Extern 1 (_ <= _) => discriminate : closed.
#[local] Hint Extern 1 (_ <> _) => discriminate : closed.
#[local] Hint Extern 5 => progress cbn : closed.

Definition ex_blocks : list block :=
  [mkB 0 31 [mkBS 0 [mkC 0 10 [mkS 0 1 1; mkS 10 1 1]; mkC 20 30 [mkS 20 1 1; mkS 30 1 1]] [mkI 10 20]];
   mkB 5 26 [mkBS 0 [mkC 5 10 [mkS 5 1 2; mkS 10 1 2]; mkC 25 25 [mkS 25 1 2]] [];
             mkBS 3 [mkC 7 7 [mkS 7 2 9]] []]].

Lemma ex_blocks_ok : inputs_ok ex_blocks 0 26.
Proof. unfold ex_blocks. auto 40 with closed. Qed.

(* block 1 loses t=10,20 to its tombstone and t=30 to the range; t=10 survives through block 2 *)
Lemma ex_blocks_run :
  fst (populate_block [] true ex_blocks 0 26) =
  Some ([(0, [mkC 0 0 [mkS 0 1 1]; mkC 5 10 [mkS 5 1 2; mkS 10 1 2]; mkC 25 25 [mkS 25 1 2]]);
         (3, [mkC 7 7 [mkS 7 2 9]])], mkSt 2 4 5 1 4) /\
  survivors 0 25 ex_blocks 0 = [mkS 0 1 1; mkS 5 1 2; mkS 10 1 2; mkS 25 1 2].
Proof. split; vm_compute; reflexivity. Qed.

Definition cc_blocks : list block :=
  [mkB 0 11 [mkBS 0 [mkC 0 10 [mkS 0 1 1; mkS 10 1 1]] []];
   mkB 20 31 [mkBS 0 [mkC 20 30 [mkS 20 1 1; mkS 30 1 1]] []];
   mkB 40 51 [mkBS 0 [mkC 40 50 [mkS 40 1 1; mkS 50 1 1]] []]].

(* With the concatenating merger the order of the concatenation is the pop order of equal keys
   from the heap of sets: under one tie-breaking the chunks come out of time order and
   index.Writer.AddSeries rejects them (the compaction fails), under another they are in order.
   The compacting merger is insensitive to it. *)
Lemma concat_order_dependent :
  inputs_ok cc_blocks 0 51 /\
  fst (populate_block [] false cc_blocks 0 51) = None /\
  (exists out st, fst (populate_block [2%nat; 1%nat] false cc_blocks 0 51) = Some (out, st)) /\
  (exists out st, fst (populate_block [] true cc_blocks 0 51) = Some (out, st)).
Proof.
  split; [unfold cc_blocks; auto 40 with closed|]. split; [vm_compute; reflexivity|].
  split; eexists; eexists; vm_compute; reflexivity.
Qed.

(* LeveledCompactor.Compact: the range computed by CompactBlockMetas covers every input block, so
   nothing is trimmed. fold_best: the running minimum (R = <=, better a m = a <? m) and maximum (R r x = x <= r, better a m = m <? a) *)
Lemma fold_best (f : block -> Z) (better : Z -> Z -> bool) (R : Z -> Z -> Prop) :
  (forall a, R a a) -> (forall a b c, R a b -> R b c -> R a c) ->
  (forall a m, if better a m then R a m else R m a) ->
  forall l init, let r := fold_left (fun m x => if better (f x) m then f x else m) l init in
  R r init /\ (forall b, In b l -> R r (f b)) /\ (r = init \/ exists b, In b l /\ r = f b).
Proof.
  intros Hrefl Htrans Hbetter. induction l as [|a l IH]; intros init; cbn [fold_left].
  - split; [apply Hrefl|]. split; [intros ? []|left; reflexivity].
  - destruct (IH (if better (f a) init then f a else init)) as (H1 & H2 & H3).
    specialize (Hbetter (f a) init). destruct (better (f a) init).
    + split; [eapply Htrans; eassumption|]. split; [intros b [<-|Hb]; [exact H1|apply H2, Hb]|]. right.
      destruct H3 as [H3|(b & Hb & H3)]; [exists a; split; [left; reflexivity|exact H3]|exists b; split; [right; exact Hb|exact H3]].
    + split; [exact H1|]. split; [intros b [<-|Hb]; [eapply Htrans; eassumption|apply H2, Hb]|].
      destruct H3 as [H3|(b & Hb & H3)]; [left; exact H3|right; exists b; split; [right; exact Hb|exact H3]].
Qed.

Lemma compact_range_spec blocks : blocks <> [] ->
  (forall b, In b blocks -> fst (compact_range blocks) <= b_min b /\ b_max b <= snd (compact_range blocks)) /\
  (exists b, In b blocks /\ fst (compact_range blocks) = b_min b) /\
  (exists b, In b blocks /\ snd (compact_range blocks) = b_max b).
Proof.
  destruct blocks as [|b0 r]; [congruence|]. intros _. unfold compact_range. cbn [fst snd].
  destruct (fold_best b_min (fun a m => a <? m) Z.le Z.le_refl Z.le_trans) with (l := b0 :: r) (init := b_min b0)
    as (_ & A2 & A3); [intros a m; destruct (Z.ltb_spec a m); lia|].
  destruct (fold_best b_max (fun a m => m <? a) (fun r x => x <= r) Z.le_refl (fun a b c H1 H2 => Z.le_trans _ _ _ H2 H1))
    with (l := b0 :: r) (init := b_max b0)
    as (_ & B2 & B3); [intros a m; destruct (Z.ltb_spec m a); lia|].
  split; [intros b Hb; split; [apply A2, Hb|apply B2, Hb]|]. split.
  - destruct A3 as [A3|A3]; [exists b0; split; [left; reflexivity|exact A3]|exact A3].
  - destruct B3 as [B3|B3]; [exists b0; split; [left; reflexivity|exact B3]|exact B3].
Qed.

(* every sample of every input that is in no deleted interval of its series in its block *)
Definition undeleted (blocks : list block) (l : Z) : list sample :=
  flat_map (fun b => flat_map (fun s => if bs_l s =? l
                                        then filter (fun x => negb (coveredb (bs_tombs s) (s_t x))) (all_smps (bs_chunks s))
                                        else []) (b_series b)) blocks.

(* the block metas are honest: int64 bounds and every sample inside [MinTime, MaxTime) *)
Definition metas_ok (blocks : list block) : Prop :=
  forall b, In b blocks -> int64 (b_min b) /\ minInt64 < b_max b <= maxInt64 /\
    forall s x, In s (b_series b) -> In x (all_smps (bs_chunks s)) -> b_min b <= s_t x < b_max b.

Lemma compact_survivors blocks l : blocks <> [] -> metas_ok blocks ->
  survivors (fst (compact_range blocks)) (snd (compact_range blocks) - 1) blocks l = undeleted blocks l.
Proof.
  intros Hne Hm. destruct (compact_range_spec blocks Hne) as (Hcov & _ & _).
  unfold survivors, undeleted. apply flat_map_ext_in. intros b Hb. apply flat_map_ext_in. intros s Hs.
  destruct (bs_l s =? l); [|reflexivity]. apply filter_ext_in. intros x Hx.
  destruct (Hm b Hb) as (_ & _ & Hin). specialize (Hin s x Hs Hx). destruct (Hcov b Hb) as [H1 H2].
  unfold alive. rewrite (proj2 (Z.leb_le _ _)), (proj2 (Z.leb_le _ _)) by lia. reflexivity.
Qed.

Definition compact_inputs_ok (blocks : list block) : Prop :=
  blocks <> [] /\ Forall block_wf blocks /\ blocks_above blocks /\ metas_ok blocks.

Lemma compact_inputs blocks : compact_inputs_ok blocks ->
  inputs_ok blocks (fst (compact_range blocks)) (snd (compact_range blocks)).
Proof.
  intros (H1 & H2 & H3 & H4). destruct (compact_range_spec blocks H1) as (_ & (b1 & Hb1 & E1) & (b2 & Hb2 & E2)).
  split; [exact H1|]. split; [exact H2|]. split; [exact H3|]. rewrite E1, E2.
  split; [apply (H4 b1 Hb1)|apply (H4 b2 Hb2)].
Qed.

(* LeveledCompactor.Compact: the written block holds, per label set, exactly the de-duplicated
   union of all undeleted input samples - nothing is cut by the range *)
Theorem compact_blocks_correct ch blocks : compact_inputs_ok blocks ->
  exists out st ch', compact_blocks ch true blocks = (Some (out, st), ch') /\
    StronglySorted Z.lt (map fst out) /\
    (forall l, In l (map fst out) <-> undeleted blocks l <> []) /\
    (forall l chks, In (l, chks) out ->
       chks <> [] /\ Forall cb chks /\ cdisj chks /\
       map s_t (all_smps chks) = dedup_ts (undeleted blocks l) /\
       (forall x, In x (all_smps chks) -> In x (undeleted blocks l))) /\
    st = count_stats out.
Proof.
  intros Hok. pose proof (compact_inputs blocks Hok) as Hin. destruct Hok as (Hne & _ & _ & Hm).
  pose proof (fun l => compact_survivors blocks l Hne Hm) as Hs.
  unfold compact_blocks. destruct (compact_range blocks) as [mn mx]. cbn [fst snd] in *.
  destruct (pb_total ch blocks mn mx Hin) as (out & st & ch' & E). exists out, st, ch'. split; [exact E|].
  destruct (pb_series ch blocks mn mx out st ch' Hin E) as [S1 S2].
  destruct (pb_correct ch blocks mn mx out st ch' Hin E) as (_ & P2 & _ & P4).
  split; [exact S1|]. split; [intros l; rewrite (S2 l), (Hs l); reflexivity|]. split; [|exact P4].
  intros l chks Hl. rewrite <- (Hs l). apply (P2 l chks Hl).
Qed.
