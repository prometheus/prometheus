(* proof/ConfigProofs.v — proofs about model/Config.v (C49): first for every schema and every pair
   (reset, post) of hooks, then (from res_eqb on) for the Prometheus schema. *)
From Coq Require Import List ZArith Bool String.
From Verif Require Import lib.SortedList model.Config.
Import ListNotations.
Open Scope Z_scope.
Open Scope list_scope.

(* node is nested in list: the recursion goes through the elements by an inner induction *)
Lemma node_eqb_true : forall a b, node_eqb a b = true -> a = b.
Proof.
  fix IH 1. intros [z|s|b0| |l|m] b Hb; destruct b; simpl in Hb; try discriminate.
  - apply Z.eqb_eq in Hb. now subst.
  - apply String.eqb_eq in Hb. now subst.
  - apply Bool.eqb_prop in Hb. now subst.
  - reflexivity.
  - f_equal. revert l0 Hb. induction l as [|a l IHl]; intros [|b l0] Hb; try discriminate; auto.
    apply andb_true_iff in Hb as [H1 H2]. f_equal; auto.
  - f_equal. revert m0 Hb. induction m as [|[k a] m IHm]; intros [|[k' b] m0] Hb; try discriminate; auto.
    apply andb_true_iff in Hb as [H1 H2]. apply andb_true_iff in H1 as [H0 H1].
    apply String.eqb_eq in H0. subst. f_equal; auto. f_equal. now apply IH.
Qed.

Lemma node_eqb_refl : forall a, node_eqb a a = true.
Proof.
  fix IH 1. intros [z|s|b| |l|m]; simpl.
  - apply Z.eqb_refl.
  - apply String.eqb_refl.
  - apply Bool.eqb_reflx.
  - reflexivity.
  - induction l as [|a l IHl]; [reflexivity | now rewrite (IH a), IHl].
  - induction m as [|[k a] m IHm]; [reflexivity | now rewrite String.eqb_refl, (IH a), IHm].
Qed.

Lemma node_eqb_false : forall a b, node_eqb a b = false -> a <> b.
Proof. intros a b H ->. now rewrite node_eqb_refl in H. Qed.

Lemma null_or : forall v : node, v = NNull \/ v <> NNull.
Proof. destruct v; (now left) || (right; discriminate). Qed.

Scheme ty_mut := Induction for ty Sort Prop
  with flds_mut := Induction for flds Sort Prop.
Combined Scheme ty_flds_ind from ty_mut, flds_mut.

Fixpoint hooksb (p : hook -> bool) (t : ty) : bool :=
  match t with
  | TPtr t' | TSeq t' => hooksb p t'
  | TRec h fs => p h && hooksbs p fs
  | _ => true
  end
with hooksbs (p : hook -> bool) (fs : flds) : bool :=
  match fs with FNil => true | FCons _ _ t r => hooksb p t && hooksbs p r end.

Lemma bind_Ok {A B} (r : res A) (f : A -> res B) b :
  bind r f = Ok b -> exists a, r = Ok a /\ f a = Ok b.
Proof. destruct r; simpl; [eauto | discriminate]. Qed.

Lemma mapM_In {A B} (f : A -> res B) xs ys :
  mapM f xs = Ok ys -> forall y, In y ys -> exists x, In x xs /\ f x = Ok y.
Proof.
  revert ys. induction xs as [|x xs IH]; simpl; intros ys H.
  - injection H as <-. intros y [].
  - apply bind_Ok in H as (b & Hb & H). apply bind_Ok in H as (r & Hr & H). injection H as <-.
    intros y [<-|Hy]; [eauto|]. destruct (IH _ Hr y Hy) as (x' & ? & ?). eauto.
Qed.

Lemma mapM_length {A B} (f : A -> res B) xs ys : mapM f xs = Ok ys -> List.length ys = List.length xs.
Proof.
  revert ys. induction xs as [|x xs IH]; simpl; intros ys H.
  - now injection H as <-.
  - apply bind_Ok in H as (b & _ & H). apply bind_Ok in H as (r & Hr & H). injection H as <-.
    simpl. f_equal. auto.
Qed.

Lemma mapM_map {A B} (f : A -> res B) (g : B -> A) l :
  (forall b, In b l -> f (g b) = Ok b) -> mapM f (map g l) = Ok l.
Proof.
  induction l as [|b l IH]; intros H; simpl; [reflexivity|].
  rewrite H by now left. simpl. rewrite IH; [reflexivity|]. intros; apply H; now right.
Qed.

Lemma lookup_notin : forall k m, ~ In k (map fst m) -> lookup k m = None.
Proof.
  induction m as [|[k' v] m IH]; simpl; intros Hn; [reflexivity|].
  destruct (String.eqb_spec k k') as [->|_]; [tauto|]. apply IH. tauto.
Qed.

Lemma mem_In : forall s l, mem s l = true <-> In s l.
Proof. exact (existsb_eqb_In String.eqb String.eqb_eq). Qed.

Lemma nodupb_NoDup : forall l, nodupb l = true -> NoDup l.
Proof. apply (SortedList.nodupb_spec String.eqb String.eqb_eq). Qed.

Lemma prs_keys : forall fs m k, In k (map fst (prs fs m)) -> In k (keys fs).
Proof.
  induction fs as [|k0 o t r IH]; intros m k Hin; simpl in *.
  - contradiction.
  - destruct m as [|[k' v] m']; simpl in Hin; [contradiction|].
    destruct (o && isz t v); simpl in Hin.
    + right. eauto.
    + destruct Hin as [<-|Hin]; [now left | right; eauto].
Qed.

Lemma lookup_prs_notin : forall fs m k, ~ In k (keys fs) -> lookup k (prs fs m) = None.
Proof. intros fs m k Hn. apply lookup_notin. intros Hin. apply Hn, (prs_keys _ _ _ Hin). Qed.

(* strictness: every printed key is a key of the type *)
Lemma strict_prs : forall fs m,
    forallb (fun kv => existsb (String.eqb (fst kv)) (keys fs)) (prs fs m) = true.
Proof.
  intros fs m. apply forallb_forall. intros [k v] Hin. simpl.
  apply (mem_In k (keys fs)). apply (prs_keys fs m). apply in_map_iff. exists (k, v). auto.
Qed.

Lemma wtsb_nil_inv : forall m, wtsb FNil m = true -> m = [].
Proof. destruct m; [reflexivity | discriminate]. Qed.

Lemma wtsb_cons_inv : forall k o t r m, wtsb (FCons k o t r) m = true ->
  exists v m', m = (k, v) :: m' /\ wtb t v = true /\ wtsb r m' = true.
Proof.
  intros k o t r [|[k' v] m'] H; simpl in H; [discriminate|].
  apply andb_true_iff in H as [H H3]. apply andb_true_iff in H as [H1 H2].
  apply String.eqb_eq in H1 as <-. eauto.
Qed.

Lemma wtsb_keys : forall fs m, wtsb fs m = true -> map fst m = keys fs.
Proof.
  induction fs as [|k o t r IH]; intros m H.
  - now apply wtsb_nil_inv in H as ->.
  - apply wtsb_cons_inv in H as (v & m' & -> & _ & H). simpl. f_equal. auto.
Qed.

(* pointers: non-null values are handled as values of the pointee type *)
Lemma pr_not_null : forall t v, wtb t v = true -> v <> NNull -> pr t v <> NNull.
Proof.
  induction t; intros v Hw Hn; destruct v; simpl in *; try congruence.
  all: apply IHt; [exact Hw | discriminate].
Qed.

Lemma ptr_nn_wtb : forall t v, v <> NNull -> wtb (TPtr t) v = wtb t v.
Proof. intros t v H. destruct v; reflexivity || congruence. Qed.
Lemma ptr_nn_pr : forall t v, v <> NNull -> pr (TPtr t) v = pr t v.
Proof. intros t v H. destruct v; reflexivity || congruence. Qed.

Section Generic.
  Variable reset : hook -> option node.
  Variable post : hook -> amap -> res amap.

  Notation decode := (decode reset post).
  Notation overlay := (overlay reset post).
  Notation fixedb := (fixedb post).
  Notation fixedsb := (fixedsb post).
  Notation losslessb := (losslessb reset).
  Notation losslesssb := (losslesssb reset).

  Lemma ptr_nn_fixedb : forall t v, v <> NNull -> fixedb (TPtr t) v = fixedb t v.
  Proof. intros t v H. destruct v; reflexivity || congruence. Qed.
  Lemma ptr_nn_losslessb : forall t cur v, v <> NNull ->
    losslessb (TPtr t) cur v = losslessb t (match cur with NNull => zero t | _ => cur end) v.
  Proof. intros t cur v H. destruct v; reflexivity || congruence. Qed.
  Lemma ptr_nn_decode : forall t cur y, y <> NNull ->
    decode (TPtr t) cur y = decode t (match cur with NNull => zero t | _ => cur end) y.
  Proof. intros t cur y H. destruct y; reflexivity || congruence. Qed.

  Lemma decode_seq : forall t cur l,
    decode (TSeq t) cur (NSeq l) = bind (mapM (decode t (zero t)) l) (fun l' => Ok (NSeq l')).
  Proof. intros. simpl. f_equal. induction l as [|e l IH]; simpl; [|rewrite IH]; reflexivity. Qed.

  Lemma decode_rec_prs : forall h fs cur bm m, base_of reset h cur = NMap bm ->
    decode (TRec h fs) cur (NMap (prs fs m)) =
    bind (overlay fs bm (prs fs m)) (fun m' => bind (post h m') (fun m'' => Ok (NMap m''))).
  Proof. unfold base_of. intros h fs cur bm m Hb. simpl. now rewrite Hb, strict_prs. Qed.

  Lemma decode_not_null : forall t cur y v, y <> NNull -> decode t cur y = Ok v -> v <> NNull.
  Proof.
    induction t; intros cur y v Hy Hd; destruct y; simpl in Hd; try discriminate Hd; try congruence.
    1-5: eapply IHt; [|exact Hd]; discriminate.
    - apply bind_Ok in Hd as (l' & _ & [= <-]). discriminate.
    - destruct (match reset h with Some d => d | None => cur end); try discriminate Hd.
      destruct (forallb _ _); [|discriminate Hd].
      apply bind_Ok in Hd as (m1 & _ & Hd). apply bind_Ok in Hd as (m2 & _ & [= <-]). discriminate.
  Qed.

  Lemma overlay_cons_inv : forall k o t r kb b bm m m',
      overlay (FCons k o t r) ((kb, b) :: bm) m = Ok m' ->
      exists v rest, m' = (k, v) :: rest /\
        match lookup k m with None => Ok b | Some y => decode t b y end = Ok v /\ overlay r bm m = Ok rest.
  Proof.
    intros k o t r kb b bm m m' H. simpl in H.
    apply bind_Ok in H as (v & Hv & H). apply bind_Ok in H as (rest & Hr & H). injection H as <-. eauto.
  Qed.

  Lemma overlay_absent : forall fs bm m m',
      overlay fs bm m = Ok m' ->
      forall k, lookup k m = None -> lookup k m' = lookup k (combine (keys fs) (map snd bm)).
  Proof.
    induction fs as [|k0 o t r IH]; intros [|[kb b] bm] m m' Hov k Hk; try discriminate Hov.
    - now injection Hov as <-.
    - apply overlay_cons_inv in Hov as (v & rest & -> & Hv & Hr). simpl.
      destruct (String.eqb_spec k k0) as [->|_]; [|eauto].
      rewrite Hk in Hv. now injection Hv as ->.
  Qed.

  Lemma overlay_present : forall fs bm m m',
      overlay fs bm m = Ok m' ->
      forall k y, lookup k m = Some y -> In k (keys fs) ->
      exists t b v, lookup k (combine (keys fs) (map snd bm)) = Some b /\ decode t b y = Ok v /\ lookup k m' = Some v.
  Proof.
    induction fs as [|k0 o t r IH]; intros [|[kb b] bm] m m' Hov k y Hk Hin; try discriminate Hov; [destruct Hin|].
    apply overlay_cons_inv in Hov as (v & rest & -> & Hv & Hr). simpl.
    destruct (String.eqb_spec k k0) as [->|Hne].
    - rewrite Hk in Hv. exists t, b, v. auto.
    - destruct Hin as [->|Hin]; [contradiction|]. eauto.
  Qed.

  (* overlay reads the document only at the keys of the struct *)
  Lemma overlay_ext : forall fs bm m1 m2,
      (forall k, In k (keys fs) -> lookup k m1 = lookup k m2) -> overlay fs bm m1 = overlay fs bm m2.
  Proof.
    induction fs as [|k o t r IH]; intros [|[kb b] bm] m1 m2 H; try reflexivity.
    simpl. rewrite (H k) by now left. rewrite (IH bm m1 m2); [reflexivity|]. intros; apply H; now right.
  Qed.

  Lemma overlay_skip : forall fs bm k y m, ~ In k (keys fs) -> overlay fs bm ((k, y) :: m) = overlay fs bm m.
  Proof.
    intros fs bm k y m Hn. apply overlay_ext. intros k' Hk'. simpl.
    destruct (String.eqb_spec k' k) as [->|_]; [contradiction | reflexivity].
  Qed.

  (* the first field of a printed struct: omitted, it keeps the base; written, it is decoded from
     the base; either way the rest of the document is the rest of the struct, printed *)
  Lemma overlay_prs_cons : forall k o t r kb b bm k' v m, ~ In k (keys r) ->
      overlay (FCons k o t r) ((kb, b) :: bm) (prs (FCons k o t r) ((k', v) :: m)) =
      bind (if o && isz t v then Ok b else decode t b (pr t v)) (fun v1 =>
      bind (overlay r bm (prs r m)) (fun rest => Ok ((k, v1) :: rest))).
  Proof.
    intros k o t r kb b bm k' v m Hn. simpl. destruct (o && isz t v).
    - now rewrite lookup_prs_notin.
    - simpl. now rewrite String.eqb_refl, overlay_skip.
  Qed.

  Lemma bind_cons_Ok : forall (r : res amap) k b v m,
      bind r (fun rest => Ok ((k, b) :: rest)) = Ok ((k, v) :: m) <-> b = v /\ r = Ok m.
  Proof.
    intros [rest|e] k b v m; simpl; split.
    - intros [= -> ->]. auto.
    - intros [-> [= ->]]. reflexivity.
    - discriminate.
    - intros [_ H]. discriminate H.
  Qed.

  Fixpoint omitted_agree (fs : flds) (bm m : amap) : Prop :=
    match fs, bm, m with
    | FCons k o t r, (_, b) :: bm', (_, v) :: m' => (o && isz t v = true -> b = v) /\ omitted_agree r bm' m'
    | _, _, _ => True
    end.
  Fixpoint present_ok (fs : flds) (bm m : amap) : Prop :=
    match fs, bm, m with
    | FNil, [], [] => True
    | FCons k o t r, (_, b) :: bm', (k', v) :: m' =>
        k' = k /\ (o && isz t v = false -> decode t b (pr t v) = Ok v) /\ present_ok r bm' m'
    | _, _, _ => False
    end.

  (* when every written field decodes back, the overlay reproduces the struct exactly when every
     omitted field already is what the base holds — a zero value that differs from the default
     must not be omitted *)
  Theorem overlay_print_iff : forall fs bm m,
      NoDup (keys fs) -> present_ok fs bm m ->
      (overlay fs bm (prs fs m) = Ok m <-> omitted_agree fs bm m).
  Proof.
    induction fs as [|k o t r IH]; intros [|[kb b] bm] [|[k' v] m] Hnd Hp; simpl in Hp; try contradiction.
    - simpl. tauto.
    - destruct Hp as (-> & Hv & Hp). inversion_clear Hnd as [|? ? Hnot Hnd'].
      rewrite overlay_prs_cons by assumption. simpl omitted_agree. rewrite <- (IH bm m Hnd' Hp).
      destruct (o && isz t v) eqn:Eo; [|rewrite (Hv eq_refl)]; simpl; rewrite bind_cons_Ok; intuition congruence.
  Qed.

  Lemma roundtrip_mut :
    (forall t cur v, nodup_keys t = true -> wtb t v = true -> fixedb t v = true -> losslessb t cur v = true ->
                     decode t cur (pr t v) = Ok v) /\
    (forall fs bm m, NoDup (keys fs) -> nodup_keyss fs = true -> wtsb fs m = true -> wtsb fs bm = true ->
                     fixedsb fs m = true -> losslesssb fs bm m = true -> overlay fs bm (prs fs m) = Ok m).
  Proof.
    apply ty_flds_ind.
    1-3: intros cur v _ Hw _ _; destruct v; try discriminate Hw; reflexivity.
    - (* TRegex: the default pointer is never printed and is reproduced only from itself *)
      intros cur v _ Hw _ Hl. destruct v; try discriminate Hw; [reflexivity|].
      destruct cur; try discriminate Hl; reflexivity.
    - intros t IH cur v Hnd Hw Hf Hl. destruct (null_or v) as [->|Hv]; [reflexivity|].
      rewrite ptr_nn_wtb in Hw by assumption. rewrite ptr_nn_fixedb in Hf by assumption.
      rewrite ptr_nn_losslessb in Hl by assumption.
      rewrite ptr_nn_pr, ptr_nn_decode by auto using pr_not_null. now apply IH.
    - intros t IH cur v Hnd Hw Hf Hl. destruct v as [| | | |l|]; try discriminate Hw.
      simpl in Hw, Hf, Hl. rewrite forallb_forall in Hw, Hf, Hl.
      cbn [pr]. rewrite decode_seq, mapM_map; [reflexivity|]. intros b Hb. apply IH; auto.
    - intros h fs IH cur v Hnd Hw Hf Hl. destruct v as [| | | | |m]; try discriminate Hw.
      simpl in Hnd, Hw, Hf, Hl.
      apply andb_true_iff in Hnd as [Hnd1 Hnd2]. apply andb_true_iff in Hf as [Hf1 Hf2].
      destruct (base_of reset h cur) as [| | | | |bm] eqn:Eb; try discriminate Hl.
      apply andb_true_iff in Hl as [Hl1 Hl2].
      cbn [pr]. rewrite (decode_rec_prs _ _ _ _ _ Eb), (IH bm m) by auto using nodupb_NoDup. simpl.
      unfold res_is in Hf1. destruct (post h m) as [m2|]; [|discriminate Hf1].
      apply node_eqb_true in Hf1 as [= ->]. reflexivity.
    - intros bm m _ _ Hw Hwb _ _. apply wtsb_nil_inv in Hw as ->. now apply wtsb_nil_inv in Hwb as ->.
    - intros k o t IHt r IHr bm m Hnd Hnk Hw Hwb Hf Hl.
      apply wtsb_cons_inv in Hw as (v & m' & -> & Hw1 & Hw2).
      apply wtsb_cons_inv in Hwb as (b & bm' & -> & Hb1 & Hb2).
      inversion_clear Hnd as [|? ? Hnot Hnd']. simpl in Hnk, Hf, Hl.
      apply andb_true_iff in Hnk as [Hnk1 Hnk2]. apply andb_true_iff in Hf as [Hf1 Hf2].
      apply andb_true_iff in Hl as [Hl1 Hl2].
      rewrite overlay_prs_cons, (IHr bm' m') by auto.
      destruct (o && isz t v).
      + apply node_eqb_true in Hl1 as ->. reflexivity.
      + rewrite IHt by auto. reflexivity.
  Qed.

  Theorem roundtrip_generic : forall t cur v,
      nodup_keys t = true -> wtb t v = true -> fixedb t v = true -> losslessb t cur v = true ->
      decode t cur (pr t v) = Ok v.
  Proof. exact (proj1 roundtrip_mut). Qed.

  (* every hook occurring in t only checks: it returns its argument or an error *)
  Fixpoint check_only (t : ty) : Prop :=
    match t with
    | TPtr t' => check_only t'
    | TSeq t' => check_only t'
    | TRec h fs => (forall m m', post h m = Ok m' -> m' = m) /\ check_onlys fs
    | _ => True
    end
  with check_onlys (fs : flds) : Prop :=
    match fs with FNil => True | FCons _ _ t r => check_only t /\ check_onlys r end.

  Lemma check_only_hooks : forall p, (forall h, p h = true -> forall m m', post h m = Ok m' -> m' = m) ->
    (forall t, hooksb p t = true -> check_only t) /\ (forall fs, hooksbs p fs = true -> check_onlys fs).
  Proof.
    intros p Hp. apply ty_flds_ind; simpl; auto.
    - intros h fs IH H. apply andb_true_iff in H as [H1 H2]. split; [exact (Hp h H1) | auto].
    - intros k o t IHt r IHr H. apply andb_true_iff in H as [H1 H2]. auto.
  Qed.

  (* the values a field can start from (reset values, their fields, zero values of slice
     elements and of freshly allocated pointees) are themselves valid and self-lossless *)
  Definition good (t : ty) (b : node) : bool := wtb t b && fixedb t b && losslessb t b b.
  Fixpoint bases_ok (t : ty) (cur : node) : bool :=
    match t with
    | TRegex => good t cur
    | TPtr t' => bases_ok t' (match cur with NNull => zero t' | _ => cur end)
    | TSeq t' => bases_ok t' (zero t')
    | TRec h fs =>
        match base_of reset h cur with
        | NMap bm => wtsb fs bm && bases_oks fs bm
        | _ => false
        end
    | _ => true
    end
  with bases_oks (fs : flds) (bm : amap) : bool :=
    match fs, bm with
    | FNil, [] => true
    | FCons _ _ t r, (_, b) :: bm' => good t b && bases_ok t b && bases_oks r bm'
    | _, _ => false
    end.

  Lemma good_parts : forall t b, good t b = true -> wtb t b = true /\ fixedb t b = true /\ losslessb t b b = true.
  Proof. unfold good. intros t b H. apply andb_true_iff in H as [H H3]. apply andb_true_iff in H as [H1 H2]. auto. Qed.

  (* what load makes of a printed well-typed value is well-typed, a fixed point of the hooks and
     lossless; and it is zero only if the value was (so a field that was written is written again) *)
  Lemma idem_mut :
    (forall t cur v v1, nodup_keys t = true -> check_only t -> bases_ok t cur = true -> wtb t v = true ->
       decode t cur (pr t v) = Ok v1 ->
       wtb t v1 = true /\ fixedb t v1 = true /\ losslessb t cur v1 = true /\ (isz t v1 = true -> isz t v = true)) /\
    (forall fs bm m m1, NoDup (keys fs) -> nodup_keyss fs = true -> check_onlys fs -> bases_oks fs bm = true ->
       wtsb fs bm = true -> wtsb fs m = true -> overlay fs bm (prs fs m) = Ok m1 ->
       wtsb fs m1 = true /\ fixedsb fs m1 = true /\ losslesssb fs bm m1 = true /\ (iszs fs m1 = true -> iszs fs m = true)).
  Proof.
    apply ty_flds_ind.
    1-3: intros cur v v1 _ _ _ Hw Hd; destruct v; try discriminate Hw; injection Hd as <-; simpl; auto.
    - intros cur v v1 _ _ Hb Hw Hd. destruct v; try discriminate Hw; injection Hd as <-.
      + simpl. intuition discriminate.
      + apply good_parts in Hb as (? & ? & ?). simpl. auto.
    - intros t IH cur v v1 Hnd Hc Hb Hw Hd. destruct (null_or v) as [->|Hv].
      + injection Hd as <-. simpl. auto.
      + rewrite ptr_nn_wtb in Hw by assumption.
        rewrite ptr_nn_pr, ptr_nn_decode in Hd by auto using pr_not_null.
        assert (Hv1 : v1 <> NNull) by (eapply decode_not_null; [|exact Hd]; auto using pr_not_null).
        rewrite ptr_nn_wtb, ptr_nn_fixedb, ptr_nn_losslessb by assumption.
        destruct (IH _ v v1 Hnd Hc Hb Hw Hd) as (H1 & H2 & H3 & H4). repeat split; auto.
        intros Hz. destruct v1; try discriminate Hz. congruence.
    - intros t IH cur v v1 Hnd Hc Hb Hw Hd. destruct v as [| | | |l|]; try discriminate Hw.
      cbn [pr] in Hd. rewrite decode_seq in Hd. apply bind_Ok in Hd as (l1 & Hm & [= <-]).
      simpl in Hw. rewrite forallb_forall in Hw.
      assert (Hall : forall y, In y l1 -> wtb t y = true /\ fixedb t y = true /\ losslessb t (zero t) y = true).
      { intros y Hy. destruct (mapM_In _ _ _ Hm y Hy) as (x & Hx & Hxy).
        apply in_map_iff in Hx as (a & <- & Ha).
        destruct (IH _ a y Hnd Hc Hb (Hw a Ha) Hxy) as (? & ? & ? & _). auto. }
      simpl. rewrite !forallb_forall. split; [|split; [|split]]; try (intros y Hy; now apply Hall).
      (* an empty list is printed as an empty list *)
      intros Hz. destruct l1; [|discriminate Hz]. apply mapM_length in Hm.
      destruct l; [reflexivity | discriminate Hm].
    - intros h fs IH cur v v1 Hnd Hc Hb Hw Hd. destruct v as [| | | | |m]; try discriminate Hw.
      simpl in Hnd, Hc, Hb, Hw. apply andb_true_iff in Hnd as [Hnd1 Hnd2]. destruct Hc as [Hc1 Hc2].
      destruct (base_of reset h cur) as [| | | | |bm] eqn:Eb; try discriminate Hb.
      apply andb_true_iff in Hb as [Hwb Hb].
      cbn [pr] in Hd. rewrite (decode_rec_prs _ _ _ _ _ Eb) in Hd.
      apply bind_Ok in Hd as (m1 & Ho & Hd). apply bind_Ok in Hd as (m2 & Hp & [= <-]).
      apply Hc1 in Hp as Heq. subst m2.
      destruct (IH bm m m1 (nodupb_NoDup _ Hnd1) Hnd2 Hc2 Hb Hwb Hw Ho) as (H1 & H2 & H3 & H4).
      simpl. rewrite Eb, Hp. unfold res_is. rewrite node_eqb_refl, H1, H2, H3, Hwb. auto.
    - intros bm m m1 _ _ _ _ Hwb Hw Ho. apply wtsb_nil_inv in Hwb as ->. apply wtsb_nil_inv in Hw as ->.
      injection Ho as <-. simpl. auto.
    - intros k o t IHt r IHr bm m m1 HND Hnd Hc Hb Hwb Hw Ho.
      apply wtsb_cons_inv in Hw as (v & m' & -> & Hw1 & Hw2).
      apply wtsb_cons_inv in Hwb as (b & bm' & -> & Hwb1 & Hwb2).
      inversion_clear HND as [|? ? Hnot HND']. simpl in Hnd, Hc, Hb.
      apply andb_true_iff in Hnd as [Hnd1 Hnd2]. destruct Hc as [Hc1 Hc2].
      apply andb_true_iff in Hb as [Hb Hb2]. apply andb_true_iff in Hb as [Hg Hb1].
      rewrite overlay_prs_cons in Ho by assumption.
      apply bind_Ok in Ho as (v1 & Hv1 & Ho). apply bind_Ok in Ho as (rest & Hr & [= <-]).
      destruct (IHr bm' m' rest HND' Hnd2 Hc2 Hb2 Hwb2 Hw2 Hr) as (H1 & H2 & H3 & H4).
      assert (Hhd : wtb t v1 = true /\ fixedb t v1 = true /\
                    (if o && isz t v1 then node_eqb b v1 else losslessb t b v1) = true /\
                    (isz t v1 = true -> isz t v = true)).
      { destruct (o && isz t v) eqn:Eo.
        - (* omitted: the field is the base, which is good; and v was zero *)
          injection Hv1 as <-. apply good_parts in Hg as (G1 & G2 & G3). apply andb_true_iff in Eo as [_ Ez].
          repeat split; auto. destruct (o && isz t b); [apply node_eqb_refl | exact G3].
        - (* written, hence not zero, hence its reload is not zero and is written again *)
          destruct (IHt b v v1 Hnd1 Hc1 Hb1 Hw1 Hv1) as (G1 & G2 & G3 & G4). repeat split; auto.
          destruct (o && isz t v1) eqn:E1; [|exact G3].
          apply andb_true_iff in E1 as [-> E1]. rewrite (G4 E1) in Eo. discriminate Eo. }
      destruct Hhd as (G1 & G2 & G3 & G4).
      simpl. rewrite String.eqb_refl, G1, G2, G3, H1, H2, H3. repeat split; auto.
      intros Hz. apply andb_true_iff in Hz as [Hz1 Hz2]. now rewrite (G4 Hz1), (H4 Hz2).
  Qed.

  (* load∘print is idempotent on every well-typed value when the hooks only check *)
  Theorem idempotent_check_only : forall t cur v v1,
      nodup_keys t = true -> check_only t -> bases_ok t cur = true -> wtb t v = true ->
      decode t cur (pr t v) = Ok v1 -> decode t cur (pr t v1) = Ok v1.
  Proof.
    intros t cur v v1 Hnd Hc Hb Hw Hd.
    destruct (proj1 idem_mut t cur v v1 Hnd Hc Hb Hw Hd) as (H1 & H2 & H3 & _).
    now apply roundtrip_generic.
  Qed.
End Generic.

Open Scope string_scope.

(* Facts about evaluated configurations are stated through booleans and their witnesses given as
   unevaluated expressions: a configuration written out in a proof term costs more to check than
   evaluating it again. *)
Definition res_eqb (r : res node) (c : node) : bool :=
  match r with Ok c' => node_eqb c' c | Err _ => false end.

Lemma res_eqb_true : forall r c, res_eqb r c = true -> r = Ok c.
Proof. intros [c'|e] c H; [f_equal; now apply node_eqb_true | discriminate H]. Qed.

Lemma lookup_getl : forall k m,
  match lookup k m with Some (NSeq _) => true | _ => false end = true -> lookup k m = Some (NSeq (getl k m)).
Proof. unfold getl. intros k m H. destruct (lookup k m) as [[]|]; reflexivity || discriminate H. Qed.

(* the witness: remote_read with filter_external_labels: false *)
Definition doc_rr_filter : node :=
  NMap [("remote_read", NSeq [NMap [("url", NStr "http://x/"); ("filter_external_labels", NBool false)]])].
Definition cfg_rr_filter : node :=
  match load doc_rr_filter with Ok c => c | Err _ => NNull end.

Lemma refuted_witness :
  load doc_rr_filter = Ok cfg_rr_filter /\ valid cfg_rr_filter = true /\
  lossless cfg_rr_filter = false /\
  lossy_fields cfg_rr_filter = [".remote_read.filter_external_labels"] /\
  (exists c2, load (print cfg_rr_filter) = Ok c2 /\ node_eqb c2 cfg_rr_filter = false /\
              load (print c2) = Ok c2).
Proof.
  split; [apply res_eqb_true; vm_compute; reflexivity|]. split; [vm_compute; reflexivity|].
  split; [vm_compute; reflexivity|]. split; [vm_compute; reflexivity|].
  exists (match load (print cfg_rr_filter) with Ok c => c | Err _ => NNull end).
  split; [|split]; try apply res_eqb_true; vm_compute; reflexivity.
Qed.

Theorem roundtrip_refuted :
  exists doc c, load doc = Ok c /\ valid c = true /\ load (print c) <> Ok c.
Proof.
  exists doc_rr_filter, cfg_rr_filter.
  destruct refuted_witness as (H1 & H2 & _ & _ & c2 & H3 & H4 & _).
  split; [exact H1|]. split; [exact H2|].
  rewrite H3. intros He. apply (node_eqb_false _ _ H4). congruence.
Qed.

(* non-vacuity: a configuration with global overrides, two scrape configs (relabeling with an
   explicit empty separator / replacement, HTTP flags false), remote write with queue and
   metadata settings, remote read, alerting, storage and otlp sections is valid and lossless *)
Definition doc_example : node :=
  NMap [("global", NMap [("scrape_interval", NInt (15 * second)); ("sample_limit", NInt 100);
                         ("metric_name_validation_scheme", NStr "legacy")]);
        ("runtime", NMap [("gogc", NInt 0)]);
        ("alerting", NMap [("alertmanagers", NSeq [NMap [("scheme", NStr "https"); ("timeout", NInt (5 * second))]])]);
        ("rule_files", NSeq [NStr "rules/*.yml"]);
        ("scrape_configs", NSeq [
           NMap [("job_name", NStr "a"); ("scrape_timeout", NInt (5 * second)); ("follow_redirects", NBool false);
                 ("honor_timestamps", NBool false); ("sample_limit", NInt 0);
                 ("relabel_configs", NSeq [NMap [("source_labels", NSeq [NStr "x"]); ("separator", NStr "");
                                                 ("regex", NStr "(.*)"); ("target_label", NStr "y");
                                                 ("replacement", NStr "")];
                                           NMap [("action", NStr "labeldrop"); ("regex", NStr "tmp_.*")]])];
           NMap [("job_name", NStr "b"); ("scrape_native_histograms", NBool true);
                 ("metric_name_validation_scheme", NStr "utf8")]]);
        ("storage", NMap [("tsdb", NMap [("out_of_order_time_window", NInt (30 * minute))]);
                          ("exemplars", NMap [("max_exemplars", NInt 0)])]);
        ("remote_write", NSeq [NMap [("url", NStr "http://r/w"); ("queue_config", NMap [("max_shards", NInt 10)]);
                                     ("metadata_config", NMap [("send", NBool false)])]]);
        ("remote_read", NSeq [NMap [("url", NStr "http://r/r"); ("read_recent", NBool true)]]);
        ("otlp", NMap [("promote_resource_attributes", NSeq [NStr "service.name"]);
                       ("translation_strategy", NStr "NoUTF8EscapingWithSuffixes")])].
(* (the OTLP strategy above is rejected with legacy validation; the example uses utf8 globally) *)
Definition doc_example_ok : node :=
  match doc_example with
  | NMap ((g, NMap gm) :: r) => NMap ((g, NMap (firstn 2 gm)) :: r)
  | d => d
  end.
Definition cfg_example : node := match load doc_example_ok with Ok c => c | Err _ => NNull end.

Lemma example_valid_lossless :
  load doc_example_ok = Ok cfg_example /\ valid cfg_example = true /\ lossless cfg_example = true /\
  load doc_example = Err (EInvalid 85) /\
  (* inherited / defaulted values, to show the example is not degenerate *)
  (exists scs, lookup "scrape_configs" (match cfg_example with NMap m => m | _ => [] end) = Some (NSeq scs) /\
               map (fun s => match s with NMap m => (geti "scrape_interval" m, geti "sample_limit" m, getl "scrape_protocols" m) | _ => (0, 0, []) end) scs
               = [(15 * second, 100, d_protocols); (15 * second, 100, NStr "PrometheusProto" :: d_protocols)]).
Proof.
  (* the three facts about the configuration in one evaluation of it: an argument is evaluated
     once, a constant at each of its occurrences *)
  assert (H : (fun c => res_eqb (load doc_example_ok) c && valid c && lossless c) cfg_example = true)
    by (vm_compute; reflexivity).
  cbv beta in H. apply andb_true_iff in H as [H H3]. apply andb_true_iff in H as [H1 H2].
  split; [exact (res_eqb_true _ _ H1)|]. split; [exact H2|]. split; [exact H3|].
  split; [vm_compute; reflexivity|].
  exists (getl "scrape_configs" (match cfg_example with NMap m => m | _ => [] end)).
  split; [apply lookup_getl|]; vm_compute; reflexivity.
Qed.

Lemma bind_unit : forall (r : res unit) (k : res amap) x, bind r (fun _ => k) = Ok x -> k = Ok x.
Proof. intros [[]|e] k x H; simpl in H; [exact H | discriminate]. Qed.

(* every hook but the three that fill values in returns its argument or an error: each is a
   chain of checks ending in Ok m *)
Definition checking (h : hook) : bool := match h with HTop | HGlobal | HTsdb => false | _ => true end.

Lemma post_checks : forall h, checking h = true -> forall m m', post h m = Ok m' -> m' = m.
Proof.
  intros h Hc m m' H. destruct h; try discriminate Hc;
    cbv [post post_scrape post_alerting post_am post_rw post_rr post_retention post_otlp] in H.
  9: destruct (getb _ m).
  all: repeat apply bind_unit in H; congruence.
Qed.

(* the sections of the configuration all of whose hooks only check, with the content load
   starts them from (their entry in DefaultConfig) *)
Definition check_only_sections : list (ty * node) :=
  [ (TSeq (TPtr rr_ty), NSeq []);            (* remote_read *)
    (TSeq (TPtr rw_ty), NSeq []);            (* remote_write, incl. queue_config / metadata_config *)
    (alerting_ty, NMap (zeros alerting_fs)); (* alerting: alertmanagers and relabel rules *)
    (otlp_ty, NMap d_otlp);                  (* otlp *)
    (TSeq (TPtr scrape_ty), NSeq []);        (* scrape_configs as ScrapeConfig.UnmarshalYAML leaves them (before Validate) *)
    (relabel_seq, NSeq []);
    (TSeq TStr, NSeq []) ].                  (* rule_files, scrape_config_files *)

Lemma sections_check_only : forall t cur, In (t, cur) check_only_sections ->
  nodup_keys t = true /\ check_only post t /\ bases_ok reset post t cur = true.
Proof.
  assert (H : forallb (fun s => nodup_keys (fst s) && hooksb checking (fst s)
                                && bases_ok reset post (fst s) (snd s)) check_only_sections = true)
    by (vm_compute; reflexivity).
  intros t cur Hin. apply (proj1 (forallb_forall _ _) H) in Hin. simpl in Hin.
  apply andb_true_iff in Hin as [Hin H3]. apply andb_true_iff in Hin as [H1 H2].
  repeat split; auto. exact (proj1 (check_only_hooks post checking post_checks) t H2).
Qed.

(* non-vacuity: a remote_read list whose first reload differs (the lossy witness) is covered *)
Example idempotent_sections_example :
  exists v v1, wtb (TSeq (TPtr rr_ty)) v = true /\
               decode reset post (TSeq (TPtr rr_ty)) (NSeq []) (pr (TSeq (TPtr rr_ty)) v) = Ok v1 /\
               node_eqb v v1 = false.
Proof.
  exists (NSeq [NMap (setf "filter_external_labels" (NBool false) (setf "url" (NStr "http://x/") d_rr))]).
  eexists. split; [vm_compute; reflexivity|]. split; vm_compute; reflexivity.
Qed.

Lemma isz_zero_mut :
  (forall t v, wtb t v = true -> isz t v = true -> v = zero t) /\
  (forall fs m, wtsb fs m = true -> iszs fs m = true -> m = zeros fs).
Proof.
  apply ty_flds_ind.
  - intros v Hw Hz. destruct v; try discriminate. apply Z.eqb_eq in Hz. now subst.
  - intros v Hw Hz. destruct v; try discriminate. apply String.eqb_eq in Hz. now subst.
  - intros v Hw Hz. destruct v as [| |[]| | |]; try discriminate; reflexivity.
  - intros v Hw Hz. destruct v; try discriminate; reflexivity.
  - intros t IH v Hw Hz. destruct v; try discriminate; reflexivity.
  - intros t IH v Hw Hz. destruct v as [| | | |[|]|]; try discriminate; reflexivity.
  - intros h fs IH v Hw Hz. destruct v; try discriminate. simpl. f_equal. now apply IH.
  - intros m Hw _. now apply wtsb_nil_inv in Hw.
  - intros k o t IHt r IHr m Hw Hz. apply wtsb_cons_inv in Hw as (v & m' & -> & Hw1 & Hw2).
    simpl in Hz. apply andb_true_iff in Hz as [Hz1 Hz2]. simpl. f_equal; [f_equal|]; auto.
Qed.

Open Scope list_scope.
Section Risky.
  Variable reset : hook -> option node.

  (* the omitempty fields whose load-time base is not zero: the only places where print can
     drop information *)
  Fixpoint risky (t : ty) (cur : node) (path : string) : list string :=
    match t with
    | TPtr t' => risky t' (match cur with NNull => zero t' | _ => cur end) path
    | TSeq t' => risky t' (zero t') path
    | TRec h fs =>
        match base_of reset h cur with
        | NMap bm => riskys fs bm path
        | _ => []
        end
    | _ => []
    end
  with riskys (fs : flds) (bm : amap) (path : string) : list string :=
    match fs, bm with
    | FCons k omit t r, (_, b) :: bm' =>
        (if omit && negb (isz t b) then [(path ++ "." ++ k)%string] else [])
        ++ risky t b (path ++ "." ++ k)%string ++ riskys r bm' path
    | _, _ => []
    end.

  Fixpoint bases_wt (t : ty) (cur : node) : bool :=
    match t with
    | TPtr t' => bases_wt t' (match cur with NNull => zero t' | _ => cur end)
    | TSeq t' => bases_wt t' (zero t')
    | TRec h fs =>
        match base_of reset h cur with
        | NMap bm => wtsb fs bm && bases_wts fs bm
        | _ => false
        end
    | _ => true
    end
  with bases_wts (fs : flds) (bm : amap) : bool :=
    match fs, bm with
    | FNil, [] => true
    | FCons _ _ t r, (_, b) :: bm' => wtb t b && bases_wt t b && bases_wts r bm'
    | _, _ => false
    end.

  Notation lossy := (lossy reset).
  Notation lossys := (lossys reset).

  Lemma lossy_in_risky_mut :
    (forall t cur v path x, bases_wt t cur = true -> wtb t v = true ->
        In x (lossy t cur v path) -> In x (risky t cur path)) /\
    (forall fs bm m path x, bases_wts fs bm = true -> wtsb fs m = true ->
        In x (lossys fs bm m path) -> In x (riskys fs bm path)).
  Proof.
    apply ty_flds_ind.
    1-4: intros cur v path x _ _ H; destruct v; destruct H.
    - intros t IH cur v path x Hb Hw H.
      destruct v; simpl in H, Hw; try contradiction; eapply IH; eauto.
    - intros t IH cur v path x Hb Hw H. destruct v as [| | | |l|]; simpl in H; try contradiction.
      simpl in Hw. apply in_flat_map in H as (e & He & Hx). rewrite forallb_forall in Hw.
      exact (IH _ e path x Hb (Hw e He) Hx).
    - intros h fs IH cur v path x Hb Hw H. simpl in Hb. simpl.
      destruct v; simpl in H, Hw; try contradiction.
      destruct (base_of reset h cur); try contradiction.
      apply andb_true_iff in Hb as [_ Hb]. eapply IH; eauto.
    - intros bm m path x _ _ H. destruct bm, m; destruct H.
    - intros k o t IHt r IHr bm m path x Hb Hw H.
      apply wtsb_cons_inv in Hw as (v & m' & -> & Hw1 & Hw2).
      destruct bm as [|[kb b] bm']; [discriminate Hb|]. simpl in Hb, H.
      apply andb_true_iff in Hb as [Hb Hb3]. apply andb_true_iff in Hb as [Hb1 Hb2].
      simpl. rewrite !in_app_iff. apply in_app_or in H as [H|H]; [|eauto].
      destruct (o && isz t v) eqn:Eo; [|eauto].
      (* an omitted field is lossy only if the base differs from it; both being well-typed, the
         base is then not zero *)
      destruct (node_eqb b v) eqn:Eq; [destruct H|]. destruct H as [<-|[]]. left.
      apply andb_true_iff in Eo as [-> Ez]. simpl.
      destruct (isz t b) eqn:Ezb; [|now left].
      apply node_eqb_false in Eq. destruct Eq.
      now rewrite (proj1 isz_zero_mut t b Hb1 Ezb), (proj1 isz_zero_mut t v Hw1 Ez).
  Qed.
End Risky.

Open Scope string_scope.

(* the risky fields of the Prometheus schema (modelled part) *)
Definition risky_fields : list string := risky reset top_ty (NMap d_top) "".

Lemma risky_fields_list : risky_fields =
  [ ".runtime"; ".runtime.gogc"; ".alerting.alert_relabel_configs.action";
    ".alerting.alertmanagers.scheme"; ".alerting.alertmanagers.timeout";
    ".alerting.alertmanagers.relabel_configs.action";
    ".alerting.alertmanagers.alert_relabel_configs.action";
    ".scrape_configs.metrics_path"; ".scrape_configs.scheme";
    ".scrape_configs.relabel_configs.action"; ".scrape_configs.metric_relabel_configs.action";
    ".remote_write.remote_timeout"; ".remote_write.write_relabel_configs.action";
    ".remote_write.protobuf_message"; ".remote_write.queue_config";
    ".remote_write.queue_config.capacity"; ".remote_write.queue_config.max_shards";
    ".remote_write.queue_config.min_shards"; ".remote_write.queue_config.max_samples_per_send";
    ".remote_write.queue_config.batch_send_deadline"; ".remote_write.queue_config.min_backoff";
    ".remote_write.queue_config.max_backoff"; ".remote_write.metadata_config";
    ".remote_write.metadata_config.max_samples_per_send";
    ".remote_read.remote_timeout"; ".remote_read.chunked_read_limit"; ".remote_read.filter_external_labels";
    ".otlp"; ".otlp.translation_strategy"; ".otlp.label_name_underscore_sanitization";
    ".otlp.label_name_preserve_multiple_underscores" ].
Proof. vm_compute. reflexivity. Qed.
