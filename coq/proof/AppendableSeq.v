(* proof/AppendableSeq.v — C02: Commit stores what committing its samples one at a time, in append
   order, would store — for every transaction in which no float staleness marker is followed (later
   in the same transaction) by another sample of the same series, the only configuration in which
   the re-queueing of a converted marker by commitFloats is visible.
   Route: a per-series step f lifted to the state of a commit (gstep): steps of different series
   commute, so a fold is invariant under permutations that only swap different series (perm_ds), and
   folding whole one-sample commits equals one commit of the fold (each_is_fold).  getCurrentBatch
   orders the accepted samples by such a permutation (entries_appender_of).  With f := "convert a
   marker by the series' last sample type, then commit_sample" (cs), a batch commits as the fold of
   f over its entries when it is marker-safe (batch_floats). *)
From Coq Require Import List ZArith Bool Lia.
From Verif Require Import lib.Int64 model.Appendable.
Import ListNotations.
Open Scope Z_scope.

Lemma stype_eqb_eq a b : stype_eqb a b = true <-> a = b.
Proof. destruct a, b; cbn; split; congruence. Qed.

Definition st_eq (a b : smap * acc) : Prop := (forall k, fst a k = fst b k) /\ snd a = snd b.

Lemma st_eq_refl a : st_eq a a.
Proof. split; auto. Qed.
Lemma st_eq_trans a b c : st_eq a b -> st_eq b c -> st_eq a c.
Proof. intros [H1 H2] [H3 H4]. split; [intros k; rewrite H1; apply H3|congruence]. Qed.
Lemma smap_set_other m k s k' : k' <> k -> smap_set m k s k' = m k'.
Proof. intros H. unfold smap_set. destruct (Z.eqb_spec k' k); congruence. Qed.

Lemma acc_add_eq a t : acc_add a t = mkAcc (Z.min (ac_mint a) t) (Z.max (ac_maxt a) t).
Proof.
  unfold acc_add. f_equal; [destruct (Z.ltb_spec t (ac_mint a))|destruct (Z.gtb_spec t (ac_maxt a))]; lia.
Qed.

Lemma acc_add_comm a t1 t2 : acc_add (acc_add a t1) t2 = acc_add (acc_add a t2) t1.
Proof.
  rewrite !acc_add_eq. cbn. rewrite <- !Z.min_assoc, <- !Z.max_assoc, (Z.min_comm t1), (Z.max_comm t1). reflexivity.
Qed.

Lemma update_min_max_eq h a :
  update_min_max h a =
  mkHead (Z.min (h_mint h) (ac_mint a)) (Z.max (h_maxt h) (ac_maxt a)) (h_minValid h) (h_series h).
Proof.
  unfold update_min_max.
  f_equal; [destruct (Z.geb_spec (ac_mint a) (h_mint h))|destruct (Z.leb_spec (ac_maxt a) (h_maxt h))]; lia.
Qed.

(* the head after a commit that ended in state st *)
Definition finish (h : head) (st : smap * acc) : head :=
  update_min_max (mkHead (h_mint h) (h_maxt h) (h_minValid h) (fst st)) (snd st).

Lemma commit_finish c h a :
  commit c h a =
  finish h (fold_left (commit_batch (c_oooCap c) match a_snap a with Some sn => sn | None => default_snap end)
              (rev (a_batches a)) (h_series h, acc0)).
Proof. unfold commit, finish. destruct (fold_left _ _ _). reflexivity. Qed.

Lemma finish_series h st : h_series (finish h st) = fst st.
Proof. reflexivity. Qed.

Lemma finish_acc0 h m : head_wf h -> finish h (m, acc0) = mkHead (h_mint h) (h_maxt h) (h_minValid h) m.
Proof.
  intros [W1 W2]. unfold finish. rewrite update_min_max_eq.
  cbn [h_mint h_maxt h_minValid h_series ac_mint ac_maxt acc0 fst snd]. f_equal; lia.
Qed.

Lemma finish_wf h st : head_wf h -> head_wf (finish h st).
Proof. intros [W1 W2]. unfold finish. rewrite update_min_max_eq. split; cbn; lia. Qed.

(* a timestamp accepted first may as well be accounted for last *)
Lemma finish_acc_add h m st t :
  head_wf h -> finish (finish h (m, acc_add acc0 t)) st = finish h (fst st, acc_add (snd st) t).
Proof.
  intros [W1 W2]. unfold finish.
  rewrite (update_min_max_eq _ (snd (fst st, _))), (update_min_max_eq _ (snd (m, _))), (update_min_max_eq _ (snd st)).
  rewrite (acc_add_eq acc0 t), (acc_add_eq (snd st) t).
  cbn [h_mint h_maxt h_minValid h_series ac_mint ac_maxt acc0 fst snd].
  rewrite (Z.min_assoc (h_mint h)), (Z.min_l _ _ W1), <- Z.min_assoc, (Z.min_comm t).
  rewrite (Z.max_assoc (h_maxt h)), (Z.max_l _ _ W2), <- Z.max_assoc, (Z.max_comm t). reflexivity.
Qed.

Lemma finish_proper h st st' : st_eq st st' -> head_eq (finish h st) (finish h st').
Proof. intros [Hm Ha]. unfold finish. rewrite Ha, !update_min_max_eq. repeat split. exact Hm. Qed.

Inductive perm_ds : list entry -> list entry -> Prop :=
| pd_refl l : perm_ds l l
| pd_swap l1 a b l2 : e_sid a <> e_sid b -> perm_ds (l1 ++ a :: b :: l2) (l1 ++ b :: a :: l2)
| pd_trans l1 l2 l3 : perm_ds l1 l2 -> perm_ds l2 l3 -> perm_ds l1 l3.

Lemma perm_ds_sym l l' : perm_ds l l' -> perm_ds l' l.
Proof.
  induction 1.
  - apply pd_refl.
  - apply pd_swap. congruence.
  - eapply pd_trans; eauto.
Qed.

Lemma perm_ds_app_l p l l' : perm_ds l l' -> perm_ds (p ++ l) (p ++ l').
Proof.
  induction 1.
  - apply pd_refl.
  - rewrite !app_assoc. apply pd_swap. assumption.
  - eapply pd_trans; eauto.
Qed.

Lemma perm_ds_app_r p l l' : perm_ds l l' -> perm_ds (l ++ p) (l' ++ p).
Proof.
  induction 1.
  - apply pd_refl.
  - rewrite <- !app_assoc. cbn. apply pd_swap. assumption.
  - eapply pd_trans; eauto.
Qed.

Lemma perm_ds_insert e X Y :
  Forall (fun x => e_sid x <> e_sid e) X -> perm_ds (e :: X ++ Y) (X ++ e :: Y).
Proof.
  induction 1 as [|x X Hx HX IH]; cbn.
  - apply pd_refl.
  - eapply pd_trans.
    + apply (pd_swap [] e x (X ++ Y)). congruence.
    + apply (perm_ds_app_l [x]). exact IH.
Qed.

Lemma perm_ds_move e X : Forall (fun x => e_sid x <> e_sid e) X -> perm_ds (e :: X) (X ++ [e]).
Proof. intros H. pose proof (perm_ds_insert e X [] H) as P. rewrite app_nil_r in P. exact P. Qed.

Section Generic.
  Variable f : series -> Z -> value -> series * option Z.

  Definition gstep (st : smap * acc) (e : entry) : smap * acc :=
    (smap_set (fst st) (e_sid e) (fst (f (fst st (e_sid e)) (e_t e) (e_val e))),
     match snd (f (fst st (e_sid e)) (e_t e) (e_val e)) with
     | Some t => acc_add (snd st) t | None => snd st end).

  Lemma gstep_proper st st' e : st_eq st st' -> st_eq (gstep st e) (gstep st' e).
  Proof.
    intros [Hm Ha]. unfold gstep. rewrite <- (Hm (e_sid e)), Ha. split; [|reflexivity].
    intros k. cbn [fst]. unfold smap_set. destruct (k =? e_sid e); auto.
  Qed.

  Lemma gfold_proper l : forall st st',
    st_eq st st' -> st_eq (fold_left gstep l st) (fold_left gstep l st').
  Proof.
    induction l as [|e l IH]; intros st st' H; cbn; [exact H|]. apply IH, gstep_proper, H.
  Qed.

  Lemma gstep_comm st a b :
    e_sid a <> e_sid b -> st_eq (gstep (gstep st a) b) (gstep (gstep st b) a).
  Proof.
    intros Hne. unfold gstep. cbn [fst snd].
    rewrite !smap_set_other by congruence.
    split; cbn [fst snd].
    - intros k. unfold smap_set.
      destruct (Z.eqb_spec k (e_sid a)), (Z.eqb_spec k (e_sid b)); try reflexivity. congruence.
    - destruct (snd (f (fst st (e_sid a)) (e_t a) (e_val a))),
               (snd (f (fst st (e_sid b)) (e_t b) (e_val b))); try reflexivity.
      apply acc_add_comm.
  Qed.

  Lemma gfold_perm l l' :
    perm_ds l l' -> forall st, st_eq (fold_left gstep l st) (fold_left gstep l' st).
  Proof.
    induction 1; intros st.
    - apply st_eq_refl.
    - rewrite !fold_left_app. cbn. apply gfold_proper, gstep_comm. assumption.
    - eapply st_eq_trans; eauto.
  Qed.

  Lemma gstep_pair m ac e :
    gstep (m, ac) e =
    (smap_set m (e_sid e) (fst (f (m (e_sid e)) (e_t e) (e_val e))),
     match snd (f (m (e_sid e)) (e_t e) (e_val e)) with Some t => acc_add ac t | None => ac end).
  Proof. reflexivity. Qed.

  (* the series map a fold ends with does not depend on the accumulator it starts from, and a
     timestamp put into the accumulator before the fold may as well be added after it *)
  Lemma gfold_acc l : forall m ac t,
    fold_left gstep l (m, acc_add ac t) =
    (fst (fold_left gstep l (m, ac)), acc_add (snd (fold_left gstep l (m, ac))) t).
  Proof.
    induction l as [|e l IH]; intros m ac t; cbn [fold_left]; [reflexivity|].
    rewrite !gstep_pair.
    destruct (snd (f (m (e_sid e)) (e_t e) (e_val e))) as [t'|]; [|apply IH].
    rewrite acc_add_comm. apply IH.
  Qed.

  Definition hstep (h : head) (e : entry) : head := finish h (gstep (h_series h, acc0) e).

  Lemma each_is_fold l : forall h,
    head_wf h -> fold_left hstep l h = finish h (fold_left gstep l (h_series h, acc0)).
  Proof.
    induction l as [|e l IH]; intros h W; cbn [fold_left].
    - rewrite finish_acc0 by exact W. destruct h. reflexivity.
    - rewrite IH by (apply finish_wf, W). unfold hstep. rewrite gstep_pair, finish_series. cbn [fst].
      destruct (snd (f (h_series h (e_sid e)) (e_t e) (e_val e))) as [t|].
      + rewrite gfold_acc. apply finish_acc_add, W.
      + rewrite finish_acc0 by exact W. reflexivity.
  Qed.
End Generic.

Lemma commit_plain_unfold cap sn st e : commit_plain cap sn st e = gstep (commit_sample cap sn) st e.
Proof.
  destruct st as [m ac]. unfold commit_plain, gstep. cbn [fst snd].
  destruct (commit_sample cap sn (m (e_sid e)) (e_t e) (e_val e)). reflexivity.
Qed.

Definition hk (ty : stype) : bool := match ty with THist | TCHist => true | _ => false end.
Definition fk (ty : stype) : bool := match ty with TFHist | TCFHist => true | _ => false end.
Definition rec_as (p : stype -> bool) (types : list (Z * stype)) (e : entry) : bool :=
  match lookup_type types (e_sid e) with Some ty => p ty | None => false end.

(* a property of the histogram slice and one of the float histogram slice of a batch *)
Definition slices (P Q : entry -> Prop) (b : batch) : Prop := Forall P (b_h b) /\ Forall Q (b_fh b).

(* the batching invariant: the histogram entries of the current batch are recorded in typesInBatch
   with a type of their slice *)
Definition slices_ok (types : list (Z * stype)) : batch -> Prop :=
  slices (fun e => rec_as hk types e = true) (fun e => rec_as fk types e = true).

Definition inv (a : appender) : Prop :=
  match a_batches a with [] => True | b :: _ => slices_ok (a_types a) b end.

(* the histogram slices hold histogram-typed entries *)
Definition typed : batch -> Prop :=
  slices (fun e => hk (stype_of (e_val e)) = true) (fun e => fk (stype_of (e_val e)) = true).

Lemma flat_push b e :
  (stype_of (e_val e) = TFloat /\ flat (push b e) = (b_f b ++ [e]) ++ b_h b ++ b_fh b /\
     b_h (push b e) = b_h b /\ b_fh (push b e) = b_fh b) \/
  (hk (stype_of (e_val e)) = true /\ flat (push b e) = b_f b ++ (b_h b ++ [e]) ++ b_fh b /\
     b_h (push b e) = b_h b ++ [e] /\ b_fh (push b e) = b_fh b) \/
  (fk (stype_of (e_val e)) = true /\ flat (push b e) = b_f b ++ b_h b ++ (b_fh b ++ [e]) /\
     b_h (push b e) = b_h b /\ b_fh (push b e) = b_fh b ++ [e]).
Proof.
  unfold push, flat. destruct (stype_of (e_val e)); cbn; auto 10.
Qed.

Lemma slices_push P Q b e :
  slices P Q b -> (hk (stype_of (e_val e)) = true -> P e) -> (fk (stype_of (e_val e)) = true -> Q e) ->
  slices P Q (push b e).
Proof.
  intros [H1 H2] H3 H4. unfold slices.
  destruct (flat_push b e) as [(Es & _ & -> & ->)|[(Es & _ & -> & ->)|(Es & _ & -> & ->)]];
    split; auto; apply Forall_app; split; auto.
Qed.

Lemma flat_push0 e : flat (push batch0 e) = [e].
Proof. unfold flat, push. destruct (stype_of (e_val e)); reflexivity. Qed.

Lemma hk_fk ty : hk ty = true -> fk ty = false.
Proof. destruct ty; cbn; congruence. Qed.

Lemma flat_batches b bs : concat (map flat (rev (b :: bs))) = concat (map flat (rev bs)) ++ flat b.
Proof. cbn [rev]. rewrite map_app, concat_app. cbn. rewrite app_nil_r. reflexivity. Qed.

Lemma rec_as_here p sid st types e : e_sid e = sid -> rec_as p ((sid, st) :: types) e = p st.
Proof. intros <-. unfold rec_as. cbn. rewrite Z.eqb_refl. reflexivity. Qed.

Lemma other_sids p types X e :
  Forall (fun x => rec_as p types x = true) X -> rec_as p types e = false ->
  Forall (fun x => e_sid x <> e_sid e) X.
Proof.
  intros H He. eapply Forall_impl; [|exact H]. cbn. intros x Hx Heq.
  unfold rec_as in *. rewrite Heq in Hx. congruence.
Qed.

(* continuing the current batch with an entry whose series is not recorded, or recorded with the
   entry's type: the entry only moves across entries of other series *)
Lemma push_perm b e types :
  slices_ok types b ->
  lookup_type types (e_sid e) = None \/ lookup_type types (e_sid e) = Some (stype_of (e_val e)) ->
  perm_ds (flat b ++ [e]) (flat (push b e)).
Proof.
  intros [HH HFH] Hl.
  assert (R : forall p, rec_as p types e = false \/ rec_as p types e = p (stype_of (e_val e))).
  { intros p. unfold rec_as. destruct Hl as [-> | ->]; auto. }
  unfold flat at 1.
  destruct (flat_push b e) as [(Es & -> & _)|[(Es & -> & _)|(Es & -> & _)]].
  - rewrite <- !app_assoc. apply perm_ds_app_l. apply perm_ds_sym.
    rewrite (app_assoc (b_h b) (b_fh b) [e]). apply (perm_ds_move e (b_h b ++ b_fh b)).
    apply Forall_app. split.
    + apply (other_sids hk types _ e HH). destruct (R hk) as [A|A]; [exact A|]. rewrite A, Es. reflexivity.
    + apply (other_sids fk types _ e HFH). destruct (R fk) as [A|A]; [exact A|]. rewrite A, Es. reflexivity.
  - rewrite <- !app_assoc. apply perm_ds_app_l. apply perm_ds_app_l.
    apply perm_ds_sym. apply (perm_ds_move e (b_fh b)).
    apply (other_sids fk types _ e HFH). destruct (R fk) as [A|A]; [exact A|]. rewrite A. apply hk_fk, Es.
  - rewrite <- !app_assoc. apply pd_refl.
Qed.

Lemma slices_ok_cons types b sid st :
  slices_ok types b -> lookup_type types sid = None -> slices_ok ((sid, st) :: types) b.
Proof.
  assert (K : forall p X, Forall (fun x => rec_as p types x = true) X -> lookup_type types sid = None ->
            Forall (fun x => rec_as p ((sid, st) :: types) x = true) X).
  { intros p X H Hn. eapply Forall_impl; [|exact H]. cbn. intros x Hx. unfold rec_as in *. cbn.
    destruct (Z.eqb_spec sid (e_sid x)) as [Heq|]; [|exact Hx].
    rewrite <- Heq, Hn in Hx. discriminate. }
  intros [H1 H2] Hn. split; apply K; assumption.
Qed.

Lemma slices_ok_record types b e :
  lookup_type types (e_sid e) = None -> slices_ok types b ->
  slices_ok match stype_of (e_val e) with TFloat => types | _ => (e_sid e, stype_of (e_val e)) :: types end
    (push b e).
Proof.
  intros Hn Hs. destruct (stype_of (e_val e)) eqn:Es; rewrite <- ?Es.
  1: apply slices_push; [exact Hs| |]; rewrite Es; discriminate.
  all: apply slices_push; [apply slices_ok_cons; assumption| |];
    intros Hk; rewrite Es in *; try discriminate Hk; apply rec_as_here; reflexivity.
Qed.

(* getCurrentBatch: a new batch holding just e, with typesInBatch reset; or the current batch
   continued, e's series being recorded with e's type already, or not recorded and recorded now
   unless e is a float *)
Lemma add_entry_cases a e :
  exists bs' ts', add_entry a e = mkApp (a_v2 a) (a_discard a) (a_snap a) bs' ts' /\
  ((bs' = push batch0 e :: a_batches a /\
    ts' = match stype_of (e_val e) with TFloat => [] | _ => [(e_sid e, stype_of (e_val e))] end) \/
   exists b bs, a_batches a = b :: bs /\ bs' = push b e :: bs /\
     ((lookup_type (a_types a) (e_sid e) = Some (stype_of (e_val e)) /\ ts' = a_types a) \/
      (lookup_type (a_types a) (e_sid e) = None /\
       ts' = match stype_of (e_val e) with
             | TFloat => a_types a | _ => (e_sid e, stype_of (e_val e)) :: a_types a end))).
Proof.
  unfold add_entry. destruct (a_batches a) as [|b bs]; [eauto 8|].
  destruct (lookup_type (a_types a) (e_sid e)) as [prev|].
  - destruct (stype_eqb prev (stype_of (e_val e))) eqn:Ep; [|eauto 8].
    apply stype_eqb_eq in Ep. subst prev. eauto 12.
  - eexists _, _. split; [|right; exists b, bs; auto]. destruct (stype_of (e_val e)); reflexivity.
Qed.

Lemma add_entry_step a e :
  inv a -> perm_ds (entries a ++ [e]) (entries (add_entry a e)) /\ inv (add_entry a e).
Proof.
  intros Hinv. unfold inv in Hinv.
  destruct (add_entry_cases a e) as (bs' & ts' & -> & [[-> ->]|(b & bs & E0 & -> & Ht)]);
    unfold inv, entries; cbn [a_batches a_types].
  - rewrite flat_batches, flat_push0. split; [apply pd_refl|].
    apply (slices_ok_record [] batch0 e); [reflexivity|split; constructor].
  - rewrite E0 in Hinv |- *. split.
    + rewrite !flat_batches, <- app_assoc. apply perm_ds_app_l, (push_perm b e (a_types a) Hinv).
      destruct Ht as [[El _]|[El _]]; auto.
    + destruct Ht as [[El ->]|[El ->]]; [|apply slices_ok_record; assumption].
      apply slices_push; [exact Hinv| |]; intros Hk; unfold rec_as; rewrite El; exact Hk.
Qed.

(* the entries of an appender are its accepted samples, each series in append order *)
Lemma entries_appender_of sn log : perm_ds log (entries (appender_of sn log)).
Proof.
  unfold appender_of.
  assert (H : forall l a, inv a -> perm_ds (entries a ++ l) (entries (fold_left add_entry l a))).
  { induction l as [|e l IH]; intros a Hinv; cbn.
    - rewrite app_nil_r. apply pd_refl.
    - destruct (add_entry_step a e Hinv) as [Hp Hi].
      eapply pd_trans; [|exact (IH _ Hi)].
      change (e :: l) with ([e] ++ l). rewrite app_assoc. apply perm_ds_app_r. exact Hp. }
  exact (H log (fresh_appender sn) I).
Qed.

Lemma push_typed b e : typed b -> typed (push b e).
Proof. intros H. apply slices_push; auto. Qed.

Lemma appender_of_spec sn log :
  a_snap (appender_of sn log) = Some sn /\ Forall typed (a_batches (appender_of sn log)).
Proof.
  unfold appender_of.
  assert (H : forall l a, Forall typed (a_batches a) ->
            a_snap (fold_left add_entry l a) = a_snap a /\ Forall typed (a_batches (fold_left add_entry l a))).
  { induction l as [|e l IH]; intros a Ha; cbn; [auto|].
    destruct (add_entry_cases a e) as (bs' & ts' & -> & Eb). apply (IH (mkApp _ _ _ _ _)). cbn [a_batches].
    destruct Eb as [[-> _] | (b & bs & E1 & -> & _)].
    - constructor; [apply push_typed; split; constructor|exact Ha].
    - rewrite E1 in Ha. inversion Ha; subst. constructor; [apply push_typed|]; assumption. }
  apply (H log (fresh_appender sn)). constructor.
Qed.

(* the type a float staleness marker is converted to at commit (commitFloats) *)
Definition conv_kind (s : series) (v : value) : option stype :=
  if is_stale_float v then
    match s_last s with
    | Some (_, VH _) => Some THist
    | Some (_, VFH _) => Some TFHist
    | _ => None
    end
  else None.

Lemma commit_float_conv cap sn m ac hs fhs e :
  commit_float cap sn (m, ac, hs, fhs) e =
  match conv_kind (m (e_sid e)) (e_val e) with
  | Some THist => (m, ac, hs ++ [(e_sid e, e_t e, VH 0)], fhs)
  | Some _ => (m, ac, hs, fhs ++ [(e_sid e, e_t e, VFH 0)])
  | None => let '(m', ac') := commit_plain cap sn (m, ac) e in (m', ac', hs, fhs)
  end.
Proof. reflexivity. Qed.

Lemma conv_kind_cases s v :
  conv_kind s v = None \/
  is_stale_float v = true /\ (conv_kind s v = Some THist \/ conv_kind s v = Some TFHist).
Proof.
  unfold conv_kind. destruct (is_stale_float v); auto.
  destruct (s_last s) as [[? []]|]; auto.
Qed.

Lemma conv_kind_nonfloat s v : stype_of v <> TFloat -> conv_kind s v = None.
Proof. unfold conv_kind. destruct v; cbn; congruence. Qed.

Section Conv.
  Variables (cap : Z) (sn : snap).

  Definition conv_val (s : series) (v : value) : value :=
    match conv_kind s v with Some THist => VH 0 | Some _ => VFH 0 | None => v end.

  Definition cs (s : series) (t : Z) (v : value) : series * option Z :=
    commit_sample cap sn s t (conv_val s v).

  Definition cstep := gstep cs.

  Lemma plain_is_cstep (st : smap * acc) e :
    conv_kind (fst st (e_sid e)) (e_val e) = None -> commit_plain cap sn st e = cstep st e.
  Proof.
    intros H. rewrite commit_plain_unfold. unfold cstep, gstep, cs, conv_val. rewrite H. reflexivity.
  Qed.

  Lemma fold_plain_is_cstep l : forall st : smap * acc,
    Forall (fun e => stype_of (e_val e) <> TFloat) l ->
    fold_left (commit_plain cap sn) l st = fold_left cstep l st.
  Proof.
    induction l as [|e l IH]; intros st H; cbn [fold_left]; [reflexivity|].
    inversion H; subst. rewrite plain_is_cstep by (apply conv_kind_nonfloat; assumption).
    apply IH. assumption.
  Qed.

  Lemma cstep_converted (st : smap * acc) e w :
    (conv_kind (fst st (e_sid e)) (e_val e) = Some THist /\ w = VH 0) \/
    (conv_kind (fst st (e_sid e)) (e_val e) = Some TFHist /\ w = VFH 0) ->
    cstep st (e_sid e, e_t e, w) = cstep st e.
  Proof.
    intros H.
    assert (E : conv_val (fst st (e_sid e)) (e_val e) = w /\ conv_val (fst st (e_sid e)) w = w).
    { destruct H as [[H ->]|[H ->]]; unfold conv_val; rewrite H; split; reflexivity. }
    destruct E as [E1 E2]. unfold cstep, gstep, cs.
    change (e_sid (e_sid e, e_t e, w)) with (e_sid e).
    change (e_t (e_sid e, e_t e, w)) with (e_t e).
    change (e_val (e_sid e, e_t e, w)) with w.
    rewrite E1, E2. reflexivity.
  Qed.
End Conv.

(* no float staleness marker is followed by another sample of its series *)
Fixpoint safe (l : list entry) : Prop :=
  match l with
  | [] => True
  | e :: r => (is_stale_float (e_val e) = true -> Forall (fun x => e_sid x <> e_sid e) r) /\ safe r
  end.

Lemma safe_app l1 : forall l2, safe (l1 ++ l2) -> safe l1 /\ safe l2.
Proof.
  induction l1 as [|e l1 IH]; intros l2 H; cbn in *; [auto|].
  destruct H as [He Hs]. destruct (IH l2 Hs) as [A B]. repeat split; auto.
  intros St. specialize (He St). apply Forall_app in He. tauto.
Qed.

Lemma safe_insert e X : forall Y,
  is_stale_float (e_val e) = false -> Forall (fun x => e_sid x <> e_sid e) X ->
  safe (X ++ Y) -> safe (X ++ e :: Y).
Proof.
  induction X as [|x X IH]; intros Y Ne HX Hs; cbn in *.
  - split; [congruence|exact Hs].
  - inversion HX; subst. destruct Hs as [Hx Hs]. split; [|apply IH; assumption].
    intros St. specialize (Hx St). apply Forall_app in Hx. apply Forall_app. split; [tauto|].
    constructor; [congruence|tauto].
Qed.

Lemma safe_perm l l' : perm_ds l l' -> safe l -> safe l'.
Proof.
  induction 1; intros Hs; auto.
  induction l1 as [|x l1 IH]; cbn in *.
  - destruct Hs as [Ha [Hb Hs]]. split; [|split; [|exact Hs]].
    + intros St. specialize (Hb St). constructor; [congruence|exact Hb].
    + intros St. specialize (Ha St). inversion Ha; assumption.
  - destruct Hs as [Hx Hs]. split; [|apply IH; exact Hs].
    intros St. specialize (Hx St).
    rewrite Forall_forall in *. intros y Hy. apply Hx.
    rewrite in_app_iff in *. cbn in *. tauto.
Qed.

Section Batches.
  Variables (cap : Z) (sn : snap).
  Let nonfloat (l : list entry) := Forall (fun e => stype_of (e_val e) <> TFloat) l.

  (* commitFloats followed by commitHistograms and commitFloatHistograms = the conversion step
     folded over floats, histograms, float histograms in that order: a marker converted at its turn
     in F is re-queued behind H or FH, and nothing in between has its series *)
  Lemma batch_floats F : forall (m : smap) ac H FH,
    safe (F ++ H ++ FH) -> nonfloat H -> nonfloat FH ->
    st_eq (let '(m1, ac1, H', FH') := fold_left (commit_float cap sn) F (m, ac, H, FH) in
           fold_left (commit_plain cap sn) FH' (fold_left (commit_plain cap sn) H' (m1, ac1)))
          (fold_left (cstep cap sn) (F ++ H ++ FH) (m, ac)).
  Proof.
    induction F as [|e F IH]; intros m ac H FH Hs HnH HnFH; cbn [fold_left app].
    - rewrite fold_left_app, !fold_plain_is_cstep by assumption. apply st_eq_refl.
    - rewrite commit_float_conv. destruct Hs as [He Hs].
      destruct (conv_kind_cases (m (e_sid e)) (e_val e)) as [Ek|[St Ek]].
      + rewrite Ek, <- (plain_is_cstep cap sn (m, ac) e) by exact Ek.
        destruct (commit_plain cap sn (m, ac) e) as [m' ac']. apply IH; assumption.
      + specialize (He St). rewrite !app_assoc in He, Hs. apply Forall_app in He. destruct He as [He1 He2].
        destruct Ek as [Ek|Ek]; rewrite Ek.
        * (* re-queued behind the histograms *)
          set (e1 := (e_sid e, e_t e, VH 0)).
          rewrite <- (cstep_converted cap sn (m, ac) e (VH 0)) by (left; auto). fold e1.
          eapply st_eq_trans.
          -- apply IH; [|apply Forall_app; split; [exact HnH|constructor; [discriminate|constructor]]|exact HnFH].
             rewrite <- (app_assoc H [e1] FH). cbn [app]. rewrite !app_assoc.
             apply safe_insert; [reflexivity|exact He1|exact Hs].
          -- apply (gfold_perm _ _ (e1 :: F ++ H ++ FH)). apply perm_ds_sym.
             rewrite <- (app_assoc H [e1] FH). cbn [app]. rewrite !app_assoc. apply perm_ds_insert, He1.
        * (* re-queued behind the float histograms *)
          set (e2 := (e_sid e, e_t e, VFH 0)).
          rewrite <- (cstep_converted cap sn (m, ac) e (VFH 0)) by (right; auto). fold e2.
          eapply st_eq_trans.
          -- apply IH; [|exact HnH|apply Forall_app; split; [exact HnFH|constructor; [discriminate|constructor]]].
             rewrite !app_assoc. apply safe_insert; [reflexivity|apply Forall_app; split; assumption|].
             rewrite app_nil_r. exact Hs.
          -- apply (gfold_perm _ _ (e2 :: F ++ H ++ FH)). apply perm_ds_sym.
             rewrite !app_assoc. apply perm_ds_move. apply Forall_app; split; assumption.
  Qed.

  Definition bgood (b : batch) : Prop := safe (flat b) /\ typed b.

  Lemma hk_nonfloat l : Forall (fun e => hk (stype_of (e_val e)) = true) l -> nonfloat l.
  Proof. apply Forall_impl. intros e H E. rewrite E in H. discriminate. Qed.
  Lemma fk_nonfloat l : Forall (fun e => fk (stype_of (e_val e)) = true) l -> nonfloat l.
  Proof. apply Forall_impl. intros e H E. rewrite E in H. discriminate. Qed.

  Lemma commit_batch_cstep (st : smap * acc) b :
    bgood b -> st_eq (commit_batch cap sn st b) (fold_left (cstep cap sn) (flat b) st).
  Proof.
    intros (Hs & Hh & Hfh). destruct st as [m ac].
    apply (batch_floats (b_f b) m ac (b_h b) (b_fh b) Hs); [apply hk_nonfloat|apply fk_nonfloat]; assumption.
  Qed.

  Lemma commit_batches_cstep bs : forall st : smap * acc,
    Forall bgood bs ->
    st_eq (fold_left (commit_batch cap sn) bs st) (fold_left (cstep cap sn) (concat (map flat bs)) st).
  Proof.
    induction bs as [|b bs IH]; intros st H; cbn [fold_left map concat]; [apply st_eq_refl|].
    inversion H; subst. rewrite fold_left_app.
    eapply st_eq_trans; [apply IH; assumption|].
    apply gfold_proper. apply commit_batch_cstep. assumption.
  Qed.

  Lemma commit_batch_single (st : smap * acc) e : commit_batch cap sn st (push batch0 e) = cstep cap sn st e.
  Proof.
    destruct st as [m ac]. unfold commit_batch, push.
    destruct (stype_of (e_val e)) eqn:Es; cbn [b_f b_h b_fh batch0 app fold_left];
      try (apply plain_is_cstep, conv_kind_nonfloat; rewrite Es; discriminate).
    rewrite commit_float_conv.
    destruct (conv_kind_cases (m (e_sid e)) (e_val e)) as [Ek|[St [Ek|Ek]]]; rewrite Ek.
    - rewrite (plain_is_cstep cap sn (m, ac) e Ek). destruct (cstep cap sn (m, ac) e). reflexivity.
    - cbn [fold_left app]. rewrite plain_is_cstep by reflexivity. apply cstep_converted. auto.
    - cbn [fold_left app]. rewrite plain_is_cstep by reflexivity. apply cstep_converted. auto.
  Qed.
End Batches.

Lemma commit_single c h sn e :
  commit c h (appender_of sn [e]) = hstep (cs (c_oooCap c) sn) h e.
Proof. rewrite commit_finish. apply (f_equal (finish h)), commit_batch_single. Qed.

(* commit of the transaction = its accepted samples committed one at a time, in append order,
   each through its own appender with the original appender's window snapshot — for every
   transaction in which no float staleness marker is followed by another sample of the same series *)
Theorem commit_sequential_fold c sn h log :
  head_wf h -> safe log ->
  head_eq (commit c h (appender_of sn log))
          (fold_left (fun h e => commit c h (appender_of sn [e])) log h).
Proof.
  intros Hw Hs. set (a := appender_of sn log).
  destruct (appender_of_spec sn log) as [Esn Ht]. fold a in Esn, Ht.
  pose proof (entries_appender_of sn log) as Hp. fold a in Hp.
  assert (Hb : Forall (bgood) (rev (a_batches a))).
  { pose proof (safe_perm _ _ Hp Hs) as Hse. unfold entries in Hse.
    apply Forall_forall. intros b Hb. split.
    - apply in_split in Hb. destruct Hb as (l1 & l2 & E). rewrite E, map_app, concat_app in Hse.
      cbn in Hse. apply safe_app in Hse. destruct Hse as [_ Hse]. apply safe_app in Hse. apply Hse.
    - rewrite Forall_forall in Ht. apply Ht, in_rev, Hb. }
  replace (fold_left _ log h) with (fold_left (hstep (cs (c_oooCap c) sn)) log h).
  2:{ clear. revert h. induction log as [|e l IH]; intros h; cbn [fold_left]; [reflexivity|].
      rewrite commit_single. apply IH. }
  rewrite each_is_fold by exact Hw. rewrite commit_finish, Esn.
  apply finish_proper.
  eapply st_eq_trans; [apply commit_batches_cstep, Hb|].
  apply gfold_perm, perm_ds_sym, Hp.
Qed.
