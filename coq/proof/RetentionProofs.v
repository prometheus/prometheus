(* proof/RetentionProofs.v — lemmas and proofs about model/Retention.v (property C09).
   Each retention rule is described by a split [o = kept ++ gone] of the slice. *)
From Coq Require Import List ZArith Bool Lia Sorting.Permutation.
From Verif Require Import lib.Int64 lib.SortedList model.Retention.
Import ListNotations.
Open Scope Z_scope.

Lemma memZ_In x l : memZ x l = true <-> In x l.
Proof. apply (existsb_eqb_In Z.eqb Z.eqb_eq). Qed.

Lemma memZ_false x l : memZ x l = false <-> ~ In x l.
Proof. apply (existsb_eqb_notin Z.eqb Z.eqb_eq). Qed.

Lemma nodupZ_NoDup l : nodupZ l = true -> NoDup l.
Proof. apply (nodupb_spec Z.eqb Z.eqb_eq). Qed.

Lemma in_map_inj {A B} (f : A -> B) l s x :
  NoDup (map f l) -> incl s l -> In x l -> In (f x) (map f s) -> In x s.
Proof.
  intros Hnd Hs Hx Hfx. apply in_map_iff in Hfx as [y [Hf Hy]].
  apply in_split in Hx as [l1 [l2 ->]].
  rewrite map_app in Hnd. apply NoDup_remove_2 in Hnd.
  destruct (in_elt_inv _ _ _ _ (Hs y Hy)) as [->|Hy']; [exact Hy|].
  destruct Hnd. rewrite <- Hf, <- map_app. apply in_map, Hy'.
Qed.

Lemma drop_until_split {A} (p : A -> bool) l : exists kept gone,
  l = kept ++ gone /\ drop_until p l = gone /\ (forall y, In y kept -> p y = false) /\
  (forall x r, gone = x :: r -> p x = true).
Proof.
  induction l as [|a l (kept & gone & E & Eg & Hk & Hg)]; [now exists [], []|].
  cbn [drop_until]. destruct (p a) eqn:Ea.
  - exists [], (a :: l). repeat split; [easy|]. now intros x r [= <- _].
  - exists (a :: kept), gone. repeat split; [cbn; now f_equal|assumption| |assumption].
    intros y [<-|Hy]; auto.
Qed.

Lemma sorted_desc_cons a b r :
  sorted_desc (a :: b :: r) = (b_maxt b <=? b_maxt a) && sorted_desc (b :: r).
Proof. reflexivity. Qed.

Lemma sorted_desc_cons_inv a l :
  sorted_desc (a :: l) = true -> sorted_desc l = true /\ forall y, In y l -> b_maxt y <= b_maxt a.
Proof.
  revert a. induction l as [|b l IH]; intros a H; [easy|].
  rewrite sorted_desc_cons in H. apply andb_true_iff in H as [Hab Hs].
  split; [exact Hs|]. intros y [<-|Hy]; [lia|]. apply (IH b Hs) in Hy. lia.
Qed.

Lemma sorted_desc_app l1 l2 :
  sorted_desc (l1 ++ l2) = true -> forall x y, In x l1 -> In y l2 -> b_maxt y <= b_maxt x.
Proof.
  induction l1 as [|a l1 IH]; intros H x y Hx Hy; [easy|].
  apply sorted_desc_cons_inv in H as [Hs Hall]. destruct Hx as [<-|Hx]; [|now apply IH].
  apply Hall, in_or_app. now right.
Qed.

Lemma sorted_desc_elt l1 x l2 :
  sorted_desc (l1 ++ x :: l2) = true -> forall y, In y l2 -> b_maxt y <= b_maxt x.
Proof.
  intros H y. apply (sorted_desc_app (l1 ++ [x]) l2); [|apply in_elt].
  now rewrite <- app_assoc.
Qed.

Lemma sum_sizes_cons b r : sum_sizes (b :: r) = b_size b + sum_sizes r.
Proof. reflexivity. Qed.

Lemma sum_sizes_app l1 l2 : sum_sizes (l1 ++ l2) = sum_sizes l1 + sum_sizes l2.
Proof.
  induction l1 as [|a l1 IH]; [reflexivity|]. cbn [app]. rewrite !sum_sizes_cons, IH. lia.
Qed.

Lemma sum_filter_perm p l l' :
  Permutation l l' -> sum_sizes (filter p l) = sum_sizes (filter p l').
Proof.
  induction 1 as [|x l l' _ IH|x y l|l l' l'' _ IH1 _ IH2]; cbn [filter]; [easy| | |congruence].
  - destruct (p x); rewrite ?sum_sizes_cons; congruence.
  - destruct (p x), (p y); rewrite ?sum_sizes_cons; lia.
Qed.

Lemma sum_filter_le p l :
  Forall (fun b => 0 <= b_size b) l -> 0 <= sum_sizes (filter p l) <= sum_sizes l.
Proof.
  induction 1 as [|a l Ha _ IH]; cbn [filter]; [easy|].
  destruct (p a); rewrite ?sum_sizes_cons; lia.
Qed.

Lemma size_scan_suffix m bs : forall acc, exists kept, bs = kept ++ size_scan m acc bs.
Proof.
  induction bs as [|b r IH]; intros acc; [now exists []|].
  cbn [size_scan]. destruct (m <? add64 acc (b_size b)); [now exists []|].
  destruct (IH (add64 acc (b_size b))) as [kept E]. exists (b :: kept). cbn. now f_equal.
Qed.

Lemma size_scan_split m bs : forall acc,
  0 <= acc -> Forall (fun b => 0 <= b_size b) bs -> acc + sum_sizes bs <= maxInt64 ->
  exists kept gone, bs = kept ++ gone /\ size_scan m acc bs = gone /\
    (kept = [] \/ acc + sum_sizes kept <= m) /\
    (forall x r, gone = x :: r -> m < acc + sum_sizes kept + b_size x).
Proof.
  induction bs as [|b r IH]; intros acc Hacc Hsz Hsum.
  { exists [], []. repeat split; [now left|intros x r [=]]. }
  apply Forall_cons_iff in Hsz as [Hb Hr]. rewrite sum_sizes_cons in Hsum.
  pose proof (sum_filter_le (fun _ => true) r Hr) as Hrn.
  cbn [size_scan]. unfold add64. rewrite wrap64_id by (unfold int64, minInt64, maxInt64 in *; lia).
  destruct (Z.ltb_spec m (acc + b_size b)) as [Hlt|Hge].
  - exists [], (b :: r). repeat split; [now left|]. intros x r' [= <- _]. cbn. lia.
  - destruct (IH (acc + b_size b)) as (kept & gone & E & Eg & Hin & Hout); [lia|exact Hr|lia|].
    exists (b :: kept), gone. rewrite sum_sizes_cons. repeat split; [cbn; now f_equal|exact Eg| |].
    + right. destruct Hin as [->|Hin]; cbn; lia.
    + intros x r' Ex. specialize (Hout x r' Ex). lia.
Qed.

Lemma beyond_size_eq c o :
  beyond_size c o = if eff_max_bytes c <=? 0 then []
                    else map b_id (size_scan (eff_max_bytes c) (c_head c) o).
Proof. destruct o; [now destruct (_ <=? 0)|reflexivity]. Qed.

Lemma size_disabled c o : eff_max_bytes c <= 0 -> beyond_size c o = [].
Proof. intros H. rewrite beyond_size_eq. destruct (Z.leb_spec (eff_max_bytes c) 0); [reflexivity|lia]. Qed.

Lemma time_disabled c o : c_dur c = 0 -> beyond_time c o = [].
Proof. intros H. unfold beyond_time. destruct o; [reflexivity|]. now rewrite H. Qed.

(* m is the newest MaxTime of bs *)
Definition is_newest (bs : list block) (m : Z) : Prop :=
  (exists x, In x bs /\ b_maxt x = m) /\ forall x, In x bs -> b_maxt x <= m.

Definition span_ok (bs : list block) : Prop :=
  forall x y, In x bs -> In y bs -> int64 (b_maxt x - b_maxt y).

Lemma span_ok_bounds lo hi bs :
  hi - lo <= maxInt64 -> Forall (fun x => lo <= b_maxt x <= hi) bs -> span_ok bs.
Proof.
  intros Hw Hb x y Hx Hy. rewrite Forall_forall in Hb. apply Hb in Hx, Hy.
  unfold int64, minInt64, maxInt64 in *. lia.
Qed.

Definition newer_or_tied (b x : block) : bool := b_maxt b <=? b_maxt x.
Definition strictly_newer (b x : block) : bool := b_maxt b <? b_maxt x.

Lemma sum_tied_split b bs :
  NoDup bs -> In b bs -> (forall x, In x bs -> b_maxt x = b_maxt b -> x = b) ->
  sum_sizes (filter (newer_or_tied b) bs) = sum_sizes (filter (strictly_newer b) bs) + b_size b.
Proof.
  intros Hnd Hb Huniq. apply in_split in Hb as [l1 [l2 ->]].
  (* move b to the front: on the other blocks, none tied with b, the two tests agree *)
  pose proof (Permutation_middle l1 l2 b) as Hp.
  rewrite <- (sum_filter_perm (newer_or_tied b) _ _ Hp), <- (sum_filter_perm (strictly_newer b) _ _ Hp).
  cbn [filter]. unfold newer_or_tied at 1, strictly_newer at 1.
  rewrite Z.leb_refl, Z.ltb_irrefl, sum_sizes_cons.
  rewrite (filter_ext_in (newer_or_tied b) (strictly_newer b) (l1 ++ l2)); [lia|].
  intros x Hx. unfold newer_or_tied, strictly_newer.
  assert (b_maxt x <> b_maxt b).
  { intros Heq. apply (NoDup_remove_2 _ _ _ Hnd). rewrite <- (Huniq x); [exact Hx| |exact Heq].
    apply (Permutation_in x Hp). now right. }
  destruct (Z.leb_spec (b_maxt b) (b_maxt x)), (Z.ltb_spec (b_maxt b) (b_maxt x)); lia || easy.
Qed.

(* o is the slice as the sort left it: a descending rearrangement of bs (distinct ULIDs) *)
Section ValidOrder.
  Variables (c : cfg) (bs o : list block) (m : Z) (b : block).
  Hypotheses (Hperm : Permutation o bs) (Hsort : sorted_desc o = true)
             (Hnd : NoDup (map b_id bs)).

  Lemma order_in z : In z o -> In z bs.
  Proof. apply Permutation_in, Hperm. Qed.

  Lemma in_order z : In z bs -> In z o.
  Proof. apply Permutation_in, Permutation_sym, Hperm. Qed.

  Lemma order_in_part s : incl s o -> In b bs -> In (b_id b) (map b_id s) -> In b s.
  Proof.
    intros Hs Hb. apply (in_map_inj b_id o); [|exact Hs|apply in_order, Hb].
    exact (Permutation_NoDup (Permutation_map b_id (Permutation_sym Hperm)) Hnd).
  Qed.

  Lemma time_exact :
    0 < c_dur c -> span_ok bs -> is_newest bs m -> In b bs ->
    (In (b_id b) (beyond_time c o) <-> c_dur c <= m - b_maxt b).
  Proof.
    intros Hdur Hspan [[x [Hx Hxm]] Hub] Hb.
    pose proof order_in_part as Hpart. pose proof order_in as Hob.
    apply in_order in Hx. pose proof (in_order b Hb) as Hbo.
    destruct o as [|b0 rest]; [easy|].
    destruct (sorted_desc_cons_inv _ _ Hsort) as [Hsr Hall].
    assert (Hm : m = b_maxt b0).
    { pose proof (Hub b0 (Hob b0 (or_introl eq_refl))).
      destruct Hx as [->|Hx]; [lia|]. apply Hall in Hx. lia. }
    set (p := fun y => c_dur c <=? sub64 (b_maxt b0) (b_maxt y)).
    assert (Hp : forall y, In y rest -> p y = true <-> c_dur c <= m - b_maxt y).
    { intros y Hy. unfold p, sub64. rewrite wrap64_id, Hm; [apply Z.leb_le|].
      apply Hspan; apply Hob; [now left|now right]. }
    unfold beyond_time. destruct (Z.eqb_spec (c_dur c) 0); [lia|]. fold p.
    destruct (drop_until_split p rest) as (kept & gone & -> & -> & Hk & Hg). split.
    - intros Hin. apply Hpart in Hin; [|apply incl_tl, incl_appr, incl_refl|exact Hb].
      destruct gone as [|x' r]; [easy|]. specialize (Hg x' r eq_refl).
      apply Hp in Hg; [|apply in_elt].
      destruct Hin as [<-|Hin]; [lia|]. pose proof (sorted_desc_elt _ _ _ Hsr b Hin). lia.
    - intros Hle. destruct Hbo as [<-|Hbo]; [lia|].
      apply in_app_or in Hbo as [Hbk|Hbg]; [|now apply in_map].
      apply Hp in Hle; [|apply in_or_app; now left]. rewrite (Hk b Hbk) in Hle. discriminate.
  Qed.

  Hypotheses (Hm : 0 < eff_max_bytes c) (Hsz : forall x, In x bs -> 0 <= b_size x)
             (Hh : 0 <= c_head c) (Hsum : c_head c + sum_sizes bs <= maxInt64).

  Lemma size_tie_independent :
    In b bs ->
    (c_head c + sum_sizes (filter (newer_or_tied b) bs) <= eff_max_bytes c ->
       ~ In (b_id b) (beyond_size c o)) /\
    (eff_max_bytes c < c_head c + sum_sizes (filter (strictly_newer b) bs) + b_size b ->
       In (b_id b) (beyond_size c o)).
  Proof.
    intros Hb. pose proof order_in_part as Hpart. pose proof (in_order b Hb) as Hbo.
    assert (Hszo : Forall (fun x => 0 <= b_size x) o)
      by (apply Forall_forall; intros x Hx; apply Hsz, order_in, Hx).
    pose proof (sum_filter_perm (fun _ => true) o bs Hperm) as Hso.
    rewrite !filter_all in Hso by easy.
    rewrite <- (sum_filter_perm (newer_or_tied b) o bs Hperm),
            <- (sum_filter_perm (strictly_newer b) o bs Hperm), beyond_size_eq.
    destruct (Z.leb_spec (eff_max_bytes c) 0); [lia|].
    rewrite <- Hso in Hsum.
    destruct (size_scan_split (eff_max_bytes c) o (c_head c) Hh Hszo Hsum)
      as (kept & gone & E & -> & Hin & Hout).
    rewrite E in *. apply Forall_app in Hszo as [Hzk Hzg]. split.
    - (* b dropped: all blocks up to the first dropped one are at least as new as b *)
      intros Hfit Hdel. apply Hpart in Hdel; [|apply incl_appr, incl_refl|exact Hb].
      destruct gone as [|x r]; [easy|]. specialize (Hout x r eq_refl).
      apply Forall_cons_iff in Hzg as [_ Hzr].
      rewrite filter_app, sum_sizes_app, filter_all in Hfit
        by (intros y Hy; apply Z.leb_le, (sorted_desc_app _ _ Hsort y b Hy Hdel)).
      cbn [filter] in Hfit. replace (newer_or_tied b x) with true in Hfit.
      2:{ symmetry. apply Z.leb_le. destruct Hdel as [<-|Hdel]; [lia|].
          exact (sorted_desc_elt _ _ _ Hsort b Hdel). }
      rewrite sum_sizes_cons in Hfit. pose proof (sum_filter_le (newer_or_tied b) r Hzr). lia.
    - intros Hover. apply in_app_or in Hbo as [Hk|Hg]; [|now apply in_map]. exfalso.
      destruct Hin as [->|Hin]; [easy|]. apply in_split in Hk as [l1 [l2 ->]].
      apply Forall_app in Hzk as [Hz1 Hz2]. apply Forall_cons_iff in Hz2 as [_ Hz2].
      rewrite <- app_assoc in Hsort, Hover. cbn [app] in Hsort, Hover.
      rewrite filter_app, sum_sizes_app, (filter_none _ (b :: l2 ++ gone)) in Hover.
      2:{ intros y [<-|Hy]; apply Z.ltb_ge; [lia|exact (sorted_desc_elt _ _ _ Hsort y Hy)]. }
      rewrite sum_sizes_app, sum_sizes_cons in Hin.
      pose proof (sum_filter_le (strictly_newer b) l1 Hz1).
      pose proof (sum_filter_le (fun _ => true) l2 Hz2). cbn in Hover. lia.
  Qed.

End ValidOrder.

(* both rules delete a suffix of the slice, for every configuration *)
Definition ids_of_suffix (ids : list Z) (o : list block) : Prop :=
  exists kept gone, o = kept ++ gone /\ ids = map b_id gone.

Lemma beyond_time_suffix c o : ids_of_suffix (beyond_time c o) o.
Proof.
  destruct o as [|b0 rest]; [now exists [], []|]. unfold beyond_time.
  destruct (c_dur c =? 0); [exists (b0 :: rest), []; now rewrite app_nil_r|].
  destruct (drop_until_split (fun b => c_dur c <=? sub64 (b_maxt b0) (b_maxt b)) rest)
    as (kept & gone & -> & -> & _).
  now exists (b0 :: kept), gone.
Qed.

Lemma beyond_size_suffix c o : ids_of_suffix (beyond_size c o) o.
Proof.
  rewrite beyond_size_eq. destruct (_ <=? 0); [exists o, []; now rewrite app_nil_r|].
  destruct (size_scan_suffix (eff_max_bytes c) o (c_head c)) as [kept E].
  now exists kept, (size_scan (eff_max_bytes c) (c_head c) o).
Qed.

Lemma gone_oldest ids o b b' :
  ids_of_suffix ids o -> sorted_desc o = true -> NoDup (map b_id o) -> In b o -> In b' o ->
  In (b_id b) ids -> ~ In (b_id b') ids -> b_maxt b <= b_maxt b'.
Proof.
  intros (kept & gone & -> & ->) Hsort Hnd Hb Hb' Hdel Hkept.
  apply (in_map_inj b_id (kept ++ gone)) in Hdel; [|exact Hnd|apply incl_appr, incl_refl|exact Hb].
  apply (sorted_desc_app _ _ Hsort); [|exact Hdel].
  apply in_app_or in Hb' as [H|H]; [exact H|]. destruct (Hkept (in_map _ _ _ H)).
Qed.

(* a valid order always exists (the theorems quantify over a non-empty set) *)
Lemma insert_desc_perm b l : Permutation (insert_desc b l) (b :: l).
Proof.
  induction l as [|x r IH]; cbn [insert_desc]; [reflexivity|].
  destruct (b_maxt x <? b_maxt b); [reflexivity|].
  apply perm_trans with (x :: b :: r); [apply perm_skip, IH | apply perm_swap].
Qed.

Lemma sort_desc_perm bs : Permutation (sort_desc bs) bs.
Proof.
  induction bs as [|b r IH]; [constructor|].
  apply perm_trans with (b :: sort_desc r); [apply insert_desc_perm|apply perm_skip, IH].
Qed.

Lemma insert_desc_sorted b l : sorted_desc l = true -> sorted_desc (insert_desc b l) = true.
Proof.
  induction l as [|x r IH]; intros Hs; [reflexivity|].
  cbn [insert_desc]. destruct (Z.ltb_spec (b_maxt x) (b_maxt b)) as [E|E].
  - rewrite sorted_desc_cons, Hs, andb_true_r. apply Z.leb_le. lia.
  - destruct r as [|y r'].
    + cbn [insert_desc]. rewrite sorted_desc_cons, andb_true_r. apply Z.leb_le, E.
    + rewrite sorted_desc_cons in Hs. apply andb_true_iff in Hs as [Hyx Hr].
      specialize (IH Hr). cbn [insert_desc] in *.
      destruct (b_maxt y <? b_maxt b); rewrite sorted_desc_cons, IH, andb_true_r;
        [apply Z.leb_le, E | exact Hyx].
Qed.

Lemma sort_desc_sorted bs : sorted_desc (sort_desc bs) = true.
Proof.
  induction bs as [|b r IH]; [reflexivity|]. now apply insert_desc_sorted.
Qed.

Lemma insert_mint_perm b l : Permutation (insert_mint b l) (b :: l).
Proof.
  induction l as [|x r IH]; cbn [insert_mint]; [reflexivity|].
  destruct (b_mint b <? b_mint x); [reflexivity|].
  apply perm_trans with (x :: b :: r); [apply perm_skip, IH | apply perm_swap].
Qed.

Lemma sort_mint_in x l : In x (sort_mint l) <-> In x l.
Proof.
  assert (P : Permutation (sort_mint l) l).
  { induction l as [|b r IH]; [constructor|].
    apply perm_trans with (b :: sort_mint r); [apply insert_mint_perm|apply perm_skip, IH]. }
  split; apply Permutation_in; [|symmetry]; exact P.
Qed.

Lemma in_deletable_ids c o i :
  In i (deletable_ids c o) <->
  (exists b, In b o /\ b_del b = true /\ b_id b = i) \/ In i (beyond_time c o ++ beyond_size c o).
Proof.
  unfold deletable_ids. split; intros H.
  - apply in_app_or in H as [H|H]; [left|now right].
    apply in_map_iff in H as [b [Hid Hb]]. apply filter_In in Hb as [Hb Hd]. exists b. auto.
  - apply in_or_app. destruct H as [[b [Hb [Hd Hid]]]|H]; [left|now right].
    rewrite <- Hid. apply in_map, filter_In. auto.
Qed.

Lemma in_reload_deletable c disk o i :
  In i (reload_deletable c disk o) <->
  (In i (map b_id (loadable disk)) /\ In i (deletable_ids c o)) \/ In i (parents_of (loadable disk)).
Proof. unfold reload_deletable. now rewrite in_app_iff, filter_In, memZ_In. Qed.

(* what a successful reload leaves: exactly the loadable blocks that are not deletable, and
   exactly the directories that are not deletable *)
Lemma reload_exact c disk o loaded dirs :
  reload c disk o = ROk loaded dirs ->
  (forall b, In b loaded <-> In b (loadable disk) /\ ~ In (b_id b) (reload_deletable c disk o)) /\
  (forall i, In i dirs <-> In i (map d_id disk) /\ ~ In i (reload_deletable c disk o)).
Proof.
  unfold reload. destruct (filter _ (corrupted disk)); [|discriminate]. intros [= <- <-].
  split; intros x; [rewrite sort_mint_in|]; now rewrite filter_In, negb_true_iff, memZ_false.
Qed.

(* a failed reload (corrupted block without a loaded child) changes nothing; head never changes *)
Lemma reload_state_head {H} c o (s : dbstate H) : s_head (reload_state c o s) = s_head s.
Proof. unfold reload_state. destruct (reload c (s_disk s) o); reflexivity. Qed.

Lemma reload_state_err {H} c o (s : dbstate H) bad :
  reload c (s_disk s) o = RErr bad -> reload_state c o s = s.
Proof. unfold reload_state. intros ->. reflexivity. Qed.
