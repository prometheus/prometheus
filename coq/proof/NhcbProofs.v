(* proof/NhcbProofs.v — C36.  What one step of the NHCB wrapper emits (step_shape) and, from it,
   every observation that is blind to the inserted histograms (Section Observed: passthrough,
   keep-classic order); inhibition by a native histogram; the conversion of a classic histogram
   fed in increasing order; the exemplar buffer; one classic histogram from first series to flush. *)
From Coq Require Import List ZArith Bool String Lia Arith.
From Verif Require Import lib.SortedList model.Nhcb.
Import ListNotations.
Open Scope Z_scope.

Definition erase (o : oentry) : oentry :=
  match o with OSeries s v => OSeries (mkS (s_lset s) (s_ts s) 0 []) v | _ => o end.
Definition visible (o : oentry) : bool := negb (is_nhcb o).
Definition nonseries_o (o : oentry) : bool :=
  match o with OSeries _ _ | ONhcb _ _ => false | _ => true end.
Definition nonseries_b (e : bentry) : bool := match e with BSeries _ _ => false | _ => true end.
Definition is_meta (e : bentry) : bool :=
  match e with BType _ _ | BOther _ _ _ => true | _ => false end.

Lemma process_nhcb_out c p :
  snd (process_nhcb c p) =
  match p_state p, convert (p_tmp p) with
  | SCollecting, Some n =>
      if validate n
      then [ONhcb (mkS (p_tmpl p) (if fix_ts c then p_tmpts p else p_ts p) (p_tmpst p)
                       (firstn (eb_cnt (p_ex p)) (eb_arr (p_ex p)))) n]
      else []
  | _, _ => []
  end.
Proof.
  unfold process_nhcb. destruct (p_state p); try reflexivity.
  destruct (convert (p_tmp p)) as [n|]; [|reflexivity].
  destruct (validate n); [reflexivity|]. destruct (fix_validate c); reflexivity.
Qed.

Definition nhcb_or_nil (fl : list oentry) : Prop := fl = [] \/ exists s n, fl = [ONhcb s n].

Lemma process_nhcb_flush c p : nhcb_or_nil (snd (process_nhcb c p)).
Proof.
  rewrite process_nhcb_out. destruct (p_state p); try (now left).
  destruct (convert (p_tmp p)) as [n|]; [|now left]. destruct (validate n); [right; eauto|now left].
Qed.

Lemma labels_eqb_refl l : labels_eqb l l = true.
Proof. induction l as [|[k v] r IH]; [reflexivity|]. cbn. now rewrite !String.eqb_refl. Qed.

Lemma same_metric p l :
  p_typ p = T_HISTOGRAM -> snd (base_name (lget l NAME)) = p_lastname p -> without l [LE] = p_lasthash p ->
  different_metric p l = false.
Proof.
  intros Ht Hn Hk. unfold different_metric. rewrite Ht, Hn, Hk. cbn.
  now rewrite String.eqb_refl, labels_eqb_refl.
Qed.

Section Steps.
Variable parse_le : string -> option num.
Variable c : cfg.

Lemma run_from_app a : forall b p,
  run_from parse_le c p (a ++ b) =
  let '(p1, o1) := run_from parse_le c p a in
  let '(p2, o2) := run_from parse_le c p1 b in (p2, o1 ++ o2).
Proof.
  induction a as [|e r IH]; intros b p; cbn [app run_from].
  - destruct (run_from parse_le c p b); reflexivity.
  - destruct (step parse_le c p e) as [p1 o1]. rewrite IH.
    destruct (run_from parse_le c p1 r) as [p2 o2].
    destruct (run_from parse_le c p2 b) as [p3 o3]. now rewrite app_assoc.
Qed.

(* what a step emits for the entry itself: the entry as the wrapped parser gave it, except that a
   float series may be swallowed (never with keep-classic) or carry other exemplars and another
   start timestamp *)
Definition own_of (e : bentry) (own : list oentry) : Prop :=
  match e with
  | BSeries s v => own = [] /\ keep_classic c = false \/
                   exists st ex, own = [OSeries (mkS (s_lset s) (s_ts s) st ex) v]
  | _ => own = [to_o e]
  end.

Lemma emit_series_own r s v : own_of (BSeries s v) (snd (emit_series c r s v)).
Proof.
  destruct r as [[] p]; cbn; [destruct (keep_classic c); cbn; [|now left]|];
    right; do 2 eexists; reflexivity.
Qed.

Lemma step_series_out p s v : exists fl r,
  snd (step parse_le c p (BSeries s v)) = fl ++ snd (emit_series c r s v) /\ nhcb_or_nil fl.
Proof.
  assert (Plain : forall r, exists fl r',
            snd (emit_series c r s v) = fl ++ snd (emit_series c r' s v) /\ nhcb_or_nil fl)
    by (intro r; exists [], r; split; [reflexivity|now left]).
  cbn [step]. destruct (p_state (set_ts p (s_ts s))); [apply Plain| |].
  - destruct (different_metric _ _); [|apply Plain].
    pose proof (process_nhcb_flush c (set_ts p (s_ts s))) as Hf.
    destruct (process_nhcb c _) as [[b p1] fl].
    exists fl, (handle_classic parse_le c p1 s v).
    destruct (emit_series c _ s v). split; [reflexivity|exact Hf].
  - destruct (different_metric _ _); apply Plain.
Qed.

Lemma step_meta_out p e : is_meta e = true ->
  snd (step parse_le c p e) =
  snd (process_nhcb c match e with
                      | BType n t => mkP (p_state p) t n (p_ts p) (p_tmpl p) (p_tmp p) (p_ex p) (p_tmpst p)
                                         (p_lastname p) (p_lasthash p) (p_oom p) (p_tmpts p) (p_curex p)
                      | _ => p
                      end) ++ [to_o e].
Proof.
  destruct e; try discriminate; intros _; cbn [step]; destruct (process_nhcb c _) as [[conv p1] fl];
    reflexivity.
Qed.

Lemma step_shape p e : exists fl own,
  snd (step parse_le c p e) = fl ++ own /\ nhcb_or_nil fl /\ own_of e own.
Proof.
  destruct e as [s v|s hid|n t|k a b].
  - destruct (step_series_out p s v) as (fl & r & E & Hf). eauto using emit_series_own.
  - exists [], [OHist s hid]. repeat split. now left.
  - eexists _, _. split; [now apply step_meta_out|]. split; [apply process_nhcb_flush|reflexivity].
  - eexists _, _. split; [now apply step_meta_out|]. split; [apply process_nhcb_flush|reflexivity].
Qed.

(* Any observation F of the output that is blind to the inserted histograms and sees of a step's
   own entry what it sees of the wrapped parser's entry, sees of the whole run what it sees of the
   wrapped parser's stream. *)
Section Observed.
  Variables (X : Type) (F : list oentry -> list X).
  Hypothesis F_app : forall a b, F (a ++ b) = F a ++ F b.
  Hypothesis F_nil : F [] = [].
  Hypothesis F_nhcb : forall s n, F [ONhcb s n] = [].
  Hypothesis F_own : forall e own, own_of e own -> F own = F [to_o e].

  Lemma observed_flush fl : nhcb_or_nil fl -> F fl = [].
  Proof. intros [->|(s & n & ->)]; auto. Qed.

  Lemma run_from_observed es : forall p, F (snd (run_from parse_le c p es)) = F (map to_o es).
  Proof.
    induction es as [|e r IH]; intro p; [reflexivity|]. cbn [run_from map].
    destruct (step_shape p e) as (fl & own & E & Hf & Ho).
    destruct (step parse_le c p e) as [p1 o1]. specialize (IH p1).
    destruct (run_from parse_le c p1 r) as [p2 o2]. cbn [snd] in *. subst o1.
    change (to_o e :: map to_o r) with ([to_o e] ++ map to_o r).
    now rewrite !F_app, (observed_flush fl Hf), (F_own e own Ho), IH.
  Qed.

  Lemma run_observed es eof : F (fst (run parse_le c es eof)) = F (map to_o es).
  Proof.
    unfold run. pose proof (run_from_observed es p_init) as H.
    destruct (run_from parse_le c p_init es) as [p out]. cbn [fst snd] in *.
    destruct eof; [|exact H].
    rewrite F_app, H, (observed_flush _ (process_nhcb_flush c p)). apply app_nil_r.
  Qed.
End Observed.

Lemma nonseries_to_o es : filter nonseries_o (map to_o es) = map to_o (filter nonseries_b es).
Proof. induction es as [|[] r IH]; cbn; now rewrite ?IH. Qed.

Lemma visible_to_o es : filter visible (map to_o es) = map to_o es.
Proof. induction es as [|[] r IH]; cbn; now rewrite ?IH. Qed.

Theorem passthrough : forall es eof,
  filter nonseries_o (fst (run parse_le c es eof)) = map to_o (filter nonseries_b es).
Proof.
  intros es eof. rewrite <- nonseries_to_o.
  apply (run_observed _ (filter nonseries_o)); auto using filter_app.
  intros [] own; cbn; [intros [[-> _]|(st & ex & ->)]|intros ->..]; reflexivity.
Qed.

Theorem keep_classic_order : forall es eof,
  keep_classic c = true ->
  map erase (filter visible (fst (run parse_le c es eof))) = map erase (map to_o es).
Proof.
  intros es eof Hk. rewrite <- (visible_to_o es).
  apply (run_observed _ (fun l => map erase (filter visible l))); auto.
  - intros a b. now rewrite filter_app, map_app.
  - intros [] own; cbn; [intros [[_ Hf]|(st & ex & ->)]|intros ->..]; [congruence|reflexivity..].
Qed.

Lemma step_inhibited : forall q s v,
  p_state q = SInhibiting -> different_metric q (s_lset s) = false ->
  step parse_le c q (BSeries s v) = (set_ts q (s_ts s), [OSeries s v]).
Proof.
  intros q s v Hs Hd. cbn [step].
  change (p_state (set_ts q (s_ts s))) with (p_state q).
  change (different_metric (set_ts q (s_ts s)) (s_lset s)) with (different_metric q (s_lset s)).
  rewrite Hs, Hd. unfold emit_series, out_series. cbn. rewrite Hs. destruct s; reflexivity.
Qed.

Theorem native_inhibits : forall p s hid ss,
  p_typ p = T_HISTOGRAM ->
  Forall (fun sv : sample * num =>
            snd (base_name (lget (s_lset (fst sv)) NAME)) = lget (s_lset s) NAME /\
            without (s_lset (fst sv)) [LE] = without (s_lset s) []) ss ->
  let p1 := fst (step parse_le c p (BHist s hid)) in
  exists p2,
    run_from parse_le c p1 (map (fun sv => BSeries (fst sv) (snd sv)) ss) =
      (p2, map (fun sv => OSeries (fst sv) (snd sv)) ss) /\
    snd (process_nhcb c p2) = [].
Proof.
  intros p s hid ss Ht Hall p1.
  (* the inhibiting state is kept by every series of the same metric *)
  assert (Inv : p_state p1 = SInhibiting /\ p_typ p1 = T_HISTOGRAM /\
                p_lastname p1 = lget (s_lset s) NAME /\ p_lasthash p1 = without (s_lset s) [])
    by (subst p1; cbn; auto).
  clearbody p1. revert p1 Inv.
  induction Hall as [|[s1 v1] r [Hn Hk] _ IH]; intros p1 (Hs & Hty & Hln & Hlh).
  - exists p1. split; [reflexivity|]. now rewrite process_nhcb_out, Hs.
  - cbn [fst snd] in Hn, Hk.
    assert (Hd : different_metric p1 (s_lset s1) = false) by (apply same_metric; congruence).
    destruct (IH (set_ts p1 (s_ts s1))) as (p2 & Hr & Hf); [cbn; auto|].
    exists p2. split; [|exact Hf].
    cbn [map run_from fst snd]. now rewrite (step_inhibited p1 s1 v1 Hs Hd), Hr.
Qed.

Definition suffix_of (u : upd) : suffix :=
  match u with UBucket _ => SufBucket | UCount => SufCount | USum => SufSum end.

(* [s] is a classic series of histogram [n] for the label set [key], in role [u] *)
Definition member (n : string) (key : labels) (s : sample) (u : upd) : Prop :=
  base_name (lget (s_lset s) NAME) = (suffix_of u, n) /\
  without (s_lset s) [LE] = key /\
  match u with
  | UBucket le => lhas (s_lset s) LE = true /\ parse_le (lget (s_lset s) LE) = Some le /\
                  num_eqb le NaN = false
  | _ => True
  end.

Definition apply_u (t : temph) (u : upd) (v : num) : option temph :=
  match u, v with
  | USum, _ => Some (set_sum t v)
  | UCount, Fin z => Some (set_count t z)
  | UBucket le, Fin z => set_bucket t le z
  | _, _ => None
  end.

Definition mem := (sample * num * upd)%type.
Definition m_sample (m : mem) : sample := fst (fst m).
Definition m_val (m : mem) : num := snd (fst m).
Definition m_upd (m : mem) : upd := snd m.

Fixpoint apply_all (t : temph) (ms : list mem) : option temph :=
  match ms with
  | [] => Some t
  | m :: r => match apply_u t (m_upd m) (m_val m) with Some t' => apply_all t' r | None => None end
  end.

Lemma handle_member : forall p n key s v u,
  p_typ p = T_HISTOGRAM -> p_bname p = n -> member n key s u ->
  handle_classic parse_le c p s v = (true, process_classic c p s v n u).
Proof.
  intros p n key s v u Ht Hb (Hbn & _ & Hu). unfold handle_classic.
  rewrite Ht, Hbn, Hb, String.eqb_refl. cbn.
  destruct u as [le| |]; try reflexivity.
  destruct Hu as (Hh & Hp & Hn). cbn. now rewrite Hh, Hp, Hn.
Qed.

Definition fresh (p : pst) : bool := match p_state p with SCollecting => false | _ => true end.

Lemma process_classic_ok p s v n u t' :
  apply_u (p_tmp p) u v = Some t' ->
  process_classic c p s v n u =
  let ex := store_exemplars (ex_partial c) (fix_exzero c) (p_ex p) (s_ex s) in
  mkP SCollecting (p_typ p) (p_bname p) (p_ts p)
      (if fresh p then metric_base (s_lset s) n else p_tmpl p) t' ex
      (if fresh p then (if parse_st c then s_st s else 0) else p_tmpst p)
      (if fresh p then n else p_lastname p)
      (if fresh p then without (s_lset s) [LE] else p_lasthash p)
      (p_oom p) (p_ts p)
      (firstn (eb_cnt ex - eb_cnt (p_ex p)) (skipn (eb_cnt (p_ex p)) (eb_arr ex))).
Proof.
  intro Ha. destruct p as [st typ bn ts tmpl tmp ex tmpst ln lh oom tmpts curex].
  unfold process_classic, fresh. cbn [p_tmp p_state] in *.
  destruct st; cbn; (destruct u as [le| |], v as [z| | |]; try discriminate; cbn [apply_u] in Ha;
    try (destruct (set_bucket tmp le z); [|discriminate]); injection Ha as <-;
    now rewrite orb_false_r).
Qed.

Lemma step_member p n key s v u :
  keep_classic c = false -> p_typ p = T_HISTOGRAM -> p_bname p = n -> member n key s u ->
  p_state p = SStart \/ p_state p = SCollecting /\ p_lastname p = n /\ p_lasthash p = key ->
  step parse_le c p (BSeries s v) = (process_classic c (set_ts p (s_ts s)) s v n u, []).
Proof.
  intros Hk Ht Hb Hm Hs. cbn [step]. set (q := set_ts p (s_ts s)).
  pose proof (handle_member q n key s v u Ht Hb Hm) as Hh.
  change (p_state q) with (p_state p). unfold emit_series.
  destruct Hs as [->|(-> & Hn & Hl)].
  - now rewrite Hh, Hk.
  - destruct Hm as (Hbn & Hw & _).
    rewrite (same_metric q (s_lset s) Ht), Hh, Hk; [reflexivity|now rewrite Hbn|now rewrite Hw, <- Hl].
Qed.

End Steps.

Definition last_opt (l : list bucket) : option bucket := last (map Some l) None.

Lemma last_opt_snoc : forall l x, last_opt (l ++ [x]) = Some x.
Proof. unfold last_opt. intros l x. rewrite map_app. apply last_last. Qed.

(* feeding buckets one SetBucketCount at a time; None = Go panic *)
Fixpoint feed (h : temph) (bs : list bucket) : option temph :=
  match bs with
  | [] => Some h
  | (b, c) :: r => match set_bucket h b c with Some h' => feed h' r | None => None end
  end.

(* bounds strictly increasing (in particular no NaN), cumulative counts non-negative and
   non-decreasing; [prev] is the bucket before the list *)
Fixpoint incr (prev : option bucket) (bs : list bucket) : Prop :=
  match bs with
  | [] => True
  | (b, c) :: r =>
      num_eqb b NaN = false /\ 0 <= c /\
      match prev with Some (pb, pc) => num_lt pb b = true /\ pc <= c | None => True end /\
      incr (Some (b, c)) r
  end.

(* buckets arriving in increasing order take the append path of SetBucketCount *)
Lemma feed_incr : forall bs pre h,
  th_err h = false -> th_b h = pre -> incr (last_opt pre) bs ->
  feed h bs = Some (th_setb h (pre ++ bs)).
Proof.
  induction bs as [|[b c] r IH]; intros pre h He Hb Hi.
  - cbn. rewrite app_nil_r, <- Hb. now destruct h.
  - destruct Hi as (Hn & Hc & Hp & Hr).
    assert (E : set_bucket h b c = Some (th_setb h (pre ++ [(b, c)]))).
    { unfold set_bucket. rewrite He, Hn, (proj2 (Z.ltb_ge c 0) Hc), Hb. fold (last_opt pre).
      destruct pre as [|x pre'] using rev_ind; [reflexivity|].
      rewrite last_opt_snoc in *. destruct x as [lle lc], Hp as [Hlt Hle].
      now rewrite Hlt, (proj2 (Z.ltb_ge c lc) Hle). }
    cbn [feed]. rewrite E, (IH (pre ++ [(b, c)])); auto.
    + now rewrite <- app_assoc.
    + now rewrite last_opt_snoc.
Qed.

Definition top (l : list bucket) : Z := last (map snd l) 0.

Lemma decumulate_snoc : forall l p b n,
  decumulate p (l ++ [(b, n)]) = decumulate p l ++ [n - last (map snd l) p].
Proof.
  induction l as [|[b0 c0] r IH]; intros p b n; [reflexivity|].
  cbn [app decumulate map]. now rewrite IH, last_cons.
Qed.

Definition finite_le (b : bucket) : bool := match fst b with Fin _ | NInf => true | _ => false end.

(* Convert when the buckets, completed by the +Inf bucket, are [fin ++ [(PInf, N)]] and the
   overall count is N *)
Lemma convert_with_inf (B : list bucket) (c0 : Z) s (hc : bool) N fin :
  match last_opt B with Some (_, lc) => if hc then c0 else lc | None => c0 end = N ->
  match last_opt B with
  | Some (lle, _) => if num_feq lle PInf then B else B ++ [(PInf, N)]
  | None => [(PInf, N)]
  end = fin ++ [(PInf, N)] ->
  convert (mkTH B c0 s false hc) =
  Some (mkNH (negb (forallb (fun b => is_int8 (snd b)) (fin ++ [(PInf, N)]) && is_int8 N))
             N s (map fst fin) (decumulate 0 fin ++ [N - top fin])).
Proof.
  intros H1 H2. unfold convert. cbn [th_err th_b th_count th_hasCount th_sum].
  fold (last_opt B). rewrite H1, H2. fold (last_opt (fin ++ [(PInf, N)])).
  now rewrite last_opt_snoc, Z.eqb_refl, removelast_last, decumulate_snoc.
Qed.

(* The conversion of a classic histogram given in the happy order.  [fin] are the buckets with a
   finite upper bound, [inf] the cumulative count of the le="+Inf" bucket if there is one,
   [cnt] the value of _count if there is one, [sum] of _sum (0 if absent). *)
Definition expected_count (fin : list bucket) (inf cnt : option Z) : Z :=
  match cnt, inf with Some c, _ => c | None, Some i => i | None, None => top fin end.

Definition with_count (h : temph) (cnt : option Z) : temph :=
  match cnt with Some c => set_count h c | None => h end.

Theorem convert_sorted : forall fin inf cnt sum h0,
  let infb := match inf with Some i => [(PInf, i)] | None => [] end in
  let N := expected_count fin inf cnt in
  forallb finite_le fin = true ->
  incr None (fin ++ infb) ->
  match cnt with Some c => 0 <= c | None => True end ->
  match cnt, inf with Some c, Some i => c = i | _, _ => True end ->
  feed th_empty (fin ++ infb) = Some h0 ->
  convert (set_sum (with_count h0 cnt) sum) =
  Some (mkNH (negb (forallb (fun b => is_int8 (snd b)) (fin ++ [(PInf, N)]) && is_int8 N))
             N sum (map fst fin) (decumulate 0 fin ++ [N - top fin])).
Proof.
  intros fin inf cnt sum h0 infb N Hfin Hi Hc Hci Hf.
  rewrite (feed_incr (fin ++ infb) [] th_empty eq_refl eq_refl Hi) in Hf.
  injection Hf as <-. cbn [app].
  replace (set_sum (with_count (th_setb th_empty (fin ++ infb)) cnt) sum)
    with (mkTH (fin ++ infb) (match cnt with Some c => c | None => 0 end) sum false
               (match cnt with Some _ => true | None => false end)).
  2:{ destruct cnt as [c0|]; [|reflexivity]. unfold with_count, set_count. cbn.
      now rewrite (proj2 (Z.ltb_ge c0 0) Hc). }
  subst N infb. apply convert_with_inf; destruct inf as [i|].
  - rewrite last_opt_snoc. now destruct cnt.
  - rewrite app_nil_r. destruct fin as [|[lle lc] fin'] using rev_ind; [now destruct cnt|].
    rewrite last_opt_snoc. destruct cnt; [reflexivity|].
    unfold expected_count, top. rewrite map_app. cbn [map snd]. now rewrite last_last.
  - rewrite last_opt_snoc. cbn. destruct cnt as [c0|]; [now subst c0|reflexivity].
  - rewrite app_nil_r. destruct fin as [|[lle lc] fin'] using rev_ind; [reflexivity|].
    rewrite last_opt_snoc. rewrite forallb_app in Hfin. apply andb_true_iff in Hfin.
    destruct Hfin as [_ Hl]. cbn in Hl. now destruct lle.
Qed.

Lemma length_zero_nth : forall k l, List.length (zero_nth k l) = List.length l.
Proof. induction k; destruct l; simpl; auto. Qed.

Lemma length_write_nth : forall p k x l, List.length (write_nth p k x l) = List.length l.
Proof. induction k; destruct l; simpl; auto. Qed.

Lemma firstn_zero_nth : forall k l, firstn k (zero_nth k l) = firstn k l.
Proof. induction k; destruct l; simpl; auto. f_equal. apply IHk. Qed.

Lemma nth_zero_nth : forall k l, (k < List.length l)%nat -> nth k (zero_nth k l) ex_zero = ex_zero.
Proof. induction k; destruct l; simpl; intros H; try lia; auto. apply IHk. lia. Qed.

Lemma firstn_write_nth : forall p k x l, firstn k (write_nth p k x l) = firstn k l.
Proof. induction k; destruct l; simpl; auto. f_equal. apply IHk. Qed.

(* a write is exact when the parser assigns every field, or the slot held no timestamp *)
Lemma firstn_S_write_nth : forall p k x l,
  (k < List.length l)%nat -> (p = false \/ snd (nth k l ex_zero) = None) ->
  firstn (S k) (write_nth p k x l) = firstn k l ++ [x].
Proof.
  induction k; destruct l as [|y r]; simpl; intros H Hp; try lia.
  - destruct x as [i [t|]]; [reflexivity|].
    destruct Hp as [-> | Hn]; [reflexivity|]. simpl in Hn. rewrite Hn. destruct p; reflexivity.
  - f_equal. apply IHk; [lia | exact Hp].
Qed.

(* the buffer holds k exemplars: with all slices used, or with the spare slot that
   nextExemplarPtr hands out *)
Definition full (k : nat) (e : exbuf) : Prop :=
  eb_len e = k /\ eb_cnt e = k /\ (k <= List.length (eb_arr e))%nat.
Definition spare (partial : bool) (k : nat) (e : exbuf) : Prop :=
  eb_len e = S k /\ eb_cnt e = k /\ (S k <= List.length (eb_arr e))%nat /\
  (partial = false \/ snd (nth k (eb_arr e) ex_zero) = None).

Lemma next_ptr_cnt : forall z e, eb_cnt (next_ptr z e) = eb_cnt e.
Proof.
  intros z e. unfold next_ptr.
  destruct (Z.of_nat (eb_cnt e) =? Z.of_nat (eb_len e) - 1); [reflexivity|].
  destruct (eb_len e =? List.length (eb_arr e))%nat; reflexivity.
Qed.

Section Buf.
Variables partial zero : bool.
Hypothesis Hz : partial = false \/ zero = true.

Lemma next_ptr_full : forall k e, full k e ->
  spare partial k (next_ptr zero e) /\ firstn k (eb_arr (next_ptr zero e)) = firstn k (eb_arr e).
Proof.
  intros k e (Hl & Hc & Hle). unfold next_ptr. rewrite Hl, Hc.
  replace (Z.of_nat k =? Z.of_nat k - 1) with false by (symmetry; apply Z.eqb_neq; lia).
  destruct (Nat.eqb_spec k (List.length (eb_arr e))) as [E|E]; unfold spare; cbn.
  - (* the array is grown: the new slots are zero *)
    assert (Hg : (1 <= growcap k - k)%nat) by (unfold growcap; destruct k; lia).
    rewrite app_length, firstn_length, repeat_length, app_nth2, firstn_app, firstn_firstn,
      firstn_length by (rewrite firstn_length; lia).
    replace (k - Nat.min k (List.length (eb_arr e)))%nat with O by lia. rewrite Nat.min_id.
    destruct (growcap k - k)%nat; [lia|]. cbn. rewrite app_nil_r. repeat split; auto; lia.
  - destruct zero.
    + rewrite length_zero_nth, nth_zero_nth, firstn_zero_nth by lia. repeat split; auto; lia.
    + destruct Hz as [Hp|Hp]; [|discriminate]. repeat split; auto; lia.
Qed.

Lemma next_ptr_spare : forall k e, spare partial k e -> next_ptr zero e = e.
Proof.
  intros k e (Hl & Hc & _). unfold next_ptr. rewrite Hl, Hc.
  now replace (Z.of_nat k =? Z.of_nat (S k) - 1) with true by (symmetry; apply Z.eqb_eq; lia).
Qed.

Lemma next_ptr_spec : forall k e, full k e \/ spare partial k e ->
  spare partial k (next_ptr zero e) /\ firstn k (eb_arr (next_ptr zero e)) = firstn k (eb_arr e).
Proof.
  intros k e [H|H]; [now apply next_ptr_full|]. now rewrite (next_ptr_spare k e H).
Qed.

Lemma store_exemplars_spec : forall xs e k,
  full k e \/ spare partial k e ->
  let e' := store_exemplars partial zero e xs in
  spare partial (k + List.length xs) e' /\
  firstn (k + List.length xs) (eb_arr e') = firstn k (eb_arr e) ++ xs.
Proof.
  induction xs as [|x r IH]; intros e k H; cbn [store_exemplars List.length];
    destruct (next_ptr_spec k e H) as [(Hl & Hc & Hle & Hs) Hf].
  - rewrite Nat.add_0_r, app_nil_r. repeat split; assumption.
  - rewrite Hl. replace (S k - 1)%nat with k by lia.
    set (e2 := mkEB _ (S k) _).
    assert (H2 : full (S k) e2) by (unfold full, e2; cbn; rewrite Hc, length_write_nth; lia).
    destruct (IH e2 (S k) (or_introl H2)) as [R1 R2].
    replace (k + S (List.length r))%nat with (S k + List.length r)%nat by lia.
    split; [exact R1|]. rewrite R2. unfold e2. cbn [eb_arr].
    now rewrite firstn_S_write_nth, Hf, <- app_assoc by (auto; lia).
Qed.

End Buf.

Definition to_series (m : mem) : bentry := BSeries (m_sample m) (m_val m).
Definition all_ex (ms : list mem) : list exem := flat_map (fun m => s_ex (m_sample m)) ms.

Section OneHist.
Variable parse_le : string -> option num.
Variable c : cfg.
Hypothesis no_keep : keep_classic c = false.

Definition member_ok (n : string) (key : labels) (m : mem) : Prop :=
  member parse_le n key (m_sample m) (m_upd m).
Definition good_member (n : string) (key : labels) (m : mem) : Prop :=
  member parse_le n key (m_sample m) (m_upd m) /\ s_ex (m_sample m) = [].

(* the parser serves histogram n of label set key ... *)
Definition for_metric (n : string) (key : labels) (p : pst) : Prop :=
  p_typ p = T_HISTOGRAM /\ p_bname p = n /\ p_lastname p = n /\ p_lasthash p = key.
(* ... and is collecting: label set L and start timestamp ST (of the first series), TempHistogram
   t, exemplar buffer e, timestamp ts of the last series.  These are the fields processNHCB reads. *)
Definition collecting (L : labels) (ST : Z) (t : temph) (e : exbuf) (ts : option Z) (p : pst) : Prop :=
  p_state p = SCollecting /\ p_tmpl p = L /\ p_tmpst p = ST /\ p_tmp p = t /\ p_ex p = e /\
  p_ts p = ts /\ p_tmpts p = ts.

Definition store_of (e : exbuf) (m : mem) : exbuf :=
  store_exemplars (ex_partial c) (fix_exzero c) e (s_ex (m_sample m)).

Lemma member_step p n key m t' :
  p_typ p = T_HISTOGRAM -> p_bname p = n -> member_ok n key m ->
  apply_u (p_tmp p) (m_upd m) (m_val m) = Some t' ->
  p_state p = SStart \/ p_state p = SCollecting /\ p_lastname p = n /\ p_lasthash p = key ->
  exists p', step parse_le c p (to_series m) = (p', []) /\ for_metric n key p' /\
    collecting (if fresh p then metric_base (s_lset (m_sample m)) n else p_tmpl p)
               (if fresh p then (if parse_st c then s_st (m_sample m) else 0) else p_tmpst p)
               t' (store_of (p_ex p) m) (s_ts (m_sample m)) p'.
Proof.
  intros Ht Hb Hm Ha Hs. eexists. split.
  { apply (step_member parse_le c p n key _ _ (m_upd m)); assumption. }
  rewrite (process_classic_ok c (set_ts p _) _ _ _ _ t' Ha).
  unfold for_metric, collecting, fresh. cbn. destruct Hm as (_ & Hw & _).
  destruct Hs as [->|(-> & Hn & Hl)]; repeat split; assumption.
Qed.

Lemma collecting_run n key L ST ms : forall p t e ts t',
  for_metric n key p -> collecting L ST t e ts p -> Forall (member_ok n key) ms ->
  apply_all t ms = Some t' ->
  exists p', run_from parse_le c p (map to_series ms) = (p', []) /\
             collecting L ST t' (fold_left store_of ms e)
                        (last (map (fun m => s_ts (m_sample m)) ms) ts) p'.
Proof.
  induction ms as [|m r IH]; intros p t e ts t' Hm Hc Hall Ha.
  - injection Ha as <-. now exists p.
  - inversion Hall as [|? ? Hmem Hr]; subst. cbn [apply_all] in Ha.
    destruct (apply_u t (m_upd m) (m_val m)) as [t1|] eqn:E1; [|discriminate].
    destruct Hm as (Ht & Hb & Hn & Hl), Hc as (Hs & <- & <- & <- & <- & _).
    destruct (member_step p n key m t1 Ht Hb Hmem E1 (or_intror (conj Hs (conj Hn Hl))))
      as (p1 & Hstep & Hm1 & Hc1).
    unfold fresh in Hc1. rewrite Hs in Hc1.
    destruct (IH p1 _ _ _ _ Hm1 Hc1 Hr Ha) as (p' & Hrun & Hc').
    exists p'. cbn [map run_from fold_left]. rewrite Hstep, Hrun, last_cons. split; [reflexivity|exact Hc'].
Qed.

Lemma flush_collecting p L ST t e ts nh :
  collecting L ST t e ts p -> convert t = Some nh -> validate nh = true ->
  snd (process_nhcb c p) = [ONhcb (mkS L ts ST (firstn (eb_cnt e) (eb_arr e))) nh].
Proof.
  intros (Hs & <- & <- & <- & <- & Hts & Htt) Hc Hv.
  rewrite process_nhcb_out, Hs, Hc, Hv, Hts, Htt. now destruct (fix_ts c).
Qed.

(* One classic histogram: starting in the start state under `TYPE n histogram`, the series of
   one label set (any order of bucket/count/sum series that the TempHistogram accepts), then a
   TYPE/HELP/UNIT/comment entry or the end of input.  Nothing is emitted for the series, then
   exactly one converted histogram: the conversion of what the TempHistogram accumulated, under
   the label set without le and with the base name, the series' timestamp, the start timestamp
   of the first series, and the exemplars that storeExemplars left in the buffer. *)
Theorem one_histogram_gen : forall n key m0 ms p t' nh,
  p_state p = SStart -> p_typ p = T_HISTOGRAM -> p_bname p = n -> p_tmp p = th_empty ->
  Forall (member_ok n key) (m0 :: ms) ->
  apply_all th_empty (m0 :: ms) = Some t' ->
  convert t' = Some nh -> validate nh = true ->
  let e := fold_left store_of (m0 :: ms) (p_ex p) in
  let hist := ONhcb (mkS (metric_base (s_lset (m_sample m0)) n)
                         (last (map (fun m => s_ts (m_sample m)) (m0 :: ms)) None)
                         (if parse_st c then s_st (m_sample m0) else 0)
                         (firstn (eb_cnt e) (eb_arr e))) nh in
  (forall e, is_meta e = true ->
     snd (run_from parse_le c p (map to_series (m0 :: ms) ++ [e])) = [hist; to_o e]) /\
  (let '(p', out) := run_from parse_le c p (map to_series (m0 :: ms)) in
   out ++ snd (process_nhcb c p') = [hist]).
Proof.
  intros n key m0 ms p t' nh Hs Ht Hb Htmp Hall Ha Hc Hv e hist.
  apply Forall_cons_iff in Hall. destruct Hall as [Hm0 Hr].
  cbn [apply_all] in Ha. rewrite <- Htmp in Ha.
  destruct (apply_u (p_tmp p) (m_upd m0) (m_val m0)) as [t1|] eqn:E1; [|discriminate].
  (* the first series starts the collection *)
  destruct (member_step p n key m0 t1 Ht Hb Hm0 E1 (or_introl Hs)) as (p1 & Hstep & Hm1 & Hc1).
  unfold fresh in Hc1. rewrite Hs in Hc1.
  destruct (collecting_run n key _ _ ms p1 _ _ _ t' Hm1 Hc1 Hr Ha) as (p' & Hrun & Hc').
  assert (Hrun0 : run_from parse_le c p (map to_series (m0 :: ms)) = (p', []))
    by (cbn [map run_from]; now rewrite Hstep, Hrun).
  rewrite <- last_cons with (d := None) in Hc'.
  split.
  - intros e0 He. rewrite run_from_app, Hrun0. cbn [run_from app].
    pose proof (step_meta_out parse_le c p' e0 He) as Ho.
    destruct (step parse_le c p' e0) as [p2 o2]. cbn [snd] in *. rewrite app_nil_r, Ho.
    (* a TYPE entry changes only fields that processNHCB does not read *)
    destruct e0; try discriminate;
      (erewrite flush_collecting; [reflexivity|exact Hc'|exact Hc|exact Hv]).
  - rewrite Hrun0. exact (flush_collecting p' _ _ _ _ _ nh Hc' Hc Hv).
Qed.

Lemma store_of_cnt ms : forall e,
  Forall (fun m => s_ex (m_sample m) = []) ms -> eb_cnt (fold_left store_of ms e) = eb_cnt e.
Proof.
  induction ms as [|m r IH]; intros e H; [reflexivity|]. inversion H as [|? ? Hm Hr]; subst.
  cbn [fold_left]. rewrite (IH _ Hr). unfold store_of. rewrite Hm. apply next_ptr_cnt.
Qed.

Theorem one_histogram : forall n key m0 ms p t' nh,
  p_state p = SStart -> p_typ p = T_HISTOGRAM -> p_bname p = n -> p_tmp p = th_empty ->
  eb_cnt (p_ex p) = 0%nat ->
  Forall (good_member n key) (m0 :: ms) ->
  apply_all th_empty (m0 :: ms) = Some t' ->
  convert t' = Some nh -> validate nh = true ->
  let hist := ONhcb (mkS (metric_base (s_lset (m_sample m0)) n)
                         (last (map (fun m => s_ts (m_sample m)) (m0 :: ms)) None)
                         (if parse_st c then s_st (m_sample m0) else 0) []) nh in
  (forall e, is_meta e = true ->
     snd (run_from parse_le c p (map to_series (m0 :: ms) ++ [e])) = [hist; to_o e]) /\
  (let '(p', out) := run_from parse_le c p (map to_series (m0 :: ms)) in
   out ++ snd (process_nhcb c p') = [hist]).
Proof.
  intros n key m0 ms p t' nh Hs Ht Hb Htmp Hcnt Hall Ha Hc Hv.
  pose proof (one_histogram_gen n key m0 ms p t' nh Hs Ht Hb Htmp
                (Forall_impl _ (fun m H => proj1 H) Hall) Ha Hc Hv) as G.
  cbv zeta in G.
  rewrite (store_of_cnt _ _ (Forall_impl _ (fun m H => proj2 H) Hall)), Hcnt in G. exact G.
Qed.

End OneHist.

Lemma store_all_spec partial zero : partial = false \/ zero = true ->
  forall ms e k, full k e \/ spare partial k e ->
  let e' := fold_left (fun e m => store_exemplars partial zero e (s_ex (m_sample m))) ms e in
  eb_cnt e' = (k + List.length (all_ex ms))%nat /\
  firstn (k + List.length (all_ex ms)) (eb_arr e') = firstn k (eb_arr e) ++ all_ex ms.
Proof.
  intros Hz. induction ms as [|m r IH]; intros e k H; cbn [fold_left all_ex flat_map List.length].
  - rewrite Nat.add_0_r, app_nil_r. now destruct H as [(_ & H & _)|(_ & H & _)].
  - destruct (store_exemplars_spec partial zero Hz (s_ex (m_sample m)) e k H) as [S1 S2].
    destruct (IH _ _ (or_intror S1)) as [R1 R2]. fold (all_ex r).
    rewrite app_length, Nat.add_assoc, app_assoc, <- S2. split; assumption.
Qed.
