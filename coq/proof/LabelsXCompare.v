(* proof/LabelsXCompare.v — Compare of the stringlabels build (first differing byte, then a walk
   over the length-prefixed fields) equals the entry-wise Compare of slicelabels/dedupelabels. *)
From Coq Require Import List ZArith Bool Lia.
From Verif Require Import model.LabelsX proof.LabelsXProofs.
Import ListNotations.
Open Scope Z_scope.

Fixpoint flat (ls : list label) : list str := match ls with [] => [] | (n, v) :: t => n :: v :: flat t end.
Definition encf (fs : list str) : str := flat_map enc_str fs.
Fixpoint fcmp (a b : list str) : Z :=
  match a, b with
  | [], [] => 0
  | [], _ :: _ => -1
  | _ :: _, [] => 1
  | x :: a', y :: b' => match str_cmp x y with Lt => -1 | Gt => 1 | Eq => fcmp a' b' end
  end.
Definition fshort (fs : list str) : Prop := Forall short fs.

Lemma enc_flat ls : enc ls = encf (flat ls).
Proof.
  induction ls as [|[n v] t IH]; auto. rewrite enc_cons. cbn [fst snd flat]. unfold encf in *. simpl.
  rewrite IH. reflexivity.
Qed.
Lemma flat_short ls : all_short ls -> fshort (flat ls).
Proof. induction 1 as [|[n v] t [H1 H2] _ IH]; simpl; repeat (constructor; auto). Qed.

Lemma zlen_cons {A} (x : A) l : zlen (x :: l) = 1 + zlen l.
Proof. unfold zlen. simpl length. lia. Qed.
Lemma zlen_app {A} (a b : list A) : zlen (a ++ b) = zlen a + zlen b.
Proof. unfold zlen. rewrite app_length. lia. Qed.
Lemma zlen_nil {A} : zlen (@nil A) = 0.
Proof. reflexivity. Qed.

Lemma cp_bounds a : forall b, 0 <= common_prefix a b /\ common_prefix a b <= zlen a /\ common_prefix a b <= zlen b.
Proof.
  induction a as [|x a IH]; intros [|y b]; cbn [common_prefix]; rewrite ?zlen_cons, ?(@zlen_nil Z);
    try (pose proof (zlen_nonneg a)); try (pose proof (zlen_nonneg b)); try lia.
  destruct (x =? y); [specialize (IH b)|]; lia.
Qed.
Lemma cp_app p a b : common_prefix (p ++ a) (p ++ b) = zlen p + common_prefix a b.
Proof. induction p as [|c p IH]; cbn [app common_prefix]; [rewrite (@zlen_nil Z); lia|]. rewrite Z.eqb_refl, IH, zlen_cons. lia. Qed.
Lemma cp_sym a : forall b, common_prefix a b = common_prefix b a.
Proof. induction a as [|x a IH]; intros [|y b]; simpl; auto. rewrite (Z.eqb_sym y x). destruct (x =? y); auto. rewrite IH. auto. Qed.
Lemma cp_prefix p : forall a' b, zlen p <= common_prefix (p ++ a') b -> exists b', b = p ++ b'.
Proof.
  induction p as [|c p IH]; intros a' b H; [exists b; auto|].
  destruct b as [|y b]; cbn [app common_prefix] in H; rewrite zlen_cons in H; [pose proof (zlen_nonneg p); lia|].
  destruct (Z.eqb_spec c y); [|pose proof (zlen_nonneg p); lia]. subst.
  destruct (IH a' b) as (b' & ->); [lia|]. exists b'. auto.
Qed.

(* prefix-freeness of the field encoding: two different fields differ before either ends *)
Lemma cp_fields_ne x y A B : short x -> short y -> x <> y ->
  common_prefix (enc_str x ++ A) (enc_str y ++ B) < zlen (enc_str x).
Proof.
  intros Hx Hy Hne. destruct (Z.lt_ge_cases (common_prefix (enc_str x ++ A) (enc_str y ++ B)) (zlen (enc_str x))); auto.
  destruct (cp_prefix (enc_str x) A (enc_str y ++ B)) as (b' & E); auto.
  pose proof (decode_string_enc y B Hy) as D1. rewrite E in D1. rewrite decode_string_enc in D1 by auto. congruence.
Qed.
(* ... in both directions: the first differing byte lies inside both *)
Lemma cp_fields_ne2 x y A B : short x -> short y -> x <> y ->
  common_prefix (enc_str x ++ A) (enc_str y ++ B) < Z.min (zlen (enc_str x)) (zlen (enc_str y)).
Proof.
  intros Hx Hy Hne. pose proof (cp_fields_ne x y A B Hx Hy Hne).
  pose proof (cp_fields_ne y x B A Hy Hx (fun e => Hne (eq_sym e))) as S. rewrite cp_sym in S. lia.
Qed.

Lemma encf_cons x fs : encf (x :: fs) = enc_str x ++ encf fs.
Proof. reflexivity. Qed.
Lemma enc_str_zlen x : 1 <= zlen (enc_str x).
Proof. pose proof (enc_str_length x). unfold zlen. lia. Qed.

Lemma str_cmp_eq_iff x y : str_cmp x y = Eq <-> x = y.
Proof. apply str_cmp_eq. Qed.

Lemma fcmp_ne x y a b : x <> y -> fcmp (x :: a) (y :: b) = if str_ltb x y then -1 else 1.
Proof.
  intros H. cbn [fcmp]. unfold str_ltb. destruct (str_cmp x y) eqn:C; auto. apply str_cmp_eq in C. contradiction.
Qed.
Lemma fcmp_same x a b : fcmp (x :: a) (x :: b) = fcmp a b.
Proof. cbn [fcmp]. rewrite str_cmp_refl. reflexivity. Qed.

(* the branch "one data string is a prefix of the other" *)
Lemma top_branch fa : forall fb, fshort fa -> fshort fb ->
  common_prefix (encf fa) (encf fb) = Z.min (zlen (encf fa)) (zlen (encf fb)) ->
  sgn (zlen (encf fa) - zlen (encf fb)) = fcmp fa fb.
Proof.
  induction fa as [|x fa IH]; intros [|y fb] Ha Hb H.
  - reflexivity.
  - rewrite encf_cons, zlen_app. cbn [encf flat_map fcmp]. rewrite (@zlen_nil Z).
    pose proof (enc_str_zlen y). pose proof (zlen_nonneg (encf fb)).
    destruct (0 - (zlen (enc_str y) + zlen (encf fb))) eqn:E; try lia. reflexivity.
  - rewrite encf_cons, zlen_app. cbn [encf flat_map fcmp]. rewrite (@zlen_nil Z).
    pose proof (enc_str_zlen x). pose proof (zlen_nonneg (encf fa)).
    destruct (zlen (enc_str x) + zlen (encf fa) - 0) eqn:E; try lia. reflexivity.
  - pose proof (Forall_inv Ha) as Sx. pose proof (Forall_inv Hb) as Sy.
    apply Forall_inv_tail in Ha, Hb. rewrite !encf_cons, !zlen_app in *.
    destruct (str_eqb_spec x y) as [E|Hne].
    + subst y. rewrite fcmp_same. rewrite cp_app in H.
      replace (zlen (enc_str x) + zlen (encf fa) - (zlen (enc_str x) + zlen (encf fb))) with (zlen (encf fa) - zlen (encf fb)) by lia.
      apply IH; auto. lia.
    + exfalso. pose proof (cp_fields_ne2 x y (encf fa) (encf fb) Sx Sy Hne).
      pose proof (zlen_nonneg (encf fa)). pose proof (zlen_nonneg (encf fb)). lia.
Qed.

(* the field walk *)
Lemma walk_branch fa : forall fb fuel, fshort fa -> fshort fb -> (length fa < fuel)%nat ->
  common_prefix (encf fa) (encf fb) <> Z.min (zlen (encf fa)) (zlen (encf fb)) ->
  st_cmp_walk fuel (encf fa) (encf fb) (common_prefix (encf fa) (encf fb)) = Ok (fcmp fa fb).
Proof.
  induction fa as [|x fa IH]; intros [|y fb] fuel Ha Hb Hf H.
  - exfalso. apply H. reflexivity.
  - exfalso. apply H. change (encf []) with (@nil Z). cbn [common_prefix]. rewrite (@zlen_nil Z).
    pose proof (zlen_nonneg (encf (y :: fb))). lia.
  - exfalso. apply H. change (encf []) with (@nil Z). rewrite (@zlen_nil Z). pose proof (zlen_nonneg (encf (x :: fa))).
    destruct (cp_bounds (encf (x :: fa)) []) as (B1 & B2 & B3). rewrite (@zlen_nil Z) in B3. lia.
  - pose proof (Forall_inv Ha) as Sx. pose proof (Forall_inv Hb) as Sy.
    apply Forall_inv_tail in Ha, Hb. destruct fuel as [|f]; [simpl in Hf; lia|].
    rewrite !encf_cons in *. cbn [st_cmp_walk].
    unfold enc_str at 1. rewrite <- app_assoc. pose proof (zlen_nonneg x).
    rewrite decode_size_esz by (unfold short, two24 in *; lia). cbn [bind].
    replace (zlen (enc_str x ++ encf fa) - zlen (x ++ encf fa) + zlen x) with (zlen (enc_str x))
      by (unfold enc_str; rewrite !zlen_app; lia).
    destruct (str_eqb_spec x y) as [E|Hne].
    + subst y. rewrite fcmp_same. rewrite cp_app in *. rewrite !zlen_app in H.
      destruct (Z.leb_spec (zlen (enc_str x)) (zlen (enc_str x) + common_prefix (encf fa) (encf fb)));
        [|destruct (cp_bounds (encf fa) (encf fb)); lia].
      rewrite !skip_app.
      replace (zlen (enc_str x) + common_prefix (encf fa) (encf fb) - zlen (enc_str x)) with (common_prefix (encf fa) (encf fb)) by lia.
      apply IH; auto; [simpl in Hf; lia | lia].
    + rewrite (fcmp_ne x y fa fb Hne). pose proof (cp_fields_ne x y (encf fa) (encf fb) Sx Sy Hne) as Hlt.
      destruct (Z.leb_spec (zlen (enc_str x)) (common_prefix (enc_str x ++ encf fa) (enc_str y ++ encf fb))); [lia|].
      rewrite !decode_string_enc by auto. reflexivity.
Qed.

Lemma encf_length fs : (length fs <= length (encf fs))%nat.
Proof. induction fs as [|x t IH]; simpl; auto. rewrite app_length. pose proof (enc_str_length x). lia. Qed.

Lemma fcmp_sgn a : forall b, sgn (fcmp a b) = fcmp a b.
Proof. induction a as [|x a IH]; intros [|y b]; simpl; auto. destruct (str_cmp x y); auto. Qed.

Lemma st_compare_fields fa fb : fshort fa -> fshort fb ->
  exists c, st_compare (encf fa) (encf fb) = Ok c /\ sgn c = fcmp fa fb.
Proof.
  intros Ha Hb. unfold st_compare.
  destruct (Z.eqb_spec (common_prefix (encf fa) (encf fb)) (Z.min (zlen (encf fa)) (zlen (encf fb)))) as [E|E].
  - eexists. split; [reflexivity|]. rewrite (top_branch fa fb Ha Hb E). apply fcmp_sgn.
  - eexists. split; [apply walk_branch; auto; pose proof (encf_length fa); lia|]. apply fcmp_sgn.
Qed.

Lemma sl_compare_flat la : forall lb, sgn (sl_compare la lb) = fcmp (flat la) (flat lb).
Proof.
  induction la as [|[an av] la IH]; intros [|[bn bv] lb]; cbn [sl_compare flat fcmp].
  - reflexivity.
  - rewrite (@zlen_nil label), zlen_cons. pose proof (zlen_nonneg lb). destruct (0 - (1 + zlen lb)) eqn:E; try lia. reflexivity.
  - rewrite (@zlen_nil label), zlen_cons. pose proof (zlen_nonneg la). destruct (1 + zlen la - 0) eqn:E; try lia. reflexivity.
  - unfold str_eqb, str_ltb. destruct (str_cmp an bn); simpl; auto. destruct (str_cmp av bv); simpl; auto.
Qed.

(* Compare of the stringlabels build = Compare of the slicelabels build, on all label lists *)
Lemma compare_string_slice la lb : all_short la -> all_short lb ->
  l_compare I_string (enc la) (enc lb) = l_compare I_slice la lb.
Proof.
  intros Ha Hb. cbn [l_compare I_string I_slice]. rewrite !enc_flat.
  destruct (st_compare_fields (flat la) (flat lb) (flat_short _ Ha) (flat_short _ Hb)) as (c & -> & S).
  cbn [bind]. rewrite S, <- sl_compare_flat. reflexivity.
Qed.

(* Equal of the stringlabels build (string equality of the data) = Equal of slicelabels *)
Lemma list_eqb_eq {A} (e : A -> A -> bool) : (forall x y, e x y = true <-> x = y) ->
  forall a b, list_eqb e a b = true <-> a = b.
Proof.
  intros He. induction a as [|x a IH]; intros [|y b]; simpl; split; try discriminate; auto.
  - intros H. apply andb_prop in H. destruct H as [H1 H2]. apply He in H1. apply IH in H2. subst. auto.
  - intros E. injection E as <- <-. apply andb_true_intro. split; [apply He|apply IH]; reflexivity.
Qed.
Lemma labels_eqb_eq a b : labels_eqb a b = true <-> a = b.
Proof.
  apply list_eqb_eq. intros [n v] [m w]. unfold label_eqb. cbn [fst snd].
  rewrite andb_true_iff, !str_eqb_eq. split; [intros [-> ->]|intros E; injection E]; auto.
Qed.
Lemma equal_string_slice la lb : all_short la -> all_short lb ->
  l_equal I_string (enc la) (enc lb) = l_equal I_slice la lb.
Proof.
  intros Ha Hb. cbn [l_equal I_string I_slice]. f_equal. apply eq_true_iff_eq.
  rewrite labels_eqb_eq, (list_eqb_eq Z.eqb Z.eqb_eq). split; [apply enc_inj; auto|intros ->; auto].
Qed.

(* Compare is a total order consistent with Equal (entry level) *)
Lemma fcmp_zero a : forall b, fcmp a b = 0 <-> a = b.
Proof.
  induction a as [|x a IH]; intros [|y b]; simpl; split; try discriminate; auto.
  - destruct (str_cmp x y) eqn:C; try discriminate. intros H. apply str_cmp_eq in C. apply IH in H. subst. auto.
  - intros E. inversion E; subst. rewrite str_cmp_refl. apply IH. auto.
Qed.
Lemma flat_inj a : forall b, flat a = flat b -> a = b.
Proof.
  induction a as [|[n v] a IH]; intros [|[m w] b] H; simpl in H; try discriminate; auto.
  inversion H; subst. f_equal. auto.
Qed.
Lemma compare_zero_iff_equal la lb : sgn (sl_compare la lb) = 0 <-> la = lb.
Proof.
  rewrite sl_compare_flat, fcmp_zero. split; [apply flat_inj | intros ->; auto].
Qed.
Lemma fcmp_antisym a : forall b, fcmp b a = - fcmp a b.
Proof.
  induction a as [|x a IH]; intros [|y b]; simpl; auto.
  rewrite (str_cmp_antisym x y). destruct (str_cmp x y); simpl; auto.
Qed.
Lemma compare_antisym la lb : sgn (sl_compare lb la) = - sgn (sl_compare la lb).
Proof. rewrite !sl_compare_flat. apply fcmp_antisym. Qed.
