(* proof/AgentProofs.v — proofs about model/Agent.v (property C48). *)
From Coq Require Import List ZArith Bool Lia.
From Verif Require Import lib.Int64 lib.SortedList model.Checkpoint model.Agent.
Import ListNotations.
Open Scope Z_scope.

Lemma memz_iff x l : memz x l = true <-> In x l.
Proof. apply (existsb_eqb_In Z.eqb Z.eqb_eq). Qed.

Lemma lookup_upsert {A} k k' (v : A) m :
  lookup k (upsert k' v m) = if k =? k' then Some v else lookup k m.
Proof.
  induction m as [|[k2 v2] m IH]; simpl; [reflexivity|].
  destruct (Z.eqb_spec k' k2) as [->|N]; simpl.
  - destruct (k =? k2); reflexivity.
  - rewrite IH. destruct (Z.eqb_spec k k2) as [->|]; [|reflexivity].
    destruct (Z.eqb_spec k2 k'); [congruence|reflexivity].
Qed.

Lemma lookup_remove_key {A} k k' (m : list (Z * A)) :
  lookup k (remove_key k' m) = if k =? k' then None else lookup k m.
Proof.
  unfold remove_key. induction m as [|[k2 v2] m IH]; simpl.
  - destruct (k =? k'); auto.
  - destruct (Z.eqb_spec k2 k') as [->|N]; simpl; rewrite IH.
    + destruct (k =? k'); auto.
    + destruct (Z.eqb_spec k k2) as [->|]; auto. destruct (Z.eqb_spec k2 k'); [contradiction|auto].
Qed.

Lemma get_app_set st d a p a' : get_app (set_app st d a p) a' = if a' =? a then p else get_app st a'.
Proof. unfold get_app, set_app. simpl. rewrite lookup_upsert. destruct (a' =? a); reflexivity. Qed.

Lemma in_app4 {A} (a b c d : list A) y : In y (a ++ b ++ c ++ d) <-> In y a \/ In y b \/ In y c \/ In y d.
Proof. rewrite !in_app_iff. reflexivity. Qed.

(* membership after appending x to one list of a concatenation: at the front list, or further in *)
Lemma in_snoc_here {A} (l r : list A) x y : In y ((l ++ [x]) ++ r) <-> In y (l ++ r) \/ x = y.
Proof. rewrite !in_app_iff. simpl. tauto. Qed.
Lemma in_snoc_under {A} (p l l' : list A) x y :
  (In y l <-> In y l' \/ x = y) -> (In y (p ++ l) <-> In y (p ++ l') \/ x = y).
Proof. intros H. rewrite !in_app_iff, H. symmetry. apply or_assoc. Qed.

Lemma series_refs_cons r l : series_refs (r :: l) = map fst (series_of_rec r) ++ series_refs l.
Proof. reflexivity. Qed.

Lemma series_refs_app a b : series_refs (a ++ b) = series_refs a ++ series_refs b.
Proof. unfold series_refs. apply flat_map_app. Qed.

Lemma series_refs_nonempty l : series_refs (nonempty RSeries l) = map fst l.
Proof. destruct l; simpl; auto. unfold series_refs. simpl. rewrite app_nil_r. auto. Qed.

Lemma series_refs_nonempty_samples k (l : list sample) : series_refs (nonempty (RSamples k) l) = [].
Proof. destruct l; reflexivity. Qed.

Lemma series_refs_nonempty_ex (l : list sample) : series_refs (nonempty RExemplars l) = [].
Proof. destruct l; reflexivity. Qed.

Lemma series_refs_in r recs : In r (series_refs recs) <-> exists R, In R recs /\ In r (map fst (series_of_rec R)).
Proof. unfold series_refs. apply in_flat_map. Qed.

Lemma in_nonempty {A} (mk : list A -> record) l x : In x l -> In (mk l) (nonempty mk l).
Proof. destruct l; simpl; intros H; [contradiction|auto]. Qed.

Definition holds_item (k : Z) (x : sample) (r : record) : Prop :=
  match r with
  | RSamples k' l => k' = k /\ In x l
  | RExemplars l => k = -1 /\ In x l
  | _ => False
  end.

Lemma existsb_sample (x : sample) l :
  existsb (fun y : sample => (fst (fst y) =? fst (fst x)) && (snd (fst y) =? snd (fst x)) && (snd y =? snd x)) l = true
  <-> In x l.
Proof.
  rewrite existsb_exists. split.
  - intros [[[a b] c] [Hy E]]. destruct x as [[a' b'] c']. simpl in E.
    apply andb_prop in E. destruct E as [E E3]. apply andb_prop in E. destruct E as [E1 E2].
    apply Z.eqb_eq in E1, E2, E3. subst. exact Hy.
  - intros H. exists x. split; auto. rewrite !Z.eqb_refl. auto.
Qed.

Lemma and3_true (a b c : bool) (A B C : Prop) :
  (a = true <-> A) -> (b = true <-> B) -> (c = true <-> C) -> (a && b && c = true <-> (A /\ C) /\ B).
Proof. intros <- <- <-. rewrite !andb_true_iff. tauto. Qed.

Lemma logged_from_cons seen k x r t :
  logged_from seen k x (r :: t) = true <->
  (holds_item k x r /\ In (fst (fst x)) seen) \/ logged_from (map fst (series_of_rec r) ++ seen) k x t = true.
Proof.
  cbn [logged_from]. rewrite orb_true_iff. apply or_iff_compat_r.
  destruct r; cbn [holds_item]; try (split; [discriminate|intros [[] _]]);
    apply and3_true; auto using Z.eqb_eq, memz_iff, existsb_sample.
Qed.

Lemma logged_from_iff k x : forall recs seen,
  logged_from seen k x recs = true <->
  exists l1 R l2, recs = l1 ++ R :: l2 /\ holds_item k x R /\
                  (In (fst (fst x)) seen \/ In (fst (fst x)) (series_refs l1)).
Proof.
  induction recs as [|r recs IH]; intros seen.
  - split; [intros H; discriminate H|]. intros ([|? ?] & R & l2 & E & _); discriminate E.
  - split.
    + intros H. apply logged_from_cons in H as [[HR HS]|H]; [exists [], r, recs; auto|].
      apply IH in H as (l1 & R & l2 & -> & HR & HS). exists (r :: l1), R, l2.
      rewrite series_refs_cons, in_app_iff. rewrite in_app_iff in HS. tauto.
    + intros ([|r' l1] & R & l2 & E & HR & HS); injection E as <- ->; apply logged_from_cons.
      * left. destruct HS as [|[]]; auto.
      * right. apply IH. exists l1, R, l2. rewrite series_refs_cons, in_app_iff in HS. rewrite in_app_iff. tauto.
Qed.

(* logged k x recs: recs = l1 ++ R :: l2 where R is a record of kind k holding x and l1 has a series
   record of x's ref *)
Theorem logged_iff k x recs :
  logged k x recs = true <->
  exists l1 R l2, recs = l1 ++ R :: l2 /\ holds_item k x R /\ In (fst (fst x)) (series_refs l1).
Proof.
  unfold logged. rewrite logged_from_iff.
  split; intros (l1 & R & l2 & E & HR & HS); exists l1, R, l2; [destruct HS as [[]|HS]|]; auto.
Qed.

Lemma attach_ge : forall recs cur rolls sr, In sr (attach cur rolls recs) -> cur <= fst sr.
Proof.
  induction recs as [|r recs IH]; intros cur rolls sr H; simpl in H; [contradiction|].
  destruct rolls as [|k q]; destruct H as [<-|H]; try (simpl; lia); apply IH in H; lia.
Qed.

Lemma attach_snd : forall recs cur rolls, map snd (attach cur rolls recs) = recs.
Proof.
  induction recs as [|r recs IH]; intros; simpl; auto.
  destruct rolls; simpl; rewrite IH; auto.
Qed.

Lemma fold_max_ge (l : list (Z * record)) : forall c, c <= fold_left (fun c sr => Z.max c (fst sr)) l c.
Proof. induction l; intros; simpl; [lia|]. etransitivity; [|apply IHl]. lia. Qed.

Lemma wal_records_write w rolls recs :
  w_cpidx w < w_cur w ->
  wal_records (wal_write w rolls recs) = wal_records w ++ recs.
Proof.
  intros H. unfold wal_write, wal_log, wal_records. simpl.
  rewrite filter_app, map_app, app_assoc. f_equal.
  rewrite filter_all.
  - apply attach_snd.
  - intros sr Hs. apply attach_ge in Hs. apply Z.ltb_lt. lia.
Qed.

Lemma wal_write_cur w rolls recs : w_cur w <= w_cur (wal_write w rolls recs).
Proof. unfold wal_write, wal_log. simpl. apply fold_max_ge. Qed.

Lemma wal_write_cpidx w rolls recs : w_cpidx (wal_write w rolls recs) = w_cpidx w.
Proof. reflexivity. Qed.

Lemma wal_records_next w : wal_records (wal_next_segment w) = wal_records w.
Proof. reflexivity. Qed.

Lemma plan_last_lt first cur last : plan_last first cur = Some last -> last < cur.
Proof.
  unfold plan_last. destruct (cur - 1 <? 0); [discriminate|].
  destruct (Z.leb_spec (first + (cur - 1 - first) * 2 ÷ 3) first); [discriminate|].
  intros E. injection E as <-. Z.to_euclidean_division_equations. lia.
Qed.

(* [mk] is a record constructor whose contents Checkpoint filters by time: RSamples k or RExemplars *)
Definition timed (mk : list sample -> record) : Prop :=
  forall keep mint l, cp_rec keep mint (mk l) = match cp_samples mint l with [] => None | l' => Some (mk l') end.

Lemma cp_body_keeps mk mint recs l x :
  timed mk -> In (mk l) recs -> In x l -> mint <= snd (fst x) ->
  In x (cp_samples mint l) /\ forall keep, In (mk (cp_samples mint l)) (cp_body keep mint recs).
Proof.
  intros T HR Hx Ht.
  assert (Hc : In x (cp_samples mint l)).
  { unfold cp_samples. apply filter_In. split; auto. apply Z.leb_le. auto. }
  split; auto. intros keep. unfold cp_body. apply in_flat_map. exists (mk l). split; auto.
  rewrite T. destruct (cp_samples mint l); [contradiction|]. left; reflexivity.
Qed.

Lemma cp_body_series keep mint recs r :
  In r (series_refs recs) -> keep r = true -> In r (series_refs (cp_body keep mint recs)).
Proof.
  intros H K. apply series_refs_in in H. destruct H as ([] & HR & Hr); try contradiction.
  apply in_map_iff in Hr. destruct Hr as [[r' b] [E Hl]]. simpl in E. subst r'.
  assert (Hc : In (r, b) (cp_series keep l)) by (unfold cp_series; apply filter_In; auto).
  apply series_refs_in. exists (RSeries (cp_series keep l)). split.
  - unfold cp_body. apply in_flat_map. exists (RSeries l). split; auto. simpl.
    destruct (cp_series keep l); [contradiction|]. left; auto.
  - apply (in_map fst _ _ Hc).
Qed.

Lemma wal_records_split w last R :
  In R (wal_records w) ->
  In R (cp_input (wal_next_segment w) last) \/
  In R (map snd (filter (fun sr => last <? fst sr) (filter (fun sr => last <? fst sr) (w_segs w)))).
Proof.
  unfold wal_records, cp_input. simpl. rewrite !in_app_iff. intros [H|H]; auto.
  apply in_map_iff in H. destruct H as [[s r] [E H]]. simpl in E. subst r.
  apply filter_In in H. destruct H as [H C]. simpl in C.
  destruct (Z.leb_spec s last) as [L|L].
  - left. right. apply (in_map snd _ (s, R)). apply filter_In. split; auto. simpl.
    rewrite C. apply Z.leb_le. exact L.
  - right. apply Z.ltb_lt in L. apply (in_map snd _ (s, R)). rewrite !filter_In. auto.
Qed.

Lemma truncate_series o d mint zv :
  d_series (truncate o d mint zv) =
  filter (fun s => negb (memz (s_ref s) (gc_gone mint (d_series d)))) (d_series d).
Proof.
  unfold truncate. destruct (o_inmem o); [|reflexivity].
  destruct (plan_last (w_first (d_wal d)) (w_cur (d_wal d))); reflexivity.
Qed.

Lemma wal_records_truncate o d mint zv :
  wal_records (d_wal (truncate o d mint zv)) =
  match plan_last (w_first (d_wal d)) (w_cur (d_wal d)) with
  | None => wal_records (d_wal d)
  | Some last =>
      w_cp (d_wal (truncate o d mint zv)) ++
      map snd (filter (fun sr => last <? fst sr) (filter (fun sr => last <? fst sr) (w_segs (d_wal d))))
  end.
Proof.
  unfold truncate, agent_truncate. simpl.
  destruct (o_inmem o), (plan_last (w_first (d_wal d)) (w_cur (d_wal d))); reflexivity.
Qed.

Lemma truncate_wal_idx o d mint zv :
  w_cpidx (d_wal d) < w_cur (d_wal d) ->
  w_cpidx (d_wal (truncate o d mint zv)) < w_cur (d_wal (truncate o d mint zv)).
Proof.
  intros H. unfold truncate, agent_truncate. simpl.
  destruct (o_inmem o), (plan_last (w_first (d_wal d)) (w_cur (d_wal d))) eqn:P; simpl; try lia;
    apply plan_last_lt in P; lia.
Qed.

Lemma truncate_cp_default o d mint zv last :
  o_inmem o = false -> plan_last (w_first (d_wal d)) (w_cur (d_wal d)) = Some last ->
  w_cp (d_wal (truncate o d mint zv)) =
  checkpoint (agent_keep (filter (fun r => negb (memz r (gc_gone mint (d_series d)))) (map s_ref (d_series d)))
                         (set_all (gc_gone mint (d_series d)) (w_cur (d_wal d)) (d_deleted d)) last)
             mint (cp_input (wal_next_segment (d_wal d)) last).
Proof. intros HO HP. unfold truncate, agent_truncate. simpl. rewrite HO, HP. reflexivity. Qed.

Lemma truncate_cp_inmem o d mint zv last :
  o_inmem o = true -> plan_last (w_first (d_wal d)) (w_cur (d_wal d)) = Some last ->
  exists del dlab,
    w_cp (d_wal (truncate o d mint zv)) = inmem_checkpoint (d_series (truncate o d mint zv)) del dlab last zv.
Proof. intros HO HP. unfold truncate. rewrite HO, HP. eexists _, _. reflexivity. Qed.

(* wlog.Checkpoint keeps every timestamped item at or after mint, whatever its record kind *)
Theorem truncate_keeps o d mint zv mk l x :
  timed mk -> o_inmem o = false ->
  In (mk l) (wal_records (d_wal d)) -> In x l -> mint <= snd (fst x) ->
  exists l', In (mk l') (wal_records (d_wal (truncate o d mint zv))) /\ In x l'.
Proof.
  intros T HO HR Hx Ht. rewrite wal_records_truncate.
  destruct (plan_last (w_first (d_wal d)) (w_cur (d_wal d))) as [last|] eqn:P; [|eauto].
  destruct (wal_records_split (d_wal d) last _ HR) as [A|B].
  - destruct (cp_body_keeps mk mint _ l x T A Hx Ht) as [H1 H2].
    exists (cp_samples mint l). split; auto.
    rewrite (truncate_cp_default _ _ _ _ _ HO P). unfold checkpoint. rewrite !in_app_iff. auto.
  - exists l. rewrite in_app_iff. auto.
Qed.

Lemma inmem_checkpoint_series ser del dlab last zv r :
  In r (map s_ref ser) -> In r (series_refs (inmem_checkpoint ser del dlab last zv)).
Proof.
  intros H. unfold inmem_checkpoint. destruct ser as [|s0 ser]; [contradiction|].
  rewrite series_refs_app, series_refs_cons, !in_app_iff. left. left.
  cbn [series_of_rec]. rewrite map_map. exact H.
Qed.

Lemma inmem_checkpoint_logged ser del dlab last zv rest s :
  In s ser -> logged 0 (s_ref s, s_last s, zv) (inmem_checkpoint ser del dlab last zv ++ rest) = true.
Proof.
  intros H. apply logged_iff.
  exists [RSeries (map (fun s => (s_ref s, s_lab s)) ser)], (RSamples 0 (map (fun s => (s_ref s, s_last s, zv)) ser)),
         (nonempty RSeries (map (fun e => (fst e, match lookup (fst e) dlab with Some b => b | None => 0 end))
                                (filter (fun e => last <? snd e) del)) ++ rest).
  split; [destruct ser; [contradiction|reflexivity]|]. split.
  - split; auto. apply (in_map (fun s => (s_ref s, s_last s, zv)) _ _ H).
  - rewrite series_refs_cons, in_app_iff. left. cbn [series_of_rec]. rewrite map_map.
    apply (in_map s_ref _ _ H).
Qed.

(* the series record of a series that survives the garbage collection stays in the WAL (both checkpoint
   implementations) *)
Theorem truncate_keeps_series o d mint zv r :
  In r (map s_ref (d_series (truncate o d mint zv))) ->
  In r (series_refs (wal_records (d_wal d))) ->
  In r (series_refs (wal_records (d_wal (truncate o d mint zv)))).
Proof.
  intros HL HR. rewrite wal_records_truncate.
  destruct (plan_last (w_first (d_wal d)) (w_cur (d_wal d))) as [last|] eqn:P; auto.
  rewrite series_refs_app, in_app_iff. destruct (o_inmem o) eqn:HO.
  - left. destruct (truncate_cp_inmem _ _ mint zv _ HO P) as (del & dlab & ->).
    apply inmem_checkpoint_series. exact HL.
  - apply series_refs_in in HR. destruct HR as [R [HR Hr]].
    destruct (wal_records_split (d_wal d) last _ HR) as [A|B]; [left|right; apply series_refs_in; eauto].
    rewrite (truncate_cp_default _ _ _ _ _ HO P). unfold checkpoint. rewrite series_refs_app, in_app_iff. left.
    apply cp_body_series; [apply series_refs_in; eauto|].
    unfold agent_keep. apply orb_true_iff. left. apply memz_iff.
    rewrite truncate_series in HL. apply in_map_iff in HL. destruct HL as [s [<- Hs]].
    apply filter_In in Hs. apply filter_In. split; [apply in_map|]; tauto.
Qed.

Lemma gone_iff mint l r : In r (gc_gone mint l) <-> exists s, In s l /\ s_ref s = r /\ s_last s < mint.
Proof.
  unfold gc_gone. rewrite in_map_iff. split; intros (s & H1 & H2); exists s.
  - apply filter_In in H2. rewrite Z.ltb_lt in H2. tauto.
  - rewrite filter_In, Z.ltb_lt. tauto.
Qed.

(* stripeSeries.GC: a surviving series has a write at or after mint; a collected one has none *)
Theorem truncate_gc_spec o d mint zv s :
  In s (d_series d) ->
  (In s (d_series (truncate o d mint zv)) -> mint <= s_last s) /\
  (~ In s (d_series (truncate o d mint zv)) -> exists s', In s' (d_series d) /\ s_ref s' = s_ref s /\ s_last s' < mint).
Proof.
  intros Hs. rewrite truncate_series, filter_In.
  destruct (memz (s_ref s) (gc_gone mint (d_series d))) eqn:M.
  - apply memz_iff, gone_iff in M. split; [intros [_ H]; discriminate H|auto].
  - split; [intros _|intros H; exfalso; auto].
    destruct (Z_lt_le_dec (s_last s) mint) as [L|L]; auto.
    assert (In (s_ref s) (gc_gone mint (d_series d))) as G by (apply gone_iff; eauto).
    apply memz_iff in G. congruence.
Qed.

Theorem restart_keeps_wal o d : wal_records (d_wal (restart o d)) = wal_records (d_wal d).
Proof. reflexivity. Qed.

Definition item_ref (it : Z * sample) : ref := fst (fst (snd it)).

Definition series_ids (d : db) : list ref := map s_ref (d_series d).

(* all that an append of either appender version, or an exemplar append, does to the database and to
   its appender: series are created at the end of db.series, each with a pending series record; pending
   items are added, each for a series that exists; the WAL is not touched *)
Record ext (d : db) (p : app) (d' : db) (p' : app) : Prop := mkExt {
  ext_wal : d_wal d' = d_wal d;
  ext_grow : exists n, d_series d' = d_series d ++ n;
  ext_ps : incl (map fst (p_series p)) (map fst (p_series p'));
  ext_new : forall r, In r (series_ids d') -> In r (series_ids d) \/ In r (map fst (p_series p'));
  ext_mono : incl (pending_items p) (pending_items p');
  ext_items : forall it, In it (pending_items p') -> In it (pending_items p) \/ In (item_ref it) (series_ids d')
}.

Lemma ext_refl d p : ext d p d p.
Proof. constructor; auto using incl_refl. exists []. symmetry. apply app_nil_r. Qed.

Lemma ext_trans d p d1 p1 d2 p2 : ext d p d1 p1 -> ext d1 p1 d2 p2 -> ext d p d2 p2.
Proof.
  intros [A1 [n A2] A3 A4 A5 A6] [B1 [m B2] B3 B4 B5 B6].
  assert (I : incl (series_ids d1) (series_ids d2)).
  { unfold series_ids. rewrite B2, map_app. apply incl_appl, incl_refl. }
  constructor.
  - congruence.
  - exists (n ++ m). rewrite B2, A2, app_assoc. reflexivity.
  - eapply incl_tran; eauto.
  - intros r H. destruct (B4 r H) as [H1|H1]; auto. destruct (A4 r H1); auto.
  - eapply incl_tran; eauto.
  - intros it H. destruct (B6 it H) as [H1|H1]; auto. destruct (A6 it H1); auto.
Qed.

Lemma ext_put d p p' it0 :
  p_series p' = p_series p -> In (item_ref it0) (series_ids d) ->
  (forall it, In it (pending_items p') <-> In it (pending_items p) \/ it0 = it) ->
  ext d p d p'.
Proof.
  intros E H0 HP. constructor; auto.
  - exists []. symmetry. apply app_nil_r.
  - rewrite E. apply incl_refl.
  - intros it H. apply HP. auto.
  - intros it H. apply HP in H. destruct H as [H| <-]; auto.
Qed.

Lemma find_id_in r l s : find_id r l = Some s -> In s l /\ s_ref s = r.
Proof.
  induction l as [|a l IH]; simpl; [discriminate|]. destruct (Z.eqb_spec (s_ref a) r).
  - intros H. injection H as <-. auto.
  - intros H. destruct (IH H). auto.
Qed.

Lemma find_lab_in b l s : find_lab b l = Some s -> In s l /\ s_lab s = b.
Proof.
  induction l as [|a l IH]; simpl; [discriminate|]. destruct (Z.eqb_spec (s_lab a) b).
  - intros H. injection H as <-. auto.
  - intros H. destruct (IH H). auto.
Qed.

Lemma goc_ext d p r b d1 p1 s :
  get_or_create d p r b = inl (d1, p1, s) -> ext d p d1 p1 /\ In (s_ref s) (series_ids d1).
Proof.
  unfold get_or_create.
  destruct (if r =? 0 then None else find_id r (d_series d)) as [s0|] eqn:E1.
  - intros H. injection H as <- <- <-. split; [apply ext_refl|].
    destruct (r =? 0); [discriminate|]. apply find_id_in in E1. apply in_map. tauto.
  - destruct (b <=? 0); [discriminate|].
    destruct (find_lab b (d_series d)) as [s0|] eqn:E2; intros H; injection H as <- <- <-.
    + split; [apply ext_refl|]. apply find_lab_in in E2. apply in_map. tauto.
    + split; [constructor|]; unfold series_ids; simpl; rewrite ?map_app.
      * reflexivity.
      * eauto.
      * apply incl_appl, incl_refl.
      * intros r0. rewrite !in_app_iff. simpl. tauto.
      * apply incl_refl.
      * auto.
      * apply in_or_app. right. left. reflexivity.
Qed.

(* the record kind under which [push] files a sample of kind k *)
Definition kind_tag (k : Z) : Z :=
  if k =? 0 then 0 else if (k =? 1) || (k =? 3) then (if k =? 3 then 3 else 1) else (if k =? 4 then 4 else 2).

Lemma kind_tag_id k : 0 <= k <= 4 -> kind_tag k = k.
Proof.
  intros H. assert (K : k = 0 \/ k = 1 \/ k = 2 \/ k = 3 \/ k = 4) by lia.
  destruct K as [->|[->|[->|[->| ->]]]]; reflexivity.
Qed.

Lemma pending_push p k x it :
  In it (pending_items (push p k x)) <-> In it (pending_items p) \/ (kind_tag k, x) = it.
Proof.
  unfold push, kind_tag, pending_items.
  destruct (k =? 0); [|destruct ((k =? 1) || (k =? 3))]; cbn [p_samples p_hist p_fhist p_ex]; rewrite map_app;
    [|apply in_snoc_under|do 2 apply in_snoc_under]; apply in_snoc_here.
Qed.

Lemma pending_push_ex p x it :
  In it (pending_items (push_ex p x)) <-> In it (pending_items p) \/ (-1, x) = it.
Proof.
  unfold push_ex, pending_items. cbn [p_samples p_hist p_fhist p_ex]. rewrite map_app.
  do 3 apply in_snoc_under. rewrite in_app_iff. simpl. tauto.
Qed.

Lemma push_series p k x : p_series (push p k x) = p_series p.
Proof. unfold push. destruct (k =? 0); [|destruct ((k =? 1) || (k =? 3))]; reflexivity. Qed.

Lemma ext_push d p k r t v : In r (series_ids d) -> ext d p d (push p k (r, t, v)).
Proof.
  intros H. apply (ext_put d p _ (kind_tag k, (r, t, v))); [apply push_series|exact H|apply pending_push].
Qed.

Lemma set_lastex_same d r e :
  d_wal (set_lastex d r e) = d_wal d /\ d_series (set_lastex d r e) = d_series d.
Proof. unfold set_lastex. destruct (find_id r (d_series d)); auto. Qed.

Lemma ext_exemplar d p r (e : exemplar) :
  In r (series_ids d) -> ext d p (set_lastex d r (fst (fst e))) (push_ex p (r, snd (fst e), fst (fst e))).
Proof.
  intros H. destruct (set_lastex_same d r (fst (fst e))) as [A B].
  apply ext_trans with (d1 := set_lastex d r (fst (fst e))) (p1 := p).
  - constructor; unfold series_ids; rewrite ?B; auto using incl_refl.
    exists []. symmetry. apply app_nil_r.
  - eapply ext_put; [reflexivity| |apply pending_push_ex]. unfold series_ids. rewrite B. exact H.
Qed.

Lemma ex_fold_ext : forall es d p r errs d' p' errs',
  In r (series_ids d) -> ex_fold d p r es errs = (d', p', errs') -> ext d p d' p'.
Proof.
  induction es as [|e es IH]; intros d p r errs d' p' errs' Hr H; simpl in H.
  - injection H as <- <- _. apply ext_refl.
  - destruct (ex_check d r e =? -1); [eapply IH; eauto|].
    destruct (negb (ex_check d r e =? 0)); [eapply IH; eauto|].
    pose proof (ext_exemplar d p r e Hr) as X.
    eapply ext_trans; [exact X|eapply IH; [|exact H]].
    destruct (ext_grow _ _ _ _ X) as [n E]. unfold series_ids. rewrite E, map_app. apply in_or_app. auto.
Qed.

Lemma exemplar_v1_ext d p r e d' p' res :
  exemplar_v1 d p r e = (d', p', res) -> ext d p d' p'.
Proof.
  unfold exemplar_v1. destruct (find_id r (d_series d)) as [s|] eqn:F.
  - destruct (ex_check d (s_ref s) e =? -1); [intros H; injection H as <- <- _; apply ext_refl|].
    destruct (negb (ex_check d (s_ref s) e =? 0)); intros H; injection H as <- <- _; [apply ext_refl|].
    apply ext_exemplar. apply find_id_in in F. apply in_map. tauto.
  - intros H; injection H as <- <- _. apply ext_refl.
Qed.

Lemma best_effort_ext d p s lastTS st t zv kind :
  In (s_ref s) (series_ids d) -> ext d p d (best_effort p s lastTS st t zv kind).
Proof.
  intros H. unfold best_effort. destruct (t <=? st); [apply ext_refl|].
  destruct (st <=? lastTS); [apply ext_refl|]. apply ext_push. auto.
Qed.

Lemma goc_err d p r b e : get_or_create d p r b = inr e -> e = E_INVALID.
Proof.
  unfold get_or_create. destruct (if r =? 0 then None else find_id r (d_series d)); [discriminate|].
  destruct (b <=? 0); [intros H; injection H as <-; auto|]. destruct (find_lab b (d_series d)); discriminate.
Qed.

(* the ways through appenderV2.Append: rejected before a series is resolved; or a series s is resolved
   (p2: after the best-effort zero sample) and the sample is rejected as out of order, or accepted *)
Lemma append_v2_cases o d p r b st t v zv kind hbad stale exs d' p' rr err perr :
  append_v2 o d p r b st t v zv kind hbad stale exs = (d', p', (rr, err, perr)) ->
  (d' = d /\ p' = p /\ rr = 0 /\ (err = E_HIST \/ err = E_INVALID)) \/
  exists d1 p1 s p2, get_or_create d p r b = inl (d1, p1, s) /\ ext d p d1 p2 /\
    ((d' = d1 /\ p' = p2 /\ rr = 0 /\ err = E_OOO) \/
     (rr = s_ref s /\ (err = E_OK \/ err = E_PARTIAL) /\ ext d1 (push p2 kind (s_ref s, t, v)) d' p')).
Proof.
  unfold append_v2. intros H.
  destruct (negb (kind =? 0) && hbad); [injection H as <- <- <- <- <-; left; auto|].
  destruct (get_or_create d p r b) as [[[d1 p1] s]|e] eqn:G;
    [|apply goc_err in G; subst e; injection H as <- <- <- <- <-; left; auto].
  right. destruct (goc_ext _ _ _ _ _ _ _ G) as [X Hs].
  set (p2 := if o_stz o && negb (st =? 0) then best_effort p1 s (s_last s) st t zv kind else p1) in *.
  exists d1, p1, s, p2. split; auto. split.
  { apply (ext_trans _ _ _ _ _ _ X). unfold p2.
    destruct (o_stz o && negb (st =? 0)); [apply best_effort_ext; exact Hs|apply ext_refl]. }
  destruct (t <=? min_valid (o_oow o) (s_last s)); [injection H as <- <- <- <- <-; left; auto|]. right.
  destruct stale; [injection H as <- <- <- <- <-; auto using ext_refl|].
  destruct exs as [|e0 exs]; [injection H as <- <- <- <- <-; auto using ext_refl|].
  destruct (ex_fold d1 (push p2 kind (s_ref s, t, v)) (s_ref s) (e0 :: exs) []) as [[d4 p4] errs] eqn:F.
  apply ex_fold_ext in F; [|exact Hs]. destruct errs; injection H as <- <- <- <- <-; auto.
Qed.

Lemma append_v2_ext o d p r b st t v zv kind hbad stale exs d' p' res :
  append_v2 o d p r b st t v zv kind hbad stale exs = (d', p', res) -> ext d p d' p'.
Proof.
  destruct res as [[rr err] perr]. intros H.
  destruct (append_v2_cases _ _ _ _ _ _ _ _ _ _ _ _ _ _ _ _ _ _ H)
    as [(-> & -> & _)|(d1 & p1 & s & p2 & G & X & [(-> & -> & _)|(_ & _ & F)])]; [apply ext_refl|exact X|].
  apply (ext_trans _ _ _ _ _ _ X). eapply ext_trans; [apply ext_push, (goc_ext _ _ _ _ _ _ _ G)|exact F].
Qed.

(* appender V1 is appender V2 without start timestamp, staleness marker and exemplars *)
Lemma append_v1_v2 o d p r b t v kind hbad zv exs :
  append_v1 o d p r b t v kind hbad = append_v2 o d p r b 0 t v zv kind hbad true exs.
Proof.
  unfold append_v1, append_v2. destruct (negb (kind =? 0) && hbad); [reflexivity|].
  destruct (get_or_create d p r b) as [[[d1 p1] s]|e]; [|reflexivity].
  change (negb (0 =? 0)) with false. rewrite andb_false_r. reflexivity.
Qed.

Definition appends (e : event) : option Z :=
  match e with EAppend a _ _ _ _ _ _ _ _ _ _ _ | EExemplar a _ _ => Some a | _ => None end.

Lemma step_append o st e a :
  appends e = Some a ->
  exists d' p', fst (step o st e) = set_app st d' a p' /\ ext (st_db st) (get_app st a) d' p'.
Proof.
  destruct e; try discriminate; intros E; injection E as ->; simpl.
  - destruct (ver =? 1); [rewrite (append_v1_v2 _ _ _ _ _ _ _ _ _ zv exs)|];
      destruct (append_v2 _ _ _ _ _ _ _ _ _ _ _ _ _) as [[d' p'] [[rr err] perr]] eqn:A;
      exists d', p'; (split; [reflexivity|eapply append_v2_ext; eauto]).
  - destruct (exemplar_v1 _ _ _ _) as [[d' p'] [[rr err] perr]] eqn:A.
    exists d', p'. split; [reflexivity|eapply exemplar_v1_ext; eauto].
Qed.

Definition pend (st : state) (open : option Z) : app :=
  match open with Some a => get_app st a | None => app_empty end.

Definition covered (st : state) (open : option Z) (r : ref) : Prop :=
  In r (series_refs (wal_records (d_wal (st_db st)))) \/ In r (map fst (p_series (pend st open))).

Record Inv (st : state) (open : option Z) : Prop := mkInv {
  inv_wal : w_cpidx (d_wal (st_db st)) < w_cur (d_wal (st_db st));
  inv_apps : forall id, lookup id (st_apps st) <> None -> open = Some id;
  inv_series : forall r, In r (series_ids (st_db st)) -> covered st open r;
  inv_items : forall it, In it (pending_items (pend st open)) -> covered st open (item_ref it)
}.

(* appender a may act when no appender is open or it is the open one *)
Definition own (open : option Z) (a : Z) (next : option Z) : option (option Z) :=
  match open with None => Some next | Some b => if a =? b then Some next else None end.

Lemma own_spec open a next open' :
  own open a next = Some open' -> (open = None \/ open = Some a) /\ open' = next.
Proof.
  unfold own. destruct open as [b|]; [destruct (Z.eqb_spec a b); [subst|discriminate]|];
    intros H; injection H as <-; auto.
Qed.

(* one step of wf_from *)
Definition next_open (open : option Z) (e : event) : option (option Z) :=
  match e with
  | EAppend a _ _ _ _ _ _ _ _ _ _ _ | EExemplar a _ _ => own open a (Some a)
  | ECommit a _ | ERollback a _ => own open a None
  | ETruncate _ _ | ERestart => match open with None => Some None | Some _ => None end
  | ERoll | ESnap | EQuery _ _ _ => Some open
  end.

Lemma wf_from_cons open e l :
  wf_from open (e :: l) = match next_open open e with Some o1 => wf_from o1 l | None => false end.
Proof.
  destruct e, open as [bb|]; simpl; auto; destruct (Z.eqb_spec a bb); subst; auto.
Qed.

Lemma inv_empty : Inv st_empty None.
Proof.
  constructor; simpl.
  - lia.
  - intros id H. contradiction.
  - intros r [].
  - intros it [].
Qed.

Lemma pend_open st open a :
  Inv st open -> (open = None \/ open = Some a) -> get_app st a = pend st open.
Proof.
  intros I [E|E]; subst; simpl; auto.
  unfold get_app. destruct (lookup a (st_apps st)) eqn:L; auto.
  assert (None = Some a) by (apply (inv_apps _ _ I); congruence). discriminate.
Qed.

Lemma inv_append st open a d' p' :
  Inv st open -> (open = None \/ open = Some a) ->
  ext (st_db st) (get_app st a) d' p' ->
  Inv (set_app st d' a p') (Some a).
Proof.
  intros I Ho X. rewrite (pend_open _ _ _ I Ho) in X. destruct X as [X1 _ X2 X4 _ X5].
  assert (P : pend (set_app st d' a p') (Some a) = p').
  { simpl. rewrite get_app_set, Z.eqb_refl. reflexivity. }
  assert (C : forall r, covered st open r -> covered (set_app st d' a p') (Some a) r).
  { intros r [H|H]; [left|right].
    - simpl. rewrite X1. auto.
    - rewrite P. apply X2. auto. }
  assert (S : forall r, In r (series_ids d') -> covered (set_app st d' a p') (Some a) r).
  { intros r H. destruct (X4 r H) as [H1|H1].
    - apply C. apply (inv_series _ _ I). auto.
    - right. rewrite P. auto. }
  constructor.
  - simpl. rewrite X1. apply (inv_wal _ _ I).
  - intros id. simpl. rewrite lookup_upsert.
    destruct (Z.eqb_spec id a) as [E|N]; [subst; auto|].
    intros H. apply (inv_apps _ _ I) in H. destruct Ho; congruence.
  - exact S.
  - intros it H. rewrite P in H. destruct (X5 it H) as [H1|H1].
    + apply C. apply (inv_items _ _ I). auto.
    + apply S. auto.
Qed.

Lemma set_last_ids r f l : map s_ref (set_last r f l) = map s_ref l.
Proof. induction l as [|s l IH]; simpl; auto. destruct (s_ref s =? r); simpl; congruence. Qed.

Lemma bump_ids : forall xs l, map s_ref (bump l xs) = map s_ref l.
Proof.
  unfold bump. induction xs as [|x xs IH]; intros l; simpl; auto. rewrite IH. apply set_last_ids.
Qed.

Lemma inv_finish st open a rolls ser' (recs : list record) :
  Inv st open -> (open = None \/ open = Some a) ->
  incl (map fst (p_series (pend st open))) (series_refs recs) ->
  map s_ref ser' = series_ids (st_db st) ->
  Inv (mkSt (mkDB (d_next (st_db st)) ser' (d_deleted (st_db st)) (d_lastex (st_db st))
                  (wal_write (d_wal (st_db st)) rolls recs) (d_dlab (st_db st)))
            (remove_key a (st_apps st))) None.
Proof.
  intros I Ho HS HI. pose proof (wal_records_write _ rolls recs (inv_wal _ _ I)) as HW.
  constructor; cbn [st_db st_apps d_wal d_series pend].
  - rewrite wal_write_cpidx. pose proof (inv_wal _ _ I). pose proof (wal_write_cur (d_wal (st_db st)) rolls recs). lia.
  - intros id. rewrite lookup_remove_key. destruct (Z.eqb_spec id a); [intros H; contradiction|].
    intros H. apply (inv_apps _ _ I) in H. destruct Ho; congruence.
  - intros r H. unfold series_ids in H. cbn [st_db d_series] in H. rewrite HI in H.
    left. cbn [st_db d_wal]. rewrite HW, series_refs_app. apply in_app_iff.
    destruct (inv_series _ _ I r H) as [H1|H1]; auto.
  - intros it [].
Qed.

Lemma run_from_cons o st e t :
  fst (run_from o st (e :: t)) = fst (run_from o (fst (step o st e)) t).
Proof.
  simpl. destruct (step o st e) as [st1 ob]. simpl. destruct (run_from o st1 t). reflexivity.
Qed.

Lemma run_from_app o : forall l1 st l2,
  fst (run_from o st (l1 ++ l2)) = fst (run_from o (fst (run_from o st l1)) l2).
Proof.
  induction l1 as [|x l1 IH]; intros st l2; [reflexivity|].
  rewrite <- app_comm_cons, !run_from_cons. apply IH.
Qed.

Lemma run_from_one o st e : fst (run_from o st [e]) = fst (step o st e).
Proof. apply run_from_cons. Qed.

Lemma replay_series_refs im : forall recs st0 r,
  In r (map s_ref (r_series (fold_left (replay_rec im) recs st0))) ->
  In r (map s_ref (r_series st0)) \/ In r (series_refs (map snd recs)).
Proof.
  assert (A : forall seg l st0 r, In r (map s_ref (r_series (fold_left (replay_series im seg) l st0))) ->
                                  In r (map s_ref (r_series st0)) \/ In r (map fst l)).
  { intros seg. induction l as [|e l IH]; intros st0 r H; simpl in *; auto.
    apply IH in H. destruct H as [H|H]; auto. unfold replay_series in H.
    destruct (find_lab (snd e) (r_series st0)); simpl in H; auto.
    rewrite map_app in H. apply in_app_iff in H. simpl in H. destruct H as [H|[H|[]]]; auto. }
  assert (B : forall seg l st0, map s_ref (r_series (fold_left (replay_sample seg) l st0)) = map s_ref (r_series st0)).
  { intros seg. induction l as [|x l IH]; intros st0; simpl; auto. rewrite IH. unfold replay_sample.
    destruct (lookup (fst (fst x)) (r_dup st0)); simpl; apply set_last_ids. }
  induction recs as [|[seg R] recs IH]; intros st0 r H; simpl in *; auto.
  apply IH in H. unfold series_refs. simpl. rewrite in_app_iff. destruct H as [H|H]; auto.
  unfold replay_rec in H. simpl in H. destruct R; auto.
  - apply A in H. destruct H; auto.
  - rewrite B in H. auto.
Qed.

Lemma wal_tagged_records w : map snd (wal_tagged w) = wal_records w.
Proof.
  unfold wal_tagged, wal_records. rewrite map_app, map_map. simpl. rewrite map_id. reflexivity.
Qed.

Theorem inv_step o st open e open' :
  Inv st open -> next_open open e = Some open' -> Inv (fst (step o st e)) open'.
Proof.
  intros I N. destruct (appends e) as [a|] eqn:Ea.
  - destruct (step_append o st e a Ea) as (d' & p' & -> & X).
    assert (N' : own open a (Some a) = Some open') by (destruct e; try discriminate Ea; injection Ea as ->; exact N).
    apply own_spec in N'. destruct N' as [Ho ->]. apply inv_append with (open := open); auto.
  - destruct e; try discriminate Ea; simpl in N.
    + (* ECommit *)
      apply own_spec in N. destruct N as [Ho ->]. simpl. unfold commit.
      rewrite (pend_open _ _ _ I Ho). apply inv_finish with (open := open); auto.
      * unfold log_records. rewrite series_refs_app, series_refs_nonempty. apply incl_appl, incl_refl.
      * rewrite !bump_ids. reflexivity.
    + (* ERollback *)
      apply own_spec in N. destruct N as [Ho ->]. simpl. unfold rollback.
      rewrite (pend_open _ _ _ I Ho). apply inv_finish with (open := open); auto.
      rewrite series_refs_nonempty. apply incl_refl.
    + (* ETruncate *)
      destruct open; [discriminate|]. injection N as <-. simpl. constructor.
      * apply truncate_wal_idx, (inv_wal _ _ I).
      * apply (inv_apps _ _ I).
      * intros r H. left. cbn [st_db] in *. apply truncate_keeps_series; auto.
        assert (H0 : In r (series_ids (st_db st))).
        { unfold series_ids in *. rewrite truncate_series in H. apply in_map_iff in H. destruct H as [s [<- Hs]].
          apply filter_In in Hs. apply in_map. tauto. }
        destruct (inv_series _ _ I r H0) as [H1|[]]; auto.
      * intros it [].
    + (* ERoll *)
      injection N as <-. simpl. destruct I as [I1 I2 I3 I4]. constructor; simpl; auto. lia.
    + (* ERestart *)
      destruct open; [discriminate|]. injection N as <-. simpl. constructor; simpl.
      * pose proof (inv_wal _ _ I). lia.
      * intros id H. contradiction.
      * intros r H. left. unfold series_ids in H. simpl in H. unfold replay in H.
        apply replay_series_refs in H. rewrite wal_tagged_records in H. destruct H as [[]|H]. exact H.
      * intros it [].
    + (* ESnap *) injection N as <-. exact I.
    + (* EQuery *) injection N as <-. exact I.
Qed.

Lemma inv_run o : forall es st open e,
  Inv st open -> wf_from open (es ++ [e]) = true ->
  exists open', Inv (fst (run_from o st es)) open' /\ next_open open' e <> None.
Proof.
  induction es as [|x es IH]; intros st open e I W.
  - exists open. split; auto. change ([] ++ [e]) with [e] in W. rewrite wf_from_cons in W.
    destruct (next_open open e); congruence.
  - rewrite <- app_comm_cons, wf_from_cons in W. destruct (next_open open x) as [o1|] eqn:N; [|discriminate].
    rewrite run_from_cons. eapply IH; eauto. eapply inv_step; eauto.
Qed.

Lemma sel_in c x l : In (c, x) l -> In x (sel c l).
Proof.
  intros H. unfold sel. apply (in_map snd _ (c, x)). apply filter_In. split; auto. apply eqb_reflx.
Qed.

Lemma item_in_log p it :
  In it (pending_items p) -> exists R, In R (log_records p) /\ holds_item (fst it) (snd it) R.
Proof.
  intros H. apply in_app4 in H.
  destruct H as [H|[H|[H|H]]]; apply in_map_iff in H; destruct H as (y & <- & Hy); cbn [fst snd].
  - exists (RSamples 0 (p_samples p)). split; [|simpl; auto].
    apply in_or_app; right. apply in_or_app; left. exact (in_nonempty _ _ _ Hy).
  - destruct y as [c x]. apply sel_in in Hy. pose proof (in_nonempty (RSamples (if c then 3 else 1)) _ _ Hy) as M.
    exists (RSamples (if c then 3 else 1) (sel c (p_hist p))). split; [|simpl; auto].
    destruct c; [do 3 (apply in_or_app; right)|do 2 (apply in_or_app; right)]; apply in_or_app; left; exact M.
  - destruct y as [c x]. apply sel_in in Hy. pose proof (in_nonempty (RSamples (if c then 4 else 2)) _ _ Hy) as M.
    exists (RSamples (if c then 4 else 2) (sel c (p_fhist p))). split; [|simpl; auto].
    destruct c; [do 5 (apply in_or_app; right)|do 4 (apply in_or_app; right)]; apply in_or_app; left; exact M.
  - exists (RExemplars (p_ex p)). split; [|simpl; auto].
    do 6 (apply in_or_app; right). exact (in_nonempty _ _ _ Hy).
Qed.

(* the commit of the (only) open appender logs every pending item after a series record of its ref *)
Lemma commit_logged o st open a rolls it :
  Inv st open -> next_open open (ECommit a rolls) <> None ->
  In it (pending_items (get_app st a)) ->
  logged (fst it) (snd it) (wal_records (d_wal (st_db (fst (step o st (ECommit a rolls)))))) = true.
Proof.
  intros I N H.
  assert (Ho : open = None \/ open = Some a).
  { simpl in N. destruct (own open a None) eqn:E; [|congruence]. apply own_spec in E. tauto. }
  simpl. unfold commit. simpl. rewrite wal_records_write by apply (inv_wal _ _ I).
  rewrite (pend_open _ _ _ I Ho) in *.
  destruct (item_in_log _ _ H) as (R & HR & HH). unfold log_records in HR. apply in_app_or in HR.
  destruct HR as [HR|HR].
  { destruct (p_series (pend st open)); simpl in HR; [contradiction|]. destruct HR as [<-|[]]. contradiction. }
  apply in_split in HR. destruct HR as (m1 & m2 & E). apply logged_iff.
  exists (wal_records (d_wal (st_db st)) ++ nonempty RSeries (p_series (pend st open)) ++ m1), R, m2.
  split; [unfold log_records; rewrite E, <- !app_assoc; reflexivity|]. split; auto.
  rewrite !series_refs_app, series_refs_nonempty, !in_app_iff.
  destruct (inv_items _ _ I it H) as [C|C]; auto.
Qed.

(* appender V2: an append that returns no error, or exemplar errors only, has put its sample into the
   pending list *)
Theorem append_v2_accept o d p r b st t v zv kind hbad stale exs d' p' rr err perr :
  append_v2 o d p r b st t v zv kind hbad stale exs = (d', p', (rr, err, perr)) ->
  err = E_OK \/ err = E_PARTIAL -> 0 <= kind <= 4 ->
  In (kind, (rr, t, v)) (pending_items p').
Proof.
  intros H E K.
  destruct (append_v2_cases _ _ _ _ _ _ _ _ _ _ _ _ _ _ _ _ _ _ H)
    as [(_ & _ & _ & [->| ->])|(d1 & p1 & s & p2 & G & X & [(_ & _ & _ & ->)|(-> & _ & F)])];
    try (destruct E as [E|E]; discriminate E).
  apply (ext_mono _ _ _ _ F), pending_push. right. rewrite kind_tag_id by exact K. reflexivity.
Qed.

Theorem append_v1_accept o d p r b t v kind hbad d' p' rr err perr :
  append_v1 o d p r b t v kind hbad = (d', p', (rr, err, perr)) -> err = E_OK -> 0 <= kind <= 4 ->
  In (kind, (rr, t, v)) (pending_items p').
Proof. rewrite (append_v1_v2 _ _ _ _ _ _ _ _ _ 0 []). intros H E. eapply append_v2_accept; eauto. Qed.

(* AppendExemplar (V1): accepted = returned the series ref *)
Theorem exemplar_v1_accept d p r e d' p' rr err perr :
  exemplar_v1 d p r e = (d', p', (rr, err, perr)) -> err = E_OK -> rr <> 0 ->
  In (-1, (rr, snd (fst e), fst (fst e))) (pending_items p').
Proof.
  unfold exemplar_v1. intros H E N.
  destruct (find_id r (d_series d)) as [s|]; [|injection H as <- <- <- <- <-; contradiction].
  destruct (ex_check d (s_ref s) e =? -1); [injection H as <- <- <- <- <-; contradiction|].
  destruct (negb (ex_check d (s_ref s) e =? 0)); injection H as <- <- <- <- <-; [contradiction|].
  apply pending_push_ex. auto.
Qed.

(* pending data of appender a stays pending until a's own commit / rollback (or a restart) *)
Definition ends (a : Z) (e : event) : bool :=
  match e with
  | ECommit a' _ | ERollback a' _ => a' =? a
  | ERestart => true
  | _ => false
  end.

Theorem pending_kept o st e a :
  ends a e = false ->
  incl (pending_items (get_app st a)) (pending_items (get_app (fst (step o st e)) a)).
Proof.
  intros En. destruct (appends e) as [a0|] eqn:Ea.
  - destruct (step_append o st e a0 Ea) as (d' & p' & -> & X). rewrite get_app_set.
    destruct (Z.eqb_spec a a0) as [->|]; [apply (ext_mono _ _ _ _ X)|apply incl_refl].
  - destruct e; try discriminate; cbn [step fst]; try apply incl_refl;
      unfold get_app; cbn [st_apps ends] in *; rewrite lookup_remove_key, Z.eqb_sym, En; apply incl_refl.
Qed.

Lemma min_valid_spec oow last :
  0 <= oow -> int64 oow -> int64 last -> min_valid oow last = Z.max minInt64 (last - oow).
Proof.
  unfold int64, min_valid, minInt64, maxInt64. intros H0 H1 H2.
  rewrite (wrap64_id (_ + oow)) by (unfold int64, minInt64, maxInt64; lia).
  destruct (Z.ltb_spec last (- 9223372036854775808 + oow)); [lia|].
  rewrite wrap64_id by (unfold int64, minInt64, maxInt64; lia). lia.
Qed.

(* the series an append resolves to when the label set is known and no (live) ref is given *)
Lemma goc_existing d p b s :
  0 < b -> find_lab b (d_series d) = Some s -> get_or_create d p 0 b = inl (d, p, s).
Proof.
  intros Hb F. unfold get_or_create. simpl.
  destruct (Z.leb_spec b 0); [lia|]. rewrite F. reflexivity.
Qed.

Lemma goc_by_ref d p r b s :
  r <> 0 -> find_id r (d_series d) = Some s -> get_or_create d p r b = inl (d, p, s).
Proof.
  intros Hr F. unfold get_or_create. apply Z.eqb_neq in Hr. rewrite Hr, F. reflexivity.
Qed.

Theorem append_v1_admission o d p r b t v kind hbad d1 p1 s :
  negb (kind =? 0) && hbad = false ->
  get_or_create d p r b = inl (d1, p1, s) ->
  snd (append_v1 o d p r b t v kind hbad) =
  if t <=? min_valid (o_oow o) (s_last s) then (0, E_OOO, []) else (s_ref s, E_OK, []).
Proof.
  intros H G. unfold append_v1. rewrite H, G. destruct (t <=? min_valid (o_oow o) (s_last s)); reflexivity.
Qed.

Theorem append_v2_admission o d p r b st t v zv kind hbad stale exs d1 p1 s :
  negb (kind =? 0) && hbad = false ->
  get_or_create d p r b = inl (d1, p1, s) ->
  let res := snd (append_v2 o d p r b st t v zv kind hbad stale exs) in
  if t <=? min_valid (o_oow o) (s_last s) then res = (0, E_OOO, [])
  else fst (fst res) = s_ref s /\ (snd (fst res) = E_OK \/ snd (fst res) = E_PARTIAL).
Proof.
  intros H G. unfold append_v2. rewrite H, G.
  destruct (t <=? min_valid (o_oow o) (s_last s)); [reflexivity|].
  destruct stale; [simpl; auto|]. destruct exs as [|e0 exs]; [simpl; auto|].
  destruct (ex_fold _ _ _ _ _) as [[d4 p4] errs]. destruct errs; simpl; auto.
Qed.

Lemma find_id_set_last r r' f l :
  find_id r (set_last r' f l) =
  match find_id r l with
  | Some s => Some (if r =? r' then mkS (s_ref s) (s_lab s) (f (s_last s)) else s)
  | None => None
  end.
Proof.
  induction l as [|a l IH]; simpl; auto.
  destruct (Z.eqb_spec (s_ref a) r') as [E1|E1]; simpl; destruct (Z.eqb_spec (s_ref a) r) as [E2|E2].
  - rewrite <- E2, <- E1, Z.eqb_refl. reflexivity.
  - destruct (find_id r l); auto. destruct (Z.eqb_spec r r'); [congruence|reflexivity].
  - destruct (Z.eqb_spec r r'); [congruence|reflexivity].
  - apply IH.
Qed.

Lemma bump_last : forall xs l r s,
  find_id r l = Some s ->
  exists s', find_id r (bump l xs) = Some s' /\ s_lab s' = s_lab s /\ s_last s <= s_last s' /\
             (forall x, In x xs -> fst (fst x) = r -> snd (fst x) <= s_last s').
Proof.
  unfold bump. induction xs as [|x xs IH]; intros l r s F; simpl.
  - exists s. repeat split; auto; try lia; try (intros x []).
  - pose proof (find_id_set_last r (fst (fst x)) (update_ts (snd (fst x))) l) as E. rewrite F in E.
    destruct (IH _ _ _ E) as [s' [F' [L' [M' A']]]]. exists s'. split; auto.
    assert (U : s_last s <= update_ts (snd (fst x)) (s_last s) /\ snd (fst x) <= update_ts (snd (fst x)) (s_last s)).
    { unfold update_ts. destruct (Z.leb_spec (s_last s) (snd (fst x))); lia. }
    destruct (Z.eqb_spec r (fst (fst x))) as [C|C]; simpl in *.
    + repeat split; auto; try lia. intros y [<-|Hy] Ey; [lia|auto].
    + repeat split; auto. intros y [<-|Hy] Ey; [congruence|auto].
Qed.

(* Commit: the series keeps its label set, lastTs does not decrease and is at least the timestamp of
   every float / histogram / float histogram sample the commit logged for it *)
Theorem commit_last d p rolls r s :
  find_id r (d_series d) = Some s ->
  exists s', find_id r (d_series (commit d p rolls)) = Some s' /\ s_lab s' = s_lab s /\ s_last s <= s_last s' /\
    (forall x, In x (p_samples p ++ map snd (p_hist p) ++ map snd (p_fhist p)) -> fst (fst x) = r ->
               snd (fst x) <= s_last s').
Proof.
  intros F. simpl.
  destruct (bump_last (p_samples p) _ _ _ F) as [s1 [F1 [L1 [M1 A1]]]].
  destruct (bump_last (map snd (p_hist p)) _ _ _ F1) as [s2 [F2 [L2 [M2 A2]]]].
  destruct (bump_last (map snd (p_fhist p)) _ _ _ F2) as [s3 [F3 [L3 [M3 A3]]]].
  exists s3. split; auto. split; [congruence|]. split; [lia|].
  intros x H E. rewrite !in_app_iff in H. destruct H as [H|[H|H]].
  - specialize (A1 x H E). lia.
  - specialize (A2 x H E). lia.
  - auto.
Qed.

Lemma find_id_app r l n s : find_id r l = Some s -> find_id r (l ++ n) = Some s.
Proof. induction l as [|a l IH]; simpl; [discriminate|]. destruct (s_ref a =? r); auto. Qed.

Lemma find_id_filter r (g : list ref) l :
  find_id r (filter (fun s => negb (memz (s_ref s) g)) l) = if memz r g then None else find_id r l.
Proof.
  induction l as [|a l IH]; simpl.
  - destruct (memz r g); auto.
  - destruct (memz (s_ref a) g) eqn:M; simpl; rewrite ?IH;
      destruct (Z.eqb_spec (s_ref a) r) as [<-|]; auto; rewrite M; auto.
Qed.

(* between restarts the lastTs of a series never decreases; a series disappears only through the
   garbage collection of DB.truncate *)
Theorem last_monotone o st e r s :
  e <> ERestart ->
  find_id r (d_series (st_db st)) = Some s ->
  match find_id r (d_series (st_db (fst (step o st e)))) with
  | Some s' => s_lab s' = s_lab s /\ s_last s <= s_last s'
  | None => exists mint zv, e = ETruncate mint zv /\ In r (gc_gone mint (d_series (st_db st)))
  end.
Proof.
  intros NR F.
  assert (G : forall n, match find_id r (d_series (st_db st) ++ n) with
                        | Some s' => s_lab s' = s_lab s /\ s_last s <= s_last s'
                        | None => exists mint zv, e = ETruncate mint zv /\ In r (gc_gone mint (d_series (st_db st))) end).
  { intros n. rewrite (find_id_app _ _ n _ F). split; auto; lia. }
  destruct (appends e) as [a|] eqn:Ea.
  - destruct (step_append o st e a Ea) as (d' & p' & -> & X). destruct (ext_grow _ _ _ _ X) as [n E].
    simpl. rewrite E. apply G.
  - specialize (G []). rewrite app_nil_r in G.
    destruct e; try discriminate Ea; try contradiction; try exact G.
    + destruct (commit_last (st_db st) (get_app st a) rolls r s F) as [s' [F' [L' [M' _]]]].
      simpl in *. rewrite F'. auto.
    + cbn [step fst st_db]. rewrite truncate_series, find_id_filter.
      destruct (memz r (gc_gone mint (d_series (st_db st)))) eqn:M; [|exact G].
      exists mint, zv. split; auto. apply memz_iff. auto.
Qed.

Theorem logged_sequential o es a rolls it :
  wellformed (es ++ [ECommit a rolls]) = true ->
  In it (pending_items (get_app (run o es) a)) ->
  logged (fst it) (snd it)
         (wal_records (d_wal (st_db (run o (es ++ [ECommit a rolls]))))) = true.
Proof.
  intros W H. unfold run in *. rewrite run_from_app, run_from_one.
  destruct (inv_run o es st_empty None (ECommit a rolls) inv_empty W) as [open' [I N]].
  eapply commit_logged; eauto.
Qed.

(* every live series has its series record in the WAL whenever no appender is open *)
Theorem live_series_logged o es e s :
  wellformed (es ++ [e]) = true -> (e = ERestart \/ exists m zv, e = ETruncate m zv) ->
  In s (d_series (st_db (run o es))) ->
  In (s_ref s) (series_refs (wal_records (d_wal (st_db (run o es))))).
Proof.
  intros W He H. unfold run in *.
  destruct (inv_run o es st_empty None e inv_empty W) as [open' [I N]].
  assert (open' = None).
  { destruct open'; auto. destruct He as [He|[m [zv He]]]; subst e; simpl in N; congruence. }
  subst. destruct (inv_series _ _ I (s_ref s)) as [C|[]]; auto. apply in_map. exact H.
Qed.

Theorem no_queries o es which mint maxt :
  query (st_db (run o es)) which mint maxt = E_UNSUPPORTED /\
  step o (run o es) (EQuery which mint maxt) = (run o es, OQuery E_UNSUPPORTED).
Proof. split; reflexivity. Qed.

(* refutations, replayed on the real agent DB by the harness (corpus cases 0 and 2) *)
Definition o0 : opts := mkO 0 false false.

(* appender 1 creates the series, appender 2 appends to it and commits first *)
Definition ex_interleaved : list event :=
  [EAppend 1 1 0 1 0 1000 1 9 0 false false [];
   EAppend 2 1 0 1 0 1001 2 9 0 false false []].

Lemma interleaved_refuted :
  wellformed (ex_interleaved ++ [ECommit 2 []]) = false /\
  In (0, (1, 1001, 2)) (pending_items (get_app (run o0 ex_interleaved) 2)) /\
  logged 0 (1, 1001, 2) (wal_records (d_wal (st_db (run o0 (ex_interleaved ++ [ECommit 2 []]))))) = false /\
  wal_records (d_wal (st_db (run o0 (ex_interleaved ++ [ECommit 2 []; ECommit 1 []])))) =
    [RSamples 0 [(1, 1001, 2)]; RSeries [(1, 1)]; RSamples 0 [(1, 1000, 1)]].
Proof. vm_compute. auto. Qed.

(* a series created by an open appender is garbage collected before the commit; two truncations later its
   series record is gone while its sample (at or after every truncation time) is still in the WAL *)
Definition ex_gc_pending : list event :=
  [EAppend 1 1 0 1 0 5000 1 9 0 false false []; ECommit 1 [];
   EAppend 2 1 0 2 0 5000 1 9 0 false false []; ERoll; ERoll; ETruncate 4000 9; ECommit 2 [];
   ERoll; ERoll; ERoll; ERoll; ETruncate 4500 9].

Lemma gc_pending_refuted :
  wellformed ex_gc_pending = false /\
  let w := wal_records (d_wal (st_db (run o0 ex_gc_pending))) in
  w = [RSeries [(1, 1)]; RSamples 0 [(1, 5000, 1)]; RSamples 0 [(2, 5000, 1)]] /\
  logged 0 (2, 5000, 1) w = false.
Proof. vm_compute. auto. Qed.

(* non-vacuity: a sequential history with an out-of-order rejection, a rollback, a garbage collection, a
   checkpoint and a restart (which re-creates the collected series 2 and 3 from their kept records, lastTs 0) *)
Definition ex_seq : list event :=
  [EAppend 1 1 0 1 0 1000 1 9 0 false false []; EAppend 1 1 0 2 0 1000 2 9 1 false false [];
   EExemplar 1 1 (7, 1000, 0); ECommit 1 [];
   EAppend 2 2 0 1 0 900 3 9 0 false false []; EAppend 2 2 0 1 0 2000 4 9 0 false false [(8, 2000, 0)]; ECommit 2 [1];
   EAppend 3 1 0 3 0 2100 5 9 0 false false []; ERollback 3 [];
   ERoll; ERoll; ETruncate 1500 9; ERestart;
   EAppend 4 1 0 1 0 2500 6 9 0 false false []].

Lemma ex_seq_facts :
  wellformed (ex_seq ++ [ECommit 4 []]) = true /\
  pending_items (get_app (run o0 ex_seq) 4) = [(0, (1, 2500, 6))] /\
  w_cpidx (d_wal (st_db (run o0 ex_seq))) = 1 /\
  map s_last (d_series (st_db (run o0 ex_seq))) = [2000; 0; 0] /\
  logged 0 (1, 2500, 6) (wal_records (d_wal (st_db (run o0 (ex_seq ++ [ECommit 4 []]))))) = true.
Proof. vm_compute. auto. Qed.

Lemma pending_kept_run o a : forall es st,
  forallb (fun e => negb (ends a e)) es = true ->
  incl (pending_items (get_app st a)) (pending_items (get_app (fst (run_from o st es)) a)).
Proof.
  induction es as [|e es IH]; intros st H; [apply incl_refl|].
  simpl in H. apply andb_true_iff in H. destruct H as [H1 H2]. apply negb_true_iff in H1.
  rewrite run_from_cons. eapply incl_tran; [apply pending_kept; exact H1|apply IH; auto].
Qed.

Theorem accepted_logged o es1 a ver r b stt t v zv kind hbad stale exs es2 rolls rr err perr :
  let ap := EAppend a ver r b stt t v zv kind hbad stale exs in
  wellformed (es1 ++ ap :: es2 ++ [ECommit a rolls]) = true ->
  forallb (fun e => negb (ends a e)) es2 = true ->
  0 <= kind <= 4 ->
  snd (step o (run o es1) ap) = OAppend rr err perr ->
  err = E_OK \/ err = E_PARTIAL ->
  logged kind (rr, t, v)
         (wal_records (d_wal (st_db (run o (es1 ++ ap :: es2 ++ [ECommit a rolls]))))) = true.
Proof.
  intros ap W K2 K O E.
  rewrite app_comm_cons, app_assoc in *.
  apply (logged_sequential o (es1 ++ ap :: es2) a rolls (kind, (rr, t, v))); auto.
  unfold run. rewrite run_from_app, run_from_cons.
  apply (pending_kept_run o a es2); auto.
  fold (run o es1). unfold ap in *. simpl in *.
  destruct (ver =? 1); [rewrite (append_v1_v2 _ _ _ _ _ _ _ _ _ zv exs) in *|];
    destruct (append_v2 _ _ _ _ _ _ _ _ _ _ _ _ _) as [[d' p'] [[rr' err'] perr']] eqn:A;
    simpl in *; injection O as -> -> ->; rewrite get_app_set, Z.eqb_refl; eapply append_v2_accept; eauto.
Qed.

(* what the in-memory checkpoint keeps: for every surviving series its series record followed by a float
   sample carrying its last timestamp *)
Theorem inmem_truncate_keeps_last o d mint zv last s :
  o_inmem o = true ->
  plan_last (w_first (d_wal d)) (w_cur (d_wal d)) = Some last ->
  In s (d_series (truncate o d mint zv)) ->
  logged 0 (s_ref s, s_last s, zv) (wal_records (d_wal (truncate o d mint zv))) = true.
Proof.
  intros HO HP HS. rewrite wal_records_truncate, HP.
  destruct (truncate_cp_inmem _ _ mint zv _ HO HP) as (del & dlab & ->).
  apply inmem_checkpoint_logged. exact HS.
Qed.

(* ... and what it does not keep: the samples themselves.  Two committed samples at 5000 and 6000, three
   forced segment rollovers, DB.truncate(4000): both samples are at or after the truncation time and
   neither is in the WAL afterwards (only the stand-in (1, 6000, value 0)) *)
Definition o_im : opts := mkO 0 false true.
Definition ex_inmem : list event :=
  [EAppend 1 1 0 1 0 5000 1 9 0 false false []; ECommit 1 [];
   EAppend 2 1 0 1 0 6000 2 9 0 false false []; ECommit 2 []; ERoll; ERoll; ERoll].

Lemma inmem_refuted :
  wellformed (ex_inmem ++ [ETruncate 4000 9]) = true /\
  wal_records (d_wal (st_db (run o_im ex_inmem))) =
    [RSeries [(1, 1)]; RSamples 0 [(1, 5000, 1)]; RSamples 0 [(1, 6000, 2)]] /\
  wal_records (d_wal (st_db (run o_im (ex_inmem ++ [ETruncate 4000 9])))) =
    [RSeries [(1, 1)]; RSamples 0 [(1, 6000, 9)]].
Proof. vm_compute. auto. Qed.
