(* proof/MergeProofs.v — proofs about model/Merge.v (C19), in this order: the bag heap under a
   total preorder; heaps of positioned lists; chainSampleIterator against the list iterator over
   the merged timestamps (simulation [absr], one step [step_refines]); genericMergeSeriesSet
   (invariant [minv]); the compacting chunk merger (heap invariant [hinv], one Next
   [compact_next_ok]). *)
From Coq Require Import List ZArith Bool Lia Permutation Sorted.
From Verif Require Import lib.Int64 lib.SortedList model.Merge.
Import ListNotations.
Open Scope Z_scope.

Section HeapFacts.
  Context {A : Type} (leb : A -> A -> bool).

  (* [pick] finds an element that is minimal in [all], if h holds one *)
  Lemma pick_ok : forall h k all,
    match pick leb k all h with
    | Some (x, r) => Permutation h (x :: r) /\ is_min leb x all = true
    | None => forall x, In x h -> is_min leb x all = false
    end.
  Proof.
    induction h as [|a h IH]; intros k all; simpl; [intros x []|].
    assert (Hrec : forall k', match pick leb k' all h with
                              | Some (y, r') => Permutation (a :: h) (y :: a :: r') /\ is_min leb y all = true
                              | None => True end).
    { intros k'. specialize (IH k' all). destruct (pick leb k' all h) as [[y r']|]; [|exact I].
      destruct IH as [Hperm Hmin]. split; [|exact Hmin]. rewrite Hperm. apply perm_swap. }
    destruct (is_min leb a all) eqn:Hm.
    - destruct k as [|k']; [split; [reflexivity|exact Hm]|]. specialize (Hrec k').
      destruct (pick leb k' all h) as [[y r']|]; [exact Hrec|split; [reflexivity|exact Hm]].
    - specialize (Hrec k). specialize (IH k all).
      destruct (pick leb k all h) as [[y r']|]; [exact Hrec|]. intros x [<-|Hx]; [exact Hm|apply IH, Hx].
  Qed.

  Definition total_preorder : Prop :=
    (forall x y, leb x y = true \/ leb y x = true) /\
    (forall x y z, leb x y = true -> leb y z = true -> leb x z = true).

  Lemma min_exists : total_preorder -> forall h, h <> [] ->
    exists x, In x h /\ is_min leb x h = true.
  Proof.
    intros [Htot Htr]. induction h as [|a h IH]; intros Hne; [congruence|].
    assert (Haa : leb a a = true) by (destruct (Htot a a); assumption).
    unfold is_min in *. destruct h as [|b h'].
    - exists a. split; [left; reflexivity|]. simpl. rewrite Haa. reflexivity.
    - destruct IH as [x [Hin Hmin]]; [discriminate|]. rewrite forallb_forall in Hmin.
      destruct (leb a x) eqn:Hax.
      + exists a. split; [left; reflexivity|]. apply forallb_forall.
        intros y [<-|Hy]; [exact Haa|]. eapply Htr; [exact Hax|apply Hmin, Hy].
      + exists x. split; [right; exact Hin|]. apply forallb_forall.
        intros y [<-|Hy]; [|apply Hmin, Hy]. destruct (Htot x a) as [H|H]; [exact H|congruence].
  Qed.

  Lemma pop_total : total_preorder -> forall k h, h <> [] ->
    exists x r, pop leb k h = Some (x, r) /\ Permutation h (x :: r) /\
                forall y, In y h -> leb x y = true.
  Proof.
    intros Hpre k h Hne. destruct (min_exists Hpre h Hne) as [m [Hin Hm]].
    unfold pop. pose proof (pick_ok h k h) as Hp. destruct (pick leb k h h) as [[x r]|].
    - exists x, r. destruct Hp as [Hperm Hmin]. split; [reflexivity|].
      split; [exact Hperm|]. apply forallb_forall, Hmin.
    - rewrite (Hp m Hin) in Hm. discriminate.
  Qed.

  Lemma top_cases : total_preorder -> forall h,
    match top leb h with
    | Some y => In y h /\ forall z, In z h -> leb y z = true
    | None => h = []
    end.
  Proof.
    intros Hpre h. unfold top. destruct (find (fun x => is_min leb x h) h) as [y|] eqn:Hf.
    - apply find_some in Hf as [Hin Hm]. split; [exact Hin|]. apply forallb_forall, Hm.
    - destruct h as [|a h']; [reflexivity|]. exfalso.
      destruct (min_exists Hpre (a :: h')) as [m [Hin Hm]]; [discriminate|].
      eapply find_none in Hf; [|exact Hin]. cbv beta in Hf. congruence.
  Qed.
End HeapFacts.

Lemma key_preorder {A} (key : A -> Z) (leb : A -> A -> bool) :
  (forall x y, leb x y = (key x <=? key y)) -> total_preorder leb.
Proof. intros H. split; intros *; rewrite !H, !Z.leb_le; lia. Qed.

(* Every heap of the model holds pairs (current element, those after it) and is filled by
   pushing the non-empty ones of some lists: [push_set] and [push_citer] are [push]. *)
Section Positioned.
  Context {A : Type}.
  Definition whole (x : A * list A) : list A := fst x :: snd x.
  Definition entries (h : list (A * list A)) : list A := flat_map whole h.
  Definition push (l : list A) (h : list (A * list A)) : list (A * list A) :=
    match l with [] => h | x :: r => (x, r) :: h end.

  Lemma entries_push l h : entries (push l h) = l ++ entries h.
  Proof. destruct l; reflexivity. Qed.

  Lemma entries_split cs h :
    Permutation (entries (cs ++ h)) (map fst cs ++ entries h ++ flat_map snd cs).
  Proof.
    unfold entries at 1. rewrite flat_map_app. induction cs as [|c cs IH]; simpl; [rewrite app_nil_r; reflexivity|].
    constructor. rewrite <- app_assoc, IH, !(app_assoc (map fst cs)). apply Permutation_app_swap_app.
  Qed.

  Lemma in_push el l h : In el (push l h) -> whole el = l \/ In el h.
  Proof. destruct l; [auto|]. intros [<-|H]; auto. Qed.

  Lemma entries_perm h h' : Permutation h h' -> Permutation (entries h) (entries h').
  Proof. apply Permutation_flat_map. Qed.

  Lemma push_all {B} (g : B -> list A) : forall ls h,
    let h0 := fold_left (fun h b => push (g b) h) ls h in
    Permutation (entries h0) (flat_map g ls ++ entries h) /\
    forall el, In el h0 -> In el h \/ In (whole el) (map g ls).
  Proof.
    induction ls as [|b ls IH]; intros h; simpl.
    - split; [reflexivity|auto].
    - destruct (IH (push (g b) h)) as [H1 H2]. split.
      + rewrite H1, entries_push, <- app_assoc. apply Permutation_app_swap_app.
      + intros el Hel. destruct (H2 el Hel) as [H|H]; [|auto].
        apply in_push in H as [H|H]; auto.
  Qed.
End Positioned.

Lemma fold_length_concat {A} (ls : list (list A)) :
  fold_right (fun l a => (length l + a)%nat) O ls = length (concat ls).
Proof. induction ls as [|l r IH]; simpl; [reflexivity|]. rewrite app_length, IH. reflexivity. Qed.

Lemma lower_bound (l : list Z) : exists b, forall x, In x l -> b < x.
Proof.
  induction l as [|a l [b Hb]]; [exists 0; intros x []|].
  exists (Z.min b (a - 1)). intros x [<-|Hx]; [lia|]. specialize (Hb x Hx). lia.
Qed.

Lemma sorted_cons_lt b a l : b < a -> StronglySorted Z.lt (a :: l) -> StronglySorted Z.lt (b :: a :: l).
Proof.
  intros Hb Hs. constructor; [exact Hs|]. constructor; [exact Hb|].
  apply StronglySorted_inv in Hs as [_ Hf]. eapply Forall_impl; [|exact Hf]. intros x Hx. simpl in Hx. lia.
Qed.

Definition tle (a b : sample) : Prop := s_t a <= s_t b.
Definition wsorted (l : list sample) : Prop := StronglySorted tle l.

Definition hleb_pre : total_preorder hleb := key_preorder hkey hleb (fun _ _ => eq_refl).

(* what an iterator still has to deliver after its current sample; for a heap: [entries] *)
Definition it_pend (i : it) : list sample := if i_started i then tl (i_rest i) else i_rest i.
Definition pend (curr : it) (h : list hel) : list sample := it_pend curr ++ entries h.
Definition hsorted (h : list hel) : Prop := Forall (fun x => wsorted (whole x)) h.

Record inv (curr : it) (h : list hel) (L : Z) : Prop := mkInv {
  inv_c : wsorted (i_rest curr);
  inv_h : hsorted h;
  inv_ge : forall s, In s (pend curr h) -> L <= s_t s }.

Lemma wsorted_inv a l : wsorted (a :: l) -> wsorted l /\ forall s, In s l -> s_t a <= s_t s.
Proof. intros H. apply StronglySorted_inv in H as [H1 H2]. split; [exact H1|]. apply Forall_forall, H2. Qed.

Lemma wsorted_tl l : wsorted l -> wsorted (tl l).
Proof. destruct l; [auto|]. apply wsorted_inv. Qed.

Lemma entries_ge h b : hsorted h -> (forall z, In z h -> b <= hkey z) ->
  forall s, In s (entries h) -> b <= s_t s.
Proof.
  intros Hs Hb s Hin. apply in_flat_map in Hin as [z [Hz Hsz]].
  specialize (Hb z Hz). apply (Forall_in Hs) in Hz.
  destruct Hsz as [<-|Hsz]; [exact Hb|]. apply wsorted_inv in Hz as [_ Hz]. specialize (Hz s Hsz).
  unfold hkey in Hb. lia.
Qed.

Lemma heap_size_perm h h' : Permutation h h' -> heap_size h = heap_size h'.
Proof. induction 1; simpl in *; lia. Qed.

Lemma it_next_eq i : it_next i = mkIt true (it_pend i).
Proof. destruct i as [[] r]; reflexivity. Qed.

Lemma it_size_pend i s r : it_pend i = s :: r -> it_size i = S (S (length r)).
Proof. destruct i as [[] [|a l]]; cbn; intros E; try discriminate; inversion E; subst; cbn; lia. Qed.

Lemma it_size_next_le i : (it_size (it_next i) <= it_size i)%nat.
Proof.
  unfold it_size, it_next. destruct i as [st rest]; simpl. destruct st; simpl.
  - destruct rest; simpl; lia.
  - lia.
Qed.

Lemma it_cur_some c s : it_cur c = Some s -> exists r, c = mkIt true (s :: r).
Proof.
  destruct c as [[] [|a r]]; cbn; try discriminate. intros H; inversion H; subst. eauto.
Qed.

(* P' keeps every pending sample later than L and invents none *)
Definition P_rel (L : Z) (P P' : list sample) : Prop :=
  (forall x, In x P' -> In x P) /\ (forall x, In x P -> L < s_t x -> In x P').

Lemma P_rel_cons L s P P' : (forall x, In x P <-> In x (s :: P')) -> s_t s <= L -> P_rel L P P'.
Proof.
  intros HP Hs. split; intros x Hx.
  - apply HP. right. exact Hx.
  - intros Hl. apply HP in Hx as [<-|Hx]; [lia|exact Hx].
Qed.

Lemma P_rel_equiv L P P' : (forall x, In x P <-> In x P') -> P_rel L P P'.
Proof. intros H. split; intros x Hx; [|intros _]; apply H, Hx. Qed.

(* R lists, in order, the timestamps above L that occur in P *)
Definition Rep (P : list sample) (L : Z) (R : list Z) : Prop :=
  StronglySorted Z.lt R /\ forall t, In t R <-> L < t /\ In t (map s_t P).

Definition res_spec (all : list sample) (r : res) (e : option Z) : Prop :=
  match r, e with
  | RNone, None => True
  | RSample s, Some t => s_t s = t /\ In s all
  | _, _ => False
  end.

Lemma Rep_rel P P' L R : P_rel L P P' -> Rep P L R -> Rep P' L R.
Proof.
  intros [Hsub Hkeep] [Hs Hm]. split; [exact Hs|]. intros t. rewrite Hm, !in_map_iff.
  split; intros [Hl [x [Ht Hx]]]; (split; [exact Hl|]); exists x; (split; [exact Ht|]).
  - apply Hkeep; [exact Hx|lia].
  - apply Hsub, Hx.
Qed.

Lemma Rep_step P P' L s R : Rep P L R -> In s P -> L < s_t s ->
  (forall x, In x P -> L < s_t x -> s_t s <= s_t x) -> P_rel (s_t s) P P' ->
  exists R', R = s_t s :: R' /\ Rep P' (s_t s) R'.
Proof.
  intros [Hs Hm] Hin Hl Hmin [Hsub Hkeep].
  pose proof (proj2 (Hm (s_t s)) (conj Hl (in_map _ _ _ Hin))) as HsR.
  destruct R as [|a R']; [destruct HsR|].
  apply StronglySorted_inv in Hs as [Hs' Hf]. rewrite Forall_forall in Hf.
  assert (a = s_t s).
  { destruct (proj1 (Hm a) (or_introl eq_refl)) as [Ha Hx]. apply in_map_iff in Hx as [x [<- Hx]].
    destruct HsR as [E|E]; [exact E|]. specialize (Hf _ E). specialize (Hmin x Hx Ha). lia. }
  subst a. exists R'. split; [reflexivity|]. split; [exact Hs'|].
  intros t. rewrite !in_map_iff. split.
  - intros Ht. specialize (Hf t Ht). split; [exact Hf|].
    destruct (proj1 (Hm t) (or_intror Ht)) as [_ Hx]. apply in_map_iff in Hx as [x [Hxt Hx]].
    exists x. split; [exact Hxt|]. apply Hkeep; [exact Hx|lia].
  - intros [Hlt [x [Hxt Hx]]]. destruct (proj2 (Hm t)) as [E|E]; [|lia|exact E].
    split; [lia|]. rewrite <- Hxt. apply in_map, Hsub, Hx.
Qed.

Lemma Rep_empty P L R : Rep P L R -> (forall x, In x P -> s_t x <= L) -> R = [].
Proof.
  intros [_ Hm] Hle. destruct R as [|a R']; [reflexivity|].
  destruct (proj1 (Hm a) (or_introl eq_refl)) as [Ha Hx]. apply in_map_iff in Hx as [x [<- Hx]].
  specialize (Hle x Hx). lia.
Qed.

Inductive absr (all : list sample) : chain -> spst -> Prop :=
| AInit its lst R :
    its <> [] -> Forall (fun i => i_started i = false /\ wsorted (i_rest i)) its ->
    (forall s, In s (flat_map i_rest its) -> minInt64 < s_t s /\ In s all) ->
    Rep (flat_map i_rest its) minInt64 R -> absr all (CInit its) (mkSp false lst R)
| ARun c h L R s :
    inv c h L -> it_cur c = Some s -> s_t s = L -> incl (pend c h) all ->
    In s all -> Rep (pend c h) L R -> absr all (CRun (Some c) h L) (mkSp true L R)
| AEnd L lst : absr all (CRun None [] L) (mkSp false lst []).

(* one call of the chain iterator against one advance of the list iterator *)
Definition refines (all : list sample) (out : chain * res * choices) (sp : spst * option Z) : Prop :=
  let '(c, r, _) := out in let '(st, e) := sp in absr all c st /\ res_spec all r e.

(* In every branch of the loop the pending samples P are one candidate s and the pending samples
   of the next state. s is skipped when it repeats lastT: R stays the list to be delivered ... *)
Lemma skip_ok all P L R c' h' s :
  (forall x, In x P <-> In x (s :: pend c' h')) -> s_t s = L ->
  incl P all -> Rep P L R ->
  incl (pend c' h') all /\ Rep (pend c' h') L R.
Proof.
  intros HP Hs Hall HR. split.
  - intros x Hx. apply Hall, HP. right. exact Hx.
  - apply (Rep_rel P); [|exact HR]. apply (P_rel_cons L s); [exact HP|lia].
Qed.

(* ... and returned when it is new and below everything else that is pending: it is the head of R *)
Lemma emit_refines all P L R st c' h' s ch :
  (forall x, In x P <-> In x (s :: pend c' h')) -> incl P all -> Rep P L R ->
  it_cur c' = Some s -> L < s_t s -> inv c' h' (s_t s) ->
  refines all (CRun (Some c') h' (s_t s), RSample s, ch) (spec_adv st R).
Proof.
  intros HP Hall HR Hc Hl Hi.
  assert (Hin : In s P) by (apply HP; left; reflexivity).
  assert (Hrel : P_rel (s_t s) P (pend c' h')) by (apply (P_rel_cons _ s); [exact HP|lia]).
  destruct (Rep_step P (pend c' h') L s R HR Hin Hl) as [R' [-> HR']]; [|exact Hrel|].
  { intros x Hx _. apply HP in Hx as [<-|Hx]; [lia|apply (inv_ge _ _ _ Hi), Hx]. }
  split; [|split; [reflexivity|apply Hall, Hin]].
  apply (ARun all c' h' (s_t s) R' s); try assumption; [reflexivity| |apply Hall, Hin].
  intros x Hx. apply Hall, (proj1 Hrel), Hx.
Qed.

Lemma end_refines all P L L' R st ch : Rep P L R -> (forall x, In x P -> s_t x <= L) ->
  refines all (CRun None [] L', RNone, ch) (spec_adv st R).
Proof. intros HR Hle. rewrite (Rep_empty P L R HR Hle). split; [constructor|exact I]. Qed.

Lemma popped_ok h x h' : hsorted h -> Permutation h (x :: h') ->
  (forall y, In y h -> hleb x y = true) ->
  inv (to_it x) h' (hkey x) /\ (forall s, In s (entries h) <-> In s (fst x :: pend (to_it x) h')) /\
  heap_size h = (2 + length (snd x) + heap_size h')%nat.
Proof.
  intros Hs Hperm Hmin. pose proof (Permutation_Forall Hperm Hs) as Hs'.
  apply Forall_cons_iff in Hs' as [Hx Hh'].
  split; [|split].
  - constructor; [exact Hx|exact Hh'|]. intros s Hin. apply in_app_or in Hin as [Hin|Hin].
    + apply wsorted_inv in Hx as [_ Hx]. apply Hx, Hin.
    + revert s Hin. apply entries_ge; [exact Hh'|]. intros z Hz. apply Z.leb_le, Hmin.
      apply (Permutation_in _ (Permutation_sym Hperm)). right. exact Hz.
  - intros s. apply entries_perm in Hperm.
    split; apply Permutation_in; [exact Hperm|apply Permutation_sym, Hperm].
  - rewrite (heap_size_perm _ _ Hperm). reflexivity.
Qed.

(* what one round of the loop leaves: the call is answered, or a smaller state from which the
   same R is to be delivered *)
Definition out_ok (all : list sample) (L : Z) (R : list Z) (st : spst) (n : nat) (o : step_out) : Prop :=
  match o with
  | SCont c' h' _ => inv c' h' L /\ (it_size c' + heap_size h' < n)%nat /\
                     incl (pend c' h') all /\ Rep (pend c' h') L R
  | SDone c r ch => refines all (c, r, ch) (spec_adv st R)
  end.

Lemma pop_step_ok all R st n ch h L :
  h <> [] -> hsorted h -> (forall s, In s (entries h) -> L <= s_t s) ->
  incl (entries h) all -> Rep (entries h) L R -> (heap_size h <= n)%nat ->
  out_ok all L R st n (pop_step ch h L).
Proof.
  intros Hne Hs Hge Hall HR Hn. unfold pop_step. destruct (next_choice ch) as [k ch'].
  destruct (pop_total hleb hleb_pre k h Hne) as (x & h' & -> & Hperm & Hmin).
  destruct (popped_ok h x h' Hs Hperm Hmin) as (Hinv & Hmem & Hsz).
  assert (HL : L <= hkey x) by (apply Hge, Hmem; left; reflexivity).
  destruct (Z.eqb_spec (hkey x) L) as [E|E].
  - split; [rewrite <- E; exact Hinv|]. split; [unfold it_size; simpl; lia|].
    apply (skip_ok all (entries h) L R _ _ (fst x)); assumption.
  - apply (emit_refines all (entries h) L); [exact Hmem|exact Hall|exact HR|reflexivity|unfold hkey in *; lia|exact Hinv].
Qed.

Lemma loop_body_ok all R st ch curr h L : inv curr h L ->
  incl (pend curr h) all -> Rep (pend curr h) L R ->
  out_ok all L R st (it_size curr + heap_size h) (loop_body ch curr h L).
Proof.
  intros [Hc Hh Hge] Hall HR. unfold loop_body, pend in *. rewrite it_next_eq.
  assert (Hsp : wsorted (it_pend curr)).
  { unfold it_pend. destruct (i_started curr); [apply wsorted_tl|]; exact Hc. }
  destruct (it_pend curr) as [|s r] eqn:Hp; cbn [it_cur i_started i_rest hd_error].
  - (* the current iterator is exhausted *)
    destruct h as [|x0 h0]; [apply (end_refines all [] L); [exact HR|intros x []]|].
    apply pop_step_ok; [discriminate|exact Hh|exact Hge|exact Hall|exact HR|lia].
  - pose proof (it_size_pend curr s r Hp) as Hsz.
    assert (HL : L <= s_t s) by (apply Hge; left; reflexivity).
    assert (Hinv : forall b, b <= s_t s -> (forall z, In z h -> b <= hkey z) ->
                             inv (mkIt true (s :: r)) h b).
    { intros b Hb Hz. constructor; [exact Hsp|exact Hh|]. intros x Hx.
      apply in_app_or in Hx as [Hx|Hx]; [|revert x Hx; apply entries_ge; assumption].
      apply wsorted_inv in Hsp as [_ Hsp]. specialize (Hsp x Hx). lia. }
    assert (HP : forall x, In x ((s :: r) ++ entries h) <-> In x (s :: pend (mkIt true (s :: r)) h)).
    { reflexivity. }
    destruct (Z.eqb_spec (s_t s) L) as [E|E].
    + (* same timestamp as the last one: skipped *)
      split; [|split; [rewrite Hsz; unfold it_size; simpl; lia|apply (skip_ok all ((s :: r) ++ entries h) L R _ _ s); assumption]].
      apply Hinv; [lia|]. intros z Hz. apply Hge, in_or_app. right.
      apply in_flat_map. exists z. split; [exact Hz|left; reflexivity].
    + assert (Hemit : inv (mkIt true (s :: r)) h (s_t s) ->
                refines all (CRun (Some (mkIt true (s :: r))) h (s_t s), RSample s, ch) (spec_adv st R)).
      { apply (emit_refines all ((s :: r) ++ entries h) L); [exact HP|exact Hall|exact HR|reflexivity|lia]. }
      pose proof (top_cases hleb hleb_pre h) as Htop. destruct (top hleb h) as [y|].
      * destruct Htop as [_ Hymin]. destruct (Z.ltb_spec (s_t s) (hkey y)) as [Hlt|Hlt].
        -- apply Hemit, Hinv; [lia|].
           intros z Hz. specialize (Hymin z Hz). apply Z.leb_le in Hymin. lia.
        -- (* push the current iterator, pop the smallest *)
           apply pop_step_ok; [discriminate|constructor; assumption|exact Hge|exact Hall|exact HR|].
           simpl. lia.
      * subst h. apply Hemit, Hinv; [lia|intros z []].
Qed.

Lemma next_refines all R st : forall fuel ch curr h L,
  inv curr h L -> (it_size curr + heap_size h < fuel)%nat ->
  incl (pend curr h) all -> Rep (pend curr h) L R ->
  refines all (next_loop fuel ch curr h L) (spec_adv st R).
Proof.
  induction fuel as [|f IH]; intros ch curr h L Hinv Hlt Hall HR; [lia|].
  simpl. pose proof (loop_body_ok all R st ch curr h L Hinv Hall HR) as Hb.
  destruct (loop_body ch curr h L) as [c r ch'|c' h' ch']; [exact Hb|].
  destruct Hb as (Hinv' & Hsz & Hall' & HR'). apply IH; [exact Hinv'|lia|exact Hall'|exact HR'].
Qed.

(* [drop_lt] on samples and [drop_ltz] on timestamps: the part of a sorted list from t on *)
Section Drop.
  Context {A : Type} (key : A -> Z) (drop : Z -> list A -> list A) (R : A -> A -> Prop).
  Hypothesis drop_nil : forall t, drop t [] = [].
  Hypothesis drop_cons : forall t a l, drop t (a :: l) = if key a <? t then drop t l else a :: l.
  Hypothesis R_le : forall a b, R a b -> key a <= key b.

  Lemma drop_spec t l : StronglySorted R l ->
    StronglySorted R (drop t l) /\ forall x, In x (drop t l) <-> In x l /\ t <= key x.
  Proof.
    induction l as [|a l IH]; intros Hs.
    - rewrite drop_nil. split; [constructor|]. intros x. simpl. tauto.
    - rewrite drop_cons. pose proof Hs as Hs0. apply StronglySorted_inv in Hs as [Hs' Hf].
      rewrite Forall_forall in Hf. destruct (Z.ltb_spec (key a) t) as [Hlt|Hge].
      + destruct (IH Hs') as [H1 H2]. split; [exact H1|]. intros x. rewrite H2. simpl.
        split; [tauto|]. intros [[<-|Hi] Hx]; [lia|tauto].
      + split; [exact Hs0|]. intros x. split; [|tauto]. intros Hi. split; [exact Hi|].
        destruct Hi as [<-|Hi]; [exact Hge|]. apply Hf, R_le in Hi. lia.
  Qed.
End Drop.

Lemma drop_lt_spec t l : wsorted l ->
  wsorted (drop_lt t l) /\ forall x, In x (drop_lt t l) <-> In x l /\ t <= s_t x.
Proof. apply (drop_spec s_t drop_lt tle); auto. Qed.

Lemma drop_ltz_spec t R : StronglySorted Z.lt R ->
  StronglySorted Z.lt (drop_ltz t R) /\ forall u, In u (drop_ltz t R) <-> In u R /\ t <= u.
Proof. apply (drop_spec (fun u => u) drop_ltz Z.lt); auto. intros a b. apply Z.lt_le_incl. Qed.

Lemma Rep_seek P H L t R : Rep P L R -> (forall x, In x H <-> In x P /\ t <= s_t x) ->
  (forall x, In x H -> L < s_t x) -> Rep H (t - 1) (drop_ltz t R).
Proof.
  intros [Hs Hm] HH Hl. destruct (drop_ltz_spec t R Hs) as [Hd1 Hd2]. split; [exact Hd1|].
  intros u. rewrite Hd2, Hm, !in_map_iff. split.
  - intros [[_ [x [Hxu Hx]]] Htu]. split; [lia|]. exists x. split; [exact Hxu|].
    apply HH. split; [exact Hx|lia].
  - intros [Htu [x [Hxu Hx]]]. pose proof (Hl x Hx). apply HH in Hx as [Hx Hxt].
    split; [split; [lia|eauto]|lia].
Qed.

Lemma push_it_started l h : push_it (mkIt true l) h = push l h.
Proof. destruct l; reflexivity. Qed.

(* the heap built from the iterators [f i] (Next: all of each; Seek t: its part from t on) *)
Lemma push_fold (f : it -> it) (Q : sample -> Prop) : forall its h0,
  Forall (fun i => exists l, f i = mkIt true l /\ wsorted l /\
                             forall x, In x l <-> In x (i_rest i) /\ Q x) its ->
  hsorted h0 ->
  let h := fold_left (fun h i => push_it (f i) h) its h0 in
  hsorted h /\ forall x, In x (entries h) <-> In x (entries h0) \/ (In x (flat_map i_rest its) /\ Q x).
Proof.
  induction its as [|i its IH]; intros h0 Hits Hh0; simpl.
  - split; [exact Hh0|]. intros x. tauto.
  - apply Forall_cons_iff in Hits as [(l & -> & Hl & Hm) Hits]. rewrite push_it_started.
    destruct (IH (push l h0) Hits) as [H1 H2].
    { destruct l; [exact Hh0|constructor; assumption]. }
    split; [exact H1|]. intros x. rewrite H2, entries_push, !in_app_iff, Hm. tauto.
Qed.

(* P: what is pending in c, which from t on is all that its iterators hold *)
Lemma do_seek_refines all ch t c P L R st :
  Forall (fun i => wsorted (i_rest i)) (chain_iters c) ->
  (forall x, t <= s_t x -> (In x (flat_map i_rest (chain_iters c)) <-> In x P)) ->
  (forall x, In x P -> In x all /\ (t <= s_t x -> L < s_t x)) -> Rep P L R ->
  refines all (do_seek ch t c) (spec_adv st (drop_ltz t R)).
Proof.
  intros Hits HP Hall HR. unfold do_seek.
  destruct (push_fold (it_seek t) (fun x => t <= s_t x) (chain_iters c) []) as [Hhs Hhm].
  { eapply Forall_impl; [|exact Hits]. intros i Hi. exists (drop_lt t (i_rest i)).
    split; [reflexivity|]. apply drop_lt_spec, Hi. }
  { constructor. }
  set (h := fold_left _ (chain_iters c) []) in *. clearbody h.
  assert (Hmem : forall x, In x (entries h) <-> In x P /\ t <= s_t x).
  { intros x. rewrite Hhm. simpl. specialize (HP x). tauto. }
  clear Hhm. destruct h as [|x0 h0].
  - apply (end_refines all [] (t - 1)); [|intros x []].
    apply (Rep_seek P _ L); [exact HR|exact Hmem|intros x []].
  - set (h := x0 :: h0) in *. destruct (next_choice ch) as [k ch'].
    destruct (pop_total hleb hleb_pre k h) as (x & h' & -> & Hperm & Hmin); [discriminate|].
    destruct (popped_ok h x h' Hhs Hperm Hmin) as (Hinv & Hpm & _).
    assert (Hxt : t <= s_t (fst x)) by (apply Hmem, Hpm; left; reflexivity).
    apply (emit_refines all (entries h) (t - 1)); [exact Hpm| | |reflexivity|lia|exact Hinv].
    + intros y Hy. apply Hall, Hmem, Hy.
    + apply (Rep_seek P _ L); [exact HR|exact Hmem|]. intros y Hy. apply Hmem in Hy as [Hy Hyt].
      apply Hall; assumption.
Qed.

Lemma flat_map_to_it h : flat_map i_rest (map to_it h) = entries h.
Proof. induction h as [|x h IH]; simpl; [reflexivity|]. rewrite IH. reflexivity. Qed.

Lemma step_refines all ch c st o : absr all c st -> refines all (chain_step ch c o) (spec_step st o).
Proof.
  intros Habs. destruct o as [|t]; simpl chain_step;
    destruct Habs as [its lst R Hne Hits Hall HRep|c0 h L R s Hinv Hcur HsL Hall Hsin HRep|L lst];
    cbn [chain_next chain_seek spec_step sp_rem sp_valid sp_last andb].
  - (* Next from the initial state: the heap is built from all iterators but the first *)
    destruct its as [|i0 its']; [congruence|].
    apply Forall_cons_iff in Hits as [[Hst0 Hs0] Hits'].
    destruct (push_fold it_next (fun _ => True) its' []) as [Hhs Hhm].
    { eapply Forall_impl; [|exact Hits']. intros i [Hst Hi]. exists (i_rest i).
      rewrite it_next_eq. unfold it_pend. rewrite Hst. split; [reflexivity|]. split; [exact Hi|tauto]. }
    { constructor. }
    set (h := fold_left _ its' []) in *.
    assert (Hpe : forall x, In x (flat_map i_rest (i0 :: its')) <-> In x (pend i0 h)).
    { intros x. unfold pend, it_pend. rewrite Hst0. simpl. rewrite !in_app_iff, Hhm. simpl. tauto. }
    apply next_refines.
    + constructor; [exact Hs0|exact Hhs|]. intros s Hs. apply Hpe, Hall in Hs. lia.
    + unfold chain_fuel. lia.
    + intros x Hx. apply Hpe, Hall in Hx. tauto.
    + eapply Rep_rel; [|exact HRep]. apply P_rel_equiv, Hpe.
  - apply next_refines; try assumption. unfold chain_fuel. lia.
  - simpl. split; [constructor|exact I].
  - (* Seek from the initial state *)
    apply (do_seek_refines all ch t _ (flat_map i_rest its) minInt64 R); [| | |exact HRep].
    + eapply Forall_impl; [|exact Hits]. intros i [_ Hi]. exact Hi.
    + reflexivity.
    + intros x Hx. destruct (Hall x Hx). auto.
  - destruct (Z.leb_spec t L) as [Hle|Hgt].
    + (* no-op *)
      destruct (it_cur_some _ _ Hcur) as [r ->]. unfold it_seek. simpl.
      subst L. rewrite Z.ltb_irrefl. simpl. split; [|split; [reflexivity|exact Hsin]].
      eapply ARun; eauto.
    + destruct (it_cur_some _ _ Hcur) as [r ->].
      apply (do_seek_refines all ch t _ (pend (mkIt true (s :: r)) h) L R); [| | |exact HRep].
      * simpl. constructor; [apply (inv_c _ _ _ Hinv)|]. apply Forall_map, (inv_h _ _ _ Hinv).
      * intros x Hx. simpl. rewrite flat_map_to_it. unfold pend. simpl. rewrite !in_app_iff.
        split; [intros [<-|[H|H]]; [lia|auto|auto]|intros [H|H]; auto].
      * intros x Hx. split; [apply Hall, Hx|]. pose proof (inv_ge _ _ _ Hinv x Hx). lia.
  - apply (do_seek_refines all ch t _ [] L []); [constructor|reflexivity|intros x []|].
    split; [constructor|]. intros u. simpl. tauto.
Qed.

Theorem chain_refines all : forall script ch c st, absr all c st ->
  Forall2 (res_spec all) (fst (chain_run ch c script)) (spec_run st script).
Proof.
  induction script as [|o script IH]; intros ch c st Habs; simpl; [constructor|].
  pose proof (step_refines all ch c st o Habs) as Hstep.
  destruct (chain_step ch c o) as [[c' r] ch']. destruct (spec_step st o) as [st' e].
  destruct Hstep as [Habs' Hres]. specialize (IH ch' c' st' Habs').
  destruct (chain_run ch' c' script) as [xs ch'']. simpl in *. constructor; assumption.
Qed.

Lemma ins_spec t l : StronglySorted Z.lt l ->
  StronglySorted Z.lt (ins t l) /\ forall u, In u (ins t l) <-> (u = t \/ In u l).
Proof.
  induction l as [|a l IH]; intros Hs; simpl.
  - split; [repeat constructor|]. intros u. intuition.
  - pose proof Hs as Hs0. apply StronglySorted_inv in Hs as [Hs' Hf].
    destruct (Z.ltb_spec t a) as [H1|H1]; [|destruct (Z.eqb_spec t a) as [H2|H2]].
    + split; [|intros u; simpl; intuition]. constructor; [exact Hs0|]. constructor; [exact H1|].
      eapply Forall_impl; [|exact Hf]. intros x Hx. simpl in Hx. lia.
    + subst. split; [exact Hs0|]. intros u. simpl. intuition.
    + destruct (IH Hs') as [I1 I2]. split; [|intros u; simpl; rewrite I2; intuition].
      constructor; [exact I1|]. rewrite Forall_forall in *. intros x Hx.
      apply I2 in Hx as [->|Hx]; [lia|apply Hf, Hx].
Qed.

Lemma fold_ins_spec ts :
  StronglySorted Z.lt (fold_right ins [] ts) /\ forall u, In u (fold_right ins [] ts) <-> In u ts.
Proof.
  induction ts as [|t ts [I1 I2]]; simpl.
  - split; [constructor|]. intros u. tauto.
  - destruct (ins_spec t _ I1) as [H1 H2]. split; [exact H1|]. intros u. rewrite H2, I2. intuition.
Qed.

Lemma merged_ts_in inputs :
  StronglySorted Z.lt (merged_ts inputs) /\
  forall t, In t (merged_ts inputs) <-> In t (map s_t (concat inputs)).
Proof. apply fold_ins_spec. Qed.

Lemma merged_ts_spec inputs :
  StronglySorted Z.lt (merged_ts inputs) /\
  forall t, In t (merged_ts inputs) <-> exists s, In s (concat inputs) /\ s_t s = t.
Proof.
  destruct (merged_ts_in inputs) as [H1 H2]. split; [exact H1|].
  intros t. rewrite H2, in_map_iff. split; intros [s [A B]]; eauto.
Qed.

Lemma flat_map_it_new inputs : flat_map i_rest (map it_new inputs) = concat inputs.
Proof. induction inputs as [|l inputs IH]; simpl; [reflexivity|]. rewrite IH. reflexivity. Qed.

Definition above_min (l : list sample) : Prop := Forall (fun s => minInt64 < s_t s) l.

Lemma absr_init inputs lst :
  inputs <> [] -> Forall wsorted inputs -> Forall above_min inputs ->
  absr (concat inputs) (chain_of inputs) (mkSp false lst (merged_ts inputs)).
Proof.
  intros Hne Hs Ha. unfold chain_of.
  assert (Habove : forall s, In s (concat inputs) -> minInt64 < s_t s).
  { intros s Hin. apply in_concat in Hin as [l [Hl Hsl]].
    apply (Forall_in Ha) in Hl. apply (Forall_in Hl), Hsl. }
  destruct (merged_ts_in inputs) as [H1 H2].
  constructor; rewrite ?flat_map_it_new.
  - destruct inputs; [congruence|discriminate].
  - apply Forall_map. eapply Forall_impl; [|exact Hs]. simpl. auto.
  - auto.
  - split; [exact H1|]. intros t. rewrite H2, in_map_iff. split; [|tauto].
    intros [s [<- Hin]]. split; [apply Habove, Hin|eauto].
Qed.

(* Main theorem about chainSampleIterator: for every tie-breaking behaviour of the heap and
   every Next/Seek script the iterator behaves as the list iterator over the sorted,
   de-duplicated union of the inputs' timestamps, and every sample it shows is an input sample. *)
Theorem chain_script_correct ch inputs script :
  inputs <> [] -> Forall wsorted inputs -> Forall above_min inputs ->
  Forall2 (res_spec (concat inputs)) (fst (chain_run ch (chain_of inputs) script))
          (spec_obs (merged_ts inputs) script).
Proof. intros Hne Hs Ha. apply chain_refines, absr_init; assumption. Qed.

(* the MinInt64 sentinel: a sample at MinInt64 is never returned by Next *)
Definition minint_inputs : list (list sample) := [[mkS minInt64 1 1; mkS 0 1 2]; [mkS 5 1 3]].

Lemma minint64_refuted :
  exists ch inputs script,
    inputs <> [] /\ Forall wsorted inputs /\
    ~ Forall2 (res_spec (concat inputs)) (fst (chain_run ch (chain_of inputs) script))
              (spec_obs (merged_ts inputs) script).
Proof.
  exists [], minint_inputs, [ONext]. split; [discriminate|]. split.
  - unfold minint_inputs, wsorted, tle. repeat constructor; simpl; unfold minInt64; lia.
  - vm_compute. intros H. inversion H as [|? ? ? ? Hr _]; subst. destruct Hr as [Hr _]. discriminate Hr.
Qed.

Example nonvacuous_inputs : list (list sample) :=
  [[mkS 1 1 0; mkS 2 2 1; mkS 9 1 1]; [mkS 1 2 5; mkS 2 3 2]; [mkS 2 1 4; mkS 7 1 0]].

Lemma nonvacuous_chain :
  nonvacuous_inputs <> [] /\ Forall wsorted nonvacuous_inputs /\ Forall above_min nonvacuous_inputs /\
  merged_ts nonvacuous_inputs = [1; 2; 7; 9] /\
  map (fun r => match r with RSample s => Some (s_t s) | _ => None end)
      (fst (chain_run [1%nat; 0%nat; 2%nat] (chain_of nonvacuous_inputs)
                      [ONext; OSeek 2; OSeek 1; ONext; OSeek 8; ONext; ONext]))
  = [Some 1; Some 2; Some 2; Some 7; Some 9; None; None].
Proof.
  split; [discriminate|]. split; [|split; [|split; vm_compute; reflexivity]].
  - unfold nonvacuous_inputs, wsorted, tle. repeat constructor; simpl; lia.
  - unfold nonvacuous_inputs, above_min, minInt64. repeat constructor; simpl; lia.
Qed.

Lemma drain_ok all : forall fuel ch c v lst R,
  absr all c (mkSp v lst R) -> (length R < fuel)%nat ->
  exists l ch', chain_drain fuel ch c = (Some l, ch') /\ map s_t l = R /\ forall s, In s l -> In s all.
Proof.
  induction fuel as [|f IH]; intros ch c v lst R Habs Hlen; [lia|].
  simpl. pose proof (step_refines all ch c _ ONext Habs) as Hstep.
  cbn [chain_step spec_step sp_rem] in Hstep.
  destruct (chain_next ch c) as [[c' r] ch']. destruct R as [|a R']; simpl in Hstep.
  - destruct Hstep as [_ Hres]. destruct r; try contradiction.
    exists [], ch'. split; [reflexivity|]. split; [reflexivity|]. intros s [].
  - destruct Hstep as [Habs' Hres]. destruct r; try contradiction. destruct Hres as [Hst Hin].
    destruct (IH ch' c' _ _ _ Habs' ltac:(simpl in Hlen; lia)) as [l [ch'' [Hd [Hm Hall]]]].
    rewrite Hd. exists (s :: l), ch''. split; [reflexivity|]. split; [simpl; congruence|].
    intros x [<-|Hx]; [exact Hin|apply Hall, Hx].
Qed.

Lemma ins_length t l : (length (ins t l) <= S (length l))%nat.
Proof.
  induction l as [|a l IH]; simpl; [lia|].
  destruct (t <? a); simpl; [lia|]. destruct (t =? a); simpl; lia.
Qed.

Lemma merged_ts_length inputs : (length (merged_ts inputs) <= length (concat inputs))%nat.
Proof.
  unfold merged_ts. rewrite <- (map_length s_t). induction (map s_t (concat inputs)) as [|t ts IH]; simpl; [lia|].
  pose proof (ins_length t (fold_right ins [] ts)). lia.
Qed.

Lemma total_len_concat inputs : total_len inputs = length (concat inputs).
Proof. apply fold_length_concat. Qed.

(* ChainedSeriesMerge drained with Next: exactly the sorted de-duplicated union of the
   timestamps, each sample taken from an input *)
Theorem chain_all_correct ch inputs :
  inputs <> [] -> Forall wsorted inputs -> Forall above_min inputs ->
  exists l ch', chain_all ch inputs = (Some l, ch') /\ map s_t l = merged_ts inputs /\
                forall s, In s l -> In s (concat inputs).
Proof.
  intros Hne Hs Ha. unfold chain_all. eapply drain_ok; [apply (absr_init inputs 0); assumption|].
  pose proof (merged_ts_length inputs). rewrite total_len_concat. lia.
Qed.

Definition skey (x : sel) : Z := ser_l (fst x).
Definition sleb_pre : total_preorder sleb := key_preorder skey sleb (fun _ _ => eq_refl).

Definition lsorted (l : list series) : Prop := StronglySorted (fun a b => ser_l a < ser_l b) l.
(* the series not yet handed out: those of the heap and those behind the current ones *)
Definition rem_of (h cur : list sel) : list series := entries h ++ flat_map (@snd _ _) cur.

Lemma pop_equal_ok : forall fuel ch l h acc,
  (length h <= fuel)%nat -> (forall x, In x h -> l <= skey x) ->
  exists cs h2 ch', pop_equal fuel ch l h acc = (Some (acc ++ cs, h2), ch') /\
    Permutation h (cs ++ h2) /\ (forall x, In x cs -> skey x = l) /\ (forall x, In x h2 -> l < skey x).
Proof.
  induction fuel as [|f IH]; intros ch l h acc Hlen Hge.
  - destruct h; [|simpl in Hlen; lia]. exists [], [], ch. rewrite app_nil_r.
    split; [reflexivity|]. split; [constructor|]. split; intros x [].
  - simpl. pose proof (top_cases sleb sleb_pre h) as Htop. destruct (top sleb h) as [y|].
    + destruct Htop as [Hyin Hymin]. destruct (Z.eqb_spec (ser_l (fst y)) l) as [Hyl|Hyl].
      * destruct (next_choice ch) as [k ch1].
        destruct (pop_total sleb sleb_pre k h) as (x & h' & -> & Hperm & Hmin); [intros ->; destruct Hyin|].
        assert (Hxin : In x h) by (apply (Permutation_in _ (Permutation_sym Hperm)); left; reflexivity).
        assert (Hxl : skey x = l).
        { specialize (Hmin y Hyin). apply Z.leb_le in Hmin. specialize (Hge x Hxin). unfold skey in *. lia. }
        destruct (IH ch1 l h' (acc ++ [x])) as (cs & h2 & ch' & He & Hp2 & Hc & Hh).
        { apply Permutation_length in Hperm. simpl in Hperm. lia. }
        { intros z Hz. apply Hge, (Permutation_in _ (Permutation_sym Hperm)). right. exact Hz. }
        exists (x :: cs), h2, ch'. rewrite He, <- app_assoc.
        split; [reflexivity|]. split; [rewrite Hperm, Hp2; reflexivity|]. split; [|exact Hh].
        intros z [<-|Hz]; [exact Hxl|apply Hc, Hz].
      * exists [], h, ch. rewrite app_nil_r. split; [reflexivity|]. split; [reflexivity|].
        split; [intros x []|]. intros x Hx. specialize (Hymin x Hx). apply Z.leb_le in Hymin.
        specialize (Hge y Hyin). unfold skey in *. lia.
    + subst h. exists [], [], ch. rewrite app_nil_r.
      split; [reflexivity|]. split; [constructor|]. split; intros x [].
Qed.

(* every positioned set is label-sorted; the labels in the heap are above b, the current ones
   (the group just handed out) are at least b *)
Record minv (b : Z) (h cur : list sel) : Prop := mkMinv {
  mi_hs : forall x, In x h -> lsorted (whole x) /\ b < skey x;
  mi_cs : forall x, In x cur -> lsorted (whole x) /\ b <= skey x }.

Lemma push_tails_ok b : forall cur h, minv b h cur ->
  let h1 := fold_left (fun h x => push_set (snd x) h) cur h in
  (forall x, In x h1 -> lsorted (whole x) /\ b < skey x) /\ Permutation (entries h1) (rem_of h cur).
Proof.
  intros cur h [Hh Hc].
  destruct (push_all (@snd series _) cur h) as [Hperm Hin]. split.
  - intros x Hx. destruct (Hin x Hx) as [H|H]; [apply Hh, H|].
    apply in_map_iff in H as (c & Hcx & Hcin). destruct (Hc c Hcin) as [Hcs Hcb].
    apply StronglySorted_inv in Hcs as [Hs Hf]. rewrite Hcx in Hs, Hf. split; [exact Hs|].
    apply Forall_inv in Hf. unfold skey in *. lia.
  - unfold rem_of. rewrite Hperm. apply Permutation_app_comm.
Qed.

Definition group_ok (b : Z) (g : list series) : Prop :=
  exists l, b < l /\ g <> [] /\ forall s, In s g -> ser_l s = l.
Definition group_label (g : list series) : Z := match g with s :: _ => ser_l s | [] => 0 end.

(* the labels of the groups come out increasing, all above b *)
Lemma mset_loop_ok : forall fuel ch b merged h cur,
  minv b h cur -> (length (rem_of h cur) < fuel)%nat ->
  exists groups ch', mset_loop fuel ch 0 merged h cur = (Some groups, ch') /\
    Permutation (concat groups) (rem_of h cur) /\
    Forall (fun g => g <> [] /\ forall s, In s g -> ser_l s = group_label g) groups /\
    StronglySorted Z.lt (b :: map group_label groups).
Proof.
  induction fuel as [|f IH]; intros ch b merged h cur Hinv Hlen; [lia|].
  simpl mset_loop. unfold mset_next.
  destruct (push_tails_ok b cur h Hinv) as [Hh1 Hperm1].
  set (h1 := fold_left (fun h x => push_set (snd x) h) cur h) in *.
  pose proof (top_cases sleb sleb_pre h1) as Htop. destruct (top sleb h1) as [y|].
  - destruct Htop as [Hyin Hymin].
    destruct (pop_equal_ok (length h1) ch (ser_l (fst y)) h1 [] (le_n _)) as (cs & h2 & ch1 & He & Hp & Hcl & Hhl).
    { intros x Hx. apply Z.leb_le, Hymin, Hx. }
    rewrite He. simpl app. set (l := ser_l (fst y)) in *.
    assert (Hbl : b < l) by (apply (Hh1 y Hyin)).
    assert (Hsub : forall x, In x (cs ++ h2) -> lsorted (whole x)).
    { intros x Hx. apply Hh1, (Permutation_in _ (Permutation_sym Hp)), Hx. }
    destruct cs as [|c cs'].
    { exfalso. specialize (Hhl y (Permutation_in _ Hp Hyin)). unfold skey, l in Hhl. lia. }
    set (cs := c :: cs') in *.
    assert (Hinv2 : minv l h2 cs).
    { constructor; intros x Hx; (split; [apply Hsub, in_or_app; auto|]);
        [apply Hhl, Hx|rewrite (Hcl x Hx); lia]. }
    assert (Hrem : Permutation (rem_of h cur) (map (@fst _ _) cs ++ rem_of h2 cs)).
    { rewrite <- Hperm1, (entries_perm h1 _ Hp). apply entries_split. }
    destruct (IH ch1 l (merged + 1) h2 cs Hinv2) as (gs & ch2 & Hg & Hpg & Hfg & Hsg).
    { apply Permutation_length in Hrem. rewrite app_length in Hrem. simpl in Hrem. lia. }
    rewrite Hg. exists (map (@fst _ _) cs :: gs), ch2.
    assert (Hgl : group_label (map (@fst _ _) cs) = l) by (apply (Hcl c); left; reflexivity).
    split; [reflexivity|]. split; [|split].
    + simpl. rewrite Hpg. symmetry. exact Hrem.
    + constructor; [|exact Hfg]. split; [discriminate|].
      intros s Hs. rewrite Hgl. apply in_map_iff in Hs as [x [<- Hx]]. apply (Hcl x Hx).
    + cbn [map]. rewrite Hgl. apply sorted_cons_lt; assumption.
  - exists [], ch. split; [reflexivity|]. split; [|split; repeat constructor].
    rewrite Htop in Hperm1. apply Permutation_nil in Hperm1. rewrite Hperm1. constructor.
Qed.

Lemma total_series_concat sets : total_series sets = length (concat sets).
Proof. apply fold_length_concat. Qed.

Lemma mset_general ch sets : Forall lsorted sets ->
  exists groups ch',
    mset_loop (S (total_series sets)) ch 0 0 (fold_left (fun h s => push_set s h) sets []) [] = (Some groups, ch') /\
    Permutation (concat groups) (concat sets) /\
    Forall (fun g => g <> [] /\ forall s, In s g -> ser_l s = group_label g) groups /\
    StronglySorted Z.lt (map group_label groups).
Proof.
  intros Hs. destruct (push_all (fun s : list series => s) sets []) as [Hperm Hin].
  simpl in Hperm. rewrite app_nil_r, flat_map_concat_map, map_id in Hperm. rewrite map_id in Hin.
  set (h0 := fold_left _ sets []) in *.
  destruct (lower_bound (map skey h0)) as [b Hb].
  assert (Hinv : minv b h0 []).
  { constructor; [|intros x []]. intros x Hx. split; [|apply Hb, in_map, Hx].
    destruct (Hin x Hx) as [[]|H]. apply (Forall_in Hs), H. }
  assert (Hrem : Permutation (rem_of h0 []) (concat sets)).
  { unfold rem_of. simpl. rewrite app_nil_r. exact Hperm. }
  destruct (mset_loop_ok (S (total_series sets)) ch b 0 h0 [] Hinv) as (gs & ch' & Hg & Hp & Hf & Hso).
  { rewrite (Permutation_length Hrem), total_series_concat. lia. }
  exists gs, ch'. split; [exact Hg|]. split; [rewrite Hp; exact Hrem|]. split; [exact Hf|].
  apply StronglySorted_inv in Hso. tauto.
Qed.

Lemma concat_singletons {A} (s : list A) : concat (map (fun x => [x]) s) = s.
Proof. induction s as [|a s IH]; simpl; [reflexivity|]. rewrite IH. reflexivity. Qed.

(* NewMergeSeriesSet over strictly label-sorted sets (limit 0), iterated to the end, for every
   tie-breaking: the emitted groups partition the input series (nothing lost, nothing
   duplicated), every group is non-empty and of one label set, and the labels come out strictly
   increasing — i.e. each distinct label set exactly once, in sorted order, merged from exactly
   the input series that carry it. *)
Theorem merge_sets_correct ch sets : Forall lsorted sets ->
  exists groups ch', merge_sets ch 0 sets = (Some groups, ch') /\
    Permutation (concat groups) (concat sets) /\
    Forall (fun g => g <> [] /\ forall s, In s g -> ser_l s = group_label g) groups /\
    StronglySorted Z.lt (map group_label groups).
Proof.
  intros Hs. destruct sets as [|s1 [|s2 rest]]; [apply (mset_general ch [] Hs)| |apply (mset_general ch _ Hs)].
  exists (map (fun x => [x]) s1), ch. unfold merge_sets. split; [reflexivity|].
  split; [rewrite concat_singletons; simpl; rewrite app_nil_r; reflexivity|]. split.
  - apply Forall_map, Forall_forall. intros x _. split; [discriminate|]. intros s [<-|[]]. reflexivity.
  - rewrite map_map. apply Forall_inv in Hs. revert Hs. apply StronglySorted_map. auto.
Qed.

Definition ssorted (l : list sample) : Prop := StronglySorted (fun a b => s_t a < s_t b) l.

Lemma ssorted_wsorted l : ssorted l -> wsorted l.
Proof.
  induction 1 as [|a l Hs IH Hf]; constructor; [exact IH|].
  eapply Forall_impl; [|exact Hf]. unfold tle. intros x Hx. simpl in Hx. lia.
Qed.

Lemma ssorted_ts l : ssorted l <-> StronglySorted Z.lt (map s_t l).
Proof.
  split; [apply StronglySorted_map; auto|].
  induction l as [|a l IH]; simpl; intros H; [constructor|].
  apply StronglySorted_inv in H as [Hs Hf]. constructor; [apply IH, Hs|apply Forall_map, Hf].
Qed.

Lemma merged_ts_unique inputs R : StronglySorted Z.lt R ->
  (forall t, In t R <-> In t (map s_t (concat inputs))) -> R = merged_ts inputs.
Proof.
  intros Hs Hm. destruct (merged_ts_in inputs) as [H1 H2].
  apply (StronglySorted_same Z.lt); [lia|exact Hs|exact H1|]. intros t. rewrite Hm, H2. reflexivity.
Qed.

Lemma merged_ts_single l : ssorted l -> merged_ts [l] = map s_t l.
Proof.
  intros Hs. symmetry. apply merged_ts_unique; [apply ssorted_ts, Hs|].
  simpl. rewrite app_nil_r. reflexivity.
Qed.

Lemma drop_lt_map t l : map s_t (drop_lt t l) = drop_ltz t (map s_t l).
Proof. induction l as [|s r IH]; simpl; [reflexivity|]. destruct (s_t s <? t); [exact IH|reflexivity]. Qed.

Lemma drop_lt_in t l x : In x (drop_lt t l) -> In x l.
Proof.
  induction l as [|s r IH]; simpl; [auto|]. destruct (s_t s <? t); [intros H; right; apply IH, H|auto].
Qed.

Inductive itabs (all : list sample) : it -> spst -> Prop :=
| IA_new l lst : incl l all -> itabs all (mkIt false l) (mkSp false lst (map s_t l))
| IA_at s r : incl (s :: r) all -> itabs all (mkIt true (s :: r)) (mkSp true (s_t s) (map s_t r))
| IA_end lst : itabs all (mkIt true []) (mkSp false lst []).

Definition it_res (i : it) : res := match it_cur i with Some s => RSample s | None => RNone end.

Lemma itabs_of_rest all l st : incl l all ->
  match spec_adv st (map s_t l) with
  | (st', e) => itabs all (mkIt true l) st' /\ res_spec all (it_res (mkIt true l)) e
  end.
Proof.
  intros Hall. destruct l as [|s r]; simpl.
  - split; [constructor|exact I].
  - split; [constructor; exact Hall|]. split; [reflexivity|apply Hall; left; reflexivity].
Qed.

Lemma it_step_refines all i st o : itabs all i st ->
  let i' := match o with ONext => it_next i | OSeek t => it_seek t i end in
  match spec_step st o with
  | (st', e) => itabs all i' st' /\ res_spec all (it_res i') e
  end.
Proof.
  intros Habs. destruct o as [|t]; destruct Habs as [l lst Hall|s r Hall|lst];
    cbn [spec_step sp_rem sp_valid sp_last andb it_next it_seek i_started i_rest tl drop_lt].
  - apply itabs_of_rest, Hall.
  - apply itabs_of_rest. intros x Hx. apply Hall. right. exact Hx.
  - split; [constructor|exact I].
  - rewrite <- drop_lt_map. apply itabs_of_rest. intros x Hx. apply Hall, (drop_lt_in t l x Hx).
  - rewrite Z.leb_antisym. unfold it_seek. cbn [i_rest drop_lt]. destruct (s_t s <? t); cbn [negb].
    + rewrite <- drop_lt_map. apply itabs_of_rest. intros x Hx. apply Hall. right. apply (drop_lt_in t r x Hx).
    + split; [constructor; exact Hall|]. split; [reflexivity|apply Hall; left; reflexivity].
  - split; [constructor|exact I].
Qed.

Lemma it_run_refines all : forall script i st, itabs all i st ->
  Forall2 (res_spec all) (it_run i script) (spec_run st script).
Proof.
  induction script as [|o script IH]; intros i st Habs; simpl; [constructor|].
  pose proof (it_step_refines all i st o Habs) as Hstep.
  destruct (spec_step st o) as [st' e]. destruct Hstep as [Habs' Hres].
  constructor; [exact Hres|]. apply IH, Habs'.
Qed.

Theorem it_run_correct l script : ssorted l ->
  Forall2 (res_spec l) (it_run (it_new l) script) (spec_obs (merged_ts [l]) script).
Proof.
  intros Hs. rewrite (merged_ts_single l Hs). apply it_run_refines. constructor. apply incl_refl.
Qed.

(* what NewMergeSeriesSet returns for one group of same-label series, under a script *)
Theorem group_run_correct ch g script :
  g <> [] -> Forall (fun x => ssorted (ser_s x)) g -> Forall (fun x => above_min (ser_s x)) g ->
  Forall2 (res_spec (concat (map ser_s g))) (group_run ch g script)
          (spec_obs (merged_ts (map ser_s g)) script).
Proof.
  intros Hne Hs Ha. unfold group_run.
  assert (Hchain : Forall2 (res_spec (concat (map ser_s g)))
                     (fst (chain_run ch (chain_of (map ser_s g)) script))
                     (spec_obs (merged_ts (map ser_s g)) script)).
  { apply chain_script_correct.
    - destruct g; [congruence|discriminate].
    - apply Forall_map. eapply Forall_impl; [|exact Hs]. intros x. apply ssorted_wsorted.
    - apply Forall_map, Ha. }
  destruct g as [|x [|y g']]; [congruence| |exact Hchain].
  simpl map. simpl concat. rewrite app_nil_r. apply it_run_correct. apply Forall_inv in Hs. exact Hs.
Qed.

Lemma ssorted_app a b : ssorted (a ++ b) <->
  ssorted a /\ ssorted b /\ forall x y, In x a -> In y b -> s_t x < s_t y.
Proof. apply StronglySorted_app. Qed.

Record cb (c : chunk) : Prop := mkCb {
  cb_ne : c_smp c <> [];
  cb_sorted : ssorted (c_smp c);
  cb_bounds : forall x, In x (c_smp c) -> c_min c <= s_t x <= c_max c;
  cb_min : exists x, In x (c_smp c) /\ s_t x = c_min c;
  cb_max : exists x, In x (c_smp c) /\ s_t x = c_max c }.

Definition cdisj (l : list chunk) : Prop := StronglySorted (fun a b => c_max a < c_min b) l.
Definition iter_ok (l : list chunk) : Prop := Forall cb l /\ cdisj l.
Definition smps (l : list chunk) : list sample := concat (map c_smp l).

Lemma in_smps x l : In x (smps l) <-> exists c, In c l /\ In x (c_smp c).
Proof. unfold smps. rewrite <- flat_map_concat_map. apply in_flat_map. Qed.

Lemma smps_app a b : smps (a ++ b) = smps a ++ smps b.
Proof. unfold smps. rewrite map_app, concat_app. reflexivity. Qed.

Lemma smps_cons c l : smps (c :: l) = c_smp c ++ smps l.
Proof. reflexivity. Qed.

Lemma smps_perm l l' : Permutation l l' -> Permutation (smps l) (smps l').
Proof. unfold smps. rewrite <- !flat_map_concat_map. apply Permutation_flat_map. Qed.

Lemma cb_le c : cb c -> c_min c <= c_max c.
Proof. intros H. destruct (cb_min c H) as [x [Hx Hm]]. pose proof (cb_bounds c H x Hx). lia. Qed.

Lemma cb_nonempty c : cb c -> (0 < length (c_smp c))%nat.
Proof. intros H. pose proof (cb_ne c H). destruct (c_smp c); [congruence|simpl; lia]. Qed.

Lemma iter_ok_inv c r : iter_ok (c :: r) ->
  cb c /\ iter_ok r /\ forall b, In b r -> c_max c < c_min b.
Proof.
  intros [Hf Hd]. apply Forall_cons_iff in Hf as [Hc Hf]. apply StronglySorted_inv in Hd as [Hd Hg].
  split; [exact Hc|]. split; [split; assumption|apply Forall_forall, Hg].
Qed.

(* the chunk seriesToChunkEncoder has open: its samples start at first and end at lasts *)
Lemma cb_open first lasts cur :
  (exists c', cur = first :: c') -> (exists pre, cur = pre ++ [lasts]) -> ssorted cur ->
  cb (mkC (s_t first) (s_t lasts) cur).
Proof.
  intros [c' Hc] [pre Hp] Hs. constructor; simpl.
  - subst cur. discriminate.
  - exact Hs.
  - intros x Hx. split.
    + rewrite Hc in Hs, Hx. apply StronglySorted_inv in Hs as [_ Hf]. rewrite Forall_forall in Hf.
      destruct Hx as [<-|Hx]; [lia|]. specialize (Hf x Hx). lia.
    + rewrite Hp in Hs, Hx. apply ssorted_app in Hs as (_ & _ & H3).
      apply in_app_or in Hx as [Hx|[<-|[]]]; [|lia]. specialize (H3 x lasts Hx (or_introl eq_refl)). lia.
  - exists first. split; [rewrite Hc; left; reflexivity|reflexivity].
  - exists lasts. split; [rewrite Hp; apply in_or_app; right; left; reflexivity|reflexivity].
Qed.

Lemma encode_go_ok : forall l first lasts cur i,
  (exists c', cur = first :: c') -> (exists pre, cur = pre ++ [lasts]) -> ssorted (cur ++ l) ->
  smps (encode_go l first lasts cur i) = cur ++ l /\ iter_ok (encode_go l first lasts cur i) /\
  encode_go l first lasts cur i <> [].
Proof.
  induction l as [|s r IH]; intros first lasts cur i Hf Hl Hs; cbn [encode_go].
  - rewrite app_nil_r in *. unfold smps, iter_ok, cdisj. simpl. rewrite app_nil_r.
    split; [reflexivity|]. split; [|discriminate]. split; [|repeat constructor].
    constructor; [|constructor]. apply cb_open; assumption.
  - destruct (negb (s_k s =? s_k lasts) || (enc_split <=? i)%nat); cbv iota.
    + destruct (proj1 (ssorted_app _ _) Hs) as (Hs1 & Hs2 & Hs3).
      destruct (IH s s [s] 1%nat) as (H1 & [H2 H3] & H4); [exists []; reflexivity..|exact Hs2|].
      split; [rewrite smps_cons, H1; reflexivity|]. split; [|discriminate].
      split; [constructor; [apply cb_open; assumption|exact H2]|].
      constructor; [exact H3|]. rewrite Forall_forall in *. intros b Hb. simpl.
      destruct (cb_min b (H2 b Hb)) as [y [Hy <-]].
      destruct Hl as [pre ->]. apply Hs3; [apply in_or_app; right; left; reflexivity|].
      change (s :: r) with ([s] ++ r). rewrite <- H1. apply in_smps. eauto.
    + rewrite (app_assoc cur [s] r : cur ++ s :: r = (cur ++ [s]) ++ r). apply IH.
      * destruct Hf as [c' ->]. exists (c' ++ [s]). reflexivity.
      * exists cur. reflexivity.
      * rewrite <- app_assoc. exact Hs.
Qed.

Lemma encode_chunks_ok ms : ssorted ms -> ms <> [] ->
  exists c cs, encode_chunks ms = c :: cs /\ smps (c :: cs) = ms /\ iter_ok (c :: cs).
Proof.
  intros Hs Hne. destruct ms as [|s r]; [congruence|]. unfold encode_chunks.
  destruct (encode_go_ok r s s [s] 1%nat) as (H1 & H2 & H3); [exists []; reflexivity..|exact Hs|].
  destruct (encode_go r s s [s] 1) as [|c cs]; [congruence|]. exists c, cs. auto.
Qed.

Lemma cleb_spec x y : cleb x y = true <->
  c_min (fst x) < c_min (fst y) \/ (c_min (fst x) = c_min (fst y) /\ c_max (fst x) <= c_max (fst y)).
Proof.
  unfold cleb. destruct (Z.eqb_spec (c_min (fst x)) (c_min (fst y))); rewrite ?Z.leb_le, ?Z.ltb_lt; lia.
Qed.

Lemma cleb_pre : total_preorder cleb.
Proof. split; intros *; rewrite !cleb_spec; intros; lia. Qed.

Definition hsmp (h : list cel) : list sample := smps (entries h).
(* every iterator in the heap is well-formed and starts above B *)
Definition hinv (B : Z) (h : list cel) : Prop :=
  Forall (fun el => iter_ok (whole el) /\ B < c_min (fst el)) h.

Lemma hsmp_push rest h : hsmp (push_citer rest h) = smps rest ++ hsmp h.
Proof. unfold hsmp. change (push_citer rest h) with (push rest h). rewrite entries_push. apply smps_app. Qed.

Lemma hinv_push B rest h :
  hinv B h -> iter_ok rest -> (forall b, In b rest -> B < c_min b) -> hinv B (push_citer rest h).
Proof.
  intros Hh Hr Hb. destruct rest as [|c r]; [exact Hh|]. constructor; [|exact Hh].
  split; [exact Hr|apply Hb; left; reflexivity].
Qed.

Lemma hinv_weaken B B' h : B' <= B -> hinv B h -> hinv B' h.
Proof. intros Hle. apply Forall_impl. intros el [H1 H2]. split; [exact H1|lia]. Qed.

Lemma heap_chunks_entries h : heap_chunks h = length (entries h).
Proof. induction h as [|x h IH]; simpl; [reflexivity|]. rewrite app_length, IH. reflexivity. Qed.

Lemma cpop_ok B k h : hinv B h -> h <> [] ->
  exists c rest h1, pop cleb k h = Some ((c, rest), h1) /\
    cb c /\ B < c_min c /\ hinv B (push_citer rest h1) /\
    Permutation (hsmp h) (c_smp c ++ hsmp (push_citer rest h1)) /\
    heap_chunks h = S (heap_chunks (push_citer rest h1)) /\
    forall el, In el h -> c_min c <= c_min (fst el).
Proof.
  intros Hinv Hne. destruct (pop_total cleb cleb_pre k h Hne) as ([c rest] & h1 & Hp & Hperm & Hmin).
  exists c, rest, h1. split; [exact Hp|].
  pose proof (Permutation_Forall Hperm Hinv) as Hinv'.
  apply Forall_cons_iff in Hinv' as [[Hok HB] Hinv1]. unfold whole in Hok. simpl in Hok, HB.
  apply iter_ok_inv in Hok as (Hcb & Hrest & Hgap). pose proof (cb_le c Hcb) as Hle.
  apply entries_perm in Hperm.
  split; [exact Hcb|]. split; [exact HB|]. split; [|split; [|split]].
  - apply hinv_push; [exact Hinv1|exact Hrest|]. intros b Hb. specialize (Hgap b Hb). lia.
  - rewrite hsmp_push. unfold hsmp. rewrite (smps_perm _ _ Hperm). simpl. rewrite smps_cons, smps_app. reflexivity.
  - rewrite !heap_chunks_entries, (Permutation_length Hperm). change (push_citer rest h1) with (push rest h1).
    rewrite entries_push. reflexivity.
  - intros el Hel. apply Hmin, cleb_spec in Hel. simpl in Hel. lia.
Qed.

(* the chunks of an overlap group: well-formed, above B, ending by omax *)
Definition grp (B omax : Z) (G : list chunk) : Prop :=
  Forall (fun c => cb c /\ B < c_min c /\ c_max c <= omax) G.

Lemma grp_bounds B omax G x : grp B omax G -> In x (smps G) -> B < s_t x <= omax.
Proof.
  intros Hg Hx. apply in_smps in Hx as (c & Hc & Hx). apply (Forall_in Hg) in Hc as (Hcb & H1 & H2).
  pose proof (cb_bounds c Hcb x Hx). lia.
Qed.

Lemma sample_eqb_eq a b : sample_eqb a b = true -> a = b.
Proof.
  unfold sample_eqb. rewrite !andb_true_iff, !Z.eqb_eq. destruct a, b; simpl. intros [[-> ->] ->]. reflexivity.
Qed.

Lemma list_eqb_eq {A} (eqb : A -> A -> bool) (Heq : forall a b, eqb a b = true -> a = b) :
  forall a b, list_eqb eqb a b = true -> a = b.
Proof.
  induction a as [|x a IH]; intros [|y b]; simpl; try discriminate; [reflexivity|].
  rewrite andb_true_iff. intros [H1 H2]. apply Heq in H1. apply IH in H2. congruence.
Qed.

Lemma chunk_eqb_smp a b : chunk_eqb a b = true -> c_smp a = c_smp b.
Proof.
  unfold chunk_eqb. rewrite !andb_true_iff. intros [_ H]. apply (list_eqb_eq sample_eqb sample_eqb_eq), H.
Qed.

(* The loop gathers in ov the chunks that overlap the group opened by cur, perfect duplicates
   of the previous one left out; the heap it leaves starts above everything gathered. *)
Lemma overlap_loop_ok B cur : forall fuel ch h omax prev ov,
  (heap_chunks h <= fuel)%nat -> hinv B h -> In prev (cur :: ov) -> grp B omax (cur :: ov) ->
  exists h' ov' ch' omax',
    overlap_loop fuel ch h omax prev ov = (Some (h', ov'), ch') /\
    hinv omax' h' /\ grp B omax' (cur :: ov') /\
    (forall x, In x (smps (cur :: ov) ++ hsmp h) <-> In x (smps (cur :: ov') ++ hsmp h')) /\
    (length (hsmp h') + length (smps ov') <= length (hsmp h) + length (smps ov))%nat.
Proof.
  induction fuel as [|f IH]; intros ch h omax prev ov Hfuel Hinv Hprev Hgrp;
    (destruct h as [|el0 h0];
     [exists [], ov, ch, omax; split; [reflexivity|]; split; [constructor|];
      split; [exact Hgrp|]; split; [reflexivity|lia]|]).
  - simpl in Hfuel. lia.
  - cbn [overlap_loop]. set (h := el0 :: h0) in *. destruct (next_choice ch) as [k ch1].
    destruct (cpop_ok B k h Hinv) as (nx & rest & h2 & -> & Hcb & HB & Hinv2 & Hperm & Hch & Hmin);
      [discriminate|].
    pose proof (cb_le nx Hcb) as Hle. destruct (Z.ltb_spec omax (c_min nx)) as [Hlt|Hge].
    + (* the least chunk starts after the group *)
      exists h, ov, ch1, omax. split; [reflexivity|]. split; [|split; [exact Hgrp|split; [reflexivity|lia]]].
      apply Forall_forall. intros el Hel. specialize (Hmin el Hel).
      apply (Forall_in Hinv) in Hel as [Hok _]. split; [exact Hok|lia].
    + set (ov1 := if chunk_eqb nx prev then ov else ov ++ [nx]).
      set (omax1 := if chunk_eqb nx prev then omax else Z.max omax (c_max nx)).
      assert (Hnew : In (if chunk_eqb nx prev then prev else nx) (cur :: ov1) /\
        grp B omax1 (cur :: ov1) /\
        (forall x, In x (smps (cur :: ov1)) <-> In x (smps (cur :: ov)) \/ In x (c_smp nx)) /\
        (length (smps ov1) <= length (smps ov) + length (c_smp nx))%nat).
      { unfold ov1, omax1. destruct (chunk_eqb nx prev) eqn:Hdup.
        - (* perfect duplicate of the previous chunk: dropped *)
          split; [exact Hprev|]. split; [exact Hgrp|]. split; [|lia]. intros x. split; [auto|].
          intros [H|H]; [exact H|]. rewrite (chunk_eqb_smp _ _ Hdup) in H. apply in_smps. eauto.
        - split; [right; apply in_or_app; right; left; reflexivity|]. split; [|split].
          + change (cur :: ov ++ [nx]) with ((cur :: ov) ++ [nx]). apply Forall_app. split.
            * eapply Forall_impl; [|exact Hgrp]. intros c (H1 & H2 & H3). split; [exact H1|split; [exact H2|lia]].
            * constructor; [|constructor]. split; [exact Hcb|split; [exact HB|lia]].
          + intros x. rewrite !smps_cons, smps_app, smps_cons, !in_app_iff. simpl. tauto.
          + rewrite smps_app, smps_cons, !app_length. simpl. lia. }
      destruct Hnew as (Hprev1 & Hgrp1 & Hsm1 & Hlen1).
      destruct (IH ch1 (push_citer rest h2) _ _ _ ltac:(lia) Hinv2 Hprev1 Hgrp1)
        as (h' & ov' & ch' & omax' & He & Hi' & Hg' & Hset & Hl').
      exists h', ov', ch', omax'. split; [exact He|]. split; [exact Hi'|]. split; [exact Hg'|]. split.
      * intros x. rewrite <- Hset, !in_app_iff, Hsm1, (perm_mem Hperm), in_app_iff. tauto.
      * rewrite (Permutation_length Hperm), app_length. lia.
Qed.

Definition above (l : list sample) : Prop := forall x, In x l -> minInt64 < s_t x.

(* an overlap group G is merged by ChainedSeriesMerge and cut into chunks again *)
Lemma reencode_ok ch G : G <> [] -> Forall cb G -> above (smps G) ->
  exists ms ch' c cs, chain_all ch (map c_smp G) = (Some ms, ch') /\ encode_chunks ms = c :: cs /\
    iter_ok (c :: cs) /\ smps (c :: cs) = ms /\ incl ms (smps G) /\
    (forall t, In t (map s_t ms) <-> In t (map s_t (smps G))) /\ (length ms <= length (smps G))%nat.
Proof.
  intros Hne Hcb Hab.
  destruct (chain_all_correct ch (map c_smp G)) as (ms & ch' & Hca & Hts & Hms).
  { destruct G; [congruence|discriminate]. }
  { apply Forall_map. eapply Forall_impl; [|exact Hcb]. intros g Hg. apply ssorted_wsorted, cb_sorted, Hg. }
  { apply Forall_map, Forall_forall. intros g Hg. apply Forall_forall. intros x Hx.
    apply Hab, in_smps. eauto. }
  destruct (merged_ts_in (map c_smp G)) as [Hsort Hmem]. fold (smps G) in Hms, Hmem.
  assert (Hmsne : ms <> []).
  { destruct G as [|g G']; [congruence|]. apply Forall_inv in Hcb. destruct (cb_min g Hcb) as [y [Hy _]].
    intros ->. rewrite <- Hts in Hmem. destruct (proj2 (Hmem (s_t y))). apply in_map.
    rewrite smps_cons. apply in_or_app. left. exact Hy. }
  destruct (encode_chunks_ok ms) as (c & cs & Henc & Hsm & Hiter);
    [apply ssorted_ts; rewrite Hts; exact Hsort|exact Hmsne|].
  exists ms, ch', c, cs. split; [exact Hca|]. split; [exact Henc|]. split; [exact Hiter|].
  split; [exact Hsm|]. split; [exact Hms|]. split; [intros t; rewrite Hts; apply Hmem|].
  rewrite <- (map_length s_t ms), Hts. apply merged_ts_length.
Qed.

(* One Next of the compacting merger: the least chunk, or the re-encoded merge of its overlap
   group. The timestamps are kept, every sample comes from the heap, and the heap shrinks.
   B is at least MinInt64, so the samples of the group lie above it, as the chained merge asks. *)
Lemma compact_next_ok B ch h : minInt64 <= B -> hinv B h -> h <> [] ->
  exists c h' ch', compact_next ch h = (CChunk c h', ch') /\
    cb c /\ B < c_min c /\ hinv (c_max c) h' /\
    (forall t, In t (map s_t (hsmp h)) <-> In t (map s_t (c_smp c ++ hsmp h'))) /\
    incl (c_smp c ++ hsmp h') (hsmp h) /\ (length (hsmp h') < length (hsmp h))%nat.
Proof.
  intros HminB Hinv Hne. unfold compact_next.
  destruct h as [|el0 h0]; [congruence|]. set (h := el0 :: h0) in *.
  destruct (next_choice ch) as [k ch1].
  destruct (cpop_ok B k h Hinv Hne) as (cur & rest & h1 & -> & Hcb & HB & Hinv2 & Hperm & _ & _).
  set (h2 := push_citer rest h1) in *.
  destruct (overlap_loop_ok B cur (heap_chunks h2) ch1 h2 (c_max cur) cur [] (le_n _) Hinv2)
    as (h3 & ov & ch2 & omax & -> & Hinv3 & Hgrp & Hset & Hlen).
  { left. reflexivity. }
  { constructor; [|constructor]. split; [exact Hcb|split; [exact HB|lia]]. }
  pose proof (Permutation_length Hperm) as Hlh. rewrite app_length in Hlh.
  pose proof (cb_nonempty cur Hcb) as Hcurne.
  (* everything of h is in the group or still in the heap *)
  assert (Hmem : forall x, In x (hsmp h) <-> In x (smps (cur :: ov) ++ hsmp h3)).
  { intros x. rewrite <- Hset, (perm_mem Hperm x), smps_cons. change (smps []) with (@nil sample).
    rewrite app_nil_r. reflexivity. }
  clear Hset Hperm. destruct ov as [|o ovs].
  - (* no overlap: the chunk is passed on as it is *)
    exists cur, h3, ch2. split; [reflexivity|]. split; [exact Hcb|]. split; [exact HB|].
    apply Forall_inv in Hgrp. rewrite smps_cons, app_nil_r in Hmem.
    split; [apply (hinv_weaken omax); [tauto|exact Hinv3]|].
    split; [apply map_mem, Hmem|]. split; [intros x; apply Hmem|]. simpl in Hlen. lia.
  - cbv iota. remember (o :: ovs) as ov eqn:Hov.
    pose proof (smps_perm _ _ (Permutation_cons_append ov cur)) as HpS.
    destruct (reencode_ok ch2 (ov ++ [cur])) as (ms & ch3 & c & cs & -> & -> & Hiter & Hsm & Hincl & Hts & Hlen2).
    { subst ov. discriminate. }
    { apply (Permutation_Forall (Permutation_cons_append ov cur)). eapply Forall_impl; [|exact Hgrp]. intros g [Hg _]. exact Hg. }
    { intros x Hx. apply (perm_mem HpS), (grp_bounds B omax _ x Hgrp) in Hx. lia. }
    apply iter_ok_inv in Hiter as (Hcbc & Hcs & Hgapc).
    assert (Hbnd : forall x, In x (c_smp c) -> B < s_t x <= omax).
    { intros x Hx. apply (grp_bounds B omax (cur :: ov)); [exact Hgrp|].
      apply (perm_mem HpS), Hincl. rewrite <- Hsm, smps_cons. apply in_or_app. left. exact Hx. }
    exists c, (push_citer cs h3), ch3. split; [reflexivity|]. split; [exact Hcbc|].
    split; [destruct (cb_min c Hcbc) as [y [Hy <-]]; apply Hbnd, Hy|].
    rewrite hsmp_push, app_assoc, <- smps_cons, Hsm. split; [|split; [|split]].
    + apply hinv_push; [|exact Hcs|exact Hgapc]. apply (hinv_weaken omax); [|exact Hinv3].
      destruct (cb_max c Hcbc) as [y [Hy <-]]. apply Hbnd, Hy.
    + intros t. rewrite (map_mem s_t _ _ Hmem t), !map_app, !in_app_iff, Hts, (map_mem s_t _ _ (perm_mem HpS) t).
      reflexivity.
    + intros x Hx. apply Hmem. apply in_app_or in Hx as [Hx|Hx]; apply in_or_app; [left|right; exact Hx].
      apply (perm_mem HpS), Hincl, Hx.
    + pose proof (cb_nonempty c Hcbc) as Hcne. apply (f_equal (@length _)) in Hsm.
      rewrite smps_cons, app_length in Hsm.
      rewrite <- (Permutation_length HpS), smps_cons, app_length in Hlen2.
      rewrite app_length. simpl in Hlen. lia.
Qed.

Lemma compact_loop_ok : forall fuel ch B h,
  minInt64 <= B -> hinv B h -> (length (hsmp h) < fuel)%nat ->
  exists out ch', compact_loop fuel ch h = (Some out, ch') /\
    Forall cb out /\ cdisj out /\ (forall c, In c out -> B < c_min c) /\
    (forall t, In t (map s_t (smps out)) <-> In t (map s_t (hsmp h))) /\ incl (smps out) (hsmp h).
Proof.
  induction fuel as [|f IH]; intros ch B h HminB Hinv Hlen; [lia|].
  simpl. destruct h as [|el0 h0].
  - exists [], ch. split; [reflexivity|]. split; [constructor|]. split; [constructor|].
    split; [intros c []|]. split; [reflexivity|intros x []].
  - set (h := el0 :: h0) in *.
    destruct (compact_next_ok B ch h HminB Hinv) as (c & h' & ch1 & -> & Hcb & HB & Hinv' & Hts & Hincl & Hl);
      [discriminate|].
    pose proof (cb_le c Hcb) as Hcle.
    destruct (IH ch1 (c_max c) h') as (out & ch2 & -> & Hcbo & Hdo & HBo & Htso & Hinclo); [lia|exact Hinv'|lia|].
    exists (c :: out), ch2. split; [reflexivity|]. split; [constructor; assumption|].
    split; [|split; [|split]].
    + constructor; [exact Hdo|]. apply Forall_forall, HBo.
    + intros c' [<-|Hc']; [exact HB|]. specialize (HBo c' Hc'). lia.
    + intros t. rewrite Hts, smps_cons, !map_app, !in_app_iff, Htso. reflexivity.
    + intros x Hx. rewrite smps_cons in Hx. apply Hincl. apply in_app_or in Hx as [Hx|Hx]; apply in_or_app; auto.
Qed.

Lemma weight_ge its : (length (smps (concat its)) <= chunks_weight its)%nat.
Proof.
  induction its as [|l its IH]; [unfold smps; simpl; lia|].
  unfold chunks_weight in *. cbn [fold_right concat]. rewrite smps_app, app_length.
  assert (length (smps l) <= fold_right (fun c b => (S (length (c_smp c)) + b)%nat) O l)%nat; [|lia].
  clear. induction l as [|c l IHl]; [unfold smps; simpl; lia|].
  cbn [fold_right]. rewrite smps_cons, app_length. lia.
Qed.

Lemma out_sorted out : Forall cb out -> cdisj out -> ssorted (smps out).
Proof.
  induction out as [|c out IH]; intros Hcb Hd; [constructor|].
  apply Forall_cons_iff in Hcb as [Hc Hcb]. apply StronglySorted_inv in Hd as [Hd Hf]. rewrite smps_cons.
  apply ssorted_app. split; [apply cb_sorted, Hc|]. split; [apply IH; assumption|].
  intros x y Hx Hy. apply in_smps in Hy as [b [Hb Hyb]]. rewrite Forall_forall in *.
  specialize (Hf b Hb). pose proof (cb_bounds c Hc x Hx). pose proof (cb_bounds b (Hcb b Hb) y Hyb). lia.
Qed.

(* NewCompactingChunkSeriesMerger(ChainedSeriesMerge): for chunk iterators whose chunks are
   well-formed, time-ordered and disjoint (and above MinInt64), for every tie-breaking: the
   output chunks are well-formed, time-ordered and non-overlapping, their samples are exactly the
   sample-level merge (sorted de-duplicated union of the timestamps) and every sample comes from
   an input chunk. *)
Theorem compact_chunks_correct ch its :
  Forall iter_ok its -> above (smps (concat its)) ->
  exists out ch', compact_chunks ch its = (Some out, ch') /\ Forall cb out /\ cdisj out /\
    map s_t (smps out) = merged_ts (map c_smp (concat its)) /\
    (forall x, In x (smps out) -> In x (smps (concat its))).
Proof.
  intros Hits Hab. unfold compact_chunks.
  destruct (push_all (fun s : list chunk => s) its []) as [Hperm Hin].
  simpl in Hperm. rewrite app_nil_r, flat_map_concat_map, map_id in Hperm. rewrite map_id in Hin.
  apply smps_perm in Hperm. fold (hsmp (fold_left (fun h b => push b h) its [])) in Hperm.
  change (fold_left (fun h b => push b h) its []) with (fold_left (fun h s => push_citer s h) its []) in *.
  set (h0 := fold_left _ its []) in *.
  destruct (compact_loop_ok (S (chunks_weight its)) ch minInt64 h0 (Z.le_refl _))
    as (out & ch' & Ho & Hcb & Hd & _ & Hts & Hincl).
  { apply Forall_forall. intros el Hel. destruct (Hin el Hel) as [[]|H].
    pose proof (Forall_in Hits _ H) as Hok. split; [exact Hok|].
    (* MinTime of the first chunk is the timestamp of one of its samples *)
    destruct (cb_min (fst el) (Forall_inv (proj1 Hok))) as [y [Hy <-]].
    apply Hab, in_smps. exists (fst el). split; [|exact Hy].
    apply in_concat. exists (whole el). split; [exact H|left; reflexivity]. }
  { rewrite (Permutation_length Hperm). pose proof (weight_ge its). lia. }
  exists out, ch'. split; [exact Ho|]. split; [exact Hcb|]. split; [exact Hd|]. split.
  - apply merged_ts_unique; [apply ssorted_ts, out_sorted; assumption|].
    intros t. rewrite Hts. apply map_mem, (perm_mem Hperm).
  - intros x Hx. apply (perm_mem Hperm), Hincl, Hx.
Qed.

(* non-vacuity of the chunk-level theorem: overlapping chunks from two iterators *)
Definition ex_its : list (list chunk) :=
  [[mkC 1 3 [mkS 1 1 0; mkS 3 1 1]; mkC 7 7 [mkS 7 1 2]]; [mkC 2 7 [mkS 2 1 5; mkS 7 1 9]]].

Lemma cb_two a b v w k k' : a < b -> cb (mkC a b [mkS a k v; mkS b k' w]).
Proof.
  intros H. constructor; simpl.
  - discriminate.
  - repeat constructor. simpl. exact H.
  - intros x [<-|[<-|[]]]; simpl; lia.
  - eexists; split; [left; reflexivity|reflexivity].
  - eexists; split; [right; left; reflexivity|reflexivity].
Qed.

Lemma cb_one a v k : cb (mkC a a [mkS a k v]).
Proof.
  constructor; simpl.
  - discriminate.
  - repeat constructor.
  - intros x [<-|[]]; simpl; lia.
  - eexists; split; [left; reflexivity|reflexivity].
  - eexists; split; [left; reflexivity|reflexivity].
Qed.

Lemma ex_its_ok :
  Forall iter_ok ex_its /\ above (smps (concat ex_its)) /\
  fst (compact_chunks [1%nat] ex_its) = Some [mkC 1 7 [mkS 1 1 0; mkS 2 1 5; mkS 3 1 1; mkS 7 1 9]].
Proof.
  split; [|split; [|vm_compute; reflexivity]].
  - unfold ex_its. constructor; [|constructor; [|constructor]].
    + split; [constructor; [apply cb_two; lia|constructor; [apply cb_one|constructor]]|].
      unfold cdisj. repeat constructor; simpl; lia.
    + split; [constructor; [apply cb_two; lia|constructor]|]. unfold cdisj. repeat constructor.
  - intros x Hx. vm_compute in Hx. unfold minInt64.
    repeat (destruct Hx as [<-|Hx]; [simpl; lia|]). destruct Hx.
Qed.
