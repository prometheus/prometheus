(* proof/DiscoveryProofs.v — proofs about model/Discovery.v (property C47): the fold
   specification of updateGroup; the steps of the model by kind ([step_kind]); safety (no lost
   update, [Inv]); provider names are unique; convergence under a fair continuation ([rank]);
   m.targets is the fold of what each provider sent ([hist_inv], including ApplyConfig); what
   allGroups returns. *)
From Coq Require Import List ZArith Bool Lia.
From Verif Require Import lib.SortedList model.Discovery.
Import ListNotations.
Open Scope Z_scope.

Lemma iget_iset : forall k k' g m, iget k (iset k' g m) = if k =? k' then Some g else iget k m.
Proof.
  induction m as [|[k2 g2] r IH]; cbn; [reflexivity|].
  destruct (k' =? k2) eqn:E; cbn.
  - apply Z.eqb_eq in E. subst k2. now destruct (k =? k').
  - rewrite IH. destruct (Z.eqb_spec k k2) as [->|_]; [|reflexivity]. now rewrite Z.eqb_sym, E.
Qed.

Lemma iget_idel : forall k k' m, iget k (idel k' m) = if k =? k' then None else iget k m.
Proof.
  unfold idel. induction m as [|[k2 g2] r IH]; cbn; [now destruct (k =? k')|].
  destruct (k2 =? k') eqn:E; cbn; rewrite IH.
  - apply Z.eqb_eq in E. subst k2. now destruct (k =? k').
  - destruct (Z.eqb_spec k k2) as [->|_]; [|reflexivity]. now rewrite E.
Qed.

(* the last group with source k in a list of groups *)
Fixpoint last_of (k : Z) (l : list group) : option group :=
  match l with
  | [] => None
  | g :: r => match last_of k r with
              | Some x => Some x
              | None => if gsrc g =? k then Some g else None
              end
  end.

Definition somes (b : batch) : list group :=
  flat_map (fun og => match og with Some g => [g] | None => [] end) b.

Definition nonempty_or_none (o : option group) : option group :=
  match o with Some g => if 0 <? gnt g then Some g else None | None => None end.

Lemma iget_apply_group : forall k m og,
  iget k (apply_group m og) =
  match og with
  | Some g => if k =? gsrc g then nonempty_or_none (Some g) else iget k m
  | None => iget k m
  end.
Proof.
  intros k m [g|]; cbn; auto.
  destruct (0 <? gnt g); [rewrite iget_iset|rewrite iget_idel]; now destruct (k =? gsrc g).
Qed.

Lemma iget_fold_groups : forall k b m,
  iget k (fold_left apply_group b m) =
  match last_of k (somes b) with
  | Some g => nonempty_or_none (Some g)
  | None => iget k m
  end.
Proof.
  induction b as [|og r IH]; intros m; cbn [fold_left]; auto.
  rewrite IH, iget_apply_group.
  destruct og as [g|]; cbn [somes flat_map app last_of]; fold (somes r); [|reflexivity].
  rewrite (Z.eqb_sym k). destruct (last_of k (somes r)); auto. destruct (gsrc g =? k); auto.
Qed.

Lemma fold_batches_concat : forall h m,
  fold_left apply_batch h m = fold_left apply_group (concat h) m.
Proof.
  induction h as [|b r IH]; intros m; cbn; auto.
  rewrite IH. unfold apply_batch. now rewrite fold_left_app.
Qed.

Lemma flat_somes_concat : forall h, flat h = somes (concat h).
Proof.
  induction h as [|b r IH]; cbn; auto.
  unfold flat in *. cbn. rewrite IH. unfold somes. now rewrite flat_map_app.
Qed.

(* latest group per source wins; a source whose latest group is empty is absent *)
Lemma fold_lookup : forall h k,
  iget k (fold_batches h) = nonempty_or_none (last_of k (flat h)).
Proof.
  intros. unfold fold_batches. rewrite fold_batches_concat, iget_fold_groups, flat_somes_concat.
  destruct (last_of k (somes (concat h))); auto.
Qed.

(* keys of the folded map are distinct, and every entry is stored under its own source *)
Definition wf_imap (m : imap) : Prop :=
  NoDup (map fst m) /\ forall k g, In (k, g) m -> k = gsrc g.

Lemma in_iset : forall k g m x, In x (iset k g m) -> x = (k, g) \/ In x m.
Proof.
  induction m as [|[k' g'] r IH]; cbn; intros x H.
  - destruct H; auto.
  - destruct (k =? k'); cbn in H.
    + destruct H; auto.
    + destruct H; auto. apply IH in H. tauto.
Qed.

Lemma keys_iset : forall k g m x, In x (map fst (iset k g m)) -> x = k \/ In x (map fst m).
Proof.
  intros. apply in_map_iff in H. destruct H as [[k' g'] [<- Hin]]. apply in_iset in Hin.
  destruct Hin as [E|Hin]; [inversion E; auto|]. right. apply in_map_iff. now exists (k', g').
Qed.

Lemma nodup_iset : forall k g m, NoDup (map fst m) -> NoDup (map fst (iset k g m)).
Proof.
  induction m as [|[k' g'] r IH]; cbn; intros H.
  - constructor; auto; constructor.
  - inversion H; subst. destruct (k =? k') eqn:E; cbn.
    + apply Z.eqb_eq in E. subst. now constructor.
    + constructor; auto. intro Hin. apply keys_iset in Hin. destruct Hin; auto.
      subst. now rewrite Z.eqb_refl in E.
Qed.

Lemma wf_apply_group : forall m og, wf_imap m -> wf_imap (apply_group m og).
Proof.
  intros m [g|] [Hnd Hk]; cbn; [|split; auto].
  destruct (0 <? gnt g); split.
  - now apply nodup_iset.
  - intros k g' Hin. apply in_iset in Hin. destruct Hin as [E|Hin]; [inversion E; auto|eauto].
  - now apply NoDup_map_filter.
  - intros k g' Hin. apply filter_In in Hin. destruct Hin. eauto.
Qed.

Lemma wf_fold_batches : forall h, wf_imap (fold_batches h).
Proof.
  intros. unfold fold_batches. rewrite fold_batches_concat.
  assert (G : forall l m, wf_imap m -> wf_imap (fold_left apply_group l m)).
  { induction l; cbn; auto using wf_apply_group. }
  apply G. split; [constructor|intros ? ? []].
Qed.

Lemma iget_in : forall m k g, NoDup (map fst m) -> (In (k, g) m <-> iget k m = Some g).
Proof.
  induction m as [|[k' g'] r IH]; cbn; intros k g Hnd.
  - split; [tauto|discriminate].
  - inversion Hnd; subst. destruct (k =? k') eqn:E.
    + apply Z.eqb_eq in E. subst k'. split.
      * intros [H|H]; [now inversion H|]. exfalso. apply H1. apply in_map_iff. now exists (k, g).
      * intros H. inversion H. auto.
    + split.
      * intros [H|H]; [inversion H; subst; now rewrite Z.eqb_refl in E|]. now apply IH.
      * intros H. right. now apply IH.
Qed.

(* `latest` (what the harness-side specification uses) is the same set of groups *)
Lemma last_of_app : forall k l1 l2,
  last_of k (l1 ++ l2) = match last_of k l2 with Some x => Some x | None => last_of k l1 end.
Proof.
  induction l1 as [|g r IH]; intros l2; cbn.
  - destruct (last_of k l2); auto.
  - rewrite IH. destruct (last_of k l2); auto.
Qed.

Lemma last_of_rev_find : forall k l, last_of k l = find (fun g => gsrc g =? k) (rev l).
Proof.
  intros k l. rewrite <- (rev_involutive l) at 1. generalize (rev l) as l'. clear l.
  induction l' as [|g r IH]; cbn; auto.
  rewrite last_of_app, IH. cbn. destruct (gsrc g =? k); auto.
Qed.

Lemma zmem_true : forall x l, zmem x l = true <-> In x l.
Proof. apply (existsb_eqb_In Z.eqb Z.eqb_eq). Qed.

Lemma zmem_false : forall x l, zmem x l = false <-> ~ In x l.
Proof. apply (existsb_eqb_notin Z.eqb Z.eqb_eq). Qed.

Lemma in_latest_rev : forall l seen g,
  In g (latest_rev seen l) <->
  find (fun x => gsrc x =? gsrc g) l = Some g /\ 0 < gnt g /\ ~ In (gsrc g) seen.
Proof.
  induction l as [|x r IH]; intros seen g; cbn [latest_rev find].
  - split; [intros []|intros [H _]; discriminate].
  - assert (X : In g (if 0 <? gnt x then [x] else []) <-> x = g /\ 0 < gnt g).
    { destruct (Z.ltb_spec 0 (gnt x)); cbn;
        [split; [intros [->|[]]; auto|tauto]|split; [tauto|intros [-> ?]; lia]]. }
    destruct (zmem (gsrc x) seen) eqn:M.
    + (* x is shadowed by a later group of its source *)
      apply zmem_true in M. rewrite IH. destruct (Z.eqb_spec (gsrc x) (gsrc g)) as [E|E]; [|reflexivity].
      rewrite <- E. split; [intros (_ & _ & N)|intros ([= <-] & _ & N)]; now destruct N.
    + (* x is the latest group of its source *)
      apply zmem_false in M. rewrite in_app_iff, X, IH. cbn [In]. clear IH X.
      destruct (Z.eqb_spec (gsrc x) (gsrc g)) as [E|E].
      * rewrite <- E. split; [intros [[<- P]|(_ & _ & N)]; [auto|destruct N; now left]|intros ([= <-] & P & _); auto].
      * split; [intros [[<- _]|?]; tauto|tauto].
Qed.

Lemma find_src : forall k l g, find (fun x => gsrc x =? k) l = Some g -> gsrc g = k.
Proof.
  intros. apply find_some in H. destruct H. now apply Z.eqb_eq.
Qed.

Theorem fold_is_latest : forall h g,
  In g (map snd (fold_batches h)) <-> In g (latest h).
Proof.
  intros h g. destruct (wf_fold_batches h) as [Hnd Hk].
  unfold latest. rewrite in_latest_rev, <- last_of_rev_find.
  split.
  - intros Hin. apply in_map_iff in Hin. destruct Hin as [[k g'] [E Hin]]. cbn in E. subst g'.
    pose proof (Hk _ _ Hin) as ->. apply iget_in in Hin; auto. rewrite fold_lookup in Hin.
    destruct (last_of (gsrc g) (flat h)) as [x|]; cbn in Hin; [|discriminate].
    destruct (0 <? gnt x) eqn:P; [|discriminate]. inversion Hin; subst x.
    apply Z.ltb_lt in P. auto.
  - intros [H1 [H2 _]]. apply in_map_iff. exists (gsrc g, g). split; auto.
    apply iget_in; auto. rewrite fold_lookup, H1. cbn. apply Z.ltb_lt in H2. now rewrite H2.
Qed.

Lemma find_hasname : forall pn P p, find (hasname pn) P = Some p -> pname p = pn /\ In p P.
Proof.
  intros. apply find_some in H. destruct H as [H1 H2]. unfold hasname in H2.
  apply Z.eqb_eq in H2. auto.
Qed.

(* the steps of the updater goroutine of provider [p]: the provider afterwards, the call of
   m.updateGroup it makes (sub, batch), whether it arms triggerSend *)
Inductive ustep (p : prov) : label -> prov -> option (Z * batch) -> bool -> Prop :=
| US_update b : pu p = UIdle -> pstarted p = true ->
    ustep p (EUpdate (pname p) b) (set_pu (URecv b) p) None false
| US_lock b : pu p = URecv b ->
    ustep p (ELock (pname p)) (set_pu (UBusy b (psubs p)) p) None false
| US_sub b j rem : pu p = UBusy b (j :: rem) ->
    ustep p (ESub (pname p)) (set_pu (UBusy b rem) p) (Some (j, b)) false
| US_unlock b : pu p = UBusy b [] ->
    ustep p (EUnlock (pname p)) (set_applied (papplied p ++ [b]) (set_pu UTrig p)) None false
| US_trig : pu p = UTrig -> ustep p (ETrig (pname p)) (set_pu UIdle p) None true.

(* the steps of the sender, of the consumer, and the spurious trigger: they leave providers,
   targets and lastProvider alone *)
Inductive fstep (s : state) : label -> sstate -> bool -> bool -> snap -> Prop :=
| FS_take : sender s = SIdle -> trigger s = true ->
    fstep s ETake (SSnap 0 []) false (cwait s) (delivered s)
| FS_snap k acc p : sender s = SSnap k acc -> nth_error (providers s) k = Some p ->
    fstep s ESnapProv (SSnap (S k) (ag_prov (targets s) acc p)) (trigger s) (cwait s) (delivered s)
| FS_done k acc : sender s = SSnap k acc -> (length (providers s) <= k)%nat ->
    fstep s ESnapDone (SHave acc) (trigger s) (cwait s) (delivered s)
| FS_send acc : sender s = SHave acc -> cwait s = true ->
    fstep s ESend SIdle (trigger s) false acc
| FS_nosend acc : sender s = SHave acc -> cwait s = false ->
    fstep s ESend SRearm (trigger s) false (delivered s)
| FS_rearm : sender s = SRearm -> fstep s ERearm SIdle true (cwait s) (delivered s)
| FS_wait : cwait s = false -> fstep s EWait (sender s) (trigger s) true (delivered s)
| FS_unwait : cwait s = true -> fstep s EUnwait (sender s) (trigger s) false (delivered s)
| FS_spurious : fstep s ESpurious (sender s) true (cwait s) (delivered s).

(* every step is a step of some updater, a reload, or one of the above *)
Lemma step_kind : forall s l s', step s l = Some s' ->
  (exists p p' upd trig,
     find (hasname (pname p)) (providers s) = Some p /\ ustep p l p' upd trig /\
     s' = mkS (replace_first (pname p) p' (providers s))
              (match upd with Some (j, b) => updateGroup (j, pname p) b (targets s) | None => targets s end)
              (trig || trigger s) (lastp s) (sender s) (cwait s) (delivered s)) \/
  (exists c, l = EReload c) \/
  (exists sd tr cw dl, fstep s l sd tr cw dl /\ s' = mkS (providers s) (targets s) tr (lastp s) sd cw dl).
Proof.
  intros s l s' Hs. destruct l; cbn in Hs.
  1-5: destruct (find (hasname pn) (providers s)) as [p|] eqn:F; [|discriminate];
       destruct (find_hasname _ _ _ F) as [<- _]; left; exists p;
       destruct (pu p) as [|?|? [|? ?]|] eqn:U; try discriminate Hs.
  1: destruct (pstarted p) eqn:St; [|discriminate].
  1-5: injection Hs as <-; eexists _, _, _; (split; [exact F|split; [econstructor; eassumption|reflexivity]]).
  8: now right; left; exists c.
  all: right; right.
  1-5: destruct (sender s) eqn:S; try discriminate Hs.
  1: destruct (trigger s) eqn:T; [|discriminate].
  2: destruct (nth_error (providers s) k) eqn:N; [|discriminate].
  3: destruct (Nat.leb (length (providers s)) k) eqn:L; [apply Nat.leb_le in L|discriminate].
  4, 6, 7: destruct (cwait s) eqn:C; try discriminate Hs.
  all: injection Hs as <-; eexists _, _, _, _; (split; [econstructor; eassumption|]); try reflexivity.
  all: now rewrite ?T, ?C.
Qed.

Lemma ustep_frame : forall p l p' upd trig, ustep p l p' upd trig ->
  pname p' = pname p /\ psubs p' = psubs p /\ pnew p' = pnew p /\ pstarted p' = pstarted p.
Proof. intros p l p' upd trig []; intros; now repeat split. Qed.

Lemma run_invariant : forall I : state -> Prop,
  (forall s l s', I s -> step s l = Some s' -> I s') ->
  forall tr s s', I s -> run s tr = Some s' -> I s'.
Proof.
  intros I Hstep. induction tr as [|l r IH]; cbn; intros s s' HI H.
  - now injection H as <-.
  - destruct (step s l) as [s1|] eqn:E; [|discriminate]. eauto.
Qed.

(* an invariant of (providers, lastProvider) kept by adding a sub to an existing provider and by
   appending a fresh provider is kept by registerProviders *)
Lemma register_ind : forall I : list prov -> Z -> Prop,
  (forall c s P last, I P last -> I (add_newsub c s P) last) ->
  (forall c s P last, I P last -> I (P ++ [mkP last c [] [s] false UIdle []]) (last + 1)) ->
  forall c P last, I P last -> I (fst (register c P last)) (snd (register c P last)).
Proof.
  intros I Hsub Hnew.
  assert (A : forall s c st, I (fst (fst st)) (snd (fst st)) ->
              I (fst (fst (add_cfg s st c))) (snd (fst (add_cfg s st c)))).
  { intros s c [[P last] added] H. cbn in H. unfold add_cfg.
    destruct (existsb _ P); cbn; auto. destruct (snd c); cbn; auto. }
  assert (F : forall s cs st, I (fst (fst st)) (snd (fst st)) ->
              I (fst (fst (fold_left (add_cfg s) cs st))) (snd (fst (fold_left (add_cfg s) cs st)))).
  { induction cs as [|c r IH]; intros st H; cbn [fold_left]; auto. }
  assert (J : forall jc st, I (fst st) (snd st) -> I (fst (register_job st jc)) (snd (register_job st jc))).
  { intros jc [P last] H. unfold register_job.
    pose proof (F (fst jc) (snd jc) (P, last, false) H) as H1.
    destruct (fold_left (add_cfg (fst jc)) (snd jc) (P, last, false)) as [[P1 last1] added].
    destruct added; [exact H1|].
    pose proof (A (fst jc) (STATIC_EMPTY, true) (P1, last1, false) H1) as H2.
    now destruct (add_cfg (fst jc) (P1, last1, false) (STATIC_EMPTY, true)) as [[P2 last2] a2]. }
  unfold register. induction c as [|jc r IH]; intros P last H; [exact H|].
  cbn [fold_left]. pose proof (J jc (P, last) H) as H1.
  destruct (register_job (P, last) jc) as [P1 last1]. now apply IH.
Qed.

Definition uidle (p : prov) : bool := match pu p with UIdle => true | _ => false end.

(* nothing is in flight on the producer side: trigger not armed, every updater idle *)
Definition quiescent (s : state) : Prop :=
  trigger s = false /\ forallb uidle (providers s) = true.

(* what the sender holds (or has handed over) is the current state *)
Definition sender_ok (s : state) : Prop :=
  match sender s with
  | SIdle => delivered s = allGroups (providers s) (targets s)
  | SSnap k acc => acc = fold_left (ag_prov (targets s)) (firstn k (providers s)) []
  | SHave acc => acc = allGroups (providers s) (targets s)
  | SRearm => True      (* the pending put-back of the trigger is the propagation in flight *)
  end.

Definition Inv (s : state) : Prop := quiescent s -> sender_ok s.

Definition reachable (s : state) : Prop := exists tr, run init tr = Some s.

Lemma ustep_in_flight : forall p l p' upd trig, ustep p l p' upd trig -> uidle p' = false \/ trig = true.
Proof. intros p l p' upd trig []; intros; auto. Qed.

Lemma replace_first_not_idle : forall pn p' P p,
  find (hasname pn) P = Some p -> uidle p' = false -> forallb uidle (replace_first pn p' P) = false.
Proof.
  induction P as [|q r IH]; cbn; intros p Hf Hn; [discriminate|].
  destruct (hasname pn q); cbn.
  - now rewrite Hn.
  - rewrite (IH p); auto. apply andb_false_r.
Qed.

Lemma replace_first_length : forall pn p' P, length (replace_first pn p' P) = length P.
Proof. induction P as [|q r IH]; cbn; auto. destruct (hasname pn q); cbn; auto. Qed.

Lemma add_newsub_length : forall c s P, length (add_newsub c s P) = length P.
Proof. induction P as [|p r IH]; cbn; auto. destruct (pcfg p =? c); cbn; auto. Qed.

Lemma register_length : forall c P last, (length P <= length (fst (register c P last)))%nat.
Proof.
  intros c P last. apply (register_ind (fun Q _ => (length P <= length Q)%nat)); auto.
  - intros c0 s Q _ H. now rewrite add_newsub_length.
  - intros c0 s Q l0 H. rewrite app_length. lia.
Qed.

Lemma step_inv : forall s l s', Inv s -> step s l = Some s' -> Inv s'.
Proof.
  intros s l s' HI Hs. unfold Inv in *.
  destruct (step_kind _ _ _ Hs) as [(p & p' & upd & trig & F & US & ->)|[[c ->]|(sd & tr & cw & dl & FS & ->)]].
  - (* an updater step leaves something in flight *)
    intros [Q1 Q2]. cbn in Q1, Q2. destruct (ustep_in_flight _ _ _ _ _ US) as [B| ->]; [|discriminate Q1].
    rewrite (replace_first_not_idle _ _ _ _ F B) in Q2. discriminate.
  - (* a reload that leaves the producer side quiescent has no providers to start *)
    cbn in Hs. unfold reload in Hs.
    pose proof (register_length c (providers s) (lastp s)) as RL.
    destruct (register c (providers s) (lastp s)) as [P1 last1]. cbn in RL.
    destruct (sender_allows_reload (sender s) && forallb _ P1); [|discriminate].
    destruct (fold_left reload_prov P1 ([], targets s)) as [NP T] eqn:R.
    inversion Hs; subst s'. intros [Q1 Q2]. cbn in Q1, Q2.
    apply orb_false_iff in Q1. destruct Q1 as [Q1 Q3].
    assert (P1 = []) by (destruct P1; cbn in Q1; auto; discriminate). subst P1.
    cbn in R. inversion R; subst NP T.
    assert (providers s = []) as EP by (destruct (providers s); cbn in RL; auto; lia).
    assert (quiescent s) as Q by (split; auto; rewrite EP; reflexivity).
    specialize (HI Q). unfold sender_ok in *. cbn. rewrite EP in HI. auto.
  - (* the sender's view follows the state while nothing is in flight *)
    intros [Q1 Q2]. cbn in Q1, Q2. unfold sender_ok. cbn [sender providers targets delivered].
    destruct FS as [S T|k acc p S N|k acc S L|acc S C|acc S C|S|C|C|];
      try discriminate Q1; try exact I; try reflexivity.
    all: assert (Q : quiescent s) by (split; assumption); specialize (HI Q); unfold sender_ok in HI.
    + rewrite S in HI. rewrite (firstn_S_nth _ _ _ N), fold_left_app. cbn. now rewrite <- HI.
    + rewrite S in HI. now rewrite firstn_all2 in HI.
    + now rewrite S in HI.
    + exact HI.
    + exact HI.
Qed.

Lemma run_inv : forall tr s s', Inv s -> run s tr = Some s' -> Inv s'.
Proof. exact (run_invariant _ step_inv). Qed.

Lemma inv_init : Inv init.
Proof. intros _. reflexivity. Qed.

Lemma exists_nonidle : forall P, forallb uidle P = false -> exists p, In p P /\ uidle p = false.
Proof.
  induction P as [|q r IH]; cbn; [discriminate|]. destruct (uidle q) eqn:U; cbn.
  - intros H1. destruct (IH H1) as [p [? ?]]. exists p. auto.
  - intros _. exists q. auto.
Qed.

(* Safety, for every interleaving of the atomic steps of providers, sender, consumer and
   reloads: in every reachable state, either an update is still being propagated (trigger armed
   or an updater mid-flight), or what the sender holds / the consumer last received is exactly
   allGroups of the current state. *)
Theorem no_lost_update : forall tr s,
  run init tr = Some s ->
  trigger s = true \/
  (exists p, In p (providers s) /\ uidle p = false) \/ sender_ok s.
Proof.
  intros tr s H. pose proof (run_inv _ _ _ inv_init H) as HI.
  destruct (trigger s) eqn:T; auto. right.
  destruct (forallb uidle (providers s)) eqn:F.
  - right. apply HI. split; auto.
  - left. now apply exists_nonidle.
Qed.

Definition names_ok (P : list prov) (last : Z) : Prop :=
  NoDup (map pname P) /\ Forall (fun p => pname p < last) P.

Lemma names_replace_first : forall pn p' P, pname p' = pn ->
  map pname (replace_first pn p' P) = map pname P.
Proof.
  induction P as [|q r IH]; cbn; intros E; auto.
  unfold hasname. destruct (pname q =? pn) eqn:H; cbn.
  - apply Z.eqb_eq in H. congruence.
  - now rewrite IH.
Qed.

Lemma names_ok_same : forall P Q last, map pname Q = map pname P -> names_ok P last -> names_ok Q last.
Proof.
  intros P Q last E [H1 H2]. split; [now rewrite E|].
  apply (Forall_map pname (fun n => n < last)). rewrite E. now apply Forall_map.
Qed.

Lemma names_add_newsub : forall c s P, map pname (add_newsub c s P) = map pname P.
Proof.
  induction P as [|p r IH]; cbn; auto. destruct (pcfg p =? c); cbn; auto. now rewrite IH.
Qed.

Lemma names_ok_weaken : forall P last, names_ok P last -> names_ok P (last + 1).
Proof.
  intros P last [H1 H2]. split; auto. eapply Forall_impl; [|apply H2]. cbn. intros. lia.
Qed.

Lemma names_register : forall c P last,
  names_ok P last -> names_ok (fst (register c P last)) (snd (register c P last)).
Proof.
  apply (register_ind names_ok).
  - intros c s P last H. eapply names_ok_same; [apply names_add_newsub|exact H].
  - intros c s P last H. destruct (names_ok_weaken _ _ H) as [H1 H2]. destruct H as [_ H3]. split.
    + rewrite map_app. apply NoDup_snoc; auto.
      intro Hin. apply in_map_iff in Hin as [p [E Hp]]. cbn in E.
      rewrite Forall_forall in H3. specialize (H3 _ Hp). lia.
    + apply Forall_app. split; [exact H2|]. constructor; [cbn; lia|constructor].
Qed.

Definition kept (p : prov) : prov := mkP (pname p) (pcfg p) (pnew p) [] true (pu p) (papplied p).

Definition f1 (pn : Z) (keep : list Z) (a : imap * tmap) (s : Z) : imap * tmap :=
  let '(_, T) := a in (inner (s, pn) T, if zmem s keep then T else tdel (s, pn) T).
Definition f2 (pn : Z) (ref : imap) (T : tmap) (s : Z) : tmap :=
  if Nat.ltb 0 (length ref) then tset (s, pn) ref T else T.

Lemma reload_prov_eq : forall NP T p,
  reload_prov (NP, T) p =
  if cancelled p then (NP, fold_left (fun T s => tdel (s, pname p) T) (psubs p) T)
  else let a := fold_left (f1 (pname p) (pnew p)) (psubs p) ([], T) in
       (NP ++ [kept p], fold_left (f2 (pname p) (fst a)) (pnew p) (snd a)).
Proof.
  intros. unfold reload_prov. destruct (cancelled p); auto.
  change (fun (a : imap * tmap) (s : Z) =>
            let '(_, T0) := a in
            (inner (s, pname p) T0, if zmem s (pnew p) then T0 else tdel (s, pname p) T0))
    with (f1 (pname p) (pnew p)).
  destruct (fold_left (f1 (pname p) (pnew p)) (psubs p) ([], T)) as [ref T1]. reflexivity.
Qed.

Lemma reload_prov_fst : forall NP T p,
  fst (reload_prov (NP, T) p) = if cancelled p then NP else NP ++ [kept p].
Proof. intros. rewrite reload_prov_eq. now destruct (cancelled p). Qed.

Lemma reload_fold_fst : forall P1 NP T,
  fst (fold_left reload_prov P1 (NP, T)) = NP ++ map kept (filter (fun p => negb (cancelled p)) P1).
Proof.
  induction P1 as [|p r IH]; intros NP T; cbn [fold_left filter map].
  - now rewrite app_nil_r.
  - pose proof (reload_prov_fst NP T p) as H.
    destruct (reload_prov (NP, T) p) as [NP1 T1]. cbn [fst] in H. rewrite IH, H.
    destruct (cancelled p); cbn; auto. now rewrite <- app_assoc.
Qed.

Lemma names_ok_filter_kept : forall f P last,
  names_ok P last -> names_ok (map kept (filter f P)) last.
Proof.
  intros f P last [H1 H2]. split.
  - rewrite map_map. now apply (NoDup_map_filter pname).
  - rewrite Forall_forall in *. intros q Hq. apply in_map_iff in Hq.
    destruct Hq as [p [<- Hp]]. apply filter_In in Hp. cbn. apply H2. tauto.
Qed.

Lemma step_names : forall s l s',
  names_ok (providers s) (lastp s) -> step s l = Some s' -> names_ok (providers s') (lastp s').
Proof.
  intros s l s' H Hs.
  destruct (step_kind _ _ _ Hs) as [(p & p' & upd & trig & F & US & ->)|[[c ->]|(sd & tr & cw & dl & _ & ->)]];
    [| |exact H].
  - cbn. eapply names_ok_same; [apply names_replace_first, (ustep_frame _ _ _ _ _ US)|exact H].
  - cbn in Hs. unfold reload in Hs.
    pose proof (names_register c _ _ H) as H1.
    destruct (register c (providers s) (lastp s)) as [P1 last1]. cbn [fst snd] in H1.
    destruct (sender_allows_reload (sender s) && forallb _ P1); [|discriminate].
    pose proof (reload_fold_fst P1 [] (targets s)) as R.
    destruct (fold_left reload_prov P1 ([], targets s)) as [NP T].
    inversion Hs; subst s'. cbn in *. subst NP. now apply names_ok_filter_kept.
Qed.

Lemma run_names : forall tr s s',
  names_ok (providers s) (lastp s) -> run s tr = Some s' -> names_ok (providers s') (lastp s').
Proof. exact (run_invariant _ step_names). Qed.

Lemma reachable_names : forall tr s, run init tr = Some s -> NoDup (map pname (providers s)).
Proof.
  intros tr s H. apply (run_names tr init s); auto. split; constructor.
Qed.

Lemma find_self : forall P p, NoDup (map pname P) -> In p P -> find (hasname (pname p)) P = Some p.
Proof.
  induction P as [|q r IH]; cbn; intros p Hnd Hin; [destruct Hin|].
  inversion Hnd; subst. unfold hasname at 1. destruct Hin as [->|Hin].
  - now rewrite Z.eqb_refl.
  - destruct (pname q =? pname p) eqn:E.
    + apply Z.eqb_eq in E. exfalso. apply H1. rewrite E. now apply in_map.
    + now apply IH.
Qed.

Close Scope Z_scope.
Open Scope nat_scope.

(* steps of the system itself, i.e. no new update from a Discoverer, no reload, no spurious
   trigger, the consumer does not walk away *)
Definition internal (l : label) : bool :=
  match l with
  | ELock _ | ESub _ | EUnlock _ | ETrig _ | ETake | ESnapProv | ESnapDone | ESend | ERearm | EWait => true
  | _ => false
  end.

(* fairness towards the consumer: the sender's send attempt finds the consumer receiving *)
Definition fair (s : state) (l : label) : Prop := l = ESend -> cwait s = true.

Fixpoint fair_run (s : state) (tr : list label) : Prop :=
  match tr with
  | [] => True
  | l :: r => internal l = true /\ fair s l /\ match step s l with Some s' => fair_run s' r | None => False end
  end.

Definition W (s : state) : nat := length (providers s) + 5.
Definition urank (w : nat) (p : prov) : nat :=
  match pu p with
  | UIdle => 0
  | URecv _ => length (psubs p) + 3 + w
  | UBusy _ rem => length rem + 2 + w
  | UTrig => 1 + w
  end.
Definition srank (n : nat) (st : sstate) : nat :=
  match st with SIdle => 0 | SSnap k _ => (n - k) + 3 | SHave _ => 2 | SRearm => n + 6 end.
Definition rank (s : state) : nat :=
  (if trigger s then W s else 0) + list_sum (map (urank (W s)) (providers s))
  + srank (length (providers s)) (sender s) + (if cwait s then 0 else 1).

Lemma sum_replace_first : forall (f : prov -> nat) pn p' P p,
  find (hasname pn) P = Some p ->
  list_sum (map f (replace_first pn p' P)) + f p = list_sum (map f P) + f p'.
Proof.
  induction P as [|q r IH]; cbn; intros p F; [discriminate|].
  destruct (hasname pn q); cbn.
  - inversion F; subst. lia.
  - specialize (IH p F). unfold list_sum in IH. lia.
Qed.

(* an internal updater step lowers the updater's rank by more than arming the trigger costs *)
Lemma ustep_rank : forall p l p' upd trig w, ustep p l p' upd trig -> internal l = true ->
  (if trig then w else 0) + urank w p' < urank w p.
Proof.
  intros p l p' upd trig w [] Hi; try discriminate Hi; unfold urank; cbn [pu set_pu set_applied];
    rewrite H; cbn [length]; lia.
Qed.

Theorem rank_decreases : forall s l s',
  internal l = true -> fair s l -> step s l = Some s' -> rank s' < rank s.
Proof.
  intros s l s' Hi Hf Hs.
  destruct (step_kind _ _ _ Hs) as [(p & p' & upd & trig & F & US & ->)|[[c ->]|(sd & tr & cw & dl & FS & ->)]];
    [|discriminate Hi|].
  - pose proof (ustep_rank _ _ _ _ _ (length (providers s) + 5) US Hi) as R.
    pose proof (sum_replace_first (urank (length (providers s) + 5)) _ p' _ _ F) as E.
    unfold rank, W. cbn [providers trigger sender cwait]. rewrite replace_first_length.
    destruct trig, (trigger s); cbn [orb] in *; lia.
  - unfold rank, W. cbn [providers trigger sender cwait].
    destruct FS as [S T|k acc p S N|k acc S L|acc S C|acc S C|S|C|C|]; try discriminate Hi;
      rewrite ?S, ?T, ?C; cbn [srank].
    + lia.
    + assert (k < length (providers s)) by (apply nth_error_Some; congruence). lia.
    + lia.
    + lia.
    + rewrite (Hf eq_refl) in C. discriminate.
    + destruct (trigger s); lia.
    + lia.
Qed.

Theorem fair_run_bounded : forall tr s s',
  fair_run s tr -> run s tr = Some s' -> length tr + rank s' <= rank s.
Proof.
  induction tr as [|l r IH]; cbn; intros s s' Hf Hr.
  - inversion Hr; subst. lia.
  - destruct Hf as [Hi [Hfl Hrest]]. destruct (step s l) as [s1|] eqn:E; [|discriminate].
    pose proof (rank_decreases _ _ _ Hi Hfl E). specialize (IH _ _ Hrest Hr). lia.
Qed.

Definition converged (s : state) : Prop :=
  sender s = SIdle /\ quiescent s /\ delivered s = allGroups (providers s) (targets s).

(* in every state that is not yet converged some fair internal step is enabled *)
Theorem progress : forall s,
  Inv s -> NoDup (map pname (providers s)) ->
  converged s \/ exists l s', internal l = true /\ fair s l /\ step s l = Some s'.
Proof.
  intros s HI Hnd.
  assert (EN : forall l s', step s l = Some s' -> internal l = true -> fair s l ->
               converged s \/ exists l s', internal l = true /\ fair s l /\ step s l = Some s')
    by (intros l s' ? ? ?; right; now exists l, s').
  destruct (sender s) as [|k acc|acc|] eqn:S.
  - destruct (trigger s) eqn:T.
    + eapply (EN ETake); [cbn; now rewrite S, T|reflexivity|discriminate].
    + destruct (forallb uidle (providers s)) eqn:F.
      * left. assert (Q : quiescent s) by (split; auto). split; auto. split; auto.
        specialize (HI Q). unfold sender_ok in HI. now rewrite S in HI.
      * destruct (exists_nonidle _ F) as [p [Hin Hu]].
        pose proof (find_self _ _ Hnd Hin) as Fp. unfold uidle in Hu.
        destruct (pu p) as [|b|b [|j rem]|] eqn:U; try discriminate.
        -- eapply (EN (ELock (pname p))); [cbn; now rewrite Fp, U|reflexivity|discriminate].
        -- eapply (EN (EUnlock (pname p))); [cbn; now rewrite Fp, U|reflexivity|discriminate].
        -- eapply (EN (ESub (pname p))); [cbn; now rewrite Fp, U|reflexivity|discriminate].
        -- eapply (EN (ETrig (pname p))); [cbn; now rewrite Fp, U|reflexivity|discriminate].
  - destruct (nth_error (providers s) k) as [p|] eqn:N.
    + eapply (EN ESnapProv); [cbn; now rewrite S, N|reflexivity|discriminate].
    + apply nth_error_None, Nat.leb_le in N.
      eapply (EN ESnapDone); [cbn; now rewrite S, N|reflexivity|discriminate].
  - destruct (cwait s) eqn:C.
    + eapply (EN ESend); [cbn; now rewrite S, C|reflexivity|now intros _].
    + eapply (EN EWait); [cbn; now rewrite C|reflexivity|discriminate].
  - (* the put-back is enabled whether or not the trigger has been armed meanwhile *)
    eapply (EN ERearm); [cbn; now rewrite S|reflexivity|discriminate].
Qed.

(* internal steps never touch the configuration, and a converged state has nothing left to do *)
Lemma converged_stuck : forall s l s',
  converged s -> internal l = true -> step s l = Some s' -> l = EWait.
Proof.
  intros s l s' [S [[T F] _]] Hi Hs.
  destruct (step_kind _ _ _ Hs) as [(p & p' & upd & trig & Fp & US & _)|[[c ->]|(sd & tr & cw & dl & FS & _)]];
    [exfalso|discriminate Hi|].
  - (* every updater is idle, and an idle updater has no internal step *)
    apply find_some in Fp as [Hin _]. rewrite forallb_forall in F. specialize (F _ Hin). unfold uidle in F.
    destruct US as [b E _|b E|b j rem E|b E|E]; try (rewrite E in F; discriminate F). discriminate Hi.
  - destruct FS; try discriminate Hi; congruence.
Qed.

Lemma run_app : forall tr1 tr2 s, run s (tr1 ++ tr2) = match run s tr1 with Some s1 => run s1 tr2 | None => None end.
Proof.
  induction tr1 as [|l r IH]; intros tr2 s; cbn; auto. destruct (step s l); auto.
Qed.

Theorem convergence : forall tr0 s tr s',
  run init tr0 = Some s -> fair_run s tr -> run s tr = Some s' ->
  length tr + rank s' <= rank s /\
  (converged s' \/ exists l s'', internal l = true /\ fair s' l /\ step s' l = Some s'').
Proof.
  intros tr0 s tr s' H0 Hf Hr. split; [eauto using fair_run_bounded|].
  assert (H1 : run init (tr0 ++ tr) = Some s') by (rewrite run_app, H0; auto).
  apply progress; [eapply run_inv; [apply inv_init|eauto]|eapply reachable_names; eauto].
Qed.

(* a worked history used for the non-vacuity examples *)
Definition ex_g1 : group := mkG 7 1 2.
Definition ex_g2 : group := mkG 7 2 0.
Definition ex_g3 : group := mkG 8 3 1.
Definition ex_cfg : cfg := [(1%Z, [(1%Z, true)]); (2%Z, [(1%Z, true); (2%Z, true)]); (3%Z, [])].
Definition ex_prefix : list label :=
  [EReload ex_cfg; EUpdate 0 [Some ex_g1; Some ex_g3]; ELock 0; ESub 0; ETake; ESnapProv; ESub 0;
   EUpdate 1 [Some ex_g3]; EUnlock 0; ESnapProv; ESnapProv; ESnapDone; ESend; ETrig 0; ERearm;
   EUpdate 0 [Some ex_g2; None]].
Definition ex_cont : list label :=
  [ELock 0; ELock 1; ESub 0; ESub 1; EWait; ETake; ESub 0; EUnlock 0; EUnlock 1; ETrig 1;
   ESnapProv; ESnapProv; ESnapProv; ESnapDone; ESend; ETrig 0; EWait; ETake;
   ESnapProv; ESnapProv; ESnapProv; ESnapDone; ESend].

Definition ex_state : state :=
  match run init ex_prefix with Some s => s | None => init end.
Definition ex_final : state :=
  match run ex_state ex_cont with Some s => s | None => init end.

Lemma ex_nonvacuous :
  run init ex_prefix = Some ex_state /\
  trigger ex_state = true /\ sender ex_state = SIdle /\ delivered ex_state = [] /\
  fair_run ex_state ex_cont /\ run ex_state ex_cont = Some ex_final /\
  converged ex_final /\
  delivered ex_final = [(1%Z, [ex_g3]); (2%Z, [ex_g3; ex_g3]); (3%Z, [])].
Proof.
  split; [vm_compute; reflexivity|]. split; [vm_compute; reflexivity|].
  split; [vm_compute; reflexivity|]. split; [vm_compute; reflexivity|].
  split; [vm_compute; repeat split; congruence|].
  split; [vm_compute; reflexivity|].
  split; [|vm_compute; reflexivity].
  split; [vm_compute; reflexivity|]. split; [split; vm_compute; reflexivity|vm_compute; reflexivity].
Qed.

Close Scope nat_scope.
Open Scope Z_scope.

Lemma keyb_true : forall a b, keyb a b = true <-> a = b.
Proof.
  intros [a1 a2] [b1 b2]. unfold keyb. cbn. rewrite andb_true_iff, !Z.eqb_eq. split.
  - intros [-> ->]. reflexivity.
  - intros H. inversion H. auto.
Qed.
Lemma keyb_refl : forall a, keyb a a = true.
Proof. intros. now apply keyb_true. Qed.
Lemma keyb_false : forall a b, a <> b -> keyb a b = false.
Proof. intros a b H. destruct (keyb a b) eqn:E; auto. apply keyb_true in E. contradiction. Qed.

Lemma tget_tset : forall k k' m T, tget k (tset k' m T) = if keyb k k' then Some m else tget k T.
Proof.
  induction T as [|[k2 m2] r IH]; cbn; [reflexivity|].
  destruct (keyb k' k2) eqn:E; cbn.
  - apply keyb_true in E. subst k2. now destruct (keyb k k').
  - rewrite IH. destruct (keyb k k2) eqn:E2; [|reflexivity].
    apply keyb_true in E2. subst k2. now rewrite keyb_false by (intros ->; now rewrite keyb_refl in E).
Qed.

Lemma tget_tdel : forall k k' T, tget k (tdel k' T) = if keyb k k' then None else tget k T.
Proof.
  unfold tdel. induction T as [|[k2 m2] r IH]; cbn; [now destruct (keyb k k')|].
  destruct (keyb k' k2) eqn:E; cbn; rewrite IH.
  - apply keyb_true in E. subst k2. now destruct (keyb k k').
  - destruct (keyb k k2) eqn:E2; [|reflexivity].
    apply keyb_true in E2. subst k2. now rewrite keyb_false by (intros ->; now rewrite keyb_refl in E).
Qed.

Lemma inner_tset : forall j n s pn m T,
  inner (j, n) (tset (s, pn) m T) = if (n =? pn) && (j =? s) then m else inner (j, n) T.
Proof.
  intros. unfold inner. rewrite tget_tset. unfold keyb. cbn [fst snd]. rewrite andb_comm.
  now destruct ((n =? pn) && (j =? s)).
Qed.

Lemma inner_tdel : forall j n s pn T,
  inner (j, n) (tdel (s, pn) T) = if (n =? pn) && (j =? s) then [] else inner (j, n) T.
Proof.
  intros. unfold inner. rewrite tget_tdel. unfold keyb. cbn [fst snd]. rewrite andb_comm.
  now destruct ((n =? pn) && (j =? s)).
Qed.

(* what m.targets[poolKey{j, p.name}] must be, given the batches p's updater has applied *)
Definition expected (p : prov) (j : Z) : imap :=
  match pu p with
  | UBusy b rem => if zmem j rem then fold_batches (papplied p)
                   else apply_batch (fold_batches (papplied p)) b
  | _ => fold_batches (papplied p)
  end.

Definition tcond (T : tmap) (p : prov) : Prop :=
  forall j, inner (j, pname p) T = if zmem j (psubs p) then expected p j else [].

Definition scond (p : prov) : Prop :=
  NoDup (psubs p) /\
  match pu p with UBusy _ rem => NoDup rem /\ incl rem (psubs p) | _ => True end.

Definition extra (p : prov) : Prop := pnew p = [] /\ pstarted p = true /\ psubs p <> [].
Definition Qf (T : tmap) (p : prov) : Prop := scond p /\ tcond T p /\ extra p.
(* provider names are never reused: nothing is stored under a name not yet handed out *)
Definition freshc (T : tmap) (last : Z) : Prop := forall j n, last <= n -> inner (j, n) T = [].

Definition hist_inv (s : state) : Prop :=
  names_ok (providers s) (lastp s) /\ Forall (Qf (targets s)) (providers s) /\
  freshc (targets s) (lastp s).

Lemma forall_replace_first : forall (Q Q' : prov -> Prop) pn p' P p,
  find (hasname pn) P = Some p -> NoDup (map pname P) ->
  (forall q, In q P -> pname q <> pn -> Q q -> Q' q) -> Q' p' ->
  Forall Q P -> Forall Q' (replace_first pn p' P).
Proof.
  induction P as [|q r IH]; cbn; intros p F Hnd Hq Hp HF; [constructor|].
  inversion HF; subst. inversion Hnd; subst.
  unfold hasname in *. destruct (pname q =? pn) eqn:E.
  - apply Z.eqb_eq in E. constructor; auto.
    rewrite Forall_forall in *. intros x Hx. apply Hq; auto.
    intro Hn. apply H3. rewrite E, <- Hn. now apply in_map.
  - constructor.
    + apply Hq; auto. intro Hn. rewrite Hn, Z.eqb_refl in E. discriminate.
    + eapply IH; eauto.
Qed.

Lemma fold_batches_snoc : forall h b, fold_batches (h ++ [b]) = apply_batch (fold_batches h) b.
Proof. intros. unfold fold_batches. now rewrite fold_left_app. Qed.

(* an updater step that does not touch m.targets *)
Lemma hist_pure_step : forall s p p' ,
  hist_inv s -> find (hasname (pname p)) (providers s) = Some p ->
  pname p' = pname p /\ psubs p' = psubs p /\ pnew p' = pnew p /\ pstarted p' = pstarted p ->
  scond p' -> (forall j, In j (psubs p) -> expected p' j = expected p j) ->
  forall tr cw dl sd, hist_inv (mkS (replace_first (pname p) p' (providers s)) (targets s) tr (lastp s) sd cw dl).
Proof.
  intros s p p' [HN [HF HC]] F (En & Es & Enw & Est) Hs He tr cw dl sd.
  destruct (find_hasname _ _ _ F) as [_ Hin].
  split; [|split]; cbn; auto.
  - eapply names_ok_same; [now apply names_replace_first|auto].
  - eapply forall_replace_first with (Q := Qf (targets s)); eauto.
    + apply HN.
    + rewrite Forall_forall in HF. destruct (HF _ Hin) as [_ [Ht [X1 [X2 X3]]]].
      split; auto. split.
      * intros j. rewrite En, Es, Ht. destruct (zmem j (psubs p)) eqn:M; auto.
        symmetry. apply He. now apply zmem_true.
      * unfold extra. rewrite Enw, Est, Es. auto.
Qed.

Definition RQ (T : tmap) (p : prov) : Prop :=
  scond p /\ tcond T p /\ NoDup (pnew p) /\
  ((pstarted p = true /\ psubs p <> []) \/
   (pstarted p = false /\ psubs p = [] /\ pnew p <> [] /\ papplied p = [] /\ pu p = UIdle)).

Lemma RQ_add_newsub : forall T c s P, Forall (RQ T) P -> Forall (RQ T) (add_newsub c s P).
Proof.
  induction P as [|p r IH]; cbn; intros H; auto. inversion H; subst.
  destruct (pcfg p =? c); [|constructor; auto].
  constructor; auto. destruct H2 as [A [B [C D]]]. split; [exact A|]. split; [exact B|]. cbn. split.
  - destruct (zmem s (pnew p)) eqn:M; auto. apply NoDup_snoc; auto. now apply zmem_false.
  - destruct D as [D|[D1 [D2 [D3 D4]]]]; [left; exact D|right].
    split; auto. split; auto. split; auto.
    destruct (zmem s (pnew p)); auto. intro E. apply app_eq_nil in E. destruct E. discriminate.
Qed.

Lemma RQ_register : forall T c P last,
  Forall (RQ T) P /\ freshc T last ->
  Forall (RQ T) (fst (register c P last)) /\ freshc T (snd (register c P last)).
Proof.
  intros T. apply (register_ind (fun P last => Forall (RQ T) P /\ freshc T last)).
  - intros c s P last [H HC]. split; auto using RQ_add_newsub.
  - intros c s P last [H HC]. split; [|intros j n Hn; apply HC; lia].
    apply Forall_app. split; auto. constructor; [|constructor].
    split; [split; cbn; auto; constructor|]. split.
    + intros j. cbn. apply HC. lia.
    + cbn. split; [constructor; auto; constructor|]. right. repeat split; auto. discriminate.
Qed.

Lemma zmem_cons : forall x a l, zmem x (a :: l) = (x =? a) || zmem x l.
Proof. reflexivity. Qed.
Lemma f1_spec : forall pn keep subs r0 T0, NoDup subs ->
  (forall j n, inner (j, n) (snd (fold_left (f1 pn keep) subs (r0, T0))) =
               if (n =? pn) && zmem j subs && negb (zmem j keep) then [] else inner (j, n) T0) /\
  (forall E, (forall s, In s subs -> inner (s, pn) T0 = E) ->
             fst (fold_left (f1 pn keep) subs (r0, T0)) = match subs with [] => r0 | _ => E end).
Proof.
  induction subs as [|s r IH]; intros r0 T0 Hnd.
  - cbn. split; auto. intros. now rewrite andb_false_r.
  - inversion Hnd; subst. cbn [fold_left f1].
    destruct (IH (inner (s, pn) T0) (if zmem s keep then T0 else tdel (s, pn) T0) H2) as [A B].
    split.
    + intros j n. rewrite A, zmem_cons.
      destruct (zmem s keep) eqn:K.
      * destruct (n =? pn) eqn:E1; cbn; auto. destruct (j =? s) eqn:E2; cbn; auto.
        apply Z.eqb_eq in E2. subst j. rewrite K. cbn. now rewrite andb_false_r.
      * rewrite inner_tdel. destruct (n =? pn) eqn:E1; cbn; auto.
        destruct (j =? s) eqn:E2; cbn.
        -- apply Z.eqb_eq in E2. subst j. rewrite K. cbn. destruct (zmem s r); auto.
        -- reflexivity.
    + intros E HE. rewrite (B E).
      * rewrite (HE s) by now left. destruct r; auto.
      * intros s2 Hs2. destruct (zmem s keep); [apply HE; now right|].
        rewrite inner_tdel. assert (s2 <> s) by (intro; subst; contradiction).
        assert ((s2 =? s) = false) as -> by now apply Z.eqb_neq.
        rewrite andb_false_r. apply HE. now right.
Qed.

Lemma f2_spec : forall pn ref news T1 j n,
  inner (j, n) (fold_left (f2 pn ref) news T1) =
  if (n =? pn) && zmem j news && Nat.ltb 0 (length ref) then ref else inner (j, n) T1.
Proof.
  induction news as [|s r IH]; intros T1 j n.
  - cbn. now rewrite andb_false_r.
  - cbn [fold_left]. rewrite IH, zmem_cons. unfold f2.
    destruct (Nat.ltb 0 (length ref)) eqn:L.
    + rewrite inner_tset. destruct (n =? pn); cbn; auto. destruct (j =? s); cbn; auto.
      destruct (zmem j r); auto.
    + now rewrite !andb_false_r.
Qed.

Lemma tdel_fold_frame : forall pn subs T j n, n <> pn ->
  inner (j, n) (fold_left (fun T s => tdel (s, pn) T) subs T) = inner (j, n) T.
Proof.
  induction subs as [|s r IH]; intros T j n Hne; cbn; auto.
  rewrite IH; auto. rewrite inner_tdel. apply Z.eqb_neq in Hne. now rewrite Hne.
Qed.

(* processing one provider only touches keys carrying its own name *)
Lemma reload_prov_frame : forall NP T p j n, n <> pname p -> NoDup (psubs p) ->
  inner (j, n) (snd (reload_prov (NP, T) p)) = inner (j, n) T.
Proof.
  intros NP T p j n Hne Hnd. rewrite reload_prov_eq. destruct (cancelled p); cbn [snd].
  - now apply tdel_fold_frame.
  - cbn zeta. rewrite f2_spec. apply Z.eqb_neq in Hne. rewrite Hne. cbn.
    destruct (f1_spec (pname p) (pnew p) (psubs p) [] T Hnd) as [A _]. rewrite A, Hne. reflexivity.
Qed.

Lemma reload_prov_kept : forall NP T p,
  RQ T p -> cancelled p = false -> is_busy p = false ->
  Qf (snd (reload_prov (NP, T) p)) (kept p).
Proof.
  intros NP T p [[Hnd Hu] [Ht [Hnn D]]] Hc Hb.
  rewrite reload_prov_eq, Hc. cbn zeta. cbn [snd].
  assert (NB : match pu p with UBusy _ _ => False | _ => True end)
    by (unfold is_busy in Hb; now destruct (pu p)).
  assert (Eexp : forall j, expected p j = fold_batches (papplied p))
    by (intros j; unfold expected; now destruct (pu p)).
  destruct (f1_spec (pname p) (pnew p) (psubs p) [] T Hnd) as [A B].
  assert (Href : fst (fold_left (f1 (pname p) (pnew p)) (psubs p) ([], T)) =
                 match psubs p with [] => [] | _ => fold_batches (papplied p) end).
  { apply B. intros s Hs. rewrite Ht. apply zmem_true in Hs. now rewrite Hs, Eexp. }
  split; [|split].
  - split; cbn; auto. now destruct (pu p).
  - intros j. cbn [pname psubs kept]. rewrite f2_spec, A, Z.eqb_refl. cbn [andb].
    change (expected (kept p) j) with (expected p j). rewrite Href, Ht, !Eexp.
    destruct (zmem j (pnew p)) eqn:Mn; cbn [andb negb].
    + destruct (psubs p) as [|s0 r0] eqn:Ps.
      * cbn. destruct D as [[_ D]|[_ [_ [_ [D _]]]]]; [congruence|]. rewrite D. reflexivity.
      * destruct (Nat.ltb 0 (length (fold_batches (papplied p)))) eqn:L; auto.
        rewrite andb_false_r. destruct (fold_batches (papplied p)); [|discriminate L].
        destruct (zmem j (s0 :: r0)); auto.
    + destruct (zmem j (psubs p)); auto.
  - unfold extra. cbn. split; auto. split; auto.
    unfold cancelled in Hc. destruct D as [[D _]|[_ [_ [D _]]]]; auto.
    rewrite D, andb_true_r in Hc. destruct (pnew p); [discriminate|]. discriminate.
Qed.

(* Qf and RQ look at T only under the provider's own name *)
Lemma cond_frame : forall (X : prov -> Prop) T T' q,
  (forall j, inner (j, pname q) T' = inner (j, pname q) T) ->
  scond q /\ tcond T q /\ X q -> scond q /\ tcond T' q /\ X q.
Proof. intros X T T' q H (A & B & C). split; [exact A|]. split; [|exact C]. intros j. rewrite H. apply B. Qed.

Lemma reload_fold_hist : forall P1 NP T,
  NoDup (map pname NP ++ map pname P1) ->
  Forall (Qf T) NP -> Forall (RQ T) P1 ->
  forallb (fun p => negb (is_busy p) || cancelled p) P1 = true ->
  Forall (Qf (snd (fold_left reload_prov P1 (NP, T)))) (fst (fold_left reload_prov P1 (NP, T))) /\
  (forall j n, ~ In n (map pname P1) ->
               inner (j, n) (snd (fold_left reload_prov P1 (NP, T))) = inner (j, n) T).
Proof.
  induction P1 as [|p r IH]; intros NP T Hnd HQ HR Hg.
  - cbn. auto.
  - cbn [fold_left]. inversion HR as [|? ? HRp HRr]; subst.
    cbn [forallb] in Hg. apply andb_true_iff in Hg. destruct Hg as [Hgp Hgr].
    pose proof HRp as [[Hsubs _] _].
    pose proof (reload_prov_fst NP T p) as Ef.
    pose proof (fun j n H => reload_prov_frame NP T p j n H Hsubs) as Fr.
    pose proof (reload_prov_kept NP T p HRp) as Hk.
    destruct (reload_prov (NP, T) p) as [NP1 T1]. cbn [fst snd] in *. subst NP1.
    assert (Hnp : ~ In (pname p) (map pname NP) /\ ~ In (pname p) (map pname r)).
    { apply NoDup_remove_2 in Hnd. rewrite in_app_iff in Hnd. tauto. }
    assert (FR : forall (X : prov -> Prop) l, ~ In (pname p) (map pname l) ->
              Forall (fun q => scond q /\ tcond T q /\ X q) l ->
              Forall (fun q => scond q /\ tcond T1 q /\ X q) l).
    { intros X l Hn H. rewrite Forall_forall in *. intros q Hq. eapply cond_frame; [|now apply H].
      intros j. apply Fr. intro E. apply Hn. rewrite <- E. now apply in_map. }
    destruct (IH (if cancelled p then NP else NP ++ [kept p]) T1) as [A B]; auto.
    + destruct (cancelled p); [cbn in Hnd; now apply NoDup_remove_1 in Hnd|].
      rewrite map_app. cbn. now rewrite <- app_assoc.
    + destruct (cancelled p); [now apply (FR extra)|]. apply Forall_app. split; [now apply (FR extra)|].
      constructor; [|constructor]. apply Hk; auto. rewrite orb_false_r in Hgp. now apply negb_true_iff.
    + now apply (FR _ r).
    + split; [exact A|]. intros j n Hn. rewrite B; [apply Fr|]; intro E; apply Hn; [now left|now right].
Qed.

Lemma Qf_RQ : forall T p, Qf T p -> RQ T p.
Proof.
  intros T p [A [B [C1 [C2 C3]]]]. split; auto. split; auto. split.
  - rewrite C1. constructor.
  - left. auto.
Qed.

Theorem hist_step : forall s l s', hist_inv s -> step s l = Some s' -> hist_inv s'.
Proof.
  intros s l s' HI Hs. pose proof HI as [HN [HF HC]].
  destruct (step_kind _ _ _ Hs) as [(p & p' & upd & trig & F & US & ->)|[[c ->]|(sd & tr & cw & dl & _ & ->)]].
  - destruct (find_hasname _ _ _ F) as [_ Hin]. rewrite Forall_forall in HF.
    destruct (HF _ Hin) as [[Hs1 Hs2] [Ht Hx]]. pose proof (ustep_frame _ _ _ _ _ US) as FR.
    destruct US as [b U St|b U|b j rem U|b U|U]; rewrite U in Hs2.
    + apply hist_pure_step; auto; [now split|].
      intros j _. unfold expected. cbn. now rewrite U.
    + apply hist_pure_step; auto.
      * split; cbn; auto. split; auto. apply incl_refl.
      * intros j Hj. unfold expected. cbn. rewrite U. apply zmem_true in Hj. now rewrite Hj.
    + (* the one step that writes m.targets: sub j of the batch being applied *)
      destruct Hs2 as [Hnd Hincl]. inversion Hnd as [|? ? Hj Hrem]; subst.
      split; [|split]; cbn.
      * eapply names_ok_same; [now apply names_replace_first|auto].
      * eapply forall_replace_first with (Q := Qf (targets s)); eauto; [apply HN| | |now apply Forall_forall].
        -- intros q Hq Hne [Hsq [Htq Hxq]]. split; auto. split; auto. intros j2. unfold updateGroup.
           rewrite inner_tset, (proj2 (Z.eqb_neq _ _) Hne). apply Htq.
        -- split; [|split; [|exact Hx]].
           ++ split; auto. cbn. split; auto. intros x Hx'. apply Hincl. now right.
           ++ intros j2. cbn [pname psubs set_pu]. unfold updateGroup, expected.
              rewrite inner_tset, Z.eqb_refl, !Ht. unfold expected. rewrite U. cbn [pu set_pu papplied andb].
              rewrite !zmem_cons. destruct (Z.eqb_spec j2 j) as [->|Hne]; cbn [orb]; [|reflexivity].
              rewrite (proj2 (zmem_true j (psubs p))) by (apply Hincl; now left).
              now rewrite Z.eqb_refl, (proj2 (zmem_false j rem) Hj).
      * intros j2 n Hn. unfold updateGroup. rewrite inner_tset.
        destruct HN as [_ HN]. rewrite Forall_forall in HN. specialize (HN _ Hin).
        rewrite (proj2 (Z.eqb_neq n (pname p))) by lia. now apply HC.
    + apply hist_pure_step; auto; [now split|].
      intros j _. unfold expected. cbn. rewrite U. cbn. apply fold_batches_snoc.
    + apply hist_pure_step; auto; [now split|].
      intros j _. unfold expected. cbn. now rewrite U.
  - pose proof (step_names _ _ _ HN Hs) as HN'.
    cbn in Hs. unfold reload in Hs.
    pose proof (names_register c _ _ HN) as [N1 N2].
    pose proof (RQ_register (targets s) c _ _ (conj (Forall_impl _ (Qf_RQ _) HF) HC)) as [R1 R2].
    destruct (register c (providers s) (lastp s)) as [P1 last1]. cbn [fst snd] in *.
    destruct (sender_allows_reload (sender s)); [|discriminate]. cbn [andb] in Hs.
    destruct (forallb (fun p => negb (is_busy p) || cancelled p) P1) eqn:G; [|discriminate].
    pose proof (reload_fold_hist P1 [] (targets s)) as H. cbn [map app] in H.
    specialize (H N1 (Forall_nil _) R1 G).
    destruct (fold_left reload_prov P1 ([], targets s)) as [NP T]. cbn [fst snd] in H.
    inversion Hs; subst s'. cbn in *. destruct H as [A B].
    split; auto. split; auto.
    intros j n Hn. rewrite B; [now apply R2|].
    intro Hin. apply in_map_iff in Hin. destruct Hin as [q [E Hq]].
    rewrite Forall_forall in N2. specialize (N2 _ Hq). cbn in Hn. lia.
  - exact HI.
Qed.

Lemma hist_init : hist_inv init.
Proof. split; [split; constructor|]. split; [constructor|]. intros j n _. reflexivity. Qed.

Lemma run_hist : forall tr s s', hist_inv s -> run s tr = Some s' -> hist_inv s'.
Proof. exact (run_invariant _ hist_step). Qed.

(* For every interleaving (including reloads): what is stored for (job j, provider p) is the
   fold of the batches p's updater has applied — plus the batch being applied right now if j
   was already visited — when j is one of p's subs, and nothing otherwise. *)
Theorem targets_are_fold : forall tr s p,
  run init tr = Some s -> In p (providers s) -> tcond (targets s) p.
Proof.
  intros tr s p H Hin. pose proof (run_hist _ _ _ hist_init H) as [_ [HF _]].
  rewrite Forall_forall in HF. now destruct (HF _ Hin) as [_ [Ht _]].
Qed.

Fixpoint slook (j : Z) (a : snap) : option (list group) :=
  match a with [] => None | (s, l) :: r => if j =? s then Some l else slook j r end.

Lemma smem_slook : forall s a, smem s a = false <-> slook s a = None.
Proof.
  induction a as [|[s' l] r IH]; cbn; [tauto|].
  destruct (s =? s'); cbn; [split; discriminate|exact IH].
Qed.

Lemma slook_snoc : forall j s a,
  smem s a = false ->
  slook j (a ++ [(s, [])]) = if j =? s then Some [] else slook j a.
Proof.
  induction a as [|[s' l] r IH]; cbn; intros H.
  - destruct (j =? s); auto.
  - apply orb_false_iff in H. destruct H as [H1 H2].
    destruct (j =? s') eqn:E.
    + apply Z.eqb_eq in E. subst s'. destruct (j =? s) eqn:E2; auto.
      apply Z.eqb_eq in E2. subst. rewrite Z.eqb_refl in H1. discriminate.
    + now apply IH.
Qed.

Lemma slook_sappend : forall j s gs a,
  slook j (sappend s gs a) =
  if j =? s then match slook j a with Some l => Some (l ++ gs) | None => None end else slook j a.
Proof.
  induction a as [|[s' l] r IH]; cbn.
  - destruct (j =? s); auto.
  - destruct (s =? s') eqn:E; cbn.
    + apply Z.eqb_eq in E. subst s'. destruct (j =? s); auto.
    + destruct (j =? s') eqn:E2.
      * apply Z.eqb_eq in E2. subst s'. rewrite Z.eqb_sym in E. now rewrite E.
      * exact IH.
Qed.

Definition vals (T : tmap) (j pn : Z) : list group := map snd (inner (j, pn) T).

Lemma slook_ag_sub : forall T pn acc s j,
  slook j (ag_sub T pn acc s) =
  if j =? s then Some (match slook j acc with Some l => l | None => [] end ++ vals T j pn)
  else slook j acc.
Proof.
  intros. unfold ag_sub, vals, inner.
  assert (A : slook j (if smem s acc then acc else acc ++ [(s, [])]) =
              if j =? s then Some (match slook j acc with Some l => l | None => [] end)
              else slook j acc).
  { destruct (smem s acc) eqn:M.
    - destruct (j =? s) eqn:E; auto. apply Z.eqb_eq in E. subst.
      destruct (slook s acc) eqn:L; auto. apply smem_slook in L. congruence.
    - rewrite slook_snoc; auto. destruct (j =? s) eqn:E; auto. apply Z.eqb_eq in E. subst.
      apply smem_slook in M. now rewrite M. }
  destruct (tget (s, pn) T) as [m|] eqn:G.
  - rewrite slook_sappend, A. destruct (j =? s) eqn:E; auto.
    apply Z.eqb_eq in E. subst. now rewrite G.
  - rewrite A. destruct (j =? s) eqn:E; auto. apply Z.eqb_eq in E. subst. rewrite G. cbn.
    now rewrite app_nil_r.
Qed.

Lemma slook_ag_prov_gen : forall T pn subs acc j, NoDup subs ->
  slook j (fold_left (ag_sub T pn) subs acc) =
  if zmem j subs then Some (match slook j acc with Some l => l | None => [] end ++ vals T j pn)
  else slook j acc.
Proof.
  induction subs as [|s r IH]; intros acc j Hnd; cbn [fold_left]; auto.
  inversion Hnd; subst. rewrite IH; auto. rewrite slook_ag_sub.
  unfold zmem at 2. cbn [existsb]. fold (zmem j r).
  destruct (j =? s) eqn:E; cbn [orb]; auto.
  apply Z.eqb_eq in E. subst s. apply zmem_false in H1. now rewrite H1.
Qed.

Definition serves (j : Z) (p : prov) : bool := zmem j (psubs p).

Lemma flat_none : forall T j r,
  existsb (serves j) r = false ->
  flat_map (fun p => if serves j p then vals T j (pname p) else []) r = [].
Proof.
  induction r as [|p r IH]; cbn; auto. intros H. apply orb_false_iff in H. destruct H as [H1 H2].
  rewrite H1. cbn. auto.
Qed.

(* the entry of job j: present iff some provider has j among its subs (possibly empty: jobs
   without targets are delivered as empty lists); it lists, provider after provider, the groups
   stored for (j, provider) *)
Lemma allGroups_lookup_gen : forall T P acc j,
  Forall (fun p => NoDup (psubs p)) P ->
  slook j (fold_left (ag_prov T) P acc) =
  if existsb (serves j) P
  then Some (match slook j acc with Some l => l | None => [] end
             ++ flat_map (fun p => if serves j p then vals T j (pname p) else []) P)
  else slook j acc.
Proof.
  induction P as [|p r IH]; intros acc j HF; cbn [fold_left existsb flat_map]; auto.
  inversion HF; subst. rewrite IH; auto.
  assert (A : slook j (ag_prov T acc p) =
              if serves j p
              then Some (match slook j acc with Some l => l | None => [] end ++ vals T j (pname p))
              else slook j acc) by (unfold ag_prov, serves; now apply slook_ag_prov_gen).
  rewrite A. destruct (serves j p); cbn [orb].
  - destruct (existsb (serves j) r) eqn:X.
    + now rewrite app_assoc.
    + rewrite flat_none; auto. now rewrite app_nil_r.
  - destruct (existsb (serves j) r); auto.
Qed.

Theorem allGroups_lookup : forall T P j,
  Forall (fun p => NoDup (psubs p)) P ->
  slook j (allGroups P T) =
  if existsb (serves j) P
  then Some (flat_map (fun p => if serves j p then vals T j (pname p) else []) P)
  else None.
Proof. intros. unfold allGroups. rewrite allGroups_lookup_gen; auto. Qed.

(* End to end: in a converged state reached by any interleaving, the map last received by the
   consumer has an entry exactly for the jobs of the current configuration, and the entry of a
   job lists, for every provider serving it, the latest non-empty group of every source that
   provider has reported (fold_batches of everything its updater received since it was started;
   see fold_lookup / fold_is_latest). *)
Theorem converged_delivers_fold : forall tr s j,
  run init tr = Some s -> converged s ->
  slook j (delivered s) =
  if existsb (serves j) (providers s)
  then Some (flat_map (fun p => if serves j p then map snd (fold_batches (papplied p)) else [])
                      (providers s))
  else None.
Proof.
  intros tr s j H [_ [[_ Hq] Hd]].
  pose proof (run_hist _ _ _ hist_init H) as [_ [HF _]].
  rewrite Hd, allGroups_lookup.
  - destruct (existsb (serves j) (providers s)); auto. f_equal.
    apply flat_map_ext_in. intros p Hp. destruct (serves j p) eqn:S; auto.
    unfold vals. rewrite (targets_are_fold _ _ _ H Hp). unfold serves in S. rewrite S.
    rewrite forallb_forall in Hq. specialize (Hq _ Hp). unfold uidle in Hq. unfold expected.
    destruct (pu p); auto; discriminate.
  - eapply Forall_impl; [|exact HF]. intros p [[A _] _]. exact A.
Qed.
