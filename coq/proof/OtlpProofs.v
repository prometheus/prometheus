(* proof/OtlpProofs.v — lemmas and proofs about model/Otlp.v (C43). *)
From Coq Require Import List ZArith Bool Lia.
From Verif Require Import lib.Int64 model.Otlp.
Import ListNotations.
Open Scope Z_scope.

(* ---------- int32 / int64 wrap-around ---------- *)

Lemma wrap32_id z : int32 z -> wrap32 z = z.
Proof.
  unfold int32, wrap32, minInt32, maxInt32, two32. intros H.
  rewrite Z.mod_small by lia. lia.
Qed.

Lemma int64_nonneg z : 0 <= z <= maxInt64 -> int64 z.
Proof. unfold int64, minInt64, maxInt64. lia. Qed.

(* ---------- arithmetic shift ---------- *)

Lemma ashr_div x k : int32 x -> 0 <= k -> ashr x k = x / 2 ^ k.
Proof.
  intros Hx Hk. unfold ashr. destruct (31 <=? k) eqn:E.
  - apply Z.leb_le in E.
    assert (H31 : 2 ^ 31 <= 2 ^ k) by (apply Z.pow_le_mono_r; lia).
    change (2 ^ 31) with 2147483648 in H31.
    unfold int32, minInt32, maxInt32 in Hx.
    destruct (x <? 0) eqn:En.
    + apply Z.ltb_lt in En. apply Z.div_unique with (r := x + 2 ^ k); lia.
    + apply Z.ltb_ge in En. symmetry. apply Z.div_small. lia.
  - apply Z.shiftr_div_pow2. lia.
Qed.

Lemma ashr_mono x y k : int32 x -> int32 y -> 0 <= k -> x <= y -> ashr x k <= ashr y k.
Proof.
  intros. rewrite !ashr_div by assumption. apply Z.div_le_mono; [|assumption].
  apply Z.pow_pos_nonneg; lia.
Qed.

Lemma ashr_range x k : int32 x -> 0 <= k -> (if x <? 0 then x <= ashr x k <= -1 else 0 <= ashr x k <= x).
Proof.
  intros Hx Hk. rewrite ashr_div by assumption.
  assert (Hp : 0 < 2 ^ k) by (apply Z.pow_pos_nonneg; lia).
  pose proof (Z.div_mod x (2 ^ k) ltac:(lia)) as Hdm.
  pose proof (Z.mod_pos_bound x (2 ^ k) Hp) as Hm.
  destruct (x <? 0) eqn:E; [apply Z.ltb_lt in E | apply Z.ltb_ge in E]; nia.
Qed.

Lemma ashr_0 x : ashr x 0 = x.
Proof. unfold ashr. simpl. apply Z.shiftr_0_r. Qed.

(* ---------- decoding of span/delta layouts ---------- *)

Definition lens (sp : list span) : Z := fold_right (fun s a => s_len s + a) 0 sp.
Definition extent (sp : list span) : Z := fold_right (fun s a => s_off s + s_len s + a) 0 sp.
Definition lens_ok (sp : list span) : Prop := Forall (fun s => 0 <= s_len s) sp.

(* all of [ds] laid out from position [pos] *)
Fixpoint run (pos abs : Z) (ds : list Z) : list (Z * Z) :=
  match ds with [] => [] | d :: r => (pos, abs + d) :: run (pos + 1) (abs + d) r end.

Lemma run_app pos abs ds d :
  run pos abs (ds ++ [d]) = run pos abs ds ++ [(pos + Z.of_nat (length ds), abs + sumZ ds + d)].
Proof.
  revert pos abs. induction ds as [|x r IH]; intros; cbn [run app length].
  - f_equal. f_equal; unfold sumZ; cbn; lia.
  - rewrite IH. cbn [app]. f_equal. f_equal. f_equal. f_equal; [lia | unfold sumZ; cbn [fold_right]; lia].
Qed.

Lemma expand_span_run n : forall pos abs ds, (n <= length ds)%nat ->
  expand_span pos abs n ds = (run pos abs (firstn n ds), abs + sumZ (firstn n ds), skipn n ds).
Proof.
  induction n as [|n IH]; intros pos abs ds Hn.
  - cbn. f_equal. f_equal. unfold sumZ; cbn; lia.
  - destruct ds as [|d r]; [cbn in Hn; lia|].
    cbn [expand_span firstn skipn run]. rewrite IH by (cbn in Hn; lia).
    f_equal. f_equal. unfold sumZ. cbn. lia.
Qed.

Lemma sumZ_app a b : sumZ (a ++ b) = sumZ a + sumZ b.
Proof. unfold sumZ. induction a; cbn; lia. Qed.

Lemma sumZ_firstn_skipn n (l : list Z) : sumZ (firstn n l) + sumZ (skipn n l) = sumZ l.
Proof. rewrite <- sumZ_app, firstn_skipn. reflexivity. Qed.

Lemma lens_cons s r : lens (s :: r) = s_len s + lens r.
Proof. reflexivity. Qed.
Lemma extent_cons s r : extent (s :: r) = s_off s + s_len s + extent r.
Proof. reflexivity. Qed.
Lemma lens_nil : lens [] = 0. Proof. reflexivity. Qed.
Lemma extent_nil : extent [] = 0. Proof. reflexivity. Qed.

Lemma lens_nonneg sp : lens_ok sp -> 0 <= lens sp.
Proof. unfold lens. induction 1; cbn [fold_right]; lia. Qed.

(* appending one delta to the last span appends one bucket *)
Lemma expand_snoc_delta : forall done pos abs ds o l d,
  lens_ok done -> 0 <= l -> Z.of_nat (length ds) = lens done + l ->
  expand pos abs (done ++ [mkSpan o (l + 1)]) (ds ++ [d]) =
  expand pos abs (done ++ [mkSpan o l]) ds ++ [(pos + extent done + o + l, abs + sumZ ds + d)].
Proof.
  induction done as [|s r IH]; intros pos abs ds o l d Hok Hl Hlen.
  - rewrite lens_nil in Hlen. rewrite extent_nil. cbn [app expand s_off s_len].
    assert (Hn : Z.to_nat (l + 1) = S (length ds)) by lia.
    assert (Hn' : Z.to_nat l = length ds) by lia.
    rewrite Hn, Hn'.
    rewrite expand_span_run by (rewrite app_length; cbn [length]; lia).
    rewrite expand_span_run by lia.
    replace (S (length ds)) with (length (ds ++ [d])) by (rewrite app_length; cbn [length]; lia).
    rewrite !firstn_all. rewrite run_app. rewrite !app_nil_r.
    f_equal. f_equal. f_equal; lia.
  - inversion Hok as [|? ? Hs Hr]; subst.
    rewrite lens_cons in Hlen. rewrite extent_cons. cbn [app expand].
    assert (Hn : (Z.to_nat (s_len s) <= length ds)%nat).
    { pose proof (lens_nonneg r Hr). lia. }
    rewrite expand_span_run by (rewrite app_length; lia).
    rewrite expand_span_run by assumption.
    rewrite firstn_app, skipn_app.
    replace (Z.to_nat (s_len s) - length ds)%nat with 0%nat by lia.
    cbn [firstn skipn]. rewrite app_nil_r.
    rewrite IH; [|assumption|assumption|].
    + rewrite app_assoc. f_equal. f_equal. f_equal; [lia|].
      pose proof (sumZ_firstn_skipn (Z.to_nat (s_len s)) ds). lia.
    + rewrite skipn_length. lia.
Qed.

(* a trailing empty span denotes nothing *)
Lemma expand_snoc_empty_span : forall sp pos abs ds g,
  expand pos abs (sp ++ [mkSpan g 0]) ds = expand pos abs sp ds.
Proof.
  induction sp as [|s r IH]; intros; cbn [app expand].
  - cbn. reflexivity.
  - destruct (expand_span (pos + s_off s) abs (Z.to_nat (s_len s)) ds) as [[l a] rest].
    rewrite IH. reflexivity.
Qed.

Lemma bucket_at_app a b p : bucket_at (a ++ b) p = bucket_at a p + bucket_at b p.
Proof. unfold bucket_at. induction a as [|x r IH]; cbn; [lia|]. destruct (fst x =? p); lia. Qed.

Lemma lens_app a b : lens (a ++ b) = lens a + lens b.
Proof. unfold lens. induction a; cbn; lia. Qed.
Lemma extent_app a b : extent (a ++ b) = extent a + extent b.
Proof. unfold extent. induction a; cbn; lia. Qed.

(* ---------- the state-level view ---------- *)

Definition Sp (s : st) : list span := sdone s ++ [scur s].
Definition E (s : st) : list (Z * Z) := expand 0 0 (Sp s) (sdeltas s).

(* local well-formedness of the output being built *)
Record L (s : st) : Prop := mkL {
  L_done : lens_ok (sdone s);
  L_cur : 0 <= s_len (scur s);
  L_len : Z.of_nat (length (sdeltas s)) = lens (Sp s);
  L_prev : sprev s = sumZ (sdeltas s);
  L_prev_rng : 0 <= sprev s <= maxInt64;
  L_lo : Forall (fun o => 0 <= o) (tl (map s_off (Sp s))) }.

Lemma tl_app_nonempty {A} (l x : list A) : l <> [] -> tl (l ++ x) = tl l ++ x.
Proof. destruct l; [congruence|reflexivity]. Qed.

Lemma append_delta_spec s c : L s -> 0 <= c <= maxInt64 ->
  L (append_delta s c) /\
  extent (Sp (append_delta s c)) = extent (Sp s) + 1 /\
  (forall p, bucket_at (E (append_delta s c)) p = bucket_at (E s) p + (if extent (Sp s) =? p then c else 0)).
Proof.
  intros [Hd Hc Hl Hp Hr Hlo] Hcr.
  assert (Hsub : sub64 c (sprev s) = c - sprev s).
  { unfold sub64. apply wrap64_id. unfold int64, minInt64, maxInt64 in *. lia. }
  unfold E, Sp in *. destruct s as [dn [o l] ds cnt prev b n].
  cbn [sdone scur sdeltas sprev s_off s_len append_delta] in *.
  rewrite lens_app, lens_cons, lens_nil in Hl. cbn [s_len] in Hl.
  split; [constructor; unfold Sp; cbn [sdone scur sdeltas sprev s_len append_delta]|unfold append_delta; cbn [sdone scur sdeltas s_off s_len]].
  - assumption.
  - lia.
  - rewrite app_length, lens_app, lens_cons, lens_nil. cbn [length s_len]. lia.
  - rewrite sumZ_app, Hsub. unfold sumZ at 2. cbn [fold_right]. lia.
  - lia.
  - rewrite map_app in *. exact Hlo.
  - split.
    + rewrite !extent_app, !extent_cons, !extent_nil. cbn [s_off s_len]. lia.
    + intros p. rewrite expand_snoc_delta by (try assumption; lia).
      rewrite bucket_at_app. f_equal. cbn [bucket_at fold_right fst snd].
      rewrite extent_app, extent_cons, extent_nil. cbn [s_off s_len]. rewrite Hsub.
      replace (0 + extent dn + o + l) with (extent dn + (o + l + 0)) by lia.
      destruct (extent dn + (o + l + 0) =? p); lia.
Qed.

Lemma new_span_spec s g : L s -> 0 <= g ->
  L (new_span s g) /\ extent (Sp (new_span s g)) = extent (Sp s) + g /\ E (new_span s g) = E s.
Proof.
  intros [Hd Hc Hl Hp Hr Hlo] Hg. unfold E, Sp in *.
  rewrite lens_app, lens_cons, lens_nil in Hl.
  split; [constructor; unfold Sp; cbn [sdone scur sdeltas sprev s_len new_span]|unfold new_span; cbn [sdone scur sdeltas s_off s_len]].
  - apply Forall_app. split; [assumption|]. constructor; [assumption|constructor].
  - lia.
  - rewrite !lens_app, !lens_cons, !lens_nil. cbn [s_len]. lia.
  - assumption.
  - assumption.
  - rewrite map_app, tl_app_nonempty by (rewrite map_app; intros H; apply app_eq_nil in H; destruct H; discriminate).
    apply Forall_app. split; [assumption|]. constructor; [assumption|constructor].
  - split; [|apply expand_snoc_empty_span].
    rewrite !extent_app, !extent_cons, !extent_nil. cbn [s_off s_len]. lia.
Qed.

(* the counters that only [step] sets *)
Definition regs (s : st) : Z * Z * Z := (scnt s, sbidx s, snidx s).

Lemma zeros_spec n : forall s, L s ->
  L (zeros n s) /\ extent (Sp (zeros n s)) = extent (Sp s) + Z.of_nat n /\
  (forall p, bucket_at (E (zeros n s)) p = bucket_at (E s) p) /\ regs (zeros n s) = regs s.
Proof.
  induction n as [|n IH]; intros s HL; cbn [zeros].
  - split; [exact HL | split; [lia | split; reflexivity]].
  - destruct (append_delta_spec s 0 HL) as (HL' & Hx & Hb); [unfold maxInt64; lia|].
    destruct (IH _ HL') as (HL'' & Hx' & Hb' & Hr').
    split; [exact HL'' | split; [lia | split; [|exact Hr']]]. intros p. rewrite Hb', Hb. destruct (extent (Sp s) =? p); lia.
Qed.

(* emit: place the collected count [gap] positions after the end of the layout *)
Lemma emit_spec s gap : L s -> 0 <= gap -> 0 <= scnt s <= maxInt64 ->
  let s' := emit s gap in
  L s' /\ extent (Sp s') = extent (Sp s) + gap + 1 /\
  (forall p, bucket_at (E s') p = bucket_at (E s) p + (if extent (Sp s) + gap =? p then scnt s else 0)) /\
  sprev s' = scnt s /\ regs s' = regs s.
Proof.
  intros HL Hg Hc. unfold emit. cbv zeta. destruct (gap >? 2).
  - destruct (new_span_spec s gap HL Hg) as (HL1 & Hx1 & He1).
    destruct (append_delta_spec (new_span s gap) (scnt s) HL1 Hc) as (HL2 & Hx2 & Hb2).
    split; [exact HL2 | split; [lia | split; [|split; reflexivity]]]. intros p. rewrite Hb2, He1, Hx1. reflexivity.
  - destruct (zeros_spec (Z.to_nat gap) s HL) as (HL1 & Hx1 & Hb1 & Hr1).
    destruct (append_delta_spec (zeros (Z.to_nat gap) s) (scnt s) HL1 Hc) as (HL2 & Hx2 & Hb2).
    split; [exact HL2 | split; [lia | split; [|split; [reflexivity | exact Hr1]]]].
    intros p. rewrite Hb2, Hb1, Hx1, Z2Nat.id by assumption. reflexivity.
Qed.

(* [L] looks only at the output being built *)
Lemma L_ext s s' : sdone s' = sdone s -> scur s' = scur s -> sdeltas s' = sdeltas s -> sprev s' = sprev s ->
  L s -> L s'.
Proof. intros E1 E2 E3 E4 [H1 H2 H3 H4 H5 H6]. constructor; unfold Sp in *; rewrite ?E1, ?E2, ?E3, ?E4; assumption. Qed.

(* ---------- the loop of the repaired convertBucketsLayout ---------- *)

Section Loop.
  Variables off k n delta : Z.
  Hypothesis Hoff : int32 off.
  Hypothesis Hk : 0 <= k.
  Hypothesis Hn : 1 <= n <= maxInt32.
  Hypothesis Hon : off + n <= maxInt32.

  Definition T (i : Z) : Z := ashr (i + off) k + 1.

  Lemma in32 i : 0 <= i < n -> int32 (i + off).
  Proof. unfold int32, minInt32, maxInt32 in *. lia. Qed.

  Lemma T_range i : 0 <= i < n -> minInt32 < T i <= maxInt32.
  Proof.
    intros Hi. unfold T. pose proof (ashr_range (i + off) k (in32 i Hi) Hk) as H.
    pose proof (in32 i Hi) as H32. unfold int32, minInt32, maxInt32 in *.
    destruct (i + off <? 0); lia.
  Qed.

  Lemma tgt_T i : 0 <= i < n -> tgt off k i = T i.
  Proof.
    intros Hi. unfold tgt. rewrite (wrap32_id i) by (unfold int32, minInt32, maxInt32 in *; lia).
    rewrite (wrap32_id (i + off)) by (apply in32; assumption).
    apply wrap32_id. pose proof (T_range i Hi). unfold T, int32 in *. lia.
  Qed.

  Lemma T_mono i j : 0 <= i <= j -> j < n -> T i <= T j.
  Proof.
    intros Hij Hj. unfold T.
    pose proof (ashr_mono (i + off) (j + off) k (in32 i ltac:(lia)) (in32 j ltac:(lia)) Hk ltac:(lia)). lia.
  Qed.

  Lemma T_spread i j : 0 <= i <= j -> j < n -> T j - T i <= maxInt32.
  Proof.
    intros Hij Hj. unfold T.
    pose proof (ashr_range (i + off) k (in32 i ltac:(lia)) Hk) as Hi'.
    pose proof (ashr_range (j + off) k (in32 j ltac:(lia)) Hk) as Hj'.
    pose proof (in32 i ltac:(lia)) as A. pose proof (in32 j ltac:(lia)) as B.
    unfold int32, minInt32, maxInt32 in *.
    destruct (Z.ltb_spec (i + off) 0); destruct (Z.ltb_spec (j + off) 0); lia.
  Qed.

  (* what the loop maintains after [i] source buckets, [A] bounding the counts seen so far *)
  Definition G (A i : Z) (s : st) : Prop :=
    L s /\ extent (Sp s) = snidx s + delta /\ T 0 <= snidx s <= sbidx s /\
    sbidx s = T (Z.max 0 (i - 1)) /\ 0 <= scnt s <= A /\ sprev s <= A.

  (* count of bucket p in the output so far, plus the count being collected *)
  Definition B (s : st) (p : Z) : Z :=
    bucket_at (E s) p + (if sbidx s + delta =? p then scnt s else 0).

  (* the gap from the last emitted bucket to the one being collected fits int32 *)
  Lemma gap_ok A i s : G A i s -> 0 <= i <= n ->
    wrap32 (sbidx s - snidx s) = sbidx s - snidx s /\ 0 <= sbidx s - snidx s.
  Proof.
    intros (_ & _ & Hnidx & Hbidx & _) Hi. split; [|lia]. apply wrap32_id.
    pose proof (T_spread 0 (Z.max 0 (i - 1)) ltac:(lia) ltac:(lia)).
    pose proof (T_range 0 ltac:(lia)). unfold int32, minInt32, maxInt32 in *. lia.
  Qed.

  Lemma step_spec A i s c : G A i s -> 0 <= i < n -> 0 <= c -> A + c <= maxInt64 ->
    G (A + c) (i + 1) (step true off k s i c) /\
    forall p, B (step true off k s i c) p = B s p + (if T i + delta =? p then c else 0).
  Proof.
    intros HG Hi Hc HA. destruct (gap_ok A i s HG ltac:(lia)) as [Hg Hg0].
    destruct HG as (HL & Hext & Hnidx & Hbidx & Hcnt & Hprev).
    assert (HTi : sbidx s <= T i) by (rewrite Hbidx; apply T_mono; lia).
    pose proof (T_range i Hi) as HTr. pose proof (T_range 0 ltac:(lia)) as HT0r.
    assert (Hw : wrap64 c = c) by (apply wrap64_id, int64_nonneg; lia).
    assert (Hi1 : Z.max 0 (i + 1 - 1) = i) by lia.
    unfold step. rewrite (tgt_T i Hi), Hw.
    destruct (Z.eqb_spec (sbidx s) (T i)) as [Eb|Eb].
    - (* same target bucket: keep collecting *)
      assert (Ha : add64 (scnt s) c = scnt s + c) by (apply wrap64_id, int64_nonneg; lia).
      rewrite Ha. split.
      + split; [apply (L_ext s); auto|]. unfold Sp in *.
        cbn [set_cnt_bidx scnt sbidx snidx sprev sdone scur]. rewrite Hi1. lia.
      + intros p. unfold B, E, Sp. cbn [set_cnt_bidx scnt sbidx sdone scur sdeltas].
        rewrite Eb. destruct (T i + delta =? p); lia.
    - destruct (Z.eqb_spec (scnt s) 0) as [Ec|Ec].
      + (* nothing collected yet: move on to the new target *)
        split.
        * split; [apply (L_ext s); auto|]. unfold Sp in *.
          cbn [set_cnt_bidx scnt sbidx snidx sprev sdone scur]. rewrite Hi1. lia.
        * intros p. unfold B, E, Sp. cbn [set_cnt_bidx scnt sbidx sdone scur sdeltas].
          rewrite Ec. destruct (sbidx s + delta =? p); destruct (T i + delta =? p); lia.
      + (* emit the collected bucket, then start on the new target *)
        assert (Hb1 : wrap32 (sbidx s + 1) = sbidx s + 1).
        { apply wrap32_id. unfold int32, minInt32, maxInt32 in *. lia. }
        rewrite Hg, Hb1.
        destruct (emit_spec s (sbidx s - snidx s) HL Hg0 ltac:(lia)) as (HL1 & Hx1 & HB1 & Hp1 & Hr1).
        set (s1 := emit s (sbidx s - snidx s)) in *. injection Hr1 as Hc1 Hbi1 Hni1.
        split.
        * split; [apply (L_ext s1); auto|]. unfold Sp in *.
          cbn [set_cnt_bidx set_nidx scnt sbidx snidx sprev sdone scur]. rewrite Hi1. lia.
        * intros p. unfold B, E, Sp in *. cbn [set_cnt_bidx set_nidx scnt sbidx sdone scur sdeltas].
          rewrite HB1, Hext.
          replace (snidx s + delta + (sbidx s - snidx s)) with (sbidx s + delta) by lia. lia.
  Qed.

  Variable adj : bool.
  Hypothesis Htarget : forall i, 0 <= i < n -> target_of off k adj i = T i + delta.

  Lemma loop_spec : forall cs A i s, G A i s -> 0 <= i -> i + Z.of_nat (length cs) <= n ->
    Forall (fun c => 0 <= c) cs -> A + sumZ cs <= maxInt64 ->
    G (A + sumZ cs) (i + Z.of_nat (length cs)) (loop true off k i cs s) /\
    forall p, B (loop true off k i cs s) p = B s p + ref_sum_from off k adj i cs p.
  Proof.
    induction cs as [|c r IH]; intros A i s HG Hi Hlen Hpos HA.
    - cbn [loop length ref_sum_from]. unfold sumZ. cbn [fold_right].
      replace (A + 0) with A by lia. replace (i + Z.of_nat 0) with i by lia.
      split; [assumption|]. intros; lia.
    - inversion Hpos as [|? ? Hc Hr]; subst.
      assert (Hs : sumZ (c :: r) = c + sumZ r) by reflexivity.
      assert (Hr0 : 0 <= sumZ r).
      { clear -Hr. unfold sumZ. induction Hr; cbn [fold_right]; lia. }
      cbn [length] in Hlen. rewrite Hs in *.
      destruct (step_spec A i s c HG ltac:(lia) Hc ltac:(lia)) as (HG1 & HB1).
      destruct (IH (A + c) (i + 1) _ HG1 ltac:(lia) ltac:(lia) Hr ltac:(lia)) as (HG2 & HB2).
      cbn [loop ref_sum_from length]. split.
      + replace (A + (c + sumZ r)) with (A + c + sumZ r) by lia.
        replace (i + Z.of_nat (S (length r))) with (i + 1 + Z.of_nat (length r)) by lia. assumption.
      + intros p. rewrite HB2, HB1, (Htarget i) by lia. lia.
  Qed.

  (* after the loop, the last collected bucket is emitted *)
  Lemma finish_spec A s : G A n s -> A <= maxInt64 ->
    let s2 := emit s (wrap32 (sbidx s - snidx s)) in
    L s2 /\ forall p, bucket_at (E s2) p = B s p.
  Proof.
    intros HG HA. destruct (gap_ok A n s HG ltac:(lia)) as [Hg Hg0]. rewrite Hg.
    destruct HG as (HL & Hext & _ & _ & Hcnt & _).
    destruct (emit_spec s (sbidx s - snidx s) HL Hg0 ltac:(lia)) as (HL2 & _ & HB2 & _).
    split; [exact HL2|]. intros p. rewrite HB2, Hext. unfold B.
    replace (snidx s + delta + (sbidx s - snidx s)) with (sbidx s + delta) by lia. reflexivity.
  Qed.
End Loop.

(* ---------- the bucket-sum theorem ---------- *)

(* inputs for which the re-bucketing is specified (see corr/CorrC43.v, layout_pre) *)
Definition layout_pre_P (cs : list Z) (off k : Z) (adj : bool) : Prop :=
  Forall (fun c => 0 <= c) cs /\ sumZ cs <= maxInt64 /\ int32 off /\
  Z.of_nat (length cs) <= maxInt32 /\ off + Z.of_nat (length cs) <= maxInt32 /\
  0 <= k /\ (adj = true \/ k = 0).

Lemma convert_unfold fixed cs off sd adjust : cs <> [] ->
  convert_buckets_layout_gen fixed cs off sd adjust =
    let n := Z.of_nat (length cs) in
    let b0 := wrap32 (ashr off sd + 1) in
    let init_off := if adjust then b0 else off in
    let s1 := loop fixed off sd 0 cs (mkSt [] (mkSpan init_off 0) [] 0 0 b0 b0) in
    let gap := if fixed then wrap32 (sbidx s1 - snidx s1)
               else wrap32 (ashr (wrap32 (wrap32 n + off - 1)) sd + 1 - sbidx s1) in
    let s2 := emit s1 gap in
    (Sp s2, sdeltas s2).
Proof. destruct cs; [congruence|reflexivity]. Qed.

(* the layout returned for a non-empty array is the output state after the final emit: it is well
   formed and its buckets are the reference sums *)
Lemma convert_spec cs off k adj : layout_pre_P cs off k adj -> cs <> [] ->
  exists s2, convert_buckets_layout cs off k adj = (Sp s2, sdeltas s2) /\ L s2 /\
             forall p, bucket_at (E s2) p = ref_sum cs off k adj p.
Proof.
  intros (Hpos & Hsum & Hoff & Hlen & Hon & Hk & Hadj) Hne.
  set (n := Z.of_nat (length cs)) in *.
  assert (Hn : 1 <= n <= maxInt32).
  { subst n. destruct cs; [congruence|]. cbn [length] in *. lia. }
  set (b0 := wrap32 (ashr off k + 1)). set (init_off := if adj then b0 else off).
  set (s0 := mkSt [] (mkSpan init_off 0) [] 0 0 b0 b0).
  assert (Hb0 : b0 = T off k 0).
  { unfold b0, T. cbn [Z.add]. apply wrap32_id.
    pose proof (T_range off k n Hoff Hk Hon 0 ltac:(lia)) as H. unfold T in H. cbn [Z.add] in H.
    unfold int32. lia. }
  assert (Htarget : forall i, 0 <= i < n -> target_of off k adj i = T off k i + (init_off - b0)).
  { intros i Hi. unfold target_of, T. subst init_off. destruct Hadj as [-> | ->].
    - lia.
    - destruct adj; [lia|]. rewrite Hb0. unfold T. cbn [Z.add]. rewrite !ashr_0. lia. }
  assert (HG0 : G off k (init_off - b0) 0 0 s0).
  { split; [|cbn [s0 scnt sprev sbidx snidx Sp sdone scur app extent fold_right s_off s_len];
              change (Z.max 0 (0 - 1)) with 0; rewrite <- Hb0; lia].
    constructor; cbn [s0 Sp sdone scur sdeltas sprev s_len app length lens fold_right map tl];
      try reflexivity; try constructor; unfold maxInt64; lia. }
  destruct (loop_spec off k n (init_off - b0) Hoff Hk Hn Hon adj Htarget cs 0 0 s0 HG0
              ltac:(lia) ltac:(lia) Hpos ltac:(lia)) as (HG1 & HB1).
  rewrite !Z.add_0_l in HG1. fold n in HG1.
  destruct (finish_spec off k n (init_off - b0) Hoff Hk Hn Hon _ _ HG1 Hsum) as (HL2 & HB2).
  unfold convert_buckets_layout. rewrite convert_unfold by assumption. cbv zeta.
  eexists. split; [reflexivity|]. split; [exact HL2|].
  intros p. rewrite HB2, HB1. unfold B, E, Sp, ref_sum, s0. cbn.
    destruct (b0 + (init_off - b0) =? p); lia.
Qed.

Theorem bucket_sums cs off k adj :
  layout_pre_P cs off k adj ->
  forall p, bucket_at (buckets_of (convert_buckets_layout cs off k adj)) p = ref_sum cs off k adj p.
Proof.
  intros Hpre p. destruct (list_eq_dec Z.eq_dec cs []) as [->|Hne]; [reflexivity|].
  destruct (convert_spec cs off k adj Hpre Hne) as (s2 & -> & _ & H). apply H.
Qed.

(* ---------- the emitted layout is a well-formed encoding ---------- *)

Lemma later_offsets_ok_iff r : later_offsets_ok r = true <-> Forall (fun o => 0 <= o) (map s_off r).
Proof.
  induction r as [|s r IH]; cbn [later_offsets_ok map].
  - split; [constructor|reflexivity].
  - rewrite andb_true_iff, Z.leb_le, IH. split.
    + intros [H1 H2]. constructor; assumption.
    + intros H. inversion H; subst. split; assumption.
Qed.

Lemma L_wf s : L s -> layout_wf (Sp s, sdeltas s) = true.
Proof.
  intros [Hd Hc Hl Hp Hr Hlo]. unfold layout_wf. cbn [fst snd].
  rewrite !andb_true_iff. split; [split|].
  - apply Z.eqb_eq. exact Hl.
  - apply forallb_forall. intros x Hx. apply Z.leb_le. unfold Sp in Hx.
    apply in_app_or in Hx. destruct Hx as [Hx|[<-|[]]]; [|assumption].
    unfold lens_ok in Hd. rewrite Forall_forall in Hd. apply Hd; assumption.
  - destruct (Sp s) as [|x r]; [reflexivity|]. apply later_offsets_ok_iff. exact Hlo.
Qed.

Theorem layout_wf_ok cs off k adj :
  layout_pre_P cs off k adj -> layout_wf (convert_buckets_layout cs off k adj) = true.
Proof.
  intros Hpre. destruct (list_eq_dec Z.eq_dec cs []) as [->|Hne]; [reflexivity|].
  destruct (convert_spec cs off k adj Hpre Hne) as (s2 & -> & H & _). apply L_wf, H.
Qed.

(* a well-formed layout lists its buckets in strictly increasing index order, so [bucket_at]
   is the count of THE bucket with that index *)
Fixpoint increasing_from (lo : Z) (l : list (Z * Z)) : Prop :=
  match l with [] => True | (p, _) :: r => lo <= p /\ increasing_from (p + 1) r end.

(* ---------- data points ---------- *)

Lemma convert_timestamp_ms ns : 0 <= ns <= maxInt64 ->
  convert_timestamp ns = ns / 1000000 /\
  1000000 * convert_timestamp ns <= ns < 1000000 * (convert_timestamp ns + 1).
Proof.
  intros H. unfold convert_timestamp, godiv. rewrite wrap64_id by (apply int64_nonneg; assumption).
  rewrite Z.quot_div_nonneg by lia. split; [reflexivity|].
  pose proof (Z.div_mod ns 1000000 ltac:(lia)). pose proof (Z.mod_pos_bound ns 1000000 ltac:(lia)). lia.
Qed.

Lemma sum_count_spec norec hassum sum count :
  let sc := fst (sum_count norec hassum sum count) in
  (norec = true -> fst sc = staleNaN /\ snd sc = staleNaN) /\
  (norec = false -> snd sc = count /\ fst sc = (if hassum then sum else 0)).
Proof. unfold sum_count. destruct norec; split; intros; try discriminate; split; reflexivity. Qed.

Definition scale_down (scale : Z) : Z := Z.max 0 (scale - 8).

Lemma exp_to_native_spec p delta :
  int32 (e_scale p) ->
  (e_scale p < -4 -> exp_to_native true p delta = None) /\
  (-4 <= e_scale p -> exists h w, exp_to_native true p delta = Some (h, w) /\
     schema h = Z.min (e_scale p) 8 /\
     hint h = (if delta then hintGauge else hintUnknown) /\
     zcount h = e_zero p /\ custom h = [] /\
     (e_norec p = true -> hsum h = staleNaN /\ hcount h = staleNaN) /\
     (e_norec p = false -> hcount h = e_count p /\ hsum h = (if e_hassum p then e_sum p else 0)) /\
     (layout_pre_P (b_counts (e_pos p)) (b_off (e_pos p)) (scale_down (e_scale p)) true ->
        layout_wf (pspans h, pdeltas h) = true /\
        forall i, bucket_at (buckets_of (pspans h, pdeltas h)) i =
                  ref_sum (b_counts (e_pos p)) (b_off (e_pos p)) (scale_down (e_scale p)) true i) /\
     (layout_pre_P (b_counts (e_neg p)) (b_off (e_neg p)) (scale_down (e_scale p)) true ->
        layout_wf (nspans h, ndeltas h) = true /\
        forall i, bucket_at (buckets_of (nspans h, ndeltas h)) i =
                  ref_sum (b_counts (e_neg p)) (b_off (e_neg p)) (scale_down (e_scale p)) true i)).
Proof.
  intros Hs. unfold exp_to_native. destruct (Z.ltb_spec (e_scale p) (-4)); (split; intros H0; try lia; auto).
  assert (Hsd : (if e_scale p >? 8 then wrap32 (e_scale p - 8) else 0) = scale_down (e_scale p)).
  { unfold scale_down. destruct (Z.gtb_spec (e_scale p) 8).
    - rewrite wrap32_id by (unfold int32, minInt32, maxInt32 in *; lia). lia.
    - lia. }
  rewrite Hsd.
  destruct (sum_count_spec (e_norec p) (e_hassum p) (e_sum p) (e_count p)) as [Hsc1 Hsc2].
  destruct (sum_count (e_norec p) (e_hassum p) (e_sum p) (e_count p)) as [[s c] w].
  eexists. eexists. split; [reflexivity|].
  cbn [schema hint zcount custom hsum hcount pspans pdeltas nspans ndeltas]. rewrite <- !surjective_pairing.
  repeat split; auto using layout_wf_ok, bucket_sums; try (apply Hsc1; assumption); try (apply Hsc2; assumption).
  destruct (Z.gtb_spec (e_scale p) 8); lia.
Qed.

(* ---------- explicit buckets -> custom buckets ---------- *)

(* without the index shift, bucket p holds the element p - off of the count array *)
Lemma ref_sum_nth o : forall cs i p,
  ref_sum_from o 0 false i cs p = if i + o <=? p then nth (Z.to_nat (p - i - o)) cs 0 else 0.
Proof.
  induction cs as [|c r IH]; intros i p; cbn [ref_sum_from].
  - destruct (i + o <=? p); destruct (Z.to_nat (p - i - o)); reflexivity.
  - rewrite IH. unfold target_of.
    destruct (Z.leb_spec (i + o) p), (Z.leb_spec (i + 1 + o) p), (Z.eqb_spec (i + o) p); try lia.
    + replace (Z.to_nat (p - i - o)) with (S (Z.to_nat (p - (i + 1) - o))) by lia. reflexivity.
    + replace (p - i - o) with 0 by lia. cbn. lia.
Qed.

Lemma leading_zeros_cons c r : leading_zeros (c :: r) = if c =? 0 then S (leading_zeros r) else O.
Proof. destruct c; reflexivity. Qed.

(* getBucketOffset skips zeros only *)
Lemma lz_facts cs :
  (leading_zeros cs <= length cs)%nat /\
  sumZ (skipn (leading_zeros cs) cs) = sumZ cs /\
  (Forall (fun c => 0 <= c) cs -> Forall (fun c => 0 <= c) (skipn (leading_zeros cs) cs)) /\
  forall m, nth m cs 0 = if (m <? leading_zeros cs)%nat then 0 else nth (m - leading_zeros cs) (skipn (leading_zeros cs) cs) 0.
Proof.
  induction cs as [|c r (IH1 & IH2 & IH3 & IH4)].
  - repeat split; auto. intros [|m]; reflexivity.
  - rewrite leading_zeros_cons. destruct (Z.eqb_spec c 0) as [->|Hc]; cbn [skipn length].
    + repeat split; [lia | exact IH2 | intros H; inversion H; auto | intros [|m]; [reflexivity | apply IH4]].
    + repeat split; auto; [lia|]. intros m. rewrite Nat.sub_0_r. reflexivity.
Qed.

(* the positive buckets of the custom-buckets histogram are the count array, element by element *)
Lemma custom_layout cs :
  Forall (fun c => 0 <= c) cs -> sumZ cs <= maxInt64 -> Z.of_nat (length cs) <= maxInt32 ->
  let o := leading_zeros cs in
  let ps := convert_buckets_layout (skipn o cs) (wrap32 (Z.of_nat o)) 0 false in
  layout_wf ps = true /\
  forall j, bucket_at (buckets_of ps) j =
            if (0 <=? j) && (j <? Z.of_nat (length cs)) then nth (Z.to_nat j) cs 0 else 0.
Proof.
  intros Hpos Hsum Hlen o. destruct (lz_facts cs) as (Hle & Hs & Hf & Hr). fold o in Hle, Hs, Hf, Hr.
  rewrite (wrap32_id (Z.of_nat o)) by (unfold int32, minInt32, maxInt32 in *; lia).
  assert (Hpre : layout_pre_P (skipn o cs) (Z.of_nat o) 0 false).
  { unfold layout_pre_P, int32, minInt32, maxInt32 in *. rewrite skipn_length, Hs.
    repeat split; auto; lia. }
  split; [apply layout_wf_ok, Hpre|].
  intros j. rewrite bucket_sums by assumption. unfold ref_sum. rewrite ref_sum_nth, Z.add_0_l, Z.sub_0_r.
  destruct (Z.leb_spec 0 j) as [H0|H0]; [|destruct (Z.leb_spec (Z.of_nat o) j); [lia | reflexivity]].
  rewrite (Hr (Z.to_nat j)). cbn [andb].
  destruct (Z.leb_spec (Z.of_nat o) j), (Nat.ltb_spec (Z.to_nat j) o); try lia.
  - replace (Z.to_nat (j - Z.of_nat o)) with (Z.to_nat j - o)%nat by lia.
    destruct (Z.ltb_spec j (Z.of_nat (length cs))); [reflexivity|].
    apply nth_overflow. rewrite skipn_length. lia.
  - destruct (j <? _); reflexivity.
Qed.

Definition hist_pre (p : histpt) : Prop :=
  Forall (fun c => 0 <= c) (h_counts p) /\ sumZ (h_counts p) <= maxInt64 /\
  Z.of_nat (length (h_counts p)) <= maxInt32.

