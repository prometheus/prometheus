(* proof/ScrapeProofs.v — proofs about model/Scrape.v (the scrape loop of one target).

   For any state: the shape of what a step hands to the storage — a failed scrape commits nothing
   but staleness markers and its report; markers carry the scrape time ([failed_step_shape]).
   For histories without reference changes: the cache invariant [cache_wf]; the loop over the
   lines of a body keeps [linv], which ties it to a body-only reference semantics ([abs_entry])
   until the sample limit is hit; [append_body_spec] says what scrapeLoop.append does with a
   body; then the step lemmas and the induction over histories.
   Last, the refutation of "a body that fails after samples were appended is treated like a
   failed scrape for staleness". *)
From Coq Require Import List ZArith Bool Lia.
From Verif Require Import lib.SortedList model.Scrape.
Import ListNotations.
Open Scope Z_scope.

Section AssocLemmas.
  Context {V : Type}.
  Implicit Types (m : list (Z * V)) (k : Z) (v : V).

  Lemma aget_aset_eq m k v : aget k (aset k v m) = Some v.
  Proof.
    induction m as [|[k' v'] r IH]; cbn.
    - now rewrite Z.eqb_refl.
    - destruct (k' =? k) eqn:E; cbn; [now rewrite Z.eqb_refl | now rewrite E].
  Qed.

  Lemma aget_aset_neq m k k' v : k' <> k -> aget k' (aset k v m) = aget k' m.
  Proof.
    intros N. induction m as [|[k1 v1] r IH]; cbn.
    - destruct (k =? k') eqn:E; [apply Z.eqb_eq in E; congruence | reflexivity].
    - destruct (k1 =? k) eqn:E; cbn.
      + apply Z.eqb_eq in E. subst k1.
        destruct (k =? k') eqn:E2; [apply Z.eqb_eq in E2; congruence | reflexivity].
      + destruct (k1 =? k'); [reflexivity | exact IH].
  Qed.

  Lemma aget_In m k v : aget k m = Some v -> In (k, v) m.
  Proof.
    induction m as [|[k1 v1] r IH]; cbn; [discriminate|].
    destruct (k1 =? k) eqn:E.
    - apply Z.eqb_eq in E. intros [= ->]. subst. now left.
    - intros H. right. now apply IH.
  Qed.

  Lemma In_amem m k v : In (k, v) m -> amem k m = true.
  Proof.
    unfold amem. induction m as [|[k1 v1] r IH]; cbn; [tauto|].
    intros [[= -> ->]|H].
    - now rewrite Z.eqb_refl.
    - destruct (k1 =? k); [reflexivity | now apply IH].
  Qed.

  Lemma amem_In m k : amem k m = true -> exists v, In (k, v) m.
  Proof.
    unfold amem. destruct (aget k m) eqn:E; [|discriminate]. intros _. eexists. eapply aget_In; eauto.
  Qed.

  Lemma In_aset m k v k1 v1 : In (k1, v1) (aset k v m) -> (k1 = k /\ v1 = v) \/ In (k1, v1) m.
  Proof.
    induction m as [|[k2 v2] r IH]; cbn.
    - intros [[= <- <-]|[]]. now left.
    - destruct (k2 =? k) eqn:E; cbn.
      + intros [[= <- <-]|H]; [now left | right; now right].
      + intros [H|H]; [right; now left|]. destruct (IH H) as [?|?]; [now left | right; now right].
  Qed.

  Lemma Forall_aset (P : Z * V -> Prop) m k v : Forall P m -> P (k, v) -> Forall P (aset k v m).
  Proof.
    intros F Pk. apply Forall_forall. intros [k1 v1] I.
    destruct (In_aset _ _ _ _ _ I) as [[-> ->]|I']; [exact Pk|].
    rewrite Forall_forall in F. now apply F.
  Qed.

  Lemma amem_aset m k v k' : amem k' (aset k v m) = (k' =? k) || amem k' m.
  Proof.
    unfold amem. destruct (Z.eqb_spec k' k) as [->|N].
    - now rewrite aget_aset_eq.
    - now rewrite aget_aset_neq.
  Qed.
End AssocLemmas.

Section Shape.
  Variable c : cfg.
  Variable mut : Z -> mres.
  Variable rep : Z -> Z.

  Definition marker_at (t : Z) (x : app) : Prop := a_val x = VStale /\ a_t x = t.

  Lemma base_append_apps s r l t v s' rout :
    base_append c s r l t v = (s', rout) -> l_apps s' = mkApp r l t v rout :: l_apps s.
  Proof.
    unfold base_append. destruct (st_append c (l_store s) r l t). now intros [= <- <-].
  Qed.

  (* the markers of an empty scrape go to the storage appender directly *)
  Lemma stale_appends_apps t l : forall s s' ok,
    stale_appends c false t s l = (s', ok) ->
    exists new, l_apps s' = new ++ l_apps s /\ Forall (marker_at t) new.
  Proof.
    induction l as [|[r ls] rest IH]; intros s s' ok; cbn [stale_appends].
    - intros [= <- <-]. now exists [].
    - destruct (base_append c s r ls t VStale) as [s1 ro] eqn:E. apply base_append_apps in E.
      destruct (negb (ro =? 0)).
      + intros H. apply IH in H as (n2 & A2 & F2). exists (n2 ++ [mkApp r ls t VStale ro]).
        rewrite A2, E, <- app_assoc. split; [reflexivity|]. apply Forall_app. now repeat constructor.
      + intros [= <- _]. exists [mkApp r ls t VStale ro]. now repeat constructor.
  Qed.

  Lemma add_report_apps s idx t v s' ok :
    add_report c rep s idx t v = (s', ok) ->
    exists x, l_apps s' = x :: l_apps s /\ a_val x = v /\ a_t x = t /\
              (ok = true -> a_rout x <> 0).
  Proof.
    unfold add_report.
    destruct (cache_get (l_cache s) (- (idx + 1))) as [ca1 g].
    destruct (match g with Some (eid, _) => _ | None => _ end) as [r ls].
    destruct (base_append c (with_cache s ca1) r ls t v) as [s1 ro] eqn:E3.
    apply base_append_apps in E3.
    destruct (ro =? 0) eqn:E4.
    - intros [= <- <-]. eexists. split; [exact E3|]. cbn. repeat split; auto. discriminate.
    - apply Z.eqb_neq in E4. destruct g as [p|]; intros [= <- <-]; eexists; (split; [exact E3|]); cbn; auto.
  Qed.

  (* report appends: values are a prefix of the requested values, all at time t *)
  Lemma add_reports_apps t vals : forall s s' ok,
    add_reports c rep s t vals = (s', ok) ->
    exists new, l_apps s' = rev new ++ l_apps s /\
                map a_val new = firstn (length new) (map snd vals) /\
                Forall (fun x => a_t x = t) new /\
                (ok = true -> length new = length vals /\ Forall (fun x => a_rout x <> 0) new).
  Proof.
    induction vals as [|[idx v] rest IH]; intros s s' ok; cbn [add_reports].
    - intros [= <- <-]. exists []. cbn. repeat split; auto.
    - destruct (add_report c rep s idx t v) as [s1 ok1] eqn:E.
      apply add_report_apps in E. destruct E as (x & A & B & C1 & C2).
      destruct ok1.
      + intros H. apply IH in H. destruct H as (n2 & D1 & D2 & D3 & D4).
        exists (x :: n2). cbn. rewrite D1, A, <- app_assoc. cbn. repeat split.
        * now rewrite B, D2.
        * constructor; auto.
        * destruct (D4 H) as [L F]. now rewrite L.
        * destruct (D4 H) as [L F]. constructor; auto.
      + intros [= <- <-]. exists [x]. cbn. rewrite A, B. repeat split; auto; discriminate.
  Qed.

  Definition last_batch_shape (t : Z) (vals : list (Z * val)) (bs : list batch) : Prop :=
    exists pre last markers reps,
      bs = pre ++ [last] /\ Forall (fun b => b_commit b = false) pre /\
      b_apps last = markers ++ reps /\
      Forall (marker_at t) markers /\
      Forall (fun x => a_t x = t) reps /\
      map a_val reps = firstn (length reps) (map snd vals) /\
      (b_commit last = true -> length reps = length vals /\ Forall (fun x => a_rout x <> 0) reps).

  Lemma finish_shape t ca st vals ca' st' bs :
    finish c rep t ca st vals = (ca', st', bs) -> last_batch_shape t vals bs.
  Proof.
    unfold finish, append_empty.
    destruct (stale_appends c false t (fresh ca st) (stale_list (l_cache (fresh ca st)))) as [s1 ok1] eqn:E1.
    apply stale_appends_apps in E1. destruct E1 as (mk & A1 & A2).
    cbn [l_apps fresh] in A1. rewrite app_nil_r in A1.
    (* whether or not the marker appender is kept, the report goes on top of markers only *)
    set (s1' := with_cache s1 (iter_done (l_cache s1) false)).
    assert (PRE : exists pre s2 mk2,
              (if ok1 then ([], s1') else ([batch_of false s1'], fresh (l_cache s1') (l_store s1'))) = (pre, s2) /\
              Forall (fun b => b_commit b = false) pre /\ l_apps s2 = mk2 /\ Forall (marker_at t) mk2).
    { destruct ok1; [exists [], s1', mk|exists [batch_of false s1'], (fresh (l_cache s1') (l_store s1')), []];
        now repeat constructor. }
    destruct PRE as (pre & s2 & mk2 & -> & P & A & M).
    destruct (add_reports c rep s2 t vals) as [s3 ok3] eqn:E3.
    apply add_reports_apps in E3 as (new & B1 & B2 & B3 & B4). rewrite A in B1.
    intros [= <- <- <-]. exists pre, (batch_of ok3 s3), (rev mk2), new.
    split; [reflexivity|]. split; [exact P|].
    split; [unfold batch_of; cbn; now rewrite B1, rev_app_distr, rev_involutive|].
    split; [now apply Forall_rev|]. split; [exact B3|]. split; [exact B2|exact B4].
  Qed.

  (* the step fails: a scrape error, or scrapeLoop.append returned an error *)
  Definition step_failed (S : cache * store) (sp : step) : Prop :=
    match st_out sp with
    | OFail _ => True
    | OGone => False
    | OBody es bad len =>
        len <> 0 /\
        snd (append_body c mut (st_time sp) (fst S) (st_gc_apply (snd S) (st_gc sp)) es bad) = false
    end.

  Lemma failed_step_shape S sp S' bs :
    do_step c mut rep S sp = (S', bs) -> step_failed S sp ->
    exists total added sadded bytes,
      last_batch_shape (st_time sp) (report_vals c 0 total added sadded bytes) bs.
  Proof.
    unfold do_step, step_failed. destruct S as [ca st0]. cbn [fst snd].
    destruct (st_out sp) as [es bad len|bsz|].
    - intros H [Hl Hf]. apply Z.eqb_neq in Hl. rewrite Hl in H.
      destruct (append_body c mut (st_time sp) ca (st_gc_apply st0 (st_gc sp)) es bad) as [s1 ok] eqn:E.
      cbn in Hf. subst ok.
      destruct (finish c rep (st_time sp) (l_cache s1) (l_store s1) _) as [[ca' st'] bs'] eqn:F.
      apply finish_shape in F. injection H as <- <-.
      exists (l_total s1), (l_added s1), (l_sadded s1), len.
      destruct F as (pre & last & mk & reps & F1 & F2 & F3).
      exists (batch_of false s1 :: pre), last, mk, reps. rewrite F1. split; [reflexivity|].
      split; [constructor; auto|exact F3].
    - intros H _.
      destruct (finish c rep (st_time sp) ca _ _) as [[ca' st'] bs'] eqn:F.
      apply finish_shape in F. injection H as <- <-. do 4 eexists. exact F.
    - intros _ [].
  Qed.
End Shape.

Definition memb (x : Z) (l : list Z) : bool := existsb (Z.eqb x) l.
Lemma memb_In x l : memb x l = true <-> In x l.
Proof. apply (existsb_eqb_In Z.eqb Z.eqb_eq). Qed.

(* the reference the recording storage gives label set l while it never forgets a series *)
Definition R (l : Z) : Z := l * ref_base + 1.
Lemma R_inj l1 l2 : R l1 = R l2 -> l1 = l2.
Proof. unfold R, ref_base. lia. Qed.
Lemma R_nz l : R l <> 0.
Proof. unfold R, ref_base. lia. Qed.
Lemma R_div l : R l / ref_base = l.
Proof. unfold R, ref_base. rewrite Z.div_add_l by lia. cbn. lia. Qed.

Definition store_ok (st : store) : Prop :=
  (forall l r, aget l (s_live st) = Some r -> r = R l) /\
  (forall l g, aget l (s_gen st) = Some g -> aget l (s_live st) <> None).

Definition live_le (st st' : store) : Prop :=
  forall l x, aget l (s_live st) = Some x -> aget l (s_live st') = Some x.

(* an append under the live reference leaves the storage as it is *)
Lemma st_append_live (c : cfg) st l t :
  min_valid c <= t -> aget l (s_live st) = Some (R l) -> st_append c st (R l) l t = (st, R l).
Proof.
  intros Ht HL. unfold st_append.
  now rewrite (proj2 (Z.ltb_ge _ _) Ht), (proj2 (Z.eqb_neq _ _) (R_nz l)), R_div, HL, Z.eqb_refl.
Qed.

Lemma st_append_ok (c : cfg) st r l t :
  store_ok st -> min_valid c <= t ->
  (r = 0 \/ (r = R l /\ aget l (s_live st) = Some r)) ->
  exists st', st_append c st r l t = (st', R l) /\ store_ok st' /\
              aget l (s_live st') = Some (R l) /\ live_le st st'.
Proof.
  intros [SO1 SO2] Ht Hr. destruct Hr as [->|[-> HL]].
  - unfold st_append. rewrite (proj2 (Z.ltb_ge _ _) Ht). cbn [Z.eqb negb andb].
    destruct (aget l (s_live st)) as [r'|] eqn:EL.
    + exists st. pose proof (SO1 _ _ EL) as ->. repeat split; auto; try (intros ? ? H; exact H).
    + destruct (aget l (s_gen st)) as [g|] eqn:EG.
      { exfalso. apply (SO2 _ _ EG). exact EL. }
      eexists. split; [reflexivity|]. unfold store_ok, live_le. cbn [s_live s_gen].
      assert (E1 : l * ref_base + 1 = R l) by reflexivity. rewrite E1.
      split; [split|split].
      * intros l0 r0. destruct (Z.eq_dec l0 l) as [->|N].
        -- rewrite aget_aset_eq. now intros [= <-].
        -- rewrite aget_aset_neq by auto. apply SO1.
      * intros l0 g0. destruct (Z.eq_dec l0 l) as [->|N].
        -- rewrite !aget_aset_eq. intros _. discriminate.
        -- rewrite !aget_aset_neq by auto. apply SO2.
      * apply aget_aset_eq.
      * intros l0 x H. destruct (Z.eq_dec l0 l) as [->|N]; [congruence|].
        now rewrite aget_aset_neq.
  - exists st. rewrite st_append_live by assumption. repeat split; auto; intros ? ? H; exact H.
Qed.

Definition heap_le (h h' : list (Z * entry)) : Prop :=
  forall eid e, aget eid h = Some e ->
    exists e', aget eid h' = Some e' /\ e_ref e' = e_ref e /\ e_lset e' = e_lset e.

Lemma heap_le_refl h : heap_le h h.
Proof. intros eid e H. eauto. Qed.
Lemma heap_le_trans h1 h2 h3 : heap_le h1 h2 -> heap_le h2 h3 -> heap_le h1 h3.
Proof.
  intros A B eid e H. destruct (A _ _ H) as (e' & H' & E1 & E2).
  destruct (B _ _ H') as (e'' & H'' & E3 & E4). exists e''. repeat split; congruence.
Qed.

Section NoGC.
  Variable c : cfg.
  Variable mut : Z -> mres.
  Variable rep : Z -> Z.

  (* the label set a cached metric text must carry: the relabeling result for an exposed
     text (met >= 0), the report series' label set for the report names (met = -(idx+1)) *)
  Definition exp_lset (met : Z) : option Z :=
    if 0 <=? met then match mut met with MKeep l => Some l | _ => None end
    else Some (rep (- met - 1)).

  Lemma exp_lset_nonneg met l : 0 <= met -> exp_lset met = Some l -> mut met = MKeep l.
  Proof.
    unfold exp_lset. intros H. apply Z.leb_le in H. rewrite H.
    destruct (mut met); congruence.
  Qed.

  Definition tracked_pairs (h : list (Z * entry)) (m : list (Z * Z)) : Prop :=
    Forall (fun p : Z * Z => exists e, aget (snd p) h = Some e /\ e_ref e = fst p) m.

  Record cache_wf (ca : cache) (st : store) : Prop := mkWf {
    wf_series : forall met eid, In (met, eid) (c_series ca) ->
                  exists e, aget eid (c_heap ca) = Some e;
    wf_inj : forall m1 m2 eid, In (m1, eid) (c_series ca) -> In (m2, eid) (c_series ca) -> m1 = m2;
    wf_heap : forall eid e, aget eid (c_heap ca) = Some e ->
                eid < c_next ca /\ e_ref e = R (e_lset e) /\ aget (e_lset e) (s_live st) = Some (e_ref e);
    wf_keep : forall met eid e, In (met, eid) (c_series ca) ->
                aget eid (c_heap ca) = Some e -> exp_lset met = Some (e_lset e) /\ e_last e <= c_iter ca;
    wf_drop : forall met it, 0 <= met -> In (met, it) (c_dropped ca) -> mut met = MDrop;
    wf_cur : tracked_pairs (c_heap ca) (c_cur ca);
    wf_prev : tracked_pairs (c_heap ca) (c_prev ca)
  }.

  Lemma wf_series_g ca st met eid : cache_wf ca st -> aget met (c_series ca) = Some eid ->
    exists e, aget eid (c_heap ca) = Some e.
  Proof. intros W H. eapply wf_series; eauto using aget_In. Qed.

  Lemma tracked_pairs_le h h' m : heap_le h h' -> tracked_pairs h m -> tracked_pairs h' m.
  Proof.
    intros L F. unfold tracked_pairs in *. rewrite Forall_forall in *. intros p I.
    destruct (F p I) as (e & H & E). destruct (L _ _ H) as (e' & H' & E1 & E2).
    exists e'. split; congruence.
  Qed.

  Lemma wf_store_mono ca st st' : cache_wf ca st -> live_le st st' -> cache_wf ca st'.
  Proof.
    intros W L. destruct W. constructor; auto.
    intros eid e H. destruct (wf_heap0 _ _ H) as (A & B & C). repeat split; auto.
  Qed.

  Lemma heap_le_touch h eid e it :
    aget eid h = Some e -> heap_le h (aset eid (mkEntry (e_ref e) (e_lset e) it) h).
  Proof.
    intros H eid' e' H'. destruct (Z.eq_dec eid' eid) as [->|N].
    - rewrite aget_aset_eq. eexists. split; [reflexivity|]. cbn. split; congruence.
    - rewrite aget_aset_neq by auto. eauto.
  Qed.

  Lemma wf_touch ca st eid e it :
    cache_wf ca st -> aget eid (c_heap ca) = Some e -> it <= c_iter ca ->
    cache_wf (set_heap ca (aset eid (mkEntry (e_ref e) (e_lset e) it) (c_heap ca))) st.
  Proof.
    intros W H Hit. pose proof (heap_le_touch _ _ _ it H) as HL. destruct W.
    constructor; cbn [c_series c_heap c_next c_iter c_dropped c_cur c_prev set_heap]; auto.
    - intros met eid' Hs. destruct (wf_series0 _ _ Hs) as (e' & He'). destruct (HL _ _ He') as (e'' & ? & _). eauto.
    - intros eid' e'. destruct (Z.eq_dec eid' eid) as [->|N].
      + rewrite aget_aset_eq. intros [= <-]. cbn. apply (wf_heap0 _ _ H).
      + rewrite aget_aset_neq by auto. apply wf_heap0.
    - intros met eid' e' Hs. destruct (Z.eq_dec eid' eid) as [->|N].
      + rewrite aget_aset_eq. intros [= <-]. cbn. destruct (wf_keep0 _ _ _ Hs H). split; auto.
      + rewrite aget_aset_neq by auto. now apply wf_keep0.
    - eapply tracked_pairs_le; eauto.
    - eapply tracked_pairs_le; eauto.
  Qed.

  (* scrapeCache.get on a cached metric text touches the entry and changes nothing else *)
  Lemma cache_get_hit ca st met eid :
    cache_wf ca st -> aget met (c_series ca) = Some eid ->
    exists e, aget eid (c_heap ca) = Some e /\ heap_get ca eid = e /\
      e_ref e = R (e_lset e) /\ aget (e_lset e) (s_live st) = Some (e_ref e) /\
      exp_lset met = Some (e_lset e) /\
      heap_get (set_heap ca (aset eid (mkEntry (e_ref e) (e_lset e) (c_iter ca)) (c_heap ca))) eid =
        mkEntry (e_ref e) (e_lset e) (c_iter ca) /\
      cache_wf (set_heap ca (aset eid (mkEntry (e_ref e) (e_lset e) (c_iter ca)) (c_heap ca))) st.
  Proof.
    intros W ES. destruct (wf_series_g _ _ _ _ W ES) as (e & HE). exists e.
    destruct (wf_keep _ _ W _ _ _ (aget_In _ _ _ ES) HE) as [EX _].
    destruct (wf_heap _ _ W _ _ HE) as (_ & HR & HLIVE).
    split; [exact HE|]. split; [unfold heap_get; now rewrite HE|].
    split; [exact HR|]. split; [exact HLIVE|]. split; [exact EX|].
    split; [unfold heap_get; cbn; now rewrite aget_aset_eq|]. apply wf_touch; auto. lia.
  Qed.

  Lemma wf_set_dropped ca st met it :
    cache_wf ca st -> (0 <= met -> mut met = MDrop) ->
    cache_wf (set_dropped ca (aset met it (c_dropped ca))) st.
  Proof.
    intros W Hd. destruct W. constructor; cbn; auto.
    intros met' it' Hm I. destruct (In_aset _ _ _ _ _ I) as [[-> ->]|I']; auto. eapply wf_drop0; eauto.
  Qed.

  Lemma wf_track ca st r eid e :
    cache_wf ca st -> aget eid (c_heap ca) = Some e -> e_ref e = r ->
    cache_wf (track ca r eid) st.
  Proof.
    intros W H E. destruct W. constructor; cbn; auto.
    apply Forall_aset; auto. cbn. eauto.
  Qed.

  Lemma track_if (b : bool) ca r eid :
    (if b then track ca r eid else ca) = set_cur ca (if b then aset r eid (c_cur ca) else c_cur ca).
  Proof. destruct b, ca; reflexivity. Qed.

  Lemma wf_add_ref ca st met l it :
    cache_wf ca st ->
    exp_lset met = Some l -> aget l (s_live st) = Some (R l) -> c_iter ca = it ->
    cache_wf (fst (add_ref ca met (R l) l)) st /\
    aget (c_next ca) (c_heap (fst (add_ref ca met (R l) l))) = Some (mkEntry (R l) l it) /\
    aget (c_next ca) (c_heap ca) = None.
  Proof.
    intros W Hk Hl Hit. destruct W. unfold add_ref. cbn [fst].
    assert (Hfresh : aget (c_next ca) (c_heap ca) = None).
    { destruct (aget (c_next ca) (c_heap ca)) eqn:E; auto. destruct (wf_heap0 _ _ E). lia. }
    assert (HL : heap_le (c_heap ca) (aset (c_next ca) (mkEntry (R l) l (c_iter ca)) (c_heap ca))).
    { intros eid e H. destruct (Z.eq_dec eid (c_next ca)) as [->|N]; [congruence|].
      rewrite aget_aset_neq by auto. eauto. }
    assert (Hold : forall m x, In (m, x) (c_series ca) -> x <> c_next ca).
    { intros m x I ->. destruct (wf_series0 _ _ I). congruence. }
    split; [|split; [|exact Hfresh]].
    2:{ cbn. rewrite aget_aset_eq. now rewrite Hit. }
    constructor; cbn [c_series c_heap c_next c_iter c_dropped c_cur c_prev].
    - intros met' eid I. destruct (In_aset _ _ _ _ _ I) as [[-> ->]|I'].
      + rewrite aget_aset_eq. eauto.
      + destruct (wf_series0 _ _ I') as (e & He). destruct (HL _ _ He) as (e' & ? & _). eauto.
    - intros m1 m2 eid I1 I2.
      destruct (In_aset _ _ _ _ _ I1) as [[-> ->]|I1'], (In_aset _ _ _ _ _ I2) as [[-> E2]|I2']; auto.
      + exfalso. eapply Hold; eauto.
      + exfalso. subst. eapply Hold; eauto.
      + eapply wf_inj0; eauto.
    - intros eid e. destruct (Z.eq_dec eid (c_next ca)) as [->|N].
      + rewrite aget_aset_eq. intros [= <-]. cbn. repeat split; auto. lia.
      + rewrite aget_aset_neq by auto. intros H. destruct (wf_heap0 _ _ H) as (A & B & C0).
        repeat split; auto. lia.
    - intros met' eid e I. destruct (In_aset _ _ _ _ _ I) as [[-> ->]|I'].
      + rewrite aget_aset_eq. intros [= <-]. cbn. split; [exact Hk|lia].
      + assert (eid <> c_next ca) by (eapply Hold; eauto).
        rewrite aget_aset_neq by auto. now apply wf_keep0.
    - exact wf_drop0.
    - eapply tracked_pairs_le; eauto.
    - eapply tracked_pairs_le; eauto.
  Qed.
End NoGC.

Record abs := mkAbs {
  ab_seen : list Z;                 (* metric texts stored so far in this body *)
  ab_samples : list (Z * Z * Z);    (* (label set, t, value) stored, newest first *)
  ab_tracked : list Z;              (* label sets tracked for staleness *)
  ab_total : Z;                     (* lines *)
  ab_added : Z                      (* lines left after relabeling *)
}.
Definition abs0 : abs := mkAbs [] [] [] 0 0.

Section Sim.
  Variable c : cfg.
  Variable mut : Z -> mres.
  Variable rep : Z -> Z.

  Definition eff_ts (en : body_entry) : option Z := if honor_ts c then en_ts en else None.
  Definition eff_t (defT : Z) (en : body_entry) : Z :=
    match eff_ts en with Some x => x | None => defT end.
  Definition nots (en : body_entry) : bool :=
    match eff_ts en with None => true | Some _ => false end.

  (* one exposition line: dropped lines only count as scraped; a line without timestamp of a
     metric text already stored from this body is a duplicate; everything else is stored *)
  Definition abs_entry (defT : Z) (a : abs) (en : body_entry) : abs :=
    match mut (en_met en) with
    | MKeep l =>
        if nots en && memb (en_met en) (ab_seen a)
        then mkAbs (ab_seen a) (ab_samples a) (ab_tracked a) (ab_total a + 1) (ab_added a + 1)
        else mkAbs (en_met en :: ab_seen a) ((l, eff_t defT en, en_val en) :: ab_samples a)
                   (if nots en || track_ts c then l :: ab_tracked a else ab_tracked a)
                   (ab_total a + 1) (ab_added a + 1)
    | _ => mkAbs (ab_seen a) (ab_samples a) (ab_tracked a) (ab_total a + 1) (ab_added a)
    end.

  Definition abs_body (defT : Z) (es : list body_entry) : abs := fold_left (abs_entry defT) es abs0.

  Definition app_proj (x : app) : Z * Z * val := (a_lset x, a_t x, a_val x).
  Definition samp_inj (p : Z * Z * Z) : Z * Z * val := let '(l, t, v) := p in (l, t, VI v).

  Lemma abs_entry_skip defT a en : (forall l, mut (en_met en) <> MKeep l) ->
    abs_entry defT a en = mkAbs (ab_seen a) (ab_samples a) (ab_tracked a) (ab_total a + 1) (ab_added a).
  Proof.
    intros H. unfold abs_entry. destruct (mut (en_met en)) as [l| |]; [now destruct (H l)|reflexivity..].
  Qed.

  Lemma abs_entry_dup defT a en l :
    mut (en_met en) = MKeep l -> nots en && memb (en_met en) (ab_seen a) = true ->
    abs_entry defT a en = mkAbs (ab_seen a) (ab_samples a) (ab_tracked a) (ab_total a + 1) (ab_added a + 1).
  Proof. intros M D. unfold abs_entry. now rewrite M, D. Qed.

  Lemma abs_entry_store defT a en l :
    mut (en_met en) = MKeep l -> nots en && memb (en_met en) (ab_seen a) = false ->
    abs_entry defT a en =
    mkAbs (en_met en :: ab_seen a) ((l, eff_t defT en, en_val en) :: ab_samples a)
          (if nots en || track_ts c then l :: ab_tracked a else ab_tracked a)
          (ab_total a + 1) (ab_added a + 1).
  Proof. intros M D. unfold abs_entry. now rewrite M, D. Qed.

  (* the reference semantics has stored more samples than sample_limit allows *)
  Definition over (a : abs) : Prop :=
    0 < sample_limit c /\ sample_limit c < Z.of_nat (length (ab_samples a)).

  Lemma over_step defT a en : over a -> over (abs_entry defT a en).
  Proof.
    intros [L0 L1]. split; [exact L0|]. unfold abs_entry.
    destruct (mut (en_met en)); [destruct (_ && _)|..]; cbn [ab_samples length]; lia.
  Qed.

  Definition seen_rel (it : Z) (ser : list (Z * Z)) (heap : list (Z * entry)) (seen : list Z) : Prop :=
    forall met eid e, 0 <= met -> aget met ser = Some eid -> aget eid heap = Some e ->
                      (e_last e = it <-> In met seen).
  Definition tracked_rel (cur : list (Z * Z)) (tr : list Z) : Prop :=
    forall l, amem (R l) cur = true <-> In l tr.

  (* the loop state [s] in iteration [it] against the reference semantics [a] of the lines read so far *)
  Record sim (it : Z) (s : lstate) (a : abs) : Prop := mkSim {
    sim_seen : seen_rel it (c_series (l_cache s)) (c_heap (l_cache s)) (ab_seen a);
    sim_seen_cached : forall met, In met (ab_seen a) -> aget met (c_series (l_cache s)) <> None;
    sim_tracked : tracked_rel (c_cur (l_cache s)) (ab_tracked a);
    sim_apps : map app_proj (l_apps s) = map samp_inj (ab_samples a);
    sim_rout : Forall (fun x => a_rout x = R (a_lset x)) (l_apps s);
    sim_total : l_total s = ab_total a;
    sim_added : l_added s = ab_added a;
    sim_li : 0 < sample_limit c -> l_i s = Z.of_nat (length (ab_samples a)) /\ l_i s <= sample_limit c
  }.

  Record winv (it : Z) (prev0 : list (Z * Z)) (s : lstate) : Prop := mkWinv {
    wi_store : store_ok (l_store s);
    wi_wf : cache_wf mut rep (l_cache s) (l_store s);
    wi_iter : c_iter (l_cache s) = it;
    wi_prev : c_prev (l_cache s) = prev0
  }.

  (* the invariant of the loop over the lines of a body: once the sample limit has been hit the
     loop no longer follows the reference semantics, which by then is over the limit for good *)
  Definition linv (it : Z) (prev0 : list (Z * Z)) (s : lstate) (a : abs) : Prop :=
    winv it prev0 s /\ if l_limit_err s then over a else sim it s a.

  (* in scope the whole limit chain is, for a sample, one test of the sample counter *)
  Lemma limited_append_inb s r l t z :
    store_ok (l_store s) -> min_valid c <= t <= max_valid c ->
    (r = 0 \/ (r = R l /\ aget l (s_live (l_store s)) = Some r)) ->
    let i' := if 0 <? sample_limit c then l_i s + 1 else l_i s in
    exists st', store_ok st' /\ aget l (s_live st') = Some (R l) /\ live_le (l_store s) st' /\
      limited_append c s r l t (VI z) =
      if (0 <? sample_limit c) && (sample_limit c <? i')
      then (mkL (l_cache s) (l_store s) (l_apps s) i' (l_total s) (l_added s) (l_sadded s) (l_limit_err s),
            0, ELimit)
      else (mkL (l_cache s) st' (mkApp r l t (VI z) (R l) :: l_apps s) i' (l_total s) (l_added s) (l_sadded s)
                (l_limit_err s), R l, ENone).
  Proof.
    intros SO Ht Hr i'.
    destruct (st_append_ok c (l_store s) r l t SO (proj1 Ht) Hr) as (st' & EA & SO' & HL & LE).
    exists st'. repeat split; try assumption; try apply SO'.
    unfold limited_append. cbn [is_stale negb]. rewrite orb_true_r, andb_true_r. fold i'.
    destruct ((0 <? sample_limit c) && (sample_limit c <? i')); [reflexivity|].
    rewrite (proj2 (Z.ltb_ge _ _) (proj2 Ht)). unfold base_append. cbn [l_store]. rewrite EA.
    now rewrite (proj2 (Z.eqb_neq _ _) (R_nz l)).
  Qed.

  Lemma seen_rel_touch it ser heap seen met eid e1 seen' :
    seen_rel it ser heap seen -> aget met ser = Some eid ->
    (forall m1 m2 x, aget m1 ser = Some x -> aget m2 ser = Some x -> m1 = m2) ->
    e_last e1 = it -> In met seen' -> (forall m, m <> met -> (In m seen' <-> In m seen)) ->
    seen_rel it ser (aset eid e1 heap) seen'.
  Proof.
    intros SR Hs Inj EL I1 I2 met' eid' e' Hm' Hs' He'.
    destruct (Z.eq_dec eid' eid) as [->|N].
    - rewrite aget_aset_eq in He'. injection He' as <-.
      assert (met' = met) by (eapply Inj; eauto). subst met'. tauto.
    - rewrite aget_aset_neq in He' by auto.
      assert (met' <> met) by (intros ->; congruence).
      rewrite I2 by auto. eapply SR; eauto.
  Qed.

  Lemma seen_rel_add it ser heap seen met eid e1 :
    seen_rel it ser heap seen -> aget met ser = None -> aget eid heap = None ->
    (forall m x, aget m ser = Some x -> aget x heap <> None) ->
    e_last e1 = it ->
    seen_rel it (aset met eid ser) (aset eid e1 heap) (met :: seen).
  Proof.
    intros SR Hn Hf Hs EL met' eid' e' Hm'.
    destruct (Z.eq_dec met' met) as [->|N].
    - rewrite aget_aset_eq. intros [= <-]. rewrite aget_aset_eq. intros [= <-]. split; auto. intros _. now left.
    - rewrite aget_aset_neq by auto. intros Hs'.
      assert (eid' <> eid) by (intros ->; now apply (Hs _ _ Hs')).
      rewrite aget_aset_neq by auto. intros He'. cbn [In].
      split.
      + intros E. right. eapply SR; eauto.
      + intros [E|I]; [congruence|]. eapply SR; eauto.
  Qed.

  Lemma tracked_rel_track cur tr l eid :
    tracked_rel cur tr -> tracked_rel (aset (R l) eid cur) (l :: tr).
  Proof.
    intros T l'. rewrite amem_aset. cbn [In]. rewrite orb_true_iff, Z.eqb_eq, (T l').
    split; intros [H|H]; auto. left. now apply R_inj. left. now subst.
  Qed.

  (* a line that is only counted: dropped by relabeling *)
  Lemma linv_dropped it prev0 s a d :
    linv it prev0 s a -> cache_wf mut rep (set_dropped (l_cache s) d) (l_store s) ->
    linv it prev0 (with_cache (inc_total s) (set_dropped (l_cache s) d))
         (mkAbs (ab_seen a) (ab_samples a) (ab_tracked a) (ab_total a + 1) (ab_added a)).
  Proof.
    intros [[WS WW WI WP] HS] W'. split; [now constructor|]. cbn [l_limit_err with_cache inc_total].
    destruct (l_limit_err s); [exact HS|]. destruct HS. constructor; cbn; auto. lia.
  Qed.

  Lemma do_entry_step it prev0 defT s a en :
    linv it prev0 s a -> 0 <= en_met en -> min_valid c <= eff_t defT en <= max_valid c ->
    match do_entry c mut defT s en with
    | LCont s' => mut (en_met en) <> MErr /\ linv it prev0 s' (abs_entry defT a en)
    | LAbort s' => mut (en_met en) = MErr /\ winv it prev0 s'
    end.
  Proof.
    intros LI Hm Ht. pose proof LI as [[WS WW WI WP] HS].
    pose proof (over_step defT a en) as OV.
    unfold do_entry. cbv zeta. cbn [l_cache inc_total].
    change (if honor_ts c then en_ts en else None) with (eff_ts en).
    change (match eff_ts en with Some x => x | None => defT end) with (eff_t defT en).
    change (match eff_ts en with None => true | Some _ => false end) with (nots en).
    set (t := eff_t defT en) in *.
    set (trk := match eff_ts en with None => true | Some _ => track_ts c end).
    assert (TRK : nots en || track_ts c = trk) by (unfold trk, nots; now destruct (eff_ts en)).
    destruct (aget (en_met en) (c_dropped (l_cache s))) as [itd|] eqn:ED.
    { (* getDropped *)
      assert (MD : mut (en_met en) = MDrop) by (eapply wf_drop; eauto using aget_In).
      split; [rewrite MD; discriminate|].
      rewrite abs_entry_skip by (intros l; rewrite MD; discriminate).
      apply linv_dropped; auto. apply wf_set_dropped; auto. }
    unfold cache_get.
    destruct (aget (en_met en) (c_series (l_cache s))) as [eid|] eqn:ES.
    - (* cached *)
      destruct (cache_get_hit _ _ _ _ _ _ WW ES) as (e & HE & HG0 & HR & HLIVE & MK & HG1 & WW1).
      apply exp_lset_nonneg in MK; [|exact Hm]. rewrite !HG0.
      set (e1 := mkEntry (e_ref e) (e_lset e) (c_iter (l_cache s))) in *.
      set (ca1 := set_heap (l_cache s) (aset eid e1 (c_heap (l_cache s)))) in *.
      rewrite !HG1. cbn [e_ref e_lset e1].
      assert (INJ : forall m1 m2 x, aget m1 (c_series (l_cache s)) = Some x ->
                                    aget m2 (c_series (l_cache s)) = Some x -> m1 = m2)
        by (intros ? ? ? H1 H2; eapply wf_inj; eauto using aget_In).
      (* the line is a duplicate for the loop iff it is one for the reference semantics *)
      assert (DUP : l_limit_err s = false ->
                    nots en && memb (en_met en) (ab_seen a) = (e_last e =? c_iter (l_cache s)) && nots en).
      { intros LF. rewrite LF in HS. rewrite andb_comm. f_equal.
        apply eq_true_iff_eq. rewrite memb_In, Z.eqb_eq, WI. symmetry. exact (sim_seen _ _ _ HS (en_met en) eid e Hm ES HE). }
      destruct ((e_last e =? c_iter (l_cache s)) && nots en) eqn:EDUP.
      + (* ErrDuplicateSampleForTimestamp *)
        split; [rewrite MK; discriminate|]. split; [now constructor|].
        cbn [l_limit_err inc_added with_cache inc_total].
        destruct (l_limit_err s); [now apply OV|].
        rewrite (abs_entry_dup _ _ _ _ MK (DUP eq_refl)). apply andb_prop in EDUP as [EL _]. apply Z.eqb_eq in EL.
        destruct HS. assert (IM : In (en_met en) (ab_seen a)) by (apply (sim_seen0 (en_met en) eid e); auto; congruence).
        constructor; cbn; auto; try lia. eapply seen_rel_touch; eauto. tauto.
      + (* appended through the limit chain *)
        destruct (limited_append_inb (with_cache (inc_total s) ca1) (e_ref e) (e_lset e) t (en_val en))
          as (st' & SO' & HL' & LE' & ->); auto.
        cbn [l_i l_cache l_store l_apps l_total l_added l_sadded l_limit_err with_cache inc_total].
        destruct ((0 <? sample_limit c) && (sample_limit c <? (if 0 <? sample_limit c then l_i s + 1 else l_i s))) eqn:OVER.
        * (* sample limit *)
          split; [rewrite MK; discriminate|]. split; [now constructor|]. cbn [l_limit_err inc_added set_limit_err].
          destruct (l_limit_err s); [now apply OV|].
          rewrite (abs_entry_store _ _ _ _ MK (DUP eq_refl)).
          apply andb_prop in OVER as [L0 L1]. rewrite L0 in L1. apply Z.ltb_lt in L0, L1.
          split; [exact L0|]. cbn [ab_samples length]. destruct (sim_li _ _ _ HS L0). lia.
        * rewrite (proj2 (Z.eqb_neq _ _) (R_nz (e_lset e))).
          assert (UR : update_ref ca1 eid (R (e_lset e)) = ca1).
          { unfold update_ref. rewrite HG1. cbn [e_ref e1]. now rewrite HR, Z.eqb_refl. }
          cbn [l_cache]. rewrite UR, HG1. cbn [e_ref e1]. rewrite HR, (proj2 (Z.eqb_neq _ _) (R_nz (e_lset e))).
          cbn [negb]. rewrite andb_true_r. fold trk.
          assert (HE1 : aget eid (c_heap ca1) = Some e1) by (unfold ca1; cbn; apply aget_aset_eq).
          assert (WW3 : cache_wf mut rep (if trk then track ca1 (R (e_lset e)) eid else ca1) st').
          { apply wf_store_mono with (l_store s); auto. destruct trk; auto. eapply wf_track; eauto. }
          rewrite track_if in *.
          split; [rewrite MK; discriminate|]. split; [now constructor|].
          cbn [l_limit_err inc_added with_cache]. destruct (l_limit_err s); [now apply OV|].
          rewrite (abs_entry_store _ _ _ _ MK (DUP eq_refl)). rewrite TRK.
          destruct HS.
          constructor; cbn [l_cache l_apps l_total l_added l_i inc_added with_cache ab_seen ab_samples ab_tracked
                            ab_total ab_added c_series c_heap c_cur set_cur set_heap ca1]; try lia.
          -- eapply seen_rel_touch; eauto; [now left|].
             intros m Hmm. cbn. split; [intros [?|?]; [congruence|auto]|auto].
          -- intros m [<-|I]; [congruence|now apply sim_seen_cached0].
          -- destruct trk; [now apply tracked_rel_track|exact sim_tracked0].
          -- cbn [map]. now rewrite sim_apps0.
          -- constructor; auto.
          -- intros L0. destruct (sim_li0 L0). apply Z.ltb_lt in L0. rewrite L0 in OVER |- *.
             cbn [andb] in OVER. apply Z.ltb_ge in OVER. cbn [length]. lia.
    - (* not cached *)
      destruct (mut (en_met en)) as [l| |] eqn:MM.
      + destruct (limited_append_inb (inc_total s) 0 l t (en_val en))
          as (st' & SO' & HL' & LE' & ->); auto.
        cbn [l_i l_cache l_store l_apps l_total l_added l_sadded l_limit_err inc_total].
        assert (NS : l_limit_err s = false -> nots en && memb (en_met en) (ab_seen a) = false).
        { intros LF. rewrite LF in HS. destruct (memb (en_met en) (ab_seen a)) eqn:EMB; [|apply andb_false_r].
          apply memb_In in EMB. now apply (sim_seen_cached _ _ _ HS) in EMB. }
        destruct ((0 <? sample_limit c) && (sample_limit c <? (if 0 <? sample_limit c then l_i s + 1 else l_i s))) eqn:OVER.
        * split; [discriminate|]. split; [now constructor|]. cbn [l_limit_err inc_added set_limit_err].
          destruct (l_limit_err s); [now apply OV|].
          rewrite (abs_entry_store _ _ _ _ MM (NS eq_refl)).
          apply andb_prop in OVER as [L0 L1]. rewrite L0 in L1. apply Z.ltb_lt in L0, L1.
          split; [exact L0|]. cbn [ab_samples length]. destruct (sim_li _ _ _ HS L0). lia.
        * rewrite (proj2 (Z.eqb_neq _ _) (R_nz l)). cbn [negb andb l_cache l_limit_err with_cache]. fold trk.
          assert (WWs : cache_wf mut rep (l_cache s) st') by (eapply wf_store_mono; eauto).
          assert (EXP : exp_lset mut rep (en_met en) = Some l)
            by (unfold exp_lset; destruct (Z.leb_spec 0 (en_met en)); [now rewrite MM | lia]).
          destruct (wf_add_ref mut rep (l_cache s) st' (en_met en) l it WWs EXP HL' WI) as (WA & HNEW & HFRESH).
          unfold add_ref in *. cbn [fst] in WA, HNEW.
          set (ca2 := mkCache _ _ _ _ _ _ _ _) in *.
          assert (WW3 : cache_wf mut rep (if trk then track ca2 (R l) (c_next (l_cache s)) else ca2) st').
          { destruct trk; auto. now apply wf_track with (e := mkEntry (R l) l it). }
          rewrite track_if in *.
          split; [discriminate|]. split; [destruct (l_limit_err s); now constructor|].
          replace (l_limit_err (inc_added _)) with (l_limit_err s) by (now destruct (l_limit_err s)).
          destruct (l_limit_err s) eqn:LERR0; [now apply OV|].
          rewrite (abs_entry_store _ _ _ _ MM (NS eq_refl)). rewrite TRK. destruct HS.
          constructor; cbn [l_cache l_apps l_total l_added l_i inc_added inc_sadded with_cache ab_seen ab_samples
                            ab_tracked ab_total ab_added c_series c_heap c_cur set_cur ca2]; try lia.
          -- rewrite WI. apply seen_rel_add; auto.
             intros m x Hx. destruct (wf_series_g _ _ _ _ _ _ WW Hx) as (e0 & He0). congruence.
          -- intros m [<-|I]; [rewrite aget_aset_eq; discriminate|].
             rewrite aget_aset_neq; [now apply sim_seen_cached0|]. intros ->. now apply (sim_seen_cached0 _ I).
          -- destruct trk; [now apply tracked_rel_track|exact sim_tracked0].
          -- cbn [map]. now rewrite sim_apps0.
          -- constructor; auto.
          -- intros L0. destruct (sim_li0 L0). apply Z.ltb_lt in L0. rewrite L0 in OVER |- *.
             cbn [andb] in OVER. apply Z.ltb_ge in OVER. cbn [length]. lia.
      + (* addDropped *)
        split; [discriminate|]. rewrite abs_entry_skip by (intros l; rewrite MM; discriminate).
        apply linv_dropped; auto. apply wf_set_dropped; auto.
      + (* rejected series: the scrape fails *)
        split; [reflexivity|]. now constructor.
  Qed.

End Sim.

Section Steps.
  Variable c : cfg.
  Variable mut : Z -> mres.
  Variable rep : Z -> Z.

  Definition inb (t : Z) : Prop := min_valid c <= t <= max_valid c.
  Definition entry_ok (defT : Z) (en : body_entry) : Prop :=
    0 <= en_met en /\ inb (eff_t c defT en).

  Lemma run_entries_inv it prev0 defT es : forall s a,
    linv c mut rep it prev0 s a -> Forall (entry_ok defT) es ->
    match run_entries c mut defT s es with
    | LCont s' => Forall (fun en => mut (en_met en) <> MErr) es /\
                  linv c mut rep it prev0 s' (fold_left (abs_entry c mut defT) es a)
    | LAbort s' => Exists (fun en => mut (en_met en) = MErr) es /\ winv mut rep it prev0 s'
    end.
  Proof.
    induction es as [|en r IH]; intros s a LI F; cbn [run_entries fold_left]; [now split|].
    inversion F as [|? ? OK F']; subst.
    pose proof (do_entry_step c mut rep it prev0 defT s a en LI (proj1 OK) (proj2 OK)) as ST.
    destruct (do_entry c mut defT s en) as [s1|s1]; destruct ST as [NE LI1].
    - specialize (IH s1 _ LI1 F'). destruct (run_entries c mut defT s1 r); destruct IH; split; auto.
    - split; [now left|assumption].
  Qed.

  Definition marker_ok (x : app) : Prop := a_rout x = a_rin x /\ a_rin x = R (a_lset x).

  Definition marker_of (t : Z) (p : Z * Z) : app := mkApp (fst p) (snd p) t VStale (fst p).

  (* [markers] are staleness markers at time t, each under its live reference, for exactly the label sets P *)
  Definition markers_for (t : Z) (markers : list app) (P : Z -> Prop) : Prop :=
    Forall (marker_at t) markers /\ Forall marker_ok markers /\
    forall l, In l (map a_lset markers) <-> P l.

  (* updateStaleMarkers in scope: every marker reaches the storage under its live reference, and
     the storage stays as it is *)
  Lemma stale_appends_ok limited t : forall l s, inb t ->
    Forall (fun p : Z * Z => fst p = R (snd p) /\ aget (snd p) (s_live (l_store s)) = Some (fst p)) l ->
    stale_appends c limited t s l =
    (mkL (l_cache s) (l_store s) (rev (map (marker_of t) l) ++ l_apps s) (l_i s) (l_total s) (l_added s)
         (l_sadded s) (l_limit_err s), true).
  Proof.
    induction l as [|[r ls] rest IH]; intros s Ht F; [now destruct s|].
    inversion F as [|? ? [Hr Hl] F']; subst. cbn [fst snd] in Hr, Hl. subst r.
    pose proof (proj2 (Z.eqb_neq _ _) (R_nz ls)) as RN.
    cbn [stale_appends]. unfold limited_append, base_append. cbn [l_store is_stale negb].
    rewrite (st_append_live c _ ls t (proj1 Ht) Hl), RN, andb_false_r, (proj2 (Z.ltb_ge _ _) (proj2 Ht)).
    cbn [andb negb]. destruct limited; rewrite IH by assumption; cbn [l_cache l_store l_apps l_i l_total l_added
      l_sadded l_limit_err map rev]; unfold marker_of; cbn [fst snd]; now rewrite <- app_assoc.
  Qed.

  Lemma stale_list_facts ca st : cache_wf mut rep ca st ->
    Forall (fun p : Z * Z => fst p = R (snd p) /\ aget (snd p) (s_live st) = Some (fst p)) (stale_list ca) /\
    (forall l, In l (map snd (stale_list ca)) <->
               amem (R l) (c_prev ca) = true /\ amem (R l) (c_cur ca) = false).
  Proof.
    intros W. pose proof (wf_prev _ _ _ _ W) as WP. unfold tracked_pairs in WP. rewrite Forall_forall in WP.
    assert (EL : forall r eid, In (r, eid) (c_prev ca) ->
                 exists e, heap_get ca eid = e /\ e_ref e = r /\ r = R (e_lset e) /\
                           aget (e_lset e) (s_live st) = Some r).
    { intros r eid I. destruct (WP _ I) as (e & He & Er). cbn in He, Er.
      destruct (wf_heap _ _ _ _ W _ _ He) as (_ & HR & HL).
      exists e. unfold heap_get. rewrite He. repeat split; auto; congruence. }
    assert (ELEM : forall r ls, In (r, ls) (stale_list ca) ->
                   r = R ls /\ aget ls (s_live st) = Some r /\ amem r (c_prev ca) = true /\ amem r (c_cur ca) = false).
    { intros r ls I. apply in_flat_map in I as ([r0 eid] & I0 & I1). cbn [fst snd] in I1.
      destruct (amem r0 (c_cur ca)) eqn:EC; [destruct I1|]. destruct I1 as [[= <- <-]|[]].
      destruct (EL _ _ I0) as (e & <- & <- & E2 & E3). eauto using In_amem. }
    split.
    - apply Forall_forall. intros [r ls] I. destruct (ELEM _ _ I) as (A & B & _). now split.
    - intros l. rewrite in_map_iff. split.
      + intros ([r ls] & <- & I). destruct (ELEM _ _ I) as (-> & _ & C). exact C.
      + intros [HP HC]. apply amem_In in HP. destruct HP as (eid & I0).
        destruct (EL _ _ I0) as (e & HG & E1 & E2 & E3). apply R_inj in E2.
        exists (e_ref e, e_lset e). split; [cbn; congruence|].
        apply in_flat_map. exists (R l, eid). split; auto. cbn [fst snd]. rewrite HC, HG. now left.
  Qed.

  (* invariant between scrapes *)
  Record ginv (S : cache * store) : Prop := mkG {
    gi_store : store_ok (snd S);
    gi_wf : cache_wf mut rep (fst S) (snd S);
    gi_cur : c_cur (fst S) = [];
    gi_last : forall met eid e, 0 <= met -> In (met, eid) (c_series (fst S)) ->
                aget eid (c_heap (fst S)) = Some e -> e_last e < c_iter (fst S)
  }.

  (* the label sets whose staleness is tracked after a scrape *)
  Definition tracked (S : cache * store) (l : Z) : Prop := amem (R l) (c_prev (fst S)) = true.

  Lemma ginv_init : ginv (init_cache, init_store).
  Proof.
    constructor; cbn; auto.
    - split; intros ? ? H; discriminate H.
    - constructor; cbn; try (intros; contradiction); try discriminate; try constructor.
    - intros; contradiction.
  Qed.

  Lemma iter_done_ginv ca st flush :
    store_ok st -> cache_wf mut rep ca st -> ginv (iter_done ca flush, st).
  Proof.
    intros SO W. unfold iter_done.
    set (flush' := flush || _).
    set (ser := if flush' then filter _ (c_series ca) else c_series ca).
    set (dro := if flush' then filter _ (c_dropped ca) else c_dropped ca).
    assert (S1 : forall p, In p ser -> In p (c_series ca)).
    { unfold ser. destruct flush'; auto. intros p I. apply filter_In in I. tauto. }
    assert (S2 : forall p, In p dro -> In p (c_dropped ca)).
    { unfold dro. destruct flush'; auto. intros p I. apply filter_In in I. tauto. }
    destruct W as [w1 w2 w3 w4 w5 w6 w7]. constructor; cbn [fst snd c_cur c_series c_heap c_iter]; auto.
    - constructor; cbn [c_series c_heap c_next c_iter c_dropped c_cur c_prev]; auto.
      + intros met eid I. eapply w1; eauto.
      + intros m1 m2 eid I1 I2. eapply w2; eauto.
      + intros met eid e I H. destruct (w4 _ _ _ (S1 _ I) H). split; auto. lia.
      + intros met it Hm I. eapply w5; eauto.
      + constructor.
    - intros met eid e Hm I H. destruct (w4 _ _ _ (S1 _ I) H). lia.
  Qed.

  (* updateStaleMarkers: a marker for everything tracked before and not seen now *)
  Lemma stale_phase limited t s :
    cache_wf mut rep (l_cache s) (l_store s) -> inb t ->
    exists markers,
      stale_appends c limited t s (stale_list (l_cache s)) =
      (mkL (l_cache s) (l_store s) (rev markers ++ l_apps s) (l_i s) (l_total s) (l_added s) (l_sadded s)
           (l_limit_err s), true) /\
      markers_for t markers (fun l => amem (R l) (c_prev (l_cache s)) = true /\
                                      amem (R l) (c_cur (l_cache s)) = false).
  Proof.
    intros W Ht. destruct (stale_list_facts _ _ W) as [SF SL].
    exists (map (marker_of t) (stale_list (l_cache s))). split; [now apply stale_appends_ok|].
    split; [|split].
    - apply Forall_forall. intros x I. apply in_map_iff in I as (p & <- & _). now split.
    - apply Forall_forall. intros x I. apply in_map_iff in I as (p & <- & Ip).
      rewrite Forall_forall in SF. destruct (SF _ Ip). now split.
    - intros l. rewrite <- SL, map_map. reflexivity.
  Qed.

  Lemma exp_lset_report idx : 0 <= idx -> exp_lset mut rep (- (idx + 1)) = Some (rep idx).
  Proof.
    intros H. unfold exp_lset. destruct (Z.leb_spec 0 (- (idx + 1))); [lia|].
    f_equal. f_equal. lia.
  Qed.

  Lemma add_report_ok s idx t v :
    ginv (l_cache s, l_store s) -> 0 <= idx -> min_valid c <= t ->
    exists s' r, add_report c rep s idx t v = (s', true) /\ ginv (l_cache s', l_store s') /\
      c_prev (l_cache s') = c_prev (l_cache s) /\
      l_apps s' = mkApp r (rep idx) t v (R (rep idx)) :: l_apps s.
  Proof.
    intros [RS RW RC RL] Hi Ht. cbn [fst snd] in *. unfold add_report, cache_get.
    set (met := - (idx + 1)).
    assert (Hneg : met < 0) by (unfold met; lia).
    assert (RR : (R (rep idx) =? 0) = false) by (apply Z.eqb_neq; apply R_nz).
    destruct (aget met (c_series (l_cache s))) as [eid|] eqn:ES.
    - destruct (cache_get_hit _ _ _ _ _ _ RW ES) as (e & HE & HG0 & HR & HLIVE & EX & HG1 & WW1).
      unfold met in EX. rewrite exp_lset_report in EX by auto. injection EX as EX.
      cbv beta iota zeta. rewrite !HG0.
      set (e1 := mkEntry (e_ref e) (e_lset e) (c_iter (l_cache s))) in *.
      set (ca1 := set_heap (l_cache s) (aset eid e1 (c_heap (l_cache s)))) in *.
      rewrite !HG1. cbn [e_ref e_lset e1].
      unfold base_append. cbn [l_store with_cache]. rewrite HR in HLIVE |- *.
      rewrite (st_append_live c _ _ t Ht HLIVE). rewrite EX in RR |- *. rewrite RR.
      eexists. exists (R (e_lset e)). split; [reflexivity|]. cbn.
      split; [|split; reflexivity].
      constructor; cbn; auto.
      intros met' eid' e' Hm' I'. destruct (Z.eq_dec eid' eid) as [->|N].
        * assert (met' = met) by (eapply (wf_inj _ _ _ _ RW); eauto using aget_In). lia.
        * rewrite aget_aset_neq by auto. intros H'. eapply RL; eauto.
    - cbv beta iota zeta. unfold base_append. cbn [l_store with_cache l_cache].
      destruct (st_append_ok c (l_store s) 0 (rep idx) t RS Ht (or_introl eq_refl)) as (st' & EA & SO' & HL' & LE').
      rewrite EA, RR. cbn [l_cache].
      assert (WWs : cache_wf mut rep (l_cache s) st') by (eapply wf_store_mono; eauto).
      destruct (wf_add_ref mut rep (l_cache s) st' met (rep idx) (c_iter (l_cache s)) WWs)
        as (WA & _ & HFRESH); auto.
      { unfold met. now apply exp_lset_report. }
      eexists. exists 0. split; [reflexivity|].
      split; [|split; reflexivity].
      constructor; cbn [fst snd l_store l_cache with_cache]; auto.
      intros met' eid' e' Hm' I'. unfold add_ref in *. cbn [fst c_series c_heap c_iter] in *.
      destruct (In_aset _ _ _ _ _ I') as [[-> ->]|I'']; [lia|].
      assert (eid' <> c_next (l_cache s)).
      { intros ->. destruct (wf_series _ _ _ _ RW _ _ I''). congruence. }
      rewrite aget_aset_neq by auto. intros H'. eapply RL; eauto.
  Qed.

  Definition report_apps (t : Z) (vals : list (Z * val)) (reps : list app) : Prop :=
    map app_proj reps = map (fun p : Z * val => (rep (fst p), t, snd p)) vals /\
    Forall (fun x => a_rout x = R (a_lset x)) reps.

  Lemma add_reports_ok t vals : forall s,
    ginv (l_cache s, l_store s) -> min_valid c <= t -> Forall (fun p : Z * val => 0 <= fst p) vals ->
    exists s' new, add_reports c rep s t vals = (s', true) /\ ginv (l_cache s', l_store s') /\
      c_prev (l_cache s') = c_prev (l_cache s) /\
      l_apps s' = rev new ++ l_apps s /\ report_apps t vals new.
  Proof.
    induction vals as [|[idx v] rest IH]; intros s G Ht F.
    - exists s, []. split; [reflexivity|]. split; [exact G|]. now repeat split.
    - inversion F as [|? ? Hi F']; subst. cbn [fst] in Hi.
      destruct (add_report_ok s idx t v G Hi Ht) as (s1 & r & E1 & G1 & P1 & A1).
      destruct (IH s1 G1 Ht F') as (s2 & new & E2 & G2 & P2 & A2 & M2 & F2).
      exists s2, (mkApp r (rep idx) t v (R (rep idx)) :: new).
      cbn [add_reports]. rewrite E1, E2. split; [reflexivity|]. split; [exact G2|].
      split; [congruence|]. split; [|split].
      + rewrite A2, A1. cbn [rev]. now rewrite <- app_assoc.
      + cbn [map]. now rewrite M2.
      + now constructor.
  Qed.

  Lemma report_vals_idx up total added sadded bytes :
    Forall (fun p : Z * val => 0 <= fst p) (report_vals c up total added sadded bytes).
  Proof. unfold report_vals. destruct (extra c); repeat constructor; cbn; lia. Qed.
  Lemma stale_report_vals_idx : Forall (fun p : Z * val => 0 <= fst p) (stale_report_vals c).
  Proof. unfold stale_report_vals. destruct (extra c); repeat constructor; cbn; lia. Qed.

  (* the tail of every step: markers for everything tracked before and not seen now, report *)
  Lemma finish_ok t ca st vals :
    store_ok st -> cache_wf mut rep ca st -> inb t -> Forall (fun p : Z * val => 0 <= fst p) vals ->
    exists ca' st' markers reps,
      finish c rep t ca st vals = (ca', st', [mkBatch true (markers ++ reps)]) /\
      ginv (ca', st') /\
      markers_for t markers (fun l => amem (R l) (c_prev ca) = true /\ amem (R l) (c_cur ca) = false) /\
      report_apps t vals reps /\
      (forall l, tracked (ca', st') l <-> amem (R l) (c_cur ca) = true).
  Proof.
    intros SO W Ht FV. unfold finish, append_empty.
    destruct (stale_phase false t (fresh ca st) W Ht) as (mk & -> & MK).
    pose proof (iter_done_ginv ca st false SO W) as G.
    unfold with_cache. cbn [l_cache l_store l_apps l_i l_total l_added l_sadded l_limit_err fresh] in *.
    rewrite app_nil_r.
    destruct (add_reports_ok t vals (mkL (iter_done ca false) st (rev mk) 0 0 0 0 false) G (proj1 Ht) FV)
      as (s3 & new & -> & G3 & P3 & A3 & RA).
    exists (l_cache s3), (l_store s3), mk, new.
    split; [|split; [exact G3|split; [exact MK|split; [exact RA|]]]].
    - unfold batch_of. rewrite A3. cbn [l_apps]. now rewrite rev_app_distr, !rev_involutive.
    - intros l. unfold tracked. cbn [fst]. now rewrite P3.
  Qed.

End Steps.

Section StepTheorems.
  Variable c : cfg.
  Variable mut : Z -> mres.
  Variable rep : Z -> Z.

  (* steps covered by the history theorems: no reference change (the storage forgets no series), scrape time
     and explicit timestamps accepted by the storage, metric texts are not report names *)
  Definition step_ok (sp : step) : Prop :=
    st_gc sp = [] /\ inb c (st_time sp) /\
    match st_out sp with
    | OBody es _ _ => Forall (entry_ok c (st_time sp)) es
    | _ => True
    end.

  Lemma st_gc_nil st : st_gc_apply st [] = st.
  Proof. destruct st; reflexivity. Qed.

  Definition quiet_vals (sp : step) : list (Z * val) :=
    match st_out sp with
    | OFail bsz => report_vals c 0 0 0 0 (if bsz then -1 else 0)
    | OGone => stale_report_vals c
    | OBody _ _ _ => report_vals c 1 0 0 0 0
    end.

  Definition quiet (sp : step) : Prop :=
    match st_out sp with OBody _ _ len => len = 0 | _ => True end.

  Lemma quiet_vals_idx sp : Forall (fun p : Z * val => 0 <= fst p) (quiet_vals sp).
  Proof. unfold quiet_vals. destruct (st_out sp); auto using report_vals_idx, stale_report_vals_idx. Qed.

  (* scrape error, empty body, end of run: a marker for every tracked series, nothing tracked afterwards *)
  Lemma quiet_step S sp S' bs :
    ginv mut rep S -> step_ok sp -> quiet sp -> do_step c mut rep S sp = (S', bs) ->
    exists markers reps,
      bs = [mkBatch true (markers ++ reps)] /\
      Forall (marker_at (st_time sp)) markers /\ Forall marker_ok markers /\
      (forall l, In l (map a_lset markers) <-> tracked S l) /\
      report_apps rep (st_time sp) (quiet_vals sp) reps /\
      ginv mut rep S' /\ (forall l, ~ tracked S' l).
  Proof.
    intros [G1 G2 G3 G4] (HG & HT & _) HQ. destruct S as [ca st]. cbn [fst snd] in *.
    destruct (finish_ok c mut rep (st_time sp) ca st (quiet_vals sp) G1 G2 HT (quiet_vals_idx sp))
      as (ca2 & st2 & mk & reps & EF & GI & (M1 & M2 & M3) & RA & TR).
    assert (E : do_step c mut rep (ca, st) sp = ((ca2, st2), [mkBatch true (mk ++ reps)])).
    { unfold do_step, quiet, quiet_vals in *. rewrite HG, st_gc_nil.
      destruct (st_out sp) as [es bad len|bsz|]; [subst len; cbn [Z.eqb]|..]; now rewrite EF. }
    rewrite E. intros [= <- <-]. exists mk, reps.
    split; [reflexivity|]. split; [exact M1|]. split; [exact M2|].
    split; [|split; [exact RA|split; [exact GI|]]].
    - intros l. rewrite M3. unfold tracked. cbn [fst]. rewrite G3. cbn. tauto.
    - intros l T. apply TR in T. rewrite G3 in T. discriminate.
  Qed.

  Lemma linv_fresh ca st : ginv mut rep (ca, st) -> linv c mut rep (c_iter ca) (c_prev ca) (fresh ca st) abs0.
  Proof.
    intros [G1 G2 G3 G4]. cbn [fst snd] in *. split; [now constructor|]. constructor; cbn; auto.
    - intros met eid e Hm Hs He. pose proof (G4 _ _ _ Hm (aget_In _ _ _ Hs) He). split; [lia|intros []].
    - intros l. rewrite G3. cbn. split; [discriminate|tauto].
    - intros L0. split; lia.
  Qed.

  (* when scrapeLoop.append accepts a body, in terms of the body alone *)
  Definition body_accepts (t : Z) (es : list body_entry) (bad : bool) : Prop :=
    bad = false /\
    Forall (fun en => mut (en_met en) <> MErr) es /\
    (0 < sample_limit c ->
     Z.of_nat (length (ab_samples (abs_body c mut t es))) <= sample_limit c).

  (* scrapeLoop.append on a non-empty body from a state between scrapes *)
  Lemma append_body_spec t ca st es bad :
    ginv mut rep (ca, st) -> inb c t -> Forall (entry_ok c t) es ->
    match append_body c mut t ca st es bad with
    | (s, true) =>
        body_accepts t es bad /\
        exists samples markers,
          rev (l_apps s) = samples ++ markers /\
          map app_proj samples = map samp_inj (rev (ab_samples (abs_body c mut t es))) /\
          Forall (fun x => a_rout x = R (a_lset x)) samples /\
          markers_for t markers (fun l => tracked (ca, st) l /\ ~ In l (ab_tracked (abs_body c mut t es))) /\
          l_total s = ab_total (abs_body c mut t es) /\ l_added s = ab_added (abs_body c mut t es) /\
          ginv mut rep (l_cache s, l_store s) /\
          (forall l, tracked (l_cache s, l_store s) l <-> In l (ab_tracked (abs_body c mut t es)))
    | (s, false) =>
        ~ body_accepts t es bad /\ store_ok (l_store s) /\ cache_wf mut rep (l_cache s) (l_store s)
    end.
  Proof.
    intros G Ht HE. unfold append_body.
    pose proof (run_entries_inv c mut rep (c_iter ca) (c_prev ca) t es (fresh ca st) abs0 (linv_fresh _ _ G) HE) as RI.
    fold (abs_body c mut t es) in RI.
    destruct (run_entries c mut t (fresh ca st) es) as [s1|s1].
    2:{ destruct RI as [EX [WS WW _ _]]. split; [|now split]. intros (_ & NF & _).
        apply Exists_exists in EX as (en & I & E). rewrite Forall_forall in NF. now apply (NF en I). }
    destruct RI as [NF [[WS WW WI WP] HS]].
    destruct bad; [split; [intros [X _]; discriminate|now split]|].
    destruct (l_limit_err s1).
    { split; [|now split]. intros (_ & _ & LIM). destruct HS as [L0 L1]. specialize (LIM L0). lia. }
    destruct (stale_phase c mut rep true t s1 WW Ht) as (mk & -> & (M1 & M2 & M3)).
    pose proof (iter_done_ginv mut rep _ _ true WS WW) as GI.
    unfold with_cache. cbn [l_cache l_store l_apps l_total l_added].
    destruct HS as [s_seen s_cached s_tracked s_apps s_rout s_total s_added s_li].
    split. { split; [reflexivity|]. split; [exact NF|]. intros L0. destruct (s_li L0). lia. }
    exists (rev (l_apps s1)), mk.
    split. { now rewrite rev_app_distr, rev_involutive. }
    split. { now rewrite map_rev, s_apps, map_rev. }
    split. { now apply Forall_rev. }
    split. { split; [exact M1|]. split; [exact M2|]. intros l. rewrite M3. unfold tracked. cbn [fst]. rewrite WP, <- (s_tracked l).
             destruct (amem (R l) (c_cur (l_cache s1))); split; intros [X Y]; split; auto; congruence. }
    split; [exact s_total|]. split; [exact s_added|]. split; [exact GI|].
    intros l. apply s_tracked.
  Qed.

  (* a body that scrapeLoop.append accepts *)
  Lemma body_step S sp es len S' bs :
    ginv mut rep S -> step_ok sp -> st_out sp = OBody es false len -> len <> 0 ->
    do_step c mut rep S sp = (S', bs) -> ~ step_failed c mut S sp ->
    exists samples markers reps sadded,
      bs = [mkBatch true (samples ++ markers ++ reps)] /\
      map app_proj samples = map samp_inj (rev (ab_samples (abs_body c mut (st_time sp) es))) /\
      Forall (fun x => a_rout x = R (a_lset x)) samples /\
      Forall (marker_at (st_time sp)) markers /\ Forall marker_ok markers /\
      (forall l, In l (map a_lset markers) <->
                 tracked S l /\ ~ In l (ab_tracked (abs_body c mut (st_time sp) es))) /\
      report_apps rep (st_time sp)
        (report_vals c 1 (ab_total (abs_body c mut (st_time sp) es))
                     (ab_added (abs_body c mut (st_time sp) es)) sadded len) reps /\
      ginv mut rep S' /\
      (forall l, tracked S' l <-> In l (ab_tracked (abs_body c mut (st_time sp) es))).
  Proof.
    intros G (HG & HT & HE) HO HL. destruct S as [ca st].
    unfold do_step, step_failed. cbn [fst snd]. rewrite HO in *. rewrite HG, st_gc_nil.
    rewrite (proj2 (Z.eqb_neq _ _) HL).
    pose proof (append_body_spec (st_time sp) ca st es false G HT HE) as AB.
    destruct (append_body c mut (st_time sp) ca st es false) as [s1 [|]].
    2:{ intros _ NF. exfalso. apply NF. now split. }
    destruct AB as (_ & samples & mk & A & SA & SR & (M1 & M2 & M3) & TOT & ADD & GI & TR).
    destruct (add_reports_ok c mut rep (st_time sp) _ s1 GI (proj1 HT)
                (report_vals_idx c 1 (l_total s1) (l_added s1) (l_sadded s1) len))
      as (s4 & new & -> & G4 & P4 & A4 & RA).
    intros [= <- <-] _. exists samples, mk, new, (l_sadded s1).
    split. { unfold batch_of. now rewrite A4, rev_app_distr, rev_involutive, A, <- app_assoc. }
    rewrite <- TOT, <- ADD.
    split; [exact SA|]. split; [exact SR|]. split; [exact M1|]. split; [exact M2|]. split; [exact M3|].
    split; [exact RA|]. split; [exact G4|].
    intros l. unfold tracked. cbn [fst]. rewrite P4. apply TR.
  Qed.

  Lemma accept_iff S sp es bad len :
    ginv mut rep S -> step_ok sp -> st_out sp = OBody es bad len -> len <> 0 ->
    (~ step_failed c mut S sp <-> body_accepts (st_time sp) es bad).
  Proof.
    intros G (HG & HT & HE) HO HL. destruct S as [ca st].
    unfold step_failed. cbn [fst snd]. rewrite HO in *. rewrite HG, st_gc_nil.
    pose proof (append_body_spec (st_time sp) ca st es bad G HT HE) as AB.
    destruct (append_body c mut (st_time sp) ca st es bad) as [s1 [|]]; cbn [snd].
    - destruct AB as [AC _]. split; [auto|]. intros _ [_ X]. discriminate.
    - destruct AB as [NA _]. split; [intros NF; exfalso; now apply NF|tauto].
  Qed.

  Lemma step_ginv S sp : ginv mut rep S -> step_ok sp -> ginv mut rep (fst (do_step c mut rep S sp)).
  Proof.
    intros G OK. destruct (do_step c mut rep S sp) as [S' bs] eqn:E. cbn [fst].
    assert (Q : quiet sp -> ginv mut rep S')
      by (intros HQ; now destruct (quiet_step _ _ _ _ G OK HQ E) as (? & ? & _ & _ & _ & _ & _ & G' & _)).
    unfold quiet in Q. destruct OK as (HG & HT & HE). destruct S as [ca st].
    destruct (st_out sp) as [es bad len|bsz|] eqn:HO; [|now apply Q..].
    destruct (Z.eqb_spec len 0) as [HL|HL]; [now apply Q|].
    (* a body: accepted, or rejected and followed by the tail of a failed scrape *)
    unfold do_step in E. rewrite HO, HG, st_gc_nil, (proj2 (Z.eqb_neq _ _) HL) in E.
    pose proof (append_body_spec (st_time sp) ca st es bad G HT HE) as AB.
    destruct (append_body c mut (st_time sp) ca st es bad) as [s1 [|]].
    - destruct AB as (_ & _ & _ & _ & _ & _ & _ & _ & _ & GI & _).
      destruct (add_reports_ok c mut rep (st_time sp) _ s1 GI (proj1 HT)
                  (report_vals_idx c 1 (l_total s1) (l_added s1) (l_sadded s1) len)) as (s4 & new & E4 & G4 & _).
      rewrite E4 in E. now injection E as <- _.
    - destruct AB as (_ & SO & W).
      destruct (finish_ok c mut rep (st_time sp) _ _ _ SO W HT (report_vals_idx c 0 (l_total s1) (l_added s1) (l_sadded s1) len))
        as (ca2 & st2 & mk & reps & EF & GI & _).
      rewrite EF in E. now injection E as <- _.
  Qed.

  Lemma reachable_ginv h : Forall step_ok h -> ginv mut rep (state_after c mut rep h).
  Proof.
    unfold state_after. generalize (ginv_init mut rep). generalize (init_cache, init_store).
    induction h as [|sp r IH]; intros S G F; cbn; auto.
    inversion F; subst. apply IH; auto. now apply step_ginv.
  Qed.

  Lemma state_after_snoc h sp :
    state_after c mut rep (h ++ [sp]) = fst (do_step c mut rep (state_after c mut rep h) sp).
  Proof. unfold state_after. now rewrite fold_left_app. Qed.

  (* staleness markers at scrape k+1 = series tracked by body k minus series tracked by body k+1,
     for two consecutive accepted bodies after any history *)
  Lemma consecutive_bodies h sp1 sp2 es1 len1 es2 len2 S2 bs2 :
    Forall step_ok h -> step_ok sp1 -> step_ok sp2 ->
    st_out sp1 = OBody es1 false len1 -> len1 <> 0 ->
    st_out sp2 = OBody es2 false len2 -> len2 <> 0 ->
    ~ step_failed c mut (state_after c mut rep h) sp1 ->
    ~ step_failed c mut (state_after c mut rep (h ++ [sp1])) sp2 ->
    do_step c mut rep (state_after c mut rep (h ++ [sp1])) sp2 = (S2, bs2) ->
    exists samples markers reps,
      bs2 = [mkBatch true (samples ++ markers ++ reps)] /\
      Forall (marker_at (st_time sp2)) markers /\
      (forall l, In l (map a_lset markers) <->
                 In l (ab_tracked (abs_body c mut (st_time sp1) es1)) /\
                 ~ In l (ab_tracked (abs_body c mut (st_time sp2) es2))).
  Proof.
    intros FH OK1 OK2 HO1 HL1 HO2 HL2 NF1 NF2 E2.
    pose proof (reachable_ginv h FH) as G0.
    destruct (do_step c mut rep (state_after c mut rep h) sp1) as [S1 bs1] eqn:E1.
    destruct (body_step _ sp1 es1 len1 S1 bs1 G0 OK1 HO1 HL1 E1 NF1)
      as (_ & _ & _ & _ & _ & _ & _ & _ & _ & _ & _ & G1 & T1).
    assert (ES : state_after c mut rep (h ++ [sp1]) = S1) by (rewrite state_after_snoc, E1; reflexivity).
    rewrite ES in *.
    destruct (body_step S1 sp2 es2 len2 S2 bs2 G1 OK2 HO2 HL2 E2 NF2)
      as (sm & mk & rp & sa & B & _ & _ & M1 & _ & M3 & _).
    exists sm, mk, rp. split; [exact B|]. split; [exact M1|].
    intros l. rewrite M3, T1. tauto.
  Qed.

  (* what a tracked label set is, in terms of the body alone *)
  Lemma ab_tracked_sound t es : forall a l,
    In l (ab_tracked (fold_left (abs_entry c mut t) es a)) ->
    In l (ab_tracked a) \/
    exists en, In en es /\ mut (en_met en) = MKeep l /\ (nots c en = true \/ track_ts c = true).
  Proof.
    induction es as [|en r IH]; intros a l; cbn [fold_left]; auto.
    intros I. destruct (IH _ _ I) as [I'|(en' & I1 & I2)].
    - unfold abs_entry in I'. destruct (mut (en_met en)) as [l0| |] eqn:EM; cbn in I'; auto.
      destruct (nots c en && memb (en_met en) (ab_seen a)); cbn in I'; auto.
      destruct (nots c en || track_ts c) eqn:ET; auto.
      destruct I' as [<-|I']; auto. right. exists en. split; [now left|]. split; auto.
      apply orb_true_iff in ET. exact ET.
    - right. exists en'. split; [now right|exact I2].
  Qed.
End StepTheorems.

Definition has_marker (bs : list batch) (l : Z) : bool :=
  existsb (fun b => b_commit b &&
                    existsb (fun x => is_stale (a_val x) && (a_lset x =? l)) (b_apps b)) bs.

Definition rf_cfg : cfg := mkCfg true false 2 false 10 0 1000000.
Definition rf_mut (m : Z) : mres := MKeep m.
Definition rf_rep (i : Z) : Z := 100 + i.
Definition rf_h : list step := [mkStep 1000 [] (OBody [mkE 1 None 5; mkE 2 None 6] false 8)].
Definition rf_sp : step := mkStep 2000 [] (OBody [mkE 1 None 7; mkE 2 None 8; mkE 3 None 9] false 12).

(* label set 1 was stored and tracked by the first scrape; the second scrape exceeds
   sample_limit = 2 after two samples were appended: it fails (up = 0, nothing of it stored) but
   commits no staleness marker for label set 1 *)
Lemma failed_body_marks_all_refuted :
  exists c mut rep h sp,
    Forall (step_ok c) h /\ step_ok c sp /\
    step_failed c mut (state_after c mut rep h) sp /\
    tracked (state_after c mut rep h) 1 /\
    has_marker (snd (do_step c mut rep (state_after c mut rep h) sp)) 1 = false.
Proof.
  exists rf_cfg, rf_mut, rf_rep, rf_h, rf_sp.
  split; [|split; [|split; [|split]]].
  - repeat constructor; cbn; lia.
  - repeat constructor; cbn; lia.
  - unfold step_failed. cbn [st_out rf_sp]. split; [lia|]. vm_compute. reflexivity.
  - unfold tracked. vm_compute. reflexivity.
  - vm_compute. reflexivity.
Qed.

(* the hypotheses of body_step / consecutive_bodies are satisfiable (and the marker set non-empty) *)
Definition nv_cfg : cfg := mkCfg true false 0 false 10 0 1000000.
Definition nv_sp1 : step := mkStep 1000 [] (OBody [mkE 1 None 5; mkE 2 None 6; mkE 2 None 7] false 12).
Definition nv_sp2 : step := mkStep 2000 [] (OBody [mkE 2 None 7; mkE 3 (Some 1500) 9] false 12).
Lemma nonvacuous_example :
  Forall (step_ok nv_cfg) [nv_sp1] /\ step_ok nv_cfg nv_sp2 /\
  ~ step_failed nv_cfg rf_mut (state_after nv_cfg rf_mut rf_rep [nv_sp1]) nv_sp2 /\
  ab_tracked (abs_body nv_cfg rf_mut 1000 [mkE 1 None 5; mkE 2 None 6; mkE 2 None 7]) = [2; 1] /\
  ab_tracked (abs_body nv_cfg rf_mut 2000 [mkE 2 None 7; mkE 3 (Some 1500) 9]) = [2] /\
  has_marker (snd (do_step nv_cfg rf_mut rf_rep (state_after nv_cfg rf_mut rf_rep [nv_sp1]) nv_sp2)) 1 = true.
Proof.
  split; [|split; [|split; [|split; [|split]]]].
  - repeat constructor; cbn; lia.
  - repeat constructor; cbn; lia.
  - unfold step_failed. cbn [st_out nv_sp2]. intros [_ H]. vm_compute in H. discriminate.
  - vm_compute. reflexivity.
  - vm_compute. reflexivity.
  - vm_compute. reflexivity.
Qed.

(* a second refutation, outside that scope (the storage changes a reference): two metric
   texts (1 and 2) carry the same label set 5; both are scraped; the storage forgets the series;
   the next scrape exposes text 1 only, with an explicit timestamp (tracking of timestamped series
   on).  updateRef re-keys the staleness tracking of text 1's entry only if the tracked entry IS
   that entry — here seriesPrev holds text 2's entry under the old reference, so label set 5 gets a
   staleness marker at the scrape time although it is exposed and stored in this very scrape. *)
Definition has_sample (bs : list batch) (l : Z) : bool :=
  existsb (fun b => b_commit b &&
                    existsb (fun x => negb (is_stale (a_val x)) && (a_lset x =? l) && negb (a_rout x =? 0))
                            (b_apps b)) bs.
Definition al_cfg : cfg := mkCfg true true 0 false 10 0 1000000.
Definition al_mut (m : Z) : mres := MKeep 5.
Definition al_h : list step := [mkStep 1000 [] (OBody [mkE 1 None 5; mkE 2 None 6] false 8)].
Definition al_sp : step := mkStep 2000 [5] (OBody [mkE 1 (Some 1900) 7] false 8).

Lemma alias_ref_change_marker_refuted :
  exists c mut rep h sp l,
    ~ step_failed c mut (state_after c mut rep h) sp /\
    has_sample (snd (do_step c mut rep (state_after c mut rep h) sp)) l = true /\
    has_marker (snd (do_step c mut rep (state_after c mut rep h) sp)) l = true.
Proof.
  exists al_cfg, al_mut, rf_rep, al_h, al_sp, 5.
  split; [|split].
  - unfold step_failed. cbn [st_out al_sp]. intros [_ H]. vm_compute in H. discriminate.
  - vm_compute. reflexivity.
  - vm_compute. reflexivity.
Qed.
