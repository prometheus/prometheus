(* proof/TombFileProofs.v — proofs about model/TombFile.v (tombstone file codec, C20 third
   sentence).  (1) write_file/read_file round trip to the canonical form; (2) the canonical form
   is Intervals.Add folded per ref, total on well-formed input; (3) exactness on what a
   MemTombstones can hold; (4) the decode loop never runs out of fuel. *)
From Coq Require Import List NArith ZArith Bool Lia.
From Verif Require Import lib.Int64 lib.Bytes lib.Varint lib.SortedList model.Intervals proof.IntervalsProofs model.TombFile.
Import ListNotations.
Open Scope N_scope.

Definition wf_triple (t : triple) : Prop :=
  u64_ok (fst (fst t)) /\ wf_iv (mkI (snd (fst t)) (snd t)).

Lemma flatten_wf stones : wf_stones stones -> Forall wf_triple (flatten stones).
Proof.
  unfold wf_stones, flatten. induction 1 as [|s l Hs Hl IH]; cbn [flat_map]; [constructor|].
  apply Forall_app. split; [|exact IH].
  destruct Hs as [Hu Hiv]. apply Forall_forall. intros t Ht. apply in_map_iff in Ht.
  destruct Ht as ([a b] & <- & Hin). rewrite Forall_forall in Hiv. split; [exact Hu|apply Hiv, Hin].
Qed.

Lemma enc_triple_nonempty t : enc_triple t <> [].
Proof.
  destruct t as [[r mi] ma]. unfold enc_triple. pose proof (put_uvarint_nonempty r) as H.
  destruct (put_uvarint r); [congruence|discriminate].
Qed.

Lemma enc_triples_length ts : (length ts <= length (flat_map enc_triple ts))%nat.
Proof.
  induction ts as [|t ts IH]; cbn [flat_map length]; [lia|]. rewrite app_length.
  pose proof (enc_triple_nonempty t) as H. destruct (enc_triple t); [congruence|]. cbn [length]. lia.
Qed.

(* one round of the decode loop on an encoded entry *)
Lemma decode_loop_step f r mi ma rest m : u64_ok r -> int64 mi -> int64 ma ->
  decode_loop (S f) (enc_triple (r, mi, ma) ++ rest) m =
  match add_interval m r (mkI mi ma) with ROk m' => decode_loop f rest m' | RErr e => RErr e end.
Proof.
  intros Hr Hmi Hma. unfold enc_triple. rewrite <- !app_assoc.
  pose proof (put_uvarint_nonempty r) as Hne.
  pose proof (d_uvarint64_put r (put_varint mi ++ put_varint ma ++ rest) Hr) as Hd.
  destruct (put_uvarint r ++ put_varint mi ++ put_varint ma ++ rest) as [|b bs] eqn:E.
  - destruct (put_uvarint r); [congruence|discriminate].
  - cbn [decode_loop]. rewrite Hd.
    rewrite d_varint64_put by exact Hmi. rewrite d_varint64_put by exact Hma. reflexivity.
Qed.

Lemma decode_loop_enc : forall ts fuel m, (length ts <= fuel)%nat -> Forall wf_triple ts ->
  decode_loop fuel (flat_map enc_triple ts) m = add_all m ts.
Proof.
  induction ts as [|[[r mi] ma] ts IH]; intros fuel m Hf Hwf.
  - destruct fuel; reflexivity.
  - inversion Hwf as [|? ? Ht Hts]; subst. destruct Ht as (Hu & Hmi & Hma & _). cbn [fst snd imin imax] in Hu, Hmi, Hma.
    destruct fuel as [|f]; [cbn [length] in Hf; lia|].
    cbn [flat_map add_all]. rewrite decode_loop_step by assumption.
    destruct (add_interval m r (mkI mi ma)) as [m'|e]; [|reflexivity].
    apply IH; [cbn [length] in Hf; lia|exact Hts].
Qed.

Section RoundTrip.
Variable crc : list N -> N.

Lemma read_write_triples ts : Forall wf_triple ts -> read_file crc (write_triples crc ts) = add_all [] ts.
Proof.
  intros Hwf. unfold write_triples, encode_triples. cbn [tl].
  set (body := flat_map enc_triple ts). set (S4 := put_be32 (sum32 crc body)).
  rewrite app_assoc. set (P := put_be32 magic ++ format_v1 :: body).
  assert (HP : length (P ++ S4) = (length P + 4)%nat /\ (5 <= length P)%nat).
  { unfold P, S4, put_be32. rewrite !app_length, !be_enc_length. cbn [length]. lia. }
  destruct HP as [Hlen HP]. unfold read_file. cbv zeta. rewrite Hlen.
  replace (length P + 4 - 4)%nat with (length P) by lia.
  destruct (Nat.ltb_spec (length P + 4) 5) as [Hlt|_]; [lia|].
  rewrite firstn_length_app, skipn_length_app.
  unfold P. rewrite d_be32_put by (vm_compute; reflexivity). rewrite N.eqb_refl. cbn [negb].
  (* the stored checksum is below 2^32, so its four bytes read back as it *)
  unfold S4, put_be32. rewrite <- (app_nil_r (be_enc 4 _)), be_take_enc.
  change (256 ^ N.of_nat 4) with 4294967296. unfold sum32 at 1.
  rewrite N.mod_mod, N.mul_0_l, N.add_0_l by discriminate. fold (sum32 crc body).
  rewrite N.eqb_refl. cbn [negb]. unfold decode. rewrite N.eqb_refl.
  apply decode_loop_enc; [apply enc_triples_length|exact Hwf].
Qed.
End RoundTrip.

Lemma tombstone_file_roundtrip : forall (crc : list N -> N) (stones : list stone),
  wf_stones stones -> read_file crc (write_file crc stones) = canon stones.
Proof.
  intros crc stones Hwf. unfold write_file, canon. apply read_write_triples. apply flatten_wf. exact Hwf.
Qed.

Definition lb (x : N) (m : smap) : Prop :=
  match m with [] => True | (r, _) :: _ => x < r end.

(* invariant of a MemTombstones: sorted refs, groups non-empty and canonical *)
Definition ginv (m : smap) : Prop :=
  refs_incr m /\ Forall (fun s => snd s <> [] /\ canonical (snd s)) m.

Lemma refs_incr_inv r ivs t : refs_incr ((r, ivs) :: t) -> lb r t /\ refs_incr t.
Proof. intros H; exact H. Qed.

Lemma get_below : forall m x, refs_incr m -> lb x m -> forall y, y <= x -> get m y = [].
Proof.
  induction m as [|[r ivs] t IH]; intros x Hi Hl y Hy; [reflexivity|].
  apply refs_incr_inv in Hi. destruct Hi as [Hrt Hit]. unfold lb in Hl.
  cbn [get]. destruct (N.eqb_spec y r) as [->|Hne]; [lia|].
  apply (IH r Hit Hrt). lia.
Qed.

Lemma add_nil iv : Intervals.add [] iv = Intervals.Ok [iv].
Proof. reflexivity. Qed.

Lemma add_nonempty ivs iv : canonical ivs -> wf_iv iv ->
  exists g, Intervals.add ivs iv = Intervals.Ok g /\ g <> [] /\ canonical g.
Proof.
  intros Hc Hw. destruct (add_spec ivs iv Hc Hw) as (g & Ha & Hcg & Hcov). exists g.
  split; [exact Ha|]. split; [|exact Hcg]. intros ->. assert (H : covered [] (imin iv)).
  { apply Hcov. right. destruct Hw as (_ & _ & Hle). lia. }
  inversion H.
Qed.

Lemma ginv_cons r g t : lb r t -> g <> [] -> canonical g -> ginv t -> ginv ((r, g) :: t).
Proof. intros Hl Hne Hc [Hi Hf]. split; [exact (conj Hl Hi)|]. constructor; [split; assumption|exact Hf]. Qed.

Lemma add_interval_spec : forall m ref iv, ginv m -> wf_iv iv ->
  exists m', add_interval m ref iv = ROk m' /\
             Intervals.add (get m ref) iv = Intervals.Ok (get m' ref) /\
             (forall o, o <> ref -> get m' o = get m o) /\
             ginv m' /\
             (forall x, x < ref -> lb x m -> lb x m').
Proof.
  induction m as [|[r ivs] t IH]; intros ref iv Hg Hw.
  - exists [(ref, [iv])]. cbn [add_interval get]. rewrite N.eqb_refl.
    split; [reflexivity|]. split; [reflexivity|]. split; [|split; [|auto]].
    + intros o Ho. destruct (N.eqb_spec o ref); [contradiction|reflexivity].
    + apply ginv_cons; [exact I|discriminate|cbn; auto|exact Hg].
  - pose proof Hg as [Hi Hf]. apply refs_incr_inv in Hi as [Hrt Hit].
    apply Forall_cons_iff in Hf as [[Hne Hc] Hft]. cbn [snd] in Hne, Hc. cbn [add_interval].
    destruct (N.ltb_spec ref r) as [Hlt|Hge]; [|destruct (N.eqb_spec ref r) as [->|Hne']].
    + (* new group in front *)
      exists ((ref, [iv]) :: (r, ivs) :: t). split; [reflexivity|]. cbn [get]. rewrite N.eqb_refl.
      destruct (N.eqb_spec ref r); [lia|]. rewrite (get_below t r Hit Hrt ref) by lia.
      split; [reflexivity|]. split; [|split; [|auto]].
      * intros o Ho. destruct (N.eqb_spec o ref); [contradiction|reflexivity].
      * apply ginv_cons; [exact Hlt|discriminate|cbn; auto|exact Hg].
    + (* extend the group of r *)
      destruct (add_nonempty ivs iv Hc Hw) as (g & Hadd & Hgne & Hgc). rewrite Hadd.
      exists ((r, g) :: t). split; [reflexivity|]. cbn [get]. rewrite N.eqb_refl. split; [exact Hadd|].
      split; [|split; [|auto]].
      * intros o Ho. destruct (N.eqb_spec o r); [contradiction|reflexivity].
      * apply ginv_cons; [exact Hrt|exact Hgne|exact Hgc|split; assumption].
    + (* further down *)
      destruct (IH ref iv (conj Hit Hft) Hw) as (t' & -> & Hadd & Hoth & Hg' & Hlb).
      exists ((r, ivs) :: t'). split; [reflexivity|]. cbn [get]. destruct (N.eqb_spec ref r); [contradiction|].
      split; [exact Hadd|]. split; [|split; [|auto]].
      * intros o Ho. destruct (N.eqb_spec o r); [reflexivity|apply Hoth, Ho].
      * apply ginv_cons; [apply Hlb; [lia|exact Hrt]|exact Hne|exact Hc|exact Hg'].
Qed.

Lemma ivs_of_cons r mi ma ts ref :
  ivs_of ref ((r, mi, ma) :: ts) = if r =? ref then mkI mi ma :: ivs_of ref ts else ivs_of ref ts.
Proof. unfold ivs_of. cbn [filter fst snd]. destruct (r =? ref); reflexivity. Qed.

Lemma ivs_of_wf ref ts : Forall wf_triple ts -> Forall wf_iv (ivs_of ref ts).
Proof.
  induction 1 as [|[[r mi] ma] ts [_ Ht] Hts IH]; [constructor|].
  rewrite ivs_of_cons. destruct (r =? ref); [constructor; [exact Ht|exact IH]|exact IH].
Qed.

Lemma add_all_spec : forall ts m, ginv m -> Forall wf_triple ts ->
  exists m', add_all m ts = ROk m' /\ ginv m' /\
             forall ref, fold_add (get m ref) (ivs_of ref ts) = Intervals.Ok (get m' ref).
Proof.
  induction ts as [|[[r mi] ma] ts IH]; intros m Hg Hwf.
  - exists m. split; [reflexivity|]. split; [exact Hg|]. intros ref. reflexivity.
  - inversion Hwf as [|? ? [_ Ht] Hts]; subst. cbn [fst snd] in Ht.
    destruct (add_interval_spec m r (mkI mi ma) Hg Ht) as (m1 & Hm1 & Hadd & Hoth & Hg1 & _).
    destruct (IH m1 Hg1 Hts) as (m' & Hm' & Hg' & Hfold).
    exists m'. cbn [add_all]. rewrite Hm1. split; [exact Hm'|]. split; [exact Hg'|].
    intros ref. rewrite ivs_of_cons. destruct (N.eqb_spec r ref) as [<-|Hne].
    + cbn [fold_add]. rewrite Hadd. apply Hfold.
    + rewrite <- (Hoth ref) by (intros E; apply Hne; symmetry; exact E). apply Hfold.
Qed.

Lemma canon_spec : forall stones, wf_stones stones ->
  exists m, canon stones = ROk m /\ refs_incr m /\ Forall (fun s => snd s <> []) m /\
    forall ref, exists r, fold_add [] (ivs_of ref (flatten stones)) = Intervals.Ok r /\ get m ref = r /\
                          canonical r /\
                          forall t, Intervals.covered r t <-> Exists (fun n => (imin n <= t <= imax n)%Z) (ivs_of ref (flatten stones)).
Proof.
  intros stones Hwf. pose proof (flatten_wf stones Hwf) as Hts.
  assert (Hg0 : ginv []) by (split; [exact I|constructor]).
  destruct (add_all_spec (flatten stones) [] Hg0 Hts) as (m & Hm & [Hinc Hgr] & Hfold).
  exists m. split; [exact Hm|]. split; [exact Hinc|]. split.
  { eapply Forall_impl; [|exact Hgr]. intros s [H _]. exact H. }
  intros ref. exists (get m ref). specialize (Hfold ref). cbn [get] in Hfold.
  split; [exact Hfold|]. split; [reflexivity|].
  destruct (adds_reachable (ivs_of ref (flatten stones)) (ivs_of_wf ref _ Hts)) as (r0 & Hr0 & Hc0 & Hcov0).
  rewrite Hfold in Hr0. injection Hr0 as <-. split; assumption.
Qed.

Definition stones_canonical (stones : list stone) : Prop :=
  refs_incr stones /\ Forall (fun s => u64_ok (fst s) /\ snd s <> [] /\ canonical (snd s)) stones.

Lemma canonical_wf l : canonical l -> Forall wf_iv l.
Proof. intros H. apply canonS_iff, canonical_canonS, H. Qed.

(* AddInterval walks past the groups with smaller refs *)
Lemma add_interval_skip : forall m tail ref iv, Forall (fun s => fst s < ref) m ->
  add_interval (m ++ tail) ref iv =
  match add_interval tail ref iv with ROk t' => ROk (m ++ t') | RErr e => RErr e end.
Proof.
  induction m as [|[r ivs] t IH]; intros tail ref iv Hlt.
  - cbn [app]. destruct (add_interval tail ref iv); reflexivity.
  - apply Forall_cons_iff in Hlt as [Hr Ht]. cbn [fst] in Hr. cbn [app add_interval].
    destruct (N.ltb_spec ref r); [lia|]. destruct (N.eqb_spec ref r); [lia|].
    rewrite (IH tail ref iv Ht). destruct (add_interval tail ref iv); reflexivity.
Qed.

Lemma add_all_group_tail : forall post m ref pre, Forall (fun s => fst s < ref) m ->
  canonical (pre ++ post) ->
  add_all (m ++ [(ref, pre)]) (map (fun iv => (ref, imin iv, imax iv)) post) = ROk (m ++ [(ref, pre ++ post)]).
Proof.
  induction post as [|n post IH]; intros m ref pre Hlt Hc.
  - cbn [map add_all]. rewrite app_nil_r. reflexivity.
  - cbn [map add_all].
    assert (Hn : mkI (imin n) (imax n) = n) by (destruct n; reflexivity). rewrite Hn.
    assert (Hc' : canonical ((pre ++ [n]) ++ post)) by (rewrite <- app_assoc; exact Hc).
    assert (Hc1 : canonical (pre ++ [n])).
    { apply canonical_canonS. apply canonical_canonS in Hc'. apply canonS_app in Hc'. tauto. }
    rewrite (add_interval_skip m _ ref n Hlt). cbn [add_interval].
    rewrite N.ltb_irrefl, N.eqb_refl, (add_append pre n Hc1).
    rewrite (IH m ref (pre ++ [n]) Hlt Hc'), <- app_assoc. reflexivity.
Qed.

Lemma add_all_group m ref ivs : Forall (fun s => fst s < ref) m -> ivs <> [] -> canonical ivs ->
  add_all m (map (fun iv => (ref, imin iv, imax iv)) ivs) = ROk (m ++ [(ref, ivs)]).
Proof.
  intros Hlt Hne Hc. destruct ivs as [|n post]; [congruence|].
  cbn [map add_all]. assert (Hn : mkI (imin n) (imax n) = n) by (destruct n; reflexivity). rewrite Hn.
  rewrite <- (app_nil_r m) at 1. rewrite (add_interval_skip m [] ref n Hlt).
  apply (add_all_group_tail post m ref [n] Hlt Hc).
Qed.

Lemma add_all_app : forall a b m,
  add_all m (a ++ b) = match add_all m a with ROk m' => add_all m' b | RErr e => RErr e end.
Proof.
  induction a as [|[[r mi] ma] a IH]; intros b m; [reflexivity|]. cbn [app add_all].
  destruct (add_interval m r (mkI mi ma)); [apply IH|reflexivity].
Qed.

Lemma lb_trans x y m : x < y -> lb y m -> lb x m.
Proof. unfold lb. destruct m as [|[r ?] ?]; intros; [exact I|lia]. Qed.

Lemma add_all_exact : forall rest m, refs_incr rest ->
  (forall x, In x m -> lb (fst x) rest) ->
  Forall (fun s => snd s <> [] /\ canonical (snd s)) rest ->
  add_all m (flatten rest) = ROk (m ++ rest).
Proof.
  induction rest as [|[ref ivs] rest IH]; intros m Hi Hm Hf.
  - unfold flatten. cbn [flat_map add_all]. rewrite app_nil_r. reflexivity.
  - apply refs_incr_inv in Hi. destruct Hi as [Hl Hi].
    inversion Hf as [|? ? [Hne Hc] Hfr]; subst. cbn [snd] in Hne, Hc.
    assert (Hlt : Forall (fun s => fst s < ref) m).
    { apply Forall_forall. intros x Hx. pose proof (Hm x Hx) as H. unfold lb in H. exact H. }
    change (flatten ((ref, ivs) :: rest))
      with (map (fun iv => (ref, imin iv, imax iv)) ivs ++ flatten rest).
    rewrite add_all_app. rewrite (add_all_group m ref ivs Hlt Hne Hc). cbv beta iota.
    rewrite (IH (m ++ [(ref, ivs)]) Hi); [rewrite <- app_assoc; reflexivity| |exact Hfr].
    intros x Hx. apply in_app_or in Hx. destruct Hx as [Hx|[<-|[]]].
    + rewrite Forall_forall in Hlt. apply (lb_trans _ ref); [exact (Hlt x Hx)|exact Hl].
    + exact Hl.
Qed.

Lemma stones_canonical_wf stones : stones_canonical stones -> wf_stones stones.
Proof.
  intros [_ Hf]. unfold wf_stones. eapply Forall_impl; [|exact Hf].
  intros s (Hu & _ & Hc). split; [exact Hu|apply canonical_wf; exact Hc].
Qed.

Lemma tombstone_file_roundtrip_exact : forall crc stones,
  stones_canonical stones -> read_file crc (write_file crc stones) = ROk stones.
Proof.
  intros crc stones Hs. rewrite tombstone_file_roundtrip by (apply stones_canonical_wf; exact Hs).
  destruct Hs as [Hi Hf]. unfold canon.
  apply (add_all_exact stones [] Hi).
  - intros x [].
  - eapply Forall_impl; [|exact Hf]. intros s (_ & Hne & Hc). split; assumption.
Qed.

Lemma uv_dec_aux_shrinks : forall n s acc bs x r,
  uv_dec_aux n s acc bs = Some (x, r) -> (length r < length bs)%nat.
Proof.
  induction n as [|n IH]; intros s acc bs x r H; [discriminate H|].
  destruct bs as [|b bs']; [discriminate H|]. rewrite uv_dec_aux_cons in H.
  destruct (b <? 128).
  - destruct (Nat.eqb n 0 && (1 <? b)); [discriminate H|]. injection H as _ <-. cbn [length]. lia.
  - apply IH in H. cbn [length]. lia.
Qed.

Lemma d_uvarint64_shrinks bs x r : d_uvarint64 bs = Bytes.Ok (x, r) -> (length r < length bs)%nat.
Proof.
  unfold d_uvarint64, get_uvarint. destruct (uv_dec_aux 10 0 0 bs) as [[x' r']|] eqn:E; intros H; [|discriminate H].
  injection H as _ <-. eapply uv_dec_aux_shrinks. exact E.
Qed.

Lemma d_varint64_shrinks bs x r : d_varint64 bs = Bytes.Ok (x, r) -> (length r < length bs)%nat.
Proof.
  unfold d_varint64, dmap, dbind, dret. destruct (d_uvarint64 bs) as [[u r']|e] eqn:E; intros H; [|discriminate H].
  injection H as _ <-. eapply d_uvarint64_shrinks. exact E.
Qed.

Lemma add_interval_err : forall m k iv e, add_interval m k iv = RErr e -> e = RPanic.
Proof.
  induction m as [|[r ivs] t IH]; intros k iv e H; cbn [add_interval] in H.
  - destruct (Intervals.add [] iv); [discriminate H|]. injection H as <-. reflexivity.
  - destruct (k <? r).
    + destruct (Intervals.add [] iv); [discriminate H|]. injection H as <-. reflexivity.
    + destruct (k =? r).
      * destruct (Intervals.add ivs iv); [discriminate H|]. injection H as <-. reflexivity.
      * destruct (add_interval t k iv) as [t'|e'] eqn:E; [discriminate H|].
        injection H as <-. eapply IH. exact E.
Qed.

Lemma decode_loop_fuel_enough : forall fuel bs m, (length bs <= fuel)%nat -> decode_loop fuel bs m <> RErr RFuel.
Proof.
  induction fuel as [|f IH]; intros bs m Hl.
  - destruct bs; [cbn [decode_loop]; discriminate|cbn [length] in Hl; lia].
  - destruct bs as [|b bs']; [cbn [decode_loop]; discriminate|].
    cbn [decode_loop].
    destruct (d_uvarint64 (b :: bs')) as [[k r1]|e1] eqn:E1; [|discriminate].
    destruct (d_varint64 r1) as [[mi r2]|e2] eqn:E2; [|discriminate].
    destruct (d_varint64 r2) as [[ma r3]|e3] eqn:E3; [|discriminate].
    apply d_uvarint64_shrinks in E1. apply d_varint64_shrinks in E2. apply d_varint64_shrinks in E3.
    destruct (add_interval m k (mkI mi ma)) as [m'|e] eqn:Ea.
    + apply IH. cbn [length] in *. lia.
    + apply add_interval_err in Ea. subst e. discriminate.
Qed.

(* non-vacuity: a concrete MemTombstones content (two refs, int64 extremes, negative times)
   meets the hypotheses; with the bitwise CRC-32C the file is 49 bytes and reads back *)
Definition ex_stones : list stone :=
  [ (3, [mkI minInt64 (-5); mkI (-3) 7; mkI 100 maxInt64]); (18446744073709551615, [mkI 0 0]) ].

Lemma ex_stones_ok (crc : list N -> N) :
  stones_canonical ex_stones /\ wf_stones ex_stones /\
  read_file crc (write_file crc ex_stones) = ROk ex_stones /\ length (write_file crc ex_stones) = 49%nat.
Proof.
  assert (Hc : stones_canonical ex_stones).
  { unfold stones_canonical, ex_stones. split; [cbn; lia|].
    repeat constructor; cbn; unfold u64_ok, two64N, wf_iv, int64, minInt64, maxInt64; try lia; try discriminate. }
  split; [exact Hc|]. split; [apply stones_canonical_wf; exact Hc|].
  split; [apply tombstone_file_roundtrip_exact; exact Hc|].
  unfold write_file, write_triples, put_be32. rewrite !app_length, !be_enc_length. vm_compute. reflexivity.
Qed.
