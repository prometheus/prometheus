(* proof/WriteReqProofs.v — proofs about model/WriteReq.v (C41). *)
From Coq Require Import List ZArith Bool Lia.
From Verif Require Import model.WriteReq.
Import ListNotations.
Open Scope Z_scope.

Arguments ac_st {St}. Arguments ac_s {St}. Arguments ac_h {St}. Arguments ac_e {St}.
Arguments ac_bad {St}. Arguments ac_tr {St}.

Lemma str_eqb_eq : forall a b, str_eqb a b = true <-> a = b.
Proof.
  induction a as [|x a IH]; destruct b as [|y b]; simpl; split; intro H; try congruence; auto.
  - apply andb_true_iff in H as [H1 H2]. apply Z.eqb_eq in H1. apply IH in H2. congruence.
  - inversion H; subst. apply andb_true_iff; split; [apply Z.eqb_refl | apply IH; reflexivity].
Qed.

Lemma str_ltb_irrefl : forall a, str_ltb a a = false.
Proof. induction a as [|x a IH]; simpl; auto. rewrite Z.ltb_irrefl. exact IH. Qed.

Lemma str_ltb_leb : forall a b, str_ltb a b = true -> str_leb a b = true.
Proof.
  unfold str_leb. induction a as [|x a IH]; destruct b as [|y b]; simpl; intros H; try discriminate; auto.
  destruct (x <? y) eqn:E1.
  - apply Z.ltb_lt in E1. assert (y <? x = false) as -> by (apply Z.ltb_ge; lia). reflexivity.
  - destruct (y <? x) eqn:E2; [discriminate|]. apply IH in H.
    apply negb_true_iff in H. rewrite H. reflexivity.
Qed.

Lemma sort_sorted_strict : forall ls, sorted_strict ls = true -> sort_labels ls = ls.
Proof.
  induction ls as [|a t IH]; intros H; auto.
  change (sort_labels (a :: t)) with (insert_label a (sort_labels t)).
  destruct t as [|b t'].
  - reflexivity.
  - cbn [sorted_strict] in H. apply andb_true_iff in H as [H1 H2]. rewrite (IH H2).
    cbn [insert_label]. rewrite (str_ltb_leb _ _ H1). reflexivity.
Qed.

Definition extends (a b : list str) : Prop := exists e, b = a ++ e.
Lemma extends_refl : forall a, extends a a.
Proof. intros a; exists []; rewrite app_nil_r; reflexivity. Qed.
Lemma extends_trans : forall a b c, extends a b -> extends b c -> extends a c.
Proof. intros a b c [e1 ->] [e2 ->]. exists (e1 ++ e2). rewrite app_assoc. reflexivity. Qed.
Lemma extends_app : forall a e, extends a (a ++ e).
Proof. intros; eexists; reflexivity. Qed.
Lemma nth_error_extends : forall (a b : list str) i s, extends a b -> nth_error a i = Some s -> nth_error b i = Some s.
Proof.
  intros a b i s [e ->] H. rewrite nth_error_app1; auto.
  apply nth_error_Some. congruence.
Qed.

Lemma find_idx_some : forall s tbl i k, find_idx s tbl i = Some k ->
  exists j, k = (i + j)%nat /\ nth_error tbl j = Some s.
Proof.
  induction tbl as [|x r IH]; simpl; intros i k H; [discriminate|].
  destruct (str_eqb s x) eqn:E.
  - inversion H; subst. apply str_eqb_eq in E; subst. exists 0%nat. split; [lia | reflexivity].
  - apply IH in H as [j [-> Hn]]. exists (S j). split; [lia | exact Hn].
Qed.

Lemma symbolize_spec : forall tbl s tbl' i, symbolize tbl s = (tbl', i) ->
  extends tbl tbl' /\ nth_error tbl' i = Some s.
Proof.
  unfold symbolize. intros tbl s tbl' i H. destruct (find_idx s tbl 0) as [k|] eqn:E.
  - inversion H; subst. apply find_idx_some in E as [j [-> Hn]]. split; [apply extends_refl | exact Hn].
  - inversion H; subst. split; [apply extends_app|].
    rewrite nth_error_app2 by lia. rewrite Nat.sub_diag. reflexivity.
Qed.

Lemma symbolize_labels_spec : forall ls tbl tbl' refs, symbolize_labels tbl ls = (tbl', refs) ->
  extends tbl tbl' /\ forall tb, extends tbl' tb -> desym_pairs refs tb = Some ls.
Proof.
  induction ls as [|[n v] r IH]; intros tbl tbl' refs H; simpl in H.
  - inversion H; subst. split; [apply extends_refl | reflexivity].
  - destruct (symbolize tbl n) as [t1 i] eqn:E1. destruct (symbolize t1 v) as [t2 j] eqn:E2.
    destruct (symbolize_labels t2 r) as [t3 rest] eqn:E3. inversion H; subst. clear H.
    apply symbolize_spec in E1 as [X1 N1]. apply symbolize_spec in E2 as [X2 N2].
    apply IH in E3 as [X3 D3]. split.
    + eapply extends_trans; [exact X1|]. eapply extends_trans; [exact X2 | exact X3].
    + intros tb Xb.
      assert (Hi : nth_error tb i = Some n).
      { eapply nth_error_extends; [|exact N1].
        eapply extends_trans; [exact X2|]. eapply extends_trans; [exact X3 | exact Xb]. }
      assert (Hj : nth_error tb j = Some v).
      { eapply nth_error_extends; [|exact N2]. eapply extends_trans; [exact X3 | exact Xb]. }
      cbn [desym_pairs]. rewrite Hi, Hj. rewrite (D3 tb Xb). reflexivity.
Qed.

Lemma symbolize_all_spec : forall lss tbl tbl' refss, symbolize_all tbl lss = (tbl', refss) ->
  extends tbl tbl' /\
  forall tb, extends tbl' tb ->
    map (fun r => desymbolize r tb) refss = map (fun ls => Some (sort_labels ls)) lss.
Proof.
  induction lss as [|ls r IH]; intros tbl tbl' refss H; simpl in H.
  - inversion H; subst. split; [apply extends_refl | reflexivity].
  - destruct (symbolize_labels tbl ls) as [t1 refs] eqn:E1.
    destruct (symbolize_all t1 r) as [t2 rest] eqn:E2. inversion H; subst. clear H.
    apply symbolize_labels_spec in E1 as [X1 D1]. apply IH in E2 as [X2 D2]. split.
    + eapply extends_trans; eauto.
    + intros tb Xb. simpl. rewrite (D2 tb Xb). unfold desymbolize at 1.
      rewrite (D1 tb (extends_trans _ _ _ X2 Xb)). reflexivity.
Qed.


Lemma filter_rev_length : forall {A} (f : A -> bool) l, length (filter f (rev l)) = length (filter f l).
Proof.
  induction l as [|x l IH]; simpl; auto.
  rewrite filter_app, app_length, IH. simpl. destruct (f x); simpl; lia.
Qed.

Lemma count_rev : forall tr,
  count_f (rev tr) = count_f tr /\ count_h (rev tr) = count_h tr /\ count_e (rev tr) = count_e tr.
Proof. intros; unfold count_f, count_h, count_e; rewrite !filter_rev_length; auto. Qed.

Lemma count_nil : count_f [] = 0 /\ count_h [] = 0 /\ count_e [] = 0.
Proof. repeat split. Qed.

Definition ev_labels (e : event) : labels :=
  match e with EvF l _ _ => l | EvH l _ _ => l | EvE l _ => l end.

(* a 2.0 series the receiver accepts: decodable references, a valid label set, not empty *)
Definition series_ok (syms : list str) (ts : ts2) : bool :=
  match desymbolize (t2_refs ts) syms with
  | None => false
  | Some ls => meta_ok ts syms && valid_series ls &&
               negb (match t2_samples ts, t2_hists ts with [], [] => true | _, _ => false end)
  end.

Arguments series_ok syms ts : simpl never.

(* [R st tr]: a relation between the appender's state and the appends it has acknowledged (newest
   first) that every append operation maintains *)
Definition tracks {St} (A : appender St) (R : St -> list event -> Prop) : Prop :=
  (forall st tr l t v st' o, R st tr -> a_append A st l t v = (st', o) ->
     R st' (match o with OOk => EvF l t v :: tr | _ => tr end))
  /\ (forall st tr l t h st' o, R st tr -> a_hist A st l t h = (st', o) ->
     R st' (match o with OOk => EvH l t h :: tr | _ => tr end))
  /\ (forall st tr l e st' o, R st tr -> a_ex A st l e = (st', o) ->
     R st' (match o with OOk => EvE l e :: tr | _ => tr end)).

Lemma tracks_nothing : forall St (A : appender St), tracks A (fun _ _ => True).
Proof. repeat split. Qed.

Definition nonex (tr : list event) : list event :=
  filter (fun e => match e with EvE _ _ => false | _ => true end) tr.
Definition evs_f (l : labels) (ss : list (Z * Z)) : list event := map (fun x => EvF l (fst x) (snd x)) ss.
Definition evs_h (l : labels) (hs : list (Z * hist)) : list event := map (fun x => EvH l (fst x) (reduced (snd x))) hs.
Definition v1_wanted (r : list ts1) : list event :=
  flat_map (fun ts => let ls := sort_labels (t1_labels ts) in
                      if valid_series ls then evs_f ls (t1_samples ts) ++ evs_h ls (t1_hists ts) else []) r.

Lemma nonex_app : forall a b, nonex (a ++ b) = nonex a ++ nonex b.
Proof. intros; unfold nonex; apply filter_app. Qed.

Section Generic.
Variable St : Type.
Variable A : appender St.
Variable maxT : Z.
Variable R : St -> list event -> Prop.
Hypothesis HR : tracks A R.
(* what is known of every label set appended under *)
Variable P : labels -> Prop.
Hypothesis P_valid : forall ls, valid_series ls = true -> P ls.

Lemma rw_append_R : forall st tr l t v st' o, R st tr -> rw_append St A maxT st l t v = (st', o) ->
  R st' (match o with OOk => EvF l t v :: tr | _ => tr end).
Proof.
  unfold rw_append. intros st tr l t v st' o H E. destruct (maxT <? t).
  - inversion E; subst. exact H.
  - eapply HR; eauto.
Qed.
Lemma rw_hist_R : forall st tr l t h st' o, R st tr -> rw_hist St A maxT st l t h = (st', o) ->
  R st' (match o with OOk => EvH l t (reduced h) :: tr | _ => tr end).
Proof.
  unfold rw_hist. intros st tr l t h st' o H E. destruct (maxT <? t).
  - inversion E; subst. exact H.
  - destruct (needs_reduce h && negb (h_redok h)).
    + inversion E; subst. exact H.
    + eapply HR; eauto.
Qed.
Lemma rw_ex_R : forall st tr l e st' o, R st tr -> rw_ex St A maxT st l e = (st', o) ->
  R st' (match o with OOk => EvE l e :: tr | _ => tr end).
Proof.
  unfold rw_ex. intros st tr l e st' o H E. destruct (maxT <? ex_t e).
  - inversion E; subst. exact H.
  - eapply HR; eauto.
Qed.

(* 2.0: the counters count the acknowledged appends, which all carry label sets satisfying P *)
Definition Inv (a : acc St) : Prop :=
  R (ac_st a) (ac_tr a) /\ ac_s a = count_f (ac_tr a) /\ ac_h a = count_h (ac_tr a)
  /\ ac_e a = count_e (ac_tr a) /\ Forall (fun e => P (ev_labels e)) (ac_tr a) /\ 0 <= ac_bad a.

(* the accumulator after an acknowledged append *)
Definition ack (a : acc St) (st : St) (ev : event) : acc St :=
  match ev with
  | EvF _ _ _ => mkAcc St st (ac_s a + 1) (ac_h a) (ac_e a) (ac_bad a) (ev :: ac_tr a)
  | EvH _ _ _ => mkAcc St st (ac_s a) (ac_h a + 1) (ac_e a) (ac_bad a) (ev :: ac_tr a)
  | EvE _ _ => mkAcc St st (ac_s a) (ac_h a) (ac_e a + 1) (ac_bad a) (ev :: ac_tr a)
  end.

Lemma Inv_ack : forall a st ev, Inv a -> R st (ev :: ac_tr a) -> P (ev_labels ev) -> Inv (ack a st ev).
Proof.
  unfold Inv, count_f, count_h, count_e. intros a st ev (H1 & H2 & H3 & H4 & H5 & H6) H Pl.
  destruct ev; simpl; repeat split; auto; lia.
Qed.

Lemma Inv_keep : forall a st, Inv a -> R st (ac_tr a) ->
  Inv (mkAcc St st (ac_s a) (ac_h a) (ac_e a) (ac_bad a) (ac_tr a)).
Proof. unfold Inv; simpl. intros a st (H1 & H2) H. auto. Qed.

Lemma Inv_bad : forall a st, Inv a -> R st (ac_tr a) -> Inv (bad St a st).
Proof. unfold Inv, bad; simpl; intros a st (H1 & H2 & H3 & H4 & H5 & H6) H. repeat split; auto; lia. Qed.

(* outcome of a part of the request: aborted, or an accumulator with at least b complaints *)
Definition Post (b : Z) (res : acc St + St) : Prop :=
  match res with inl a' => Inv a' /\ b <= ac_bad a' | inr st => exists tr, R st tr end.

Lemma Post_le : forall b b' res, b <= b' -> Post b' res -> Post b res.
Proof. intros b b' [a|st] Hb; simpl; auto. intros [H1 H2]. split; [exact H1 | lia]. Qed.

Lemma Post_bind : forall b b' res (f : acc St -> acc St + St),
  Post b res -> (forall a1, Inv a1 -> b <= ac_bad a1 -> Post b' (f a1)) ->
  Post b' (match res with inl a1 => f a1 | inr st => inr st end).
Proof. intros b b' [a1|st] f H Hf; [destruct H; auto | exact H]. Qed.

Lemma v2_samples_inv : forall l, P l -> forall ss a, Inv a -> Post (ac_bad a) (v2_samples St A maxT l ss a).
Proof.
  intros l Pl. induction ss as [|[t v] r IH]; intros a HI; simpl.
  - split; [exact HI | lia].
  - destruct (rw_append St A maxT (ac_st a) l t v) as [st o] eqn:E.
    pose proof (rw_append_R _ _ _ _ _ _ _ (proj1 HI) E) as HR'.
    destruct o; try (eexists; exact HR').
    + apply (IH (ack a st (EvF l t v))), Inv_ack; auto.
    + apply (Post_le _ (ac_bad (bad St a st))); [simpl; lia|]. apply IH, Inv_bad; auto.
Qed.

Lemma v2_hists_inv : forall l, P l -> forall hs a, Inv a -> Post (ac_bad a) (v2_hists St A maxT l hs a).
Proof.
  intros l Pl. induction hs as [|[t h] r IH]; intros a HI; simpl.
  - split; [exact HI | lia].
  - destruct (rw_hist St A maxT (ac_st a) l t h) as [st o] eqn:E.
    pose proof (rw_hist_R _ _ _ _ _ _ _ (proj1 HI) E) as HR'.
    destruct o; try (eexists; exact HR').
    + apply (IH (ack a st (EvH l t (reduced h)))), Inv_ack; auto.
    + apply (Post_le _ (ac_bad (bad St a st))); [simpl; lia|]. apply IH, Inv_bad; auto.
    + apply (Post_le _ (ac_bad (bad St a st))); [simpl; lia|]. apply IH, Inv_bad; auto.
Qed.

Lemma v2_exs_inv : forall syms l, P l -> forall es a, Inv a ->
  Post (ac_bad a) (inl (v2_exs St A maxT syms l es a)).
Proof.
  intros syms l Pl. induction es as [|e r IH]; intros a HI; simpl.
  - split; [exact HI | lia].
  - assert (Hbad : forall st, R st (ac_tr a) -> Inv (v2_exs St A maxT syms l r (bad St a st))
                     /\ ac_bad a <= ac_bad (v2_exs St A maxT syms l r (bad St a st))).
    { intros st Hst. apply (Post_le _ (ac_bad (bad St a st)) (inl _)); [simpl; lia|]. apply IH, Inv_bad; auto. }
    destruct (desymbolize (e2_refs e) syms) as [el|]; [|apply Hbad, HI].
    destruct (rw_ex St A maxT (ac_st a) l (mkEx el (e2_t e) (e2_v e))) as [st o] eqn:E.
    pose proof (rw_ex_R _ _ _ _ _ _ (proj1 HI) E) as HR'.
    destruct o; try (apply (IH (mkAcc St st _ _ _ _ _)), Inv_keep; auto; fail).
    + apply (IH (ack a st (EvE l (mkEx el (e2_t e) (e2_v e))))), Inv_ack; auto.
    + apply Hbad, HR'.
Qed.

Lemma v2_series_inv : forall syms ts a, Inv a ->
  Post (ac_bad a + if series_ok syms ts then 0 else 1) (v2_series St A maxT syms ts a).
Proof.
  intros syms ts a HI. unfold v2_series, series_ok.
  assert (HB : forall d, d <= 1 -> Post (ac_bad a + d) (inl (bad St a (ac_st a)))).
  { intros d Hd. split; [apply Inv_bad; [exact HI | apply HI] | simpl; lia]. }
  destruct (desymbolize (t2_refs ts) syms) as [ls|]; [|apply HB; lia].
  destruct (meta_ok ts syms); [|simpl; apply HB; lia].
  destruct (valid_series ls) eqn:V; [|simpl; apply HB; lia].
  assert (Main : forall ss hs, Post (ac_bad a)
    match v2_samples St A maxT ls ss a with
    | inl a1 => match v2_hists St A maxT ls hs a1 with
                | inl a2 => inl (v2_exs St A maxT syms ls (t2_exs ts) a2)
                | inr st => inr st
                end
    | inr st => inr st
    end).
  { intros ss hs. apply P_valid in V.
    apply (Post_bind (ac_bad a)); [apply v2_samples_inv; auto|]. intros a1 I1 B1.
    apply (Post_bind (ac_bad a1)); [apply v2_hists_inv; auto|]. intros a2 I2 B2.
    apply (Post_le _ (ac_bad a2)); [lia|]. apply v2_exs_inv; auto. }
  destruct (t2_samples ts), (t2_hists ts); cbv beta iota delta [negb andb];
    [apply HB; lia | | |]; (eapply Post_le; [|apply Main]; lia).
Qed.

Lemma v2_all_inv : forall syms tss a, Inv a ->
  Post (ac_bad a + if forallb (series_ok syms) tss then 0 else 1) (v2_all St A maxT syms tss a).
Proof.
  induction tss as [|ts r IH]; intros a HI; simpl.
  - split; [exact HI | lia].
  - eapply Post_bind; [apply v2_series_inv, HI|]. intros a1 I1 B1.
    eapply Post_le; [|apply IH, I1]. destruct (series_ok syms ts), (forallb (series_ok syms) r); simpl; lia.
Qed.

Lemma v2_all_start : forall st0 syms tss, R st0 [] ->
  match v2_all St A maxT syms tss (mkAcc St st0 0 0 0 0 []) with
  | inl a => Inv a /\ (ac_bad a = 0 -> forallb (series_ok syms) tss = true)
  | inr st => exists tr, R st tr
  end.
Proof.
  intros st0 syms tss H0.
  assert (HI : Inv (mkAcc St st0 0 0 0 0 [])) by (unfold Inv; simpl; repeat split; auto; lia).
  pose proof (v2_all_inv syms tss _ HI) as H. unfold Post in H.
  destruct (v2_all St A maxT syms tss _) as [a|st]; [|exact H].
  destruct H as [Ha C]. split; [exact Ha|]. intros E0.
  destruct (forallb (series_ok syms) tss); [reflexivity|]. simpl in C. lia.
Qed.

(* 1.0: the trace holds acknowledged appends under label sets satisfying P; a part of the
   request that is not aborted has added, exemplars aside, exactly the events [want] *)
Definition Inv1 (st : St) (tr : list event) : Prop :=
  R st tr /\ Forall (fun e => P (ev_labels e)) tr.

Definition Post1 (tr want : list event) (res : (St * list event) + (St * outcome)) : Prop :=
  match res with
  | inl (st', tr') => Inv1 st' tr' /\ nonex (rev tr') = nonex (rev tr) ++ want
  | inr (st', _) => exists tr', R st' tr'
  end.

Arguments Post1 tr want res : simpl never.

Lemma Post1_cons : forall ev tr want res, Post1 (ev :: tr) want res -> Post1 tr (nonex [ev] ++ want) res.
Proof.
  intros ev tr want [[st' tr']|[st' o]]; unfold Post1; simpl; auto. intros [H1 H2]. split; auto.
  rewrite H2, nonex_app, app_assoc. reflexivity.
Qed.

Lemma Post1_bind : forall tr w1 w2 res f,
  Post1 tr w1 res -> (forall st1 tr1, Inv1 st1 tr1 -> Post1 tr1 w2 (f st1 tr1)) ->
  Post1 tr (w1 ++ w2) (match res with inl (st1, tr1) => f st1 tr1 | inr e => inr e end).
Proof.
  intros tr w1 w2 [[st1 tr1]|[st1 o]] f; unfold Post1; auto. intros [I E] Hf. specialize (Hf st1 tr1 I).
  destruct (f st1 tr1) as [[st2 tr2]|[st2 o]]; auto.
  destruct Hf as [I2 E2]. split; auto. rewrite E2, E, app_assoc. reflexivity.
Qed.

Lemma Post1_nil : forall st tr, Inv1 st tr -> Post1 tr [] (inl (st, tr)).
Proof. intros st tr H. split; [exact H | symmetry; apply app_nil_r]. Qed.

Lemma v1_samples_inv : forall l, P l -> forall ss st tr, Inv1 st tr ->
  Post1 tr (evs_f l ss) (v1_samples St A maxT l ss st tr).
Proof.
  intros l Pl. induction ss as [|[t v] r IH]; intros st tr [H1 H2]; simpl.
  - apply Post1_nil. split; auto.
  - destruct (rw_append St A maxT st l t v) as [st' o] eqn:E.
    pose proof (rw_append_R _ _ _ _ _ _ _ H1 E) as HR'.
    destruct o; try (eexists; exact HR').
    apply (Post1_cons (EvF l t v)), IH. split; auto.
Qed.

Lemma v1_hists_inv : forall l, P l -> forall hs st tr, Inv1 st tr ->
  Post1 tr (evs_h l hs) (v1_hists St A maxT l hs st tr).
Proof.
  intros l Pl. induction hs as [|[t h] r IH]; intros st tr [H1 H2]; simpl.
  - apply Post1_nil. split; auto.
  - destruct (rw_hist St A maxT st l t h) as [st' o] eqn:E.
    pose proof (rw_hist_R _ _ _ _ _ _ _ H1 E) as HR'.
    destruct o; try (eexists; exact HR').
    apply (Post1_cons (EvH l t (reduced h))), IH. split; auto.
Qed.

Lemma v1_exs_inv : forall l, P l -> forall es st tr, Inv1 st tr ->
  Post1 tr [] (inl (v1_exs St A maxT l es st tr)).
Proof.
  intros l Pl. induction es as [|e r IH]; intros st tr [H1 H2]; simpl.
  - apply Post1_nil. split; auto.
  - destruct (rw_ex St A maxT st l _) as [st' o] eqn:E.
    pose proof (rw_ex_R _ _ _ _ _ _ H1 E) as HR'.
    destruct o; try (apply IH; split; auto; fail).
    eapply (Post1_cons (EvE l _)), IH. split; auto.
Qed.

Lemma v1_all_inv : forall tss st tr, Inv1 st tr -> Post1 tr (v1_wanted tss) (v1_all St A maxT tss st tr).
Proof.
  induction tss as [|ts r IH]; intros st tr HI; simpl.
  - apply Post1_nil, HI.
  - unfold v1_wanted. simpl. fold (v1_wanted r).
    destruct (valid_series (sort_labels (t1_labels ts))) eqn:V; simpl; [|apply IH, HI].
    apply P_valid in V. rewrite <- app_assoc.
    apply Post1_bind; [apply v1_samples_inv; auto|]. intros st1 tr1 I1.
    pose proof (v1_exs_inv _ V (t1_exs ts) st1 tr1 I1) as S2.
    destruct (v1_exs St A maxT _ (t1_exs ts) st1 tr1) as [st2 tr2]. destruct S2 as [I2 E2].
    rewrite app_nil_r in E2. unfold Post1 at 1. rewrite <- E2.
    apply Post1_bind; [apply v1_hists_inv; auto|]. intros st3 tr3 I3. apply IH, I3.
Qed.
End Generic.

Lemma handle_v2_cases : forall St (A : appender St) maxT st0 r,
  let out := v2_all St A maxT (r2_syms r) (r2_series r) (mkAcc St st0 0 0 0 0 []) in
  (exists st, out = inr st /\
     handle_v2 A maxT st0 r = mkRes St 500 (Some (0, 0, 0)) [] FRolledBack (a_rollback A st))
  \/ (exists a st, out = inl a /\ a_commit A (ac_st a) = (st, false) /\
     handle_v2 A maxT st0 r = mkRes St 500 (Some (0, 0, 0)) [] FCommitFailed st)
  \/ (exists a st, out = inl a /\ a_commit A (ac_st a) = (st, true) /\
     handle_v2 A maxT st0 r = mkRes St (if ac_bad a =? 0 then 204 else 400) (Some (ac_s a, ac_h a, ac_e a))
                                    (rev (ac_tr a)) FCommitted st).
Proof.
  intros St A maxT st0 r out. unfold handle_v2. fold out. clearbody out.
  destruct out as [a|st]; [|left; exists st; auto].
  right. destruct (a_commit A (ac_st a)) as [st [|]] eqn:Ec; [right | left]; exists a, st; auto.
Qed.

Lemma handle_v1_cases : forall St (A : appender St) maxT st0 r,
  let out := v1_all St A maxT r st0 [] in
  (exists st o, out = inr (st, o) /\
     handle_v1 A maxT st0 r = mkRes St (match o with OSoft | OHistInvalid => 400 | _ => 500 end) None []
                                    FRolledBack (a_rollback A st))
  \/ (exists st tr st', out = inl (st, tr) /\ a_commit A st = (st', false) /\
     handle_v1 A maxT st0 r = mkRes St 500 None [] FCommitFailed st')
  \/ (exists st tr st', out = inl (st, tr) /\ a_commit A st = (st', true) /\
     handle_v1 A maxT st0 r = mkRes St 204 None (rev tr) FCommitted st').
Proof.
  intros St A maxT st0 r out. unfold handle_v1. fold out. clearbody out.
  destruct out as [[st tr]|[st o]]; [|left; exists st, o; auto].
  right. destruct (a_commit A st) as [st' [|]] eqn:Ec; [right | left]; exists st, tr, st'; auto.
Qed.

(* an atomic storage stores exactly what is reported *)
Definition ideal_R (s0 : ideal) (st : ideal) (tr : list event) : Prop :=
  id_pending st = tr /\ id_stored st = id_stored s0.

Lemma ideal_R_ev : forall decide s0 st tr ev, ideal_R s0 st tr ->
  let o := decide (id_pending st ++ id_stored st) ev in
  ideal_R s0 (match o with OOk => mkIdeal (id_stored st) (ev :: id_pending st) | _ => st end)
          (match o with OOk => ev :: tr | _ => tr end).
Proof.
  unfold ideal_R. intros decide s0 st tr ev [H1 H2]. simpl. destruct (decide _ ev); simpl; subst; auto.
Qed.

Lemma ideal_tracks : forall decide s0, tracks (ideal_app decide) (ideal_R s0).
Proof.
  intros decide s0. split; [|split]; intros until 1; intros E; simpl in E; inversion E; subst;
    apply (ideal_R_ev decide s0); assumption.
Qed.

Definition w_syms : list str := [[]; metric_name; [109; 49]; [116]; [120]].   (* "", __name__, m1, t, x *)
Definition w_big : Z := 10000000000000.

(* 2.0: two samples of one series, the second older than the first: both acknowledged by Append,
   the second dropped by Commit *)
Definition w_req_ooo : req2 := mkR2 w_syms [mkTS2 [1; 2]%nat 0 0 [(2000, 1); (1990, 2)] [] []].
(* 2.0: exemplar storage disabled: AppendExemplar returns (0, nil), the exemplar is counted *)
Definition w_req_ex : req2 := mkR2 w_syms [mkTS2 [1; 2]%nat 0 0 [(2000, 1)] [] [mkE2 [3; 4]%nat 2001 1]].
(* 2.0: two exemplars of one series, the second older: both counted, one stored *)
Definition w_req_ex2 : req2 :=
  mkR2 w_syms [mkTS2 [1; 2]%nat 0 0 [(2000, 1)] [] [mkE2 [3; 4]%nat 2011 1; mkE2 [3; 3]%nat 2001 2]].
(* 1.0: success although a sample of a valid series was dropped *)
Definition w_req_v1 : list ts1 := [mkTS1 [(metric_name, [109; 49])] [(2000, 1); (1990, 2)] [] []].
(* an atomic storage that refuses a second sample at a timestamp it already holds *)
Definition dedup (stored : list event) (e : event) : outcome :=
  match e with
  | EvF l t _ => if existsb (fun x => match x with EvF l' t' _ => labels_eqb l l' && (t =? t') | _ => false end) stored
                 then OSoft else OOk
  | _ => OOk
  end.
Definition w_req_mixed : req2 :=
  mkR2 w_syms [mkTS2 [1; 2]%nat 0 0 [(10, 1); (10, 2); (20, 3)] [(30, mkH false 1 true 9 true)] [mkE2 [3; 4]%nat 11 1];
               mkTS2 [3; 4]%nat 0 0 [(10, 1)] [] []].       (* second series has no metric name *)
Lemma wire_f_id : forall v, v <> negzero -> wire_f v = v.
Proof. intros v H. unfold wire_f. destruct (Z.eqb_spec v negzero); [contradiction | reflexivity]. Qed.

Definition wire_safe (h : ghist) : Prop := g_sum h <> negzero /\ g_zt h <> negzero.

(* negative zero in a scalar double field does not survive *)
Definition w_negz_hist : ghist := mkGH true 0 0 0 0 0 negzero [] [] [] [] [].
(* the float view of an integer histogram: bucket counts are the partial sums of the deltas
   (exactly, while they stay below 2^53 in absolute value) *)
Fixpoint psums (cur : Z) (ds : list Z) : list Z :=
  match ds with [] => [] | d :: r => (cur + d) :: psums (cur + d) r end.
Definition small (x : Z) : Prop := Z.abs x < 9007199254740992.
Lemma rnd53_small : forall x, small x -> rnd53 x = x.
Proof. intros x H. unfold rnd53. destruct (Z.ltb_spec (Z.abs x) 9007199254740992); [reflexivity|]. unfold small in H. lia. Qed.
Lemma deltas_to_counts_exact : forall ds cur, Forall small ds -> Forall small (psums cur ds) ->
  deltas_to_counts cur ds = map bits_exact (psums cur ds).
Proof.
  induction ds as [|d r IH]; intros cur H1 H2; simpl; auto.
  inversion H1; subst. simpl in H2. inversion H2; subst.
  rewrite (rnd53_small d) by assumption. rewrite (rnd53_small (cur + d)) by assumption.
  f_equal. apply IH; assumption.
Qed.
