(* proof/HistChunkIns.v — insert(): its positional semantics on absolute values, its commutation
   with the delta encoding, the invariant shared by the two producers of insert lists, and the
   correctness of expandSpansBothWays (both_go). *)
From Coq Require Import List ZArith Bool Lia.
From Verif Require Import model.HistChunk proof.HistChunkProofs.
Import ListNotations.
Open Scope Z_scope.

Lemma repeat_shift (n : Z) (X : list Z) : 0 <= n ->
  repeat 0 (Z.to_nat (n + 1)) ++ X = repeat 0 (Z.to_nat n) ++ 0 :: X.
Proof.
  intros H. replace (Z.to_nat (n + 1)) with (Z.to_nat n + 1)%nat by lia.
  rewrite repeat_app, <- app_assoc. reflexivity.
Qed.

Lemma extra_repeat n : 1 <= n -> 0 :: extra n = repeat 0 (Z.to_nat n).
Proof. intros H. unfold extra. replace (Z.to_nat n) with (S (Z.to_nat (n - 1))) by lia. reflexivity. Qed.

Lemma take_ins_irrel i v v' f f' l : take_ins false i v f l = take_ins false i v' f' l.
Proof.
  revert f f'. induction l as [|x r IH]; intros f f'; simpl; [reflexivity|].
  destruct (i_pos x =? i); [|reflexivity]. now rewrite (IH false false).
Qed.

Lemma take_ins_none d i v f l : Forall (fun x => i < i_pos x) l -> take_ins d i v f l = ([], l).
Proof.
  destruct l as [|x r]; intros H; simpl; [reflexivity|]. inversion H; subst.
  destruct (Z.eqb_spec (i_pos x) i); [lia|reflexivity].
Qed.

Lemma leftover_irrel len v v' l : leftover false len v l = leftover false len v' l.
Proof. destruct l; simpl; reflexivity. Qed.

Lemma ins_body_unfold i v x va l :
  ins_body false i v (x :: va) l =
  let '(o, r) := take_ins false i v true l in
  w <- ins_body false (i + 1) (v + x) va r ;; Ok (o ++ x :: w).
Proof.
  destruct l as [|y r]; cbn [ins_body take_ins]; [reflexivity|].
  destruct (i_pos y =? i); [|reflexivity].
  destruct (take_ins false i v false r) as [o r']. reflexivity.
Qed.

Lemma ins_body_irrel i v v' va l : ins_body false i v va l = ins_body false i v' va l.
Proof.
  revert i v v' l. induction va as [|x va IH]; intros i v v' l.
  - simpl. apply leftover_irrel.
  - rewrite !ins_body_unfold. rewrite (take_ins_irrel i v v' true true).
    destruct (take_ins false i v' true l) as [o r]. now rewrite (IH (i + 1) (v + x) (v' + x)).
Qed.

Lemma ins_body_nil i v va : ins_body false i v va [] = Ok va.
Proof.
  revert i v. induction va as [|x va IH]; intros i v; [reflexivity|].
  cbn [ins_body]. rewrite IH. reflexivity.
Qed.

Lemma ins_skip i v x va l :
  Forall (fun y => i < i_pos y) l ->
  ins_body false i v (x :: va) l = (w <- ins_body false (i + 1) v va l ;; Ok (x :: w)).
Proof.
  intros H. rewrite ins_body_unfold, (take_ins_none _ _ _ _ _ H).
  now rewrite (ins_body_irrel (i + 1) (v + x) v).
Qed.

(* an insert at the current position contributes its zeros in front *)
Lemma ins_same_pos i v va n b l w :
  1 <= n -> ins_body false i v va l = Ok w ->
  ins_body false i v va (mkIns i n b :: l) = Ok (repeat 0 (Z.to_nat n) ++ w).
Proof.
  intros Hn H. destruct va as [|x va].
  - cbn [ins_body leftover i_pos i_num] in *. rewrite Z.ltb_irrefl.
    rewrite (leftover_irrel i 0 v), H. cbn [bind]. now rewrite extra_repeat.
  - rewrite ins_body_unfold in *. cbn [take_ins i_pos i_num]. rewrite Z.eqb_refl. cbn [andb].
    rewrite (take_ins_irrel i v v false true).
    destruct (take_ins false i v true l) as [o r].
    destruct (ins_body false (i + 1) (v + x) va r) as [w1| |]; cbn [bind] in *; try discriminate.
    inversion H; subst. rewrite <- extra_repeat by assumption.
    now rewrite <- !app_comm_cons, <- app_assoc.
Qed.

Lemma ins_flush pi F x va w v :
  0 <= i_num pi -> Forall (fun y => i_pos pi < i_pos y) F ->
  ins_body false (i_pos pi + 1) v va F = Ok w ->
  ins_body false (i_pos pi) v (x :: va) (flush pi F) = Ok (repeat 0 (Z.to_nat (i_num pi)) ++ x :: w).
Proof.
  destruct pi as [p n b]. cbn [i_pos i_num]. intros Hn HF H.
  assert (E : ins_body false p v (x :: va) F = Ok (x :: w)) by (rewrite (ins_skip _ _ _ _ _ HF), H; reflexivity).
  unfold flush. cbn [i_num]. destruct (Z.ltb_spec 0 n).
  - apply ins_same_pos; [lia|assumption].
  - replace n with 0 by lia. exact E.
Qed.

Lemma ins_flush_end pi v :
  0 <= i_num pi -> ins_body false (i_pos pi) v [] (flush pi []) = Ok (repeat 0 (Z.to_nat (i_num pi))).
Proof.
  destruct pi as [p n b]. cbn [i_pos i_num]. intros H. unfold flush. cbn [i_num]. destruct (Z.ltb_spec 0 n).
  - cbn [ins_body leftover i_pos i_num]. rewrite Z.ltb_irrefl. cbn [bind].
    rewrite app_nil_r. now rewrite extra_repeat by lia.
  - replace n with 0 by lia. reflexivity.
Qed.

Lemma prefix_sums_length v l : length (prefix_sums v l) = length l.
Proof. revert v. induction l; intros; simpl; auto. Qed.

Lemma prefix_sums_app v l1 l2 :
  prefix_sums v (l1 ++ l2) = prefix_sums v l1 ++ prefix_sums (fold_left Z.add l1 v) l2.
Proof. revert v. induction l1 as [|x l1 IH]; intros v; simpl; [reflexivity|]. now rewrite IH. Qed.

Lemma prefix_sums_zeros v n : prefix_sums v (repeat 0 n) = repeat v n.
Proof. induction n; simpl; [reflexivity|]. rewrite Z.add_0_r. now rewrite IHn. Qed.

Lemma fold_add_zeros v n : fold_left Z.add (repeat 0 n) v = v.
Proof. induction n; simpl; [reflexivity|]. now rewrite Z.add_0_r. Qed.

Lemma take_ins_false_zeros i v f l : exists n, fst (take_ins false i v f l) = repeat 0 n.
Proof.
  revert f. induction l as [|x r IH]; intros f; simpl; [exists 0%nat; reflexivity|].
  destruct (i_pos x =? i); [|exists 0%nat; reflexivity].
  destruct (IH false) as [n Hn]. destruct (take_ins false i v false r) as [o r'] eqn:E. simpl in *. subst o.
  exists (S (Z.to_nat (i_num x - 1) + n)). unfold extra. simpl. now rewrite repeat_app.
Qed.

Lemma take_ins_nofirst i v v' f l : take_ins true i v false l = take_ins false i v' f l.
Proof.
  revert f. induction l as [|x r IH]; intros f; simpl; [reflexivity|].
  destruct (i_pos x =? i); [|reflexivity]. now rewrite (IH false).
Qed.

(* outcomes of the two modes correspond *)
Definition rel (v : Z) (rt rf : res (list Z)) : Prop :=
  match rt, rf with
  | Ok w, Ok wa => wa = prefix_sums v w
  | Panic, Panic => True
  | Fuel, Fuel => True
  | _, _ => False
  end.

Lemma rel_bind v v1 rt rf (f g : list Z -> list Z) :
  rel v1 rt rf -> (forall w, g (prefix_sums v1 w) = prefix_sums v (f w)) ->
  rel v (w <- rt ;; Ok (f w)) (w <- rf ;; Ok (g w)).
Proof. destruct rt, rf; cbn; try tauto. intros -> H. apply H. Qed.

(* the head of an insert undoes the running value; the zeros behind it keep it at 0 *)
Lemma prefix_sums_insert v k rest :
  prefix_sums v ((- v :: repeat 0 k) ++ rest) = (0 :: repeat 0 k) ++ prefix_sums 0 rest.
Proof.
  cbn [app prefix_sums]. replace (v + - v) with 0 by lia. f_equal.
  now rewrite prefix_sums_app, prefix_sums_zeros, fold_add_zeros.
Qed.

Lemma leftover_rel len v v' l : rel v (leftover true len v l) (leftover false len v' l).
Proof.
  revert v v'. induction l as [|x r IH]; intros v v'; cbn [leftover]; [reflexivity|].
  destruct (i_pos x <? len); [exact I|].
  apply (rel_bind v 0 _ _ (app (- v :: extra (i_num x))) (app (0 :: extra (i_num x))) (IH 0 0)). intro w.
  unfold extra. now rewrite prefix_sums_insert.
Qed.

Lemma ins_body_rel inp : forall i v v' l,
  rel v (ins_body true i v inp l) (ins_body false i v' (prefix_sums v inp) l).
Proof.
  induction inp as [|d rest IH]; intros i v v' l; [apply leftover_rel|].
  cbn [prefix_sums]. rewrite ins_body_unfold.
  assert (Plain : forall l', rel v (w <- ins_body true (i + 1) (v + d) rest l' ;; Ok (d :: w))
                               (w <- ins_body false (i + 1) (v' + (v + d)) (prefix_sums (v + d) rest) l' ;; Ok ([] ++ (v + d) :: w)))
    by (intro l'; now apply (rel_bind v (v + d) _ _ (cons d) (cons (v + d)) (IH _ _ _ l'))).
  destruct l as [|x r]; cbn [ins_body take_ins]; [apply Plain|].
  destruct (i_pos x =? i); [|apply Plain]. cbn [andb].
  rewrite (take_ins_nofirst i v v' false r).
  destruct (take_ins_false_zeros i v' false r) as [n Hn].
  destruct (take_ins false i v' false r) as [o r']. cbn [fst] in Hn. subst o.
  unfold extra. rewrite <- repeat_app.
  apply (rel_bind v (v + d) _ _ (fun w => (- v :: repeat 0 _) ++ (d + v) :: w)
                  (fun w => (0 :: repeat 0 _) ++ (v + d) :: w) (IH _ _ _ r')). intro w.
  rewrite prefix_sums_insert. cbn [prefix_sums]. now replace (0 + (d + v)) with (v + d) by lia.
Qed.

(* if the absolute-mode insert fills the output exactly, so does the delta-mode insert, and its
   prefix sums are the absolute-mode result *)
Lemma insert_go_deltas inp l n out :
  insert_go false (prefix_sums 0 inp) l n = Ok out -> Z.of_nat (length out) = n ->
  (forall w, ins_body false 0 0 (prefix_sums 0 inp) l = Ok w -> Z.of_nat (length w) = n) ->
  exists outd, insert_go true inp l n = Ok outd /\ prefix_sums 0 outd = out.
Proof.
  unfold insert_go. intros H Hlen Hw.
  pose proof (ins_body_rel inp 0 0 0 l) as R.
  destruct (ins_body false 0 0 (prefix_sums 0 inp) l) as [wa| |] eqn:Ea; cbn [bind] in H; try discriminate.
  destruct (ins_body true 0 0 inp l) as [w| |]; cbn [rel] in R; try tauto. subst wa.
  specialize (Hw _ eq_refl). rewrite prefix_sums_length in *.
  cbn [bind]. rewrite Hw in *. rewrite Z.ltb_irrefl in *. rewrite Z.sub_diag in *. cbn [Z.to_nat repeat] in *.
  rewrite app_nil_r in *. inversion H; subst. eauto.
Qed.

(* the inserts P, behind the pending insert pi, lay the values of (ix, va) out on M *)
Definition good (pi : ins) (P : list ins) (M ix : list Z) : Prop :=
  forall va v, length va = length ix ->
    ins_body false (i_pos pi) v va P = Ok (repeat 0 (Z.to_nat (i_num pi)) ++ lay M ix va).

(* what both producers of insert lists (both_go, cnt_go) maintain for each of their two sides:
   ix are the side's own bucket indices, M the merged ones; a pending insert is eventually emitted *)
Definition lays (pi : ins) (P : list ins) (M ix : list Z) : Prop :=
  Forall (fun y => i_pos pi <= i_pos y) P /\ good pi P M ix /\ incl ix M /\
  (P = [] -> M = ix) /\ (0 < i_num pi -> P <> []).

Lemma flush_nil pi P : flush pi P = [] -> i_num pi <= 0 /\ P = [].
Proof. unfold flush. destruct (Z.ltb_spec 0 (i_num pi)); [discriminate|auto]. Qed.

Lemma flush_lb pi P lo : lo <= i_pos pi -> Forall (fun y => lo <= i_pos y) P ->
  Forall (fun y => lo <= i_pos y) (flush pi P).
Proof. intros H HP. unfold flush. destruct (0 <? i_num pi); [constructor|]; assumption. Qed.

(* the side's own bucket m is consumed: the pending insert is flushed *)
Lemma lays_take pi P' M' ix' m :
  0 <= i_num pi -> lays (mkIns (i_pos pi + 1) 0 (i_bidx pi)) P' M' ix' ->
  lays pi (flush pi P') (m :: M') (m :: ix').
Proof.
  intros Hn (LB & G & IN & E1 & _). cbn [i_pos i_num] in *. repeat split.
  - apply flush_lb; [lia|]. eapply Forall_impl; [|exact LB]. cbn; intros; lia.
  - intros va v Hlen. destruct va as [|x va]; [discriminate|]. cbn [lay]. rewrite Z.eqb_refl.
    apply ins_flush; [assumption| |apply G; cbn in Hlen; lia].
    eapply Forall_impl; [|exact LB]. cbn; intros; lia.
  - intros x [->|Hx]; [now left|right; auto].
  - intro E. apply flush_nil in E. now rewrite E1.
  - intros H E. apply flush_nil in E. lia.
Qed.

(* a bucket m of the other stream is missing on this side: the pending insert grows *)
Lemma lays_skip pi pi' P M' ix m :
  i_pos pi' = i_pos pi -> i_num pi' = i_num pi + 1 -> 0 <= i_num pi -> incr m ix ->
  lays pi' P M' ix -> lays pi P (m :: M') ix.
Proof.
  intros Ep En Hn Hix (LB & G & IN & _ & E2). unfold good in G. rewrite Ep, En in *. repeat split.
  - exact LB.
  - intros va v Hlen. rewrite (G va v Hlen), lay_skip by assumption. now rewrite repeat_shift.
  - intros x Hx. right. auto.
  - intros ->. now destruct E2; [lia|].
  - intros _. apply E2. lia.
Qed.

Lemma lays_exhausted p n b M : 0 <= n ->
  lays (mkIns p n b) (flush (mkIns p (n + Z.of_nat (length M)) b) []) M [].
Proof.
  intros Hn. repeat split; cbn [i_pos i_num].
  - apply flush_lb; [cbn; lia|constructor].
  - intros va v Hlen. destruct va; [|discriminate].
    pose proof (ins_flush_end (mkIns p (n + Z.of_nat (length M)) b) v) as E. cbn [i_pos i_num] in E.
    cbn [i_pos i_num]. rewrite E, lay_nil, <- repeat_app by lia. do 2 f_equal. lia.
  - apply incl_nil_l.
  - intro E. apply flush_nil in E. cbn in E. destruct M; [reflexivity|cbn in E; lia].
  - intros H E. apply flush_nil in E. cbn in E. lia.
Qed.

Lemma lays_self pi M : 0 <= i_num pi -> lays pi (flush pi []) M M.
Proof.
  intros Hn. repeat split.
  - apply flush_lb; [lia|constructor].
  - intros va v Hlen. rewrite lay_self by assumption. destruct va as [|x va].
    + rewrite ins_flush_end by lia. now rewrite app_nil_r.
    + apply ins_flush; [lia|constructor|apply ins_body_nil].
  - apply incl_refl.
  - intros H0 E. apply flush_nil in E. lia.
Qed.

(* a good insert list widens any bucket slice from the index list ix to M, keeping its map, in
   the absolute and in the delta encoding *)
Definition widens (k : kind) (P : list ins) (M ix : list Z) : Prop :=
  forall b, length b = length ix ->
    exists out, insert_go (is_deltas k) b P (Z.of_nat (length M)) = Ok out /\ length out = length M /\
                forall i, lookup i (combine M (abs_counts k out)) = lookup i (combine ix (abs_counts k b)).

Lemma lays_widens k b0 F M ix lo :
  lays (mkIns 0 0 b0) F M ix -> incr lo M -> incr lo ix -> widens k F M ix.
Proof.
  intros (_ & G & Hin & _) HM Hix buckets Hlen. unfold good in G. cbn [i_pos i_num] in G.
  assert (A : forall va, length va = length ix ->
                insert_go false va F (Z.of_nat (length M)) = Ok (lay M ix va)).
  { intros va Hva. unfold insert_go. rewrite (G va 0 Hva). cbn [repeat app bind Z.to_nat].
    rewrite lay_length, Z.ltb_irrefl, Z.sub_diag. cbn [Z.to_nat repeat]. now rewrite app_nil_r. }
  destruct k; cbn [is_deltas abs_counts].
  - destruct (insert_go_deltas buckets F (Z.of_nat (length M)) (lay M ix (prefix_sums 0 buckets))) as (outd & E & P).
    + apply A. now rewrite prefix_sums_length.
    + now rewrite lay_length.
    + intros w Hw. rewrite (G (prefix_sums 0 buckets) 0) in Hw by (now rewrite prefix_sums_length).
      inversion Hw; subst. cbn [repeat app Z.to_nat]. now rewrite lay_length.
    + exists outd. split; [exact E|]. split.
      * rewrite <- (prefix_sums_length 0 outd), P. apply lay_length.
      * intros i. rewrite P. apply (lay_lookup lo); auto. now rewrite prefix_sums_length.
  - exists (lay M ix buckets). split; [now apply A|]. split; [apply lay_length|].
    intros i. now apply (lay_lookup lo).
Qed.

Lemma both_go_left fuel : forall ia fp fn bp bn, (length ia < fuel)%nat ->
  both_go fuel ia [] fp fn bp bn =
  Ok (flush (mkIns fp fn 0) [], flush (mkIns bp (bn + Z.of_nat (length ia)) 0) [], ia).
Proof.
  induction fuel as [|f IH]; intros ia fp fn bp bn H; [lia|]. destruct ia as [|a ia]; cbn [both_go].
  - now rewrite Z.add_0_r.
  - rewrite IH by (cbn in H; lia). cbn [bind].
    now replace (bn + 1 + Z.of_nat (length ia)) with (bn + Z.of_nat (length (a :: ia))) by (cbn [length]; lia).
Qed.

Lemma both_go_right fuel : forall ib fp fn bp bn, (length ib < fuel)%nat ->
  both_go fuel [] ib fp fn bp bn =
  Ok (flush (mkIns fp (fn + Z.of_nat (length ib)) 0) [], flush (mkIns bp bn 0) [], ib).
Proof.
  induction fuel as [|f IH]; intros ib fp fn bp bn H; [lia|]. destruct ib as [|b ib]; cbn [both_go].
  - now rewrite Z.add_0_r.
  - rewrite IH by (cbn in H; lia). cbn [bind].
    now replace (fn + 1 + Z.of_nat (length ib)) with (fn + Z.of_nat (length (b :: ib))) by (cbn [length]; lia).
Qed.

(* with enough fuel expandSpansBothWays terminates without panic; both insert lists lay their
   side out on the merged index list M, which holds exactly the buckets of both sides *)
Lemma both_go_spec fuel : forall ia ib fp fn bp bn lo,
  (length ia + length ib < fuel)%nat -> 0 <= fn -> 0 <= bn -> incr lo ia -> incr lo ib ->
  exists F B M, both_go fuel ia ib fp fn bp bn = Ok (F, B, M) /\
    lays (mkIns fp fn 0) F M ia /\ lays (mkIns bp bn 0) B M ib /\ incr lo M /\
    forall x, In x M -> In x ia \/ In x ib.
Proof.
  induction fuel as [|f IH]; intros ia ib fp fn bp bn lo Hf Hfn Hbn Hia Hib; [lia|].
  destruct ia as [|a ia']; [|destruct ib as [|b ib']].
  - rewrite both_go_right by lia. do 3 eexists. split; [reflexivity|].
    split; [now apply lays_exhausted|]. split; [now apply lays_self|]. auto.
  - rewrite both_go_left by (cbn in *; lia). do 3 eexists. split; [reflexivity|].
    split; [now apply lays_self|]. split; [now apply lays_exhausted|]. auto.
  - cbn [both_go]. destruct Hia as [Ha1 Ha2], Hib as [Hb1 Hb2]. cbn [length] in Hf.
    destruct (Z.eqb_spec a b) as [<-|Hab]; [|destruct (Z.ltb_spec a b) as [Hlt|Hge]].
    + (* same bucket in both *)
      destruct (IH ia' ib' (fp + 1) 0 (bp + 1) 0 a) as (F & B & M & E & LA & LB & IM & MM); try lia; auto.
      rewrite E. cbn [bind]. do 3 eexists. split; [reflexivity|].
      split; [now apply (lays_take (mkIns fp fn 0))|]. split; [now apply (lays_take (mkIns bp bn 0))|].
      split; [now split|]. intros x [<-|Hx]; [left; now left|]. destruct (MM x Hx); [left|right]; now right.
    + (* a < b: b misses a *)
      destruct (IH ia' (b :: ib') (fp + 1) 0 bp (bn + 1) a) as (F & B & M & E & LA & LB & IM & MM);
        try (cbn [length]; lia); auto; [now split|].
      rewrite E. cbn [bind]. do 3 eexists. split; [reflexivity|].
      split; [now apply (lays_take (mkIns fp fn 0))|].
      split; [apply (lays_skip _ (mkIns bp (bn + 1) 0)); auto; now split|].
      split; [now split|]. intros x [<-|Hx]; [left; now left|]. destruct (MM x Hx); [left; now right|now right].
    + (* a > b: a misses b *)
      assert (Ha' : incr b (a :: ia')) by (split; [lia|assumption]).
      destruct (IH (a :: ia') ib' fp (fn + 1) (bp + 1) 0 b) as (F & B & M & E & LA & LB & IM & MM);
        try (cbn [length]; lia); auto.
      rewrite E. cbn [bind]. do 3 eexists. split; [reflexivity|].
      split; [apply (lays_skip _ (mkIns fp (fn + 1) 0)); auto|].
      split; [now apply (lays_take (mkIns bp bn 0))|].
      split; [split; [lia|assumption]|]. intros x [<-|Hx]; [right; now left|]. destruct (MM x Hx); [now left|right; now right].
Qed.

Theorem both_go_widens ia ib lo : incr lo ia -> incr lo ib ->
  exists F B M, both_go (S (length ia + length ib)) ia ib 0 0 0 0 = Ok (F, B, M) /\ incr lo M /\
    (forall x, In x M <-> In x ia \/ In x ib) /\ (F = [] -> M = ia) /\ (B = [] -> M = ib) /\
    (forall k, widens k F M ia) /\ (forall k, widens k B M ib).
Proof.
  intros Hia Hib.
  destruct (both_go_spec _ ia ib 0 0 0 0 lo (Nat.lt_succ_diag_r _) ltac:(lia) ltac:(lia) Hia Hib)
    as (F & B & M & E & LA & LB & IM & MM).
  exists F, B, M. pose proof LA as (_ & _ & IA & EA & _). pose proof LB as (_ & _ & IB & EB & _).
  repeat split; eauto using lays_widens. intros [H|H]; auto.
Qed.
