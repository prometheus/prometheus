(* proof/PromqlTypingProofs.v — proofs for model/PromqlTyping.v (C33): the evaluator never fails
   internally on a tree that satisfies wtp (eval_sound, with the Call case in section CallSound);
   preprocessing a checked tree gives such a tree of the same type (pre_ok); together they give
   type_soundness for whole queries. *)
From Coq Require Import List ZArith Bool String Lia.
From Verif Require Import lib.SortedList model.PromqlTyping.
Import ListNotations.
Local Open Scope string_scope.

Lemma ftab_wf_ok : ftab_wf ftab = true.
Proof. vm_compute. reflexivity. Qed.

Lemma flookup_forall : forall (t : ftab_t) f sg,
  ftab_wf t = true -> flookup f t = Some sg -> sig_wf f sg = true.
Proof.
  induction t as [|[g s] t IH]; intros f sg Hwf Hl; simpl in *; [discriminate|].
  apply andb_prop in Hwf as [H1 H2].
  destruct (String.eqb f g) eqn:E.
  - apply String.eqb_eq in E. subst. inversion Hl; subst. exact H1.
  - eauto.
Qed.

(* the clauses of sig_wf, for a function of the table *)
Lemma flookup_wf : forall f sg, flookup f ftab = Some sg ->
  is_sv (fs_ret sg) = true /\
  (if (fs_var sg =? 0)%Z then true else negb (Nat.eqb (List.length (fs_args sg)) 0)) = true /\
  match count_matrix (fs_args sg) with
  | O => true
  | S O => (fs_var sg =? 0)%Z && forallb (fun t => vtype_eqb t TMatrix || vtype_eqb t TScalar) (fs_args sg)
  | _ => false
  end = true /\
  (fs_impl sg || special_fn f || ctx_fn f) = true /\
  existsb (fun t => vtype_eqb t TNone) (fs_args sg) = false.
Proof.
  intros f sg Hl. generalize (flookup_forall ftab f sg ftab_wf_ok Hl).
  unfold sig_wf. rewrite !andb_true_iff, negb_true_iff. tauto.
Qed.

Lemma ctx_fn_sig : forall f, ctx_fn f = true ->
  exists sg, flookup f ftab = Some sg /\ fs_ret sg = TScalar.
Proof.
  intros f H. unfold ctx_fn, in_names in H. simpl in H.
  repeat (apply orb_prop in H; destruct H as [H|H]; [apply String.eqb_eq in H; subst; vm_compute; eauto|]).
  discriminate.
Qed.

Lemma ts_fn_sig : forall f, ts_fn f = true ->
  exists sg, flookup f ftab = Some sg /\ fs_args sg = [TVector] /\ fs_var sg = 0%Z /\ fs_ret sg = TVector.
Proof.
  intros f H. unfold ts_fn, in_names in H. simpl in H.
  repeat (apply orb_prop in H; destruct H as [H|H]; [apply String.eqb_eq in H; subst; vm_compute; eauto 10|]).
  discriminate.
Qed.

Global Opaque ftab.

Section ExprInd.
  Variable P : expr -> Prop.
  Hypothesis HNum : P ENum.
  Hypothesis HStr : P EStr.
  Hypothesis HVec : forall id vs, P (EVec id vs).
  Hypothesis HMat : forall id vs, P (EMat id vs).
  Hypothesis HSub : forall id a e, P e -> P (ESub id a e).
  Hypothesis HParen : forall e, P e -> P (EParen e).
  Hypothesis HUn : forall id e, P e -> P (EUn id e).
  Hypothesis HBin : forall id op rb vm l r, P l -> P r -> P (EBin id op rb vm l r).
  Definition optP (p : option expr) : Prop := match p with Some q => P q | None => True end.
  Hypothesis HAgg : forall id op p e, optP p -> P e -> P (EAgg id op p e).
  Hypothesis HCall : forall id f args, Forall P args -> P (ECall id f args).
  Hypothesis HStepInv : forall e, P e -> P (EStepInv e).

  Fixpoint expr_ind' (e : expr) : P e :=
    match e with
    | ENum => HNum
    | EStr => HStr
    | EVec id vs => HVec id vs
    | EMat id vs => HMat id vs
    | ESub id a e1 => HSub id a e1 (expr_ind' e1)
    | EParen e1 => HParen e1 (expr_ind' e1)
    | EUn id e1 => HUn id e1 (expr_ind' e1)
    | EBin id op rb vm l r => HBin id op rb vm l r (expr_ind' l) (expr_ind' r)
    | EAgg id op p e1 =>
        HAgg id op p e1
          (match p as p0 return optP p0 with
           | Some q0 => expr_ind' q0
           | None => I
           end)
          (expr_ind' e1)
    | ECall id f args =>
        HCall id f args
          ((fix go (l : list expr) : Forall P l :=
              match l with
              | [] => Forall_nil P
              | a :: t => Forall_cons a (expr_ind' a) (go t)
              end) args)
    | EStepInv e1 => HStepInv e1 (expr_ind' e1)
    end.
End ExprInd.

Lemma vtype_eqb_eq : forall a b, vtype_eqb a b = true <-> a = b.
Proof. destruct a, b; simpl; split; intros; try reflexivity; try discriminate. Qed.

Lemma vtype_eqb_refl : forall a, vtype_eqb a a = true.
Proof. destruct a; reflexivity. Qed.

Definition sound (n : nat) (t : vtype) (o : outcome) : Prop :=
  match o with Val v => has_type n v t = true | User => True | Internal _ => False end.

Fixpoint direct_mat (e : expr) : bool :=
  match e with EMat _ _ => true | EParen e1 => direct_mat e1 | _ => false end.

Lemma direct_mat_type : forall e, direct_mat e = true -> type_of e = TMatrix.
Proof. induction e; simpl; intros; try discriminate; auto. Qed.

(* the evaluator context in which a node is evaluated: an empty step range only for expressions
   that are not strings; a bare range selector only in a single-step evaluator *)
Definition ctx_ok (n : nat) (e : expr) : Prop :=
  (n = 0%nat -> type_of e <> TString) /\ (2 <= n -> direct_mat e = false)%nat.

Lemma collect_length : forall l r, collect l = Some r -> List.length r = List.length l.
Proof.
  induction l as [|[v|] l IH]; simpl; intros r H.
  - inversion H; reflexivity.
  - destruct (collect l) eqn:E; [|discriminate]. inversion H; subst. simpl. f_equal. auto.
  - discriminate.
Qed.

Lemma out_steps_sound : forall w id n, sound n TVector (out_steps w id n).
Proof.
  intros. unfold out_steps. destruct (collect _) eqn:E; simpl; auto.
  apply collect_length in E. rewrite map_length, seq_length in E. rewrite E. apply Nat.eqb_refl.
Qed.

Lemma scalar_steps_sound : forall n, sound n TScalar (scalar_steps n).
Proof.
  intros. simpl. rewrite repeat_length, Nat.eqb_refl. simpl. apply forallb_repeat. reflexivity.
Qed.

Lemma scalar_all_nonempty : forall n v, has_type n v TScalar = true -> all_nonempty n v = true.
Proof.
  intros n v H. destruct v; simpl in *; try discriminate.
  apply andb_prop in H as [Hl Hk]. apply Nat.eqb_eq in Hl.
  apply forallb_forall. intros s Hs. apply in_seq in Hs.
  rewrite forallb_forall in Hk.
  assert (In (nth s l []) l) by (apply nth_In; lia).
  apply Hk in H. destruct (nth s l []) as [|[] [|]]; simpl in *; try discriminate; reflexivity.
Qed.

Lemma sound_sv_shape : forall n t o, is_sv t = true -> sound n t o ->
  o = User \/ exists l, o = Val (VSteps l).
Proof.
  intros n t o Ht H. destruct o as [v| |f]; simpl in H; [|auto|contradiction].
  right. destruct t; try discriminate; destruct v; simpl in H; try discriminate; eauto.
Qed.

Lemma sound_matrix_shape : forall n o, sound n TMatrix o ->
  o = User \/ (exists v, o = Val v /\ v <> VStr).
Proof.
  intros n o H. destruct o as [v| |f]; simpl in H; [|auto|contradiction].
  right. exists v. split; auto. destruct v; simpl in H; congruence.
Qed.

Lemma sound_scalar_ne : forall n o, sound n TScalar o -> o = User \/ ne_of n o = true.
Proof.
  intros n o H. destruct o as [v| |f]; simpl in *; [|auto|contradiction].
  right. apply scalar_all_nonempty; auto.
Qed.

(* a user-facing error or a value: what first_bad lets through or turns into a user error *)
Definition benign (o : outcome) : Prop := match o with Internal _ => False | _ => True end.

Lemma first_bad_benign : forall l, Forall benign l ->
  first_bad l = None \/ first_bad l = Some User.
Proof. induction 1 as [|[| |] l H _ IH]; simpl; auto. contradiction. Qed.

Lemma first_bad_none : forall l, first_bad l = None -> forall o, In o l -> exists v, o = Val v.
Proof.
  induction l as [|o l IH]; simpl; intros H x Hx; [contradiction|].
  destruct o; try discriminate. destruct Hx as [<-|Hx]; eauto.
Qed.

(* val.(Matrix) succeeds on everything of a type other than string *)
Lemma as_matrix_sound : forall n t o, sound n t o -> t <> TString -> as_matrix o = o /\ benign o.
Proof.
  intros n t o H Ht. destruct o as [[]| |]; simpl in H |- *; try contradiction; auto.
  destruct t; simpl in H; congruence.
Qed.

Lemma has_type_zero : forall t, t <> TString -> t <> TNone -> has_type 0 (VSteps []) t = true.
Proof. destruct t; simpl; intros; congruence. Qed.

Lemma nth_error_mapi : forall A B (f : nat -> A -> B) l i j,
  nth_error (mapi f i l) j = option_map (f (i + j)%nat) (nth_error l j).
Proof.
  induction l as [|x l IH]; intros i j; simpl.
  - destruct j; reflexivity.
  - destruct j; simpl.
    + rewrite Nat.add_0_r. reflexivity.
    + rewrite IH. replace (S i + j)%nat with (i + S j)%nat by lia. reflexivity.
Qed.

Lemma mapi_length : forall A B (f : nat -> A -> B) l i, List.length (mapi f i l) = List.length l.
Proof. induction l; simpl; intros; auto. Qed.

Lemma nth_error_combine : forall A B (l : list A) (l' : list B) j,
  nth_error (combine l l') j =
  match nth_error l j, nth_error l' j with Some a, Some b => Some (a, b) | _, _ => None end.
Proof.
  induction l as [|x l IH]; intros l' j; simpl.
  - destruct j; reflexivity.
  - destruct l' as [|y l']; simpl.
    + destruct j; simpl; [reflexivity|]. destruct (nth_error l j); reflexivity.
    + destruct j; simpl; [reflexivity|]. apply IH.
Qed.

Lemma Forall_nth_error : forall A (P : A -> Prop) l,
  (forall j x, nth_error l j = Some x -> P x) -> Forall P l.
Proof.
  intros A P l H. apply Forall_forall. intros x Hx. apply In_nth_error in Hx as [j Hj]. eauto.
Qed.

(* the loops over the arguments of a call, with their positions *)
Section Forallbi.
  Context {A : Type} (P : nat -> A -> bool).
  Fixpoint forallbi (l : list A) (i : nat) : bool :=
    match l with [] => true | a :: t => P i a && forallbi t (S i) end.

  Lemma forallbi_nth : forall l i,
    forallbi l i = true <-> forall j a, nth_error l j = Some a -> P (i + j) a = true.
  Proof.
    induction l as [|x l IH]; intros i; simpl.
    - split; auto. intros _ [|j] a; discriminate.
    - rewrite andb_true_iff, IH. split.
      + intros [H1 H2] [|j] a Ha; simpl in Ha.
        * injection Ha as <-. now rewrite Nat.add_0_r.
        * rewrite Nat.add_succ_r. now apply H2.
      + intros H. split; [rewrite <- (Nat.add_0_r i); now apply (H 0%nat)|].
        intros j a Ha. rewrite Nat.add_succ_l, <- Nat.add_succ_r. now apply (H (S j)).
  Qed.
End Forallbi.

Definition wtp_arg (sg : fsig) (i : nat) (a : expr) : bool :=
  wtp a && match arg_type sg i with
           | Some ty => vtype_eqb (type_of a) ty && canon_arg ty a
           | None => false
           end.

Lemma wtp_call : forall id f args,
  wtp (ECall id f args) =
  match flookup f ftab with
  | None => false
  | Some sg =>
      arity_ok sg (List.length args) && (fs_impl sg || special_fn f) &&
      (if String.eqb f "info" then match nth_error args 1 with Some (EVec _ _) | None => true | _ => false end else true) &&
      forallbi (wtp_arg sg) args 0
  end.
Proof. intros. simpl. destruct (flookup f ftab); reflexivity. Qed.

Lemma wtp_arg_inv : forall sg i a, wtp_arg sg i a = true ->
  wtp a = true /\ exists ty, arg_type sg i = Some ty /\ type_of a = ty /\ canon_arg ty a = true.
Proof.
  unfold wtp_arg. intros sg i a [Hw H]%andb_prop. destruct (arg_type sg i) as [ty|]; [|discriminate].
  apply andb_prop in H as [Ht%vtype_eqb_eq Hc]. eauto.
Qed.

Definition arg_res (w : world) (n : nat) (a : expr) : argres :=
  match a with
  | EMat id' _ => RMat (w_err w id')
  | ESub _ _ _ => RSub (eval w n a)
  | _ => if vtype_eqb (type_of a) TString then RStr (is_strlit a) else RVal (eval w n a)
  end.

Lemma eval_call : forall w n id f args,
  eval w (S n) (ECall id f args) =
  match flookup f ftab with
  | None => Internal FNilImpl
  | Some sg => call_eval w (S n) id f sg args (map (arg_res w (S n)) args)
  end.
Proof.
  intros. simpl. destruct (flookup f ftab); [|reflexivity]. f_equal.
Qed.

(* the layers of call_eval, named: the result of a call that gets through, the checks a function
   body makes, the case without a range-vector argument (rangeEval), the case with one at
   position i, and both behind the checks common to them *)
Definition call_result (w : world) (n : nat) (id : Z) (sg : fsig) : outcome :=
  if vtype_eqb (fs_ret sg) TScalar then scalar_steps n else out_steps w id n.

Definition call_body (f : string) (sg : fsig) (hm : bool) (l : list (expr * bool)) (res : outcome) : outcome :=
  match footprint f sg hm l with Some ft => Internal ft | None => res end.

Definition plain_outcome (n : nat) (r : argres) : outcome :=
  match r with RStr _ => Val (VSteps []) | _ => as_matrix (res_outcome n r) end.

Definition call_plain (w : world) (n : nat) (id : Z) (f : string) (sg : fsig)
    (args : list expr) (rs : list argres) : outcome :=
  let os := map (plain_outcome n) rs in
  match first_bad os with
  | Some bad => bad
  | None => call_body f sg false (combine args (map (ne_of n) os)) (call_result w n id sg)
  end.

Definition range_outcome (n i j : nat) (r : argres) : outcome :=
  if (j =? i)%nat then Val VRange else as_matrix (res_outcome n r).

Definition call_range (w : world) (n : nat) (id : Z) (f : string) (sg : fsig)
    (args : list expr) (rs : list argres) (i : nat) : outcome :=
  let os := mapi (range_outcome n i) 0 rs in
  match first_bad os with
  | Some bad => bad
  | None =>
      if match nth_error rs i with Some (RMat true) => true | _ => false end then User
      else if negb (forallb (fun b => b) (mapi (fun j o => (j =? i)%nat || ne_of n o) 0 os))
      then Internal FIndex
      else call_body f sg true (combine args (map (fun _ => true) os)) (call_result w n id sg)
  end.

Definition call_generic (w : world) (n : nat) (id : Z) (f : string) (sg : fsig)
    (args : list expr) (rs : list argres) : outcome :=
  let m := first_matrix args 0 in
  match (match m with
         | Some i => match nth_error rs i with Some (RSub o) => first_bad [as_matrix o] | _ => None end
         | None => None end) with
  | Some bad => bad
  | None =>
      if negb (fs_impl sg) && negb (special_fn f) then Internal FNilImpl
      else if w_err w id then User
      else match m with
           | None => call_plain w n id f sg args rs
           | Some i => call_range w n id f sg args rs i
           end
  end.

Lemma call_eval_eq : forall w n id f sg args rs,
  call_eval w n id f sg args rs =
  if ts_fn f then
    match args with
    | [] => Internal FIndex
    | EVec id' _ :: _ => if w_err w id' then User else out_steps w id n
    | _ => call_generic w n id f sg args rs
    end
  else call_generic w n id f sg args rs.
Proof. reflexivity. Qed.

Lemma first_matrix_none : forall l i, first_matrix l i = None ->
  forall j a, nth_error l j = Some a -> is_matrixish a = false.
Proof.
  induction l as [|x l IH]; intros i H j a Hn; [destruct j; discriminate|].
  simpl in H. destruct (is_matrixish x) eqn:E; [discriminate|].
  destruct j; simpl in Hn; [inversion Hn; subst; auto|eauto].
Qed.

Lemma first_matrix_some : forall l i k, first_matrix l i = Some k ->
  exists j a, k = (i + j)%nat /\ nth_error l j = Some a /\ is_matrixish a = true.
Proof.
  induction l as [|x l IH]; intros i k H; [discriminate|].
  simpl in H. destruct (is_matrixish x) eqn:E.
  - inversion H; subst. exists 0%nat, x. rewrite Nat.add_0_r. auto.
  - apply IH in H. destruct H as (j & a & -> & Hn & Hm). exists (S j), a. split; [lia|auto].
Qed.

Lemma fp_args_ok : forall sg hm l i,
  (forall j a ne, nth_error l j = Some (a, ne) ->
     match arg_type sg (i + j) with
     | Some TScalar => ne = true
     | Some TString => is_strlit a = true
     | Some TMatrix => hm = true
     | _ => True
     end) ->
  fp_args sg hm i l = None.
Proof.
  induction l as [|[a ne] l IH]; intros i H; [reflexivity|].
  simpl. pose proof (H 0%nat a ne eq_refl) as H0. rewrite Nat.add_0_r in H0.
  assert (Ht : fp_args sg hm (S i) l = None).
  { apply IH. intros j a' ne' Hn. specialize (H (S j) a' ne' Hn).
    replace (S i + j)%nat with (i + S j)%nat by lia. exact H. }
  destruct (arg_type sg i) as [[]|]; auto; try (rewrite H0; auto); subst hm; auto.
Qed.

Lemma count_matrix_unique : forall l i j,
  count_matrix l = 1%nat -> nth_error l i = Some TMatrix -> nth_error l j = Some TMatrix -> i = j.
Proof.
  unfold count_matrix.
  induction l as [|x l IH]; intros i j Hc Hi Hj; [destruct i; discriminate|].
  simpl in Hc. destruct (vtype_eqb x TMatrix) eqn:E.
  - simpl in Hc. assert (Hz : List.length (filter (fun t => vtype_eqb t TMatrix) l) = 0%nat) by lia.
    assert (Hno : forall k, nth_error l k <> Some TMatrix).
    { intros k Hk. apply nth_error_In in Hk.
      assert (In TMatrix (filter (fun t => vtype_eqb t TMatrix) l)) by (apply filter_In; auto).
      destruct (filter _ l); [contradiction|discriminate]. }
    destruct i, j; simpl in *; auto; exfalso; eapply Hno; eauto.
  - destruct i; simpl in Hi; [inversion Hi; subst; discriminate|].
    destruct j; simpl in Hj; [inversion Hj; subst; discriminate|].
    f_equal. eauto.
Qed.

Lemma count_matrix_pos : forall l i, nth_error l i = Some TMatrix -> (1 <= count_matrix l)%nat.
Proof.
  unfold count_matrix. intros l i H. apply nth_error_In in H.
  assert (In TMatrix (filter (fun t => vtype_eqb t TMatrix) l)) by (apply filter_In; auto).
  destruct (filter _ l); [contradiction|simpl; lia].
Qed.

(* a function with a range-vector parameter is not variadic and its other parameters are scalars *)
Lemma matrix_param_alone : forall f sg i j ty, flookup f ftab = Some sg ->
  arg_type sg i = Some TMatrix -> arg_type sg j = Some ty -> j <> i -> ty = TScalar.
Proof.
  intros f sg i j ty Hl Hi Hj Hne. destruct (flookup_wf f sg Hl) as (_ & _ & Hone & _).
  unfold arg_type in Hi, Hj.
  assert (Hk : exists k, nth_error (fs_args sg) k = Some TMatrix).
  { destruct (i <? _)%nat; [eauto|]. destruct (fs_var sg =? 0)%Z; [discriminate|eauto]. }
  destruct Hk as [k Hk]. pose proof (count_matrix_pos _ _ Hk) as Hpos.
  destruct (count_matrix (fs_args sg)) as [|[|c]] eqn:Hc; [lia| |discriminate].
  apply andb_prop in Hone as [Hv0 Hall]. rewrite Hv0 in Hi, Hj.
  destruct (j <? _)%nat; [|discriminate]. destruct (i <? _)%nat; [|discriminate].
  rewrite forallb_forall in Hall. pose proof (Hall _ (nth_error_In _ _ Hj)) as Ht.
  apply orb_prop in Ht as [Ht|Ht]; apply vtype_eqb_eq in Ht; auto.
  subst ty. exfalso. apply Hne. eapply count_matrix_unique; eauto.
Qed.

Lemma arity_required : forall sg k, arity_ok sg k = true -> (required_args sg <= k)%nat.
Proof.
  unfold arity_ok, required_args. intros sg k H.
  destruct (fs_var sg =? 0)%Z.
  - apply Z.eqb_eq in H. lia.
  - apply andb_prop in H as [H _]. apply Z.leb_le in H. lia.
Qed.

(* what the Call case needs to know of an argument node a of declared type ty and of its result r *)
Definition good_res (n : nat) (ty : vtype) (a : expr) (r : argres) : Prop :=
  match ty with
  | TString => a = EStr /\ r = RStr true
  | TMatrix => is_matrixish a = true /\
               ((exists err, r = RMat err) \/ (exists o, r = RSub o /\ sound n TMatrix o))
  | TScalar | TVector => is_matrixish a = false /\ exists o, r = RVal o /\ sound n ty o
  | TNone => False
  end.

(* a scalar argument passes val.(Matrix), and as a value has a sample at every step *)
Lemma good_res_scalar : forall n a r, good_res n TScalar a r ->
  benign (as_matrix (res_outcome n r)) /\
  forall v, as_matrix (res_outcome n r) = Val v -> ne_of n (as_matrix (res_outcome n r)) = true.
Proof.
  intros n a r (_ & o & -> & Ho). simpl.
  destruct (as_matrix_sound _ _ _ Ho ltac:(discriminate)) as [-> Hb].
  split; [exact Hb|]. intros v ->. destruct (sound_scalar_ne _ _ Ho); [discriminate|auto].
Qed.

(* an argument that is not a range vector, as rangeEval sees it *)
Lemma good_res_plain : forall n ty a r, good_res n ty a r -> is_matrixish a = false ->
  benign (plain_outcome n r) /\
  match ty with
  | TScalar => forall v, plain_outcome n r = Val v -> ne_of n (plain_outcome n r) = true
  | TString => a = EStr
  | TMatrix => False
  | _ => True
  end.
Proof.
  intros n ty a r Hg Hm. destruct ty; simpl in Hg; try contradiction.
  - destruct (good_res_scalar n a r Hg) as [Hb Hne]. destruct Hg as (_ & o & -> & _). now split.
  - destruct Hg as (_ & o & -> & Ho). simpl. split; [|exact I].
    now destruct (as_matrix_sound _ _ _ Ho ltac:(discriminate)) as [-> Hb].
  - destruct Hg as [Hx _]. congruence.
  - destruct Hg as [-> ->]. now split.
Qed.

Section CallSound.
  Variables (w : world) (n : nat) (id : Z) (f : string) (sg : fsig) (args : list expr).
  (* the result of each argument node: [arg_res w n] in the evaluator *)
  Variable res : expr -> argres.
  Hypothesis Hl : flookup f ftab = Some sg.
  Hypothesis Har : arity_ok sg (List.length args) = true.
  Hypothesis Himpl : (fs_impl sg || special_fn f) = true.
  Hypothesis Hinfo :
    (if String.eqb f "info" then match nth_error args 1 with Some (EVec _ _) | None => true | _ => false end
     else true) = true.
  Hypothesis Hgood : forall j a, nth_error args j = Some a ->
    exists ty, arg_type sg j = Some ty /\ good_res n ty a (res a).

  Lemma call_result_sound : sound n (fs_ret sg) (call_result w n id sg).
  Proof.
    destruct (flookup_wf f sg Hl) as (Hret & _). unfold call_result.
    destruct (fs_ret sg); try discriminate; [apply scalar_steps_sound|apply out_steps_sound].
  Qed.

  (* the function body's accesses succeed when scalars have a sample at every step ([bs]),
     declared strings are literals and a declared matrix is there ([hm]) *)
  Lemma call_body_sound hm bs :
    List.length bs = List.length args ->
    (forall j a b ty, nth_error args j = Some a -> nth_error bs j = Some b -> arg_type sg j = Some ty ->
       match ty with TScalar => b = true | TString => a = EStr | TMatrix => hm = true | _ => True end) ->
    sound n (fs_ret sg) (call_body f sg hm (combine args bs) (call_result w n id sg)).
  Proof.
    intros Hlen Hacc. unfold call_body, footprint.
    rewrite combine_length, Hlen, Nat.min_id.
    rewrite (proj2 (Nat.ltb_ge _ _) (arity_required _ _ Har)).
    replace (String.eqb f "info" && _) with false.
    2:{ symmetry. destruct (String.eqb f "info"); [|reflexivity]. cbn [andb].
        rewrite nth_error_combine. destruct (nth_error args 1) as [[]|]; try discriminate; auto.
        destruct (nth_error bs 1); reflexivity. }
    rewrite fp_args_ok; [apply call_result_sound|]. intros j a b Hj. simpl.
    rewrite nth_error_combine in Hj. destruct (nth_error args j) as [a'|] eqn:Ha; [|discriminate].
    destruct (nth_error bs j) as [b'|] eqn:Hb; [|discriminate]. inversion Hj; subst a' b'.
    destruct (arg_type sg j) as [ty|] eqn:Hty; [|exact I].
    specialize (Hacc j a b ty Ha Hb Hty). destruct ty; auto. now subst a.
  Qed.

  (* no range-vector argument: rangeEval over all arguments *)
  Lemma call_plain_sound :
    first_matrix args 0 = None -> sound n (fs_ret sg) (call_plain w n id f sg args (map res args)).
  Proof.
    intros Hm. unfold call_plain. rewrite map_map.
    assert (Hos : forall j a, nth_error args j = Some a -> exists ty, arg_type sg j = Some ty /\
              good_res n ty a (res a) /\ is_matrixish a = false).
    { intros j a Ha. destruct (Hgood j a Ha) as (ty & Hty & Hg). exists ty.
      repeat split; auto. exact (first_matrix_none _ _ Hm _ _ Ha). }
    assert (Hben : Forall benign (map (fun a => plain_outcome n (res a)) args)).
    { apply Forall_nth_error. intros j o Hj. rewrite nth_error_map in Hj.
      destruct (nth_error args j) as [a|] eqn:Ha; [|discriminate]. injection Hj as <-.
      destruct (Hos j a Ha) as (ty & _ & Hg & Hnm). apply (good_res_plain _ _ _ _ Hg Hnm). }
    destruct (first_bad_benign _ Hben) as [Hfb|Hfb]; rewrite Hfb; [|exact I].
    apply call_body_sound; [now rewrite !map_length|].
    intros j a b ty Ha Hb Hty. rewrite !nth_error_map, Ha in Hb. injection Hb as <-.
    destruct (Hos j a Ha) as (ty' & Hty' & Hg & Hnm). rewrite Hty in Hty'. injection Hty' as <-.
    destruct (good_res_plain _ _ _ _ Hg Hnm) as [_ Hacc]. destruct ty; auto.
    assert (Hin : In (plain_outcome n (res a)) (map (fun a => plain_outcome n (res a)) args)).
    { apply (in_map (fun a => plain_outcome n (res a))). eapply nth_error_In; eauto. }
    destruct (first_bad_none _ Hfb _ Hin) as [v Hv]. eauto.
  Qed.

  (* a range-vector argument at position i: the signature has exactly this one matrix
     parameter and all others are scalars, read at every step *)
  Lemma call_range_sound i ai :
    nth_error args i = Some ai -> is_matrixish ai = true ->
    sound n (fs_ret sg) (call_range w n id f sg args (map res args) i).
  Proof.
    intros Hai Hmi. destruct (Hgood i ai Hai) as (tyi & Htyi & Hgi).
    assert (tyi = TMatrix).
    { destruct tyi; simpl in Hgi; auto; try contradiction; destruct Hgi as [Hx _]; subst; discriminate || congruence. }
    subst tyi.
    pose proof (fun j ty Hj => matrix_param_alone f sg i j ty Hl Htyi Hj) as Hty.
    unfold call_range. set (os := mapi (range_outcome n i) 0 (map res args)).
    (* every other argument is a scalar: a value with a sample at every step, or a user error *)
    assert (Hos : forall j o, nth_error os j = Some o ->
              (j = i /\ o = Val VRange) \/
              (j <> i /\ benign o /\ (forall v, o = Val v -> ne_of n o = true))).
    { intros j o Hj. unfold os in Hj. rewrite nth_error_mapi, nth_error_map in Hj. simpl in Hj.
      destruct (nth_error args j) as [a|] eqn:Ha; [|discriminate]. simpl in Hj. inversion Hj; subst o; clear Hj.
      unfold range_outcome.
      destruct (j =? i)%nat eqn:E; [apply Nat.eqb_eq in E; auto|]. apply Nat.eqb_neq in E. right. split; auto.
      destruct (Hgood _ _ Ha) as (ty & Hty1 & Hg).
      rewrite (Hty _ _ Hty1 E) in Hg. exact (good_res_scalar _ _ _ Hg). }
    assert (Hben : Forall benign os).
    { apply Forall_nth_error. intros j o Hj.
      destruct (Hos _ _ Hj) as [[_ ->]|[_ [Hb _]]]; [exact I|exact Hb]. }
    destruct (first_bad_benign _ Hben) as [Hfb|Hfb]; rewrite Hfb; [|exact I].
    destruct (match nth_error (map res args) i with Some (RMat true) => true | _ => false end); [exact I|].
    assert (Hne : forallb (fun b => b) (mapi (fun j o => (j =? i)%nat || ne_of n o) 0 os) = true).
    { apply forallb_forall. intros x Hx. apply In_nth_error in Hx. destruct Hx as [j Hj].
      rewrite nth_error_mapi in Hj. simpl in Hj. destruct (nth_error os j) as [o|] eqn:Ho; [|discriminate].
      simpl in Hj. inversion Hj; subst x.
      destruct (Hos _ _ Ho) as [[-> _]|[Hji [_ Hv]]]; [rewrite Nat.eqb_refl; auto|].
      destruct (first_bad_none _ Hfb o (nth_error_In _ _ Ho)) as [v Hv']. rewrite (Hv _ Hv'). apply orb_true_r. }
    rewrite Hne. cbn [negb].
    apply call_body_sound; [unfold os; now rewrite map_length, mapi_length, map_length|].
    intros j a b ty Ha Hb Hty1. rewrite nth_error_map in Hb.
    destruct (nth_error os j); [|discriminate]. inversion Hb; subst b.
    destruct (Hgood _ _ Ha) as (ty' & Hty' & Hg). rewrite Hty1 in Hty'. inversion Hty'; subst ty'.
    destruct ty; auto. now destruct Hg.
  Qed.

  Lemma call_generic_sound : sound n (fs_ret sg) (call_generic w n id f sg args (map res args)).
  Proof.
    unfold call_generic.
    assert (Hni : (negb (fs_impl sg) && negb (special_fn f)) = false)
      by (destruct (fs_impl sg), (special_fn f); auto; discriminate).
    rewrite Hni.
    destruct (first_matrix args 0) as [i|] eqn:Hm.
    - apply first_matrix_some in Hm as (j0 & ai & -> & Hai & Hmi). simpl.
      (* a first matrix argument that is a subquery is evaluated first *)
      rewrite nth_error_map, Hai. simpl.
      destruct (Hgood _ _ Hai) as (ty & _ & Hg).
      assert (Hsub : forall o, res ai = RSub o -> as_matrix o = o /\ benign o).
      { intros o E. rewrite E in Hg. destruct ty; simpl in Hg; try contradiction.
        - destruct Hg as (_ & o' & [=] & _).
        - destruct Hg as (_ & o' & [=] & _).
        - destruct Hg as [_ [[err [=]]|[o' [[= <-] Ho]]]].
          apply (as_matrix_sound _ _ _ Ho ltac:(discriminate)).
        - destruct Hg as [_ [=]]. }
      destruct (res ai) as [err|o|lit|o] eqn:Er;
        try (destruct (w_err w id); [exact I|eapply call_range_sound; eauto]).
      destruct (Hsub o eq_refl) as [-> Hb]. destruct o; simpl; try contradiction; try exact I.
      destruct (w_err w id); [exact I|eapply call_range_sound; eauto].
    - destruct (w_err w id); [exact I|now apply call_plain_sound].
  Qed.

  Lemma call_eval_sound : sound n (fs_ret sg) (call_eval w n id f sg args (map res args)).
  Proof.
    rewrite call_eval_eq. pose proof call_generic_sound as Hgen.
    destruct (ts_fn f) eqn:Hts; [|exact Hgen].
    (* timestamp(v) / start_timestamp(v) on a bare selector bypass the generic path *)
    destruct (ts_fn_sig _ Hts) as (sg' & Hl' & Ha' & Hv' & Hr'). rewrite Hl in Hl'. inversion Hl'; subst sg'.
    destruct args as [|[| |id' vs| | | | | | | |] args']; try exact Hgen.
    - unfold arity_ok in Har. rewrite Ha', Hv' in Har. discriminate.
    - rewrite Hr'. destruct (w_err w id'); [exact I|apply out_steps_sound].
  Qed.

End CallSound.

Lemma wtp_type : forall e, wtp e = true -> type_of e <> TNone.
Proof.
  induction e; intros Hw; simpl; try discriminate.
  - simpl in Hw. auto.
  - simpl in Hw. apply andb_prop in Hw as [_ Hw]. destruct (type_of e); discriminate.
  - destruct (vtype_eqb (type_of e1) TScalar && vtype_eqb (type_of e2) TScalar); discriminate.
  - rewrite wtp_call in Hw. destruct (flookup f ftab) as [sg|] eqn:E; [|discriminate].
    destruct (flookup_wf _ _ E) as (Hret & _). destruct (fs_ret sg); discriminate.
  - simpl in Hw. apply andb_prop in Hw as [_ Hw]. destruct (type_of e); discriminate.
Qed.

Lemma ctx_ok_sv : forall n e, is_sv (type_of e) = true -> ctx_ok n e.
Proof.
  intros n e H. split.
  - intros _ Hs. rewrite Hs in H. discriminate.
  - intros _. destruct (direct_mat e) eqn:E; auto. apply direct_mat_type in E. rewrite E in H. discriminate.
Qed.

Lemma eval_zero : forall w e, eval w 0 e = Val (VSteps []).
Proof. destruct e; reflexivity. Qed.

Lemma eval_stepinv : forall w n e,
  eval w (S n) (EStepInv e) =
  match eval w 1 e with
  | Val v => if is_matrixish e then Val v
             else match v with
                  | VSteps l => Val (VSteps (repeat (nth 0 l []) (S n)))
                  | _ => Internal FStepInv
                  end
  | o => o
  end.
Proof. reflexivity. Qed.

Lemma arg_res_val : forall w n a, is_matrixish a = false -> type_of a <> TString ->
  arg_res w n a = RVal (eval w n a).
Proof.
  intros w n a Hm Ht.
  destruct a; try discriminate; unfold arg_res;
    (match goal with |- context[vtype_eqb ?t TString] => destruct (vtype_eqb t TString) eqn:E end;
     [apply vtype_eqb_eq in E; contradiction|reflexivity]).
Qed.

Lemma bin_eval_sound : forall w n id lt rt ol or_,
  is_sv lt = true -> is_sv rt = true -> sound n lt ol -> sound n rt or_ ->
  sound n (if vtype_eqb lt TScalar && vtype_eqb rt TScalar then TScalar else TVector)
    (bin_eval w n id lt rt ol or_).
Proof.
  intros w n id lt rt ol or_ Hl Hr Hol Hor.
  destruct (as_matrix_sound _ _ _ Hol) as [El Bl]; [destruct lt; discriminate|].
  destruct (as_matrix_sound _ _ _ Hor) as [Er Br]; [destruct rt; discriminate|].
  destruct lt, rt; try discriminate; unfold bin_eval; rewrite El, Er;
    destruct ol as [vl| |]; try contradiction; try exact I;
    destruct or_ as [vr| |]; try contradiction; try exact I;
    cbn [first_bad vtype_eqb andb orb negb ne_of];
    rewrite ?(scalar_all_nonempty _ _ Hol), ?(scalar_all_nonempty _ _ Hor);
    (apply scalar_steps_sound || apply out_steps_sound).
Qed.

Lemma eval_sound : forall w e, wtp e = true -> forall n, ctx_ok n e -> sound n (type_of e) (eval w n e).
Proof.
  intros w. induction e using expr_ind'; intros Hw n Hctx;
    (destruct n as [|n];
     [rewrite eval_zero; apply has_type_zero; [apply Hctx; reflexivity|now apply wtp_type]|]).
  - (* ENum *) apply scalar_steps_sound.
  - (* EStr *) reflexivity.
  - (* EVec *) simpl. destruct (w_err w id); [exact I|apply out_steps_sound].
  - (* EMat *) destruct Hctx as [_ Hc]. simpl.
    destruct n as [|n]; [|specialize (Hc ltac:(lia)); discriminate].
    simpl. destruct (w_err w id); reflexivity.
  - (* ESub *) simpl in *. apply andb_prop in Hw as [Hw Ht]. apply vtype_eqb_eq in Ht.
    assert (Hs : sound (w_n w id) TVector (eval w (w_n w id) e)).
    { rewrite <- Ht. apply IHe; auto. apply ctx_ok_sv. rewrite Ht. reflexivity. }
    destruct (eval w (w_n w id) e) as [v| |ft]; simpl in *; auto. destruct v; try discriminate; reflexivity.
  - (* EParen *) simpl in *. apply IHe; auto.
  - (* EUn *) simpl in *. apply andb_prop in Hw as [Hw Ht].
    assert (Hs : sound (S n) (type_of e) (eval w (S n) e)) by (apply IHe; auto; apply ctx_ok_sv; auto).
    destruct (sound_sv_shape _ _ _ Ht Hs) as [->|[l Hl]]; [exact I|].
    rewrite Hl in *. simpl. destruct (w_err w id); [exact I|exact Hs].
  - (* EBin *) simpl in Hw. repeat (apply andb_prop in Hw; let H := fresh "Ht" in destruct Hw as [Hw H]).
    apply bin_eval_sound; auto; [apply IHe1|apply IHe2]; auto; apply ctx_ok_sv; auto.
  - (* EAgg *) simpl in Hw. apply andb_prop in Hw as [Hw Hp]. apply andb_prop in Hw as [Hw Ht].
    apply vtype_eqb_eq in Ht.
    assert (Hs : sound (S n) (type_of e) (eval w (S n) e)) by (apply IHe; auto; apply ctx_ok_sv; rewrite Ht; reflexivity).
    rewrite Ht in Hs.
    destruct (as_matrix_sound _ _ _ Hs ltac:(discriminate)) as [Ham Hb].
    assert (Hbody : sound (S n) TVector
              (match as_matrix (eval w (S n) e) with
               | Val _ => if w_err w id then User else out_steps w id (S n)
               | o => o end)).
    { rewrite Ham. destruct (eval w (S n) e); try contradiction; try exact I.
      destruct (w_err w id); [exact I|apply out_steps_sound]. }
    destruct op; simpl.
    + destruct p; [discriminate|]. exact Hbody.
    + destruct p as [q|]; [|discriminate]. apply andb_prop in Hp as [Hq Htq].
      apply vtype_eqb_eq in Htq. unfold optP in H.
      assert (Hsq : sound (S n) (type_of q) (eval w (S n) q)) by (apply H; auto; apply ctx_ok_sv; rewrite Htq; reflexivity).
      destruct (eval w (S n) q) as [v| |ft]; simpl in *; [exact Hbody|exact I|contradiction].
    + destruct p as [[]|]; try discriminate.
      destruct (w_err w id); [exact I|]. rewrite Ham.
      destruct (eval w (S n) e); try contradiction; try exact I. apply out_steps_sound.
  - (* ECall *) rewrite eval_call. rewrite wtp_call in Hw. simpl type_of.
    destruct (flookup f ftab) as [sg|] eqn:El; [|discriminate].
    repeat (apply andb_prop in Hw; let Hx := fresh "Hc" in destruct Hw as [Hw Hx]).
    apply call_eval_sound; auto.
    intros j a Ha. destruct (wtp_arg_inv _ _ _ (proj1 (forallbi_nth _ _ _) Hc j a Ha)) as (Hwa & ty & Hty & Hta & Hcan).
    exists ty. split; auto.
    rewrite Forall_forall in H. pose proof (H _ (nth_error_In _ _ Ha) Hwa) as IHa. rewrite Hta in IHa.
    destruct ty; simpl in *.
    1,2: assert (is_matrixish a = false) by (destruct a; auto; discriminate);
      split; auto; exists (eval w (S n) a); split;
      [apply arg_res_val; auto; rewrite Hta; discriminate|apply IHa, ctx_ok_sv; rewrite Hta; reflexivity].
    + split; auto. destruct a; simpl in Hcan; try discriminate.
      * left. eexists. reflexivity.
      * right. eexists. split; [reflexivity|]. apply IHa. split; [discriminate|reflexivity].
    + destruct a; simpl in Hcan; try discriminate. auto.
    + exfalso. eapply wtp_type; eauto.
  - (* EStepInv *) simpl in Hw. apply andb_prop in Hw as [Hw Ht].
    assert (Hs : sound 1 (type_of e) (eval w 1 e)) by (apply IHe; auto; apply ctx_ok_sv; auto).
    assert (Hm : is_matrixish e = false) by (destruct e; simpl in *; auto; discriminate).
    rewrite eval_stepinv, Hm. simpl type_of.
    destruct (sound_sv_shape _ _ _ Ht Hs) as [->|[l E]]; [exact I|]. rewrite E in *.
    (* the single step, duplicated: a one-element scalar stays a float at every step *)
    destruct (type_of e); try discriminate; simpl in *; rewrite repeat_length, Nat.eqb_refl; [|reflexivity].
    apply andb_prop in Hs as [Hl Hk]. simpl.
    apply (forallb_repeat is_kf _ (S n)).
    destruct l as [|x [|]]; simpl in *; try discriminate. apply andb_prop in Hk. apply Hk.
Qed.

Definition check_arg (f : string) (sg : fsig) (i : nat) (a : expr) : bool :=
  (if is_info_sel f i a then true else check a) && arg_type_ok sg i a.

Lemma check_call : forall id f args,
  check (ECall id f args) =
  match flookup f ftab with
  | None => false
  | Some sg => arity_ok sg (List.length args) && info_ok f args && forallbi (check_arg f sg) args 0
  end.
Proof. intros. simpl. destruct (flookup f ftab); reflexivity. Qed.

Lemma check_arg_inv : forall f sg i a, check_arg f sg i a = true ->
  (is_info_sel f i a = true \/ check a = true) /\ arg_type_ok sg i a = true.
Proof.
  unfold check_arg. intros f sg i a [H1 H2]%andb_prop. split; auto. destruct (is_info_sel f i a); auto.
Qed.

Lemma arity_arg_type : forall f sg k j, flookup f ftab = Some sg -> arity_ok sg k = true -> (j < k)%nat ->
  exists ty, arg_type sg j = Some ty.
Proof.
  intros f sg k j Hl Har Hj. destruct (flookup_wf f sg Hl) as (_ & Hvar & _).
  unfold arity_ok in Har. unfold arg_type.
  destruct (j <? List.length (fs_args sg))%nat eqn:E.
  - apply Nat.ltb_lt in E. destruct (nth_error (fs_args sg) j) eqn:E2; eauto.
    apply nth_error_None in E2. lia.
  - apply Nat.ltb_ge in E. destruct (fs_var sg =? 0)%Z.
    + apply Z.eqb_eq in Har. lia.
    + apply negb_true_iff, Nat.eqb_neq in Hvar.
      destruct (nth_error (fs_args sg) (List.length (fs_args sg) - 1)) eqn:E2; eauto.
      apply nth_error_None in E2. lia.
Qed.

Lemma canon_sv : forall t a, is_sv t = true -> canon_arg t a = true.
Proof. destruct t; simpl; intros; auto; discriminate. Qed.

(* e' is a well-typed stand-in for e: same type, and in a stripped position (call argument,
   aggregation body or parameter) of the node kind the evaluator asserts for that type *)
Definition good (e e' : expr) (strip : bool) : Prop :=
  wtp e' = true /\ type_of e' = type_of e /\ (strip = true -> canon_arg (type_of e) e' = true).

Lemma good_sv : forall e e' strip,
  wtp e' = true -> type_of e' = type_of e -> is_sv (type_of e) = true -> good e e' strip.
Proof. intros e e' strip Hw Ht Hs. repeat split; auto. intros _. now apply canon_sv. Qed.

Lemma good_wrap : forall b e e' strip,
  good e e' strip -> (b = true -> is_sv (type_of e) = true) -> good e (wrap_if b e') strip.
Proof.
  intros [|] e e' strip Hg Hs; [|exact Hg]. destruct Hg as (Hw & Ht & _).
  apply good_sv; simpl; rewrite ?Hw, ?Ht; auto.
Qed.

Definition pre_good (e : expr) (strip : bool) : Prop :=
  good e (fst (pre strip e)) strip /\ (snd (snd (pre strip e)) = true -> is_sv (type_of e) = true).

Lemma wrap_good : forall e strip, pre_good e strip ->
  good e (wrap_if (snd (snd (pre strip e))) (fst (pre strip e))) strip.
Proof. intros e strip [Hg Hs]. now apply good_wrap. Qed.

(* a call whose arguments were replaced one by one by well-typed stand-ins *)
Lemma good_call : forall id f sg args (h : expr -> expr) strip,
  flookup f ftab = Some sg -> arity_ok sg (List.length args) = true ->
  (fs_impl sg || special_fn f) = true -> info_ok f args = true ->
  (forall j a, nth_error args j = Some a ->
     good a (h a) true /\ arg_type_ok sg j a = true /\ (is_info_sel f j a = true -> h a = a)) ->
  good (ECall id f args) (ECall id f (map h args)) strip.
Proof.
  intros id f sg args h strip Hl Har Himpl Hinfo Hargs.
  destruct (flookup_wf f sg Hl) as (Hret & _).
  apply good_sv; simpl type_of; rewrite ?Hl; auto.
  rewrite wtp_call, Hl, map_length, Har, Himpl. cbn [andb].
  replace (if String.eqb f "info" then _ else true) with true.
  2:{ symmetry. unfold info_ok in Hinfo. destruct (String.eqb f "info") eqn:Ef; [|reflexivity].
      rewrite nth_error_map. destruct (nth_error args 1) as [a1|] eqn:E1; [|reflexivity]. simpl.
      rewrite (proj2 (Nat.ltb_lt 1 _)) in Hinfo by (apply nth_error_Some; congruence). simpl in Hinfo.
      destruct (Hargs 1%nat a1 E1) as (_ & _ & ->); destruct a1; try discriminate; auto.
      unfold is_info_sel. now rewrite Ef. }
  apply forallbi_nth. intros j a' Hn. simpl. rewrite nth_error_map in Hn.
  destruct (nth_error args j) as [a|] eqn:Ha; [|discriminate]. inversion Hn; subst a'.
  destruct (Hargs j a Ha) as ((Hw & Ht & Hc) & Hto & _).
  destruct (arity_arg_type f sg _ j Hl Har) as [ty Hty]; [apply nth_error_Some; congruence|].
  unfold arg_type_ok in Hto. rewrite Hty in Hto. apply vtype_eqb_eq in Hto.
  unfold wtp_arg. rewrite Hw, Hty, Ht, Hto, vtype_eqb_refl. simpl. rewrite <- Hto. auto.
Qed.

Lemma info_plain_call : forall id f args,
  info_plain (ECall id f args) =
  (if String.eqb f "info" then match nth_error args 1 with Some (EVec _ vs) => negb (vs_at vs) | _ => true end else true) &&
  forallb info_plain args.
Proof. reflexivity. Qed.

Lemma pre_ok : forall e, check e = true -> info_plain e = true -> forall strip, pre_good e strip.
Proof.
  induction e using expr_ind'; intros Hc Hi strip; unfold pre_good.
  1-4: simpl; repeat split; auto; discriminate.
  - (* ESub *) simpl in Hc, Hi. apply andb_prop in Hc as [Hc Ht]. destruct (IHe Hc Hi false) as [Hg _].
    split; [|discriminate]. simpl.
    assert (Hv : is_sv (type_of e) = true) by (apply vtype_eqb_eq in Ht; now rewrite Ht).
    destruct (good_wrap (fst (snd (pre false e))) _ _ _ Hg (fun _ => Hv)) as (Hw & Hty & _).
    repeat split; auto. simpl. now rewrite Hw, Hty, Ht.
  - (* EParen *) simpl in Hc, Hi. destruct strip; simpl; [apply (IHe Hc Hi true)|].
    destruct (IHe Hc Hi false) as [(Hw & Ht & _) Hs]. repeat split; auto. discriminate.
  - (* EUn *) simpl in Hc, Hi. apply andb_prop in Hc as [Hc Ht].
    destruct (IHe Hc Hi false) as [(Hw & Hty & _) Hs]. simpl.
    split; [apply good_sv; simpl; rewrite ?Hw, ?Hty; auto|auto].
  - (* EBin *) simpl in Hc, Hi. apply andb_prop in Hi as [Hi1 Hi2].
    apply andb_prop in Hc as [Hc Hb]. apply andb_prop in Hc as [Hc1 Hc2].
    assert (Hsv : is_sv (type_of e1) = true /\ is_sv (type_of e2) = true).
    { unfold check_bin in Hb. repeat (apply andb_prop in Hb; let H := fresh "Hb" in destruct Hb as [Hb H]). auto. }
    destruct Hsv as [Hsv1 Hsv2].
    (* both shapes of the result: children as they are, or wrapped *)
    assert (Hboth : forall l' r', good e1 l' false -> good e2 r' false ->
              good (EBin id op rb vm e1 e2) (EBin id op rb vm l' r') strip).
    { intros l' r' (Hw1 & Ht1 & _) (Hw2 & Ht2 & _).
      apply good_sv; simpl; rewrite ?Hw1, ?Hw2, ?Ht1, ?Ht2, ?Hsv1, ?Hsv2; auto.
      destruct (vtype_eqb (type_of e1) TScalar && vtype_eqb (type_of e2) TScalar); reflexivity. }
    pose proof (IHe1 Hc1 Hi1 false) as P1. pose proof (IHe2 Hc2 Hi2 false) as P2.
    simpl pre. destruct (fst (snd (pre false e1)) && fst (snd (pre false e2))); simpl fst; simpl snd.
    + split; [apply Hboth; [apply P1|apply P2]|intros _].
      simpl. destruct (vtype_eqb (type_of e1) TScalar && vtype_eqb (type_of e2) TScalar); reflexivity.
    + split; [apply Hboth; now apply wrap_good|discriminate].
  - (* EAgg *) simpl in Hc, Hi. apply andb_prop in Hi as [Hip Hie].
    apply andb_prop in Hc as [Hc Hp]. apply andb_prop in Hc as [Hce Hte].
    pose proof (IHe Hce Hie true) as Pe.
    assert (Hboth : forall e' p', good e e' true ->
              match p, p' with
              | Some q, Some q' => good q q' true
              | None, None => True
              | _, _ => False
              end ->
              good (EAgg id op p e) (EAgg id op p' e') strip).
    { intros e' p' (Hw & Ht & _) Hq. apply good_sv; auto. simpl. rewrite Hw, Ht, Hte. simpl.
      destruct p as [q|], p' as [q'|]; try contradiction; [|exact Hp].
      destruct Hq as (Hwq & Htq & Hcq). rewrite Htq in *. specialize (Hcq eq_refl).
      destruct op; try discriminate; apply andb_prop in Hp as [_ Htp]; apply vtype_eqb_eq in Htp.
      - now rewrite Hwq, Htp.
      - rewrite Htp in Hcq. destruct q'; try discriminate. reflexivity. }
    simpl pre. destruct p as [q|].
    + assert (Hcq : check q = true) by (destruct op; try discriminate; now apply andb_prop in Hp).
      pose proof (H Hcq Hip true) as Pq.
      destruct (fst (snd (pre true e)) && fst (snd (pre true q))); simpl fst; simpl snd.
      * split; [apply Hboth; [apply Pe|apply Pq]|auto].
      * split; [apply Hboth; now apply wrap_good|discriminate].
    + simpl fst; simpl snd. split; [apply Hboth; [apply Pe|exact I]|auto].
  - (* ECall *) rewrite check_call in Hc. destruct (flookup f ftab) as [sg|] eqn:El; [|discriminate].
    apply andb_prop in Hc as [Hc Hca]. apply andb_prop in Hc as [Har Hinfo].
    destruct (flookup_wf _ _ El) as (Hret & _ & _ & Himpl & _).
    simpl pre. destruct (ctx_fn f) eqn:Ectx.
    { destruct (ctx_fn_sig _ Ectx) as (sg' & El' & Hr'). rewrite El in El'. inversion El'; subst sg'.
      unfold good. simpl. rewrite El, Hr'. repeat split; auto. }
    rewrite orb_false_r in Himpl.
    rewrite info_plain_call in Hi. apply andb_prop in Hi as [Hii Hia].
    rewrite forallb_forall in Hia. rewrite Forall_forall in H.
    (* every argument, as it is or wrapped; the label selector of info() is exempt from the
       check, carries no @ and so stays as it is *)
    assert (Hargs : forall j a, nth_error args j = Some a ->
              pre_good a true /\ arg_type_ok sg j a = true /\
              (is_info_sel f j a = true ->
               fst (pre true a) = a /\ wrap_if (snd (snd (pre true a))) (fst (pre true a)) = a)).
    { intros j a Ha. destruct (check_arg_inv _ _ _ _ (proj1 (forallbi_nth _ _ _) Hca j a Ha)) as [Hck Hto].
      assert (Hsel : is_info_sel f j a = true ->
                fst (pre true a) = a /\ wrap_if (snd (snd (pre true a))) (fst (pre true a)) = a).
      { intros Hs. unfold is_info_sel in Hs. apply andb_prop in Hs as [Hs Hv]. apply andb_prop in Hs as [Hf Hj1].
        apply Nat.eqb_eq in Hj1. subst j. destruct a; try discriminate. rewrite Hf, Ha in Hii.
        apply negb_true_iff in Hii. simpl. now rewrite Hii. }
      split; [|now split].
      destruct Hck as [Hs|Hck]; [|exact (H _ (nth_error_In _ _ Ha) Hck (Hia _ (nth_error_In _ _ Ha)) true)].
      destruct (Hsel Hs) as [E1 E2]. unfold is_info_sel in Hs. apply andb_prop in Hs as [_ Hv].
      destruct a; try discriminate. simpl in E2 |- *. destruct (vs_at vs); [discriminate|].
      repeat split; auto; discriminate. }
    destruct (negb (at_unsafe f) && forallb (fun r => fst (snd r)) (map (pre true) args)
              || String.eqb f "timestamp" && forallb (fun r => fst (snd r) && is_vec (fst r)) (map (pre true) args));
      simpl fst; simpl snd; rewrite map_map.
    + split; [|intros _; simpl; now rewrite El].
      apply (good_call id f sg args (fun a => fst (pre true a))); auto.
      intros j a Ha. destruct (Hargs j a Ha) as ([Hg _] & Hto & Hs). split; [exact Hg|]. split; [exact Hto|].
      intros S. now destruct (Hs S).
    + split; [|discriminate].
      apply (good_call id f sg args (fun a => wrap_if (snd (snd (pre true a))) (fst (pre true a)))); auto.
      intros j a Ha. destruct (Hargs j a Ha) as (Pa & Hto & Hs). split; [now apply wrap_good|]. split; [exact Hto|].
      intros S. now destruct (Hs S).
  - (* EStepInv *) discriminate.
Qed.

Lemma check_no_stepinv : forall e, check e = true -> has_stepinv e = false.
Proof.
  induction e using expr_ind'; intros Hc; simpl; auto.
  - simpl in Hc. apply andb_prop in Hc. destruct Hc. auto.
  - simpl in Hc. apply andb_prop in Hc. destruct Hc. auto.
  - simpl in Hc. apply andb_prop in Hc as [Hc _]. apply andb_prop in Hc as [H1 H2].
    rewrite IHe1, IHe2; auto.
  - simpl in Hc. apply andb_prop in Hc as [Hc Hp]. apply andb_prop in Hc as [Hc _].
    rewrite IHe; auto. rewrite orb_false_r. destruct p as [q|]; auto. unfold optP in H.
    destruct op; try discriminate; apply andb_prop in Hp; destruct Hp; auto.
  - rewrite check_call in Hc. destruct (flookup f ftab) as [sg|]; [|discriminate].
    apply andb_prop in Hc as [_ Hca].
    destruct (existsb has_stepinv args) eqn:E; auto.
    apply existsb_exists in E. destruct E as [a [Hin Ha]].
    destruct (In_nth_error _ _ Hin) as [j Hj].
    destruct (check_arg_inv _ _ _ _ (proj1 (forallbi_nth _ _ _) Hca j a Hj)) as [[Hsel|Hck] _].
    + unfold is_info_sel in Hsel. apply andb_prop in Hsel as [_ Hv].
      destruct a; try discriminate.
    + rewrite Forall_forall in H. rewrite (H _ Hin Hck) in Ha. discriminate.
Qed.

Definition expected (k : qkind) (t : vtype) : vtype :=
  match k with QInstant => t | QRange _ => TMatrix end.

(* the statement of the soundness theorem, for one query *)
Definition sound_query (w : world) (k : qkind) (e : expr) (t : vtype) : Prop :=
  match run_query w k e with
  | QInternal _ => False                                   (* never an internal failure *)
  | QRejected => match k with QRange _ => is_sv t = false | QInstant => False end
                                                           (* only the documented refusal of range queries *)
  | QUser => True                                          (* a user-facing error *)
  | QValue t' => t' = expected k t                         (* a value of the checked type *)
  end.

Lemma preprocess_wtp : forall e, check e = true -> info_plain e = true ->
  exists pe, preprocess e = Some pe /\ wtp pe = true /\ type_of pe = type_of e.
Proof.
  intros e Hc Hi. unfold preprocess. rewrite (check_no_stepinv _ Hc).
  destruct (wrap_good e false (pre_ok e Hc Hi false)) as (Hw & Ht & _). eauto.
Qed.

Lemma type_soundness : forall e t, check_ast e = TyOk t -> info_plain e = true ->
  forall w k, match k with QRange n => (1 <= n)%nat | QInstant => True end ->
  sound_query w k e t.
Proof.
  intros e t Hca Hi w k Hk. unfold check_ast in Hca. destruct (check e) eqn:Hc; [|discriminate].
  inversion Hca; subst t; clear Hca.
  destruct (preprocess_wtp e Hc Hi) as (pe & Hp & Hw & Ht).
  unfold sound_query, run_query. rewrite Hc, Hp. simpl negb. cbv iota.
  destruct k as [|n].
  - (* instant query *)
    assert (Hs : sound 1 (type_of pe) (eval w 1 pe)).
    { apply eval_sound; auto. split; [discriminate|lia]. }
    rewrite Ht in *.
    destruct (eval w 1 pe) as [v| |ft]; simpl in Hs; [|exact I|contradiction].
    pose proof (scalar_all_nonempty 1 v) as Hne.
    destruct v; destruct (type_of e); try discriminate Hs; try reflexivity.
    cbv iota. now rewrite (Hne Hs).
  - (* range query *)
    destruct (is_sv (type_of e)) eqn:Hsv; simpl negb; cbv iota; [|reflexivity].
    assert (Hs : sound n (type_of pe) (eval w n pe)).
    { apply eval_sound; auto. apply ctx_ok_sv. rewrite Ht. exact Hsv. }
    rewrite Ht in *.
    destruct (eval w n pe) as [v| |ft]; simpl in Hs; [|exact I|contradiction].
    destruct v; simpl; auto.
    destruct (type_of e); simpl in *; discriminate.
Qed.

Lemma untyped_rejected : forall e, check_ast e = TyErr -> forall w k, run_query w k e = QRejected.
Proof.
  intros e H w k. unfold check_ast in H. unfold run_query. destruct (check e); [discriminate|reflexivity].
Qed.

(* the unrestricted statement is false of the faithful model: info(foo, {version="v1"} @ 100) *)
Definition info_witness : expr :=
  ECall 1 "info" [EVec 2 (mkVS true false true false); EVec 3 (mkVS false false true true)].

(* non-vacuity: well-typed queries satisfying the side condition, evaluating to values *)
(* topk(scalar(label_replace(foo, ("a"), "b", "c", "d")), foo)  — the repaired finding *)
Definition ex_topk : expr :=
  EAgg 1 AParam
    (Some (ECall 2 "scalar" [ECall 3 "label_replace" [EVec 4 (mkVS true false true false); EParen EStr; EStr; EStr; EStr]]))
    (EVec 5 (mkVS true false true false)).
(* rate((foo[1m] @ 100)) + on(job) clamp(bar, 0, scalar(foo)) *)
Definition ex_rate : expr :=
  EBin 1 OArith false (mkVM true false false false)
    (ECall 2 "rate" [EParen (EMat 3 (mkVS true false true true))])
    (ECall 4 "clamp" [EVec 5 (mkVS true false true false); ENum; ECall 6 "scalar" [EVec 7 (mkVS true false true false)]]).
