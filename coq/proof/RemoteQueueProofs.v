(* proof/RemoteQueueProofs.v — proofs about model/RemoteQueue.v (property C40). *)
From Coq Require Import List ZArith Bool Lia.
From Verif Require Import model.RemoteQueue.
Import ListNotations.
Open Scope Z_scope.

Lemma upd_length : forall A k (f : A -> A) l, length (upd k f l) = length l.
Proof. intros A k f l; revert k; induction l as [|x l IH]; intros [|k]; simpl; auto. Qed.

Lemma nth_error_upd : forall A k j (f : A -> A) l,
  nth_error (upd k f l) j = if Nat.eqb j k then option_map f (nth_error l k) else nth_error l j.
Proof.
  intros A k j f l; revert k j; induction l as [|x l IH]; intros k j.
  - simpl. destruct (Nat.eqb j k); destruct k, j; reflexivity.
  - destruct k, j; simpl; auto.
Qed.

Lemma Forall_upd : forall A (P : A -> Prop) k f l,
  Forall P l -> (forall x, nth_error l k = Some x -> P (f x)) -> Forall P (upd k f l).
Proof.
  intros A P k f l H; revert k; induction H as [|x l Hx Hl IH]; intros [|k] Hf; simpl; auto.
Qed.

Lemma Forall_nth : forall A (P : A -> Prop) l k x, Forall P l -> nth_error l k = Some x -> P x.
Proof. intros A P l k x H E. rewrite Forall_forall in H. eauto using nth_error_In. Qed.

Lemma Forall_repeat : forall A (P : A -> Prop) x n, P x -> Forall P (repeat x n).
Proof. intros A P x n H. apply Forall_forall. intros y Hy. apply repeat_spec in Hy. subst; auto. Qed.

Lemma NoDup_snoc : forall A (l : list A) a, NoDup l -> ~ In a l -> NoDup (l ++ [a]).
Proof. intros A l a Hl Ha. apply (NoDup_Add (Add_app a l [])). rewrite app_nil_r. auto. Qed.

Lemma fr_app : forall r a b, fr r (a ++ b) = fr r a ++ fr r b.
Proof. intros; apply filter_app. Qed.

Lemma fr_In : forall r l x, In x (fr r l) <-> In x l /\ i_ref x = r.
Proof. intros. unfold fr. rewrite filter_In, Z.eqb_eq. tauto. Qed.

Lemma fr_none : forall r l, (forall x, In x l -> i_ref x <> r) -> fr r l = [].
Proof.
  intros r l H. destruct (fr r l) as [|x m] eqn:E; [reflexivity|].
  assert (Hx : In x (fr r l)) by (rewrite E; simpl; auto).
  apply fr_In in Hx. destruct Hx as [Hx Hr]. destruct (H x Hx Hr).
Qed.

Lemma upd_oob : forall A k (f : A -> A) l, nth_error l k = None -> upd k f l = l.
Proof.
  intros A k f l; revert k; induction l as [|x l IH]; intros [|k] H; simpl in *; try discriminate; auto.
  rewrite IH; auto.
Qed.

Lemma aget_filter_key : forall V (p : Z -> bool) k (l : list (Z * V)),
  aget k (filter (fun e => p (fst e)) l) = if p k then aget k l else None.
Proof.
  intros V p k l; induction l as [|[k' v] l IH]; simpl.
  - destruct (p k); auto.
  - destruct (p k') eqn:Ep; simpl.
    + destruct (Z.eqb_spec k' k) as [->|Ne]; [rewrite Ep; auto | exact IH].
    + destruct (Z.eqb_spec k' k) as [->|Ne]; [rewrite Ep in IH |- *; exact IH | exact IH].
Qed.

Lemma nodup_by_ref : forall l, (forall r, NoDup (fr r l)) -> NoDup l.
Proof.
  induction l as [|x l IH]; intros H; constructor.
  - intro Hin. specialize (H (i_ref x)). simpl in H. rewrite Z.eqb_refl in H.
    inversion H as [|? ? Hn _]; subst. apply Hn. apply fr_In. auto.
  - apply IH. intros r. specialize (H r). simpl in H.
    destruct (i_ref x =? r); auto. inversion H; auto.
Qed.

Lemma map_inj_on : forall A B (f : A -> B) m, NoDup (map f m) ->
  forall x y, In x m -> In y m -> f x = f y -> x = y.
Proof.
  induction m as [|a m IH]; simpl; intros Hnd x y Hx Hy E; [tauto|].
  inversion Hnd as [|? ? Hn Hnd']; subst.
  destruct Hx as [->|Hx], Hy as [->|Hy]; auto.
  - exfalso. apply Hn. rewrite E. apply in_map. auto.
  - exfalso. apply Hn. rewrite <- E. apply in_map. auto.
Qed.

Lemma NoDup_map_incl : forall A B (f : A -> B) l m,
  NoDup l -> incl l m -> NoDup (map f m) -> NoDup (map f l).
Proof.
  induction l as [|x l IH]; intros m Hl Hi Hm; simpl; constructor.
  - inversion Hl as [|? ? Hn _]; subst. intro Hin. apply in_map_iff in Hin.
    destruct Hin as [y [E Hy]]. assert (y = x).
    { apply (map_inj_on _ _ f m Hm); auto. apply Hi; simpl; auto. apply Hi; simpl; auto. }
    subst. auto.
  - inversion Hl; subst. apply IH with m; auto. intros y Hy. apply Hi. simpl; auto.
Qed.

Lemma NoDup_app_left : forall A (a b : list A), NoDup (a ++ b) -> NoDup a.
Proof.
  induction a as [|x a IH]; intros b H; simpl in *; constructor; inversion H; subst.
  - intro Hin. apply H2. apply in_or_app; auto.
  - eapply IH; eauto.
Qed.

Lemma q_append_ok : forall A bsz nbq (q q' : queue A) x,
  q_append bsz nbq q x = (q', AOk) ->
  q_closed q = false
  /\ (q' = mkQ (q_batch q ++ [x]) (q_chan q) false /\ length (q_batch q ++ [x]) <> bsz
      \/ q' = mkQ [] (q_chan q ++ [q_batch q ++ [x]]) false /\ length (q_batch q ++ [x]) = bsz).
Proof.
  unfold q_append. intros A bsz nbq q q' x H.
  destruct (q_closed q); [discriminate|]. split; [reflexivity|].
  destruct (Nat.eqb_spec (length (q_batch q ++ [x])) bsz) as [E|E].
  - destruct (Nat.ltb _ nbq); inversion H. auto.
  - inversion H. auto.
Qed.

Lemma q_append_panic : forall A bsz nbq (q q' : queue A) x,
  q_append bsz nbq q x = (q', APanic) -> q_closed q = true.
Proof.
  unfold q_append. intros A bsz nbq q q' x. destruct (q_closed q); [reflexivity|].
  destruct (Nat.eqb _ bsz); [destruct (Nat.ltb _ nbq)|]; discriminate.
Qed.

Definition sh_done (h : shard) : shard := mkSh (sh_q h) None (sh_exit h) (sh_fl h).
Definition sh_enq (q' : queue item) (h : shard) : shard := mkSh q' (sh_infl h) (sh_exit h) (sh_fl h).

Section Proofs.
  Variable relab : labels -> option labels.
  Variables (bsz nbq : nat) (ext : labels).
  (* old_flush = false: the code after fix dca118dfcb *)
  Notation step := (step relab bsz nbq ext false).
  Notation run := (run relab bsz nbq ext false).

  Lemma run_snoc : forall n0 ops o, run n0 (ops ++ [o]) = step (run n0 ops) o.
  Proof. intros. unfold RemoteQueue.run. rewrite fold_left_app. reflexivity. Qed.

  (* What stop()/start() keep true of a shard, sf = softShutdown closed: while it is open no flush
     goroutine has run and no runShard has returned; the channel is closed exactly when
     FlushAndShutdown has finished; runShard returns only on a closed, drained channel with nothing in
     flight; once tryEnqueueingBatch has succeeded the partial batch stays empty. *)
  Definition wf_shard (sf : bool) (sh : shard) : Prop :=
    (sf = false -> sh_fl sh = FNone /\ sh_exit sh = false)
    /\ q_closed (sh_q sh) = (match sh_fl sh with FClosed => true | _ => false end)
    /\ (sh_exit sh = true -> sh_infl sh = None /\ q_chan (sh_q sh) = [] /\ sh_fl sh = FClosed)
    /\ (sh_fl sh <> FNone -> q_batch (sh_q sh) = []).

  (* a runner that has not returned may receive, send or be handed items: only the closed flag and
     the empty batch of a flushed queue have to be respected *)
  Lemma wf_running : forall sf sh q' infl',
    wf_shard sf sh -> q_closed q' = q_closed (sh_q sh) -> (sh_fl sh <> FNone -> q_batch q' = []) ->
    wf_shard sf (mkSh q' infl' false (sh_fl sh)).
  Proof.
    intros sf sh q' infl' (H1 & H2 & _ & _) Hc Hb. split; [|split; [|split]]; simpl.
    - intros E. split; [apply (H1 E) | reflexivity].
    - rewrite Hc. exact H2.
    - discriminate.
    - exact Hb.
  Qed.

  Lemma take_ok : forall sf sh, wf_shard sf sh -> wf_shard sf (sh_take sh) /\ pipe (sh_take sh) = pipe sh.
  Proof.
    intros sf sh Hwf. unfold sh_take, runner_idle.
    destruct (sh_exit sh) eqn:Ex; [auto|]. destruct (sh_infl sh) eqn:Ei; [auto|]. simpl.
    unfold q_recv. destruct (q_chan (sh_q sh)) as [|b r] eqn:Ec.
    - destruct (q_closed (sh_q sh)) eqn:Ecl; [|auto]. split.
      + (* the channel is closed: the flush goroutine is done, soft shutdown is on *)
        destruct Hwf as (H1 & H2 & _ & H4). rewrite Ecl in H2.
        destruct (sh_fl sh) eqn:Ef; try discriminate H2.
        split; [|split; [|split]]; simpl; rewrite ?Ef; auto.
        intros E. destruct (H1 E). discriminate.
      + unfold pipe, infl_list, eff_batch. simpl. rewrite Ei, Ec. reflexivity.
    - split.
      + apply wf_running; auto. apply Hwf.
      + unfold pipe, infl_list, eff_batch. simpl. rewrite Ei, Ec. apply app_assoc.
  Qed.

  Lemma timer_ok : forall sf sh, wf_shard sf sh -> wf_shard sf (sh_timer sh) /\ pipe (sh_timer sh) = pipe sh.
  Proof.
    intros sf sh Hwf. unfold sh_timer, runner_idle.
    destruct (sh_exit sh) eqn:Ex; [auto|]. destruct (sh_infl sh) eqn:Ei; [auto|]. simpl.
    assert (H4 : sh_fl sh <> FNone -> q_batch (sh_q sh) = []) by apply Hwf.
    unfold q_timer. destruct (q_chan (sh_q sh)) as [|b r] eqn:Ec.
    - destruct (q_closed (sh_q sh)) eqn:Ecl.
      + split; [apply wf_running; auto|]. unfold pipe, infl_list. simpl. rewrite Ei. reflexivity.
      + (* the partial batch goes out, unless tryEnqueueingBatch has taken it already *)
        assert (Hp : pipe sh = q_batch (sh_q sh)).
        { unfold pipe, infl_list, eff_batch. rewrite Ei, Ec. simpl.
          destruct (sh_fl sh) eqn:Ef; auto; rewrite H4; congruence. }
        rewrite Hp. destruct (q_batch (sh_q sh)); (split; [apply wf_running; auto|]);
          unfold pipe, infl_list, eff_batch; simpl; destruct (sh_fl sh); rewrite ?app_nil_r; reflexivity.
    - assert (Hp : pipe sh = b ++ concat r ++ eff_batch sh).
      { unfold pipe, infl_list. rewrite Ei, Ec. simpl. apply app_assoc_reverse. }
      rewrite Hp. destruct b; (split; [apply wf_running; auto|]);
        unfold pipe, infl_list; simpl; rewrite ?app_assoc; reflexivity.
  Qed.

  Lemma flushpush_ok : forall sh,
    wf_shard true sh -> wf_shard true (sh_flushpush nbq false sh) /\ pipe (sh_flushpush nbq false sh) = pipe sh.
  Proof.
    intros sh Hwf. unfold sh_flushpush. destruct (sh_fl sh) eqn:Ef; auto.
    destruct Hwf as (_ & H2 & H3 & _). rewrite Ef in *.
    assert (Hwf' : forall q', q_closed q' = false -> q_batch q' = [] ->
              wf_shard true (mkSh q' (sh_infl sh) (sh_exit sh) FPushed)).
    { intros q' Hc Hb. split; [|split; [|split]]; simpl; auto; try discriminate.
      intros Ex. destruct (H3 Ex) as (_ & _ & ?). discriminate. }
    unfold q_tryflush, pipe, infl_list, eff_batch. rewrite Ef.
    destruct (q_batch (sh_q sh)) as [|x b] eqn:Eb; simpl.
    - split; [auto|]. rewrite !app_nil_r. reflexivity.
    - destruct (Nat.ltb _ _); simpl.
      + split; [auto|]. rewrite concat_app. simpl. rewrite !app_nil_r. reflexivity.
      + rewrite Eb. split; [|reflexivity].
        split; [|split; [|split]]; simpl; auto; try discriminate. intros E; destruct E; reflexivity.
  Qed.

  Lemma flushclose_ok : forall sh,
    wf_shard true sh -> wf_shard true (sh_flushclose sh) /\ pipe (sh_flushclose sh) = pipe sh.
  Proof.
    intros sh Hwf. unfold sh_flushclose. destruct (sh_fl sh) eqn:Ef; auto.
    destruct Hwf as (_ & _ & H3 & _). rewrite Ef in H3. split.
    - split; [|split; [|split]]; simpl; auto; try discriminate.
      intros Ex. destruct (H3 Ex) as (? & ? & _). auto.
    - unfold pipe, eff_batch. simpl. rewrite Ef. reflexivity.
  Qed.

  Lemma done_ok : forall sf sh, wf_shard sf sh -> wf_shard sf (sh_done sh).
  Proof.
    intros sf sh (H1 & H2 & H3 & H4). split; [|split; [|split]]; simpl; auto.
    intros Ex. destruct (H3 Ex) as (_ & ? & ?). auto.
  Qed.

  Lemma pipe_done : forall sh, pipe sh = infl_list sh ++ pipe (sh_done sh).
  Proof. reflexivity. Qed.

  Lemma enq_ok : forall sh q' x, wf_shard false sh -> q_append bsz nbq (sh_q sh) x = (q', AOk) ->
    wf_shard false (sh_enq q' sh) /\ pipe (sh_enq q' sh) = pipe sh ++ [x].
  Proof.
    intros sh q' x Hwf Hq. destruct (proj1 Hwf eq_refl) as [Ef Ex].
    apply q_append_ok in Hq. destruct Hq as (Hc & Hq). split.
    - unfold sh_enq. rewrite Ex, Ef. rewrite <- Ef. apply wf_running; auto.
      + destruct Hq as [[-> _]|[-> _]]; auto.
      + congruence.
    - unfold pipe, eff_batch. simpl. rewrite Ef, <- !app_assoc. f_equal.
      destruct Hq as [[-> _]|[-> _]]; simpl; auto.
      rewrite concat_app. simpl. rewrite !app_nil_r. reflexivity.
  Qed.

  Lemma wf_new : forall sf, wf_shard sf sh_new.
  Proof. intros sf. split; [|split; [|split]]; simpl; auto; discriminate. Qed.

  Lemma wf_hard : forall sh, wf_shard true (sh_hard sh).
  Proof. intros sh. split; [|split; [|split]]; simpl; auto; discriminate. Qed.

  Lemma wf_weaken : forall sf sh, wf_shard sf sh -> wf_shard true sh.
  Proof. intros sf sh [_ H]. split; [discriminate | exact H]. Qed.

  Lemma exited_pipe_empty : forall sf sh, wf_shard sf sh -> sh_exit sh = true -> pipe sh = [].
  Proof.
    intros sf sh (_ & _ & H3 & _) Ex. destruct (H3 Ex) as (A & B & C).
    unfold pipe, infl_list, eff_batch. rewrite A, B, C. reflexivity.
  Qed.

  Lemma stale_take_false : forall sf sh, wf_shard sf sh -> stale_take sh = false.
  Proof.
    intros sf sh (_ & _ & _ & H4). unfold stale_take.
    destruct (sh_fl sh); try apply andb_false_r; simpl; rewrite ?andb_false_r; auto.
    rewrite H4 by discriminate. apply andb_false_r.
  Qed.

  Definition home (s : st) (x : item) : nat := shard_of (length (shards s)) (i_ref x).

  (* One shards.enqueue attempt either changes nothing (nothing pending, soft shutdown, channel full),
     or panics on a closed queue, or appends the pending item to the queue of its home shard. *)
  Lemma do_enqueue_cases : forall s,
    do_enqueue bsz nbq s = s
    \/ (exists x sh, soft s = false /\ nth_error (shards s) (home s x) = Some sh /\ q_closed (sh_q sh) = true
         /\ do_enqueue bsz nbq s =
            mkSt (tab s) (pend s) (shards s) (soft s) (log s) (nextid s) (n_old s) (n_dropped s) (n_unint s)
                 (n_failed s) true (fed s) (lossy s) (flushrace s))
    \/ (exists x sh q', pend s = Some x /\ soft s = false /\ nth_error (shards s) (home s x) = Some sh
         /\ q_append bsz nbq (sh_q sh) x = (q', AOk)
         /\ do_enqueue bsz nbq s =
            mkSt (tab s) None (upd (home s x) (sh_enq q') (shards s)) (soft s) (log s) (nextid s) (n_old s)
                 (n_dropped s) (n_unint s) (n_failed s) (panicked s) (fed s) (lossy s) (flushrace s)).
  Proof.
    intros s. unfold do_enqueue, home. destruct (pend s) as [x|]; auto. destruct (soft s); auto.
    destruct (nth_error _ _) as [sh|] eqn:En; auto.
    destruct (q_append bsz nbq (sh_q sh) x) as [q' []] eqn:Eq; auto.
    - right; right. exists x, sh, q'. auto.
    - right; left. exists x, sh. eauto using q_append_panic.
  Qed.

  Definition rejected (s : st) : Z := n_old s + n_dropped s + n_unint s.

  (* One pass of Append's loop up to the enqueue: nothing while the previous sample is still pending;
     otherwise the sample is counted as dropped under one of three reasons, or becomes the pending item. *)
  Lemma do_lookup_cases : forall s ref t old,
    do_lookup s ref t old = s
    \/ (exists o d u, pend s = None /\ o + d + u = rejected s + 1 /\ do_lookup s ref t old =
          mkSt (tab s) None (shards s) (soft s) (log s) (nextid s + 1) o d u
               (n_failed s) (panicked s) (fed s) (lossy s) (flushrace s))
    \/ (exists l, pend s = None /\ aget ref (t_lbl (tab s)) = Some l /\ do_lookup s ref t old =
          mkSt (tab s) (Some (mkItem (nextid s) ref l t)) (shards s) (soft s) (log s) (nextid s + 1)
               (n_old s) (n_dropped s) (n_unint s) (n_failed s) (panicked s)
               (fed s ++ [mkItem (nextid s) ref l t]) (lossy s) (flushrace s)).
  Proof.
    intros s ref t old. unfold do_lookup, rejected. destruct (pend s); auto.
    destruct old; [right; left; do 3 eexists; split; [|split; [|reflexivity]]; auto; lia|].
    destruct (aget ref (t_lbl (tab s))) as [l|]; [right; right; exists l; auto|].
    destruct (memZ ref (t_drop (tab s))); right; left; do 3 eexists; (split; [|split; [|reflexivity]]); auto; lia.
  Qed.

  (* unconditional; the last part makes the branch of shards.enqueue that finds no queue dead *)
  Definition W (n0 : nat) (s : st) : Prop :=
    Forall (wf_shard (soft s)) (shards s) /\ panicked s = false
    /\ ((0 < n0)%nat -> (0 < length (shards s))%nat).

  Lemma W_local : forall n0 s s' k f,
    W n0 s -> shards s' = upd k f (shards s) -> soft s' = soft s -> panicked s' = panicked s ->
    (forall sh, nth_error (shards s) k = Some sh -> wf_shard (soft s) sh -> wf_shard (soft s) (f sh)) ->
    W n0 s'.
  Proof.
    intros n0 s s' k f (Hw & Hp & Hn) E1 E2 E3 Hf. unfold W. rewrite E1, E2, E3, upd_length.
    repeat split; auto. apply Forall_upd; auto. intros sh E. eapply Hf, Forall_nth; eauto.
  Qed.

  Lemma shard_of_lt : forall n r, (0 < n)%nat -> (shard_of n r < n)%nat.
  Proof.
    intros n r Hn. unfold shard_of.
    assert (0 <= r mod Z.of_nat n < Z.of_nat n) by (apply Z.mod_pos_bound; lia). lia.
  Qed.

  Lemma W_step : forall n0 s o, W n0 s -> W n0 (step s o).
  Proof.
    intros n0 s o HW. pose proof HW as (Hw & Hp & Hn).
    destruct o as [ref raw seg|idx|ref t old| |k|k|k oc| |k|k| |n]; simpl.
    - unfold do_store. destruct (relab _); exact HW.
    - exact HW.
    - destruct (do_lookup_cases s ref t old) as [->|[(? & ? & ? & _ & _ & ->)|(? & _ & _ & ->)]]; exact HW.
    - destruct (do_enqueue_cases s) as [->|[(x & sh & Es & En & Hc & _)|(x & sh & q' & _ & Es & En & Hq & ->)]]; auto.
      + (* while softShutdown is open every queue is open *)
        apply (Forall_nth _ _ _ _ _ Hw) in En. rewrite Es in En. destruct En as (H1 & H2 & _).
        destruct (H1 eq_refl) as [Hfl _]. rewrite Hfl in H2. congruence.
      + apply (W_local n0 s _ (home s x) (sh_enq q')); auto.
        rewrite Es, En. intros sh' [= <-] Hsh. eapply enq_ok; eauto.
    - apply (W_local n0 s _ k sh_take); auto. intros sh _. apply take_ok.
    - apply (W_local n0 s _ k sh_timer); auto. intros sh _. apply timer_ok.
    - unfold do_send. destruct (nth_error (shards s) k) as [sh|]; [|exact HW].
      destruct (sh_infl sh); [|exact HW].
      destruct oc; [|exact HW|]; (apply (W_local n0 s _ k sh_done); auto; intros sh' _; apply done_ok).
    - split; [|exact (conj Hp Hn)]. eapply Forall_impl; [|exact Hw]. apply wf_weaken.
    - destruct (soft s) eqn:Es; [|exact HW].
      apply (W_local n0 s _ k (sh_flushpush nbq false)); auto. rewrite Es. intros sh _. apply flushpush_ok.
    - destruct (soft s) eqn:Es; [|exact HW].
      apply (W_local n0 s _ k sh_flushclose); auto. rewrite Es. intros sh _. apply flushclose_ok.
    - destruct (soft s && negb (all_exited (shards s))); [|exact HW].
      unfold W; simpl. rewrite map_length. repeat split; auto.
      apply Forall_map, Forall_forall. intros sh _. apply wf_hard.
    - destruct (soft s && all_exited (shards s) && Nat.ltb 0 n) eqn:E; [|exact HW].
      unfold W; simpl. rewrite repeat_length. repeat split; auto.
      + apply Forall_repeat, wf_new.
      + intros _. apply Nat.ltb_lt. apply andb_prop in E. apply E.
  Qed.

  Lemma W_run : forall n0 ops, W n0 (run n0 ops).
  Proof.
    intros n0 ops. induction ops as [|o ops IH] using rev_ind.
    - unfold W; simpl. rewrite repeat_length. auto using Forall_repeat, wf_new.
    - rewrite run_snoc. apply W_step, IH.
  Qed.


  (* Case split on every test a step makes, for facts about fields that no branch, or a single
     one, touches. *)
  Ltac branches :=
    unfold do_store, do_lookup, do_timer, do_send;
    repeat match goal with
           | |- context [match ?x with _ => _ end] => destruct x; cbv beta iota
           end.

  Definition feed (s : st) := (fed s, nextid s, rejected s).

  Lemma do_enqueue_frame : forall s,
    feed (do_enqueue bsz nbq s) = feed s /\ lossy (do_enqueue bsz nbq s) = lossy s
    /\ flushrace (do_enqueue bsz nbq s) = flushrace s.
  Proof.
    intros s.
    destruct (do_enqueue_cases s) as [->|[(? & ? & _ & _ & _ & ->)|(? & ? & ? & _ & _ & _ & _ & ->)]]; auto.
  Qed.

  Lemma lossy_mono : forall s o, lossy s = true -> lossy (step s o) = true.
  Proof.
    intros s o H. destruct o; simpl; try (branches; auto; fail).
    rewrite (proj1 (proj2 (do_enqueue_frame s))). exact H.
  Qed.

  Lemma flushrace_step : forall n0 s o, W n0 s -> flushrace (step s o) = flushrace s.
  Proof.
    intros n0 s o [Hw _]. destruct o as [| | | | |k| | | | | |]; simpl; try (branches; reflexivity).
    { apply do_enqueue_frame. }
    destruct (nth_error (shards s) k) eqn:E; [|apply orb_false_r].
    erewrite stale_take_false; [apply orb_false_r | eapply Forall_nth; eauto].
  Qed.

  Lemma flushrace_run : forall n0 ops, (0 < n0)%nat -> flushrace (run n0 ops) = false.
  Proof.
    intros n0 ops _. induction ops as [|o ops IH] using rev_ind; [reflexivity|].
    rewrite run_snoc, (flushrace_step n0); auto using W_run.
  Qed.


  (* only the lookup of a known, kept series extends the feed; its id is the position in the feed *)
  Lemma fed_step : forall s o,
    (fed (step s o) = fed s /\ nextid s <= nextid (step s o)
     /\ nextid (step s o) - rejected (step s o) = nextid s - rejected s)
    \/ (exists x, fed (step s o) = fed s ++ [x] /\ i_id x = nextid s /\ nextid (step s o) = nextid s + 1
                  /\ rejected (step s o) = rejected s).
  Proof.
    intros s o.
    assert (Hsame : forall s', feed s' = feed s ->
              fed s' = fed s /\ nextid s <= nextid s' /\ nextid s' - rejected s' = nextid s - rejected s).
    { intros s' [= -> -> ->]. repeat split. apply Z.le_refl. }
    destruct o as [| |ref t old| | | | | | | | |]; try (left; apply Hsame; simpl; branches; reflexivity).
    2: { left. apply Hsame, do_enqueue_frame. }
    simpl. destruct (do_lookup_cases s ref t old) as [->|[(o & d & u & _ & E & ->)|(l & _ & _ & ->)]].
    - left. apply Hsame. reflexivity.
    - left. unfold rejected in *. simpl. repeat split; lia.
    - right. eexists. repeat split.
  Qed.

  Definition FedInv (s : st) : Prop :=
    NoDup (map i_id (fed s)) /\ Forall (fun x => i_id x < nextid s) (fed s).

  Lemma FedInv_run : forall n0 ops, FedInv (run n0 ops).
  Proof.
    intros n0 ops. induction ops as [|o ops IH] using rev_ind; [split; constructor|].
    rewrite run_snoc. destruct IH as [Hnd Hlt]. rewrite Forall_forall in Hlt.
    destruct (fed_step (run n0 ops) o) as [(E1 & E2 & _)|(x & E1 & E2 & E3 & _)]; split; rewrite E1; auto.
    - apply Forall_forall. intros y Hy. specialize (Hlt y Hy). lia.
    - rewrite map_app. apply NoDup_snoc; auto. rewrite E2.
      intro Hin. apply in_map_iff in Hin. destruct Hin as (y & Ey & Hy). specialize (Hlt y Hy). lia.
    - apply Forall_forall. intros y Hy. apply in_app_or in Hy. destruct Hy as [Hy|[<-|[]]]; [|lia].
      specialize (Hlt y Hy). lia.
  Qed.

  (* droppedSamplesTotal accounts for every sample Append did not accept *)
  Theorem append_accounting : forall n0 ops, let s := run n0 ops in
    nextid s = Z.of_nat (length (fed s)) + n_old s + n_dropped s + n_unint s.
  Proof.
    intros n0 ops. simpl.
    enough (nextid (run n0 ops) - rejected (run n0 ops) = Z.of_nat (length (fed (run n0 ops))))
      by (unfold rejected in *; lia).
    induction ops as [|o ops IH] using rev_ind; [reflexivity|]. rewrite run_snoc.
    destruct (fed_step (run n0 ops) o) as [(E1 & _ & E2)|(x & E1 & _ & E2 & E3)]; rewrite E1.
    - lia.
    - rewrite app_length, E2, E3. simpl. lia.
  Qed.

  (* While no batch is abandoned: a queued sample sits in the shard its ref maps to, and per series
     accepted = delivered ++ queued in that shard ++ pending in Append, in this order. *)
  Definition pipe_at (shs : list shard) (k : nat) : list item :=
    match nth_error shs k with Some sh => pipe sh | None => [] end.
  Definition plist (p : option item) : list item := match p with Some x => [x] | None => [] end.

  Record InvC (shs : list shard) (fd dl : list item) (p : option item) : Prop := {
    ic_aff : forall k sh x, nth_error shs k = Some sh -> In x (pipe sh) -> shard_of (length shs) (i_ref x) = k;
    ic_exact : forall r, fr r fd = fr r dl ++ fr r (pipe_at shs (shard_of (length shs) r)) ++ fr r (plist p)
  }.

  Definition Inv (s : st) : Prop := InvC (shards s) (fed s) (delivered (log s)) (pend s).

  Lemma pipe_at_upd : forall shs k f j sh,
    nth_error shs k = Some sh ->
    pipe_at (upd k f shs) j = if Nat.eqb j k then pipe (f sh) else pipe_at shs j.
  Proof.
    intros shs k f j sh E. unfold pipe_at. rewrite nth_error_upd, E. destruct (Nat.eqb j k); reflexivity.
  Qed.

  (* shard k hands the front [b] of its pipe over to the endpoint (b = [] for a step inside the shard) *)
  Lemma invc_deliver : forall shs fd dl p k sh f b,
    InvC shs fd dl p -> nth_error shs k = Some sh -> pipe sh = b ++ pipe (f sh) ->
    InvC (upd k f shs) fd (dl ++ b) p.
  Proof.
    intros shs fd dl p k sh f b [Ha He] En Hp.
    assert (Hb : forall y, In y b -> shard_of (length shs) (i_ref y) = k).
    { intros y Hy. apply (Ha k sh); auto. rewrite Hp. apply in_or_app; auto. }
    split; rewrite upd_length.
    - intros j sh' y. rewrite nth_error_upd. destruct (Nat.eqb_spec j k) as [->|Ne]; [|apply Ha].
      rewrite En. intros [= <-] Hin. apply (Ha k sh); auto. rewrite Hp. apply in_or_app; auto.
    - intros r. rewrite (He r), fr_app, (pipe_at_upd _ _ _ _ _ En).
      destruct (Nat.eqb_spec (shard_of (length shs) r) k) as [Eq|Ne].
      + unfold pipe_at. rewrite Eq, En, Hp, fr_app, <- !app_assoc. reflexivity.
      + rewrite (fr_none r b), app_nil_r; auto. intros y Hy E. apply Ne. rewrite <- E. auto.
  Qed.

  Lemma invc_local : forall shs fd dl p k f,
    InvC shs fd dl p -> (forall sh, nth_error shs k = Some sh -> pipe (f sh) = pipe sh) ->
    InvC (upd k f shs) fd dl p.
  Proof.
    intros shs fd dl p k f HI Hf. destruct (nth_error shs k) as [sh|] eqn:En.
    - rewrite <- (app_nil_r dl). apply invc_deliver with sh; auto. symmetry. apply Hf. reflexivity.
    - rewrite upd_oob; auto.
  Qed.

  Lemma invc_enqueue : forall shs fd dl x sh f,
    InvC shs fd dl (Some x) ->
    nth_error shs (shard_of (length shs) (i_ref x)) = Some sh ->
    pipe (f sh) = pipe sh ++ [x] ->
    InvC (upd (shard_of (length shs) (i_ref x)) f shs) fd dl None.
  Proof.
    intros shs fd dl x sh f [Ha He] En Hp. split; rewrite upd_length.
    - intros j sh' y. rewrite nth_error_upd.
      destruct (Nat.eqb_spec j (shard_of (length shs) (i_ref x))) as [->|Ne]; [|apply Ha].
      rewrite En. intros [= <-]. rewrite Hp. intros Hin. apply in_app_or in Hin.
      destruct Hin as [Hin|[<-|[]]]; eauto.
    - intros r. rewrite (He r), (pipe_at_upd _ _ _ _ _ En).
      destruct (Nat.eqb_spec (shard_of (length shs) r) (shard_of (length shs) (i_ref x))) as [Eq|Ne].
      + unfold pipe_at. rewrite Eq, En, Hp, fr_app, app_nil_r. reflexivity.
      + rewrite (fr_none r (plist (Some x))); auto. intros y [<-|[]] E. apply Ne. rewrite E. reflexivity.
  Qed.

  Lemma invc_lookup : forall shs fd dl x, InvC shs fd dl None -> InvC shs (fd ++ [x]) dl (Some x).
  Proof.
    intros shs fd dl x [Ha He]. split; auto.
    intros r. rewrite fr_app, (He r), app_nil_r, <- app_assoc. reflexivity.
  Qed.

  Lemma pipe_at_empty : forall shs, Forall (fun sh => pipe sh = []) shs -> forall k, pipe_at shs k = [].
  Proof.
    intros shs H k. unfold pipe_at. destruct (nth_error shs k) eqn:E; auto. apply (Forall_nth _ _ _ _ _ H E).
  Qed.

  Lemma invc_start : forall shs fd dl p n,
    InvC shs fd dl p -> Forall (fun sh => pipe sh = []) shs -> InvC (repeat sh_new n) fd dl p.
  Proof.
    intros shs fd dl p n [Ha He] Hempty.
    assert (Hnew : Forall (fun sh => pipe sh = []) (repeat sh_new n)) by (apply Forall_repeat; reflexivity).
    split.
    - intros k sh x Hk. rewrite (Forall_nth _ _ _ _ _ Hnew Hk). intros [].
    - intros r. rewrite (He r), !pipe_at_empty; auto.
  Qed.

  Lemma delivered_snoc : forall lg b oc,
    delivered (lg ++ [(b, oc)]) = delivered lg ++ match oc with Ok => b | _ => [] end.
  Proof. intros. unfold delivered. rewrite flat_map_app. simpl. rewrite app_nil_r. reflexivity. Qed.

  Lemma step_inv : forall n0 s o, W n0 s -> Inv s -> lossy (step s o) = false -> Inv (step s o).
  Proof.
    intros n0 s o HW HI. pose proof HW as (Hw & _). unfold Inv in *.
    assert (Hwf : forall k sh, nth_error (shards s) k = Some sh -> wf_shard (soft s) sh).
    { intros k sh. apply Forall_nth, Hw. }
    destruct o as [ref raw seg|idx|ref t old| |k|k|k oc| |k|k| |n]; simpl.
    - unfold do_store. destruct (relab _); auto.
    - auto.
    - destruct (do_lookup_cases s ref t old) as [->|[(? & ? & ? & Ep & _ & ->)|(l & Ep & _ & ->)]]; auto;
        intros _; simpl; rewrite Ep in HI; auto. apply invc_lookup, HI.
    - destruct (do_enqueue_cases s) as [->|[(x & sh & _ & _ & _ & ->)|(x & sh & q' & Ep & Es & En & Hq & ->)]]; auto.
      intros _. simpl. rewrite Ep in HI. eapply invc_enqueue; eauto.
      eapply enq_ok; eauto. rewrite <- Es. eauto.
    - intros _. apply invc_local; auto. intros sh E. eapply take_ok; eauto.
    - intros _. apply invc_local; auto. intros sh E. eapply timer_ok; eauto.
    - unfold do_send. destruct (nth_error (shards s) k) as [sh|] eqn:En; auto.
      destruct (sh_infl sh) as [b|] eqn:Ei; auto.
      destruct oc; simpl; [intros _ | intros _ | discriminate]; rewrite delivered_snoc.
      + eapply invc_deliver; eauto. unfold pipe, infl_list. rewrite Ei. reflexivity.
      + rewrite app_nil_r. auto.
    - auto.
    - destruct (soft s) eqn:Es; auto. intros _. apply invc_local; auto.
      intros sh E. apply flushpush_ok. eauto.
    - destruct (soft s) eqn:Es; auto. intros _. apply invc_local; auto.
      intros sh E. apply flushclose_ok. eauto.
    - destruct (soft s && negb (all_exited (shards s))); auto. discriminate.
    - destruct (soft s && all_exited (shards s) && Nat.ltb 0 n) eqn:E; auto.
      intros _. simpl. eapply invc_start; eauto.
      apply andb_prop in E. destruct E as [E _]. apply andb_prop in E. destruct E as [_ E].
      apply Forall_forall. intros sh Hin. rewrite Forall_forall in Hw.
      apply (exited_pipe_empty _ _ (Hw sh Hin)). unfold all_exited in E. rewrite forallb_forall in E. auto.
  Qed.

  Lemma Inv_init : forall n0, Inv (init n0).
  Proof.
    intros n0. apply (invc_start [] [] [] None n0); [|constructor].
    split; [intros [|k] sh x; discriminate | intros r; rewrite pipe_at_empty by constructor; reflexivity].
  Qed.

  Lemma Inv_run : forall n0 ops, lossy (run n0 ops) = false -> Inv (run n0 ops).
  Proof.
    intros n0 ops. induction ops as [|o ops IH] using rev_ind; intros HL.
    - apply Inv_init.
    - rewrite run_snoc in *. apply (step_inv n0); auto using W_run. apply IH.
      destruct (lossy (run n0 ops)) eqn:E; auto. rewrite (lossy_mono _ o E) in HL. discriminate.
  Qed.

  (* Unconditional: a label set in use was stored for its ref and kept by relabelling, and whatever is
     queued, pending or was ever sent has been accepted by Append. *)
  Definition prov (ops : list op) (r : Z) (l : labels) : Prop :=
    exists raw seg, In (OStore r raw seg) ops /\ relab (add_ext ext raw) = Some l.

  Definition within (fd : list item) (sh : shard) : Prop := incl (pipe sh) fd.

  Record K (ops : list op) (s : st) : Prop := {
    k_tab : forall r l, aget r (t_lbl (tab s)) = Some l -> prov ops r l;
    k_fed : forall x, In x (fed s) -> prov ops (i_ref x) (i_lbl x);
    k_pipe : Forall (within (fed s)) (shards s);
    k_log : incl (attempted (log s)) (fed s);
    k_pend : incl (pend_list s) (fed s)
  }.

  Lemma K_mono : forall ops ops' s, incl ops ops' -> K ops s -> K ops' s.
  Proof.
    intros ops ops' s Hi [K1 K2 K3 K4 K5].
    assert (Hp : forall r l, prov ops r l -> prov ops' r l).
    { intros r l (raw & seg & A & B). exists raw, seg. auto. }
    split; auto.
  Qed.

  Lemma K_frame : forall ops s s',
    K ops s -> t_lbl (tab s') = t_lbl (tab s) -> fed s' = fed s ->
    Forall (within (fed s)) (shards s') -> incl (attempted (log s')) (fed s) -> incl (pend_list s') (fed s) ->
    K ops s'.
  Proof. intros ops s s' [K1 K2 _ _ _] E1 E2 H3 H4 H5. split; rewrite ?E1, ?E2; auto. Qed.

  Lemma within_local : forall fd shs k f,
    Forall (within fd) shs -> (forall sh, nth_error shs k = Some sh -> pipe (f sh) = pipe sh) ->
    Forall (within fd) (upd k f shs).
  Proof.
    intros fd shs k f H Hf. apply Forall_upd; auto.
    intros sh E. unfold within. rewrite (Hf sh E). apply (Forall_nth _ _ _ _ _ H E).
  Qed.

  Lemma attempted_snoc : forall lg b oc, attempted (lg ++ [(b, oc)]) = attempted lg ++ b.
  Proof. intros. unfold attempted. rewrite flat_map_app. simpl. rewrite app_nil_r. reflexivity. Qed.

  Lemma K_step : forall n0 ops s o, In o ops -> W n0 s -> K ops s -> K ops (step s o).
  Proof.
    intros n0 ops s o Ho (Hw & _) HK. pose proof HK as [K1 K2 K3 K4 K5].
    assert (Hwf : forall k sh, nth_error (shards s) k = Some sh -> wf_shard (soft s) sh).
    { intros k sh. apply Forall_nth, Hw. }
    destruct o as [ref raw seg|idx|ref t old| |k|k|k oc| |k|k| |n]; simpl.
    - unfold do_store. destruct (relab (add_ext ext raw)) as [l|] eqn:Er; [|apply (K_frame ops s); auto].
      split; auto. simpl. intros r l'. destruct (Z.eqb_spec ref r) as [->|Ne]; auto.
      intros [= <-]. exists raw, seg. auto.
    - split; auto. simpl. intros r l.
      rewrite (aget_filter_key labels
                 (fun k => negb match aget k (t_seg (tab s)) with Some v => v <? idx | None => false end)).
      destruct (negb _); [auto | discriminate].
    - destruct (do_lookup_cases s ref t old) as [->|[(? & ? & ? & _ & _ & ->)|(l & Ep & El & ->)]]; auto.
      { apply (K_frame ops s); auto. intros y []. }
      split; simpl; auto using incl_appl.
      + intros x Hx. apply in_app_or in Hx. destruct Hx as [Hx|[<-|[]]]; auto.
      + eapply Forall_impl; [|exact K3]. intros sh. apply incl_appl.
      + apply incl_appr, incl_refl.
    - destruct (do_enqueue_cases s) as [->|[(x & sh & _ & _ & _ & ->)|(x & sh & q' & Ep & Es & En & Hq & ->)]]; auto.
      + split; auto.
      + apply (K_frame ops s); auto; [|intros y []].
        apply Forall_upd; auto. intros sh' E. rewrite En in E. injection E as <-.
        assert (Hsh : wf_shard false sh) by (rewrite <- Es; eauto).
        unfold within. rewrite (proj2 (enq_ok _ _ _ Hsh Hq)).
        apply incl_app; [eapply (Forall_nth _ _ _ _ _ K3); eauto|].
        unfold pend_list in K5. rewrite Ep in K5. exact K5.
    - apply (K_frame ops s); auto. apply within_local; auto. intros sh E. eapply take_ok; eauto.
    - apply (K_frame ops s); auto. apply within_local; auto. intros sh E. eapply timer_ok; eauto.
    - unfold do_send. destruct (nth_error (shards s) k) as [sh|] eqn:En; [|exact HK].
      destruct (sh_infl sh) as [b|] eqn:Ei; [|exact HK].
      assert (Hb : incl (pipe sh) (fed s)) by apply (Forall_nth _ _ _ _ _ K3 En).
      rewrite (pipe_done sh) in Hb. unfold infl_list in Hb. rewrite Ei in Hb.
      apply incl_app_inv in Hb. destruct Hb as [Hb Hrest].
      assert (Hl : forall oc', incl (attempted (log s ++ [(b, oc')])) (fed s)).
      { intros oc'. rewrite attempted_snoc. apply incl_app; auto. }
      assert (Hd : Forall (within (fed s)) (upd k sh_done (shards s))).
      { apply Forall_upd; auto. intros sh' E. rewrite En in E. injection E as <-. exact Hrest. }
      destruct oc; apply (K_frame ops s); simpl; auto; exact Hd.
    - apply (K_frame ops s); auto.
    - destruct (soft s) eqn:Es; [|exact HK].
      apply (K_frame ops s); auto. apply within_local; auto. intros sh E. apply flushpush_ok. eauto.
    - destruct (soft s) eqn:Es; [|exact HK].
      apply (K_frame ops s); auto. apply within_local; auto. intros sh E. apply flushclose_ok. eauto.
    - destruct (soft s && negb (all_exited (shards s))); [|exact HK].
      apply (K_frame ops s); simpl; auto. apply Forall_map, Forall_forall. intros sh _ y [].
    - destruct (soft s && all_exited (shards s) && Nat.ltb 0 n); [|exact HK].
      apply (K_frame ops s); simpl; auto. apply Forall_repeat. intros y [].
  Qed.

  Lemma K_run : forall n0 ops, K ops (run n0 ops).
  Proof.
    intros n0 ops. induction ops as [|o ops IH] using rev_ind.
    - split; simpl; try discriminate; try (intros x []). apply Forall_repeat. intros y [].
    - rewrite run_snoc. apply (K_step n0); auto using W_run, in_or_app, in_eq.
      apply (K_mono ops); auto using incl_appl, incl_refl.
  Qed.

  Lemma shards_nonempty : forall n0 ops, (0 < n0)%nat -> (0 < length (shards (run n0 ops)))%nat.
  Proof. intros n0 ops. apply (W_run n0 ops). Qed.

  Lemma quiescent_outstanding : forall s r, quiescent s = true -> outstanding s r = [].
  Proof.
    intros s r H. unfold quiescent in H. apply andb_prop in H. destruct H as [Hp Hs].
    unfold outstanding, pend_list, pipe_of. destruct (pend s); [discriminate|].
    destruct (nth_error (shards s) _) as [sh|] eqn:E; auto.
    rewrite forallb_forall in Hs. specialize (Hs sh (nth_error_In _ _ E)).
    destruct (pipe sh); [reflexivity | discriminate].
  Qed.

  Lemma all_ok_attempted : forall lg, all_ok lg = true -> attempted lg = delivered lg.
  Proof.
    induction lg as [|[b oc] lg IH]; simpl; auto.
    destruct oc; simpl; try discriminate. intros H. unfold attempted, delivered in *. simpl.
    f_equal. apply IH; auto.
  Qed.

  (* tryEnqueueingBatch on a full channel changes nothing and leaves the flush goroutine where it
     was (FNone): the step stays enabled, i.e. FlushAndShutdown must try again ... *)
  Lemma flush_full_is_noop : forall sh,
    sh_fl sh = FNone -> q_batch (sh_q sh) <> [] -> (nbq <= length (q_chan (sh_q sh)))%nat ->
    sh_flushpush nbq false sh = sh.
  Proof.
    intros [[b c cl] infl ex fl] Hf Hb Hc. simpl in *. subst fl. unfold sh_flushpush, q_tryflush. simpl.
    destruct b as [|x b]; [congruence|]. apply Nat.ltb_ge in Hc. rewrite Hc. reflexivity.
  Qed.

  (* ... and the channel is not closed before a try has succeeded (or found nothing to flush) *)
  Lemma close_needs_flush : forall sh, sh_fl sh = FNone -> sh_flushclose sh = sh.
  Proof. intros sh H. unfold sh_flushclose. rewrite H. reflexivity. Qed.

  (* as soon as the channel has room the try succeeds: the partial batch is handed over whole *)
  Lemma flush_succeeds_with_room : forall sh,
    sh_fl sh = FNone -> (length (q_chan (sh_q sh)) < nbq)%nat ->
    let sh' := sh_flushpush nbq false sh in
    sh_fl sh' = FPushed /\ q_batch (sh_q sh') = [] /\ pipe sh' = pipe sh.
  Proof.
    intros [[b c cl] infl ex fl] Hf Hc. simpl in *. subst fl. apply Nat.ltb_lt in Hc.
    unfold sh_flushpush, q_tryflush, pipe, eff_batch. simpl.
    destruct b; simpl; rewrite ?Hc; simpl; repeat split.
    rewrite concat_app. simpl. rewrite !app_nil_r. reflexivity.
  Qed.

End Proofs.

Definition relab_id (l : labels) : option labels := Some l.

(* batch size 3, one channel slot, one shard: the timer fires between tryEnqueueingBatch and the
   clearing of q.batch *)
Definition ops_race : list op :=
  [OStore 7 [(1, 1)] 0; OLookup 7 100 false; OEnqueue; OLookup 7 101 false; OEnqueue;
   OSoft; OFlushPush 0; OTake 0; OSend 0 Ok; OTimer 0; OSend 0 Ok; OFlushClose 0; OTake 0].

(* two shards, batches of two: a recoverable failure retried in place, a reshard to three shards *)
Definition ops_nv : list op :=
  [OStore 1 [(1, 1)] 0; OStore 2 [(1, 2)] 0; OStore 9 [(1, 3); (5, 1)] 0;
   OLookup 1 10 false; OEnqueue; OLookup 2 11 false; OEnqueue; OLookup 1 12 false; OEnqueue;
   OLookup 9 13 false; OLookup 5 14 false; OLookup 1 15 true;
   OTimer 1; OSend 1 Recoverable; OSend 1 Ok;
   OSoft; OEnqueue; OFlushPush 0; OFlushPush 1; OFlushClose 0; OFlushClose 1;
   OTake 0; OSend 0 Ok; OTake 0; OTake 1; OStart 3;
   OLookup 1 16 false; OEnqueue; OTimer 1; OSend 1 Ok].

(* relabelling drops the series carrying label 5 *)
Definition relab_nv (l : labels) : option labels :=
  match lget 5 l with Some _ => None | None => Some l end.

Section BatchBound.
  Variable relab : labels -> option labels.
  Variables (bsz nbq : nat) (ext : labels).
  Hypothesis bsz_pos : (0 < bsz)%nat.

  Notation step := (step relab bsz nbq ext false).
  Notation run := (run relab bsz nbq ext false).

  Definition bok (b : list item) : Prop := (0 < length b <= bsz)%nat.

  (* complete batches wait on the channel, the partial batch is short of one, the batch in flight
     came from one of the two *)
  Definition Bsh (sh : shard) : Prop :=
    Forall bok (q_chan (sh_q sh)) /\ (length (q_batch (sh_q sh)) < bsz)%nat
    /\ (forall b, sh_infl sh = Some b -> bok b).

  Definition BI (s : st) : Prop := Forall Bsh (shards s) /\ batches_ok bsz (log s) = true.

  Ltac bsplit := split; [|split].

  Lemma B_new : Bsh sh_new.
  Proof. bsplit; simpl; auto; discriminate. Qed.

  Lemma B_take : forall sh, Bsh sh -> Bsh (sh_take sh).
  Proof.
    intros sh HB. pose proof HB as (H1 & H2 & H3). unfold sh_take.
    destruct (negb (runner_idle sh)); auto.
    unfold q_recv. destruct (q_chan (sh_q sh)) as [|b r] eqn:Ec.
    - destruct (q_closed (sh_q sh)); auto. bsplit; simpl; rewrite ?Ec; auto; discriminate.
    - inversion H1; subst. bsplit; simpl; auto. intros ? [= <-]. assumption.
  Qed.

  Lemma B_timer : forall sh, Bsh sh -> Bsh (sh_timer sh).
  Proof.
    intros sh HB. pose proof HB as (H1 & H2 & H3). unfold sh_timer.
    destruct (negb (runner_idle sh)); auto.
    unfold q_timer. destruct (q_chan (sh_q sh)) as [|b r] eqn:Ec.
    - destruct (q_closed (sh_q sh)); [bsplit; simpl; rewrite ?Ec; auto; discriminate|].
      destruct (q_batch (sh_q sh)) as [|x l] eqn:Eb; bsplit; simpl; auto; try discriminate.
      intros ? [= <-]. split; simpl in *; lia.
    - inversion H1; subst. destruct b; bsplit; simpl; auto; try discriminate.
      intros ? [= <-]. assumption.
  Qed.

  Lemma B_done : forall sh, Bsh sh -> Bsh (sh_done sh).
  Proof. intros sh (H1 & H2 & H3). bsplit; simpl; auto; discriminate. Qed.

  Lemma B_flushpush : forall sh, Bsh sh -> Bsh (sh_flushpush nbq false sh).
  Proof.
    intros sh HB. pose proof HB as (H1 & H2 & H3). unfold sh_flushpush.
    destruct (sh_fl sh); auto.
    unfold q_tryflush. destruct (q_batch (sh_q sh)) as [|x l] eqn:Eb; [destruct sh; exact HB|].
    destruct (Nat.ltb _ _); [|destruct sh; exact HB].
    bsplit; simpl; auto. apply Forall_app. split; auto. constructor; auto. split; simpl in *; lia.
  Qed.

  Lemma B_flushclose : forall sh, Bsh sh -> Bsh (sh_flushclose sh).
  Proof.
    intros sh HB. pose proof HB as (H1 & H2 & H3). unfold sh_flushclose.
    destruct (sh_fl sh); auto. bsplit; simpl; auto.
  Qed.

  Lemma B_enq : forall sh sh' q' x, Bsh sh -> Bsh sh' -> q_append bsz nbq (sh_q sh) x = (q', AOk) ->
    Bsh (sh_enq q' sh').
  Proof.
    intros sh sh' q' x (H1 & H2 & _) (_ & _ & H3) Hq. apply q_append_ok in Hq.
    destruct Hq as [_ [[-> Hl]|[-> Hl]]]; bsplit; simpl; auto.
    - rewrite app_length in *. simpl in *. lia.
    - apply Forall_app. split; auto. constructor; auto. split; lia.
  Qed.

  Lemma batches_ok_snoc : forall lg b oc, batches_ok bsz lg = true -> bok b -> batches_ok bsz (lg ++ [(b, oc)]) = true.
  Proof.
    intros lg b oc H [Hb1 Hb2]. unfold batches_ok in *. rewrite forallb_app, H. simpl.
    apply Nat.ltb_lt in Hb1. apply Nat.leb_le in Hb2. rewrite Hb1, Hb2. reflexivity.
  Qed.

  Lemma BI_local : forall s s' k f,
    BI s -> shards s' = upd k f (shards s) -> log s' = log s -> (forall sh, Bsh sh -> Bsh (f sh)) -> BI s'.
  Proof.
    intros s s' k f [H1 H2] E1 E2 Hf. split; rewrite ?E1, ?E2; auto.
    apply Forall_upd; auto. intros sh E. eapply Hf, Forall_nth; eauto.
  Qed.

  Lemma BI_step : forall s o, BI s -> BI (step s o).
  Proof.
    intros s o HB. pose proof HB as [H1 H2].
    destruct o as [ref raw seg|idx|ref t old| |k|k|k oc| |k|k| |n]; simpl.
    - unfold do_store. destruct (relab _); exact HB.
    - exact HB.
    - destruct (do_lookup_cases s ref t old) as [->|[(? & ? & ? & _ & _ & ->)|(? & _ & _ & ->)]]; exact HB.
    - destruct (do_enqueue_cases bsz nbq s) as [->|[(x & sh & _ & _ & _ & ->)|(x & sh & q' & _ & _ & En & Hq & ->)]]; auto.
      apply (BI_local s _ (home s x) (sh_enq q')); auto.
      intros sh' Hsh'. apply (B_enq sh sh' q' x); auto. apply (Forall_nth _ _ _ _ _ H1 En).
    - apply (BI_local s _ k sh_take); auto. apply B_take.
    - apply (BI_local s _ k sh_timer); auto. apply B_timer.
    - unfold do_send. destruct (nth_error (shards s) k) as [sh|] eqn:En; auto.
      destruct (sh_infl sh) as [b|] eqn:Ei; auto.
      assert (Hb : bok b) by (apply (Forall_nth _ _ _ _ _ H1 En), Ei).
      assert (Hd : Forall Bsh (upd k sh_done (shards s))).
      { apply Forall_upd; auto. intros sh' E. eapply B_done, Forall_nth; eauto. }
      destruct oc; split; simpl; auto using batches_ok_snoc.
    - exact HB.
    - destruct (soft s); auto. apply (BI_local s _ k (sh_flushpush nbq false)); auto. apply B_flushpush.
    - destruct (soft s); auto. apply (BI_local s _ k sh_flushclose); auto. apply B_flushclose.
    - destruct (soft s && negb (all_exited (shards s))); auto. split; simpl; auto.
      apply Forall_map, Forall_forall. intros sh _. bsplit; simpl; auto; discriminate.
    - destruct (soft s && all_exited (shards s) && Nat.ltb 0 n); auto. split; simpl; auto.
      apply Forall_repeat, B_new.
  Qed.

  Lemma BI_run : forall n0 ops, BI (run n0 ops).
  Proof.
    intros n0 ops. induction ops as [|o ops IH] using rev_ind.
    - split; simpl; auto. apply Forall_repeat, B_new.
    - rewrite run_snoc. apply BI_step, IH.
  Qed.

End BatchBound.
