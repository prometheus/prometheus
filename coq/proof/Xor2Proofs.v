(* proof/Xor2Proofs.v — lemmas and proofs about the XOR2 part of model/Xor.v (C10). *)
From Coq Require Import List ZArith Lia Bool.
From Verif Require Import lib.Int64 lib.Bits model.Xor proof.XorProofs.
Import ListNotations.
Open Scope Z_scope.

#[local] Opaque put_bits get_bits.

(* ---- varbit ------------------------------------------------------------------------------------ *)

Lemma read_ones_false n r : read_ones (S n) (false :: r) = Some (0, r).
Proof. reflexivity. Qed.

Lemma varbit_rt x r : int64 x -> get_varbit (put_varbit x ++ r) = Some (x, r).
Proof.
  intros Hx. unfold put_varbit.
  destruct (Z.eqb_spec x 0) as [->|Hnz]; [reflexivity|].
  destruct (bitRange x 3) eqn:H3; [exact (sized_rt 3 x r ltac:(lia) H3)|].
  destruct (bitRange x 6) eqn:H6; [exact (sized_rt 6 x r ltac:(lia) H6)|].
  destruct (bitRange x 9) eqn:H9; [exact (sized_rt 9 x r ltac:(lia) H9)|].
  destruct (bitRange x 12) eqn:H12; [exact (sized_rt 12 x r ltac:(lia) H12)|].
  destruct (bitRange x 18) eqn:H18; [exact (sized_rt 18 x r ltac:(lia) H18)|].
  destruct (bitRange x 25) eqn:H25; [exact (sized_rt 25 x r ltac:(lia) H25)|].
  destruct (bitRange x 56) eqn:H56; [exact (sized_rt 56 x r ltac:(lia) H56)|].
  unfold get_varbit. cbn [app read_ones Z.eqb Z.add Pos.add Pos.succ].
  rewrite get_put_mod, W64_mod64 by exact Hx. reflexivity.
Qed.

(* ---- values ------------------------------------------------------------------------------------- *)

Definition newbase (base v : Z) : Z := if is_stale v then base else v.

(* what a value decoder returns: value, baseline, window *)
Definition x2it_with (it : x2it) (base l t : Z) : Prop := j_base it = base /\ j_lead it = l /\ j_trail it = t.

Lemma newbase_u64 base v : is_u64 base -> is_u64 v -> is_u64 (newbase base v).
Proof. intros. unfold newbase. destruct (is_stale v); assumption. Qed.

Lemma is_stale_true v : is_stale v = true -> v = staleNaN.
Proof. unfold is_stale. apply Z.eqb_eq. Qed.

(* What the simulation keeps about the two windows: related, the iterator's well formed, and an
   iterator facing an appender that has no window yet still has its initial one (so that two
   iterators related to the same appender hold the same window: resume_ok2). *)
Definition win_ok (al at_ il it_ : Z) : Prop :=
  win_rel al at_ il it_ /\ wf_window il it_ /\ (al = 255 -> il = 0 /\ it_ = 0).

Lemma win_ok_new l t : wf_window l t -> win_ok l t l t.
Proof.
  intros H. split; [right; split; reflexivity|]. split; [exact H|]. destruct H as [H _]. lia.
Qed.

(* the window chosen for a value that differs from the baseline, read by XOR2's two window readers *)
Lemma x2_window_rt it v lead trail reuse l t :
  is_u64 (j_base it) -> is_u64 v -> v <> j_base it -> win_ok lead trail (j_lead it) (j_trail it) ->
  x2_window (Z.lxor v (j_base it)) lead trail = (reuse, l, t) ->
  win_ok l t l t /\
  forall r, (if reuse then x2_read_reuse it else x2_read_new it)
              (x2_window_bits reuse (Z.lxor v (j_base it)) l t ++ r) = Some (v, l, t, r).
Proof.
  intros Hb Hv Hne (Hrel & Hwf & _) Hwin.
  destruct (window_rt (j_base it) v _ _ _ _ _ _ _ Hv Hb Hne Hrel Hwf Hwin) as [Hw Hrd].
  split; [exact (win_ok_new l t Hw)|]. destruct reuse; exact Hrd.
Qed.

(* writeVDeltaKnownNonZero / decodeValueKnownNonZero *)
Lemma x2_vdelta_nz_rt it v lead trail b l tr :
  is_u64 (j_base it) -> is_u64 v -> v <> j_base it -> win_ok lead trail (j_lead it) (j_trail it) ->
  x2_write_vdelta_nz (Z.lxor v (j_base it)) lead trail = (b, l, tr) ->
  win_ok l tr l tr /\ forall r, x2_decode_value_nz it (b ++ r) = Some (v, v, l, tr, r).
Proof.
  intros Hb Hv Hne Hok Hw. unfold x2_write_vdelta_nz in Hw.
  destruct (x2_window (Z.lxor v (j_base it)) lead trail) as [[reuse l0] t0] eqn:Hwin.
  injection Hw as <- <- <-.
  destruct (x2_window_rt it v _ _ _ _ _ Hb Hv Hne Hok Hwin) as [Hok' Hrd].
  split; [exact Hok'|]. intros r. unfold x2_decode_value_nz.
  destruct reuse; cbn [app get_bit]; rewrite Hrd; reflexivity.
Qed.

(* writeVDelta / decodeValue *)
Lemma x2_vdelta_rt it v lead trail vb l tr :
  is_u64 (j_base it) -> is_u64 v -> win_ok lead trail (j_lead it) (j_trail it) ->
  x2_write_vdelta (j_base it) v lead trail = (vb, l, tr) ->
  exists l' t', win_ok l tr l' t' /\
    forall r, x2_decode_value it (vb ++ r) = Some (v, newbase (j_base it) v, l', t', r).
Proof.
  intros Hb Hv Hok Hw. unfold x2_write_vdelta in Hw. rewrite lxor_eqb in Hw. unfold newbase.
  destruct (is_stale v) eqn:Hst.
  { apply is_stale_true in Hst. injection Hw as <- <- <-. subst v.
    exists (j_lead it), (j_trail it). split; [exact Hok|]. intros r. reflexivity. }
  destruct (Z.eqb_spec v (j_base it)) as [->|Hne].
  { injection Hw as <- <- <-. exists (j_lead it), (j_trail it). split; [exact Hok|]. intros r. reflexivity. }
  destruct (x2_window (Z.lxor v (j_base it)) lead trail) as [[reuse l0] t0] eqn:Hwin.
  injection Hw as <- <- <-.
  destruct (x2_window_rt it v _ _ _ _ _ Hb Hv Hne Hok Hwin) as [Hok' Hrd].
  exists l0, t0. split; [exact Hok'|]. intros r. unfold x2_decode_value.
  destruct reuse; cbn [app get_bit]; rewrite Hrd; reflexivity.
Qed.

(* ---- the joint timestamp/value encoding of samples >= 2 ----------------------------------------- *)

(* readDod's sign rule: a w-bit two's complement field, or the whole word for w = 64 *)
Lemma dod_sign_rt w d :
  1 <= w <= 64 -> (w < 64 -> - 2 ^ (w - 1) <= d < 2 ^ (w - 1)) -> int64 d ->
  W64 (if (w <? 64) && (2 ^ (w - 1) <=? d mod 2 ^ w) then U64 (d mod 2 ^ w - 2 ^ w) else d mod 2 ^ w) = d.
Proof.
  intros Hw Hr Hd. destruct (Z.ltb_spec w 64) as [Hlt|Hge]; cbn [andb].
  - specialize (Hr Hlt).
    replace (2 ^ w) with (2 * 2 ^ (w - 1)) by (rewrite <- Z.pow_succ_r by lia; f_equal; lia).
    set (p := 2 ^ (w - 1)) in *. rewrite mod_signed by lia.
    destruct (Z.ltb_spec d 0).
    + destruct (Z.leb_spec p (d + 2 * p)); [|lia].
      replace (d + 2 * p - 2 * p) with d by ring. apply W64_U64, Hd.
    + destruct (Z.leb_spec p d); [lia|]. apply W64_id, Hd.
  - replace w with 64 by lia. apply W64_mod64, Hd.
Qed.

Lemma x2_read_dod_rt (n : nat) w it dod r :
  w = Z.of_nat n -> 1 <= w <= 64 -> (w < 64 -> - 2 ^ (w - 1) <= dod < 2 ^ (w - 1)) -> int64 dod ->
  x2_read_dod w it (put_bits n dod ++ r) =
  Some (U64 (W64 (j_tDelta it) + dod), W64 (j_t it + W64 (U64 (W64 (j_tDelta it) + dod))), r).
Proof.
  intros -> Hn Hr Hd. unfold x2_read_dod. rewrite Nat2Z.id, get_put_mod, dod_sign_rt by assumption.
  reflexivity.
Qed.

Lemma x2_joint_rt it v lead trail t jb l tr :
  int64 t -> is_u64 (j_tDelta it) -> is_u64 (j_base it) -> is_u64 v ->
  win_ok lead trail (j_lead it) (j_trail it) ->
  x2_encode_joint (W64 (U64 (t - j_t it) - j_tDelta it)) (j_base it) v lead trail = (jb, l, tr) ->
  exists l' t', win_ok l tr l' t' /\
    forall r, x2_read_joint it (jb ++ r)
              = Some (U64 (t - j_t it), t, v, newbase (j_base it) v, l', t', r).
Proof.
  intros Ht Htd Hb Hv Hok Hj.
  set (tD := U64 (t - j_t it)) in *. set (dod := W64 (tD - j_tDelta it)) in *.
  assert (Hrt : U64 (W64 (j_tDelta it) + dod) = tD) by apply dod_rt, U64_range.
  assert (Htt : W64 (j_t it + W64 tD) = t) by apply ts_delta_rt, Ht.
  assert (Hdod : int64 dod) by apply W64_range.
  clearbody dod tD. unfold x2_encode_joint in Hj.
  destruct (Z.eqb_spec dod 0) as [H0|Hn0].
  { (* dod = 0: the timestamp delta repeats *)
    assert (HtD0 : j_tDelta it = tD) by (rewrite <- Hrt, H0, Z.add_0_r, U64_W64 by exact Htd; reflexivity).
    unfold newbase.
    destruct (is_stale v) eqn:Hst.
    { apply is_stale_true in Hst. injection Hj as <- <- <-. subst v.
      exists (j_lead it), (j_trail it). split; [exact Hok|]. intros r.
      unfold x2_read_joint. cbn [app read_ones Z.eqb Pos.eqb Z.add Pos.add Pos.succ]. rewrite HtD0, Htt. reflexivity. }
    rewrite lxor_eqb in Hj. destruct (Z.eqb_spec v (j_base it)) as [->|Hne].
    { injection Hj as <- <- <-. exists (j_lead it), (j_trail it). split; [exact Hok|]. intros r.
      unfold x2_read_joint. cbn [app read_ones Z.eqb]. rewrite HtD0, Htt. reflexivity. }
    destruct (x2_write_vdelta_nz (Z.lxor v (j_base it)) lead trail) as [[b l0] t0] eqn:Hw.
    injection Hj as <- <- <-.
    destruct (x2_vdelta_nz_rt it v lead trail b l0 t0 Hb Hv Hne Hok Hw) as [Hok' Hrd].
    exists l0, t0. split; [exact Hok'|]. intros r.
    unfold x2_read_joint. cbn [app read_ones Z.eqb Pos.eqb Z.add Pos.add Pos.succ]. rewrite Hrd, HtD0, Htt. reflexivity. }
  (* dod <> 0: a sized delta-of-delta, then the value *)
  cbv zeta in Hj.
  set (tb := if (-4096 <=? dod) && (dod <=? 4095) then _ else _) in Hj.
  assert (Hvalue : exists vb l' t', jb = tb ++ vb /\ win_ok l tr l' t' /\
    forall r, x2_decode_value it (vb ++ r) = Some (v, newbase (j_base it) v, l', t', r)).
  { destruct (Z.eqb_spec v (j_base it)) as [->|Hne].
    - injection Hj as <- <- <-. exists [false], (j_lead it), (j_trail it).
      split; [reflexivity|]. split; [exact Hok|]. intros r.
      unfold x2_decode_value, newbase. cbn [app get_bit]. destruct (is_stale (j_base it)); reflexivity.
    - destruct (x2_write_vdelta (j_base it) v lead trail) as [[vb l0] t0] eqn:Hw.
      injection Hj as <- <- <-.
      destruct (x2_vdelta_rt it v lead trail vb l0 t0 Hb Hv Hok Hw) as (l' & t' & Hok' & Hrd).
      exists vb, l', t'. split; [reflexivity|]. split; assumption. }
  destruct Hvalue as (vb & l' & t' & -> & Hok' & Hvrd). exists l', t'. split; [exact Hok'|].
  intros r. subst tb.
  destruct ((-4096 <=? dod) && (dod <=? 4095)) eqn:H13.
  { apply andb_true_iff in H13 as [Ha Hb']. apply Z.leb_le in Ha, Hb'.
    unfold x2_read_joint. cbn [app read_ones Z.eqb Pos.eqb Z.add Pos.add Pos.succ]. rewrite <- app_assoc.
    rewrite (x2_read_dod_rt 13 13) by (try assumption; try reflexivity; change (2 ^ (13 - 1)) with 4096; lia).
    rewrite Hrt, Htt, Hvrd. reflexivity. }
  destruct ((-524288 <=? dod) && (dod <=? 524287)) eqn:H20.
  { apply andb_true_iff in H20 as [Ha Hb']. apply Z.leb_le in Ha, Hb'.
    unfold x2_read_joint. cbn [app read_ones Z.eqb Pos.eqb Z.add Pos.add Pos.succ]. rewrite <- app_assoc.
    rewrite (x2_read_dod_rt 20 20) by (try assumption; try reflexivity; change (2 ^ (20 - 1)) with 524288; lia).
    rewrite Hrt, Htt, Hvrd. reflexivity. }
  unfold x2_read_joint. cbn [app read_ones Z.eqb Pos.eqb Z.add Pos.add Pos.succ]. rewrite <- app_assoc.
  rewrite (x2_read_dod_rt 64 64) by (try assumption; try reflexivity; lia).
  rewrite Hrt, Htt, Hvrd. reflexivity.
Qed.

(* ---- the ST header: appender-side invariants ---------------------------------------------------- *)

Lemma lor128 n : 0 <= n < 128 -> Z.lor 128 n = 128 + n.
Proof.
  intros H. assert (Hl : Z.land 128 n = 0).
  { (* n lies under the mask 127, which misses bit 7, the only bit of 128 *)
    rewrite <- (Z.mod_small n (2 ^ 7)), <- Z.land_ones, (Z.land_comm n), Z.land_assoc by lia.
    reflexivity. }
  rewrite Z.add_nocarry_lxor, Z.lxor_lor by exact Hl. reflexivity.
Qed.

Definition hdr_of (a : x2app) : Z := (if b_fsk a then 128 else 0) + b_fsco a.

Definition HdrInv (a : x2app) (hdr : Z) : Prop :=
  hdr = hdr_of a /\ 0 <= b_fsco a <= 127 /\ (b_fsco a = 0 -> b_num a <= 127) /\
  (0 < b_fsco a -> b_fsco a < b_num a) /\ (b_num a = 0 -> b_fsk a = false) /\ 0 <= b_num a.

(* what the final header can still become, seen from an intermediate appender state *)
Definition Fut (a aF : x2app) : Prop :=
  b_num a <= b_num aF /\ (1 <= b_num a -> b_fsk aF = b_fsk a) /\
  (0 < b_fsco a -> b_fsco aF = b_fsco a) /\
  (b_fsco a = 0 -> b_fsco aF = 0 \/ b_num a <= b_fsco aF).

Lemma Fut_refl a : Fut a a.
Proof. unfold Fut. repeat split; try lia; auto. Qed.

Lemma Fut_trans a b c : Fut a b -> Fut b c -> 0 <= b_fsco b -> Fut a c.
Proof.
  intros [A1 [A2 [A3 A4]]] [B1 [B2 [B3 B4]]] Hb. unfold Fut.
  split; [lia|]. split; [|split].
  - intros H. rewrite B2 by lia. apply A2. exact H.
  - intros H. rewrite B3 by (rewrite A3; lia). apply A3. exact H.
  - intros H. destruct (A4 H) as [E|E].
    + destruct (B4 E) as [F|F]; [left; exact F|right; lia].
    + destruct (Z.eq_dec (b_fsco b) 0) as [Z0|NZ].
      * destruct (B4 Z0) as [F|F]; [left; exact F|right; lia].
      * right. rewrite B3 by lia. exact E.
Qed.

(* ---- the ST part of a sample ------------------------------------------------------------------ *)

(* What x2_append adds for the start timestamp of sample >= 1, after the timestamp/value bits:
   the emitted bits, the new stDiff, the new firstSTChangeOn and the new header byte.  (model/Xor.v:
   the three paths of samples >= 2 "differ in the ST part"; sample 1 takes the first or the last
   of them, and resets stDiff, which is 0 there anyway.) *)
Definition x2_st_part (a : x2app) (hdr st : Z) : bits * Z * Z * Z :=
  if (b_fsco a =? 0) && (st =? b_st a) && negb (b_num a =? 127) then
    ([], (if b_num a =? 1 then 0 else b_stDiff a), b_fsco a, hdr)
  else if 0 <? b_fsco a then
    (put_varbit (W64 (W64 (b_t a - st) - b_stDiff a)), W64 (b_t a - st), b_fsco a, hdr)
  else (put_varbit (W64 (b_t a - st)), W64 (b_t a - st), b_num a, set_fsco_hdr hdr (b_num a)).

(* The timestamp/value bits of sample >= 1 and the new window: sample 1 writes the timestamp delta
   as a uvarint and the value by writeVDelta, later samples the joint encoding; and their reader. *)
Definition x2_tv_part (a : x2app) (t v : Z) : bits * Z * Z :=
  if b_num a =? 1 then
    let '(vb, l, tr) := x2_write_vdelta (b_v a) v (b_lead a) (b_trail a) in
    (bytes_bits (put_uvarint (U64 (t - b_t a))) ++ vb, l, tr)
  else x2_encode_joint (W64 (U64 (t - b_t a) - b_tDelta a)) (b_v a) v (b_lead a) (b_trail a).

Definition x2_read_tv (it : x2it) (bs : bits) : option (Z * Z * Z * Z * Z * Z * bits) :=
  if j_num it =? 1 then
    match get_uvarint false bs with
    | None => None
    | Some (tD, r) =>
        match x2_decode_value it r with
        | None => None
        | Some (v, base, l, tr, r2) => Some (tD, W64 (j_t it + W64 tD), v, base, l, tr, r2)
        end
    end
  else x2_read_joint it bs.

(* past sample 0 x2_append writes the timestamp/value part, then the ST part *)
Lemma x2_append_ge1 a hdr st t v :
  1 <= b_num a -> b_num a <> 65535 -> (b_num a = 1 -> b_fsco a = 0) ->
  x2_append a hdr st t v =
  let '(tvb, l, tr) := x2_tv_part a t v in
  let '(stb, sd, fsco, hdr') := x2_st_part a hdr st in
  Some (tvb ++ stb,
        mkA2 st t (newbase (b_v a) v) (U64 (t - b_t a)) sd l tr (b_num a + 1) fsco (b_fsk a), hdr').
Proof.
  intros H1 H2 Hf. unfold x2_append, x2_tv_part, x2_st_part, newbase.
  destruct (Z.eqb_spec (b_num a) 0); [lia|]. destruct (Z.eqb_spec (b_num a) 1) as [E1|N1].
  - rewrite E1, (Hf E1).
    destruct (x2_write_vdelta (b_v a) v (b_lead a) (b_trail a)) as [[vb l] tr].
    destruct (st =? b_st a); cbn [Z.eqb Pos.eqb andb negb Z.ltb Z.compare Z.add Pos.add];
      rewrite <- ?app_assoc, ?app_nil_r; reflexivity.
  - destruct (Z.eqb_spec (b_num a) 65535); [contradiction|].
    destruct (x2_encode_joint _ (b_v a) v (b_lead a) (b_trail a)) as [[jb l] tr].
    destruct ((b_fsco a =? 0) && (st =? b_st a) && negb (b_num a =? 127)) eqn:E.
    + apply andb_true_iff in E as [E _]. apply andb_true_iff in E as [_ E]. apply Z.eqb_eq in E.
      rewrite app_nil_r, E. reflexivity.
    + destruct (0 <? b_fsco a); reflexivity.
Qed.

Lemma x2_append_0 a hdr st t v : b_num a = 0 ->
  x2_append a hdr st t v =
  Some (bytes_bits (put_varint t) ++ put_bits 64 v ++
          (if st =? 0 then [] else bytes_bits (put_varint (W64 (t - st)))),
        mkA2 st t (newbase (b_v a) v) 0 0 (b_lead a) (b_trail a) 1 (b_fsco a) (if st =? 0 then b_fsk a else true),
        if st =? 0 then hdr else 128).
Proof. intros H. unfold x2_append. rewrite H. reflexivity. Qed.

Lemma x2_capacity a hdr st t v : b_num a = 65535 -> x2_append a hdr st t v = None.
Proof. intros H. unfold x2_append. rewrite H. reflexivity. Qed.

(* the header invariant and the future relation only look at num, firstSTKnown, firstSTChangeOn *)
Lemma x2_st_hdr a hdr st stb sd fsco hdr' a' :
  HdrInv a hdr -> 1 <= b_num a -> x2_st_part a hdr st = (stb, sd, fsco, hdr') ->
  b_num a' = b_num a + 1 -> b_fsco a' = fsco -> b_fsk a' = b_fsk a ->
  HdrInv a' hdr' /\ Fut a a'.
Proof.
  intros (Hh & Hf & Hf0 & Hf1 & Hk0 & Hn0) Hn Hst En Ef Ek.
  unfold HdrInv, Fut, hdr_of. rewrite En, Ek. unfold x2_st_part in Hst.
  destruct ((b_fsco a =? 0) && (st =? b_st a) && negb (b_num a =? 127)) eqn:HA.
  { apply andb_true_iff in HA as [HA HA3]. apply andb_true_iff in HA as [HA1 _].
    apply Z.eqb_eq in HA1. apply negb_true_iff, Z.eqb_neq in HA3.
    injection Hst as _ _ <- <-. rewrite Ef. specialize (Hf0 HA1).
    repeat split; try assumption; try lia; auto. }
  destruct (Z.ltb_spec 0 (b_fsco a)) as [HB|HC].
  { injection Hst as _ _ <- <-. rewrite Ef. repeat split; try assumption; try lia; auto. }
  (* first ST change: firstSTChangeOn := num <= 127, also stored in the header byte *)
  assert (Hfs : b_fsco a = 0) by lia. specialize (Hf0 Hfs).
  injection Hst as _ _ <- <-. rewrite Ef. unfold set_fsco_hdr.
  destruct (Z.leb_spec (b_num a) 127); [|lia].
  assert (Hh' : Z.lor hdr (b_num a) = (if b_fsk a then 128 else 0) + b_num a).
  { rewrite Hh. unfold hdr_of. rewrite Hfs, Z.add_0_r.
    destruct (b_fsk a); [apply lor128; lia | apply Z.lor_0_l]. }
  repeat split; try assumption; try lia; auto.
Qed.

Lemma x2_append_hdr a hdr st t v b a' hdr' :
  HdrInv a hdr -> x2_append a hdr st t v = Some (b, a', hdr') ->
  HdrInv a' hdr' /\ Fut a a' /\ b_num a' = b_num a + 1.
Proof.
  intros HH Happ. pose proof HH as (Hh & Hf & Hf0 & Hf1 & Hk0 & Hn0).
  destruct (Z.eq_dec (b_num a) 0) as [E0|N0].
  { (* sample 0: firstSTKnown is decided here *)
    rewrite x2_append_0 in Happ by exact E0. injection Happ as _ <- <-.
    assert (Hfs : b_fsco a = 0) by lia. specialize (Hk0 E0).
    unfold HdrInv, Fut, hdr_of in *. cbn. rewrite Hk0, Hfs, E0 in *.
    destruct (st =? 0); cbn; repeat split; try lia; auto. }
  destruct (Z.eq_dec (b_num a) 65535) as [E2|N2].
  { rewrite x2_capacity in Happ by exact E2. discriminate. }
  assert (H1 : 1 <= b_num a) by lia. rewrite x2_append_ge1 in Happ by lia.
  destruct (x2_tv_part a t v) as [[tvb l] tr].
  destruct (x2_st_part a hdr st) as [[[stb sd] fsco] hdr''] eqn:Hst. injection Happ as _ <- <-.
  pose proof (fun a' => x2_st_hdr a hdr st stb sd fsco hdr'' a' HH H1 Hst) as P.
  split; [apply P; reflexivity|]. split; [apply P; reflexivity | reflexivity].
Qed.

Definition wf_sample2 (s : sample) : Prop := int64 (s_st s) /\ int64 (s_t s) /\ is_u64 (s_v s).

Definition wf_it2 (it : x2it) : Prop :=
  int64 (j_st it) /\ int64 (j_t it) /\ is_u64 (j_base it) /\ is_u64 (j_tDelta it) /\ int64 (j_stDiff it) /\
  wf_window (j_lead it) (j_trail it).

(* simulation relation: appender [a] on a chunk with b_num a samples, iterator [it] that has read
   exactly those samples but was created over the FINAL chunk, i.e. knows the final header
   (the header of the final appender state aF) *)
Definition Inv2 (aF a : x2app) (it : x2it) : Prop :=
  j_num it = b_num a /\ b_st a = j_st it /\ (1 <= b_num a -> b_t a = j_t it) /\ b_v a = j_base it /\
  b_tDelta a = j_tDelta it /\ b_stDiff a = j_stDiff it /\
  win_rel (b_lead a) (b_trail a) (j_lead it) (j_trail it) /\ wf_it2 it /\
  j_fsk it = b_fsk aF /\ j_fsco it = b_fsco aF /\
  (b_num a = 0 -> j_tDelta it = 0 /\ j_st it = 0) /\ (b_num a <= 1 -> j_stDiff it = 0) /\
  (b_lead a = 255 -> j_lead it = 0 /\ j_trail it = 0).

Lemma Inv2_win aF a it : Inv2 aF a it -> win_ok (b_lead a) (b_trail a) (j_lead it) (j_trail it).
Proof. intros (_ & _ & _ & _ & _ & _ & Hw & (_ & _ & _ & _ & _ & Hwf) & _ & _ & _ & _ & H255). exact (conj Hw (conj Hwf H255)). Qed.

(* the relation between an appender and an iterator that hold the same fields, past sample 0 *)
Lemma Inv2_mk aF n st t base tD sd al at_ il it_ fsco fsk v :
  1 <= n -> int64 st -> int64 t -> is_u64 base -> is_u64 tD -> int64 sd ->
  win_ok al at_ il it_ -> (n <= 1 -> sd = 0) ->
  Inv2 aF (mkA2 st t base tD sd al at_ n fsco fsk) (mkI2 n (b_fsk aF) (b_fsco aF) il it_ st t v tD sd base).
Proof.
  intros Hn Hst Ht Hb Htd Hsd (Hrel & Hwf & H255) Hsd0. unfold Inv2, wf_it2. cbn.
  do 2 (split; [reflexivity|]). split; [reflexivity|]. do 3 (split; [reflexivity|]). split; [exact Hrel|].
  split; [exact (conj Hst (conj Ht (conj Hb (conj Htd (conj Hsd Hwf)))))|]. do 2 (split; [reflexivity|]).
  split; [lia|]. split; [exact Hsd0 | exact H255].
Qed.

(* reading back the ST part of sample >= 1 *)
Lemma x2_st_rt aF a hdr it st stb sd fsco hdr' :
  Inv2 aF a it -> HdrInv a hdr -> 1 <= b_num a -> int64 st ->
  x2_st_part a hdr st = (stb, sd, fsco, hdr') ->
  (0 < fsco -> b_fsco aF = fsco) -> (fsco = 0 -> b_fsco aF = 0 \/ b_num a + 1 <= b_fsco aF) ->
  int64 sd /\ forall r, x2_read_st it (j_t it) (stb ++ r) = Some (st, sd, r).
Proof.
  intros (Hnum & Hst & Ht & _ & _ & Hsd & _ & (Wst & Wt & _ & _ & Wsd & _) & _ & Hfc & _ & Hz1 & _)
         (_ & Hf & _ & Hf1 & _) Hn Hst64 Hp F3 F4.
  specialize (Ht Hn). unfold x2_read_st. rewrite Hnum, Hfc. unfold x2_st_part in Hp.
  destruct ((b_fsco a =? 0) && (st =? b_st a) && negb (b_num a =? 127)) eqn:HA.
  { (* no ST data: the final firstSTChangeOn, if any, lies ahead *)
    apply andb_true_iff in HA as [HA _]. apply andb_true_iff in HA as [HA1 HA2]. apply Z.eqb_eq in HA1, HA2.
    injection Hp as <- <- <- _. specialize (F4 HA1).
    assert (Hsd' : (if b_num a =? 1 then 0 else b_stDiff a) = j_stDiff it)
      by (destruct (Z.eqb_spec (b_num a) 1); [symmetry; apply Hz1; lia | exact Hsd]).
    rewrite Hsd', HA2, Hst. split; [exact Wsd|]. intros r.
    destruct (Z.ltb_spec 0 (b_fsco aF)); [|reflexivity]. destruct (Z.leb_spec (b_fsco aF) (b_num a)); [lia|reflexivity]. }
  destruct (Z.ltb_spec 0 (b_fsco a)) as [HB|HC]; injection Hp as <- <- <- _.
  { (* the change of prevT - st *)
    rewrite (F3 HB). specialize (Hf1 HB). split; [apply W64_range|]. intros r.
    destruct (Z.ltb_spec 0 (b_fsco a)); [|lia]. destruct (Z.leb_spec (b_fsco a) (b_num a)); [|lia]. cbn [andb].
    rewrite varbit_rt by apply W64_range. destruct (Z.eqb_spec (b_num a) (b_fsco a)); [lia|].
    rewrite <- Hsd, stdiff_rt, <- Ht, st_rt by (assumption || apply W64_range). reflexivity. }
  (* the first ST change: prevT - st itself *)
  rewrite (F3 ltac:(lia)). split; [apply W64_range|]. intros r.
  destruct (Z.ltb_spec 0 (b_num a)); [|lia]. rewrite Z.leb_refl, Z.eqb_refl. cbn [andb].
  rewrite varbit_rt, <- Ht, st_rt by (assumption || apply W64_range). reflexivity.
Qed.

Lemma x2_next_nil it : x2_next it [] = None.
Proof. unfold x2_next. destruct (j_num it =? 0), (j_num it =? 1); reflexivity. Qed.

(* past sample 0 x2_next reads the timestamp/value part, then the ST part; at sample 1 the ST
   part is read by the same rule as later (x2_read_st with numRead = 1) *)
Lemma x2_next_ge1 it bs : j_num it <> 0 -> x2_next it bs =
  match x2_read_tv it bs with
  | None => None
  | Some (tD, t, v, base, l, tr, r2) =>
      match x2_read_st it (j_t it) r2 with
      | None => None
      | Some (st, sd, r3) => Some (mkI2 (j_num it + 1) (j_fsk it) (j_fsco it) l tr st t v tD sd base, r3)
      end
  end.
Proof.
  intros H0. unfold x2_next, x2_read_tv.
  destruct (Z.eqb_spec (j_num it) 0); [contradiction|].
  destruct (Z.eqb_spec (j_num it) 1) as [E1|]; [|reflexivity].
  unfold x2_read_st. rewrite E1. cbn [Z.add Pos.add].
  destruct (get_uvarint false bs) as [[tD r]|]; [|reflexivity].
  destruct (x2_decode_value it r) as [[[[[v base] l] tr] r2]|]; [|reflexivity].
  destruct (Z.eqb_spec (j_fsco it) 1) as [->|Hne]; [destruct (get_varbit r2) as [[sdod r3]|]; reflexivity|].
  destruct (Z.ltb_spec 0 (j_fsco it)), (Z.leb_spec (j_fsco it) 1); try lia; reflexivity.
Qed.

Lemma x2_tv_rt aF a it t v tvb l tr :
  Inv2 aF a it -> 1 <= b_num a -> int64 t -> is_u64 v -> x2_tv_part a t v = (tvb, l, tr) ->
  exists l' t', win_ok l tr l' t' /\
    forall r, x2_read_tv it (tvb ++ r) = Some (U64 (t - j_t it), t, v, newbase (j_base it) v, l', t', r).
Proof.
  intros HI H1 Ht64 Hv64 Htv. pose proof (Inv2_win _ _ _ HI) as Hok.
  destruct HI as (Hnum & _ & Ht & Hv & Htd & _ & _ & (_ & _ & Wb & Wtd & _) & _).
  unfold x2_tv_part in Htv. unfold x2_read_tv. rewrite Hnum. rewrite (Ht H1), Hv, Htd in Htv.
  destruct (b_num a =? 1).
  - destruct (x2_write_vdelta (j_base it) v (b_lead a) (b_trail a)) as [[vb l0] t0] eqn:Hw.
    injection Htv as <- <- <-.
    destruct (x2_vdelta_rt it v _ _ vb l0 t0 Wb Hv64 Hok Hw) as (l' & t' & Hok' & Hrd).
    exists l', t'. split; [exact Hok'|]. intros r.
    rewrite <- app_assoc, uvarint_rt, Hrd, ts_delta_rt by (assumption || apply U64_range). reflexivity.
  - exact (x2_joint_rt it v _ _ t tvb l tr Ht64 Wtd Wb Hv64 Hok Htv).
Qed.

Lemma x2_step aF a hdr it st t v b a' hdr' :
  Inv2 aF a it -> HdrInv a hdr -> int64 st -> int64 t -> is_u64 v ->
  x2_append a hdr st t v = Some (b, a', hdr') -> Fut a' aF ->
  exists it', (forall r, x2_next it (b ++ r) = Some (it', r)) /\ Inv2 aF a' it' /\
              j_st it' = st /\ j_t it' = t /\ j_v it' = v /\ b <> [].
Proof.
  intros HI HH Hst64 Ht64 Hv64 Happ HF.
  (* an iterator that reads b consumes something: b is not empty *)
  enough (exists it', (forall r, x2_next it (b ++ r) = Some (it', r)) /\ Inv2 aF a' it' /\
                      j_st it' = st /\ j_t it' = t /\ j_v it' = v) as (it' & Hnx & H).
  { exists it'. split; [exact Hnx|]. repeat (split; [apply H|]).
    intros ->. specialize (Hnx []). rewrite x2_next_nil in Hnx. discriminate. }
  pose proof (Inv2_win _ _ _ HI) as Hok.
  pose proof HI as (Hnum & _ & Ht & Hv & _ & _ & _ & (_ & _ & Wb & _) & Hfk & Hfc & Hz0 & Hz1 & _).
  pose proof HH as (_ & Hf & _ & Hf1 & Hk0 & Hn0).
  destruct (Z.eq_dec (b_num a) 0) as [E0|N0].
  { (* sample 0: varint timestamp, 64 value bits, and prevT - st as a varint iff st <> 0, which
       is what the final header's firstSTKnown says *)
    destruct (Hz0 E0) as [Htd0 Hst0].
    rewrite x2_append_0 in Happ by exact E0. injection Happ as <- <- <-.
    destruct HF as (_ & F2 & _). cbn in F2. specialize (F2 ltac:(lia)). rewrite (Hk0 E0) in F2.
    exists (mkI2 1 (b_fsk aF) (b_fsco aF) (j_lead it) (j_trail it) st t v 0 0 (newbase (j_base it) v)).
    split; [|split; [|repeat split]].
    - intros r. unfold x2_next. rewrite Hnum, E0. cbn [Z.eqb]. rewrite Hfk, Hfc, F2, Htd0, (Hz1 ltac:(lia)), Hst0.
      rewrite <- app_assoc, varint_rt, <- app_assoc, get_put by assumption.
      destruct (Z.eqb_spec st 0) as [->|Hne]; [reflexivity|].
      rewrite varint_rt, st_rt by (assumption || apply W64_range). reflexivity.
    - rewrite Hv. apply Inv2_mk; try assumption; try lia; try reflexivity;
        [apply newbase_u64; assumption | unfold is_u64; lia | rewrite int64_unfold; lia]. }
  (* later samples: the timestamp/value part, then the ST part *)
  destruct (Z.eq_dec (b_num a) 65535) as [E2|N2].
  { rewrite x2_capacity in Happ by exact E2. discriminate. }
  assert (H1 : 1 <= b_num a) by lia. rewrite x2_append_ge1 in Happ by lia.
  destruct (x2_tv_part a t v) as [[tvb l] tr] eqn:Htv.
  destruct (x2_st_part a hdr st) as [[[stb sd] fsco] hdr''] eqn:Hp. injection Happ as <- <- <-.
  destruct (x2_tv_rt aF a it t v tvb l tr HI H1 Ht64 Hv64 Htv) as (l' & t' & Hok' & Htvrd).
  destruct HF as (_ & _ & F3 & F4). cbn in F3, F4.
  destruct (x2_st_rt aF a hdr it st stb sd fsco hdr'' HI HH H1 Hst64 Hp F3 F4) as [Hsd Hstrd].
  exists (mkI2 (b_num a + 1) (b_fsk aF) (b_fsco aF) l' t' st t v (U64 (t - j_t it)) sd (newbase (j_base it) v)).
  split; [|split; [|repeat split]].
  - intros r. rewrite x2_next_ge1, <- app_assoc, Htvrd, Hstrd, Hnum, Hfk, Hfc by lia. reflexivity.
  - rewrite (Ht H1), Hv.
    apply Inv2_mk; try assumption; try lia; [apply newbase_u64; assumption | apply U64_range].
Qed.

(* ---- runs of appends against runs of Next (XOR2) ------------------------------------------------- *)

Lemma HdrInv_fsco a hdr : HdrInv a hdr -> 0 <= b_fsco a <= 127.
Proof. intros H. apply H. Qed.

Lemma x2_append_all_hdr : forall ss a hdr bs aF hdrF,
  HdrInv a hdr -> x2_append_all a hdr ss = Some (bs, aF, hdrF) ->
  HdrInv aF hdrF /\ Fut a aF /\ b_num aF = b_num a + Z.of_nat (length ss).
Proof.
  induction ss as [|s ss IH]; intros a hdr bs aF hdrF HH Hall.
  - injection Hall as _ <- <-. split; [exact HH|]. split; [apply Fut_refl|]. cbn. lia.
  - cbn [x2_append_all] in Hall.
    destruct (x2_append a hdr (s_st s) (s_t s) (s_v s)) as [[[b a'] hdr']|] eqn:Happ; [|discriminate].
    destruct (x2_append_all a' hdr' ss) as [[[b2 a2] hdr2]|] eqn:Hrest; [|discriminate].
    injection Hall as _ <- <-.
    destruct (x2_append_hdr _ _ _ _ _ _ _ _ HH Happ) as (HH' & HF1 & Hn1).
    destruct (IH _ _ _ _ _ HH' Hrest) as (HH2 & HF2 & Hn2).
    split; [exact HH2|]. split.
    + eapply Fut_trans; [exact HF1|exact HF2|]. apply (HdrInv_fsco _ _ HH').
    + cbn [length]. lia.
Qed.

Lemma sample_eta s : mkS (s_st s) (s_t s) (s_v s) = s.
Proof. destruct s. reflexivity. Qed.

Lemma x2_run_rt : forall ss a hdr it bs aF hdrF aEnd,
  Inv2 aEnd a it -> HdrInv a hdr -> Forall wf_sample2 ss ->
  x2_append_all a hdr ss = Some (bs, aF, hdrF) -> Fut aF aEnd ->
  exists it2, (forall r, x2_iter (length ss) it (bs ++ r) = (ss, Some (it2, r))) /\ Inv2 aEnd aF it2 /\
              (ss <> [] -> bs <> []).
Proof.
  induction ss as [|s ss IH]; intros a hdr it bs aF hdrF aEnd HI HH Hwf Hall HFut.
  - injection Hall as <- <- _. exists it. split; [intros r; reflexivity|]. split; [exact HI|auto].
  - cbn [x2_append_all] in Hall.
    destruct (x2_append a hdr (s_st s) (s_t s) (s_v s)) as [[[b a'] hdr']|] eqn:Happ; [|discriminate].
    destruct (x2_append_all a' hdr' ss) as [[[b2 a2] hdr2]|] eqn:Hrest; [|discriminate].
    injection Hall as <- <- <-.
    inversion Hwf as [|? ? (Hs1 & Hs2 & Hs3) Hwf']; subst.
    destruct (x2_append_hdr _ _ _ _ _ _ _ _ HH Happ) as (HH' & _ & _).
    destruct (x2_append_all_hdr _ _ _ _ _ _ HH' Hrest) as (HH2 & HF2 & _).
    assert (HFut' : Fut a' aEnd)
      by (eapply Fut_trans; [exact HF2|exact HFut|apply (HdrInv_fsco _ _ HH2)]).
    destruct (x2_step aEnd a hdr it (s_st s) (s_t s) (s_v s) b a' hdr' HI HH Hs1 Hs2 Hs3 Happ HFut')
      as (it' & Hnx & HI' & E1 & E2 & E3 & Hne).
    destruct (IH a' hdr' it' b2 a2 hdr2 aEnd HI' HH' Hwf' Hrest HFut) as (it2 & Hit & HI2 & _).
    exists it2. split; [|split; [exact HI2|]].
    + intros r. cbn [length x2_iter]. rewrite <- app_assoc, Hnx, Hit, E1, E2, E3, sample_eta. reflexivity.
    + intros _ Hc. apply app_eq_nil in Hc. exact (Hne (proj1 Hc)).
Qed.

Lemma x2_append_total a hdr st t v : 0 <= b_num a < 65535 -> x2_append a hdr st t v <> None.
Proof.
  intros H. unfold x2_append.
  destruct (x2_write_vdelta (b_v a) v (b_lead a) (b_trail a)) as [[? ?] ?].
  destruct (x2_encode_joint _ (b_v a) v (b_lead a) (b_trail a)) as [[? ?] ?].
  destruct (b_num a =? 0); [discriminate|].
  destruct (b_num a =? 1); [destruct (st =? b_st a); discriminate|].
  destruct (Z.eqb_spec (b_num a) 65535); [lia|].
  destruct ((b_fsco a =? 0) && (st =? b_st a) && negb (b_num a =? 127)); [discriminate|].
  destruct (0 <? b_fsco a); discriminate.
Qed.

Lemma x2_append_all_total : forall ss a hdr, HdrInv a hdr ->
  b_num a + Z.of_nat (length ss) <= 65535 -> x2_append_all a hdr ss <> None.
Proof.
  induction ss as [|s ss IH]; intros a hdr HH Hcap; [discriminate|].
  cbn [x2_append_all]. cbn [length] in Hcap.
  assert (H0 : 0 <= b_num a) by apply HH.
  pose proof (x2_append_total a hdr (s_st s) (s_t s) (s_v s) ltac:(lia)) as Htot.
  destruct (x2_append a hdr (s_st s) (s_t s) (s_v s)) as [[[b a'] hdr']|] eqn:Happ; [|contradiction].
  destruct (x2_append_hdr _ _ _ _ _ _ _ _ HH Happ) as (HH' & _ & Hn1).
  specialize (IH a' hdr' HH' ltac:(lia)).
  destruct (x2_append_all a' hdr' ss) as [[[? ?] ?]|]; [discriminate|contradiction].
Qed.

(* ---- a fresh XOR2 chunk -------------------------------------------------------------------------- *)

Lemma HdrInv_init : HdrInv x2app_init 0.
Proof. unfold HdrInv, hdr_of, x2app_init. cbn. repeat split; lia. Qed.

(* an iterator created over a chunk whose final appender state is aF *)
Lemma Inv2_init aF : 0 <= b_fsco aF <= 127 -> Inv2 aF x2app_init (x2it_init (hdr_of aF)).
Proof.
  intros H.
  assert (E : j_fsk (x2it_init (hdr_of aF)) = b_fsk aF /\ j_fsco (x2it_init (hdr_of aF)) = b_fsco aF).
  { unfold x2it_init, hdr_of. cbn [j_fsk j_fsco]. destruct (b_fsk aF).
    - split; [apply Z.leb_le; lia|].
      rewrite Z.add_comm, <- (Z.mul_1_l 128) at 1. rewrite Z_mod_plus_full. apply Z.mod_small. lia.
    - split; [apply Z.leb_gt; lia|]. apply Z.mod_small. lia. }
  destruct E as [E1 E2].
  unfold Inv2. rewrite E1, E2.
  unfold x2it_init, x2app_init, wf_it2, wf_window, win_rel, is_u64, int64, minInt64, maxInt64. cbn.
  repeat split; (reflexivity || lia).
Qed.

(* ---- XOR2 chunk histories: appender re-obtained from the object or from the bytes ------------------ *)

Lemma x2_iter_app : forall n m it bs,
  x2_iter (n + m) it bs =
  match x2_iter n it bs with
  | (l1, Some (it', bs')) => let '(l2, r2) := x2_iter m it' bs' in (l1 ++ l2, r2)
  | (l1, None) => (l1, None)
  end.
Proof.
  induction n as [|n IH]; intros m it bs.
  - cbn. destruct (x2_iter m it bs). reflexivity.
  - cbn [Nat.add x2_iter]. destruct (x2_next it bs) as [[it' bs']|]; [|reflexivity].
    rewrite IH. destruct (x2_iter n it' bs') as [l1 [[it'' bs'']|]]; [|reflexivity].
    destruct (x2_iter m it'' bs''). reflexivity.
Qed.

(* the chunk (hdr, bs) holds exactly xs; [a] is an appender state for it.  Whatever the header
   becomes later (aEnd), an iterator created with that later header reads xs from bs and ends in
   a state related to [a]. *)
Definition chunk_ok2 (a : x2app) (hdr : Z) (bs : bits) (xs : list sample) : Prop :=
  HdrInv a hdr /\ b_num a = Z.of_nat (length xs) /\ (bs = [] -> xs = [] /\ a = x2app_init) /\
  forall aEnd, Fut a aEnd -> 0 <= b_fsco aEnd <= 127 ->
    exists it, Inv2 aEnd a it /\
      forall r, x2_iter (length xs) (x2it_init (hdr_of aEnd)) (bs ++ r) = (xs, Some (it, r)).

Lemma chunk_ok2_empty : chunk_ok2 x2app_init 0 [] [].
Proof.
  split; [exact HdrInv_init|]. split; [reflexivity|]. split; [auto|].
  intros aEnd _ Hf. exists (x2it_init (hdr_of aEnd)). split; [apply Inv2_init; exact Hf|]. intros r. reflexivity.
Qed.

(* two iterators related to the same appender hold the same window *)
Lemma win_ok_copy al at_ il0 it0 il it_ :
  win_ok al at_ il0 it0 -> win_ok al at_ il it_ -> win_ok il0 it0 il it_.
Proof.
  intros (R0 & W0 & Z0) (R & W & Z1). split; [|split; [exact W | destruct W0; lia]].
  right. destruct (Z.eq_dec al 255) as [E|NE].
  - destruct (Z0 E), (Z1 E). lia.
  - destruct R0 as [?|[? ?]]; [contradiction|]. destruct R as [?|[? ?]]; [contradiction|]. lia.
Qed.

(* XOR2Chunk.Appender() copies the state of an iterator (created with the present header) run to
   the end; every iterator related to the old appender state is related to the copy *)
Lemma resume_ok2 a hdr bs xs : chunk_ok2 a hdr bs xs ->
  exists a', x2_resume (Z.of_nat (length xs)) hdr bs = Some a' /\ chunk_ok2 a' hdr bs xs.
Proof.
  intros (HH & Hn & Hemp & Hall).
  destruct bs as [|b0 bs].
  { destruct (Hemp eq_refl) as [-> ->]. exists x2app_init. split; [reflexivity|].
    split; [exact HH|]. split; [exact Hn|]. split; [auto|exact Hall]. }
  pose proof HH as (Hh & Hf & _). subst hdr.
  destruct (Hall a (Fut_refl a) Hf) as (it0 & HI0 & Hit0).
  unfold x2_resume. rewrite Nat2Z.id, <- (app_nil_r (b0 :: bs)), Hit0. cbn [snd].
  eexists. split; [reflexivity|].
  pose proof (Inv2_win _ _ _ HI0) as Hok0.
  destruct HI0 as (_ & I2 & I3 & I4 & I5 & I6 & _ & _ & I9 & I10 & _).
  split; [|split; [reflexivity|split; [intros Hc; discriminate|]]].
  - (* HdrInv only looks at num / fsk / fsco *)
    unfold HdrInv, hdr_of in *. cbn. rewrite I9, I10, <- Hn. exact HH.
  - intros aEnd HF HfE.
    assert (HF' : Fut a aEnd) by (unfold Fut in *; cbn in HF; rewrite I9, I10, <- Hn in HF; exact HF).
    destruct (Hall aEnd HF' HfE) as (it & HI & Hit). exists it. split; [|rewrite app_nil_r; exact Hit].
    pose proof (win_ok_copy _ _ _ _ _ _ Hok0 (Inv2_win _ _ _ HI)) as (K7 & _ & K13).
    destruct HI as (J1 & J2 & J3 & J4 & J5 & J6 & _ & JW & J9 & J10 & J11 & J12 & _).
    unfold Inv2. cbn. rewrite <- Hn, <- I2, <- I4, <- I5, <- I6.
    split; [exact J1|]. split; [exact J2|]. split; [intros Hge; rewrite <- (I3 Hge); exact (J3 Hge)|].
    repeat (split; [assumption|]). exact K13.
Qed.

Lemma x2_run_ok : forall segs a hdr bs xs,
  chunk_ok2 a hdr bs xs -> Forall wf_sample2 (flat_map snd segs) ->
  Z.of_nat (length xs) + Z.of_nat (length (flat_map snd segs)) <= 65535 ->
  exists a' hdr' bs', x2_run segs (Z.of_nat (length xs)) hdr bs
                        = EOk (Z.of_nat (length (xs ++ flat_map snd segs))) [hdr'] bs' /\
                      chunk_ok2 a' hdr' bs' (xs ++ flat_map snd segs).
Proof.
  induction segs as [|[k ss] segs IH]; intros a hdr bs xs Hok Hwf Hcap.
  - exists a, hdr, bs. cbn. rewrite app_nil_r. split; [reflexivity|exact Hok].
  - cbn [flat_map snd] in Hwf, Hcap. apply Forall_app in Hwf. destruct Hwf as [Hwf1 Hwf2].
    rewrite app_length, Nat2Z.inj_add in Hcap.
    cbn [x2_run].
    destruct (resume_ok2 a hdr bs xs Hok) as (ar & Hres & HH & Hn & Hemp & Hall). rewrite Hres.
    pose proof (x2_append_all_total ss ar hdr HH ltac:(lia)) as Htot.
    destruct (x2_append_all ar hdr ss) as [[[b aF] hdrF]|] eqn:Happ; [|contradiction].
    destruct (x2_append_all_hdr _ _ _ _ _ _ HH Happ) as (HHF & HF & HnF).
    pose proof (HdrInv_fsco _ _ HHF) as HfF.
    assert (Hok2 : chunk_ok2 aF hdrF (bs ++ b) (xs ++ ss)).
    { split; [exact HHF|]. split; [rewrite app_length, Nat2Z.inj_add; lia|]. split.
      - intros Hc. apply app_eq_nil in Hc. destruct Hc as [Hc1 Hc2].
        destruct (Hemp Hc1) as [-> ->].
        destruct ss as [|s ss'].
        + injection Happ as _ <- _. auto.
        + exfalso.
          destruct (x2_run_rt (s :: ss') x2app_init hdr (x2it_init (hdr_of aF)) b aF hdrF aF
                      (Inv2_init aF HfF) HH Hwf1 Happ (Fut_refl aF)) as (_ & _ & _ & Hne).
          apply Hne; [discriminate|exact Hc2].
      - intros aEnd HFE HfE.
        assert (HFr : Fut ar aEnd) by (eapply Fut_trans; [exact HF|exact HFE|apply HfF]).
        destruct (Hall aEnd HFr HfE) as (it & HI & Hit).
        destruct (x2_run_rt ss ar hdr it b aF hdrF aEnd HI HH Hwf1 Happ HFE) as (it2 & Hit2 & HI2 & _).
        exists it2. split; [exact HI2|].
        intros r. rewrite app_length, x2_iter_app, <- app_assoc, Hit, Hit2. reflexivity. }
    destruct (IH aF hdrF (bs ++ b) (xs ++ ss) Hok2 Hwf2 ltac:(rewrite app_length, Nat2Z.inj_add; lia))
      as (a' & hdr' & bs' & Hrun & Hok').
    exists a', hdr', bs'. cbn [flat_map snd]. rewrite app_assoc.
    rewrite app_length, Nat2Z.inj_add in Hrun. split; [exact Hrun|exact Hok'].
Qed.

(* an iterator over the final chunk, created with the final header, from the first bit *)
Lemma chunk_ok2_iter a hdr bs xs : chunk_ok2 a hdr bs xs ->
  exists it, forall r, x2_iter (length xs) (x2it_init hdr) (bs ++ r) = (xs, Some (it, r)).
Proof.
  intros (HH & _ & _ & Hall). pose proof HH as (-> & Hf & _).
  destruct (Hall a (Fut_refl a) Hf) as (it & _ & Hit). exists it. exact Hit.
Qed.

Lemma xor2_decode_ok a hdr bs xs : chunk_ok2 a hdr bs xs ->
  xor2_decode (chunk_bytes (Z.of_nat (length xs)) [hdr] bs) = DOk xs false.
Proof.
  intros Hok. destruct (chunk_ok2_iter _ _ _ _ Hok) as (it & Hit).
  unfold chunk_bytes, xor2_decode. cbn [app].
  destruct (unpack_pack bs) as [pad [Hp _]]. rewrite Hp, be16_join, Nat2Z.id, Hit. reflexivity.
Qed.

(* XOR2 histories with the appender re-obtained any number of times, from the same object or
   from the chunk's bytes (both restore the write position): every (st, t, v) comes back exactly *)
Lemma xor2_history_roundtrip segs :
  Forall wf_sample2 (flat_map snd segs) -> Z.of_nat (length (flat_map snd segs)) <= 65535 ->
  exists num hdr bs, xor2_encode segs = EOk num [hdr] bs /\
                     xor2_decode (chunk_bytes num [hdr] bs) = DOk (flat_map snd segs) false.
Proof.
  intros Hwf Hcap.
  destruct (x2_run_ok segs x2app_init 0 [] [] chunk_ok2_empty Hwf Hcap) as (a' & hdr' & bs' & Hrun & Hok).
  eexists. exists hdr', bs'. split; [exact Hrun | exact (xor2_decode_ok a' hdr' bs' _ Hok)].
Qed.

(* non-vacuity witness: stale NaN first, start timestamps appearing late, a reload from bytes *)
Definition example2_segs : list (reopen * list sample) :=
  [(ReObj, [mkS 0 1000 9218868437227405314; mkS 0 2000 4609434218613702656; mkS 990 3000 4609434218613702656]);
   (ReBytes, [mkS 990 4007 9218868437227405314; mkS (-5) (-9223372036854775808) 18446744073709551615;
              mkS 9223372036854775807 5 0])].

(* ---- Next / Seek scripts against the cursor specification (XOR2) --------------------------------- *)

Lemma x2_next_num it bs it' bs' : x2_next it bs = Some (it', bs') -> j_num it' = j_num it + 1.
Proof.
  intros H. destruct (Z.eq_dec (j_num it) 0) as [E0|N0].
  { unfold x2_next in H. rewrite E0 in H. cbn [Z.eqb] in H.
    destruct (get_varint false bs) as [[t r]|]; [|discriminate]. destruct (get_bits 64 r) as [[v r2]|]; [|discriminate].
    destruct (j_fsk it); [destruct (get_varint false r2) as [[sd r3]|]; [|discriminate]|];
      injection H as <- _; rewrite E0; reflexivity. }
  rewrite x2_next_ge1 in H by exact N0.
  destruct (x2_read_tv it bs) as [[[[[[[tD t] v] base] l] tr] r2]|]; [|discriminate].
  destruct (x2_read_st it (j_t it) r2) as [[[st sd] r3]|]; [|discriminate]. injection H as <- _. reflexivity.
Qed.

(* the cursor stands where the abstract cursor (cur, rest) stands: [rest] is what the remaining
   bits decode to *)
Definition CurInv2 (total : Z) (c : x2cur) (rest : list sample) : Prop :=
  cv_err c = false /\ 0 <= j_num (cv_it c) /\ j_num (cv_it c) + Z.of_nat (length rest) = total /\
  exists fin, x2_iter (length rest) (cv_it c) (cv_bits c) = (rest, Some fin).

Lemma CurInv2_next total c x rest : CurInv2 total c (x :: rest) ->
  exists c', x2cur_next total c = (c', true) /\ CurInv2 total c' rest /\
             mkS (j_st (cv_it c')) (j_t (cv_it c')) (j_v (cv_it c')) = x /\ j_num (cv_it c') <> 0.
Proof.
  intros (He & H0 & Hn & fin & Hit). cbn [length x2_iter] in Hit, Hn.
  destruct (x2_next (cv_it c) (cv_bits c)) as [[it' bs']|] eqn:Hnx; [|discriminate].
  destruct (x2_iter (length rest) it' bs') as [l r] eqn:Hrest. injection Hit as <- -> ->.
  pose proof (x2_next_num _ _ _ _ Hnx) as Hnum.
  exists (mkC2 it' bs' false). unfold x2cur_next. rewrite He, Hnx. cbn [orb].
  destruct (Z.eqb_spec (j_num (cv_it c)) total); [lia|].
  split; [reflexivity|]. split; [|split; [reflexivity | cbn; lia]].
  unfold CurInv2. cbn. split; [reflexivity|]. split; [lia|]. split; [lia|]. exists fin. exact Hrest.
Qed.

Lemma CurInv2_end total c : CurInv2 total c [] -> x2cur_next total c = (c, false).
Proof.
  intros (He & H0 & Hn & _). unfold x2cur_next. rewrite He. cbn [orb length] in *.
  destruct (Z.eqb_spec (j_num (cv_it c)) total); [reflexivity|lia].
Qed.

Lemma x2_script_spec total acts c rest : CurInv2 total c rest ->
  x2_script total c acts
  = Some (spec_script (if j_num (cv_it c) =? 0 then None
                       else Some (mkS (j_st (cv_it c)) (j_t (cv_it c)) (j_v (cv_it c)))) rest acts).
Proof.
  apply (script_spec x2cur cv_err (fun c => j_num (cv_it c)) (fun c => j_t (cv_it c))
           (fun c => mkS (j_st (cv_it c)) (j_t (cv_it c)) (j_v (cv_it c)))
           x2cur_next x2cur_seek_loop x2cur_seek x2_script);
    try reflexivity.
  - intros [|f]; reflexivity.
  - intros tot c0 rest0 (He & H0 & Hn & _). auto.
  - exact CurInv2_end.
  - exact CurInv2_next.
Qed.

Lemma xor2_seek_script segs acts :
  Forall wf_sample2 (flat_map snd segs) -> Z.of_nat (length (flat_map snd segs)) <= 65535 ->
  exists num hdr bs, xor2_encode segs = EOk num [hdr] bs /\
    xor2_run_script (chunk_bytes num [hdr] bs) acts = Some (spec_script None (flat_map snd segs) acts).
Proof.
  intros Hwf Hcap.
  destruct (x2_run_ok segs x2app_init 0 [] [] chunk_ok2_empty Hwf Hcap) as (a' & hdr' & bs' & Hrun & Hok).
  eexists. exists hdr', bs'. split; [exact Hrun|]. cbn [app] in Hok |- *.
  destruct (chunk_ok2_iter _ _ _ _ Hok) as (it & Hit).
  unfold chunk_bytes, xor2_run_script. cbn [app].
  destruct (unpack_pack bs') as [pad [Hp _]]. rewrite Hp, be16_join.
  apply (x2_script_spec _ acts (mkC2 (x2it_init hdr') (bs' ++ pad) false)).
  unfold CurInv2. cbn [cv_err cv_it cv_bits].
  split; [reflexivity|]. split; [cbn; lia|]. split; [cbn; lia|]. exists (it, pad). apply Hit.
Qed.
