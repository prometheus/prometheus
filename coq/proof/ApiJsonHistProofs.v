(* proof/ApiJsonHistProofs.v — histogram part of C51: the bucket iterators enumerate exactly the
   expansion of the spans, MarshalHistogram's loop renders exactly the non-empty buckets. *)
From Coq Require Import List ZArith NArith Bool Lia String.
From Verif Require Import lib.Int64 lib.SortedList model.ApiJson.
Import ListNotations.
Open Scope Z_scope.

Definition nonneg_spans (ss : list span) : Prop := Forall (fun s => 0 <= sp_len s) ss.

Lemma expand_nil ss next : expand ss [] next = [].
Proof.
  revert next. induction ss as [|s r IH]; intros next; simpl; auto.
  rewrite firstn_nil, skipn_nil, IH. reflexivity.
Qed.

Lemma fskip_unfold s rest idxIn cur :
  fskip s rest idxIn cur =
  if sp_len s <=? idxIn then
    match rest with [] => None | s' :: r' => fskip s' r' 0 (cur + sp_off s') end
  else Some (s, rest, idxIn, cur).
Proof. destruct rest; reflexivity. Qed.

(* Next inside a span takes one bucket and advances by one *)
Lemma fnext_in b bs s rest idxIn cur : idxIn < sp_len s ->
  fnext_all (b :: bs) false (s :: rest) idxIn cur =
  (cur + 1, b) :: fnext_all bs false (s :: rest) (idxIn + 1) (cur + 1).
Proof.
  intros H. cbn [fnext_all]. rewrite fskip_unfold.
  destruct (Z.leb_spec (sp_len s) idxIn); [lia | reflexivity].
Qed.

(* ... and at the end of a span goes on to the next span, if there is one *)
Lemma fnext_over bs s rest cur :
  fnext_all bs false (s :: rest) (sp_len s) cur =
  match rest with [] => [] | s' :: r => fnext_all bs false (s' :: r) 0 (cur + sp_off s') end.
Proof.
  destruct bs as [|b bs]; [now destruct rest|]. cbn [fnext_all]. rewrite fskip_unfold, Z.leb_refl.
  destruct rest as [|s' r]; [reflexivity|]. cbn [fnext_all].
  now replace (cur + sp_off s' + 1) with (cur + 1 + sp_off s') by lia.
Qed.

(* the k buckets left in the current span *)
Lemma fnext_span s rest : forall k bs idxIn cur, Z.of_nat k = sp_len s - idxIn ->
  fnext_all bs false (s :: rest) idxIn cur =
  zip_idx (cur + 1) (firstn k bs) ++ fnext_all (skipn k bs) false (s :: rest) (sp_len s) (cur + Z.of_nat k).
Proof.
  induction k as [|k IH]; intros bs idxIn cur Hk.
  - cbn [firstn skipn zip_idx app]. f_equal; lia.
  - destruct bs as [|b bs]; [reflexivity|]. rewrite fnext_in, (IH bs (idxIn + 1) (cur + 1)) by lia.
    cbn [firstn skipn zip_idx app]. do 3 f_equal. lia.
Qed.

Lemma expand_cons s r bs next :
  expand (s :: r) bs next =
  zip_idx (next + sp_off s) (firstn (Z.to_nat (sp_len s)) bs)
  ++ expand r (skipn (Z.to_nat (sp_len s)) bs) (next + sp_off s + sp_len s).
Proof. reflexivity. Qed.

Lemma fnext_expand : forall ss s bs cur, nonneg_spans (s :: ss) ->
  fnext_all bs false (s :: ss) 0 cur = expand (s :: ss) bs (cur + 1 - sp_off s).
Proof.
  induction ss as [|s' r IH]; intros s bs cur Hn; inversion_clear Hn as [|? ? Hs Hr];
    rewrite (fnext_span s _ (Z.to_nat (sp_len s))), fnext_over, (expand_cons s) by lia.
  - do 2 f_equal. lia.
  - rewrite IH by assumption. f_equal; f_equal; lia.
Qed.

(* The forward iterator (floatBucketIterator.Next, fast path) enumerates exactly the expansion of
   the spans, for every span list with non-negative lengths — including empty spans, and
   bucket slices shorter or longer than the spans say. *)
Theorem fwd_iter_expand ss bs : nonneg_spans ss -> fwd_iter ss bs = expand ss bs 0.
Proof.
  intros Hss. unfold fwd_iter. destruct ss as [|s rest]; [now destruct bs|].
  (* the first call puts currIdx at the offset of the first span instead of advancing it *)
  replace (fnext_all bs true (s :: rest) 0 0) with (fnext_all bs false (s :: rest) 0 (sp_off s - 1)).
  - rewrite fnext_expand by assumption. f_equal. lia.
  - destruct bs; [reflexivity|]. cbn [fnext_all]. now replace (sp_off s - 1 + 1) with (sp_off s) by lia.
Qed.

Fixpoint zip_down (i : Z) (cs : list Z) : list (Z * Z) :=
  match cs with [] => [] | c :: r => (i, c) :: zip_down (i - 1) r end.

Lemma rskip_unfold rs idxIn cur :
  rskip rs idxIn cur =
  if idxIn <? 0 then
    match rs with
    | [] => None
    | s :: rs' => match rs' with [] => None | s' :: _ => rskip rs' (sp_len s' - 1) (cur - sp_off s) end
    end
  else Some (rs, idxIn, cur).
Proof. destruct rs; reflexivity. Qed.

(* the mirror image of fnext_in, fnext_over, fnext_span; idxInSpan counts down to -1 *)
Lemma rnext_in b rb rs idxIn cur : 0 <= idxIn ->
  rnext_all (b :: rb) rs idxIn cur = (cur - 1, b) :: rnext_all rb rs (idxIn - 1) (cur - 1).
Proof.
  intros H. cbn [rnext_all]. rewrite rskip_unfold.
  destruct (Z.ltb_spec idxIn 0); [lia | reflexivity].
Qed.

Lemma rnext_over rb s earlier cur :
  rnext_all rb (s :: earlier) (-1) cur =
  match earlier with [] => [] | s' :: _ => rnext_all rb earlier (sp_len s' - 1) (cur - sp_off s) end.
Proof.
  destruct rb as [|b rb]; [now destruct earlier|]. cbn [rnext_all]. rewrite rskip_unfold.
  change (-1 <? 0) with true. cbn iota.
  destruct earlier as [|s' r]; [reflexivity|]. cbn [rnext_all].
  now replace (cur - sp_off s - 1) with (cur - 1 - sp_off s) by lia.
Qed.

Lemma rnext_span rs : forall k rb idxIn cur, Z.of_nat k = idxIn + 1 ->
  rnext_all rb rs idxIn cur =
  zip_down (cur - 1) (firstn k rb) ++ rnext_all (skipn k rb) rs (-1) (cur - Z.of_nat k).
Proof.
  induction k as [|k IH]; intros rb idxIn cur Hk.
  - cbn [firstn skipn zip_down app]. f_equal; lia.
  - destruct rb as [|b rb]; [reflexivity|]. rewrite rnext_in, (IH rb (idxIn - 1) (cur - 1)) by lia.
    cbn [firstn skipn zip_down app]. do 3 f_equal. lia.
Qed.

Definition endidx (ss : list span) (next : Z) : Z := fold_left (fun a s => a + sp_off s + sp_len s) ss next.
Definition tot (ss : list span) : nat := fold_right (fun s a => (Z.to_nat (sp_len s) + a)%nat) 0%nat ss.

Lemma tot_app a b : tot (a ++ b) = (tot a + tot b)%nat.
Proof. induction a; simpl; auto. rewrite IHa. lia. Qed.

Lemma zip_down_app a b i : zip_down i (a ++ b) = zip_down i a ++ zip_down (i - Z.of_nat (List.length a)) b.
Proof.
  revert i. induction a as [|c a IH]; intros i; simpl zip_down; simpl app.
  - f_equal. simpl. lia.
  - rewrite IH. simpl List.length. do 3 f_equal. lia.
Qed.

Lemma zip_down_rev l st : zip_down (st + Z.of_nat (List.length l) - 1) (rev l) = rev (zip_idx st l).
Proof.
  revert st. induction l as [|c l IH]; intros st; [reflexivity|].
  simpl rev. simpl zip_idx. simpl rev. rewrite zip_down_app, rev_length.
  simpl List.length. rewrite <- IH. simpl zip_down.
  f_equal; [f_equal; lia|]. do 2 f_equal. lia.
Qed.

(* the last span takes the last buckets, when the buckets before it are as many as the spans before it say *)
Lemma expand_snoc r s : forall b1 b2 next, List.length b1 = tot r ->
  expand (r ++ [s]) (b1 ++ b2) next =
  expand r b1 next ++ zip_idx (endidx r next + sp_off s) (firstn (Z.to_nat (sp_len s)) b2).
Proof.
  induction r as [|s0 r IH]; intros b1 b2 next Hl.
  - destruct b1; [|discriminate]. cbn [app expand endidx fold_left]. apply app_nil_r.
  - cbn [tot fold_right] in Hl. fold (tot r) in Hl. cbn [app expand].
    rewrite firstn_app, skipn_app. replace (Z.to_nat (sp_len s0) - List.length b1)%nat with 0%nat by lia.
    cbn [firstn skipn]. rewrite app_nil_r, IH, <- app_assoc; [reflexivity|]. rewrite skipn_length. lia.
Qed.

Lemma spans_ok_tot ss bs : spans_ok ss bs = true -> nonneg_spans ss /\ List.length bs = tot ss.
Proof.
  unfold spans_ok. intros H. apply andb_true_iff in H as [H1 H2].
  rewrite forallb_forall in H1. apply Z.eqb_eq in H2.
  assert (Hn : nonneg_spans ss).
  { unfold nonneg_spans. rewrite Forall_forall. intros s Hs. apply Z.leb_le. auto. }
  split; auto.
  assert (Hg : forall ss a, nonneg_spans ss -> fold_left (fun a s => a + sp_len s) ss a = a + Z.of_nat (tot ss)).
  { clear. induction ss as [|s r IH]; intros a Hn; simpl; [lia|].
    inversion Hn; subst. rewrite IH by auto. fold (tot r). lia. }
  rewrite Hg in H2 by auto. lia.
Qed.

(* The reverse iterator (reverseFloatBucketIterator) over a valid span/bucket layout enumerates the
   expansion of the spans in reverse order. *)
Theorem rev_iter_expand ss bs : spans_ok ss bs = true -> rev_iter ss bs = rev (expand ss bs 0).
Proof.
  intros H. destruct (spans_ok_tot ss bs H) as [Hn Hl]. clear H. revert bs Hl.
  induction ss as [|s r IH] using rev_ind; intros bs Hl.
  - destruct bs; [reflexivity | discriminate].
  - apply Forall_app in Hn as [Hr Hs]. inversion_clear Hs as [|? ? Hs' _].
    rewrite tot_app in Hl. cbn [tot fold_right] in Hl.
    (* b2: the buckets of the last span s, which the iterator produces first *)
    rewrite <- (firstn_skipn (tot r) bs). set (b1 := firstn (tot r) bs). set (b2 := skipn (tot r) bs).
    assert (L1 : List.length b1 = tot r) by (unfold b1; rewrite firstn_length; lia).
    assert (L2 : List.length b2 = Z.to_nat (sp_len s)) by (unfold b2; rewrite skipn_length; lia).
    clearbody b1 b2. specialize (IH Hr b1 L1).
    rewrite expand_snoc, rev_app_distr by exact L1. rewrite <- L2, firstn_all.
    unfold rev_iter, endidx in *. rewrite rev_unit, rev_app_distr, fold_left_app.
    rewrite (rnext_span _ (List.length (rev b2))), firstn_length_app, skipn_length_app, rnext_over
      by (rewrite rev_length; cbn [fold_left]; lia).
    rewrite rev_length. cbn [fold_left]. f_equal.
    + rewrite <- zip_down_rev. f_equal. lia.
    + destruct (rev r) as [|s' e] eqn:Er.
      * apply (f_equal (@rev span)) in Er. rewrite rev_involutive in Er. subst r.
        destruct b1; [reflexivity | discriminate L1].
      * rewrite <- IH. f_equal. lia.
Qed.

Lemma flt_asym a b : flt a b = true -> flt b a = false.
Proof.
  unfold flt. intros H. apply andb_true_iff in H as [_ H]. apply Z.ltb_lt in H.
  rewrite (proj2 (Z.ltb_ge _ _)) by lia. apply andb_false_r.
Qed.

Lemma fgt_flt_false a : fgt a fzero && flt a fzero = false.
Proof. unfold fgt. destruct (flt fzero a) eqn:E; [now rewrite (flt_asym _ _ E) | reflexivity]. Qed.

(* -0 compares like +0 *)
Lemma flt_fgt_false a : flt a fzero && fgt a (fnegate fzero) = false.
Proof. change (fgt a (fnegate fzero)) with (fgt a fzero). rewrite andb_comm. apply fgt_flt_false. Qed.

Definition bits64 (x : Z) : Prop := 0 <= x < 18446744073709551616.

Lemma fneg_facts x : bits64 x -> fkey (fnegate x) = - fkey x /\ fabs (fnegate x) = fabs x.
Proof.
  unfold bits64. intros H. unfold fkey, fnegate, fsign, fabs, two63.
  destruct (9223372036854775808 <=? x) eqn:E; [apply Z.leb_le in E | apply Z.leb_gt in E].
  - replace (9223372036854775808 <=? x - 9223372036854775808) with false by (symmetry; apply Z.leb_gt; lia).
    split; Z.div_mod_to_equations; lia.
  - replace (9223372036854775808 <=? x + 9223372036854775808) with true by (symmetry; apply Z.leb_le; lia).
    split; Z.div_mod_to_equations; lia.
Qed.

Lemma fnan_fnegate x : bits64 x -> fnan (fnegate x) = fnan x.
Proof. intros H. unfold fnan. now destruct (fneg_facts x H) as [_ ->]. Qed.

Lemma flt_neg_of_fgt x : bits64 x -> fgt x fzero = true -> flt (fnegate x) fzero = true.
Proof.
  intros Hb. unfold fgt, flt. rewrite (fnan_fnegate x Hb). destruct (fneg_facts x Hb) as [-> _].
  change (fkey fzero) with 0. intros H. apply andb_true_iff in H as [H1 H2]. apply andb_true_iff in H1 as [H0 Hx].
  rewrite H0, Hx. cbn [andb]. apply Z.ltb_lt in H2. apply Z.ltb_lt. lia.
Qed.

Lemma fgt_neg_of_not_flt x : bits64 x -> flt x fzero = false -> fgt (fnegate x) fzero = false.
Proof.
  intros Hb. unfold fgt, flt. rewrite (fnan_fnegate x Hb). destruct (fneg_facts x Hb) as [-> _].
  change (fkey fzero) with 0. change (fnan fzero) with false. cbn [negb].
  destruct (negb (fnan x)); cbn [andb]; auto.
  intros H. apply Z.ltb_ge in H. apply Z.ltb_ge. lia.
Qed.

Lemma mapM_Forall {A B C} (f : A -> res B) (g : B -> C) (h : A -> C) (P : A -> Prop) l :
  (forall a, P a -> exists b, f a = Ok b /\ g b = h a) -> Forall P l ->
  exists bl, mapM f l = Ok bl /\ map g bl = map h l.
Proof.
  intros Hf. induction 1 as [|a l Ha Hl (bl & IH1 & IH2)]; [exists []; auto|].
  destruct (Hf a Ha) as (b & H1 & H2). exists (b :: bl). cbn [mapM map]. rewrite H1, IH1, H2, IH2. auto.
Qed.

Section Render.
Variable fmt : Z -> fmtk -> bytes.
Variable ebound : Z -> Z -> Z.

Definition b4 (b : bucket) : Z * Z * Z * Z := (boundaries b, b_lo b, b_hi b, b_cnt b).
Definition render_bucket (q : Z * Z * Z * Z) : bytes :=
  let '(c, lo, hi, n) := q in
  [91%N] ++ write_int64 c ++ [44%N] ++ marshal_float fmt lo ++ [44%N]
         ++ marshal_float fmt hi ++ [44%N] ++ marshal_float fmt n ++ [93%N].
(* canonical rendering: {"count":"C","sum":"S"} or {"count":"C","sum":"S","buckets":[b,b,...]} *)
Definition render_buckets (l : list (Z * Z * Z * Z)) : bytes :=
  match l with
  | [] => []
  | q :: r => s2b ",""buckets"":[" ++ render_bucket q
              ++ List.concat (map (fun x => [44%N] ++ render_bucket x) r) ++ [93%N]
  end.
Definition render_hist (cnt sum : Z) (l : list (Z * Z * Z * Z)) : bytes :=
  s2b "{""count"":" ++ marshal_float fmt cnt ++ s2b ",""sum"":" ++ marshal_float fmt sum
  ++ render_buckets l ++ [125%N].

Definition nonempty4 (q : Z * Z * Z * Z) : bool := fne (snd q) fzero.

(* the loop renders exactly the non-empty buckets *)
Lemma loop_true bs :
  marshal_buckets_loop fmt true bs =
  List.concat (map (fun x => [44%N] ++ render_bucket x) (filter nonempty4 (map b4 bs))) ++ [93%N].
Proof.
  induction bs as [|b bs IH]; [reflexivity|].
  cbn [marshal_buckets_loop map filter]. unfold nonempty4 at 1. cbn [snd b4]. unfold feq.
  destruct (fne (b_cnt b) fzero); cbn [negb]; [|exact IH].
  rewrite IH. cbn [map List.concat]. change (marshal_bucket fmt b) with (render_bucket (b4 b)).
  now rewrite <- !app_assoc.
Qed.

Lemma loop_false bs :
  marshal_buckets_loop fmt false bs = render_buckets (filter nonempty4 (map b4 bs)).
Proof.
  induction bs as [|b bs IH]; [reflexivity|].
  cbn [marshal_buckets_loop map filter]. unfold nonempty4 at 1. cbn [snd b4]. unfold feq.
  destruct (fne (b_cnt b) fzero); cbn [negb]; [|exact IH].
  rewrite loop_true. unfold render_buckets. change (marshal_bucket fmt b) with (render_bucket (b4 b)).
  change (s2b ",""buckets"":[") with ([44%N] ++ s2b """buckets"":[").
  now rewrite <- !app_assoc.
Qed.

(* what the code needs of a bucket index: exponential schemas: the upper bound is positive and the
   lower bound is not negative (getBoundExponential is positive; an underflow to 0 is allowed for
   the lower bound only); custom buckets: index within the custom bounds and zero threshold +0 *)
Definition idx_ok (h : hist) (i : Z) : Prop :=
  if h_schema h =? custom_schema
  then 0 <= i <= Z.of_nat (List.length (h_custom h)) /\ h_zt h = 0
  else fgt (ebound (h_schema h) i) fzero = true /\ flt (ebound (h_schema h) (i - 1)) fzero = false.

(* oracle condition for an index on the negative side (exponential schemas only) *)
Definition idxn_ok (h : hist) (i : Z) : Prop :=
  bits64 (ebound (h_schema h) i) /\ bits64 (ebound (h_schema h) (i - 1)) /\
  fgt (ebound (h_schema h) i) fzero = true /\ flt (ebound (h_schema h) (i - 1)) fzero = false.

Lemma custom_bound h i : h_schema h =? custom_schema = true ->
  -1 <= i <= Z.of_nat (List.length (h_custom h)) ->
  get_bound ebound h i = Ok (spec_bound ebound h i).
Proof.
  intros Hc Hi. unfold get_bound, spec_bound. rewrite Hc.
  set (len := Z.of_nat (List.length (h_custom h))) in *.
  destruct (Z.ltb_spec len i); [lia|]. destruct (Z.ltb_spec i (-1)); [lia|]. cbn [orb].
  destruct (Z.eqb_spec i len) as [->|E1].
  - destruct (Z.ltb_spec len 0); [lia|]. rewrite nth_overflow; [reflexivity | unfold len; lia].
  - destruct (Z.eqb_spec i (-1)) as [->|E2]; [reflexivity|]. destruct (Z.ltb_spec i 0); [lia|].
    destruct (nth_error (h_custom h) (Z.to_nat i)) eqn:En.
    + now rewrite (nth_error_nth _ _ _ En).
    + apply nth_error_None in En. unfold len in *. lia.
Qed.

Lemma pos_bucket h ic : idx_ok h (fst ic) ->
  exists b, bind (bucket_at ebound h true ic) (fun b => Ok (clip h b)) = Ok b /\ b4 b = spec_pos ebound h ic.
Proof.
  destruct ic as [i c]. cbn [fst]. unfold idx_ok. intros Hok.
  destruct (h_schema h =? custom_schema) eqn:Hc.
  - destruct Hok as [Hi Hzt]. eexists. split.
    + unfold bucket_at. rewrite !custom_bound by (auto; lia). cbn [bind]. rewrite Hc. reflexivity.
    + unfold clip, spec_pos, b4. cbn [b_lo b_hi b_loinc b_hiinc b_cnt fst snd]. rewrite Hzt, Hc.
      change (fnegate 0) with (fnegate fzero). change 0 with fzero at 2 4.
      rewrite flt_fgt_false. rewrite !fgt_flt_false.
      cbn [b_lo b_hi b_loinc b_hiinc b_cnt boundaries andb]. unfold boundaries. cbn [b_loinc b_hiinc].
      destruct (i =? 0); reflexivity.
  - destruct Hok as [Hhi Hlo]. eexists. split.
    + unfold bucket_at, get_bound, spec_bound. rewrite Hc. cbn [bind]. rewrite Hhi, Hlo. reflexivity.
    + unfold clip, spec_pos, b4, spec_bound. rewrite Hc. cbn [b_lo b_hi b_loinc b_hiinc b_cnt fst snd andb].
      rewrite (flt_asym _ _ Hhi). cbn [andb].
      destruct (fgt (ebound (h_schema h) (i - 1)) fzero && flt (ebound (h_schema h) (i - 1)) (h_zt h)); reflexivity.
Qed.

Lemma neg_bucket h ic : h_schema h =? custom_schema = false -> idxn_ok h (fst ic) ->
  exists b, bind (bucket_at ebound h false ic) (fun b => Ok (clip h b)) = Ok b /\ b4 b = spec_neg ebound h ic.
Proof.
  destruct ic as [i c]. cbn [fst]. intros Hc (Hb1 & Hb0 & Hhi & Hlo).
  pose proof (flt_neg_of_fgt _ Hb1 Hhi) as Hn.
  eexists. split.
  - unfold bucket_at, get_bound. rewrite Hc. cbn [bind]. rewrite Hn, (fgt_neg_of_not_flt _ Hb0 Hlo). reflexivity.
  - unfold clip, spec_neg, b4, spec_bound. rewrite Hc. cbn [b_lo b_hi b_loinc b_hiinc b_cnt fst snd].
    destruct (flt (fnegate (ebound (h_schema h) (i - 1))) fzero &&
              fgt (fnegate (ebound (h_schema h) (i - 1))) (fnegate (h_zt h))); [reflexivity|].
    assert (Hg : fgt (fnegate (ebound (h_schema h) i)) fzero = false) by exact (flt_asym _ _ Hn).
    now rewrite Hg.
Qed.

(* the buckets as the code exposes them: the zero bucket only when ZeroCount > 0 *)
Definition code_all (h : hist) : list (Z * Z * Z * Z) :=
  map (spec_neg ebound h) (rev (expand (h_nspans h) (h_nb h) 0))
  ++ (if fgt (h_zc h) fzero then [(3, fnegate (h_zt h), h_zt h, h_zc h)] else [])
  ++ map (spec_pos ebound h) (expand (h_pspans h) (h_pb h) 0).

(* MarshalHistogram: the bytes are the canonical rendering of count, sum and exactly the non-empty
   buckets of the expansions of the spans, each with the boundaries and the inclusiveness code of
   its index.  The negative side needs hypotheses only if there are negative buckets. *)
Theorem marshal_histogram_code h :
  h_nb h = [] \/ (h_schema h =? custom_schema = false /\ spans_ok (h_nspans h) (h_nb h) = true /\
                  Forall (fun ic => idxn_ok h (fst ic)) (expand (h_nspans h) (h_nb h) 0)) ->
  nonneg_spans (h_pspans h) ->
  Forall (fun ic => idx_ok h (fst ic)) (expand (h_pspans h) (h_pb h) 0) ->
  (h_schema h =? custom_schema = true -> fgt (h_zc h) fzero = false) ->
  marshal_histogram fmt ebound h =
  Ok (render_hist (h_count h) (h_sum h) (filter nonempty4 (code_all h))).
Proof.
  intros Hneg Hss Hidx Hzc. unfold marshal_histogram, all_buckets.
  assert (Hn : exists nl, mapM (fun ic => bind (bucket_at ebound h false ic) (fun b => Ok (clip h b)))
                               (rev_iter (h_nspans h) (h_nb h)) = Ok nl /\
                          map b4 nl = map (spec_neg ebound h) (rev (expand (h_nspans h) (h_nb h) 0))).
  { destruct Hneg as [->|(Hc & Hs & Hi)]; [exists []; now rewrite expand_nil|].
    rewrite rev_iter_expand by exact Hs. apply mapM_Forall with (P := fun ic => idxn_ok h (fst ic)).
    - intros ic Hic. now apply neg_bucket.
    - now apply Forall_rev. }
  destruct Hn as (nl & -> & Hn4). rewrite fwd_iter_expand by exact Hss.
  destruct (mapM_Forall _ b4 (spec_pos ebound h) _ _ (pos_bucket h) Hidx) as (pl & -> & Hp4).
  replace (if fgt (h_zc h) fzero then if h_schema h =? custom_schema then Panic
                                      else Ok [mkB (fnegate (h_zt h)) (h_zt h) true true (h_zc h)]
           else Ok [])
    with (Ok (if fgt (h_zc h) fzero then [mkB (fnegate (h_zt h)) (h_zt h) true true (h_zc h)] else [])).
  2:{ destruct (fgt (h_zc h) fzero); [|reflexivity]. destruct (h_schema h =? custom_schema); [|reflexivity].
      discriminate (Hzc eq_refl). }
  cbn [bind]. rewrite loop_false. unfold render_hist, code_all. rewrite !map_app, Hn4, Hp4.
  destruct (fgt (h_zc h) fzero); reflexivity.
Qed.
End Render.

(* when the zero count is not negative/NaN, what the code exposes is the specification's list of
   non-empty buckets *)
Lemma code_all_spec eb h : fgt (h_zc h) fzero = fne (h_zc h) fzero ->
  filter nonempty4 (code_all eb h) = spec_exposed eb h.
Proof. intros Hz. unfold spec_exposed, spec_all, code_all. now rewrite Hz. Qed.

(* A histogram whose only non-empty bucket is a zero bucket with a NEGATIVE count (such counts arise
   from histogram subtraction): the iterator exposes the zero bucket only when ZeroCount > 0, so the
   JSON has no "buckets" member although the histogram has a non-empty bucket. *)
Definition neg_zero_hist : hist :=
  mkHist 0 4562254508917369340 13837309855095848960 13837309855095848960 0 [] [] [] [] [].

Example pos_hist_nonvacuous :
  let h := mkHist 0 0 4613937818241073152 0 0 [mkSpan 1 2] [] [4607182418800017408; 0] [] [] in
  let eb := fun (_ i : Z) => if i =? 0 then 4607182418800017408 else if i =? 1 then 4611686018427387904 else 4616189618054758400 in
  h_nb h = [] /\ nonneg_spans (h_pspans h) /\
  Forall (fun ic => idx_ok eb h (fst ic)) (expand (h_pspans h) (h_pb h) 0) /\
  fgt (h_zc h) fzero = fne (h_zc h) fzero /\
  spec_exposed eb h = [(3, 9223372036854775808, 0, 4613937818241073152); (0, 4607182418800017408, 4611686018427387904, 4607182418800017408)].
Proof.
  cbv zeta. split; [reflexivity|]. split; [repeat constructor; cbn; lia|].
  split; [|split; vm_compute; reflexivity].
  repeat constructor; vm_compute; reflexivity.
Qed.
