(* proof/XorProofs.v — lemmas and proofs about model/Xor.v (C10): what the classic XOR chunk and
   XOR2 share (arithmetic modulo 2^64, varints, the leading/trailing window, iterator cursors),
   then the classic XOR chunk.  XOR2 is in proof/Xor2Proofs.v. *)
From Coq Require Import List ZArith Lia Bool Morphisms.
From Verif Require Import lib.Int64 lib.Bits model.Xor.
Import ListNotations.
Open Scope Z_scope.

(* bit fields are handled through lib/Bits' lemmas only; kept folded so that no tactic expands a
   64-bit field into 64 tests *)
#[local] Opaque put_bits get_bits.

(* ---- U64 / W64 are u64 / wrap64 ------------------------------------------------------------- *)

Lemma U64_eq z : U64 z = u64 z.
Proof.
  unfold U64, u64, two64. change mask64 with (Z.ones 64). rewrite Z.land_ones by lia. reflexivity.
Qed.

Lemma W64_eq z : W64 z = wrap64 z.
Proof.
  unfold W64. rewrite U64_eq. unfold u64, wrap64.
  pose proof (Z.mod_pos_bound z two64 eq_refl) as Hy.
  rewrite <- (Zplus_mod_idemp_l z). set (y := z mod two64) in *. unfold two64 in *.
  destruct (Z.ltb_spec y 9223372036854775808).
  - rewrite Z.mod_small; lia.
  - rewrite <- (Z_mod_plus_full _ (-1)), Z.mod_small; lia.
Qed.

Definition is_u64 (z : Z) : Prop := 0 <= z < 18446744073709551616.

Lemma int64_unfold z : int64 z <-> -9223372036854775808 <= z <= 9223372036854775807.
Proof. unfold int64, minInt64, maxInt64. tauto. Qed.

Lemma U64_range z : is_u64 (U64 z).
Proof. rewrite U64_eq. unfold is_u64, u64, two64. apply Z.mod_pos_bound. lia. Qed.

Lemma U64_id z : is_u64 z -> U64 z = z.
Proof. intros H. rewrite U64_eq. unfold u64, two64. apply Z.mod_small. exact H. Qed.

Lemma W64_range z : int64 (W64 z).
Proof. rewrite W64_eq. apply wrap64_range. Qed.

Lemma W64_id z : int64 z -> W64 z = z.
Proof. intros H. rewrite W64_eq. apply wrap64_id. exact H. Qed.

(* W64 z and U64 z are the signed and the unsigned representative of z modulo 2^64, and depend
   on z modulo 2^64 only: under an outer W64 / U64 (and +, -) an inner wrap can be dropped, by
   rewriting with W64_eqm / U64_eqm. *)
Lemma U64_eqm z : eqm two64 (U64 z) z.
Proof. rewrite U64_eq. apply Zmod_eqm. Qed.

Lemma W64_eqm z : eqm two64 (W64 z) z.
Proof. rewrite W64_eq. unfold eqm, wrap64. rewrite Zminus_mod_idemp_l. f_equal. lia. Qed.

#[local] Instance U64_proper : Proper (eqm two64 ==> eq) U64.
Proof. intros a b H. rewrite !U64_eq. exact H. Qed.

#[local] Instance W64_proper : Proper (eqm two64 ==> eq) W64.
Proof.
  intros a b H. rewrite !W64_eq. unfold wrap64. f_equal.
  apply (Zplus_eqm two64); [exact H | reflexivity].
Qed.

#[local] Existing Instances eqm_setoid Zplus_eqm Zminus_eqm.
#[local] Opaque eqm.

Lemma W64_U64 d : int64 d -> W64 (U64 d) = d.
Proof. intros H. rewrite (U64_eqm d). apply W64_id, H. Qed.

Lemma U64_W64 x : is_u64 x -> U64 (W64 x) = x.
Proof. intros H. rewrite (W64_eqm x). apply U64_id, H. Qed.

Lemma W64_mod64 d : int64 d -> W64 (d mod 2 ^ 64) = d.
Proof. intros H. change (2 ^ 64) with two64. rewrite (Zmod_eqm two64 d). apply W64_id, H. Qed.

(* the timestamp arithmetic of Append / Next: a delta taken with wrap-around and added back with
   wrap-around restores the value *)
Lemma ts_delta_rt t0 t : int64 t -> W64 (t0 + W64 (U64 (t - t0))) = t.
Proof.
  intros H. rewrite (W64_eqm (U64 (t - t0))), (U64_eqm (t - t0)).
  replace (t0 + (t - t0)) with t by ring. apply W64_id, H.
Qed.

Lemma dod_rt td0 td : is_u64 td -> U64 (W64 td0 + W64 (td - td0)) = td.
Proof.
  intros H. rewrite (W64_eqm td0), (W64_eqm (td - td0)).
  replace (td0 + (td - td0)) with td by ring. apply U64_id, H.
Qed.

(* XOR2 start timestamps: stored as prevT - st, and as the change of that difference *)
Lemma st_rt t st : int64 st -> W64 (t - W64 (t - st)) = st.
Proof.
  intros H. rewrite (W64_eqm (t - st)). replace (t - (t - st)) with st by ring. apply W64_id, H.
Qed.

Lemma stdiff_rt sd0 nsd : int64 nsd -> W64 (sd0 + W64 (nsd - sd0)) = nsd.
Proof.
  intros H. rewrite (W64_eqm (nsd - sd0)). replace (sd0 + (nsd - sd0)) with nsd by ring.
  apply W64_id, H.
Qed.

(* ---- two's complement fields ------------------------------------------------------------------ *)

Lemma mod_signed p d : - (2 * p) < d < 2 * p -> d mod (2 * p) = if d <? 0 then d + 2 * p else d.
Proof.
  intros H. destruct (Z.ltb_spec d 0).
  - rewrite <- (Z_mod_plus_full d 1), Z.mod_small; lia.
  - apply Z.mod_small. lia.
Qed.

Lemma bitRange_spec x n : bitRange x n = true <-> - (2 ^ (n - 1) - 1) <= x <= 2 ^ (n - 1).
Proof. unfold bitRange. rewrite andb_true_iff, !Z.leb_le. tauto. Qed.

(* a value within bitRange, written as an sz-bit field, is restored by the readers' sign rule *)
Lemma unsign_gt_mod sz d : 1 <= sz <= 63 -> - (2 ^ (sz - 1) - 1) <= d <= 2 ^ (sz - 1) ->
  unsign_gt sz (d mod 2 ^ sz) = d.
Proof.
  intros Hsz Hd. unfold unsign_gt.
  replace (2 ^ sz) with (2 * 2 ^ (sz - 1)) by (rewrite <- Z.pow_succ_r by lia; f_equal; lia).
  assert (Hp : 0 < 2 ^ (sz - 1) <= 2 ^ 62)
    by (split; [apply Z.pow_pos_nonneg | apply Z.pow_le_mono_r]; lia).
  set (p := 2 ^ (sz - 1)) in *. rewrite mod_signed by lia.
  destruct (Z.ltb_spec d 0).
  - destruct (Z.ltb_spec p (d + 2 * p)); [|lia].
    replace (d + 2 * p - 2 * p) with d by ring.
    apply W64_U64. rewrite int64_unfold. change (2 ^ 62) with 4611686018427387904 in Hp. lia.
  - destruct (Z.ltb_spec p d); [lia|]. reflexivity.
Qed.

(* the shape of every sized bucket of xor_read_dod and get_varbit *)
Lemma sized_rt (n : nat) d r : 1 <= Z.of_nat n <= 63 -> bitRange d (Z.of_nat n) = true ->
  match get_bits n (put_bits n d ++ r) with
  | None => None
  | Some (b, r') => Some (unsign_gt (Z.of_nat n) b, r')
  end = Some (d, r).
Proof.
  intros Hn Hr. apply bitRange_spec in Hr. rewrite get_put_mod, unsign_gt_mod by assumption.
  reflexivity.
Qed.

(* ---- varints --------------------------------------------------------------------------------- *)

Lemma bytes_bits_cons b l r : bytes_bits (b :: l) ++ r = put_bits 8 b ++ (bytes_bits l ++ r).
Proof. unfold bytes_bits, unpack_bytes. cbn [flat_map]. rewrite <- app_assoc. reflexivity. Qed.

Lemma get8_put8 b r : 0 <= b < 256 -> get_bits 8 (put_bits 8 b ++ r) = Some (b, r).
Proof. intros H. apply get_put. exact H. Qed.

Lemma get_uvarint_aux_S chk f i s x bs :
  get_uvarint_aux chk (S f) i s x bs =
  match get_bits 8 bs with
  | None => None
  | Some (b, r) =>
      if b <? 128 then
        if chk && (i =? 9) && (1 <? b) then None else Some (U64 (x + b * 2 ^ s), r)
      else get_uvarint_aux chk f (i + 1) (s + 7) (x + (b - 128) * 2 ^ s) r
  end.
Proof. reflexivity. Qed.

Lemma uvarint_rt_aux chk : forall f i s acc x r,
  i = 9 - Z.of_nat f -> s = 7 * i -> 0 <= i -> 0 <= x < 2 ^ (64 - s) -> 0 <= acc ->
  get_uvarint_aux chk (S f) i s acc (bytes_bits (uvarint_bytes f x) ++ r) = Some (U64 (acc + x * 2 ^ s), r).
Proof.
  induction f as [|f IH]; intros i s acc x r Hi Hs Hi0 Hx Hacc.
  - (* i = 9: one byte left, x < 2 *)
    assert (i = 9) by lia. subst i s. change (2 ^ (64 - 7 * 9)) with 2 in Hx.
    cbn [uvarint_bytes]. rewrite get_uvarint_aux_S, bytes_bits_cons, get8_put8 by lia.
    destruct (Z.ltb_spec x 128); [|lia]. destruct (Z.ltb_spec 1 x); [lia|].
    rewrite andb_false_r. reflexivity.
  - cbn [uvarint_bytes]. rewrite get_uvarint_aux_S. destruct (Z.ltb_spec x 128) as [Hlt|Hge].
    + rewrite bytes_bits_cons, get8_put8 by lia.
      destruct (Z.ltb_spec x 128); [|lia]. destruct (Z.eqb_spec i 9); [lia|].
      rewrite andb_false_r. reflexivity.
    + assert (Hm := Z.mod_pos_bound x 128 eq_refl).
      rewrite bytes_bits_cons, get8_put8 by lia.
      destruct (Z.ltb_spec (x mod 128 + 128) 128); [lia|].
      assert (Hp : 2 ^ (64 - s) = 128 * 2 ^ (64 - (s + 7))).
      { replace (64 - s) with (7 + (64 - (s + 7))) by lia. rewrite Z.pow_add_r by lia. reflexivity. }
      rewrite (IH (i + 1) (s + 7)); try lia.
      * do 3 f_equal. rewrite Z.pow_add_r by lia. change (2 ^ 7) with 128.
        replace (x * 2 ^ s) with ((128 * (x / 128) + x mod 128) * 2 ^ s)
          by (rewrite <- Z.div_mod by lia; reflexivity).
        ring.
      * split; [apply Z.div_pos; lia | apply Z.div_lt_upper_bound; lia].
Qed.

Lemma uvarint_rt chk x r : is_u64 x ->
  get_uvarint chk (bytes_bits (put_uvarint x) ++ r) = Some (x, r).
Proof.
  intros H. unfold get_uvarint, put_uvarint.
  rewrite (uvarint_rt_aux chk 9 0 0 0 x r) by (exact H || lia).
  rewrite Z.pow_0_r, Z.mul_1_r, Z.add_0_l, U64_id by exact H. reflexivity.
Qed.

Lemma zigzag_range x : int64 x -> is_u64 (zigzag x).
Proof. rewrite int64_unfold. unfold is_u64, zigzag. destruct (Z.ltb_spec x 0); lia. Qed.

Lemma unzigzag_zigzag x : unzigzag (zigzag x) = x.
Proof.
  unfold unzigzag, zigzag. destruct (Z.ltb_spec x 0).
  - replace (-2 * x - 1) with (1 + 2 * (- x - 1)) by lia.
    rewrite Z.even_add_mul_2. cbn [Z.even].
    replace (1 + 2 * (- x - 1)) with ((- x - 1) * 2 + 1) by lia.
    rewrite Z.div_add_l by lia. change (1 / 2) with 0. lia.
  - rewrite Z.even_mul. cbn [Z.even orb]. rewrite Z.mul_comm, Z.div_mul by lia. reflexivity.
Qed.

Lemma varint_rt chk x r : int64 x ->
  get_varint chk (bytes_bits (put_varint x) ++ r) = Some (x, r).
Proof.
  intros H. unfold get_varint, put_varint. rewrite uvarint_rt by (apply zigzag_range; exact H).
  rewrite unzigzag_zigzag. reflexivity.
Qed.

Lemma put_uvarint_nonempty x : put_uvarint x <> [].
Proof. unfold put_uvarint. cbn [uvarint_bytes]. destruct (x <? 128); discriminate. Qed.

(* ---- delta-of-delta buckets ------------------------------------------------------------------ *)

Lemma xor_dod_rt d r : int64 d -> xor_read_dod (xor_dod_bits d ++ r) = Some (d, r).
Proof.
  intros Hd. unfold xor_dod_bits.
  destruct (Z.eqb_spec d 0) as [->|Hnz]; [reflexivity|].
  destruct (bitRange d 14) eqn:H14; [exact (sized_rt 14 d r ltac:(lia) H14)|].
  destruct (bitRange d 17) eqn:H17; [exact (sized_rt 17 d r ltac:(lia) H17)|].
  destruct (bitRange d 20) eqn:H20; [exact (sized_rt 20 d r ltac:(lia) H20)|].
  unfold xor_read_dod. cbn [app get_bit]. rewrite get_put_mod, W64_mod64 by exact Hd. reflexivity.
Qed.

(* ---- values: the leading/trailing window, xorWrite / xorRead ------------------------------------ *)

Lemma lxor_u64 a b : is_u64 a -> is_u64 b -> is_u64 (Z.lxor a b).
Proof.
  unfold is_u64. intros Ha Hb. split; [apply Z.lxor_nonneg; lia|].
  destruct (Z.eq_dec (Z.lxor a b) 0) as [->|Hnz]; [lia|].
  assert (H0 : 0 <= Z.lxor a b) by (apply Z.lxor_nonneg; lia).
  change 18446744073709551616 with (2 ^ 64). apply Z.log2_lt_pow2; [lia|].
  eapply Z.le_lt_trans; [apply Z.log2_lxor; lia|].
  apply Z.max_lub_lt.
  - destruct (Z.eq_dec a 0) as [->|]; [cbn; lia|]. apply Z.log2_lt_pow2; lia.
  - destruct (Z.eq_dec b 0) as [->|]; [cbn; lia|]. apply Z.log2_lt_pow2; lia.
Qed.

Lemma lxor_cancel prev v : Z.lxor prev (Z.lxor v prev) = v.
Proof. rewrite (Z.lxor_comm v prev), <- Z.lxor_assoc, Z.lxor_nilpotent, Z.lxor_0_l. reflexivity. Qed.

Lemma lxor_eqb v base : (Z.lxor v base =? 0) = (v =? base).
Proof.
  destruct (Z.eqb_spec v base) as [->|Hne]; [rewrite Z.lxor_nilpotent; reflexivity|].
  apply Z.eqb_neq. intros H. apply Hne, Z.lxor_eq, H.
Qed.

(* the xor of two different 64-bit patterns *)
Lemma lxor_delta v base : is_u64 v -> is_u64 base -> v <> base -> 0 < Z.lxor v base < 2 ^ 64.
Proof.
  intros Hv Hb Hne. pose proof (lxor_u64 v base Hv Hb) as Hd.
  assert (Z.lxor v base <> 0) by (intros Hc; apply Z.lxor_eq in Hc; contradiction).
  unfold is_u64 in Hd. change (2 ^ 64) with 18446744073709551616. lia.
Qed.

(* the window the iterator holds is always well formed *)
Definition wf_window (l t : Z) : Prop := 0 <= l <= 31 /\ 0 <= t /\ l + t <= 63.

(* appender's window vs iterator's window: a fresh appender (0xff) has none yet *)
Definition win_rel (al at_ il it_ : Z) : Prop := al = 255 \/ (al = il /\ at_ = it_).

Lemma clamp_lead_bound d : 0 < d < 2 ^ 64 ->
  0 <= clamp_lead (lz64 d) <= 31 /\ clamp_lead (lz64 d) <= lz64 d.
Proof.
  intros H. destruct (lz64_bound d H) as [Hb _]. unfold clamp_lead.
  destruct (Z.leb_spec 32 (lz64 d)); lia.
Qed.

(* the significant bits of delta under a window (l, t) within its leading/trailing zeros *)
Lemma window_payload_rt delta l t r :
  0 < delta < 2 ^ 64 -> wf_window l t -> l <= lz64 delta -> t <= tz64 delta ->
  get_bits (Z.to_nat (64 - l - t)) (put_bits (Z.to_nat (64 - l - t)) (Z.shiftr delta t) ++ r)
    = Some (Z.shiftr delta t, r) /\
  U64 (Z.shiftl (Z.shiftr delta t) t) = delta.
Proof.
  intros Hd (Hw1 & Hw2 & Hw3) Hl Ht. split.
  - apply get_put. rewrite Z2Nat.id by lia. apply shiftr_fits; lia.
  - rewrite shiftr_shiftl_tz by lia. apply U64_id. unfold is_u64.
    change 18446744073709551616 with (2 ^ 64). lia.
Qed.

Lemma read_reuse_rt base delta l t r :
  0 < delta < 2 ^ 64 -> wf_window l t -> l <= lz64 delta -> t <= tz64 delta ->
  read_reuse_window base l t (put_bits (Z.to_nat (64 - l - t)) (Z.shiftr delta t) ++ r)
  = Some (Z.lxor base delta, r).
Proof.
  intros Hd Hw Hl Ht. destruct (window_payload_rt delta l t r Hd Hw Hl Ht) as [Hg Hu].
  destruct Hw as (Hw1 & Hw2 & Hw3). unfold read_reuse_window.
  rewrite (Z.mod_small (64 - l - t)), Hg, Hu by lia. reflexivity.
Qed.

Lemma read_new_rt base delta l t r :
  0 < delta < 2 ^ 64 -> wf_window l t -> l <= lz64 delta -> t <= tz64 delta ->
  read_new_window base (put_bits 5 l ++ put_bits 6 (64 - l - t) ++
                        put_bits (Z.to_nat (64 - l - t)) (Z.shiftr delta t) ++ r)
  = Some (Z.lxor base delta, l, t, r).
Proof.
  intros Hd Hw Hl Ht. destruct (window_payload_rt delta l t r Hd Hw Hl Ht) as [Hg Hu].
  destruct Hw as (Hw1 & Hw2 & Hw3). unfold read_new_window.
  rewrite get_put by (change (2 ^ Z.of_nat 5) with 32; lia).
  rewrite get_put_mod. change (2 ^ Z.of_nat 6) with 64.
  (* 6 bits hold 1..64 with 64 written as 0 *)
  assert (Hmb : (if (64 - l - t) mod 64 =? 0 then 64 else (64 - l - t) mod 64) = 64 - l - t).
  { destruct (Z.eq_dec (64 - l - t) 64) as [->|Hne]; [reflexivity|].
    rewrite Z.mod_small by lia. destruct (Z.eqb_spec (64 - l - t) 0); lia. }
  rewrite Hmb. replace ((64 - l - (64 - l - t)) mod 256) with t by (rewrite Z.mod_small; lia).
  rewrite Hg, Hu. reflexivity.
Qed.

(* what follows the control bits of a changed value, as one reader: the significant bits under
   the iterator's window (il, it_), or a new window and the significant bits under it *)
Definition read_window (reuse : bool) (base il it_ : Z) (bs : bits) : option (Z * Z * Z * bits) :=
  if reuse then match read_reuse_window base il it_ bs with
                | None => None
                | Some (v, r) => Some (v, il, it_, r)
                end
  else read_new_window base bs.

(* The window chosen for the xor of a value v with a different baseline, against an iterator whose
   window is related to the appender's: it is well formed, the iterator reads v back and then
   holds it. *)
Lemma window_rt base v lead trail il it_ reuse l t :
  is_u64 v -> is_u64 base -> v <> base -> win_rel lead trail il it_ -> wf_window il it_ ->
  x2_window (Z.lxor v base) lead trail = (reuse, l, t) ->
  wf_window l t /\
  forall r, read_window reuse base il it_ (x2_window_bits reuse (Z.lxor v base) l t ++ r) = Some (v, l, t, r).
Proof.
  intros Hv Hb Hne Hrel Hwf Hwin. pose proof (lxor_delta v base Hv Hb Hne) as Hd.
  set (delta := Z.lxor v base) in *. rewrite <- (lxor_cancel base v). fold delta.
  unfold x2_window in Hwin.
  destruct (clamp_lead_bound delta Hd) as [Hcl Hcl2].
  destruct (tz64_bound delta Hd) as [Htz Hsum].
  unfold read_window, x2_window_bits.
  destruct (negb (lead =? 255) && (lead <=? clamp_lead (lz64 delta)) && (trail <=? tz64 delta)) eqn:Hre;
    injection Hwin as <- <- <-.
  - apply andb_true_iff in Hre as [Hre Hr3]. apply andb_true_iff in Hre as [Hr1 Hr2].
    apply negb_true_iff, Z.eqb_neq in Hr1. apply Z.leb_le in Hr2, Hr3.
    destruct Hrel as [Hff|[-> ->]]; [contradiction|].
    split; [exact Hwf|]. intros r. rewrite read_reuse_rt by (assumption || lia). reflexivity.
  - assert (Hw : wf_window (clamp_lead (lz64 delta)) (tz64 delta)) by (unfold wf_window; lia).
    split; [exact Hw|]. intros r. rewrite <- !app_assoc. apply read_new_rt; (assumption || lia).
Qed.

(* xor_write makes XOR2's window choice, behind two control bits *)
Lemma xor_write_eq prev v lead trail :
  xor_write prev v lead trail =
  if Z.lxor v prev =? 0 then ([false], lead, trail) else
  let '(reuse, l, t) := x2_window (Z.lxor v prev) lead trail in
  ([true; negb reuse] ++ x2_window_bits reuse (Z.lxor v prev) l t, l, t).
Proof.
  unfold xor_write, x2_window, x2_window_bits. destruct (Z.lxor v prev =? 0); [reflexivity|].
  destruct (negb (lead =? 255) && _ && _); reflexivity.
Qed.

Lemma xor_read_window val il it_ (reuse : bool) bs :
  xor_read val il it_ (true :: negb reuse :: bs) = read_window reuse val il it_ bs.
Proof. destruct reuse; reflexivity. Qed.

Lemma xor_write_rt prev v al at_ il it_ vb l tr :
  is_u64 prev -> is_u64 v -> win_rel al at_ il it_ -> wf_window il it_ ->
  xor_write prev v al at_ = (vb, l, tr) ->
  exists il' it',
    (forall r, xor_read prev il it_ (vb ++ r) = Some (v, il', it', r)) /\
    win_rel l tr il' it' /\ wf_window il' it'.
Proof.
  intros Hp Hv Hrel Hwf Hw. rewrite xor_write_eq, lxor_eqb in Hw.
  destruct (Z.eqb_spec v prev) as [->|Hne].
  { injection Hw as <- <- <-. exists il, it_. split; [intros r; reflexivity|]. split; assumption. }
  destruct (x2_window (Z.lxor v prev) al at_) as [[reuse l0] t0] eqn:Hwin. injection Hw as <- <- <-.
  destruct (window_rt prev v _ _ _ _ _ _ _ Hv Hp Hne Hrel Hwf Hwin) as [Hw' Hrd].
  exists l0, t0. split; [|split; [right; split; reflexivity | exact Hw']].
  intros r. cbn [app]. rewrite xor_read_window. apply Hrd.
Qed.

Lemma xor_write_nonempty prev v al at_ : fst (fst (xor_write prev v al at_)) <> [].
Proof.
  rewrite xor_write_eq. destruct (Z.lxor v prev =? 0); [discriminate|].
  destruct (x2_window _ _ _) as [[reuse l] t]. discriminate.
Qed.

(* ---- one Append against one Next ---------------------------------------------------------------- *)

Definition wf_sample (s : sample) : Prop := int64 (s_t s) /\ is_u64 (s_v s).

Definition st0 (s : sample) : sample := mkS 0 (s_t s) (s_v s).

(* the iterator state is well formed *)
Definition wf_it (it : xit) : Prop :=
  int64 (i_t it) /\ is_u64 (i_v it) /\ is_u64 (i_tDelta it) /\ wf_window (i_lead it) (i_trail it).

(* simulation relation: the appender on a chunk with [num] samples and the iterator that has
   read exactly these [num] samples *)
Definition Inv (num : Z) (a : xapp) (it : xit) : Prop :=
  0 <= num /\ i_num it = num /\ a_t a = i_t it /\ a_v a = i_v it /\ a_tDelta a = i_tDelta it /\
  win_rel (a_lead a) (a_trail a) (i_lead it) (i_trail it) /\ wf_it it /\
  (num = 0 -> i_tDelta it = 0).

Lemma Inv_init : Inv 0 xapp_init xit_init.
Proof.
  unfold Inv, xapp_init, xit_init, wf_it, wf_window, win_rel, is_u64, int64, minInt64, maxInt64. cbn.
  repeat split; (reflexivity || lia).
Qed.

(* the relation between an appender and an iterator that hold the same fields *)
Lemma Inv_mk num t v tD al at_ il it_ :
  0 < num -> int64 t -> is_u64 v -> is_u64 tD -> win_rel al at_ il it_ -> wf_window il it_ ->
  Inv num (mkXA t v tD al at_) (mkXI num t v tD il it_).
Proof.
  intros Hn Ht Hv Htd Hw Hwf. unfold Inv, wf_it. cbn.
  split; [lia|]. do 4 (split; [reflexivity|]). split; [exact Hw|].
  split; [exact (conj Ht (conj Hv (conj Htd Hwf))) | lia].
Qed.

Lemma xor_next_nil it : xor_next it [] = None.
Proof. unfold xor_next. destruct (i_num it =? 0), (i_num it =? 1); reflexivity. Qed.

Lemma xor_step num a it t v b a' :
  Inv num a it -> int64 t -> is_u64 v ->
  xor_append num a t v = Some (b, a') ->
  exists it', (forall r, xor_next it (b ++ r) = Some (it', r)) /\ Inv (num + 1) a' it' /\
              i_t it' = t /\ i_v it' = v /\ b <> [].
Proof.
  intros (Hn0 & <- & Ht & Hv & Htd & Hwin & (Hit & Hiv & Hitd & Hww) & Hz) Htt Hvv Happ.
  (* an iterator that reads b consumes something: b is not empty *)
  enough (exists it', (forall r, xor_next it (b ++ r) = Some (it', r)) /\ Inv (i_num it + 1) a' it' /\
                      i_t it' = t /\ i_v it' = v) as (it' & Hnx & H).
  { exists it'. split; [exact Hnx|]. repeat (split; [apply H|]).
    intros ->. specialize (Hnx []). rewrite xor_next_nil in Hnx. discriminate. }
  unfold xor_append in Happ. rewrite Ht, Hv, Htd in Happ. unfold xor_next.
  assert (Hu : is_u64 (U64 (t - i_t it))) by apply U64_range.
  (* the value part of every sample but the first *)
  destruct (xor_write (i_v it) v (a_lead a) (a_trail a)) as [[vb l] tr] eqn:Hw.
  destruct (xor_write_rt _ _ _ _ _ _ _ _ _ Hiv Hvv Hwin Hww Hw) as (il' & it' & Hrd & Hrel' & Hwf').
  destruct (Z.eqb_spec (i_num it) 0) as [E0|N0].
  { (* first sample: varint timestamp, 64 value bits *)
    injection Happ as <- <-. rewrite (Hz E0), E0.
    exists (mkXI 1 t v 0 (i_lead it) (i_trail it)).
    split; [|split; [apply Inv_mk; (assumption || unfold is_u64; lia) | split; reflexivity]].
    intros r. rewrite <- app_assoc, varint_rt, get_put by assumption. reflexivity. }
  destruct (Z.eqb_spec (i_num it) 1) as [E1|N1].
  { (* second sample: uvarint delta *)
    injection Happ as <- <-. exists (mkXI 2 t v (U64 (t - i_t it)) il' it'). rewrite E1.
    split; [|split; [apply Inv_mk; (assumption || lia) | split; reflexivity]].
    intros r. rewrite <- app_assoc, uvarint_rt, Hrd, ts_delta_rt by assumption. reflexivity. }
  (* later samples: delta of delta *)
  destruct (Z.eqb_spec (i_num it) 65535) as [Hcap|Hcap]; [discriminate|].
  injection Happ as <- <-. exists (mkXI (i_num it + 1) t v (U64 (t - i_t it)) il' it').
  split; [|split; [apply Inv_mk; (assumption || lia) | split; reflexivity]].
  intros r. rewrite <- app_assoc, xor_dod_rt by apply W64_range.
  rewrite Hrd, dod_rt, ts_delta_rt by assumption. reflexivity.
Qed.

Lemma xor_append_total num a t v : 0 <= num < 65535 -> xor_append num a t v <> None.
Proof.
  intros H. unfold xor_append.
  destruct (xor_write (a_v a) v (a_lead a) (a_trail a)) as [[? ?] ?].
  destruct (num =? 0); [discriminate|]. destruct (num =? 1); [discriminate|].
  destruct (Z.eqb_spec num 65535); [lia|discriminate].
Qed.

(* ---- runs of appends against runs of Next ------------------------------------------------------- *)

Lemma xor_run_rt : forall ss num a it bs n2 a2,
  Inv num a it -> Forall wf_sample ss ->
  xor_append_all num a ss = Some (bs, n2, a2) ->
  exists it2, (forall r, xor_iter (length ss) it (bs ++ r) = (map st0 ss, Some (it2, r))) /\ Inv n2 a2 it2 /\
              n2 = num + Z.of_nat (length ss) /\ (ss <> [] -> bs <> []).
Proof.
  induction ss as [|s ss IH]; intros num a it bs n2 a2 HI Hwf Hall.
  - injection Hall as <- <- <-. exists it. cbn.
    split; [intros r; reflexivity|split; [exact HI|split; [lia|auto]]].
  - cbn [xor_append_all] in Hall.
    destruct (xor_append num a (s_t s) (s_v s)) as [[b a']|] eqn:Happ; [|discriminate].
    destruct (xor_append_all (num + 1) a' ss) as [[[b2 n2'] a2']|] eqn:Hrest; [|discriminate].
    injection Hall as <- <- <-.
    inversion Hwf as [|? ? [Hs1 Hs2] Hwf']; subst.
    destruct (xor_step num a it (s_t s) (s_v s) b a' HI Hs1 Hs2 Happ) as (it' & Hnx & HI' & Ht' & Hv' & Hne).
    destruct (IH (num + 1) a' it' b2 n2' a2' HI' Hwf' Hrest) as (it2 & Hit & HI2 & Hn2 & _).
    exists it2. split; [|split; [exact HI2|split]].
    + intros r. cbn [length xor_iter map]. rewrite <- app_assoc, Hnx, Hit.
      unfold st0 at 1. rewrite Ht', Hv'. reflexivity.
    + rewrite Hn2. cbn [length]. lia.
    + intros _ Hc. apply app_eq_nil in Hc. exact (Hne (proj1 Hc)).
Qed.

Lemma xor_append_all_total : forall ss num a,
  0 <= num -> num + Z.of_nat (length ss) <= 65535 -> xor_append_all num a ss <> None.
Proof.
  induction ss as [|s ss IH]; intros num a H0 Hcap; [discriminate|].
  cbn [xor_append_all]. cbn [length] in Hcap.
  pose proof (xor_append_total num a (s_t s) (s_v s) ltac:(lia)) as Htot.
  destruct (xor_append num a (s_t s) (s_v s)) as [[b a']|]; [|contradiction].
  specialize (IH (num + 1) a' ltac:(lia) ltac:(lia)).
  destruct (xor_append_all (num + 1) a' ss) as [[[? ?] ?]|]; [discriminate|contradiction].
Qed.

Lemma xor_iter_app : forall n m it bs,
  xor_iter (n + m) it bs =
  match xor_iter n it bs with
  | (l1, Some (it', bs')) => let '(l2, r2) := xor_iter m it' bs' in (l1 ++ l2, r2)
  | (l1, None) => (l1, None)
  end.
Proof.
  induction n as [|n IH]; intros m it bs.
  - cbn. destruct (xor_iter m it bs). reflexivity.
  - cbn [Nat.add xor_iter]. destruct (xor_next it bs) as [[it' bs']|]; [|reflexivity].
    rewrite IH. destruct (xor_iter n it' bs') as [l1 [[it'' bs'']|]]; [|reflexivity].
    destruct (xor_iter m it'' bs''). reflexivity.
Qed.

(* ---- chunk histories ------------------------------------------------------------------------------ *)

(* the chunk (num, bs) holds exactly the samples xs: iterating bs returns them and ends in a
   state related to some appender state *)
Definition chunk_ok (num : Z) (bs : bits) (xs : list sample) : Prop :=
  num = Z.of_nat (length xs) /\ (bs = [] -> xs = []) /\
  exists a it, Inv num a it /\
    forall r, xor_iter (length xs) xit_init (bs ++ r) = (map st0 xs, Some (it, r)).

Lemma chunk_ok_empty : chunk_ok 0 [] [].
Proof.
  split; [reflexivity|]. split; [reflexivity|]. exists xapp_init, xit_init.
  split; [exact Inv_init | intros r; reflexivity].
Qed.

(* XORChunk.Appender() copies the state of an iterator run to the end *)
Lemma resume_ok num bs xs : chunk_ok num bs xs ->
  exists a it, xor_resume num bs = Some a /\ Inv num a it /\
    forall r, xor_iter (length xs) xit_init (bs ++ r) = (map st0 xs, Some (it, r)).
Proof.
  intros (Hn & Hemp & a & it & HI & Hit).
  destruct bs as [|b0 bs].
  - rewrite (Hemp eq_refl) in *. subst num.
    exists xapp_init, xit_init. split; [reflexivity|]. split; [exact Inv_init|]. intros r. reflexivity.
  - unfold xor_resume. rewrite Hn, Nat2Z.id, <- (app_nil_r (b0 :: bs)), Hit. cbn [snd].
    eexists. exists it. split; [reflexivity|]. split; [|rewrite app_nil_r; exact Hit].
    destruct HI as (H0 & Hi & _ & _ & _ & _ & Hw & Hz). rewrite <- Hn. unfold Inv. cbn.
    split; [exact H0|]. split; [exact Hi|]. do 3 (split; [reflexivity|]).
    split; [right; split; reflexivity|]. split; [exact Hw | exact Hz].
Qed.

Lemma xor_run_ok : forall segs num bs xs,
  chunk_ok num bs xs -> Forall wf_sample (flat_map snd segs) ->
  num + Z.of_nat (length (flat_map snd segs)) <= 65535 ->
  exists n' bs', xor_run segs num bs = EOk n' [] bs' /\ chunk_ok n' bs' (xs ++ flat_map snd segs).
Proof.
  induction segs as [|[k ss] segs IH]; intros num bs xs Hok Hwf Hcap.
  - exists num, bs. cbn. rewrite app_nil_r. split; [reflexivity|exact Hok].
  - cbn [flat_map snd] in Hwf, Hcap. apply Forall_app in Hwf. destruct Hwf as [Hwf1 Hwf2].
    rewrite app_length, Nat2Z.inj_add in Hcap.
    unfold xor_run. cbn [xor_run_gen]. fold xor_run.
    replace (match k with ReObj => bs | ReBytes => bs end) with bs by (destruct k; reflexivity).
    destruct (resume_ok num bs xs Hok) as (a & it & Hres & HI & Hit). rewrite Hres.
    destruct Hok as (Hn & Hemp & _).
    pose proof (xor_append_all_total ss num a ltac:(lia) ltac:(lia)) as Htot.
    destruct (xor_append_all num a ss) as [[[b n2] a2]|] eqn:Hall; [|contradiction].
    destruct (xor_run_rt ss num a it b n2 a2 HI Hwf1 Hall) as (it2 & Hit2 & HI2 & Hn2 & Hne).
    assert (Hok2 : chunk_ok n2 (bs ++ b) (xs ++ ss)).
    { split; [rewrite app_length, Nat2Z.inj_add; lia|]. split.
      - intros Hc. apply app_eq_nil in Hc. destruct Hc as [Hc1 Hc2].
        rewrite (Hemp Hc1). destruct ss as [|s ss']; [reflexivity|].
        exfalso. apply Hne; [discriminate|exact Hc2].
      - exists a2, it2. split; [exact HI2|].
        intros r. rewrite app_length, xor_iter_app, <- app_assoc, Hit, Hit2, map_app. reflexivity. }
    destruct (IH n2 (bs ++ b) (xs ++ ss) Hok2 Hwf2 ltac:(lia)) as (n' & bs' & Hrun & Hok').
    exists n', bs'. cbn [flat_map snd]. rewrite app_assoc. split; assumption.
Qed.

(* the two sample-count bytes of a chunk's header *)
Lemma be16_join num : num / 256 * 256 + num mod 256 = num.
Proof. rewrite (Z.div_mod num 256) at 3 by lia. ring. Qed.

(* decoding the chunk's bytes *)
Lemma xor_decode_ok num bs xs : chunk_ok num bs xs ->
  xor_decode (chunk_bytes num [] bs) = DOk (map st0 xs) false.
Proof.
  intros (Hn & _ & a & it & _ & Hit). unfold chunk_bytes, xor_decode. cbn [app].
  destruct (unpack_pack bs) as [pad [Hp _]]. rewrite Hp, be16_join, Hn, Nat2Z.id, Hit. reflexivity.
Qed.

(* histories on a fresh chunk with the appender re-obtained any number of times, from the same
   object or from the chunk's bytes: every sample comes back, in order, bit for bit *)
Lemma xor_history_roundtrip segs :
  Forall wf_sample (flat_map snd segs) ->
  Z.of_nat (length (flat_map snd segs)) <= 65535 ->
  exists num bs, xor_encode segs = EOk num [] bs /\
                 xor_decode (chunk_bytes num [] bs) = DOk (map st0 (flat_map snd segs)) false.
Proof.
  intros Hwf Hcap.
  destruct (xor_run_ok segs 0 [] [] chunk_ok_empty Hwf Hcap) as (n' & bs' & Hrun & Hok).
  exists n', bs'. split; [exact Hrun | exact (xor_decode_ok _ _ _ Hok)].
Qed.

(* ---- witnesses (evaluated in props/C10.v) --------------------------------------------------------- *)

(* (1000, 1.5) (2000, 1.5), reload from bytes, (3007, 2.5): before the fix XORChunk.Appender() left
   bstream.count at 0 on the rebuilt chunk, whose last byte is only partly used; the next sample
   started on a fresh byte and the reader took the padding bits for a sample, (3000, 1.5) *)
Definition refute_segs : list (reopen * list sample) :=
  [(ReObj, [mkS 0 1000 4609434218613702656; mkS 0 2000 4609434218613702656]);
   (ReBytes, [mkS 0 3007 4612811918334230528])].

(* non-vacuity witnesses *)
Definition example_segs : list (reopen * list sample) :=
  [(ReObj, [mkS 0 (-5) 4609434218613702656; mkS 0 9223372036854775807 9221120237041090562]);
   (ReBytes, [mkS 0 (-9223372036854775808) 0; mkS 0 17 18446744073709551615; mkS 0 18 18446744073709551615])].

(* ---- Next / Seek scripts against the cursor specification ---------------------------------------- *)

(* what the cursor specification's Seek means: the first sample ahead with timestamp >= t *)
Lemma seek_rest_found t : forall rest cur c' rest',
  seek_rest t cur rest = (c', rest', true) ->
  exists pre x, c' = Some x /\ rest = pre ++ x :: rest' /\ Forall (fun y => s_t y < t) pre /\ t <= s_t x.
Proof.
  induction rest as [|y r IH]; intros cur c' rest' H; cbn in H.
  - discriminate H.
  - destruct (Z.leb_spec t (s_t y)) as [Hle|Hgt].
    + injection H as H1 H2. subst c' rest'. exists [], y. repeat split; [constructor|exact Hle].
    + destruct (IH _ _ _ H) as [pre [x [E1 [E2 [E3 E4]]]]]. exists (y :: pre), x.
      split; [exact E1|]. split; [rewrite E2; reflexivity|]. split; [constructor; assumption|exact E4].
Qed.

Lemma seek_rest_none t : forall rest cur c' rest',
  seek_rest t cur rest = (c', rest', false) -> rest' = [] /\ Forall (fun y => s_t y < t) rest.
Proof.
  induction rest as [|y r IH]; intros cur c' rest' H; cbn in H.
  - injection H as H1 H2. subst. split; [reflexivity|constructor].
  - destruct (Z.leb_spec t (s_t y)) as [Hle|Hgt]; [discriminate H|].
    destruct (IH _ _ _ H) as [E1 E2]. split; [exact E1|constructor; assumption].
Qed.

(* spec_script on a Seek that has to move: the cursor is on no sample or on one before t *)
Lemma spec_script_seek cur rest t r :
  match cur with Some c0 => s_t c0 <? t | None => true end = true ->
  spec_script cur rest (ASeek t :: r) =
  let '(cur', rest', ok) := seek_rest t cur rest in (if ok then cur' else None) :: spec_script cur' rest' r.
Proof.
  intros H. cbn [spec_script]. destruct cur as [c0|]; [|reflexivity].
  apply Z.ltb_lt in H. destruct (Z.leb_spec t (s_t c0)); [lia|reflexivity].
Qed.

(* The model has one cursor per encoding (xcur / x2cur), with the same Next, Seek loop and script
   runner over different iterators.  This section is about any cursor type whose operations
   satisfy the model's defining equations, and whose Next follows a relation [R total c rest]:
   "c has no error, has read total - |rest| samples and the bits ahead decode to rest". *)
Section Cursor.
  Variables (C : Type) (err : C -> bool) (num tm : C -> Z) (obs : C -> sample).
  Variable next : Z -> C -> C * bool.
  Variable seek_loop : nat -> Z -> Z -> C -> option (C * bool).
  Variable seek : Z -> Z -> C -> option (C * bool).
  Variable script : Z -> C -> list act -> option (list obs1).
  Hypothesis obs_t : forall c, s_t (obs c) = tm c.
  Hypothesis seek_loop_eq : forall fuel total t c, seek_loop fuel total t c =
    if (tm c <? t) || (num c =? 0) then
      match fuel with
      | O => None
      | S f => let '(c', ok) := next total c in
               if ok then seek_loop f total t c' else Some (c', false)
      end
    else Some (c, true).
  Hypothesis seek_eq : forall total t c,
    seek total t c = if err c then Some (c, false) else seek_loop (S (Z.to_nat total)) total t c.
  Hypothesis script_eq : forall total c a r, script total c (a :: r) =
    match (match a with ANext => Some (next total c) | ASeek t => seek total t c end) with
    | None => None
    | Some (c', ok) =>
        match script total c' r with
        | None => None
        | Some l => Some ((if ok then Some (obs c') else None) :: l)
        end
    end.
  Hypothesis script_nil : forall total c, script total c [] = Some [].

  Variable R : Z -> C -> list sample -> Prop.
  Hypothesis R_count : forall total c rest, R total c rest ->
    err c = false /\ 0 <= num c /\ num c + Z.of_nat (length rest) = total.
  Hypothesis R_end : forall total c, R total c [] -> next total c = (c, false).
  Hypothesis R_next : forall total c x rest, R total c (x :: rest) ->
    exists c', next total c = (c', true) /\ R total c' rest /\ obs c' = x /\ num c' <> 0.

  (* the sample the cursor stands on *)
  Definition cur (c : C) : option sample := if num c =? 0 then None else Some (obs c).

  (* Seek's loop condition, in terms of the abstract cursor *)
  Lemma seek_cond t c :
    (tm c <? t) || (num c =? 0) = match cur c with Some c0 => s_t c0 <? t | None => true end.
  Proof.
    unfold cur. destruct (num c =? 0); [apply orb_true_r|]. rewrite orb_false_r, obs_t. reflexivity.
  Qed.

  Lemma cur_next c x : obs c = x -> num c <> 0 -> cur c = Some x.
  Proof. intros <- H. unfold cur. destruct (Z.eqb_spec (num c) 0); [contradiction|reflexivity]. Qed.

  Lemma seek_loop_spec total t : forall rest fuel c,
    R total c rest -> (length rest < fuel)%nat -> (tm c <? t) || (num c =? 0) = true ->
    exists c', seek_loop fuel total t c = Some (c', snd (seek_rest t (cur c) rest)) /\
               fst (seek_rest t (cur c) rest) = (cur c', snd (fst (seek_rest t (cur c) rest))) /\
               R total c' (snd (fst (seek_rest t (cur c) rest))).
  Proof.
    induction rest as [|x rest IH]; intros fuel c HR Hf Hc;
      (destruct fuel as [|fuel]; [cbn in Hf; lia|]); rewrite seek_loop_eq, Hc.
    - rewrite (R_end _ _ HR). exists c. repeat split. exact HR.
    - destruct (R_next _ _ _ _ HR) as (c1 & Hnx & HR1 & Hx & Hn1). rewrite Hnx.
      pose proof (cur_next c1 x Hx Hn1) as Hcur1.
      pose proof (seek_cond t c1) as Hc1. rewrite Hcur1 in Hc1.
      cbn [seek_rest]. destruct (Z.leb_spec t (s_t x)) as [Hle|Hgt].
      + (* the loop stops on x *)
        exists c1. rewrite seek_loop_eq, Hc1, (proj2 (Z.ltb_ge _ _) Hle). cbn [fst snd].
        rewrite Hcur1. repeat split. exact HR1.
      + destruct (IH fuel c1 HR1 ltac:(cbn [length] in Hf; lia)) as (c' & Hl & Hs & HR').
        { rewrite Hc1. apply Z.ltb_lt, Hgt. }
        rewrite Hcur1 in Hl, Hs, HR'. exists c'. split; [exact Hl|]. split; [exact Hs|exact HR'].
  Qed.

  Lemma script_spec total : forall acts c rest,
    R total c rest -> script total c acts = Some (spec_script (cur c) rest acts).
  Proof.
    induction acts as [|a acts IH]; intros c rest HR; [apply script_nil|].
    rewrite script_eq. destruct a as [|t].
    - (* Next *)
      cbn [spec_script]. destruct rest as [|x rest].
      + rewrite (R_end _ _ HR), (IH c [] HR). reflexivity.
      + destruct (R_next _ _ _ _ HR) as (c1 & Hnx & HR1 & Hx & Hn1).
        rewrite Hnx, (IH c1 rest HR1), (cur_next c1 x Hx Hn1), Hx. reflexivity.
    - (* Seek t *)
      destruct (R_count _ _ _ HR) as (He & Hn0 & Hlen). rewrite seek_eq, He.
      pose proof (seek_cond t c) as Hc.
      destruct ((tm c <? t) || (num c =? 0)) eqn:Hmore.
      + destruct (seek_loop_spec total t rest (S (Z.to_nat total)) c HR ltac:(lia) Hmore)
          as (c' & Hl & Hs & HR').
        rewrite Hl, (IH c' _ HR'), spec_script_seek by (symmetry; exact Hc).
        destruct (seek_rest t (cur c) rest) as [[cur' rest'] ok] eqn:Hsr. cbn [fst snd] in *.
        injection Hs as ->. destruct ok; [|reflexivity].
        (* a successful Seek stands on a sample *)
        destruct (seek_rest_found _ _ _ _ _ Hsr) as (pre & x & Hx & _). unfold cur in *.
        destruct (num c' =? 0); [discriminate|reflexivity].
      + (* already there *)
        rewrite seek_loop_eq, Hmore, (IH c rest HR). cbn [spec_script]. unfold cur in *.
        destruct (num c =? 0); [discriminate|]. symmetry in Hc. apply Z.ltb_ge in Hc.
        rewrite (proj2 (Z.leb_le _ _) Hc). reflexivity.
  Qed.
End Cursor.

Lemma xor_next_num it bs it' bs' : xor_next it bs = Some (it', bs') -> i_num it' = i_num it + 1.
Proof.
  unfold xor_next. intros H.
  destruct (Z.eqb_spec (i_num it) 0) as [E0|N0].
  { destruct (get_varint true bs) as [[t r]|]; [|discriminate]. destruct (get_bits 64 r) as [[v r2]|]; [|discriminate].
    injection H as <- _. cbn. lia. }
  destruct (Z.eqb_spec (i_num it) 1) as [E1|N1].
  { destruct (get_uvarint true bs) as [[tD r]|]; [|discriminate].
    destruct (xor_read (i_v it) (i_lead it) (i_trail it) r) as [[[[v l] tr] r2]|]; [|discriminate].
    injection H as <- _. cbn. lia. }
  destruct (xor_read_dod bs) as [[dod r]|]; [|discriminate].
  destruct (xor_read (i_v it) (i_lead it) (i_trail it) r) as [[[[v l] tr] r2]|]; [|discriminate].
  injection H as <- _. reflexivity.
Qed.

(* the cursor stands where the abstract cursor (cur, rest) stands: [rest] is what the remaining
   bits decode to *)
Definition CurInv (total : Z) (c : xcur) (rest : list sample) : Prop :=
  cu_err c = false /\ 0 <= i_num (cu_it c) /\ i_num (cu_it c) + Z.of_nat (length rest) = total /\
  exists fin, xor_iter (length rest) (cu_it c) (cu_bits c) = (rest, Some fin).

Lemma CurInv_next total c x rest : CurInv total c (x :: rest) ->
  exists c', xcur_next total c = (c', true) /\ CurInv total c' rest /\
             mkS 0 (i_t (cu_it c')) (i_v (cu_it c')) = x /\ i_num (cu_it c') <> 0.
Proof.
  intros (He & H0 & Hn & fin & Hit). cbn [length xor_iter] in Hit, Hn.
  destruct (xor_next (cu_it c) (cu_bits c)) as [[it' bs']|] eqn:Hnx; [|discriminate].
  destruct (xor_iter (length rest) it' bs') as [l r] eqn:Hrest. injection Hit as <- -> ->.
  pose proof (xor_next_num _ _ _ _ Hnx) as Hnum.
  exists (mkXC it' bs' false). unfold xcur_next. rewrite He, Hnx. cbn [orb].
  destruct (Z.eqb_spec (i_num (cu_it c)) total); [lia|].
  split; [reflexivity|]. split; [|split; [reflexivity | cbn; lia]].
  unfold CurInv. cbn. split; [reflexivity|]. split; [lia|]. split; [lia|]. exists fin. exact Hrest.
Qed.

Lemma CurInv_end total c : CurInv total c [] -> xcur_next total c = (c, false).
Proof.
  intros (He & H0 & Hn & _). unfold xcur_next. rewrite He. cbn [orb length] in *.
  destruct (Z.eqb_spec (i_num (cu_it c)) total); [reflexivity|lia].
Qed.

Lemma xor_script_spec total acts c rest : CurInv total c rest ->
  xor_script total c acts
  = Some (spec_script (if i_num (cu_it c) =? 0 then None else Some (mkS 0 (i_t (cu_it c)) (i_v (cu_it c)))) rest acts).
Proof.
  apply (script_spec xcur cu_err (fun c => i_num (cu_it c)) (fun c => i_t (cu_it c))
           (fun c => mkS 0 (i_t (cu_it c)) (i_v (cu_it c))) xcur_next xcur_seek_loop xcur_seek xor_script);
    try reflexivity.
  - intros [|f]; reflexivity.
  - intros tot c0 rest0 (He & H0 & Hn & _). auto.
  - exact CurInv_end.
  - exact CurInv_next.
Qed.

Lemma xor_seek_script segs acts :
  Forall wf_sample (flat_map snd segs) ->
  Z.of_nat (length (flat_map snd segs)) <= 65535 ->
  exists num bs, xor_encode segs = EOk num [] bs /\
    xor_run_script (chunk_bytes num [] bs) acts = Some (spec_script None (map st0 (flat_map snd segs)) acts).
Proof.
  intros Hwf Hcap.
  destruct (xor_run_ok segs 0 [] [] chunk_ok_empty Hwf Hcap) as (n' & bs' & Hrun & Hok).
  exists n', bs'. split; [exact Hrun|]. cbn [app] in Hok.
  destruct Hok as (Hn & _ & a & it & _ & Hit).
  unfold chunk_bytes, xor_run_script. cbn [app].
  destruct (unpack_pack bs') as [pad [Hp _]]. rewrite Hp, be16_join.
  apply (xor_script_spec n' acts (mkXC xit_init (bs' ++ pad) false)).
  unfold CurInv. cbn [cu_err cu_it cu_bits]. rewrite map_length.
  split; [reflexivity|]. split; [cbn; lia|]. split; [cbn; lia|]. exists (it, pad). apply Hit.
Qed.
