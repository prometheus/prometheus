(* proof/HistBatchProofs.v — the batches of one appender transaction keep, for every series,
   the order in which its samples were appended; hence with increasing timestamps nothing is
   dropped as out of order at commit. *)
From Coq Require Import List ZArith Bool Lia.
From Verif Require Import model.HistBatch.
Import ListNotations.
Open Scope Z_scope.

Lemma of_series_app s l1 l2 : of_series s (l1 ++ l2) = of_series s l1 ++ of_series s l2.
Proof. apply filter_app. Qed.

Lemma of_series_one_same s x : x_ser x = s -> of_series s [x] = [x].
Proof. intros <-. unfold of_series. simpl. now rewrite Z.eqb_refl. Qed.

Lemma of_series_one_diff s x : x_ser x <> s -> of_series s [x] = [].
Proof. intros H. unfold of_series. simpl. destruct (Z.eqb_spec (x_ser x) s); [contradiction|reflexivity]. Qed.

Definition nos (s : Z) (l : list txs) : Prop := of_series s l = [].

Lemma nos_app s l1 l2 : nos s (l1 ++ l2) <-> nos s l1 /\ nos s l2.
Proof. unfold nos. rewrite of_series_app. split; [apply app_eq_nil|now intros [-> ->]]. Qed.

(* the buffers of a batch are committed in the order floats (0), integer histograms (1), float
   histograms (2); [later b r] is what is committed behind buffer r *)
Definition rank (t : stype) : nat :=
  match t with StHist | StCBHist => 1%nat | StFHist | StCBFHist => 2%nat | _ => 0%nat end.
Definition later (b : batch) (r : nat) : list txs :=
  match r with O => b_hists b ++ b_fhists b | S O => b_fhists b | _ => [] end.
Definition rank_of (ty : option stype) : nat := match ty with Some t => rank t | None => 0%nat end.

Lemma nos_later s b r : nos s (later b 0) -> nos s (later b r).
Proof. destruct r as [|[|r]]; cbn [later]; [auto|now rewrite nos_app|reflexivity]. Qed.

(* what the last batch may hold of series s, given the type recorded for s: nothing that is
   committed behind the buffer of that type *)
Definition P (b : batch) (ty : option stype) (s : Z) : Prop := nos s (later b (rank_of ty)).

Definition inv (a : astate) (done : list txs) : Prop :=
  (forall s, of_series s (commit_order a) = of_series s done) /\
  match a_last a with None => True | Some b => forall s, P b (a_types a s) s end.

Lemma commit_order_some d b t : commit_order (mkA d (Some b) t) = flat_map batch_order d ++ batch_order b.
Proof. unfold commit_order. cbn [a_done a_last]. rewrite flat_map_app. cbn. now rewrite app_nil_r. Qed.

(* appending x to its buffer is appending it to the series' commit order, if the buffers that are
   committed later hold nothing of the series *)
Lemma add_proj b x s' :
  x_ty x <> StNone -> (x_ser x = s' -> nos s' (later b (rank (x_ty x)))) ->
  of_series s' (batch_order (add_to_batch b x)) = of_series s' (batch_order b) ++ of_series s' [x].
Proof.
  intros Hn Hc. unfold add_to_batch, batch_order. destruct (Z.eq_dec (x_ser x) s') as [E|E].
  - specialize (Hc E). unfold nos in Hc.
    destruct (x_ty x); try contradiction; cbn [rank later] in Hc; cbn [b_floats b_hists b_fhists];
      rewrite !of_series_app; [rewrite of_series_app in Hc; apply app_eq_nil in Hc; destruct Hc as [-> ->]|..];
      rewrite ?Hc, ?app_nil_r, <- ?app_assoc; reflexivity.
  - destruct (x_ty x); try contradiction; cbn [b_floats b_hists b_fhists]; rewrite !of_series_app;
      rewrite (of_series_one_diff _ _ E); now rewrite !app_nil_r.
Qed.

(* the buffers behind the one x goes to are untouched; those of another series are anyway *)
Lemma later_add_same b x : later (add_to_batch b x) (rank (x_ty x)) = later b (rank (x_ty x)).
Proof. unfold add_to_batch. now destruct (x_ty x). Qed.

Lemma later_add_diff b x r s' : x_ser x <> s' -> nos s' (later b r) -> nos s' (later (add_to_batch b x) r).
Proof.
  intros E. unfold nos, add_to_batch.
  now destruct (x_ty x), r as [|[|r]]; cbn [later b_hists b_fhists];
    rewrite ?of_series_app, ?(of_series_one_diff _ _ E), ?app_nil_r.
Qed.

Lemma stype_eqb_eq a b : stype_eqb a b = true -> a = b.
Proof. now destruct a, b. Qed.

(* getCurrentBatch, once a batch exists: a new batch, or the last one with the series' type kept
   or (for a histogram on a series without type yet) recorded *)
Lemma gcb_cases a b st s : a_last a = Some b -> st <> StNone ->
  let a' := get_current_batch a st s in
  a' = new_batch a st s \/
  (a_done a' = a_done a /\ a_last a' = Some b /\ (forall s', s' <> s -> a_types a' s' = a_types a s') /\
   rank_of (a_types a' s) = rank st /\ (a_types a s = None \/ rank_of (a_types a s) = rank st)).
Proof.
  intros EL Hn. unfold get_current_batch. rewrite EL.
  destruct (a_types a s) as [prev|] eqn:ET.
  - destruct st; try contradiction; (destruct (stype_eqb prev _) eqn:Eq; [|now left]);
      apply stype_eqb_eq in Eq; subst prev; right; rewrite ET; repeat split; auto.
  - destruct st; try contradiction; right; cbn [a_done a_last a_types]; rewrite ?ET, ?Z.eqb_refl;
      (repeat split; auto); intros s' Hs; now destruct (Z.eqb_spec s' s).
Qed.

Lemma step_inv a done x :
  inv a done -> x_ty x <> StNone -> inv (tx_append a x) (done ++ [x]).
Proof.
  intros [Hc Hp] Hn. unfold tx_append.
  (* a new batch is opened *)
  assert (Hnew : inv (let a' := new_batch a (x_ty x) (x_ser x) in
                      mkA (a_done a') (match a_last a' with Some b => Some (add_to_batch b x) | None => None end) (a_types a'))
                     (done ++ [x])).
  { unfold new_batch. cbn [a_done a_last a_types]. split.
    - intros s. rewrite commit_order_some.
      assert (E : flat_map batch_order (match a_last a with Some b => a_done a ++ [b] | None => a_done a end) = commit_order a).
      { unfold commit_order. destruct (a_last a); [reflexivity|now rewrite app_nil_r]. }
      rewrite E, !of_series_app, Hc. f_equal. rewrite (add_proj empty_batch x s Hn); [reflexivity|].
      intros _. now apply nos_later.
    - cbn [a_last]. intros s. unfold P. destruct (Z.eq_dec (x_ser x) s) as [<-|E].
      + replace (rank_of _) with (rank (x_ty x)) by (destruct (x_ty x); cbn; now rewrite ?Z.eqb_refl).
        rewrite later_add_same. now apply nos_later.
      + apply later_add_diff; [exact E|]. now apply nos_later. }
  destruct (a_last a) as [b|] eqn:EL; [|unfold get_current_batch; rewrite EL; exact Hnew].
  destruct (gcb_cases a b (x_ty x) (x_ser x) EL Hn) as [->|(Ed & El & Eo & Er & Eold)]; [exact Hnew|].
  (* the last batch goes on *)
  rewrite Ed, El. specialize (Hp (x_ser x)) as Hps. unfold P in Hps.
  assert (Hl : nos (x_ser x) (later b (rank (x_ty x))))
    by (destruct Eold as [E|E]; rewrite E in Hps; [now apply nos_later|exact Hps]).
  split.
  - intros s. rewrite commit_order_some, !of_series_app, (add_proj b x s Hn) by now intros <-.
    rewrite app_assoc. f_equal. rewrite <- Hc. unfold commit_order.
    rewrite EL, flat_map_app, of_series_app. cbn. now rewrite app_nil_r.
  - cbn [a_last a_types]. intros s. unfold P. destruct (Z.eq_dec (x_ser x) s) as [<-|E].
    + now rewrite Er, later_add_same.
    + rewrite (Eo s) by congruence. apply later_add_diff; [exact E|apply Hp].
Qed.

Lemma commit_proj l : Forall (fun x => x_ty x <> StNone) l ->
  forall s, of_series s (commit_order (fold_left tx_append l init_state)) = of_series s l.
Proof.
  intros H.
  assert (G : forall l a done, Forall (fun x => x_ty x <> StNone) l -> inv a done ->
                inv (fold_left tx_append l a) (done ++ l)).
  { clear. induction l as [|x l IH]; intros a done H I; [now rewrite app_nil_r|].
    inversion H; subst. cbn [fold_left]. replace (done ++ x :: l) with ((done ++ [x]) ++ l) by now rewrite <- app_assoc.
    apply IH; [assumption|]. now apply step_inv. }
  destruct (G l init_state [] H) as [Hc _]; [split; [reflexivity|exact I]|]. exact Hc.
Qed.

Fixpoint store1 (m : option Z) (l : list txs) : list txs :=
  match l with
  | [] => []
  | x :: r => if (match m with None => true | Some v => v <? x_t x end)
              then x :: store1 (Some (x_t x)) r else store1 m r
  end.

Lemma of_series_cons s x l :
  of_series s (x :: l) = if x_ser x =? s then x :: of_series s l else of_series s l.
Proof. reflexivity. Qed.

Lemma store_proj l : forall m s, of_series s (store m l) = store1 (m s) (of_series s l).
Proof.
  induction l as [|x l IH]; intros m s; [reflexivity|]. cbn [store]. rewrite (of_series_cons s x l).
  destruct (Z.eqb_spec (x_ser x) s) as [E|E].
  - subst s. cbn [store1]. destruct (match m (x_ser x) with None => true | Some v => v <? x_t x end).
    + rewrite of_series_cons, Z.eqb_refl. f_equal. rewrite IH. now rewrite Z.eqb_refl.
    + apply IH.
  - destruct (match m (x_ser x) with None => true | Some v => v <? x_t x end).
    + rewrite of_series_cons. destruct (Z.eqb_spec (x_ser x) s); [contradiction|].
      rewrite IH. destruct (Z.eqb_spec s (x_ser x)); [congruence|reflexivity].
    + apply IH.
Qed.

(* timestamps strictly increasing (beyond m) *)
Fixpoint sincr (m : option Z) (l : list txs) : Prop :=
  match l with
  | [] => True
  | x :: r => match m with None => True | Some v => v < x_t x end /\ sincr (Some (x_t x)) r
  end.

Lemma store1_id l : forall m, sincr m l -> store1 m l = l.
Proof.
  induction l as [|x l IH]; intros m H; [reflexivity|]. destruct H as [H1 H2]. cbn [store1].
  destruct m as [v|]; [destruct (Z.ltb_spec v (x_t x)); [|lia]|]; f_equal; auto.
Qed.

(* one transaction, any number of series, any mix of sample flavours: if the timestamps of every
   series increase in append order, every series ends up holding exactly its appended samples,
   in order *)
Theorem tx_run_faithful l :
  Forall (fun x => x_ty x <> StNone) l ->
  (forall s, sincr None (of_series s l)) ->
  forall s, of_series s (tx_run l) = of_series s l.
Proof.
  intros Hn Hi s. unfold tx_run. rewrite store_proj, (commit_proj l Hn s).
  apply store1_id, Hi.
Qed.
