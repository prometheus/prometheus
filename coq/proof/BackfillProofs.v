(* proof/BackfillProofs.v — proofs about model/Backfill.v (property C50). *)
From Coq Require Import List ZArith Bool Lia Sorting.Sorted.
From Verif Require Import lib.Int64 lib.SortedList model.Backfill.
Import ListNotations.
Open Scope Z_scope.

Lemma div_window d k t : 0 < d -> d * k <= t < d * k + d -> t / d = k.
Proof. intros Hd H. symmetry. apply Z.div_unique with (r := t - d * k); lia. Qed.

(* the code's `if x > max { max = x }` and `if x < min { min = x }` *)
Lemma gt_max t a : (if t >? a then t else a) = Z.max a t.
Proof. destruct (Z.gtb_spec t a); lia. Qed.

Lemma lt_min t b : (if t <? b then t else b) = Z.min b t.
Proof. destruct (Z.ltb_spec t b); lia. Qed.

Lemma fold_min_glb l : forall m lo,
  lo <= fold_left (fun m x => Z.min m (s_ts x)) l m <-> lo <= m /\ forall x, In x l -> lo <= s_ts x.
Proof.
  induction l as [|a l IH]; intros m lo; simpl; [intuition|]. rewrite IH. split.
  - intros [H1 H2]. split; [lia|]. intros x [<-|Hx]; [lia|auto].
  - intros [H1 H2]. pose proof (H2 a (or_introl eq_refl)). split; [lia|auto].
Qed.

Lemma fold_max_lub l : forall m hi,
  fold_left (fun m x => Z.max m (s_ts x)) l m <= hi <-> m <= hi /\ forall x, In x l -> s_ts x <= hi.
Proof.
  induction l as [|a l IH]; intros m hi; simpl; [intuition|]. rewrite IH. split.
  - intros [H1 H2]. split; [lia|]. intros x [<-|Hx]; [lia|auto].
  - intros [H1 H2]. pose proof (H2 a (or_introl eq_refl)). split; [lia|auto].
Qed.

Lemma fold_min_le l m x : In x l -> fold_left (fun m x => Z.min m (s_ts x)) l m <= s_ts x.
Proof. apply (proj1 (fold_min_glb l m _) (Z.le_refl _)). Qed.

Lemma fold_max_ge l m x : In x l -> s_ts x <= fold_left (fun m x => Z.max m (s_ts x)) l m.
Proof. apply (proj1 (fold_max_lub l m _) (Z.le_refl _)). Qed.

Lemma samples_of_in l s t v : In (s, t, v) (samples_of l) <-> In (ESample s (Some t) v) l.
Proof.
  induction l as [|e l IH]; simpl; [tauto|].
  destruct e as [s' [t'|] v'| |]; simpl; rewrite IH.
  - split; (intros [H|H]; [left; congruence|right; exact H]).
  - split; [auto|intros [H|H]; [discriminate|exact H]].
  - split; [auto|intros [H|H]; [discriminate|exact H]].
  - split; [auto|intros [H|H]; [discriminate|exact H]].
Qed.

Lemma well_formed_cons e l : well_formed (e :: l) -> well_formed l.
Proof. intros H x Hx. apply H. now right. Qed.

Lemma well_formedb_spec l : well_formedb l = true <-> well_formed l.
Proof.
  unfold well_formedb, well_formed. rewrite forallb_forall. split; intros H e He; specialize (H e He).
  - destruct e as [s [t|] v| |]; auto; discriminate.
  - destruct e as [s [t|] v| |]; auto; contradiction.
Qed.

Lemma mm_loop_ok_wf l : forall a b A B, mm_loop l a b = MMOk A B -> well_formed l.
Proof.
  induction l as [|e l IH]; intros a b A B H x Hx; [destruct Hx|].
  destruct e as [s [t|] v| |]; simpl in H; try discriminate;
    (destruct Hx as [<-|Hx]; [exact I|eapply IH; eauto]).
Qed.

Lemma mm_loop_wf l : well_formed l -> forall a b, mm_loop l a b =
  MMOk (let A := fold_left (fun m x => Z.max m (s_ts x)) (samples_of l) a in
        if A =? minInt64 then 0 else A)
       (let B := fold_left (fun m x => Z.min m (s_ts x)) (samples_of l) b in
        if B =? maxInt64 then 0 else B).
Proof.
  induction l as [|e l IH]; intros Hw a b; [reflexivity|].
  pose proof (Hw e (or_introl eq_refl)) as He. apply well_formed_cons in Hw.
  destruct e as [s [t|] v| |]; try contradiction; simpl.
  - rewrite gt_max, lt_min. apply IH, Hw.
  - apply IH, Hw.
Qed.

Lemma mm_loop_not_wf l : ~ well_formed l -> forall a b, exists e,
  (mm_loop l a b = MMErrParse \/ mm_loop l a b = MMErrNoTs) /\ e = tt.
Proof.
  intros Hn a b. exists tt. split; auto.
  destruct (mm_loop l a b) eqn:E; auto. exfalso. apply Hn. eapply mm_loop_ok_wf; eauto.
Qed.

(* with every timestamp strictly inside int64 a sentinel survives only if there is no sample *)
Lemma get_min_max_bounds l A B : well_formed l ->
  (forall x, In x (samples_of l) -> minInt64 < s_ts x < maxInt64) ->
  get_min_max l = MMOk A B -> forall x, In x (samples_of l) -> B <= s_ts x <= A.
Proof.
  intros Hw Hr H x Hx. unfold get_min_max in H. rewrite (mm_loop_wf l Hw) in H.
  injection H as <- <-. cbv zeta.
  pose proof (fold_max_ge _ minInt64 x Hx). pose proof (fold_min_le _ maxInt64 x Hx).
  specialize (Hr x Hx).
  destruct (Z.eqb_spec (fold_left (fun m x => Z.max m (s_ts x)) (samples_of l) minInt64) minInt64),
           (Z.eqb_spec (fold_left (fun m x => Z.min m (s_ts x)) (samples_of l) maxInt64) maxInt64); lia.
Qed.

Lemma largest_here pre d rs mx :
  (forall r, In r pre -> r < d) -> d <= mx -> (forall r, In r rs -> mx < r) ->
  nth_error (pre ++ d :: rs) (length pre) = Some d /\ d <= mx /\
  forall r, In r (pre ++ d :: rs) -> r <= mx -> r <= d.
Proof.
  intros Hpre Hd Hrs. rewrite nth_error_app2, Nat.sub_diag by auto. split; [reflexivity|].
  split; [exact Hd|]. intros r Hr Hle. apply in_app_or in Hr as [Hr|[<-|Hr]].
  - specialize (Hpre r Hr). lia.
  - lia.
  - specialize (Hrs r Hr). lia.
Qed.

(* The range loop over any increasing table: entered after the entries [pre ++ [d]], all <= mx,
   have been passed, it ends on the index of the largest entry <= mx. *)
Lemma pick_idx_largest rs : forall pre d mx i dflt,
  (forall r, In r pre -> r < d) -> StronglySorted Z.lt (d :: rs) -> d <= mx ->
  i = Z.of_nat (length pre) + 1 -> dflt = Z.of_nat (length (pre ++ d :: rs)) - 1 ->
  exists n d', pick_idx rs i mx dflt = Z.of_nat n /\ nth_error (pre ++ d :: rs) n = Some d' /\
    d' <= mx /\ forall r, In r (pre ++ d :: rs) -> r <= mx -> r <= d'.
Proof.
  induction rs as [|a rs IH]; intros pre d mx i dflt Hpre Hs Hd Hi Hdflt; cbn [pick_idx].
  - exists (length pre), d. rewrite app_length in Hdflt. cbn [length] in Hdflt.
    split; [lia|]. apply largest_here; auto. intros r [].
  - apply StronglySorted_inv in Hs as [Hs Hda]. destruct (Z.gtb_spec a mx) as [Ha|Ha].
    + exists (length pre), d. split; [lia|]. apply largest_here; auto.
      intros r [<-|Hr]; [exact Ha|]. apply StronglySorted_inv in Hs as [_ Har].
      rewrite Forall_forall in Har. specialize (Har r Hr). lia.
    + apply Forall_inv in Hda.
      destruct (IH (pre ++ [d]) a mx (i + 1) dflt) as (n & d' & H); auto.
      * intros r Hr. apply in_app_or in Hr as [Hr|[<-|[]]]; [specialize (Hpre r Hr)|]; lia.
      * rewrite app_length. cbn [length]. lia.
      * rewrite <- app_assoc. exact Hdflt.
      * rewrite <- app_assoc in H. exists n, d'. exact H.
Qed.

Lemma block_ranges_val : block_ranges =
  [7200000; 21600000; 64800000; 194400000; 583200000; 1749600000; 5248800000; 15746400000;
   47239200000; 141717600000].
Proof. reflexivity. Qed.

Lemma block_ranges_sorted : exists rs,
  block_ranges = default_block_duration :: rs /\ StronglySorted Z.lt (default_block_duration :: rs).
Proof.
  rewrite block_ranges_val. eexists. split; [reflexivity|].
  apply Sorted_StronglySorted; [exact Z.lt_trans|repeat constructor].
Qed.

Lemma block_ranges_pos d : In d block_ranges -> 0 < d.
Proof. rewrite block_ranges_val. simpl. lia. Qed.

Lemma cbd_spec mx : exists d, compatible_block_duration mx = Some d /\ In d block_ranges /\
  (default_block_duration <= mx -> d <= mx) /\
  (forall r, In r block_ranges -> r <= mx -> r <= d).
Proof.
  unfold compatible_block_duration. destruct block_ranges_sorted as (rs & -> & Hs).
  destruct (Z.gtb_spec mx default_block_duration) as [Hmx|Hmx].
  - cbn [pick_idx]. destruct (Z.gtb_spec default_block_duration mx); [lia|].
    destruct (pick_idx_largest rs [] default_block_duration mx (0 + 1)
                (Z.of_nat (length (default_block_duration :: rs)) - 1))
      as (n & d & Hn & Hd & Hle & Hmax); [intros r []|exact Hs|lia|reflexivity|reflexivity|].
    rewrite Hn. destruct (Z.ltb_spec (Z.of_nat n) 0); [lia|]. rewrite Nat2Z.id.
    exists d. split; [exact Hd|]. split; [exact (nth_error_In _ _ Hd)|]. split; [auto|exact Hmax].
  - exists default_block_duration. split; [reflexivity|]. split; [left; reflexivity|]. split; lia.
Qed.

Lemma align_start_floor m d : 0 < d -> align_start m d = d * (m / d).
Proof.
  intros Hd. unfold align_start, godiv.
  destruct (m >=? 0) eqn:E.
  - apply Z.geb_le in E. rewrite Z.quot_div_nonneg by lia. reflexivity.
  - rewrite Z.geb_leb in E. apply Z.leb_gt in E.
    f_equal.
    replace (m - d + 1) with (- (d - 1 - m)) by lia.
    rewrite Z.quot_opp_l by lia. rewrite Z.quot_div_nonneg by lia.
    pose proof (Z.div_mod (d - 1 - m) d ltac:(lia)).
    pose proof (Z.mod_pos_bound (d - 1 - m) d Hd).
    pose proof (Z.div_mod m d ltac:(lia)).
    pose proof (Z.mod_pos_bound m d Hd).
    nia.
Qed.

Definition in_window (t up : Z) (x : sample) : bool := (t <=? s_ts x) && (s_ts x <? up).
Definition window (l : list sample) (t up : Z) : list sample := filter (in_window t up) l.

Lemma window_in S t up x : In x (window S t up) <-> In x S /\ t <= s_ts x < up.
Proof.
  unfold window. rewrite filter_In. unfold in_window. rewrite andb_true_iff, Z.leb_le, Z.ltb_lt. tauto.
Qed.

Lemma scan_wf l t up : t <= up -> well_formed l -> forall next p,
  scan l t up next p =
  Some (rev p ++ window (samples_of l) t up,
        fold_left (fun m x => Z.min m (s_ts x)) (filter (fun x => up <=? s_ts x) (samples_of l)) next).
Proof.
  intros Htu. induction l as [|e l IH]; intros Hw next p.
  - simpl. rewrite app_nil_r. reflexivity.
  - pose proof (Hw e (or_introl eq_refl)) as He. apply well_formed_cons in Hw.
    destruct e as [s [ts|] v| |]; try contradiction; [|exact (IH Hw next p)].
    cbn [scan samples_of]. unfold window, in_window. cbn [filter s_ts fst snd].
    destruct (Z.ltb_spec ts t) as [H1|H1].
    + rewrite (proj2 (Z.leb_gt t ts)), (proj2 (Z.leb_gt up ts)) by lia. apply IH, Hw.
    + rewrite (proj2 (Z.leb_le t ts) H1). destruct (Z.geb_spec ts up) as [H2|H2].
      * rewrite (proj2 (Z.ltb_ge ts up)), (proj2 (Z.leb_le up ts)) by lia.
        cbn [andb fold_left s_ts fst snd]. rewrite lt_min. apply IH, Hw.
      * rewrite (proj2 (Z.ltb_lt ts up)), (proj2 (Z.leb_gt up ts)) by lia.
        cbn [andb]. rewrite (IH Hw). cbn [rev]. rewrite <- app_assoc. reflexivity.
Qed.

Lemma last_ts_sample k s : last_ts k s = option_map s_ts (last_sample k s).
Proof. induction k as [|a k IH]; simpl; auto. destruct (s_sid a =? s); auto. Qed.

(* memSeries.appendable at Commit: no sample of the series yet, or a later timestamp *)
Definition newer (k : list sample) (x : sample) : bool :=
  match last_sample k (s_sid x) with None => true | Some z => s_ts x >? s_ts z end.

Lemma commit_cons x r k : commit (x :: r) k = commit r (if newer k x then x :: k else k).
Proof.
  simpl. rewrite last_ts_sample. unfold newer.
  destruct (last_sample k (s_sid x)); simpl; [destruct (_ >? _)|]; reflexivity.
Qed.

Lemma commit_app a : forall b k, commit (a ++ b) k = commit b (commit a k).
Proof.
  induction a as [|x a IH]; intros b k; [reflexivity|].
  rewrite <- app_comm_cons, !commit_cons. apply IH.
Qed.

Lemma commit_sound p : forall k x, In x (commit p k) -> In x p \/ In x k.
Proof.
  induction p as [|a p IH]; intros k x H; [auto|].
  rewrite commit_cons in H. apply IH in H. destruct (newer k a); simpl in *; tauto.
Qed.

Lemma commit_keeps p : forall k x, In x k -> In x (commit p k).
Proof.
  induction p as [|a p IH]; intros k x H; [exact H|].
  rewrite commit_cons. apply IH. destruct (newer k a); simpl; auto.
Qed.

Lemma last_sample_in k s z : last_sample k s = Some z -> In z k /\ s_sid z = s.
Proof.
  induction k as [|a k IH]; simpl; [discriminate|].
  destruct (Z.eqb_spec (s_sid a) s) as [E|E].
  - intros H; injection H as <-. auto.
  - intros H. destruct (IH H). auto.
Qed.

Lemma last_sample_none k s : last_sample k s = None -> forall y, In y k -> s_sid y <> s.
Proof.
  induction k as [|a k IH]; intros H y Hy; [destruct Hy|]. simpl in H.
  destruct (Z.eqb_spec (s_sid a) s) as [E|E]; [discriminate|].
  destruct Hy as [<-|Hy]; auto.
Qed.

(* per series, timestamps strictly decrease along the (most recent first) committed list *)
Fixpoint dec_rev (k : list sample) : Prop :=
  match k with
  | [] => True
  | x :: r => (forall y, In y r -> s_sid y = s_sid x -> s_ts y < s_ts x) /\ dec_rev r
  end.

Lemma last_sample_max k s z : dec_rev k -> last_sample k s = Some z ->
  forall y, In y k -> s_sid y = s -> s_ts y <= s_ts z.
Proof.
  induction k as [|a k IH]; intros Hd H y Hy Hs; [destruct Hy|]. destruct Hd as [Hd1 Hd2]. simpl in H.
  destruct (Z.eqb_spec (s_sid a) s) as [E|E].
  - injection H as <-. destruct Hy as [<-|Hy]; [lia|]. specialize (Hd1 y Hy). lia.
  - destruct Hy as [<-|Hy]; [contradiction|auto].
Qed.

Lemma newer_later k x : dec_rev k -> newer k x = true ->
  forall y, In y k -> s_sid y = s_sid x -> s_ts y < s_ts x.
Proof.
  unfold newer. intros Hd H y Hy Hs. destruct (last_sample k (s_sid x)) as [z|] eqn:E.
  - apply Z.gtb_lt in H. pose proof (last_sample_max _ _ _ Hd E y Hy Hs). lia.
  - destruct (last_sample_none _ _ E y Hy Hs).
Qed.

Lemma commit_dec p : forall k, dec_rev k -> dec_rev (commit p k).
Proof.
  induction p as [|a p IH]; intros k Hd; [exact Hd|].
  rewrite commit_cons. apply IH. destruct (newer k a) eqn:E; [|exact Hd].
  split; [apply newer_later; assumption|exact Hd].
Qed.

Lemma dec_rev_nodup k : dec_rev k -> NoDup (map key k).
Proof.
  induction k as [|a k IH]; intros Hd; simpl; [constructor|]. destruct Hd as [H1 H2].
  constructor; auto. intros Hin. apply in_map_iff in Hin. destruct Hin as (y & Hk & Hy).
  assert (s_sid y = s_sid a /\ s_ts y = s_ts a) as [Hs Ht].
  { unfold key, s_sid, s_ts in *. rewrite Hk. auto. }
  specialize (H1 y Hy Hs). lia.
Qed.

(* the pending list is ordered: within a series, later entries have later timestamps or are
   exact repetitions *)
Fixpoint ordered1 (l : list sample) : Prop :=
  match l with
  | [] => True
  | x :: r => (forall y, In y r -> s_sid y = s_sid x -> s_ts x < s_ts y \/ y = x) /\ ordered1 r
  end.

Lemma ordered1_mid a x b : ordered1 (a ++ x :: b) ->
  ordered1 (a ++ b) /\ forall z, In z a -> s_sid x = s_sid z -> s_ts z < s_ts x \/ x = z.
Proof.
  induction a as [|y a IH]; simpl; intros [H1 H2]; [split; [exact H2|intros z []]|].
  destruct (IH H2) as [H3 H4]. split.
  - split; [|exact H3]. intros z Hz. apply H1. rewrite in_app_iff in *. simpl. tauto.
  - intros z [<-|Hz]; [intros Hs; apply H1; [apply in_elt|exact Hs]|apply H4, Hz].
Qed.

(* The invariant of the Append / Commit sequence: the committed samples, oldest first, followed by
   the pending ones are ordered. Commit of the first pending sample stores it or finds it stored. *)
Lemma commit_step k x q : ordered1 (rev k ++ x :: q) ->
  let k' := if newer k x then x :: k else k in In x k' /\ ordered1 (rev k' ++ q).
Proof.
  intros H. destruct (ordered1_mid _ _ _ H) as [Hrm Hx]. unfold newer.
  destruct (last_sample k (s_sid x)) as [z|] eqn:E;
    [destruct (Z.gtb_spec (s_ts x) (s_ts z)) as [Hz|Hz]|]; cbv zeta.
  1, 3: (split; [left; reflexivity|]; simpl; rewrite <- app_assoc; exact H).
  split; [|exact Hrm]. destruct (last_sample_in _ _ _ E) as [Hin Hs].
  destruct (Hx z) as [Hlt| ->]; [apply in_rev in Hin; exact Hin|symmetry; exact Hs|lia|exact Hin].
Qed.

Lemma commit_ordered a : forall k b, ordered1 (rev k ++ a ++ b) -> ordered1 (rev (commit a k) ++ b).
Proof.
  induction a as [|x a IH]; intros k b H; [exact H|].
  rewrite commit_cons. apply IH, (commit_step k x (a ++ b) H).
Qed.

Lemma commit_complete q : forall k, ordered1 (rev k ++ q) -> forall x, In x q -> In x (commit q k).
Proof.
  induction q as [|a q IH]; intros k H x Hx; [destruct Hx|].
  rewrite commit_cons. destruct (commit_step k a q H) as [Ha Hq].
  destruct Hx as [<-|Hx]; [apply commit_keeps, Ha|apply IH; assumption].
Qed.

(* the batches are not observable: when no Append fails, everything is committed in order *)
Lemma append_all_some l : forall k p c k', append_all l k p c = Some k' -> k' = commit (rev p ++ l) k.
Proof.
  induction l as [|a l IH]; intros k p c k' H; simpl in H.
  - rewrite app_nil_r. congruence.
  - destruct (append_ok k a); [|discriminate].
    replace (rev p ++ a :: l) with (rev (a :: p) ++ l) by (simpl; rewrite <- app_assoc; reflexivity).
    destruct (c + 1 <? max_samples_in_appender); apply IH in H; [exact H|].
    rewrite H. symmetry. apply (commit_app (rev (a :: p)) l k).
Qed.

Lemma append_all_ok l : forall k p c, ordered1 (rev k ++ rev p ++ l) -> append_all l k p c <> None.
Proof.
  induction l as [|a l IH]; intros k p c Ht; simpl; [discriminate|].
  assert (Hok : append_ok k a = true).
  { unfold append_ok. destruct (last_sample k (s_sid a)) as [z|] eqn:E; [|reflexivity].
    destruct (last_sample_in _ _ _ E) as [Hin Hs]. rewrite app_assoc in Ht.
    destruct (proj2 (ordered1_mid _ _ _ Ht) z) as [Hlt| <-];
      [apply in_or_app; left; apply in_rev in Hin; exact Hin|symmetry; exact Hs| |].
    - rewrite (proj2 (Z.gtb_lt _ _) Hlt). reflexivity.
    - rewrite Z.gtb_ltb, Z.ltb_irrefl, !Z.eqb_refl. reflexivity. }
  rewrite Hok.
  replace (rev p ++ a :: l) with (rev (a :: p) ++ l) in Ht by (simpl; rewrite <- app_assoc; reflexivity).
  destruct (c + 1 <? max_samples_in_appender); apply IH; [exact Ht|].
  apply commit_ordered, Ht.
Qed.

Lemma block_samples_some p k : block_samples p = Some k -> k = rev (commit p []).
Proof.
  unfold block_samples. destruct (append_all p [] [] 0) as [k0|] eqn:E; [|discriminate].
  apply append_all_some in E as ->. intros H. injection H as <-. reflexivity.
Qed.

Lemma block_samples_ordered p : ordered1 p -> block_samples p = Some (rev (commit p [])).
Proof.
  intros Ho. destruct (block_samples p) as [k|] eqn:E.
  - f_equal. apply block_samples_some, E.
  - unfold block_samples in E. destruct (append_all p [] [] 0) eqn:E'; [discriminate|].
    apply append_all_ok in E'; [destruct E'|exact Ho].
Qed.

(* the samples stored for window [t, t + d) when its Appends succeed *)
Definition bsamp (S : list sample) (d t : Z) : list sample := rev (commit (window S t (t + d)) []).

Definition block_of (S : list sample) (d t : Z) : list block :=
  match bsamp S d t with [] => [] | k => [mkBlock t k] end.

Definition blocks_spec (S : list sample) (d : Z) (ts : list Z) : list block :=
  flat_map (block_of S d) ts.

Lemma bsamp_in S d t x : In x (bsamp S d t) -> In x S /\ t <= s_ts x < t + d.
Proof.
  unfold bsamp. rewrite <- in_rev. intros H. apply commit_sound in H as [H|[]]. apply window_in, H.
Qed.

Lemma bsamp_nodup S d t : NoDup (map key (bsamp S d t)).
Proof. unfold bsamp. rewrite map_rev. apply NoDup_rev, dec_rev_nodup, commit_dec. exact I. Qed.

Lemma bsamp_complete S d t x : ordered1 (window S t (t + d)) ->
  In x S -> t <= s_ts x < t + d -> In x (bsamp S d t).
Proof.
  intros Ho Hx Ht. unfold bsamp. rewrite <- in_rev. apply commit_complete; [exact Ho|].
  apply window_in. auto.
Qed.

(* the loop without the nextSampleTs shortcut *)
Fixpoint spec_loop (S : list sample) (d : Z) (ts : list Z) (acc : list block) : cb_res :=
  match ts with
  | [] => CBOk acc
  | t :: r =>
      match block_samples (window S t (t + d)) with
      | None => CBErr acc
      | Some k => spec_loop S d r (emit acc t k)
      end
  end.

(* ts = [t; t + d; t + 2d; ...] *)
Fixpoint chain (d t : Z) (ts : list Z) : Prop :=
  match ts with [] => True | s :: r => s = t /\ chain d (t + d) r end.

Lemma chain_prefix d : forall a b t, chain d t (a ++ b) -> chain d t a.
Proof. induction a as [|x a IH]; intros b t H; simpl in *; auto. destruct H; split; eauto. Qed.

Lemma loop_spec input d : 0 < d -> well_formed input ->
  forall ts t next acc, chain d t ts ->
    (forall x, In x (samples_of input) -> t <= s_ts x -> next = maxInt64 \/ next <= s_ts x) ->
    loop input d ts next acc = spec_loop (samples_of input) d ts acc.
Proof.
  intros Hd Hw. induction ts as [|s r IH]; intros t next acc Hc Hinv.
  - reflexivity.
  - destruct Hc as [-> Hc]. cbn [loop spec_loop].
    destruct (negb (next =? maxInt64) && (next >=? t + d)) eqn:E.
    + apply andb_true_iff in E. destruct E as [E1 E2].
      apply negb_true_iff in E1. apply Z.eqb_neq in E1. apply Z.geb_le in E2.
      assert (Hnil : window (samples_of input) t (t + d) = []).
      { destruct (window (samples_of input) t (t + d)) as [|x w] eqn:Ew; [reflexivity|]. exfalso.
        assert (Hx : In x (window (samples_of input) t (t + d))) by (rewrite Ew; left; reflexivity).
        apply window_in in Hx as [Hx Ht]. destruct (Hinv x Hx) as [?|?]; lia. }
      rewrite Hnil. apply (IH (t + d)); [exact Hc|].
      intros x Hx Hle. apply Hinv; [exact Hx|lia].
    + rewrite (scan_wf input t (t + d)) by (auto; lia). cbn [rev app].
      destruct (block_samples (window (samples_of input) t (t + d))); auto.
      apply (IH (t + d)); auto.
      intros x Hx Hle. right. apply fold_min_le, filter_In. split; [exact Hx|apply Z.leb_le, Hle].
Qed.

Lemma spec_loop_cases S d : forall ts acc,
  spec_loop S d ts acc = CBOk (acc ++ blocks_spec S d ts) \/
  exists ts1 t ts2, ts = ts1 ++ t :: ts2 /\ block_samples (window S t (t + d)) = None /\
    spec_loop S d ts acc = CBErr (acc ++ blocks_spec S d ts1).
Proof.
  induction ts as [|t r IH]; intros acc; cbn [spec_loop].
  - left. simpl. rewrite app_nil_r. reflexivity.
  - destruct (block_samples (window S t (t + d))) as [k|] eqn:E.
    + apply block_samples_some in E as ->. fold (bsamp S d t).
      replace (emit acc t (bsamp S d t)) with (acc ++ block_of S d t)
        by (unfold emit, block_of; destruct (bsamp S d t); [apply app_nil_r|reflexivity]).
      destruct (IH (acc ++ block_of S d t)) as [H|(ts1 & t' & ts2 & -> & Hn & H)];
        rewrite H, <- app_assoc.
      * left. reflexivity.
      * right. exists (t :: ts1), t', ts2. auto.
    + right. exists [], t, r. simpl. rewrite app_nil_r. auto.
Qed.

Lemma chain_starts d m : forall n k, chain d (m + d * Z.of_nat k) (map (fun i => m + d * Z.of_nat i) (seq k n)).
Proof.
  induction n as [|n IH]; intros k; simpl; auto. split; auto.
  replace (m + d * Z.of_nat k + d) with (m + d * Z.of_nat (S k)) by lia. apply IH.
Qed.

Lemma chain_starts0 d m M : chain d m (starts m M d).
Proof.
  pose proof (chain_starts d m (Z.to_nat ((M - m) / d + 1)) 0) as Hc.
  simpl Z.of_nat in Hc. rewrite Z.mul_0_r, Z.add_0_r in Hc. exact Hc.
Qed.

Lemma in_starts m M d t : 0 < d -> (In t (starts m M d) <-> exists i, 0 <= i <= (M - m) / d /\ t = m + d * i).
Proof.
  intros Hd. unfold starts. rewrite in_map_iff. split.
  - intros (i & <- & Hi). apply in_seq in Hi. exists (Z.of_nat i). split; auto. lia.
  - intros (i & Hi & ->). exists (Z.to_nat i). split; [rewrite Z2Nat.id; lia|]. apply in_seq. lia.
Qed.

Lemma starts_cover m M d t : 0 < d -> m <= t <= M -> exists t0, In t0 (starts m M d) /\ t0 <= t < t0 + d.
Proof.
  intros Hd Ht. exists (m + d * ((t - m) / d)). split.
  - apply in_starts; auto. eexists. split; [|reflexivity].
    split; [apply Z.div_pos; lia|apply Z.div_le_mono; lia].
  - pose proof (Z.mul_div_le (t - m) d Hd). pose proof (Z.mul_succ_div_gt (t - m) d Hd). lia.
Qed.

Lemma all_samples_spec S d ts : all_samples (blocks_spec S d ts) = flat_map (bsamp S d) ts.
Proof.
  unfold all_samples, blocks_spec. induction ts as [|t r IH]; simpl; auto.
  rewrite flat_map_app, IH. f_equal.
  unfold block_of. destruct (bsamp S d t) eqn:E; simpl; auto. rewrite app_nil_r. auto.
Qed.

Lemma ordered_window d S k : 0 < d -> ordered d S -> ordered1 (window S (d * k) (d * k + d)).
Proof.
  intros Hd. induction S as [|a S IH]; intros Ho; simpl; auto. destruct Ho as [Ho1 Ho2].
  unfold window in *. simpl. destruct (in_window (d * k) (d * k + d) a) eqn:E; auto.
  simpl. split; auto. intros y Hy Hs.
  apply filter_In in Hy. destruct Hy as [Hy Hw].
  apply Ho1; auto.
  unfold in_window in *. apply andb_true_iff in E, Hw. rewrite Z.leb_le, Z.ltb_lt in E, Hw.
  rewrite (div_window d k (s_ts y)), (div_window d k (s_ts a)); auto.
Qed.

Lemma flat_lower S d : 0 < d -> forall ts t, chain d t ts ->
  forall x, In x (flat_map (bsamp S d) ts) -> t <= s_ts x.
Proof.
  intros Hd. induction ts as [|s r IH]; intros t Hc x Hx; [destruct Hx|].
  destruct Hc as [-> Hc]. simpl in Hx. apply in_app_or in Hx. destruct Hx as [Hx|Hx].
  - apply bsamp_in in Hx. lia.
  - specialize (IH _ Hc x Hx). lia.
Qed.

Lemma flat_nodup S d : 0 < d -> forall ts t, chain d t ts ->
  NoDup (map key (flat_map (bsamp S d) ts)).
Proof.
  intros Hd. induction ts as [|s r IH]; intros t Hc; simpl; [constructor|].
  destruct Hc as [-> Hc]. rewrite map_app. apply NoDup_app_disjoint.
  - apply bsamp_nodup.
  - eapply IH; eauto.
  - intros kx H1 H2. apply in_map_iff in H1, H2.
    destruct H1 as (x & Hkx & Hx). destruct H2 as (y & Hky & Hy).
    apply bsamp_in in Hx.
    pose proof (flat_lower S d Hd r (t + d) Hc y Hy) as Hlow.
    assert (s_ts x = s_ts y) by (unfold key, s_ts in *; congruence). lia.
Qed.

Lemma in_range_strict input : in_range input ->
  forall x, In x (samples_of input) -> minInt64 < s_ts x < maxInt64.
Proof.
  intros Hr [[s t] v] Hx. apply samples_of_in in Hx. specialize (Hr s t v Hx).
  unfold s_ts, minInt64, maxInt64; simpl. lia.
Qed.

Definition of_cb (r : cb_res) : bf_res := match r with CBOk bl => BFOk bl | CBErr w => BFCreateErr w end.

(* rejected exactly when not well-formed; otherwise the plain loop over the windows from the floor of
   mint, for a duration from the table: never a panic on ranges[idx] *)
Lemma backfill_cases mx input :
  (~ well_formed input /\ exists e, backfill mx input = BFRejected e) \/
  (well_formed input /\ exists maxt mint d,
    get_min_max input = MMOk maxt mint /\ compatible_block_duration mx = Some d /\
    In d block_ranges /\ 0 < d /\
    backfill mx input = of_cb (spec_loop (samples_of input) d (starts (d * (mint / d)) maxt d) [])).
Proof.
  unfold backfill, backfill_with, get_min_max.
  destruct (mm_loop input minInt64 maxInt64) as [A B| |] eqn:E.
  - right. pose proof (mm_loop_ok_wf _ _ _ _ _ E) as Hw. split; [exact Hw|].
    destruct (cbd_spec mx) as (d & Hd & Hin & _). pose proof (block_ranges_pos d Hin) as Hpos.
    exists A, B, d. rewrite Hd. repeat split; auto.
    unfold create_blocks_with. rewrite align_start_floor by lia.
    rewrite (loop_spec input d Hpos Hw _ (d * (B / d)) maxInt64 []); auto. apply chain_starts0.
  - left. split; [|eauto]. intros Hw. rewrite (mm_loop_wf input Hw) in E. discriminate.
  - left. split; [|eauto]. intros Hw. rewrite (mm_loop_wf input Hw) in E. discriminate.
Qed.

(* The blocks a run leaves in the output directory (all of them on success, those written before
   the error otherwise) are the blocks of consecutive aligned windows. *)
Lemma backfill_written mx input bl :
  backfill mx input = BFOk bl \/ backfill mx input = BFCreateErr bl ->
  well_formed input /\
  exists d k ts, compatible_block_duration mx = Some d /\ In d block_ranges /\ 0 < d /\
    chain d (d * k) ts /\ bl = blocks_spec (samples_of input) d ts.
Proof.
  intros H. destruct (backfill_cases mx input)
    as [(_ & e & He)|(Hw & A & B & d & _ & Hd & Hin & Hpos & Hbf)]; [destruct H; congruence|].
  split; [exact Hw|]. rewrite Hbf in H. exists d, (B / d).
  destruct (spec_loop_cases (samples_of input) d (starts (d * (B / d)) A d) [])
    as [Hok|(ts1 & t & ts2 & Hts & _ & Herr)].
  - exists (starts (d * (B / d)) A d). rewrite Hok in H. simpl in H.
    repeat split; auto; [apply chain_starts0|destruct H; congruence].
  - exists ts1. rewrite Herr in H. simpl in H. repeat split; auto; [|destruct H; congruence].
    apply (chain_prefix d ts1 (t :: ts2)). rewrite <- Hts. apply chain_starts0.
Qed.

Theorem partition mx input :
  well_formed input -> in_range input ->
  (forall d, compatible_block_duration mx = Some d -> ordered d (samples_of input)) ->
  exists bl, backfill mx input = BFOk bl /\
    (forall s t v, In (s, t, v) (all_samples bl) <-> In (ESample s (Some t) v) input) /\
    NoDup (map key (all_samples bl)).
Proof.
  intros Hw Hr Ho.
  destruct (backfill_cases mx input) as [[Hn _]|(_ & A & B & d & Hmm & Hd & _ & Hpos & Hbf)]; [contradiction|].
  pose proof (get_min_max_bounds input A B Hw (in_range_strict input Hr) Hmm) as Hb.
  specialize (Ho d Hd). set (a := d * (B / d)) in *.
  assert (Hwin : forall t, In t (starts a A d) -> ordered1 (window (samples_of input) t (t + d))).
  { intros t Ht. apply in_starts in Ht as (i & Hi & ->); auto.
    replace (a + d * i) with (d * (B / d + i)) by (unfold a; lia). apply ordered_window; auto. }
  destruct (spec_loop_cases (samples_of input) d (starts a A d) []) as [Hok|(ts1 & t & ts2 & Hts & Hnone & _)].
  2:{ rewrite block_samples_ordered in Hnone; [discriminate|]. apply Hwin. rewrite Hts. apply in_elt. }
  rewrite Hok in Hbf. eexists. split; [exact Hbf|]. cbn [app]. rewrite all_samples_spec. split.
  - intros s t v. rewrite <- samples_of_in, in_flat_map. split.
    + intros (t0 & _ & H). apply bsamp_in in H. apply H.
    + intros H. pose proof (Hb _ H) as Hbx. pose proof (Z.mul_div_le B d Hpos).
      destruct (starts_cover a A d t Hpos) as (t0 & Hin & Ht0); [unfold s_ts in Hbx; simpl in Hbx; lia|].
      exists t0. split; [exact Hin|]. apply bsamp_complete; auto.
  - eapply flat_nodup; eauto. apply chain_starts0.
Qed.

Lemma block_meta_bounds lo hi b : b_samples b <> [] ->
  (forall x, In x (b_samples b) -> lo <= s_ts x < hi /\ minInt64 < s_ts x < maxInt64) ->
  lo <= b_mint b /\ b_mint b < b_maxt b /\ b_maxt b <= hi /\
  forall x, In x (b_samples b) -> b_mint b <= s_ts x < b_maxt b.
Proof.
  unfold b_mint, b_maxt. destruct (b_samples b) as [|x0 k] eqn:E; [congruence|]. intros _ Hin.
  pose proof (Hin x0 (or_introl eq_refl)) as H0.
  assert (Hlo : lo <= fold_left (fun m x => Z.min m (s_ts x)) (x0 :: k) maxInt64).
  { apply fold_min_glb. split; [lia|]. intros x Hx. apply Hin, Hx. }
  assert (Hhi : fold_left (fun m x => Z.max m (s_ts x)) (x0 :: k) minInt64 <= hi - 1).
  { apply fold_max_lub. split; [lia|]. intros x Hx. specialize (Hin x Hx). lia. }
  pose proof (fold_min_le (x0 :: k) maxInt64 x0 (or_introl eq_refl)).
  pose proof (fold_max_ge (x0 :: k) minInt64 x0 (or_introl eq_refl)).
  split; [exact Hlo|]. split; [lia|]. split; [lia|]. intros x Hx.
  pose proof (fold_min_le (x0 :: k) maxInt64 x Hx). pose proof (fold_max_ge (x0 :: k) minInt64 x Hx). lia.
Qed.

(* one block of the result: written for the window [lo, lo + d), lo a multiple of d *)
Definition block_aligned (d : Z) (b : block) : Prop :=
  (exists k, b_lo b = d * k) /\ b_samples b <> [] /\
  (forall x, In x (b_samples b) -> b_lo b <= s_ts x < b_lo b + d) /\
  b_lo b <= b_mint b /\ b_mint b < b_maxt b /\ b_maxt b <= b_lo b + d /\
  (forall x, In x (b_samples b) -> b_mint b <= s_ts x < b_maxt b).

Lemma blocks_spec_aligned S d : 0 < d -> (forall x, In x S -> minInt64 < s_ts x < maxInt64) ->
  forall ts t, chain d t ts -> (exists k, t = d * k) ->
  Forall (block_aligned d) (blocks_spec S d ts) /\
  (forall b, In b (blocks_spec S d ts) -> t <= b_lo b) /\
  StronglySorted Z.lt (map b_lo (blocks_spec S d ts)).
Proof.
  intros Hd Hr. induction ts as [|s r IH]; intros t Hc Hk.
  - simpl. repeat split; [constructor|intros b []|constructor].
  - destruct Hc as [-> Hc]. destruct Hk as (k & Hk).
    destruct (IH (t + d) Hc) as (IH1 & IH2 & IH3); [exists (k + 1); lia|].
    unfold blocks_spec in *. cbn [flat_map]. unfold block_of at 1 3 5.
    destruct (bsamp S d t) as [|x0 k0] eqn:E.
    + simpl. repeat split; auto. intros b Hb. specialize (IH2 b Hb). lia.
    + cbn [app map]. repeat split.
      * constructor; auto.
        assert (Hin : forall x, In x (x0 :: k0) -> t <= s_ts x < t + d /\ minInt64 < s_ts x < maxInt64).
        { intros x Hx. rewrite <- E in Hx. apply bsamp_in in Hx as [Hx ?]. auto. }
        split; [exists k; exact Hk|]. split; [discriminate|]. split; [intros x Hx; apply Hin, Hx|].
        apply (block_meta_bounds t (t + d) (mkBlock t (x0 :: k0))); [discriminate|exact Hin].
      * intros b [<-|Hb]; [simpl; lia|]. specialize (IH2 b Hb). lia.
      * constructor; auto. apply Forall_forall. intros lo Hlo.
        apply in_map_iff in Hlo. destruct Hlo as (b & <- & Hb). specialize (IH2 b Hb). simpl. lia.
Qed.

Theorem aligned mx input bl : in_range input ->
  backfill mx input = BFOk bl \/ backfill mx input = BFCreateErr bl ->
  exists d, compatible_block_duration mx = Some d /\ In d block_ranges /\
    (default_block_duration <= mx -> d <= mx) /\
    (forall r, In r block_ranges -> r <= mx -> r <= d) /\
    Forall (block_aligned d) bl /\ StronglySorted Z.lt (map b_lo bl).
Proof.
  intros Hr Hbf.
  destruct (backfill_written mx input bl Hbf) as (_ & d & k & ts & Hd & Hin & Hpos & Hc & ->).
  destruct (cbd_spec mx) as (d' & Hd' & _ & Hle & Hmax).
  assert (d' = d) by congruence. subst d'.
  destruct (blocks_spec_aligned (samples_of input) d Hpos (in_range_strict input Hr) ts (d * k) Hc)
    as (H1 & _ & H3); [exists k; reflexivity|].
  exists d. repeat (split; [assumption|]). assumption.
Qed.

(* Whatever the order of the lines, and whatever the timestamps: nothing is invented and nothing
   is stored twice. *)
Lemma written_sound mx input bl :
  backfill mx input = BFOk bl \/ backfill mx input = BFCreateErr bl ->
  (forall s t v, In (s, t, v) (all_samples bl) -> In (ESample s (Some t) v) input) /\
  NoDup (map key (all_samples bl)).
Proof.
  intros Hbf.
  destruct (backfill_written mx input bl Hbf) as (_ & d & k & ts & _ & _ & Hpos & Hc & ->).
  rewrite all_samples_spec. split.
  - intros s t v H. apply samples_of_in. apply in_flat_map in H as (t0 & _ & H).
    apply bsamp_in in H. apply H.
  - eapply flat_nodup; eauto.
Qed.

Theorem sound mx input bl : in_range input ->
  backfill mx input = BFOk bl \/ backfill mx input = BFCreateErr bl ->
  (forall s t v, In (s, t, v) (all_samples bl) -> In (ESample s (Some t) v) input) /\
  NoDup (map key (all_samples bl)).
Proof. intros _. apply written_sound. Qed.

Lemma sample_eqb_spec x y : sample_eqb x y = true <-> x = y.
Proof.
  unfold sample_eqb. destruct x as [[s t] v], y as [[s' t'] v']. cbn [s_sid s_ts s_val fst snd].
  destruct (Z.eqb_spec t t') as [->|Ht]; [|split; [discriminate|congruence]].
  destruct (Z.eqb_spec s s') as [->|Hs]; [|split; [discriminate|congruence]].
  destruct (Z.eqb_spec v v') as [->|Hv]; split; congruence.
Qed.

Lemma orderedb_spec d l : orderedb d l = true <-> ordered d l.
Proof.
  induction l as [|a l IH]; simpl; [tauto|].
  rewrite andb_true_iff, IH, forallb_forall. apply and_iff_compat_r. split; intros H1 y Hy.
  - intros Hs Hw. specialize (H1 y Hy). rewrite Hs, Z.eqb_refl, Hw, Z.eqb_refl in H1.
    destruct (Z.ltb_spec (s_ts a) (s_ts y)); [left; assumption|right; apply sample_eqb_spec, H1].
  - destruct (Z.eqb_spec (s_sid y) (s_sid a)) as [E1|]; [|reflexivity].
    destruct (Z.ltb_spec (s_ts a) (s_ts y)) as [|E2]; [reflexivity|].
    destruct (Z.eqb_spec (s_ts y / d) (s_ts a / d)) as [E3|]; [|reflexivity].
    destruct (H1 y Hy E1 E3) as [Hlt|Heq]; [lia|]. apply sample_eqb_spec, Heq.
Qed.

Lemma in_range_b l :
  forallb (fun x => (- 2 ^ 62 <=? s_ts x) && (s_ts x <=? 2 ^ 62)) (samples_of l) = true -> in_range l.
Proof.
  intros H s t v Hin. apply samples_of_in in Hin. rewrite forallb_forall in H.
  specialize (H _ Hin). apply andb_true_iff in H as [H1 H2]. apply Z.leb_le in H1, H2. exact (conj H1 H2).
Qed.

Definition ex_input : list entry :=
  [EOther; ESample 0 (Some (-7200001)) 11; ESample 1 (Some (-1)) 12; ESample 0 (Some (-7200000)) 13;
   ESample 1 (Some 0) 14; ESample 0 (Some 7199999) 15; ESample 0 (Some 7199999) 15;
   ESample 1 (Some 50400000) 16].

Definition old_input : list entry := [ESample 0 (Some (-1)) 7; ESample 0 (Some 5) 8].
