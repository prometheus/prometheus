(* proof/AlertingProofs.v — proofs about model/Alerting.v (property C44). *)
From Coq Require Import List ZArith Bool Lia.
From Verif Require Import lib.SortedList model.Alerting.
Import ListNotations.
Open Scope Z_scope.

Fixpoint sorted {A} (m : list (Z * A)) : Prop :=
  match m with
  | [] => True
  | (k, _) :: r => (forall k', In k' (map fst r) -> k < k') /\ sorted r
  end.

Lemma lookup_none_notin {A} k (m : list (Z * A)) : ~ In k (map fst m) -> lookup k m = None.
Proof.
  induction m as [|[k' v] r IH]; simpl; intros Hn; [reflexivity|].
  destruct (Z.eqb_spec k k') as [->|Hne]; [tauto|]. apply IH. tauto.
Qed.

Lemma lookup_in {A} k (m : list (Z * A)) a : lookup k m = Some a -> In (k, a) m.
Proof.
  induction m as [|[k' v] r IH]; simpl; [discriminate|].
  destruct (Z.eqb_spec k k') as [->|Hne]; intros H.
  - injection H as ->. now left.
  - right. now apply IH.
Qed.

Lemma in_lookup {A} k (m : list (Z * A)) a : sorted m -> In (k, a) m -> lookup k m = Some a.
Proof.
  induction m as [|[k' v] r IH]; simpl; [tauto|].
  intros [Hlt Hs] [[= -> ->]|Hin].
  - now rewrite Z.eqb_refl.
  - destruct (Z.eqb_spec k k') as [->|Hne]; [|now apply IH].
    specialize (Hlt k' (in_map fst _ _ Hin)). lia.
Qed.

Lemma lookup_some_in_keys {A} k (m : list (Z * A)) a : lookup k m = Some a -> In k (map fst m).
Proof. intros H. apply lookup_in in H. apply in_map_iff. exists (k, a). auto. Qed.

Lemma upsert_keys {A} k (v : A) m k' : In k' (map fst (upsert k v m)) <-> k' = k \/ In k' (map fst m).
Proof.
  induction m as [|[k0 v0] r IH]; simpl; [intuition|].
  destruct (Z.ltb_spec k k0); simpl; [intuition|].
  destruct (Z.eqb_spec k k0) as [->|Hne]; simpl; [|rewrite IH]; intuition.
Qed.

Lemma upsert_sorted {A} k (v : A) m : sorted m -> sorted (upsert k v m).
Proof.
  induction m as [|[k0 v0] r IH]; simpl.
  - intros _. split; [intros ? []|exact I].
  - intros [Hlt Hs].
    destruct (Z.ltb_spec k k0).
    + simpl. split; [|split; assumption].
      intros k' [<-|Hin]; [lia|]. specialize (Hlt _ Hin). lia.
    + destruct (Z.eqb_spec k k0) as [->|Hne]; simpl.
      * split; assumption.
      * split; [|now apply IH].
        intros k' Hin. apply upsert_keys in Hin. destruct Hin as [->|Hin]; [lia|now apply Hlt].
Qed.

Lemma lookup_upsert {A} k (v : A) m k' : sorted m ->
  lookup k' (upsert k v m) = if k' =? k then Some v else lookup k' m.
Proof.
  induction m as [|[k0 v0] r IH]; simpl; intros Hs.
  - destruct (k' =? k); reflexivity.
  - destruct Hs as [Hlt Hs].
    destruct (Z.ltb_spec k k0); simpl.
    + destruct (Z.eqb_spec k' k); reflexivity.
    + destruct (Z.eqb_spec k k0) as [->|Hne]; simpl.
      * destruct (Z.eqb_spec k' k0); reflexivity.
      * rewrite IH by assumption.
        destruct (Z.eqb_spec k' k0) as [->|]; [|reflexivity].
        destruct (Z.eqb_spec k0 k); [lia|reflexivity].
Qed.

Lemma memZ_in k l : memZ k l = true <-> In k l.
Proof.
  induction l as [|x r IH]; simpl; [split; [discriminate|tauto]|].
  rewrite orb_true_iff, IH, Z.eqb_eq. intuition.
Qed.

Lemma has_dup_nodup l : has_dup l = false -> NoDup l.
Proof.
  induction l as [|x r IH]; simpl; intros H; [constructor|].
  apply orb_false_iff in H. destruct H as [Hm Hd].
  constructor; [|now apply IH].
  intros Hin. apply memZ_in in Hin. congruence.
Qed.

Lemma memZ_lookup {A} k (res : list (Z * A)) :
  memZ k (map fst res) = match lookup k res with Some _ => true | None => false end.
Proof.
  induction res as [|[k0 v0] r IH]; simpl; [reflexivity|].
  destruct (Z.eqb_spec k k0); simpl; [reflexivity|exact IH].
Qed.

Lemma lookup_map_keyed (f : Z * alert -> Z * alert) m k :
  (forall ka, fst (f ka) = fst ka) ->
  lookup k (map f m) = match lookup k m with Some a => Some (snd (f (k, a))) | None => None end.
Proof.
  intros Hf. induction m as [|[k0 a0] r IH]; [reflexivity|].
  cbn [map lookup]. specialize (Hf (k0, a0)) as Hf0. destruct (f (k0, a0)) as [k1 a1] eqn:E. simpl in Hf0. subst k1.
  destruct (Z.eqb_spec k k0) as [->|Hne]; [now rewrite E|exact IH].
Qed.

Lemma sorted_map_keyed (f : Z * alert -> Z * alert) m :
  (forall ka, fst (f ka) = fst ka) -> sorted m -> sorted (map f m).
Proof.
  intros Hf. induction m as [|[k0 a0] r IH]; [auto|].
  cbn [map]. specialize (Hf (k0, a0)) as Hf0. destruct (f (k0, a0)) as [k1 a1] eqn:E. simpl in Hf0. subst k1.
  intros [Hlt Hs]. split; [|now apply IH].
  intros k' Hin. apply Hlt. rewrite map_map in Hin. erewrite map_ext in Hin; [exact Hin|]. intros; apply Hf.
Qed.

Definition all_wf (m : amap) : Prop := forall k a, In (k, a) m -> wf_alert a = true.

Definition inv (m : amap) : Prop := sorted m /\ all_wf m.

Lemma inv_nil : inv [].
Proof. split; [exact I|intros ? ? []]. Qed.

Lemma all_wf_lookup m k a : all_wf m -> lookup k m = Some a -> wf_alert a = true.
Proof. intros H Hl. apply (H k). now apply lookup_in. Qed.

Lemma all_wf_upsert m k a : sorted m -> all_wf m -> wf_alert a = true -> all_wf (upsert k a m).
Proof.
  intros Hs Hw Ha k' a' Hin.
  apply in_lookup in Hin; [|now apply upsert_sorted].
  rewrite lookup_upsert in Hin by assumption.
  destruct (k' =? k); [now injection Hin as <-|]. eapply all_wf_lookup; eauto.
Qed.

Lemma inv_map_keyed (f : Z * alert -> Z * alert) m :
  (forall ka, fst (f ka) = fst ka) -> (forall ka, wf_alert (snd ka) = true -> wf_alert (snd (f ka)) = true) ->
  inv m -> inv (map f m).
Proof.
  intros Hk Hw [Hs Ha]. split; [now apply sorted_map_keyed|].
  intros k a Hin. apply in_map_iff in Hin. destruct Hin as ([k0 a0] & E & Hin).
  specialize (Hw (k0, a0)). rewrite E in Hw. apply Hw. cbn [snd]. now apply (Ha k0).
Qed.

Lemma wf_set_value a v : wf_alert a = true -> wf_alert (set_value a v) = true.
Proof. destruct a as [[] ? ? ? ? ? ? ?]; simpl; auto. Qed.

Lemma wf_set_activeAt a t : wf_alert (set_activeAt a t) = wf_alert a.
Proof. destruct a as [[] ? ? ? ? ? ? ?]; reflexivity. Qed.

Lemma wf_mark_sent a ts rs iv : wf_alert (mark_sent a ts rs iv) = wf_alert a.
Proof. destruct a as [[] ? ? ? ? ? ? ?]; reflexivity. Qed.

Lemma set_activeAt_same a : set_activeAt a (a_activeAt a) = a.
Proof. destruct a; reflexivity. Qed.

Lemma wf_set_keepSince_active a k : is_active a = true -> wf_alert a = true ->
  a_state a = Firing \/ k = None -> wf_alert (set_keepSince a k) = true.
Proof.
  destruct a as [[] v act fa ra ks ls vu]; simpl; try discriminate; intros _ H [E|E]; try discriminate; subst; auto.
  destruct ra; auto. destruct fa; auto.
Qed.

Lemma hold_state_firing c ts a : a_state a = Firing -> c_hold c <= ts - a_activeAt a -> hold_state c ts a = a.
Proof. intros E H. unfold hold_state. rewrite E. destruct (Z.leb_spec (c_hold c) (ts - a_activeAt a)); [reflexivity|lia]. Qed.

Lemma hold_state_pending c ts a : a_state a = Pending ->
  hold_state c ts a = if c_hold c <=? ts - a_activeAt a then fire a ts else a.
Proof. intros E. unfold hold_state. now rewrite E. Qed.

Lemma wf_hold_state c ts a : is_active a = true -> wf_alert a = true -> wf_alert (hold_state c ts a) = true.
Proof.
  unfold hold_state. destruct a as [[] v act fa ra ks ls vu]; simpl; try discriminate;
    destruct (c_hold c <=? ts - act); simpl; auto;
    destruct ra; auto; destruct fa; auto.
Qed.

Lemma active_hold_state c ts a : is_active a = true -> is_active (hold_state c ts a) = true.
Proof.
  unfold hold_state. destruct a as [[] v act fa ra ks ls vu]; simpl; try discriminate;
    destruct (c_hold c <=? ts - act); simpl; auto.
Qed.

Definition merged_entry (ts : Z) (prev : option alert) (v : Z) : alert :=
  match prev with
  | Some a => if is_active a then set_value a v else new_alert ts v
  | None => new_alert ts v
  end.

Lemma wf_merged_entry ts prev v :
  (forall a, prev = Some a -> wf_alert a = true) -> wf_alert (merged_entry ts prev v) = true.
Proof.
  intros H. unfold merged_entry. destruct prev as [a|]; [|reflexivity].
  destruct (is_active a); [apply wf_set_value; now apply H|reflexivity].
Qed.

Lemma active_merged_entry ts prev v : is_active (merged_entry ts prev v) = true.
Proof.
  unfold merged_entry. destruct prev as [a|]; [|reflexivity].
  destruct (is_active a) eqn:E; [exact E | reflexivity].
Qed.

Lemma merge1_eq ts m k v : merge1 ts m (k, v) = upsert k (merged_entry ts (lookup k m) v) m.
Proof.
  unfold merge1, merged_entry, is_active. destruct (lookup k m) as [a|]; [|reflexivity].
  destruct (negb (astate_eqb (a_state a) Inactive)); reflexivity.
Qed.

Lemma merge_spec ts res : forall m, inv m -> NoDup (map fst res) ->
  inv (merge ts m res) /\
  forall k, lookup k (merge ts m res) =
            match lookup k res with
            | Some v => Some (merged_entry ts (lookup k m) v)
            | None => lookup k m
            end.
Proof.
  unfold merge. induction res as [|[k0 v0] r IH]; intros m [Hs Hw] Hnd.
  - simpl. split; [split; assumption|reflexivity].
  - simpl in Hnd. inversion Hnd as [|? ? Hnotin Hnd']; subst.
    cbn [fold_left]. rewrite merge1_eq.
    set (m1 := upsert k0 (merged_entry ts (lookup k0 m) v0) m).
    assert (Hinv1 : inv m1).
    { split; [now apply upsert_sorted|].
      apply all_wf_upsert; auto. apply wf_merged_entry. intros a Ha. eapply all_wf_lookup; eauto. }
    destruct (IH m1 Hinv1 Hnd') as [Hinv Hl]. split; [exact Hinv|].
    intros k. rewrite Hl. unfold m1. rewrite lookup_upsert by assumption. cbn [lookup].
    destruct (Z.eqb_spec k k0) as [->|Hne]; [|reflexivity].
    now rewrite (lookup_none_notin k0 r Hnotin).
Qed.

Lemma spec_next_present c ts v prev :
  spec_next c ts (Some v) prev = Some (hold_state c ts (set_keepSince (merged_entry ts prev v) None)).
Proof. unfold spec_next, merged_entry. destruct prev as [a|]; [destruct (is_active a)|]; reflexivity. Qed.

#[local] Arguments hold_state : simpl never.

(* the tail of an iteration, on an alert that is still active, is the reference machine's
   hold_state: Go's "fire if pending long enough, fall back if firing too early" *)
Lemma step_tail_hold c ts d a : is_active a = true ->
  step_tail c ts d a = mkStep (if d then None else Some (hold_state c ts a)) true (Some (hold_state c ts a)).
Proof.
  unfold step_tail, hold_state. destruct a as [[] v act fa ra ks ls vu]; [discriminate| |]; intros _; simpl;
    destruct (c_hold c <=? ts - act) eqn:E; simpl; rewrite ?Z.ltb_antisym, ?E; reflexivity.
Qed.

Lemma step_present c ts a : is_active a = true ->
  step_alert c ts true a =
  mkStep (Some (hold_state c ts (set_keepSince a None))) true (Some (hold_state c ts (set_keepSince a None))).
Proof. intros Ha. exact (step_tail_hold c ts false (set_keepSince a None) Ha). Qed.

(* the samples written are those of the entry kept, if it is active *)
Definition active_only (o : option alert) : option alert :=
  match o with Some e => if is_active e then o else None | None => None end.

(* step_tail stays folded under simpl, for step_tail_hold *)
Opaque step_tail.
Lemma step_absent c ts a : wf_alert a = true ->
  let s := step_alert c ts false a in
  s_keep s = spec_next c ts None (Some a) /\ s_emit s = active_only (s_keep s).
Proof.
  intros Hwf. unfold step_alert, spec_next.
  destruct a as [[] v act fa ra ks ls vu]; simpl in Hwf |- *.
  - destruct ra as [r|]; [|discriminate]. simpl. destruct (resolvedRetention <? ts - r); split; reflexivity.
  - split; reflexivity.
  - destruct ra; [discriminate|]. destruct fa; [|discriminate].
    destruct (0 <? c_kff c); simpl; [|split; reflexivity].
    destruct (ts - match ks with Some k => k | None => ts end <? c_kff c); simpl; [|split; reflexivity].
    rewrite step_tail_hold by reflexivity. simpl. now rewrite active_hold_state.
Qed.
Transparent step_tail.

Lemma step_emit c ts p a : wf_alert a = true -> (p = true -> is_active a = true) ->
  s_emit (step_alert c ts p a) = active_only (s_keep (step_alert c ts p a)).
Proof.
  intros Hwf Hp. destruct p; [|exact (proj2 (step_absent c ts a Hwf))].
  rewrite step_present by exact (Hp eq_refl). simpl.
  rewrite active_hold_state by exact (Hp eq_refl). reflexivity.
Qed.

Lemma wf_spec_next c ts pres prev a' :
  (forall a, prev = Some a -> wf_alert a = true) ->
  spec_next c ts pres prev = Some a' -> wf_alert a' = true.
Proof.
  intros Hwf. destruct pres as [v|].
  - rewrite spec_next_present. intros [= <-].
    assert (Ha := active_merged_entry ts prev v). assert (Hw := wf_merged_entry ts prev v Hwf).
    apply wf_hold_state; [exact Ha | apply wf_set_keepSince_active; auto].
  - destruct prev as [a|]; [|discriminate]. specialize (Hwf a eq_refl). unfold spec_next.
    destruct a as [[] v act fa ra ks ls vu]; simpl in *.
    + destruct ra as [r|]; [|discriminate].
      destruct (resolvedRetention <? ts - r); intros [= <-]; reflexivity.
    + discriminate.
    + destruct ra; [discriminate|]. destruct fa; [|discriminate].
      destruct ((0 <? c_kff c) && (ts - match ks with Some k => k | None => ts end <? c_kff c)); intros [= <-].
      * apply wf_hold_state; reflexivity.
      * destruct (0 <? c_kff c); reflexivity.
Qed.

Definition step_of (c : cfg) (ts : Z) (res : list (Z * Z)) (k : Z) (a : alert) : stepres :=
  step_alert c ts (memZ k (map fst res)) a.

Lemma kept_keys c ts res mm k : In k (map fst (kept (steps c ts res mm))) -> In k (map fst mm).
Proof.
  induction mm as [|[k0 a0] r IH]; simpl; [tauto|].
  unfold kept in *. simpl. rewrite map_app, in_app_iff.
  intros [H|H]; [|right; now apply IH].
  destruct (s_keep _); simpl in H; [left; intuition|tauto].
Qed.

Lemma kept_sorted c ts res mm : sorted mm -> sorted (kept (steps c ts res mm)).
Proof.
  induction mm as [|[k0 a0] r IH]; simpl; [auto|].
  intros [Hlt Hs]. unfold kept in *. simpl.
  destruct (s_keep _); simpl; [|now apply IH].
  split; [|now apply IH]. intros k' Hin. apply Hlt. eapply kept_keys; eauto.
Qed.

Lemma kept_lookup c ts res mm k : sorted mm ->
  lookup k (kept (steps c ts res mm)) =
  match lookup k mm with Some a => s_keep (step_of c ts res k a) | None => None end.
Proof.
  induction mm as [|[k0 a0] r IH]; simpl; [reflexivity|].
  intros [Hlt Hs]. unfold kept in *. simpl.
  destruct (Z.eqb_spec k k0) as [->|Hne].
  - unfold step_of. destruct (s_keep _) eqn:E; simpl.
    + now rewrite Z.eqb_refl.
    + apply lookup_none_notin. intros Hin. apply kept_keys in Hin. apply Hlt in Hin. lia.
  - destruct (s_keep _); simpl; [|now apply IH].
    destruct (Z.eqb_spec k k0); [contradiction|now apply IH].
Qed.

Lemma emitted_kept c ts res t mm :
  (forall k a, In (k, a) mm -> wf_alert a = true /\ (memZ k (map fst res) = true -> is_active a = true)) ->
  emitted t (steps c ts res mm) =
  flat_map (fun ka => if is_active (snd ka) then samples_of (fst ka) (snd ka) t else []) (kept (steps c ts res mm)).
Proof.
  induction mm as [|[k0 a0] r IH]; intros H; [reflexivity|].
  unfold emitted, kept in *. cbn [steps map flat_map fst snd].
  rewrite flat_map_app. f_equal; [|apply IH; intros k a Hin; apply H; now right].
  destruct (H k0 a0 (or_introl eq_refl)) as [Hwf Hact]. rewrite step_emit by assumption.
  destruct (s_keep _) as [e|]; [|reflexivity]. cbn [active_only flat_map fst snd].
  destruct (is_active e); [now rewrite app_nil_r | reflexivity].
Qed.

Lemma eval_kept_spec c m ts res : inv m -> NoDup (map fst res) ->
  inv (kept (steps c ts res (merge ts m res))) /\
  forall k, lookup k (kept (steps c ts res (merge ts m res))) = spec_next c ts (lookup k res) (lookup k m).
Proof.
  intros Hinv Hnd. destruct (merge_spec ts res m Hinv Hnd) as [[Hs Hw] Hl].
  assert (Hwf : forall k a, lookup k m = Some a -> wf_alert a = true)
    by (intros k a; exact (all_wf_lookup m k a (proj2 Hinv))).
  assert (Hlk : forall k, lookup k (kept (steps c ts res (merge ts m res))) = spec_next c ts (lookup k res) (lookup k m)).
  { intros k. rewrite kept_lookup, Hl by assumption. unfold step_of. rewrite memZ_lookup.
    destruct (lookup k res) as [v|].
    - rewrite step_present by apply active_merged_entry. symmetry. apply spec_next_present.
    - destruct (lookup k m) as [a|] eqn:Em; [|reflexivity]. exact (proj1 (step_absent c ts a (Hwf k a Em))). }
  split; [|exact Hlk]. split; [now apply kept_sorted|].
  intros k a Hin. apply in_lookup in Hin; [|now apply kept_sorted].
  rewrite Hlk in Hin. eapply wf_spec_next; [apply Hwf | exact Hin].
Qed.

Theorem eval_ok_spec c m ts qo limit res m' vec :
  inv m -> eval c m ts qo limit false res = (m', EvOk vec) ->
  inv m' /\
  (forall k, lookup k m' = spec_next c ts (lookup k res) (lookup k m)) /\
  vec = spec_vec c ts qo m'.
Proof.
  intros Hinv. unfold eval.
  destruct (has_dup (map fst res)) eqn:Ed; [discriminate|].
  destruct ((0 <? limit) && (limit <? counted (steps c ts res (merge ts m res)))); [discriminate|].
  intros [= <- <-]. apply has_dup_nodup in Ed.
  destruct (eval_kept_spec c m ts res Hinv Ed) as [Hinv' Hlk]. split; [exact Hinv'|]. split; [exact Hlk|].
  unfold spec_vec. destruct (c_restored c); [|reflexivity].
  destruct (merge_spec ts res m Hinv Ed) as [[Hs Hw] Hl].
  apply emitted_kept. intros k a Hin. split; [now apply (Hw k)|].
  intros Hm. apply in_lookup in Hin; [|assumption]. rewrite Hl in Hin. rewrite memZ_lookup in Hm.
  destruct (lookup k res); [|discriminate]. injection Hin as <-. apply active_merged_entry.
Qed.

Theorem eval_errors c m ts qo limit qerr res m' o :
  eval c m ts qo limit qerr res = (m', o) ->
  (qerr = true -> o = EvQueryErr /\ m' = m) /\
  (qerr = false -> has_dup (map fst res) = true -> o = EvDup /\ m' = m) /\
  (o = EvLimit -> m' = [] /\ 0 < limit) /\
  (o = EvQueryErr \/ o = EvDup -> m' = m).
Proof.
  unfold eval. destruct qerr; [|destruct (has_dup (map fst res))].
  1-2: intros [= <- <-]; repeat split; auto; discriminate.
  destruct (0 <? limit) eqn:E0; simpl; [destruct (limit <? counted _)|]; intros [= <- <-];
    repeat split; auto; try discriminate; try (now apply Z.ltb_lt); intros [|]; discriminate.
Qed.

Theorem evals_refine c es : forall m m', inv m -> evals c m es = Some m' ->
  inv m' /\ forall k, lookup k m' = key_run c k es (lookup k m).
Proof.
  induction es as [|e r IH]; intros m m' Hinv; cbn [evals].
  - intros [= <-]. split; [assumption|reflexivity].
  - destruct (eval c m (e_ts e) (e_qo e) (e_limit e) false (e_res e)) as [m1 o] eqn:Ee.
    destruct o; try discriminate.
    destruct (eval_ok_spec _ _ _ _ _ _ _ _ Hinv Ee) as (Hinv1 & Hl & _).
    intros H. destruct (IH _ _ Hinv1 H) as [Hinv' Hk]. split; [exact Hinv'|].
    intros k. rewrite Hk, Hl. reflexivity.
Qed.

(* "pending from its first active evaluation; firing at the first evaluation at least 'for' after
   its activation while it stayed active" *)
Definition shape (a : alert) (st : astate) (t0 : Z) (f : option Z) : Prop :=
  a_state a = st /\ a_activeAt a = t0 /\ a_firedAt a = f /\ a_resolvedAt a = None.

Lemma shape_refresh a st t0 f v : shape a st t0 f -> shape (set_keepSince (set_value a v) None) st t0 f.
Proof. exact (fun H => H). Qed.

Lemma shape_fire a t0 ts : shape a Pending t0 None -> shape (fire a ts) Firing t0 (Some ts).
Proof. intros (_ & E & _ & R). repeat split; assumption. Qed.

Lemma key_run_cons c k e r a : key_run c k (e :: r) a = key_run c k r (spec_next c (e_ts e) (lookup k (e_res e)) a).
Proof. reflexivity. Qed.

Lemma key_run_present c k e r a : present_in k e -> is_active a = true ->
  exists v, key_run c k (e :: r) (Some a) =
            key_run c k r (Some (hold_state c (e_ts e) (set_keepSince (set_value a v) None))).
Proof. intros [v Hv] Ha. exists v. rewrite key_run_cons, Hv. cbn [spec_next]. now rewrite Ha. Qed.

Lemma fire_run c k t0 f : forall es a tl,
  shape a Firing t0 (Some f) -> c_hold c <= tl - t0 -> mono tl es -> Forall (present_in k) es ->
  exists a', key_run c k es (Some a) = Some a' /\ shape a' Firing t0 (Some f).
Proof.
  induction es as [|e r IH]; intros a tl Hsh Hh Hm Hp; [exists a; auto|].
  destruct Hm as [Hle Hm]. inversion_clear Hp as [|? ? Hpe Hp'].
  destruct (key_run_present c k e r a Hpe) as [v ->]; [unfold is_active; now rewrite (proj1 Hsh)|].
  rewrite hold_state_firing.
  - apply (IH _ (e_ts e) (shape_refresh _ _ _ _ v Hsh)); auto. lia.
  - exact (proj1 Hsh).
  - simpl. rewrite (proj1 (proj2 Hsh)). lia.
Qed.

Definition reaches (c : cfg) (t0 : Z) (e : evin) : bool := c_hold c <=? e_ts e - t0.

Lemma pend_run c k t0 : forall es e X,
  shape X Pending t0 None -> mono (e_ts e) es -> Forall (present_in k) es ->
  exists a', key_run c k es (Some (hold_state c (e_ts e) X)) = Some a' /\
    match find (reaches c t0) (e :: es) with
    | Some e1 => shape a' Firing t0 (Some (e_ts e1))
    | None => shape a' Pending t0 None
    end.
Proof.
  induction es as [|e1 r IH]; intros e X Hsh Hm Hp;
    rewrite (hold_state_pending c _ X (proj1 Hsh)), (proj1 (proj2 Hsh)); cbn [find]; fold (reaches c t0 e);
    destruct (reaches c t0 e) eqn:Er.
  - eexists; split; [reflexivity|]. now apply shape_fire.
  - eexists; split; [reflexivity|]. exact Hsh.
  - (* fires at e, then stays firing *)
    apply (fire_run c k t0 (e_ts e) (e1 :: r) (fire X (e_ts e)) (e_ts e)); auto using shape_fire.
    unfold reaches in Er. now apply Z.leb_le in Er.
  - destruct Hm as [Hle Hm]. inversion_clear Hp as [|? ? Hpe Hp'].
    destruct (key_run_present c k e1 r X Hpe) as [v ->]; [unfold is_active; now rewrite (proj1 Hsh)|].
    apply IH; auto using shape_refresh.
Qed.

Theorem fires_at_first c k e0 es a0 :
  (a0 = None \/ exists a, a0 = Some a /\ is_active a = false) ->
  Forall (present_in k) (e0 :: es) -> mono (e_ts e0) es ->
  exists a', key_run c k (e0 :: es) a0 = Some a' /\
    match find (reaches c (e_ts e0)) (e0 :: es) with
    | Some e1 => shape a' Firing (e_ts e0) (Some (e_ts e1))
    | None => shape a' Pending (e_ts e0) None
    end.
Proof.
  intros Ha0 Hp Hm. inversion Hp as [|? ? [v Hv] Hp']; subst.
  rewrite key_run_cons, Hv.
  assert (E : spec_next c (e_ts e0) (Some v) a0 = Some (hold_state c (e_ts e0) (new_alert (e_ts e0) v))).
  { destruct Ha0 as [->|(a & -> & Hia)]; [reflexivity|]. cbn [spec_next]. now rewrite Hia. }
  rewrite E. apply pend_run; auto. repeat split.
Qed.

Lemma absent_pending c ts a : a_state a = Pending -> spec_next c ts None (Some a) = None.
Proof. intros E. cbn [spec_next]. now rewrite E. Qed.

Lemma absent_firing_no_keep c ts a : a_state a = Firing -> c_kff c <= 0 ->
  spec_next c ts None (Some a) = Some (resolve a ts).
Proof.
  intros E Hk. cbn [spec_next]. rewrite E.
  destruct (Z.ltb_spec 0 (c_kff c)); [lia|reflexivity].
Qed.

(* a firing alert absent inside its keep_firing_for window, open since t1 *)
Lemma absent_firing_kept c ts a t1 : a_state a = Firing -> 0 < c_kff c -> ts - t1 < c_kff c ->
  a_keepSince a = None /\ t1 = ts \/ a_keepSince a = Some t1 ->
  c_hold c <= ts - a_activeAt a ->
  spec_next c ts None (Some a) = Some (set_keepSince a (Some t1)).
Proof.
  intros Hs Hk Hw Hks Hh. cbn [spec_next]. rewrite Hs.
  assert (E : match a_keepSince a with None => ts | Some k => k end = t1) by (destruct Hks as [[-> ->]| ->]; reflexivity).
  rewrite E. destruct (Z.ltb_spec 0 (c_kff c)); [|lia]. destruct (Z.ltb_spec (ts - t1) (c_kff c)); [|lia].
  cbn [andb]. now rewrite hold_state_firing.
Qed.

Theorem keep_firing_window c k : forall es a t1 tl,
  a_state a = Firing -> a_keepSince a = Some t1 -> 0 < c_kff c -> c_hold c <= tl - a_activeAt a ->
  mono tl es -> Forall (absent_in k) es -> Forall (fun e => e_ts e - t1 < c_kff c) es ->
  key_run c k es (Some a) = Some a.
Proof.
  induction es as [|e r IH]; intros a t1 tl Hs Hks Hk Hh Hm Ha Hw; [reflexivity|].
  destruct Hm as [Hle Hm]. inversion_clear Ha as [|? ? Hab Ha']. inversion_clear Hw as [|? ? Hwe Hw']. unfold absent_in in Hab.
  rewrite key_run_cons, Hab, (absent_firing_kept c (e_ts e) a t1) by (auto; lia).
  replace (set_keepSince a (Some t1)) with a by (destruct a; simpl in Hks; now subst).
  apply (IH a t1 (e_ts e)); auto. lia.
Qed.

Lemma keep_firing_ends c ts a t1 : a_state a = Firing -> a_keepSince a = Some t1 -> c_kff c <= ts - t1 ->
  spec_next c ts None (Some a) = Some (resolve a ts).
Proof.
  intros Hs Hks Hk. cbn [spec_next]. rewrite Hs, Hks.
  destruct (Z.ltb_spec (ts - t1) (c_kff c)); [lia|]. rewrite andb_false_r.
  destruct (0 <? c_kff c); [|reflexivity]. destruct a; simpl in *; subst; reflexivity.
Qed.

Theorem retention_kept c k r : forall es a,
  a_state a = Inactive -> a_resolvedAt a = Some r ->
  Forall (absent_in k) es -> Forall (fun e => e_ts e - r <= resolvedRetention) es ->
  key_run c k es (Some a) = Some a.
Proof.
  induction es as [|e es IH]; intros a Hs Hr Ha Hw; [reflexivity|].
  inversion_clear Ha as [|? ? Hab Ha']. inversion_clear Hw as [|? ? Hwe Hw']. unfold absent_in in Hab.
  rewrite key_run_cons, Hab. cbn [spec_next]. rewrite Hs, Hr.
  destruct (Z.ltb_spec resolvedRetention (e_ts e - r)); [lia|]. now apply IH.
Qed.

Lemma retention_dropped c ts a r : a_state a = Inactive -> a_resolvedAt a = Some r ->
  resolvedRetention < ts - r -> spec_next c ts None (Some a) = None.
Proof.
  intros Hs Hr Hlt. cbn [spec_next]. rewrite Hs, Hr.
  destruct (Z.ltb_spec resolvedRetention (ts - r)); [reflexivity|lia].
Qed.

Lemma reappears_pending c ts a v : a_state a = Inactive ->
  spec_next c ts (Some v) (Some a) = Some (hold_state c ts (new_alert ts v)).
Proof. intros Hs. cbn [spec_next]. unfold is_active. now rewrite Hs. Qed.

Lemma query_store_keys lo hi st k : In k (map fst (query_store lo hi st)) -> In k (map fst st).
Proof.
  induction st as [|[k0 s0] r IH]; simpl; [tauto|].
  unfold query_store in *. cbn [flat_map fst snd]. rewrite map_app, in_app_iff.
  intros [H|H]; [|right; now apply IH].
  destruct (in_range lo hi s0); simpl in H; [tauto|left; intuition].
Qed.

Lemma query_store_lookup lo hi st k : NoDup (map fst st) ->
  lookup k (query_store lo hi st) =
  match lookup k st with
  | Some s => match in_range lo hi s with [] => None | s' => Some s' end
  | None => None
  end.
Proof.
  induction st as [|[k0 s0] r IH]; intros Hnd; [reflexivity|].
  simpl in Hnd. inversion Hnd as [|? ? Hnotin Hnd']; subst.
  unfold query_store in *. cbn [flat_map fst snd lookup].
  destruct (Z.eqb_spec k k0) as [->|Hne].
  - destruct (in_range lo hi s0) eqn:Ei.
    + cbn [app]. apply lookup_none_notin. intros Hin. apply Hnotin. eapply query_store_keys; eauto.
    + cbn [app lookup]. now rewrite Z.eqb_refl.
  - destruct (in_range lo hi s0); cbn [app lookup]; [now apply IH|].
    destruct (Z.eqb_spec k k0); [contradiction|now apply IH].
Qed.

Lemma restore_alert_key hold grace ts q ka : fst (restore_alert hold grace ts q ka) = fst ka.
Proof.
  unfold restore_alert. destruct (lookup (fst ka) q) as [s|]; [|reflexivity].
  destruct (last_sample s) as [[t [v|]]|]; reflexivity.
Qed.

(* the restore is the map over the entries also when nothing was found in the store *)
Lemma restore_eq c m ts tol grace st :
  restore c m ts tol grace st =
  (mkCfg (c_hold c) (c_kff c) true,
   if c_hold c <? grace then m
   else map (restore_alert (c_hold c) grace ts (query_store (tms_of_nano (ts - tol)) (tms_of_nano ts) st)) m).
Proof.
  unfold restore. destruct (c_hold c <? grace); [reflexivity|].
  destruct (query_store _ _ st); [|reflexivity].
  f_equal. induction m as [|ka m IH]; [reflexivity|]. cbn [map]. now rewrite <- IH.
Qed.

Lemma restore_alert_spec hold grace ts tol st k a : NoDup (map fst st) ->
  snd (restore_alert hold grace ts (query_store (tms_of_nano (ts - tol)) (tms_of_nano ts) st) (k, a)) =
  match visible_sample ts tol st k with
  | Some (t, Some v) => set_activeAt a (restored_activeAt hold grace ts t v)
  | _ => a
  end.
Proof.
  intros Hnd. unfold restore_alert, visible_sample. cbn [fst snd]. rewrite query_store_lookup by assumption.
  destruct (lookup k st) as [s|]; [|reflexivity].
  destruct (in_range _ _ s) as [|x xs]; [reflexivity|].
  destruct (last_sample (x :: xs)) as [[t [v|]]|]; reflexivity.
Qed.

Theorem restore_spec c m ts tol grace st c' m' :
  NoDup (map fst st) -> restore c m ts tol grace st = (c', m') ->
  c' = mkCfg (c_hold c) (c_kff c) true /\
  (forall k, lookup k m = None -> lookup k m' = None) /\
  forall k a, lookup k m = Some a ->
    exists a', lookup k m' = Some a' /\ a' = set_activeAt a (a_activeAt a') /\
      a_activeAt a' =
      match visible_sample ts tol st k with
      | Some (t, Some v) => if c_hold c <? grace then a_activeAt a
                            else restored_activeAt (c_hold c) grace ts t v
      | _ => a_activeAt a
      end.
Proof.
  intros Hnd. rewrite restore_eq. intros [= <- <-]. split; [reflexivity|].
  destruct (c_hold c <? grace).
  - split; [auto|]. intros k a Hl. exists a. rewrite set_activeAt_same. repeat split; auto.
    destruct (visible_sample ts tol st k) as [[t [v|]]|]; reflexivity.
  - split; intros k; [|intros a]; intros Hl;
      rewrite lookup_map_keyed, Hl by (intros; apply restore_alert_key); [reflexivity|].
    eexists; split; [reflexivity|]. rewrite restore_alert_spec by assumption.
    destruct (visible_sample ts tol st k) as [[t [v|]]|]; rewrite ?set_activeAt_same; split; reflexivity.
Qed.

(* the documented shift: with down = the second of the last stored sample, orig = the stored
   activation second, remaining = hold - (down - orig) *)
Lemma restored_activeAt_spec hold grace ts t v :
  let down := Z.quot t 1000 * sec in
  let orig := v * sec in
  let remaining := hold - (down - orig) in
  let r := restored_activeAt hold grace ts t v in
  (remaining <= 0 -> r = orig) /\
  (0 < remaining -> r + hold = ts + Z.max grace remaining).
Proof.
  cbv zeta. unfold restored_activeAt.
  generalize (Z.quot t 1000 * sec) (v * sec). intros d o.
  destruct (Z.leb_spec (hold - (d - o)) 0); [split; [auto|lia]|].
  destruct (Z.ltb_spec (hold - (d - o)) grace); split; intros; try lia;
    destruct (Z.max_spec grace (hold - (d - o))) as [[? ->]|[? ->]]; lia.
Qed.

Lemma visible_sample_out_of_tolerance ts tol st k s :
  lookup k st = Some s ->
  Forall (fun tv => fst tv < tms_of_nano (ts - tol) \/ tms_of_nano ts < fst tv) s ->
  visible_sample ts tol st k = None.
Proof.
  intros Hl Hall. unfold visible_sample, in_range. rewrite Hl, filter_none; [reflexivity|].
  intros x Hx. apply (Forall_in Hall) in Hx. apply andb_false_iff. rewrite !Z.leb_gt. exact Hx.
Qed.

Lemma eval_inv c m ts qo limit qerr res : inv m -> inv (fst (eval c m ts qo limit qerr res)).
Proof.
  intros Hinv. unfold eval. destruct qerr; [exact Hinv|].
  destruct (has_dup (map fst res)) eqn:Ed; [exact Hinv|].
  destruct (_ && _); [exact inv_nil|]. cbn [fst]. now apply eval_kept_spec, has_dup_nodup.
Qed.

Lemma apply_inv w o : inv (snd w) -> inv (snd (fst (apply w o))).
Proof.
  destruct w as [c m]. cbn [snd]. intros Hinv. destruct o; cbn [apply].
  - pose proof (eval_inv c m ts qo limit qerr res Hinv) as H.
    destruct (eval c m ts qo limit qerr res) as [m' out]. exact H.
  - unfold send_alerts. cbn [fst snd]. apply inv_map_keyed; auto.
    + intros ka. destruct (needs_sending (snd ka) ts resend); reflexivity.
    + intros ka Hw. destruct (needs_sending (snd ka) ts resend); [|exact Hw].
      cbn [snd]. now rewrite wf_mark_sent.
  - exact Hinv.
  - apply inv_nil.
  - rewrite restore_eq. cbn [fst snd]. destruct (c_hold c <? grace); [exact Hinv|].
    apply inv_map_keyed; auto.
    + intros; apply restore_alert_key.
    + intros ka Hw. unfold restore_alert. destruct (lookup (fst ka) _) as [ss|]; [|exact Hw].
      destruct (last_sample ss) as [[t1 [v1|]]|]; exact Hw.
Qed.

Theorem run_world_inv ops : forall w, inv (snd w) -> inv (snd (run_world w ops)).
Proof.
  unfold run_world. induction ops as [|o r IH]; intros w Hinv; [exact Hinv|].
  cbn [fold_left]. apply IH. now apply apply_inv.
Qed.
