(* proof/SeriesRefProofs.v — property C22 on model/SeriesRef.v.

   Two invariants of the reachable states.  [bound_ok]: lastSeriesID bounds every ref still in play
   (WAL records, head, client cache); it holds after every history.  [coherent]: every head series,
   cached ref and sample record carries the labels of the series record of its ref; it holds under
   [ops_ok].  Each is carried through a transaction by an invariant of the fold over the appends
   ([tx_inv], [coh]) and through a restart by an invariant of the replay ([rp_inv], [RI]).
   props/C22.v reads its theorems off [fresh_ref_above_chunks] (from [bound_run] and
   [chunk_refs_bounded]), [coherent_run] and [stale_ref_safe]. *)
From Coq Require Import List ZArith Bool Lia.
From Verif Require Import model.SeriesRef.
Import ListNotations.
Open Scope Z_scope.

Lemma fold_left_inv : forall {A B} (f : A -> B -> A) (P : A -> Prop) l,
  (forall a b, In b l -> P a -> P (f a b)) -> forall a, P a -> P (fold_left f l a).
Proof.
  induction l as [|b l IH]; simpl; intros Hf a Ha; [exact Ha|].
  apply IH; [intros a' b' Hb'; apply Hf; now right|]. apply Hf; [now left|exact Ha].
Qed.

Lemma concat_app_last : forall sg (rs : list rec), concat (app_last sg rs) = concat sg ++ rs.
Proof.
  induction sg as [|s [|s' t] IH]; intros rs; simpl in *; rewrite ?app_nil_r; [reflexivity..|].
  rewrite IH. apply app_assoc.
Qed.

Lemma wal_app_last : forall m rs l h e c lt rt,
  wal (mkSt l h e c lt (ckpt m) (app_last (segs m) rs) (first m) rt) = wal m ++ rs.
Proof. intros. unfold wal; simpl. rewrite concat_app_last. apply app_assoc. Qed.

Lemma wal_snoc_nil : forall m, ckpt m ++ concat (segs m ++ [[]]) = wal m.
Proof. intros. unfold wal. rewrite concat_app. simpl. now rewrite app_nil_r. Qed.

(* truncateWAL filters a prefix of the stream (an empty one when it does nothing) through the
   checkpoint's keep function *)
Lemma truncate_wal_wal : forall m mint,
  exists A B, wal m = A ++ B /\
    wal (truncate_wal m mint) = filter (ck_keep (keepf (head m) (expiry m) mint) mint) A ++ B.
Proof.
  intros m mint. unfold truncate_wal.
  destruct (mint <=? lastTrunc m); [exists [], (wal m); split; reflexivity|].
  destruct (first m + Z.of_nat (length (segs m)) - 1 - 1 <? 0);
    [exists [], (wal m); split; [reflexivity|exact (wal_snoc_nil m)]|].
  match goal with |- context [if ?c then _ else _] => destruct c end;
    [exists [], (wal m); split; [reflexivity|exact (wal_snoc_nil m)]|].
  unfold wal at 2; simpl.
  match goal with |- context [firstn ?n _] => set (n0 := n) end.
  exists (ckpt m ++ concat (firstn n0 (segs m ++ [[]]))), (concat (skipn n0 (segs m ++ [[]]))).
  split; [|reflexivity].
  rewrite <- app_assoc, <- concat_app, firstn_skipn. symmetry. apply wal_snoc_nil.
Qed.

Lemma truncate_wal_sub : forall m mint x, In x (wal (truncate_wal m mint)) -> In x (wal m).
Proof.
  intros m mint x. destruct (truncate_wal_wal m mint) as (A & B & -> & ->). intros Hin.
  apply in_app_iff in Hin. apply in_app_iff. destruct Hin as [Hin|Hin]; [left|now right].
  apply filter_In in Hin. apply Hin.
Qed.

Lemma truncate_wal_fields : forall m mint,
  last (truncate_wal m mint) = last m /\ head (truncate_wal m mint) = head m /\
  cache (truncate_wal m mint) = cache m.
Proof.
  intros m mint. unfold truncate_wal.
  destruct (mint <=? lastTrunc m); [auto|].
  destruct (first m + Z.of_nat (length (segs m)) - 1 - 1 <? 0); [simpl; auto|].
  match goal with |- context [if ?c then _ else _] => destruct c end; simpl; auto.
Qed.

Lemma by_ref_some : forall h r s, by_ref h r = Some s -> In s h /\ s_ref s = r.
Proof.
  unfold by_ref. intros h r s H. apply find_some in H. destruct H as [H1 H2].
  split; auto. now apply Z.eqb_eq.
Qed.

Lemma by_lset_some : forall h l s, by_lset h l = Some s -> In s h /\ s_l s = l.
Proof.
  unfold by_lset. intros h l s H. apply find_some in H. destruct H as [H1 H2].
  split; auto. now apply Z.eqb_eq.
Qed.

(* the checkpoint keeps the records of live series *)
Lemma keepf_head : forall h e mint s, In s h -> keepf h e mint (s_ref s) = true.
Proof.
  intros h e mint s Hs. unfold keepf. destruct (by_ref h (s_ref s)) eqn:E; [reflexivity|].
  unfold by_ref in E. eapply find_none in E; [|exact Hs]. simpl in E. rewrite Z.eqb_refl in E. discriminate.
Qed.

(* upd_first and set_orig touch s_orig only: refs and labels stay, position by position *)
Definition skey (s : series) : Z * Z := (s_ref s, s_l s).

Lemma upd_first_keys : forall r g h, map skey (upd_first r g h) = map skey h.
Proof.
  induction h as [|a h IH]; simpl; [reflexivity|].
  destruct (s_ref a =? r); simpl; [|now rewrite IH].
  unfold add_ghost. now destruct (memZ g (s_orig a)).
Qed.

Lemma set_orig_keys : forall r o h, map skey (set_orig r o h) = map skey h.
Proof.
  induction h as [|a h IH]; simpl; [reflexivity|].
  destruct (s_ref a =? r); simpl; [reflexivity|now rewrite IH].
Qed.

Lemma keys_in : forall h h' s, map skey h = map skey h' -> In s h ->
  exists s', In s' h' /\ s_ref s = s_ref s' /\ s_l s = s_l s'.
Proof.
  intros h h' s E Hs. apply (in_map skey) in Hs. rewrite E in Hs. apply in_map_iff in Hs.
  destruct Hs as (s' & E' & Hs'). injection E' as E1 E2. exists s'. auto.
Qed.

Lemma upd_first_in : forall r g h s, In s (upd_first r g h) ->
  exists s0, In s0 h /\ s_ref s = s_ref s0 /\ s_l s = s_l s0.
Proof. intros r g h s. apply keys_in, upd_first_keys. Qed.

Lemma set_orig_in : forall r o h s, In s (set_orig r o h) ->
  exists s0, In s0 h /\ s_ref s = s_ref s0 /\ s_l s = s_l s0.
Proof. intros r o h s. apply keys_in, set_orig_keys. Qed.

Definition series_pure_p (s : series) : Prop := forall g, In g (s_orig s) -> g = s_l s.

Lemma upd_first_pure : forall r g h,
  (forall s, In s h -> series_pure_p s) ->
  (forall s, In s h -> s_ref s = r -> s_l s = g) ->
  forall s, In s (upd_first r g h) -> series_pure_p s.
Proof.
  induction h as [|a h IH]; simpl; intros Hp Hl s Hs; [tauto|].
  destruct (s_ref a =? r) eqn:E.
  - destruct Hs as [<-|Hs]; [|apply Hp; now right].
    apply Z.eqb_eq in E. unfold add_ghost. destruct (memZ g (s_orig a)); [apply Hp; now left|].
    intros g' [<-|Hg']; simpl; [symmetry; apply Hl; auto|apply (Hp a); auto].
  - destruct Hs as [<-|Hs]; [apply Hp; now left|].
    apply IH; auto.
Qed.

Lemma set_orig_pure : forall r o h,
  (forall s, In s h -> series_pure_p s) ->
  (forall s, In s h -> s_ref s = r -> forall g, In g o -> g = s_l s) ->
  forall s, In s (set_orig r o h) -> series_pure_p s.
Proof.
  induction h as [|a h IH]; simpl; intros Hp Ho s Hs; [tauto|].
  destruct (s_ref a =? r) eqn:E.
  - destruct Hs as [<-|Hs]; [|apply Hp; now right].
    apply Z.eqb_eq in E. intros g Hg. simpl in *. eapply Ho; eauto.
  - destruct Hs as [<-|Hs]; [apply Hp; now left|]. apply IH; auto.
Qed.

Lemma remove_first_in : forall r h s, In s (remove_first r h) -> In s h.
Proof.
  induction h as [|a h IH]; simpl; intros s Hin; [tauto|].
  destruct (s_ref a =? r); [now right|]. destruct Hin; [now left | right; auto].
Qed.

(* headAppender.Append in two stages: the lookup (by the client's ref, then by labels, else a new
   series with the next ref), then [finish] on the series [tgt] it found or created *)
Definition finish (h1 : list series) (tgt : Z) (a : app) : list series * Z * list rec :=
  if a_ok a then
    if a_stale a then (h1, tgt, [])
    else (upd_first tgt (a_l a) h1, tgt, [RSample tgt (a_l a) (a_t a)])
  else (h1, 0, []).

Lemma append1_miss : forall lst h a, by_ref h (a_cref a) = None -> by_lset h (a_l a) = None ->
  append1 lst h a = let '(h', ret, smp) := finish (mkS (lst + 1) (a_l a) [] :: h) (lst + 1) a in
                    (lst + 1, h', ret, [RSeries (lst + 1) (a_l a)], smp).
Proof.
  intros lst h a E1 E2. unfold append1, finish. rewrite E1, E2.
  destruct (a_ok a), (a_stale a); reflexivity.
Qed.

Lemma append1_lookup : forall lst h a,
  (exists s, In s h /\ (s_ref s = a_cref a \/ s_l s = a_l a) /\
     append1 lst h a = let '(h', ret, smp) := finish h (s_ref s) a in (lst, h', ret, [], smp))
  \/ (by_ref h (a_cref a) = None /\ by_lset h (a_l a) = None /\
      append1 lst h a = let '(h', ret, smp) := finish (mkS (lst + 1) (a_l a) [] :: h) (lst + 1) a in
                        (lst + 1, h', ret, [RSeries (lst + 1) (a_l a)], smp)).
Proof.
  intros lst h a.
  destruct (by_ref h (a_cref a)) as [s|] eqn:E1; [|destruct (by_lset h (a_l a)) as [s|] eqn:E2].
  - left. exists s. unfold append1, finish. rewrite E1. apply by_ref_some in E1. destruct E1 as [Hin Hr].
    split; [exact Hin|]. split; [left; exact Hr|]. destruct (a_ok a), (a_stale a); reflexivity.
  - left. exists s. unfold append1, finish. rewrite E1, E2. apply by_lset_some in E2. destruct E2 as [Hin Hl].
    split; [exact Hin|]. split; [right; exact Hl|]. destruct (a_ok a), (a_stale a); reflexivity.
  - right. split; [reflexivity|]. split; [reflexivity|]. exact (append1_miss lst h a E1 E2).
Qed.

Definition alloc_le (b : Z) (x : rec) : Prop :=
  match rec_alloc_ref x with Some r => r <= b | None => True end.

Definition bound_ok (m : st) : Prop :=
  (forall x, In x (wal m) -> alloc_le (last m) x) /\
  (forall s, In s (head m) -> s_ref s <= last m) /\
  (forall p, In p (cache m) -> fst p <= last m).

Lemma alloc_le_mono : forall b b' x, b <= b' -> alloc_le b x -> alloc_le b' x.
Proof. unfold alloc_le; intros b b' x Hb H. destruct (rec_alloc_ref x); [lia|exact I]. Qed.

(* l0 is lastSeriesID at the start of the transaction; it bounds the WAL as it was then *)
Definition tx_inv (l0 : Z) (acc : Z * list series * list (Z * Z) * list Z * list rec * list rec) : Prop :=
  let '(lst, h, c, _, sr, sm) := acc in
  l0 <= lst /\ (forall s, In s h -> s_ref s <= lst) /\ (forall p, In p c -> fst p <= lst) /\
  (forall x, In x sr -> alloc_le lst x) /\ (forall x, In x sm -> rec_alloc_ref x = None).

Lemma tx_inv_create : forall l0 lst h c rs sr sm l, tx_inv l0 (lst, h, c, rs, sr, sm) ->
  tx_inv l0 (lst + 1, mkS (lst + 1) l [] :: h, c, rs, sr ++ [RSeries (lst + 1) l], sm).
Proof.
  intros l0 lst h c rs sr sm l (H0 & Hh & Hc & Hsr & Hsm). unfold tx_inv. repeat split.
  - lia.
  - intros s [<-|Hs]; simpl; [lia|]. specialize (Hh _ Hs). lia.
  - intros p Hp. specialize (Hc _ Hp). lia.
  - intros x Hx. apply in_app_iff in Hx. destruct Hx as [Hx|[<-|[]]].
    + eapply alloc_le_mono; [|exact (Hsr _ Hx)]. lia.
    + unfold alloc_le; simpl. lia.
  - exact Hsm.
Qed.

Lemma tx_inv_finish : forall l0 lst h c rs sr sm tgt a, tx_inv l0 (lst, h, c, rs, sr, sm) -> tgt <= lst ->
  let '(h', ret, smp) := finish h tgt a in
  forall rs', tx_inv l0 (lst, h', (if a_ok a then (ret, a_l a) :: c else c), rs', sr, sm ++ smp).
Proof.
  intros l0 lst h c rs sr sm tgt a (H0 & Hh & Hc & Hsr & Hsm) Ht.
  assert (Hc' : forall p, In p ((tgt, a_l a) :: c) -> fst p <= lst) by (intros p [<-|Hp]; auto).
  unfold finish. destruct (a_ok a); [destruct (a_stale a)|]; intros rs'; rewrite ?app_nil_r;
    unfold tx_inv; repeat split; auto.
  - intros s Hs. apply upd_first_in in Hs. destruct Hs as (s0 & Hs0 & -> & _). auto.
  - intros x Hx. apply in_app_iff in Hx. destruct Hx as [Hx|[<-|[]]]; auto.
Qed.

Lemma tx_step_inv : forall l0 acc a, tx_inv l0 acc -> tx_inv l0 (tx_step acc a).
Proof.
  intros l0 [[[[[lst h] c] rs] sr] sm] a Hi. unfold tx_step.
  destruct (append1_lookup lst h a) as [(s & Hs & _ & ->) | (_ & _ & ->)].
  - pose proof (tx_inv_finish l0 lst h c rs sr sm (s_ref s) a Hi) as H.
    destruct Hi as (_ & Hh & _). specialize (H (Hh s Hs)).
    destruct (finish h (s_ref s) a) as [[h' ret] smp]. rewrite app_nil_r. apply H.
  - pose proof (tx_inv_finish l0 _ _ c rs _ sm (lst + 1) a (tx_inv_create _ _ _ _ _ _ _ (a_l a) Hi)
                              (Z.le_refl _)) as H.
    destruct (finish _ (lst + 1) a) as [[h' ret] smp]. apply H.
Qed.

Lemma bound_do_tx : forall m apps, bound_ok m -> bound_ok (do_tx m apps) /\ last m <= last (do_tx m apps).
Proof.
  intros m apps (Hw & Hh & Hc). unfold do_tx.
  assert (Hi : tx_inv (last m) (last m, head m, cache m, [], [], [])).
  { unfold tx_inv. repeat split; auto; try lia; simpl; tauto. }
  apply (fold_left_inv tx_step (tx_inv (last m)) apps) in Hi; [|intros; now apply tx_step_inv].
  destruct (fold_left tx_step apps _) as [[[[[lst h] c] rs] sr] sm].
  destruct Hi as (H0 & Hh1 & Hc1 & Hsr & Hsm).
  split; [|exact H0]. split; [|split; assumption]. rewrite wal_app_last. simpl.
  intros x Hx. apply in_app_iff in Hx. destruct Hx as [Hx|Hx].
  - eapply alloc_le_mono; [exact H0|auto].
  - apply in_app_iff in Hx. destruct Hx as [Hx|Hx]; [auto|].
    unfold alloc_le. now rewrite (Hsm _ Hx).
Qed.

Lemma bound_do_gc : forall m dead, bound_ok m -> bound_ok (do_gc m dead).
Proof.
  intros m dead (Hw & Hh & Hc). split; [exact Hw|split; [|exact Hc]].
  intros s Hs. apply filter_In in Hs. apply Hh, Hs.
Qed.

(* truncateSeries logs tombstones, and only for series that were in the head *)
Lemma do_evict_wal : forall m dead, exists stones,
  wal (do_evict m dead) = wal m ++ stones /\
  forall x, In x stones -> exists s, In s (head m) /\ x = RTomb (s_ref s).
Proof.
  intros m dead. eexists. split; [exact (wal_app_last (do_gc m dead) _ _ _ _ _ _ _)|].
  intros x Hx. apply in_map_iff in Hx. destruct Hx as (p & <- & Hp). apply filter_In in Hp. destruct Hp as [_ Hp].
  destruct (by_ref (head m) (fst p)) as [s|] eqn:E; [|discriminate].
  apply by_ref_some in E. destruct E as [Hin <-]. eauto.
Qed.

Lemma bound_do_evict : forall m dead, bound_ok m -> bound_ok (do_evict m dead).
Proof.
  intros m dead Hm. destruct (bound_do_gc m dead Hm) as (Hw & Hhc).
  split; [|exact Hhc]. destruct (do_evict_wal m dead) as (stones & -> & Hst).
  intros x Hx. apply in_app_iff in Hx. destruct Hx as [Hx|Hx]; [exact (Hw x Hx)|].
  destruct (Hst x Hx) as (s & Hs & ->). apply Hm, Hs.
Qed.

Lemma bound_truncate_wal : forall m mint, bound_ok m -> bound_ok (truncate_wal m mint).
Proof.
  intros m mint (Hw & Hhc). unfold bound_ok.
  destruct (truncate_wal_fields m mint) as (-> & -> & ->). split; [|exact Hhc].
  intros x Hx. eapply Hw, truncate_wal_sub, Hx.
Qed.

Definition rp_inv (acc : Z * list series * list (Z * Z)) : Prop :=
  let '(lst, h, _) := acc in forall s, In s h -> s_ref s <= lst.

Lemma replay_rec_bound : forall mv cs acc x,
  rp_inv acc ->
  rp_inv (replay_rec mv cs acc x) /\ fst (fst acc) <= fst (fst (replay_rec mv cs acc x)) /\
  alloc_le (fst (fst (replay_rec mv cs acc x))) x.
Proof.
  intros mv cs [[lst h] multi] x Hinv. unfold rp_inv in Hinv. unfold alloc_le.
  destruct x as [r l|r g t|r|r]; simpl.
  - destruct (by_lset h l) as [s|]; simpl; (split; [|lia]).
    + intros s0 Hs0. apply set_orig_in in Hs0. destruct Hs0 as (s1 & Hs1 & -> & _).
      specialize (Hinv _ Hs1). lia.
    + intros s0 [<-|Hs0]; simpl; [lia|]. specialize (Hinv _ Hs0). lia.
  - destruct (t <? mv); simpl; [split; [exact Hinv|lia]|].
    destruct (by_ref h (resolve multi r)); simpl; (split; [|lia]); [|exact Hinv].
    intros s0 Hs0. apply upd_first_in in Hs0. destruct Hs0 as (s1 & Hs1 & -> & _). auto.
  - split; [|lia]. intros s0 Hs0. apply remove_first_in in Hs0. specialize (Hinv _ Hs0). lia.
  - split; [|lia]. intros s0 Hs0. specialize (Hinv _ Hs0). lia.
Qed.

Lemma replay_fold_bound : forall mv cs rs acc,
  rp_inv acc ->
  let acc' := fold_left (replay_rec mv cs) rs acc in
  rp_inv acc' /\ fst (fst acc) <= fst (fst acc') /\ (forall x, In x rs -> alloc_le (fst (fst acc')) x).
Proof.
  induction rs as [|x rs IH]; intros acc Hinv; simpl.
  - split; [auto|split; [lia|tauto]].
  - destruct (replay_rec_bound mv cs acc x Hinv) as (H1 & H2 & H3).
    destruct (IH _ H1) as (I1 & I2 & I3). split; [auto|split; [lia|]].
    intros y [<-|Hy]; [|auto]. eapply alloc_le_mono; [|exact H3]. exact I2.
Qed.

Lemma replay_wbl_bound : forall rs acc,
  rp_inv acc ->
  rp_inv (fold_left replay_wbl rs acc) /\ fst (fst (fold_left replay_wbl rs acc)) = fst (fst acc).
Proof.
  intros rs acc Hinv.
  apply (fold_left_inv replay_wbl (fun a => rp_inv a /\ fst (fst a) = fst (fst acc))); [|auto].
  intros [[lst h] multi] x _ [Ha El]. destruct x as [r l|r g t|r|r]; simpl; auto.
  destruct (by_ref h (resolve multi r)); simpl; auto. split; [|exact El].
  intros s0 Hs0. apply upd_first_in in Hs0. destruct Hs0 as (s1 & Hs1 & -> & _). apply Ha, Hs1.
Qed.

Lemma chunks_max_ref_ge : forall cs, 0 <= chunks_max_ref cs /\ forall c, In c cs -> ck_ref c <= chunks_max_ref cs.
Proof.
  unfold chunks_max_ref. induction cs as [|x cs [I1 I2]] using rev_ind; simpl; [split; [lia|tauto]|].
  rewrite fold_left_app. simpl. split; [lia|].
  intros c Hc. apply in_app_iff in Hc. destruct Hc as [Hc|[<-|[]]]; [specialize (I2 c Hc)|]; lia.
Qed.

Lemma fast_start_fixed_ge : forall cur f sg fastNew sf, cur <= fast_start true cur f sg fastNew sf.
Proof.
  intros. unfold fast_start. destruct fastNew; [|lia]. destruct sf as [[[id seg] cl]|]; lia.
Qed.

Lemma seg_max_series_nonneg : forall s r, seg_max_series s = Some r -> 0 <= r.
Proof.
  unfold seg_max_series. intros s.
  apply (fold_left_inv _ (fun acc => forall r, acc = Some r -> 0 <= r)); [|discriminate].
  intros acc x _ Hacc r Hr. destruct x; auto. injection Hr as <-.
  destruct acc as [a0|]; [specialize (Hacc a0 eq_refl)|]; lia.
Qed.

Lemma find_last_nonneg : forall f sg id seg, 0 <= id -> 0 <= find_last f sg id seg.
Proof.
  intros f sg id seg Hid. unfold find_last. generalize (rev (skipn (Z.to_nat (Z.max 0 seg - f)) sg)).
  induction l as [|s l IH]; simpl; [auto|].
  destruct (seg_max_series s) eqn:E; [eapply seg_max_series_nonneg; eauto|auto].
Qed.

(* a restart re-establishes the bound from the records it replays, and never ends below the id
   the fast-startup block started from *)
Lemma bound_do_restart_gen : forall fixed m fastNew sf mv cs wbl ea alive,
  let m' := do_restart_gen fixed m fastNew sf mv cs wbl ea alive in
  bound_ok m' /\
  fast_start fixed (if fixed then chunks_max_ref cs else 0) (first m) (segs m ++ [[]]) fastNew sf <= last m'.
Proof.
  intros. unfold m', do_restart_gen.
  set (last0 := fast_start _ _ _ _ _ _).
  set (stream := ckpt m ++ concat (segs m ++ [[]])).
  assert (Hi : rp_inv (last0, [], [])) by (simpl; tauto).
  pose proof (replay_fold_bound mv cs stream _ Hi) as H. simpl in H.
  destruct (fold_left (replay_rec mv cs) stream (last0, [], [])) as [[lst h] multi].
  destruct H as (H1 & H2 & H3).
  pose proof (replay_wbl_bound wbl (lst, h, multi) H1) as [W1 W2].
  destruct (fold_left replay_wbl wbl (lst, h, multi)) as [[lst2 h2] multi2]. simpl in W1, W2. subst lst2.
  split; [|exact H2]. unfold bound_ok, wal; simpl. repeat split.
  - exact H3.
  - intros s Hs. apply filter_In in Hs. apply W1, Hs.
  - tauto.
Qed.

Lemma bound_do_restart : forall m fastNew sf mv cs wbl ea alive,
  bound_ok (do_restart m fastNew sf mv cs wbl ea alive).
Proof. intros. apply bound_do_restart_gen. Qed.

(* fixed code: after a restart lastSeriesID is at least every series ref of the head-chunk files *)
Lemma restart_last_ge : forall m fastNew sf mv cs wbl ea alive,
  chunks_max_ref cs <= last (do_restart m fastNew sf mv cs wbl ea alive).
Proof.
  intros m fastNew sf mv cs wbl ea alive.
  destruct (bound_do_restart_gen true m fastNew sf mv cs wbl ea alive) as [_ H].
  pose proof (fast_start_fixed_ge (chunks_max_ref cs) (first m) (segs m ++ [[]]) fastNew sf).
  unfold do_restart. lia.
Qed.

Lemma bound_step : forall m o, bound_ok m -> bound_ok (step m o).
Proof.
  intros m o Hm. destruct o; simpl.
  - now apply bound_do_tx.
  - apply bound_truncate_wal. now apply bound_do_gc.
  - now apply bound_do_gc.
  - now apply bound_do_evict.
  - apply bound_do_restart.
Qed.

Lemma bound_init : bound_ok init.
Proof. unfold bound_ok, init, wal; simpl. repeat split; intros; tauto. Qed.

Lemma bound_run : forall ops, bound_ok (run ops).
Proof. intros. unfold run. apply fold_left_inv; [intros; now apply bound_step|apply bound_init]. Qed.

Definition is_restart (o : op) : bool := match o with ORestart _ _ _ _ _ _ _ _ _ => true | _ => false end.

(* without a restart lastSeriesID only grows *)
Lemma last_mono_step : forall m o, bound_ok m -> is_restart o = false -> last m <= last (step m o).
Proof.
  intros m o Hm Ho. destruct o; simpl in *; try discriminate; try lia.
  - now apply bound_do_tx.
  - destruct (truncate_wal_fields (do_gc m dead) mint) as (E & _). rewrite E. simpl. lia.
Qed.

Lemma last_mono_fold : forall ops m, bound_ok m -> forallb (fun o => negb (is_restart o)) ops = true ->
  last m <= last (fold_left step ops m).
Proof.
  induction ops as [|o ops IH]; simpl; intros m Hm H; [lia|].
  apply andb_true_iff in H. destruct H as [Ho Hr]. apply negb_true_iff in Ho.
  pose proof (last_mono_step m o Hm Ho). specialize (IH (step m o) (bound_step m o Hm) Hr). lia.
Qed.

(* in the whole lifetime that follows a restart, lastSeriesID stays at or above every series ref
   found in the head-chunk files at that restart *)
Lemma chunk_refs_bounded : forall ops1 cl fo fn sf mv cs wbl ea alive ops2 c,
  forallb (fun o => negb (is_restart o)) ops2 = true -> In c cs ->
  ck_ref c <= last (run (ops1 ++ ORestart cl fo fn sf mv cs wbl ea alive :: ops2)).
Proof.
  intros ops1 cl fo fn sf mv cs wbl ea alive ops2 c Hn Hc. unfold run. rewrite fold_left_app. simpl.
  pose proof (proj2 (chunks_max_ref_ge cs) c Hc) as H0.
  pose proof (restart_last_ge (fold_left step ops1 init) fn sf mv cs wbl ea alive) as H1.
  pose proof (last_mono_fold ops2 _ (bound_do_restart (fold_left step ops1 init) fn sf mv cs wbl ea alive) Hn) as H2.
  lia.
Qed.

(* a series created by an append gets a ref above everything lastSeriesID bounds *)
Lemma fresh_ref_above_chunks : forall ops a,
  let m := run ops in
  by_ref (head m) (a_cref a) = None -> by_lset (head m) (a_l a) = None ->
  let '(_, _, _, crt, _) := append1 (last m) (head m) a in
  crt = [RSeries (last m + 1) (a_l a)] /\
  (forall x r, In x (wal m) -> rec_alloc_ref x = Some r -> r < last m + 1) /\
  (forall s, In s (head m) -> s_ref s < last m + 1) /\
  (forall p, In p (cache m) -> fst p < last m + 1) /\
  (forall ops1 cl fo fn sf mv cs wbl ea alive ops2 c,
     ops = ops1 ++ ORestart cl fo fn sf mv cs wbl ea alive :: ops2 ->
     forallb (fun o => negb (is_restart o)) ops2 = true -> In c cs -> ck_ref c < last m + 1).
Proof.
  intros ops a m E1 E2. rewrite (append1_miss _ _ a E1 E2).
  destruct (finish _ (last m + 1) a) as [[h' ret] smp].
  destruct (bound_run ops) as (Hw & Hh & Hc). fold m in Hw, Hh, Hc.
  split; [reflexivity|]. repeat split.
  - intros x r Hx Hr. specialize (Hw x Hx). unfold alloc_le in Hw. rewrite Hr in Hw. lia.
  - intros s Hs. specialize (Hh s Hs). lia.
  - intros p Hp. specialize (Hc p Hp). lia.
  - intros ops1 cl fo fn sf mv cs wbl ea alive ops2 c Eo Hn Hc'.
    pose proof (chunk_refs_bounded ops1 cl fo fn sf mv cs wbl ea alive ops2 c Hn Hc') as Hle.
    rewrite <- Eo in Hle. fold m in Hle. lia.
Qed.

Definition stream_uniq (w : list rec) : Prop :=
  forall r l l', In (RSeries r l) w -> In (RSeries r l') w -> l = l'.

Definition rec_attr (seen : list rec) (x : rec) : Prop :=
  match x with
  | RSample r g _ => forall l, In (RSeries r l) seen -> g = l
  | _ => True
  end.

(* every sample record follows only series records (of its ref) that carry the labels the sample
   was appended with *)
Fixpoint attr_from (seen : list rec) (w : list rec) : Prop :=
  match w with
  | [] => True
  | x :: w' => rec_attr seen x /\ attr_from (seen ++ [x]) w'
  end.

Definition sub_series (a b : list rec) : Prop := forall r l, In (RSeries r l) a -> In (RSeries r l) b.

Lemma rec_attr_weaken : forall a b x, sub_series a b -> rec_attr b x -> rec_attr a x.
Proof. intros a b [r l|r g t|r|r] H; simpl; auto. Qed.

Lemma attr_from_weaken : forall w a b, sub_series a b -> attr_from b w -> attr_from a w.
Proof.
  induction w as [|x w IH]; simpl; intros a b H Hb; [auto|]. destruct Hb as [H1 H2]. split.
  - eapply rec_attr_weaken; eauto.
  - eapply IH; [|exact H2]. intros r l Hin. apply in_app_iff in Hin. apply in_app_iff.
    destruct Hin as [Hin|Hin]; [left; auto | right; auto].
Qed.

(* a checkpoint: records dropped from a prefix of the stream *)
Lemma attr_from_filter_prefix : forall f A B seen, attr_from seen (A ++ B) -> attr_from seen (filter f A ++ B).
Proof.
  induction A as [|x A IH]; simpl; intros B seen H; [exact H|]. destruct H as [H1 H2].
  destruct (f x); simpl.
  - split; auto.
  - eapply attr_from_weaken; [|apply IH; exact H2]. intros r l Hin. apply in_app_iff. now left.
Qed.

Lemma attr_from_app : forall w1 w2 seen,
  attr_from seen (w1 ++ w2) <-> attr_from seen w1 /\ attr_from (seen ++ w1) w2.
Proof.
  induction w1 as [|x w1 IH]; simpl; intros w2 seen.
  - rewrite app_nil_r. tauto.
  - rewrite IH. rewrite <- app_assoc. simpl. tauto.
Qed.

(* attribution against the whole stream, whatever the order, is the stronger condition *)
Lemma attr_from_all : forall w seen, (forall x, In x w -> rec_attr (seen ++ w) x) -> attr_from seen w.
Proof.
  induction w as [|x w IH]; simpl; intros seen H; [auto|]. split.
  - eapply rec_attr_weaken; [|apply H; now left]. intros r l Hin. apply in_app_iff. now left.
  - apply IH. intros y Hy. rewrite <- app_assoc. apply H. now right.
Qed.

(* S: the record stream, with the series records created so far in a transaction; sm: the samples
   appended so far in the transaction, which Commit logs behind S.  Refs are positive because a
   client without a ref passes 0. *)
Record coh (S : list rec) (lst : Z) (h : list series) (c : list (Z * Z)) (sm : list rec) : Prop := mkCoh {
  c_last : 0 <= lst;
  c_uniq : stream_uniq S;
  c_attr : attr_from [] S;
  c_bound : forall r l, In (RSeries r l) S -> 0 < r <= lst;
  c_hc : forall s, In s h -> In (RSeries (s_ref s) (s_l s)) S;
  c_cache : forall p s, In p c -> In s h -> s_ref s = fst p -> s_l s = snd p;
  c_cbound : forall p, In p c -> fst p <= lst;
  c_pure : forall s, In s h -> series_pure_p s;
  c_sm : forall x, In x sm -> exists r l t, x = RSample r l t /\ In (RSeries r l) S
}.

Definition coherent (m : st) : Prop := coh (wal m) (last m) (head m) (cache m) [].

(* the stream may change in any way that adds no series record and keeps attribution; series and
   cached refs may go, as long as the remaining head keeps its series records.  gc, eviction and
   truncateWAL are instances, and so is Commit, which moves the pending samples into the stream. *)
Lemma coh_shrink : forall S lst h c sm S' h' c', coh S lst h c sm ->
  sub_series S' S -> attr_from [] S' -> incl h' h -> incl c' c ->
  (forall s, In s h' -> In (RSeries (s_ref s) (s_l s)) S') -> coh S' lst h' c' [].
Proof.
  intros S lst h c sm S' h' c' [H1 H2 H3 H4 H5 H6 H7 H8 H9] HS Ha Hh Hc Hhc. constructor; auto.
  - intros r l l' A B. eapply H2; apply HS; eassumption.
  - intros r l Hin. apply (H4 r l), HS, Hin.
  - intros x [].
Qed.

Lemma coherent_do_gc : forall m dead, coherent m -> coherent (do_gc m dead).
Proof.
  intros m dead Hm. eapply coh_shrink; [exact Hm|intros r l H; exact H|exact (c_attr _ _ _ _ _ Hm)
                                       |apply incl_filter|apply incl_refl|].
  intros s Hs. apply filter_In in Hs. apply (c_hc _ _ _ _ _ Hm), Hs.
Qed.

Lemma coherent_do_evict : forall m dead, coherent m -> coherent (do_evict m dead).
Proof.
  intros m dead Hm. unfold coherent. destruct (do_evict_wal m dead) as (stones & -> & Hst).
  eapply coh_shrink; [exact Hm| | |apply incl_filter|apply incl_refl|].
  - intros r l Hin. apply in_app_iff in Hin. destruct Hin as [Hin|Hin]; [exact Hin|].
    destruct (Hst _ Hin) as (s & _ & E). discriminate E.
  - apply attr_from_app. split; [exact (c_attr _ _ _ _ _ Hm)|].
    apply attr_from_all. intros x Hx. destruct (Hst x Hx) as (s & _ & ->). exact I.
  - intros s Hs. apply filter_In in Hs. apply in_app_iff. left. apply (c_hc _ _ _ _ _ Hm), Hs.
Qed.

Lemma coherent_truncate_wal : forall m mint, coherent m -> coherent (truncate_wal m mint).
Proof.
  intros m mint Hm. unfold coherent in *.
  destruct (truncate_wal_fields m mint) as (-> & -> & ->).
  destruct (truncate_wal_wal m mint) as (A & B & EW & E).
  eapply coh_shrink; [exact Hm|intros r l; apply truncate_wal_sub| |apply incl_refl|apply incl_refl|].
  - rewrite E. apply attr_from_filter_prefix. rewrite <- EW. exact (c_attr _ _ _ _ _ Hm).
  - intros s Hs. pose proof (c_hc _ _ _ _ _ Hm s Hs) as Hin. rewrite EW in Hin. rewrite E.
    apply in_app_iff in Hin. apply in_app_iff. destruct Hin as [Hin|Hin]; [left|now right].
    apply filter_In. split; [exact Hin|]. apply keepf_head, Hs.
Qed.

Definition client_ok (c : list (Z * Z)) (a : app) : Prop := a_cref a = 0 \/ In (a_cref a, a_l a) c.

Lemma coh_head_bound : forall S lst h c sm s, coh S lst h c sm -> In s h -> 0 < s_ref s <= lst.
Proof. intros S lst h c sm s HT Hs. eapply c_bound; [exact HT|]. eapply c_hc; eauto. Qed.

Lemma coh_cache_add : forall S lst h c sm r l, coh S lst h c sm ->
  (forall s, In s h -> s_ref s = r -> s_l s = l) -> r <= lst -> coh S lst h ((r, l) :: c) sm.
Proof.
  intros S lst h c sm r l [H1 H2 H3 H4 H5 H6 H7 H8 H9] Hl Hr.
  constructor; auto.
  - intros p s [<-|Hp] Hs E; simpl in *; eauto.
  - intros p [<-|Hp]; simpl; auto.
Qed.

(* a sample for a ref the client has just been handed for these labels *)
Lemma coh_sample : forall S lst h c sm r l t s0, coh S lst h c sm ->
  In (r, l) c -> In s0 h -> s_ref s0 = r ->
  coh S lst (upd_first r l h) c (sm ++ [RSample r l t]).
Proof.
  intros S lst h c sm r l t s0 [H1 H2 H3 H4 H5 H6 H7 H8 H9] Hc Hs0 Er.
  assert (Hfun : forall s, In s h -> s_ref s = r -> s_l s = l) by (intros s Hs; exact (H6 _ s Hc Hs)).
  constructor; auto.
  - intros s Hs. apply upd_first_in in Hs. destruct Hs as (s1 & Hs1 & -> & ->). auto.
  - intros p s Hp Hs. apply upd_first_in in Hs. destruct Hs as (s1 & Hs1 & -> & ->). eauto.
  - apply upd_first_pure; auto.
  - intros x Hx. apply in_app_iff in Hx. destruct Hx as [Hx|[<-|[]]]; [auto|].
    exists r, l, t. split; [reflexivity|]. rewrite <- Er, <- (Hfun s0 Hs0 Er). auto.
Qed.

Lemma coh_create : forall S lst h c sm l, coh S lst h c sm ->
  coh (S ++ [RSeries (lst + 1) l]) (lst + 1) (mkS (lst + 1) l [] :: h) c sm.
Proof.
  intros S lst h c sm l [H1 H2 H3 H4 H5 H6 H7 H8 H9].
  assert (Hin : forall r l', In (RSeries r l') (S ++ [RSeries (lst + 1) l]) ->
                 In (RSeries r l') S \/ (r = lst + 1 /\ l' = l)).
  { intros r l' Hi. apply in_app_iff in Hi. destruct Hi as [Hi|[Hi|[]]]; [now left|].
    injection Hi as <- <-. now right. }
  constructor.
  - lia.
  - intros r l1 l2 Ha Hb. apply Hin in Ha. apply Hin in Hb.
    destruct Ha as [Ha|[-> ->]], Hb as [Hb|[Eb ->]]; subst; auto.
    + eapply H2; eauto.
    + apply H4 in Ha. lia.
    + apply H4 in Hb. lia.
  - apply attr_from_app. split; [exact H3|]. simpl. auto.
  - intros r l' Hi. apply Hin in Hi. destruct Hi as [Hi|[-> _]]; [apply H4 in Hi; lia|lia].
  - intros s [<-|Hs]; apply in_app_iff; [right; now left|left; auto].
  - intros p s Hp [<-|Hs] E; simpl in *; [|eauto]. specialize (H7 _ Hp). lia.
  - intros p Hp. specialize (H7 _ Hp). lia.
  - intros s [<-|Hs]; [intros g []|auto].
  - intros x Hx. destruct (H9 x Hx) as (r & l' & t & -> & Hi).
    exists r, l', t. split; [reflexivity|]. apply in_app_iff. now left.
Qed.

(* Commit: the samples follow every series record, and carry the labels of the only one of their ref *)
Lemma coh_commit : forall S lst h c sm, coh S lst h c sm -> coh (S ++ sm) lst h c [].
Proof.
  intros S lst h c sm HT. pose proof HT as [_ H2 H3 _ H5 _ _ _ H9].
  assert (Hser : sub_series (S ++ sm) S).
  { intros r l Hin. apply in_app_iff in Hin. destruct Hin as [Hin|Hin]; [exact Hin|].
    destruct (H9 _ Hin) as (? & ? & ? & E & _). discriminate E. }
  eapply coh_shrink; [exact HT|exact Hser| |apply incl_refl|apply incl_refl|].
  - apply attr_from_app. split; [exact H3|].
    apply attr_from_all. intros x Hx. destruct (H9 x Hx) as (r & l & t & -> & Hin).
    intros l' Hl'. eapply H2; [exact Hin|apply Hser, Hl'].
  - intros s Hs. apply in_app_iff. left. auto.
Qed.

(* the second stage on a head series s0 that carries the labels of the append *)
Lemma finish_coh : forall S lst h c sm a s0, coh S lst h c sm ->
  In s0 h -> s_l s0 = a_l a ->
  let '(h', ret, smp) := finish h (s_ref s0) a in
  coh S lst h' (if a_ok a then (ret, a_l a) :: c else c) (sm ++ smp) /\
  (a_ok a = true -> exists s, In s h' /\ s_ref s = ret).
Proof.
  intros S lst h c sm a s0 HT Hs El. unfold finish.
  destruct (a_ok a); [|rewrite app_nil_r; split; [exact HT|discriminate]].
  assert (HT' : coh S lst h ((s_ref s0, a_l a) :: c) sm).
  { apply coh_cache_add; [exact HT| |apply (coh_head_bound _ _ _ _ _ _ HT Hs)].
    (* series records are unique per ref, and every head series has one *)
    intros s Hs' E. rewrite <- El. eapply (c_uniq _ _ _ _ _ HT); [eapply c_hc; eauto|].
    rewrite E. eapply c_hc; eauto. }
  destruct (a_stale a).
  - rewrite app_nil_r. split; [exact HT'|]. intros _. exists s0. auto.
  - split; [eapply coh_sample; [exact HT'|now left|exact Hs|reflexivity]|].
    intros _. destruct (keys_in _ _ s0 (eq_sym (upd_first_keys (s_ref s0) (a_l a) h)) Hs) as (s & Hs' & E & _).
    exists s. auto.
Qed.

Lemma append1_coh : forall S lst h c sm a, coh S lst h c sm -> client_ok c a ->
  let '(lst1, h1, ret, crt, smp) := append1 lst h a in
  coh (S ++ crt) lst1 h1 (if a_ok a then (ret, a_l a) :: c else c) (sm ++ smp) /\
  (a_ok a = true -> exists s, In s h1 /\ s_ref s = ret).
Proof.
  intros S lst h c sm a HT Hc.
  destruct (append1_lookup lst h a) as [(s & Hs & Hkey & ->) | (_ & _ & ->)].
  - (* a hit by ref carries the labels because the client got the ref for these labels *)
    assert (El : s_l s = a_l a).
    { destruct Hkey as [Er|El]; [|exact El].
      pose proof (coh_head_bound _ _ _ _ _ _ HT Hs) as Hb. destruct Hc as [Hc|Hc]; [lia|].
      apply (c_cache _ _ _ _ _ HT _ _ Hc Hs). exact Er. }
    pose proof (finish_coh S lst h c sm a s HT Hs El) as H.
    destruct (finish h (s_ref s) a) as [[h' ret] smp]. rewrite app_nil_r. exact H.
  - pose proof (finish_coh _ _ _ c sm a (mkS (lst + 1) (a_l a) []) (coh_create _ _ _ _ _ (a_l a) HT)
                           (or_introl eq_refl) eq_refl) as H.
    cbn [s_ref] in H. destruct (finish _ (lst + 1) a) as [[h' ret] smp]. exact H.
Qed.

Definition acc_cache (acc : Z * list series * list (Z * Z) * list Z * list rec * list rec) : list (Z * Z) :=
  let '(_, _, c, _, _, _) := acc in c.

Definition coh_acc (W : list rec) (acc : Z * list series * list (Z * Z) * list Z * list rec * list rec) : Prop :=
  let '(lst, h, c, _, sr, sm) := acc in coh (W ++ sr) lst h c sm.

Lemma tx_step_coh : forall W acc a, coh_acc W acc -> client_ok (acc_cache acc) a -> coh_acc W (tx_step acc a).
Proof.
  intros W [[[[[lst h] c] rs] sr] sm] a HT Hc. simpl in HT, Hc. unfold tx_step.
  pose proof (append1_coh (W ++ sr) lst h c sm a HT Hc) as H.
  destruct (append1 lst h a) as [[[[lst1 h1] ret] crt] smp]. simpl. rewrite app_assoc. apply H.
Qed.

Fixpoint apps_ok (acc : Z * list series * list (Z * Z) * list Z * list rec * list rec) (apps : list app) : Prop :=
  match apps with
  | [] => True
  | a :: r => client_ok (acc_cache acc) a /\ apps_ok (tx_step acc a) r
  end.

Lemma tx_fold_coh : forall W apps acc, coh_acc W acc -> apps_ok acc apps -> coh_acc W (fold_left tx_step apps acc).
Proof.
  induction apps as [|a apps IH]; simpl; intros acc HT Hok; [auto|].
  destruct Hok as [H1 H2]. apply IH; auto. apply tx_step_coh; auto.
Qed.

Definition tx_ok (m : st) (apps : list app) : Prop := apps_ok (last m, head m, cache m, [], [], []) apps.

Lemma coherent_do_tx : forall m apps, coherent m -> tx_ok m apps -> coherent (do_tx m apps).
Proof.
  intros m apps Hm Hok. unfold do_tx.
  pose proof (tx_fold_coh (wal m) apps (last m, head m, cache m, [], [], [])) as HT.
  destruct (fold_left tx_step apps _) as [[[[[lst h] c] rs] sr] sm].
  unfold coherent. rewrite wal_app_last, app_assoc. simpl. apply coh_commit, HT; [|exact Hok].
  simpl. rewrite app_nil_r. exact Hm.
Qed.

Lemma in_dedup_ghosts : forall l g, In g (dedup_ghosts l) -> In g l.
Proof.
  induction l as [|x l IH]; simpl; intros g H; [tauto|].
  destruct (memZ x (dedup_ghosts l)); [right; auto|]. destruct H as [<-|H]; [now left|right; auto].
Qed.

Lemma in_chunk_ghosts : forall mv cs r g, In g (chunk_ghosts mv cs r) ->
  exists c, In c cs /\ ck_ref c = r /\ In g (ck_ghosts c).
Proof.
  unfold chunk_ghosts. intros mv cs r g H. apply in_flat_map in H. destruct H as (c & Hc & Hg).
  apply filter_In in Hc. destruct Hc as [Hc Hf]. apply andb_true_iff in Hf. destruct Hf as [Hf _].
  apply Z.eqb_eq in Hf. eauto.
Qed.

(* Wh: the whole stream being replayed; seen: the records replayed so far *)
Section Replay.
  Variable Wh : list rec.
  Variable mv : Z.
  Variable cs : list chunk.
  Hypothesis Wh_uniq : stream_uniq Wh.
  Hypothesis cs_attr : forall c g l, In c cs -> In g (ck_ghosts c) -> In (RSeries (ck_ref c) l) Wh -> g = l.

  Record RI (seen : list rec) (h : list series) (multi : list (Z * Z)) : Prop := mkRI {
    r_hc : forall s, In s h -> In (RSeries (s_ref s) (s_l s)) seen;
    r_multi : forall r r', assoc multi r = Some r' -> exists l, In (RSeries r l) seen /\ In (RSeries r' l) seen;
    r_pure : forall s, In s h -> series_pure_p s
  }.

  Lemma RI_weaken : forall seen seen' h h' multi, incl seen seen' -> incl h' h ->
    RI seen h multi -> RI seen' h' multi.
  Proof.
    intros seen seen' h h' multi Hs Hh [H1 H2 H3]. constructor; auto.
    intros r r' E. destruct (H2 _ _ E) as (l & Ha & Hb). exists l; auto.
  Qed.

  Lemma RI_sample : forall seen h multi r g t,
    incl seen Wh -> RI seen h multi -> rec_attr seen (RSample r g t) ->
    RI seen (upd_first (resolve multi r) g h) multi.
  Proof.
    intros seen h multi r g t Hsub [H1 H2 H3] Ha. simpl in Ha. constructor; auto.
    - intros s Hs. apply upd_first_in in Hs. destruct Hs as (s1 & Hs1 & -> & ->). auto.
    - apply upd_first_pure; auto. intros s1 Hs1 E. unfold resolve in E.
      destruct (assoc multi r) as [r'|] eqn:Em.
      + destruct (H2 _ _ Em) as (l0 & Hl0 & Hl0'). rewrite (Ha _ Hl0).
        eapply Wh_uniq; [apply Hsub; apply H1; exact Hs1|]. rewrite E. apply Hsub. exact Hl0'.
      + symmetry. apply Ha. rewrite <- E. apply H1. exact Hs1.
  Qed.

  (* loadWAL on a series record that has been seen: a new series, or (labels already in the head)
     a multiRef entry; either way the series gets the chunks found under the record's ref *)
  Lemma RI_series : forall seen h multi r l,
    incl seen Wh -> In (RSeries r l) seen -> RI seen h multi ->
    let o := dedup_ghosts (chunk_ghosts mv cs r) in
    match by_lset h l with
    | Some s => RI seen (set_orig (s_ref s) o h) ((r, s_ref s) :: multi)
    | None => RI seen (mkS r l o :: h) multi
    end.
  Proof.
    intros seen h multi r l Hsub Hx [H1 H2 H3] o.
    assert (Ho : forall g, In g o -> g = l).
    { intros g Hg. apply in_dedup_ghosts in Hg. apply in_chunk_ghosts in Hg.
      destruct Hg as (c & Hc & <- & Hg). eapply cs_attr; eauto. }
    destruct (by_lset h l) as [s|] eqn:E.
    - apply by_lset_some in E. destruct E as [Hs El]. constructor.
      + intros s0 Hs0. apply set_orig_in in Hs0. destruct Hs0 as (s1 & Hs1 & -> & ->). auto.
      + intros r0 r' Em. simpl in Em. destruct (r =? r0) eqn:Er; [|exact (H2 _ _ Em)].
        apply Z.eqb_eq in Er. injection Em as <-. subst r0.
        exists l. split; [exact Hx|]. rewrite <- El. auto.
      + apply set_orig_pure; auto. intros s1 Hs1 E1 g Hg. rewrite (Ho _ Hg), <- El.
        eapply Wh_uniq; [apply Hsub, H1, Hs|]. rewrite <- E1. apply Hsub, H1, Hs1.
    - constructor; auto.
      + intros s0 [<-|Hs0]; simpl; auto.
      + intros s0 [<-|Hs0]; [exact Ho|auto].
  Qed.

  Lemma replay_rec_RI : forall seen lst h multi x,
    incl (seen ++ [x]) Wh -> rec_attr seen x -> RI seen h multi ->
    let '(_, h', multi') := replay_rec mv cs (lst, h, multi) x in RI (seen ++ [x]) h' multi'.
  Proof.
    intros seen lst h multi x Hsub Ha HR.
    assert (Hw : incl seen (seen ++ [x])) by (apply incl_appl, incl_refl).
    assert (HR' : RI (seen ++ [x]) h multi) by (eapply RI_weaken; [exact Hw|apply incl_refl|exact HR]).
    destruct x as [r l|r g t|r|r]; simpl.
    - pose proof (RI_series _ h multi r l Hsub (in_elt _ _ _) HR') as H.
      destruct (by_lset h l); exact H.
    - destruct (t <? mv); [exact HR'|]. destruct (by_ref h (resolve multi r)); [|exact HR'].
      eapply RI_weaken; [exact Hw|apply incl_refl|].
      eapply RI_sample; [exact (incl_tran Hw Hsub)|exact HR|exact Ha].
    - eapply RI_weaken; [apply incl_refl| |exact HR']. intros s. apply remove_first_in.
    - exact HR'.
  Qed.

  Lemma replay_fold_RI : forall lst0 w, incl w Wh -> attr_from [] w ->
    let '(_, h, multi) := fold_left (replay_rec mv cs) w (lst0, [], []) in RI w h multi.
  Proof.
    intros lst0. induction w as [|x w IH] using rev_ind; intros Hsub Ha.
    - constructor; simpl; try tauto. intros; discriminate.
    - apply attr_from_app in Ha. destruct Ha as (Ha & Hx & _). rewrite fold_left_app. simpl.
      specialize (IH (incl_tran (incl_appl _ (incl_refl _)) Hsub) Ha).
      destruct (fold_left _ w _) as [[lst h] multi]. apply replay_rec_RI; auto.
  Qed.

  Lemma replay_wbl_RI : forall wbl lst h multi,
    (forall r g t l, In (RSample r g t) wbl -> In (RSeries r l) Wh -> g = l) ->
    RI Wh h multi ->
    let '(_, h', multi') := fold_left replay_wbl wbl (lst, h, multi) in RI Wh h' multi'.
  Proof.
    intros wbl lst h multi Ha HR.
    apply (fold_left_inv replay_wbl (fun acc => let '(_, h', multi') := acc in RI Wh h' multi')); [|exact HR].
    intros [[lst1 h1] multi1] x Hx HR1. destruct x as [r l|r g t|r|r]; simpl; auto.
    destruct (by_ref h1 (resolve multi1 r)); auto.
    eapply RI_sample with (t := t); [apply incl_refl|exact HR1|]. intros l. apply (Ha r g t l Hx).
  Qed.
End Replay.

Definition restart_ok (m : st) (sf : option (Z * Z * bool)) (cs : list chunk) (wbl : list rec) : Prop :=
  (forall c g l, In c cs -> In g (ck_ghosts c) -> In (RSeries (ck_ref c) l) (wal m) -> g = l) /\
  (forall r g t l, In (RSample r g t) wbl -> In (RSeries r l) (wal m) -> g = l).

Lemma coherent_do_restart : forall m fastNew sf mv cs wbl ea alive,
  coherent m -> restart_ok m sf cs wbl -> coherent (do_restart m fastNew sf mv cs wbl ea alive).
Proof.
  intros m fastNew sf mv cs wbl ea alive [H1 H2 H3 H4 H5 H6 H7 H8 H9] (Hcs & Hwbl).
  destruct (bound_do_restart m fastNew sf mv cs wbl ea alive) as (Bw & _).
  pose proof (restart_last_ge m fastNew sf mv cs wbl ea alive) as HL.
  pose proof (proj1 (chunks_max_ref_ge cs)) as H0.
  revert Bw HL. unfold coherent, do_restart, do_restart_gen. rewrite wal_snoc_nil.
  set (last0 := fast_start _ _ _ _ _ _).
  pose proof (replay_fold_RI (wal m) mv cs H2 Hcs last0 (wal m) (incl_refl _) H3) as HR.
  destruct (fold_left (replay_rec mv cs) (wal m) _) as [[lst h] multi].
  pose proof (replay_wbl_RI (wal m) H2 wbl lst h multi Hwbl HR) as HW.
  destruct (fold_left replay_wbl wbl _) as [[lst2 h2] multi2].
  destruct (RI_weaken _ _ _ _ _ (incl_refl _) (incl_filter (fun s => memZ (s_ref s) alive) h2) HW) as [W1 _ W3].
  unfold wal; simpl. rewrite wal_snoc_nil. intros Bw HL.
  constructor; auto.
  - lia.
  - intros r l Hin. split; [exact (proj1 (H4 r l Hin))|]. exact (Bw _ Hin).
  - intros p s [].
  - intros p [].
Qed.

Definition op_ok (m : st) (o : op) : Prop :=
  match o with
  | OTx apps => tx_ok m apps
  | ORestart _ _ _ sf _ cs wbl _ _ => restart_ok m sf cs wbl
  | _ => True
  end.

Fixpoint ops_ok (m : st) (ops : list op) : Prop :=
  match ops with
  | [] => True
  | o :: r => op_ok m o /\ ops_ok (step m o) r
  end.

Lemma coherent_step : forall m o, coherent m -> op_ok m o -> coherent (step m o).
Proof.
  intros m o Hi Hok. destruct o; simpl in *.
  - now apply coherent_do_tx.
  - apply coherent_truncate_wal. now apply coherent_do_gc.
  - now apply coherent_do_gc.
  - now apply coherent_do_evict.
  - now apply coherent_do_restart.
Qed.

Lemma coherent_init : coherent init.
Proof. constructor; simpl; try tauto; try lia. intros r l l' []. Qed.

Lemma coherent_fold : forall ops m, coherent m -> ops_ok m ops -> coherent (fold_left step ops m).
Proof.
  induction ops as [|o ops IH]; simpl; intros m Hi Hok; [auto|].
  destruct Hok as [Ho Hr]. apply IH; [now apply coherent_step|exact Hr].
Qed.

Lemma coherent_run : forall ops, ops_ok init ops -> coherent (run ops).
Proof. intros ops H. exact (coherent_fold ops init coherent_init H). Qed.

Lemma head_pure_true : forall m, (forall s, In s (head m) -> series_pure_p s) -> head_pure m = true.
Proof.
  intros m Hp. unfold head_pure. apply forallb_forall. intros s Hs.
  unfold series_pure. apply forallb_forall. intros g Hg. apply Z.eqb_eq.
  symmetry. exact (Hp s Hs g Hg).
Qed.

Lemma stale_ref_safe : forall m a,
  coherent m -> client_ok (cache m) a -> a_ok a = true ->
  let '(_, h1, ret, _, _) := append1 (last m) (head m) a in
  (exists s, In s h1 /\ s_ref s = ret) /\
  (forall s, In s h1 -> s_ref s = ret -> s_l s = a_l a /\ series_pure_p s).
Proof.
  intros m a Hm Hc Hokk.
  pose proof (append1_coh (wal m) (last m) (head m) (cache m) [] a Hm Hc) as H.
  destruct (append1 (last m) (head m) a) as [[[[lst1 h1] ret] crt] smp].
  rewrite Hokk in H. destruct H as [HT Hex]. split; [exact (Hex eq_refl)|].
  intros s Hs Er. split; [apply (c_cache _ _ _ _ _ HT (ret, a_l a) s); simpl; auto | eapply c_pure; eauto].
Qed.
