(* proof/RecordProofs.v — round-trip proofs for model/Record.v (C14). *)
From Coq Require Import List NArith ZArith Lia Bool.
From Verif Require Import lib.Int64 lib.Bytes lib.Varint lib.SortedList model.Record.
Import ListNotations.
Open Scope N_scope.

(* ---------------------------------------------------------------- type ranges (Prop) *)
Definition len_ok {A} (l : list A) : Prop := N.of_nat (length l) < 9223372036854775808.  (* Go len() is an int *)
Definition str_ok (s : bstr) : Prop := len_ok s.
Definition labels_ok (ls : labels) : Prop :=
  len_ok ls /\ Forall (fun l => str_ok (fst l) /\ str_ok (snd l)) ls.
Definition series_ok (s : ref_series) : Prop := u64_ok (s_ref s) /\ labels_ok (s_labels s).
Definition sample_ok (s : ref_sample) : Prop :=
  u64_ok (sm_ref s) /\ int64 (sm_st s) /\ int64 (sm_t s) /\ u64_ok (sm_v s).
Definition stone_ok (s : stone) : Prop :=
  u64_ok (st_ref s) /\ Forall (fun iv => int64 (fst iv) /\ int64 (snd iv)) (st_ivs s).
Definition exemplar_ok (e : ref_exemplar) : Prop :=
  u64_ok (ex_ref e) /\ int64 (ex_t e) /\ u64_ok (ex_v e) /\ labels_ok (ex_labels e).
Definition metadata_ok (m : ref_metadata) : Prop :=
  u64_ok (md_ref m) /\ str_ok (md_unit m) /\ str_ok (md_help m).
Definition mmap_ok (m : ref_mmap) : Prop := u64_ok (mm_ref m) /\ u64_ok (mm_mref m).

(* ---------------------------------------------------------------- monad plumbing *)
Lemma dbind_bytes {B} (k : list N -> dec B) s rest :
  str_ok s -> dbind d_uvarint_bytes k (put_uvarint_bytes s ++ rest) = k s rest.
Proof. intros H. apply dbind_ok, d_uvarint_bytes_put, H. Qed.

Lemma app_nonempty_l {A} (a b : list A) : a <> [] -> a ++ b <> [].
Proof. destruct a; [congruence | discriminate]. Qed.

(* ---------------------------------------------------------------- counted repetition *)
Lemma count_back {A} (l : list A) : Z.to_nat (Z.of_N (N.of_nat (length l))) = length l.
Proof. lia. Qed.

(* dec_list ∘ enc_list *)
Lemma dec_enc_list {X} (d : dec X) (e : X -> list N) (P : X -> Prop) :
  (forall x rest, P x -> d (e x ++ rest) = Ok (x, rest)) ->
  forall l rest, len_ok l -> Forall P l -> dec_list d (enc_list e l ++ rest) = Ok (l, rest).
Proof.
  intros Hd l rest Hlen Hl. unfold dec_list, enc_list. rewrite <- app_assoc.
  rewrite dbind_uvarint_int by exact Hlen. rewrite count_back.
  apply drepeat_flat_map with (P := P); assumption.
Qed.

(* ---------------------------------------------------------------- labels *)
Lemma dec_enc_label l rest :
  str_ok (fst l) /\ str_ok (snd l) -> dec_label (enc_label l ++ rest) = Ok (l, rest).
Proof.
  intros [Ha Hb]. unfold dec_label, enc_label. rewrite <- app_assoc.
  rewrite dbind_bytes by exact Ha. rewrite dbind_bytes by exact Hb.
  destruct l; reflexivity.
Qed.

Lemma dec_enc_labels ls rest : labels_ok ls -> dec_labels (enc_labels ls ++ rest) = Ok (ls, rest).
Proof.
  intros [Hlen Hl]. exact (dec_enc_list dec_label enc_label _ dec_enc_label ls rest Hlen Hl).
Qed.

Lemma dbind_labels {B} (k : labels -> dec B) ls rest :
  labels_ok ls -> dbind dec_labels k (enc_labels ls ++ rest) = k ls rest.
Proof. intros H. apply dbind_ok, dec_enc_labels, H. Qed.

(* ---------------------------------------------------------------- the record loop *)
Section LoopRoundTrip.
  Context {X A T St : Type}.
  Context (estep : T -> X -> list N * T) (dstep : St -> dec (list A * St)).
  Context (R : T -> St -> Prop) (okx : X -> Prop) (out : X -> list A).
  Context (step_ok : forall t s x rest, R t s -> okx x ->
             fst (estep t x) <> [] /\
             exists s', dstep s (fst (estep t x) ++ rest) = Ok ((out x, s'), rest) /\ R (snd (estep t x)) s').

  Lemma loop_roundtrip : forall xs t s fuel, R t s -> Forall okx xs ->
    (length (eloop estep t xs) <= fuel)%nat ->
    dloop fuel dstep s (eloop estep t xs) = Ok (flat_map out xs).
  Proof.
    induction xs as [|x xs IH]; intros t s fuel HR Hxs Hfuel.
    - destruct fuel; reflexivity.
    - inversion Hxs as [|? ? Hx Hxs']; subst.
      cbn [eloop flat_map] in *.
      destruct (step_ok t s x (eloop estep (snd (estep t x)) xs) HR Hx) as [Hne [s' [Hstep HR']]].
      destruct (fst (estep t x)) as [|c b] eqn:Eb; [congruence|].
      rewrite app_length in Hfuel. cbn [length] in Hfuel.
      destruct fuel as [|f]; [lia|].
      cbn [app dloop]. cbn [app] in Hstep. rewrite Hstep.
      rewrite (IH _ s' f HR' Hxs') by lia. reflexivity.
  Qed.
End LoopRoundTrip.

(* the loops without encoder/decoder state: one codec per element *)
Lemma loop_roundtrip_unit {X A} (e : X -> list N) (d : unit -> dec (list A * unit))
    (okx : X -> Prop) (out : X -> list A) :
  (forall x rest, okx x -> e x <> [] /\ d tt (e x ++ rest) = Ok ((out x, tt), rest)) ->
  forall xs fuel, Forall okx xs -> (length (eloop (fun (_ : unit) x => (e x, tt)) tt xs) <= fuel)%nat ->
  dloop fuel d tt (eloop (fun (_ : unit) x => (e x, tt)) tt xs) = Ok (flat_map out xs).
Proof.
  intros Hstep xs fuel Hxs Hfuel.
  apply (loop_roundtrip (fun (_ : unit) x => (e x, tt)) d (fun _ _ => True) okx out); try assumption; [|exact I].
  intros [] [] x rest _ Hx. destruct (Hstep x rest Hx) as [Hne Hd]. split; [exact Hne|].
  exists tt. split; [exact Hd | exact I].
Qed.

Lemma flat_map_single {A} (l : list A) : flat_map (fun x => [x]) l = l.
Proof. rewrite (flat_map_singleton (fun x => x)). apply map_id. Qed.

(* the header of the V1 records with a base: BE64 ref and time of the first element, then the
   loop (Decoder.samplesV1, Exemplars, histogramSamplesV1 share this shape) *)
Lemma based_loop {A} (step : N -> Z -> unit -> dec (list A * unit)) b t body (r : res (list A)) :
  u64_ok b -> int64 t -> dloop (length body) (step b t) tt body = r ->
  match put_be64 b ++ put_be64 (to_u64 t) ++ body with
  | [] => Ok []
  | _ :: _ =>
      match (b <- d_be64 ;; t <- d_be64 ;; dret (b, to_i64 t))%dec (put_be64 b ++ put_be64 (to_u64 t) ++ body) with
      | Err e => Err e
      | Ok ((b, t), r') => dloop (length r') (step b t) tt r'
      end
  end = r.
Proof.
  intros Hb Ht <-. change (put_be64 b ++ put_be64 (to_u64 t) ++ body) with
    ((b / 256 ^ N.of_nat 7) mod 256 :: be_enc 7 b ++ put_be64 (to_u64 t) ++ body) at 1. cbv iota.
  rewrite dbind_be64 by exact Hb. rewrite dbind_be64 by apply to_u64_ok.
  unfold dret. rewrite to_i64_to_u64, wrap64_id by exact Ht. reflexivity.
Qed.

(* ---------------------------------------------------------------- series *)
Theorem series_roundtrip : forall l, Forall series_ok l -> dec_series (enc_series l) = Ok l.
Proof.
  intros l Hl. unfold dec_series, enc_series, with_type. change (tSeries =? tSeries) with true. cbv beta iota.
  rewrite (loop_roundtrip_unit enc_series1 dec_series1 series_ok (fun s => [s])), flat_map_single;
    [reflexivity | | exact Hl | apply Nat.le_refl].
  intros x rest [Hr Hls]. unfold dec_series1, enc_series1. split; [apply app_nonempty_l; discriminate|].
  rewrite <- app_assoc, dbind_be64, dbind_labels by assumption. destruct x; reflexivity.
Qed.

(* ---------------------------------------------------------------- samples V1 *)
Lemma ref_delta_restore b r : u64_ok r -> to_u64 (add64 (to_i64 b) (sub64 (to_i64 r) (to_i64 b))) = r.
Proof.
  intros H. rewrite delta64_restore by apply to_i64_range. apply to_u64_to_i64, H.
Qed.

Theorem samples_v1_roundtrip : forall l, Forall sample_ok l ->
  dec_samples (enc_samples false l) = Ok (map drop_st l).
Proof.
  intros l Hl. unfold dec_samples, enc_samples, enc_samples_v1, with_type.
  change (tSamples =? tSamples) with true. cbv beta iota.
  destruct l as [|first l']; [reflexivity|].
  destruct (Forall_inv Hl) as (Hfr & _ & Hft & _).
  apply (based_loop dec_sample_v1); [exact Hfr | exact Hft |].
  rewrite (loop_roundtrip_unit (enc_sample_v1 first) (dec_sample_v1 (sm_ref first) (sm_t first)) sample_ok
             (fun s => [drop_st s])), flat_map_singleton; [reflexivity | | exact Hl | apply Nat.le_refl].
  intros x rest (Hr & _ & Ht & Hv). unfold dec_sample_v1, enc_sample_v1.
  split; [apply app_nonempty_l, put_varint_nonempty|]. rewrite <- !app_assoc.
  rewrite !dbind_varint, dbind_be64 by (exact Hv || apply sub64_range).
  unfold dret, drop_st. rewrite ref_delta_restore, delta64_restore by assumption. reflexivity.
Qed.

(* ---------------------------------------------------------------- samples V2 *)
Lemma st_marker_roundtrip {B} (k : Z -> dec B) st firstST prevST rest :
  int64 st ->
  dbind (read_st_marker prevST firstST) k (write_st_marker st firstST prevST ++ rest) = k st rest.
Proof.
  intros Hst. unfold write_st_marker, read_st_marker.
  destruct (Z.eqb_spec st 0) as [->|]; [reflexivity|].
  destruct (Z.eqb_spec st prevST) as [->|]; [reflexivity|].
  cbn [app]. unfold dbind at 1. rewrite dbind_byte.
  change (explicitST =? noST) with false. change (explicitST =? sameST) with false. cbv iota.
  rewrite dbind_varint by apply sub64_range.
  unfold dret. rewrite delta64_restore by exact Hst. reflexivity.
Qed.

Definition v2_rel (t : option (ref_sample * ref_sample)) (s : v2state) : Prop :=
  match t, s with
  | None, None => True
  | Some (first, prev), Some (ft, fs, pref, pst) =>
      ft = sm_t first /\ fs = sm_st first /\ pref = sm_ref prev /\ pst = sm_st prev
  | _, _ => False
  end.

Theorem samples_v2_roundtrip : forall l, Forall sample_ok l ->
  dec_samples (enc_samples true l) = Ok l.
Proof.
  intros l Hl. unfold dec_samples, enc_samples, enc_samples_v2, with_type.
  change (tSamplesV2 =? tSamples) with false. change (tSamplesV2 =? tSamplesV2) with true. cbv beta iota.
  unfold dec_samples_v2.
  rewrite (loop_roundtrip enc_sample_v2 dec_sample_v2 v2_rel sample_ok (fun s => [s])), flat_map_single;
    [reflexivity | | exact I | exact Hl | apply Nat.le_refl].
  intros t s x rest HR (Hr & Hst & Ht & Hv).
  destruct t as [[first prev]|], s as [[[[ft fs] pref] pst]|]; cbn [v2_rel] in HR; try contradiction;
    cbn [enc_sample_v2 dec_sample_v2 fst snd]; (split; [apply app_nonempty_l, put_varint_nonempty|]);
    rewrite <- !app_assoc.
  - destruct HR as (-> & -> & -> & ->).
    exists (Some (sm_t first, sm_st first, sm_ref x, sm_st x)).
    split; [|cbn [v2_rel]; repeat split; reflexivity].
    rewrite !dbind_varint, st_marker_roundtrip, dbind_be64 by (assumption || apply sub64_range).
    unfold dret. rewrite ref_delta_restore, delta64_restore by assumption. destruct x; reflexivity.
  - exists (Some (sm_t x, sm_st x, sm_ref x, sm_st x)).
    split; [|cbn [v2_rel]; repeat split; reflexivity].
    rewrite !dbind_varint, dbind_be64 by (assumption || apply to_i64_range).
    unfold dret. rewrite to_u64_to_i64 by exact Hr. destruct x; reflexivity.
Qed.

(* ---------------------------------------------------------------- tombstones *)
Definition stone1_ok (x : N * (Z * Z)) : Prop := u64_ok (fst x) /\ int64 (fst (snd x)) /\ int64 (snd (snd x)).

Lemma flatten_stones_ok l : Forall stone_ok l -> Forall stone1_ok (flatten_stones l).
Proof.
  unfold flatten_stones. induction l as [|s l IH]; intros H; [constructor|].
  inversion H as [|? ? [Hr Hiv] Hl]; subst. cbn [flat_map]. apply Forall_app. split; [|apply IH, Hl].
  clear -Hr Hiv. induction (st_ivs s) as [|iv ivs IH]; [constructor|].
  inversion Hiv as [|? ? [Ha Hb] Hivs]; subst. constructor; [|apply IH, Hivs].
  unfold stone1_ok. cbn [fst snd]. auto.
Qed.

Theorem tombstones_roundtrip : forall l, Forall stone_ok l ->
  dec_tombstones (enc_tombstones l) = Ok (canon_stones l).
Proof.
  intros l Hl. unfold dec_tombstones, enc_tombstones, with_type.
  change (tTombstones =? tTombstones) with true. cbv beta iota.
  rewrite (loop_roundtrip_unit enc_stone1 dec_stone1 stone1_ok (fun x => [mkStone (fst x) [snd x]])),
    flat_map_singleton; [reflexivity | | apply flatten_stones_ok, Hl | apply Nat.le_refl].
  intros x rest (Hr & Ha & Hb). unfold dec_stone1, enc_stone1. split; [apply app_nonempty_l; discriminate|].
  rewrite <- !app_assoc, dbind_be64, !dbind_varint by assumption. destruct x as [r [a b]]; reflexivity.
Qed.

(* ---------------------------------------------------------------- exemplars *)
(* the exemplar and histogram decoders add the ref delta in uint64 arithmetic, the sample
   decoder in int64: the same number *)
Lemma addu64_to_u64 b d : u64_ok b -> addu64 b (to_u64 d) = to_u64 (add64 (to_i64 b) d).
Proof.
  unfold u64_ok, two64N. intros Hb. unfold add64. rewrite to_u64_wrap64.
  unfold addu64, to_u64, to_i64, wrap64, two64N. apply N2Z.inj.
  pose proof (Z.mod_pos_bound d two64 eq_refl).
  rewrite N2Z.inj_mod, N2Z.inj_add, !Z2N.id by (apply Z.mod_pos_bound; reflexivity).
  change (Z.of_N 18446744073709551616) with two64.
  rewrite Zplus_mod_idemp_r, <- (Zplus_mod_idemp_l (_ - _)), Zminus_mod_idemp_l.
  rewrite Zplus_mod_idemp_l. f_equal. lia.
Qed.

Lemma addu64_restore b r : u64_ok b -> u64_ok r ->
  addu64 b (to_u64 (sub64 (to_i64 r) (to_i64 b))) = r.
Proof. intros Hb Hr. rewrite addu64_to_u64 by exact Hb. apply ref_delta_restore, Hr. Qed.

Theorem exemplars_roundtrip : forall l, Forall exemplar_ok l ->
  dec_exemplars (enc_exemplars l) = Ok l.
Proof.
  intros l Hl. unfold dec_exemplars, enc_exemplars, with_type.
  change (tExemplars =? tExemplars) with true. cbv beta iota.
  destruct l as [|first l']; [reflexivity|].
  destruct (Forall_inv Hl) as (Hfr & Hft & _ & _).
  apply (based_loop dec_exemplar1); [exact Hfr | exact Hft |].
  rewrite (loop_roundtrip_unit (enc_exemplar1 first) (dec_exemplar1 (ex_ref first) (ex_t first)) exemplar_ok
             (fun e => [e])), flat_map_single; [reflexivity | | exact Hl | apply Nat.le_refl].
  intros x rest (Hr & Ht & Hv & Hls). unfold dec_exemplar1, enc_exemplar1.
  split; [apply app_nonempty_l, put_varint_nonempty|]. rewrite <- !app_assoc.
  rewrite !dbind_varint, dbind_be64, dbind_labels by (assumption || apply sub64_range).
  unfold dret. rewrite addu64_restore, delta64_restore by assumption. destruct x; reflexivity.
Qed.

(* ---------------------------------------------------------------- metadata *)
Lemma dbind_label {B} (k : bstr * bstr -> dec B) a b rest :
  str_ok a -> str_ok b ->
  dbind dec_label k (put_uvarint_bytes a ++ put_uvarint_bytes b ++ rest) = k (a, b) rest.
Proof.
  intros Ha Hb. apply dbind_ok. unfold dec_label.
  rewrite dbind_bytes by exact Ha. rewrite dbind_bytes by exact Hb. reflexivity.
Qed.

Lemma name_ok_unit : str_ok unitMetaName. Proof. unfold str_ok, len_ok. cbn. lia. Qed.
Lemma name_ok_help : str_ok helpMetaName. Proof. unfold str_ok, len_ok. cbn. lia. Qed.

Theorem metadata_roundtrip : forall l, Forall metadata_ok l ->
  dec_metadata (enc_metadata l) = Ok l.
Proof.
  intros l Hl. unfold dec_metadata, enc_metadata, with_type.
  change (tMetadata =? tMetadata) with true. cbv beta iota.
  rewrite (loop_roundtrip_unit enc_metadata1 dec_metadata1 metadata_ok (fun m => [m])), flat_map_single;
    [reflexivity | | exact Hl | apply Nat.le_refl].
  intros x rest (Hr & Hu & Hh). unfold dec_metadata1, enc_metadata1.
  split; [apply app_nonempty_l, put_uvarint_nonempty|]. rewrite <- !app_assoc.
  rewrite dbind_uvarint by exact Hr.
  cbn [app]. rewrite dbind_byte.
  rewrite dbind_uvarint_int by (cbv; reflexivity).
  change (Z.to_nat (Z.of_N 2)) with 2%nat. cbn [drepeat].
  unfold dbind at 1. rewrite dbind_label by (exact Hu || exact name_ok_unit).
  unfold dbind at 1. rewrite dbind_label by (exact Hh || exact name_ok_help).
  unfold dret. cbn [dbind].
  destruct x as [r t u h]. cbn [md_ref md_type md_unit md_help].
  unfold pick_fields. cbn [fold_left fst snd].
  change (bytes_eqb unitMetaName unitMetaName) with true.
  change (bytes_eqb helpMetaName unitMetaName) with false.
  change (bytes_eqb helpMetaName helpMetaName) with true.
  cbv iota. cbn [fst snd]. reflexivity.
Qed.

(* ---------------------------------------------------------------- m-map markers *)
Theorem mmap_roundtrip : forall l, Forall mmap_ok l -> dec_mmap (enc_mmap l) = Ok l.
Proof.
  intros l Hl. unfold dec_mmap, enc_mmap, with_type.
  change (tMmapMarkers =? tMmapMarkers) with true. cbv beta iota.
  rewrite (loop_roundtrip_unit enc_mmap1 dec_mmap1 mmap_ok (fun m => [m])), flat_map_single;
    [reflexivity | | exact Hl | apply Nat.le_refl].
  intros x rest (Hr & Hm). unfold dec_mmap1, enc_mmap1. split; [apply app_nonempty_l; discriminate|].
  rewrite <- !app_assoc, !dbind_be64 by assumption. destruct x; reflexivity.
Qed.

(* ================================================================ native histograms *)
Definition span_ok (s : span) : Prop := int32 (sp_off s) /\ sp_len s < 4294967296.
Definition hist_ok (h : hist) : Prop :=
  int32 (h_schema h) /\ u64_ok (h_zt h) /\ u64_ok (h_zc h) /\ u64_ok (h_count h) /\ u64_ok (h_sum h) /\
  (len_ok (h_ps h) /\ Forall span_ok (h_ps h)) /\ (len_ok (h_ns h) /\ Forall span_ok (h_ns h)) /\
  (len_ok (h_pb h) /\ Forall int64 (h_pb h)) /\ (len_ok (h_nb h) /\ Forall int64 (h_nb h)) /\
  (len_ok (h_cv h) /\ Forall u64_ok (h_cv h)).
Definition fhist_ok (h : fhist) : Prop :=
  int32 (fh_schema h) /\ u64_ok (fh_zt h) /\ u64_ok (fh_zc h) /\ u64_ok (fh_count h) /\ u64_ok (fh_sum h) /\
  (len_ok (fh_ps h) /\ Forall span_ok (fh_ps h)) /\ (len_ok (fh_ns h) /\ Forall span_ok (fh_ns h)) /\
  (len_ok (fh_pb h) /\ Forall u64_ok (fh_pb h)) /\ (len_ok (fh_nb h) /\ Forall u64_ok (fh_nb h)) /\
  (len_ok (fh_cv h) /\ Forall u64_ok (fh_cv h)).

Lemma dbind_list {X B} (d : dec X) (e : X -> list N) (P : X -> Prop) (k : list X -> dec B) l rest :
  (forall x r, P x -> d (e x ++ r) = Ok (x, r)) -> len_ok l /\ Forall P l ->
  dbind (dec_list d) k (enc_list e l ++ rest) = k l rest.
Proof. intros Hd [Hlen Hl]. apply dbind_ok. apply dec_enc_list with (P := P); assumption. Qed.

Lemma dec_enc_span s r : span_ok s -> dec_span (enc_span s ++ r) = Ok (s, r).
Proof.
  intros [Ho Hl]. unfold dec_span, enc_span. rewrite <- app_assoc.
  rewrite dbind_varint by (apply int32_int64, Ho). rewrite dbind_uvarint32 by exact Hl.
  unfold dret. rewrite wrap32_id by exact Ho. destruct s; reflexivity.
Qed.

Lemma dec_enc_hist h rest : hist_ok h -> dec_hist (enc_hist h ++ rest) = Ok (canon_hist h, rest).
Proof.
  intros (Hs & Hzt & Hzc & Hc & Hsum & Hps & Hns & Hpb & Hnb & Hcv).
  unfold dec_hist, enc_hist. rewrite <- !app_assoc. cbn [app]. rewrite dbind_byte.
  rewrite dbind_varint by (apply int32_int64, Hs).
  rewrite dbind_be64 by exact Hzt. rewrite dbind_uvarint by exact Hzc.
  rewrite dbind_uvarint by exact Hc. rewrite dbind_be64 by exact Hsum.
  rewrite (dbind_list _ _ span_ok) by (exact dec_enc_span || exact Hps).
  rewrite (dbind_list _ _ span_ok) by (exact dec_enc_span || exact Hns).
  rewrite (dbind_list _ _ int64) by (exact d_varint64_put || exact Hpb).
  rewrite (dbind_list _ _ int64) by (exact d_varint64_put || exact Hnb).
  rewrite wrap32_id by exact Hs. unfold canon_hist.
  destruct (is_custom (h_schema h)).
  - rewrite (dbind_list _ _ u64_ok) by (exact d_be64_put || exact Hcv). reflexivity.
  - reflexivity.
Qed.

Lemma dec_enc_fhist h rest : fhist_ok h -> dec_fhist (enc_fhist h ++ rest) = Ok (canon_fhist h, rest).
Proof.
  intros (Hs & Hzt & Hzc & Hc & Hsum & Hps & Hns & Hpb & Hnb & Hcv).
  unfold dec_fhist, enc_fhist. rewrite <- !app_assoc. cbn [app]. rewrite dbind_byte.
  rewrite dbind_varint by (apply int32_int64, Hs).
  rewrite dbind_be64 by exact Hzt. rewrite dbind_be64 by exact Hzc.
  rewrite dbind_be64 by exact Hc. rewrite dbind_be64 by exact Hsum.
  rewrite (dbind_list _ _ span_ok) by (exact dec_enc_span || exact Hps).
  rewrite (dbind_list _ _ span_ok) by (exact dec_enc_span || exact Hns).
  rewrite (dbind_list _ _ u64_ok) by (exact d_be64_put || exact Hpb).
  rewrite (dbind_list _ _ u64_ok) by (exact d_be64_put || exact Hnb).
  rewrite wrap32_id by exact Hs. unfold canon_fhist.
  destruct (is_custom (fh_schema h)).
  - rewrite (dbind_list _ _ u64_ok) by (exact d_be64_put || exact Hcv). reflexivity.
  - reflexivity.
Qed.

(* ---- the record level, generic in the payload *)
Lemma dloop_step {A St} (step : St -> dec (list A * St)) fuel s b rest o s' l :
  b <> [] -> step s (b ++ rest) = Ok ((o, s'), rest) ->
  (forall f, (length rest <= f)%nat -> dloop f step s' rest = Ok l) ->
  (length (b ++ rest) <= fuel)%nat ->
  dloop fuel step s (b ++ rest) = Ok (o ++ l).
Proof.
  intros Hb Hstep Hrest Hfuel. destruct b as [|c b]; [congruence|].
  rewrite app_length in Hfuel. cbn [length] in Hfuel. destruct fuel as [|f]; [lia|].
  cbn [app dloop]. cbn [app] in Hstep. rewrite Hstep. rewrite Hrest by lia. reflexivity.
Qed.

Lemma eloop_skip {X} (skip : X -> bool) (e : X -> list N) l :
  eloop (fun (_ : unit) x => if skip x then ([], tt) else (e x, tt)) tt l =
  eloop (fun (_ : unit) x => (e x, tt)) tt (filter (fun x => negb (skip x)) l).
Proof.
  induction l as [|x l IH]; [reflexivity|]. cbn [eloop filter].
  destruct (skip x); cbn [negb fst snd eloop app]; rewrite IH; reflexivity.
Qed.

Lemma filter_negb_length {X} (p : X -> bool) l :
  (length (filter p l) + length (filter (fun x => negb (p x)) l) = length l)%nat.
Proof. induction l as [|x l IH]; [reflexivity|]. cbn [filter]. destruct (p x); cbn [negb length]; lia. Qed.

Section HistRoundTrip.
  Context {H : Type} (h_enc : H -> list N) (h_dec : dec H) (schema_of : H -> Z).
  Context (h_ok : H -> Prop) (canon_h : H -> H).
  Context (h_rt : forall h rest, h_ok h -> h_dec (h_enc h ++ rest) = Ok (canon_h h, rest)).
  Context (h_ne : forall h, h_enc h <> []).
  Context (h_schema_canon : forall h, schema_of (canon_h h) = schema_of h).

  (* range of the Go types, plus: the schema is not one that the decoder sends through
     ReduceResolution (9..52) — that path is not modelled *)
  Definition rs_ok (x : rsample H) : Prop :=
    u64_ok (r_ref x) /\ int64 (r_st x) /\ int64 (r_t x) /\ h_ok (r_h x) /\
    needs_reduce (schema_of (r_h x)) = false.

  Definition rs_out (v2 : bool) (x : rsample H) : list (rsample H) :=
    if is_known_schema (schema_of (r_h x))
    then [mkRS (r_ref x) (if v2 then r_st x else 0%Z) (r_t x) (canon_h (r_h x))] else [].

  Lemma rs_out_canon v2 l : flat_map (rs_out v2) l = canon_rs canon_h schema_of v2 l.
  Proof.
    unfold canon_rs. induction l as [|x l IH]; [reflexivity|]. cbn [flat_map filter]. unfold rs_out at 1.
    destruct (is_known_schema (schema_of (r_h x))); cbn [map app]; rewrite IH; reflexivity.
  Qed.

  Lemma keep_schema_ok {St} (v2 : bool) (x : rsample H) (s : St) rest :
    needs_reduce (schema_of (r_h x)) = false ->
    keep_schema (schema_of (canon_h (r_h x)))
      (mkRS (r_ref x) (if v2 then r_st x else 0%Z) (r_t x) (canon_h (r_h x))) s rest =
    Ok ((rs_out v2 x, s), rest).
  Proof.
    intros Hnr. unfold keep_schema, rs_out. rewrite h_schema_canon, Hnr.
    destruct (is_known_schema (schema_of (r_h x))); reflexivity.
  Qed.

  Lemma dbind_h {B} (k : H -> dec B) h rest : h_ok h -> dbind h_dec k (h_enc h ++ rest) = k (canon_h h) rest.
  Proof. intros Hh. apply dbind_ok, h_rt, Hh. Qed.

  (* -- V1, for any list encoded relative to [first] *)
  Lemma v1_record first l :
    u64_ok (r_ref first) -> int64 (r_t first) -> Forall rs_ok l ->
    dec_hists_v1 h_dec schema_of
      (put_be64 (r_ref first) ++ put_be64 (to_u64 (r_t first)) ++
       eloop (fun (_ : unit) x => (enc_rs_v1 h_enc first x, tt)) tt l)
    = Ok (canon_rs canon_h schema_of false l).
  Proof.
    intros Hfr Hft Hl. apply (based_loop (dec_rs_v1 h_dec schema_of)); [exact Hfr | exact Hft |].
    rewrite (loop_roundtrip_unit (enc_rs_v1 h_enc first) (dec_rs_v1 h_dec schema_of (r_ref first) (r_t first))
               rs_ok (rs_out false)), rs_out_canon; [reflexivity | | exact Hl | apply Nat.le_refl].
    intros x rest (Hr & Hst & Ht & Hh & Hnr). unfold dec_rs_v1, enc_rs_v1.
    split; [apply app_nonempty_l, put_varint_nonempty|]. rewrite <- !app_assoc.
    rewrite !dbind_varint, dbind_h by (exact Hh || apply sub64_range).
    rewrite addu64_restore, delta64_restore by assumption.
    apply (keep_schema_ok false x tt rest Hnr).
  Qed.

  (* -- V2: the first sample is decoded outside the loop *)
  Definition hv2_rel (t : option (rsample H * rsample H)) (s : option (N * Z)) (first : rsample H) : Prop :=
    match t, s with
    | Some (f, prev), Some (pref, pst) => f = first /\ pref = r_ref prev /\ pst = r_st prev
    | _, _ => False
    end.

  Lemma v2_rest first : forall l t s fuel, hv2_rel t s first -> Forall rs_ok l ->
    (length (eloop (enc_rs_v2 h_enc) t l) <= fuel)%nat ->
    dloop fuel (dec_rs_v2 h_dec schema_of (r_ref first) (r_t first) (r_st first)) s (eloop (enc_rs_v2 h_enc) t l)
    = Ok (canon_rs canon_h schema_of true l).
  Proof.
    intros l t s fuel HR Hl Hfuel.
    rewrite (loop_roundtrip (enc_rs_v2 h_enc) (dec_rs_v2 h_dec schema_of (r_ref first) (r_t first) (r_st first))
               (fun t s => hv2_rel t s first) rs_ok (rs_out true)), rs_out_canon;
      [reflexivity | | exact HR | exact Hl | exact Hfuel].
    clear HR Hl Hfuel. intros t0 s0 x rest HR0 (Hr & Hst & Ht & Hh & Hnr).
    destruct t0 as [[f prev]|], s0 as [[pref pst]|]; cbn [hv2_rel] in HR0; try contradiction.
    destruct HR0 as (-> & -> & ->). cbn [enc_rs_v2 dec_rs_v2 fst snd].
    split; [apply app_nonempty_l, put_varint_nonempty|].
    exists (Some (r_ref x, r_st x)). split; [|cbn [hv2_rel]; repeat split; reflexivity].
    rewrite <- !app_assoc, !dbind_varint, st_marker_roundtrip, dbind_h by (assumption || apply sub64_range).
    cbv zeta. rewrite ref_delta_restore, delta64_restore by assumption.
    apply (keep_schema_ok true x (Some (r_ref x, r_st x)) rest Hnr).
  Qed.

  Lemma v2_record l : Forall rs_ok l ->
    dec_hists_v2 h_dec schema_of (eloop (enc_rs_v2 h_enc) None l) = Ok (canon_rs canon_h schema_of true l).
  Proof.
    intros Hl. destruct l as [|first l']; [reflexivity|].
    inversion Hl as [|? ? (Hfr & Hfst & Hft & Hfh & Hfnr) Hl']; subst.
    cbn [eloop enc_rs_v2 fst snd]. unfold dec_hists_v2.
    assert (Hne : (put_varint (to_i64 (r_ref first)) ++ put_varint (r_t first) ++ put_varint (r_st first) ++ h_enc (r_h first)) ++
                  eloop (enc_rs_v2 h_enc) (Some (first, first)) l' <> [])
      by (apply app_nonempty_l, app_nonempty_l, put_varint_nonempty).
    destruct (_ ++ eloop (enc_rs_v2 h_enc) (Some (first, first)) l') as [|c0 r0] eqn:E0; [congruence|].
    rewrite <- E0. clear E0 Hne c0 r0. rewrite <- !app_assoc.
    rewrite !dbind_varint by (assumption || apply to_i64_range).
    unfold dret. rewrite to_u64_to_i64 by exact Hfr.
    rewrite <- !rs_out_canon. cbn [flat_map].
    apply dloop_step with (s' := Some (r_ref first, r_st first)); [apply h_ne | | | apply Nat.le_refl].
    - cbn [dec_rs_v2]. rewrite dbind_h by exact Hfh.
      apply (keep_schema_ok true first (Some (r_ref first, r_st first)) _ Hfnr).
    - intros f Hf. rewrite rs_out_canon. apply v2_rest; [cbn [hv2_rel]; auto | exact Hl' | exact Hf].
  Qed.
End HistRoundTrip.

(* ---- through the public Decoder methods, which dispatch on the record type *)
Lemma enc_hist_nonempty h : enc_hist h <> [].
Proof. unfold enc_hist. discriminate. Qed.
Lemma enc_fhist_nonempty h : enc_fhist h <> [].
Proof. unfold enc_fhist. discriminate. Qed.
Lemma canon_hist_schema h : h_schema (canon_hist h) = h_schema h. Proof. reflexivity. Qed.
Lemma canon_fhist_schema h : fh_schema (canon_fhist h) = fh_schema h. Proof. reflexivity. Qed.

Definition rhist_ok : rsample hist -> Prop := rs_ok h_schema hist_ok.
Definition rfhist_ok : rsample fhist -> Prop := rs_ok fh_schema fhist_ok.
Definition hcustom (x : rsample hist) : bool := is_custom (h_schema (r_h x)).
Definition fcustom (x : rsample fhist) : bool := is_custom (fh_schema (r_h x)).

Section PublicHist.
  Context {H : Type} (h_enc : H -> list N) (h_dec : dec H) (schema_of : H -> Z)
          (h_ok : H -> Prop) (canon_h : H -> H).
  Context (h_rt : forall h rest, h_ok h -> h_dec (h_enc h ++ rest) = Ok (canon_h h, rest))
          (h_ne : forall h, h_enc h <> [])
          (h_sc : forall h, schema_of (canon_h h) = schema_of h).
  Context (t1 tcb t2 : N) (decode : list N -> res (list (rsample H))).
  Context (decode_v1 : forall body, decode (t1 :: body) = dec_hists_v1 h_dec schema_of body)
          (decode_cb : forall body, decode (tcb :: body) = dec_hists_v1 h_dec schema_of body)
          (decode_v2 : forall body, decode (t2 :: body) = dec_hists_v2 h_dec schema_of body).
  Let ok := rs_ok schema_of h_ok.
  Let custom (x : rsample H) := is_custom (schema_of (r_h x)).
  Let canon := canon_rs canon_h schema_of.

  (* Encoder.histogramSamplesV1 (and the float one): the custom-bucket samples are skipped and
     returned; the record is empty when nothing else is left *)
  Lemma public_split l : Forall ok l ->
    let r := enc_hists_v1 h_enc schema_of t1 l in
    let expo := filter (fun x => negb (custom x)) l in
    snd r = filter custom l /\
    (l = [] \/ expo <> [] -> decode (fst r) = Ok (canon false expo)) /\
    (l <> [] -> expo = [] -> fst r = []).
  Proof.
    intros Hl r expo. unfold r, enc_hists_v1.
    destruct l as [|first l'].
    { split; [reflexivity|]. split; [intros _; cbn [fst]; rewrite decode_v1; reflexivity | congruence]. }
    set (l := first :: l') in *. cbn [fst snd]. split; [reflexivity|].
    (* all of l is custom iff nothing else is left *)
    pose proof (filter_negb_length custom l : (length (filter (r_custom schema_of) l) + length expo = length l)%nat) as Hlen.
    destruct (Nat.eqb_spec (length l) (length (filter (r_custom schema_of) l))) as [E|E].
    - assert (He : expo = []) by (apply length_zero_iff_nil; lia).
      split; [intros [Hc|Hc]; [discriminate Hc | contradiction] | reflexivity].
    - assert (Hne : expo <> []) by (intros He; rewrite He in Hlen; cbn [length] in Hlen; lia).
      split; [|intros _ He; contradiction]. intros _. rewrite decode_v1.
      unfold enc_rs_v1_skip. rewrite (eloop_skip (r_custom schema_of) (enc_rs_v1 h_enc first)).
      destruct (Forall_inv Hl) as (Hfr & _ & Hft & _).
      apply (v1_record h_enc h_dec schema_of h_ok canon_h h_rt h_sc); [exact Hfr | exact Hft |].
      exact (incl_Forall (incl_filter _ l) Hl).
  Qed.

  (* Encoder.customBucketsHistogramSamplesV1 (and the float one): everything is encoded *)
  Lemma public_cb l : Forall ok l -> decode (enc_cbhists_v1 h_enc tcb l) = Ok (canon false l).
  Proof.
    intros Hl. unfold enc_cbhists_v1. rewrite decode_cb. destruct l as [|first l']; [reflexivity|].
    destruct (Forall_inv Hl) as (Hfr & _ & Hft & _).
    apply (v1_record h_enc h_dec schema_of h_ok canon_h h_rt h_sc); assumption.
  Qed.

  Lemma public_v2 l : Forall ok l -> decode (enc_hists_v2 h_enc t2 l) = Ok (canon true l).
  Proof.
    intros Hl. unfold enc_hists_v2. rewrite decode_v2.
    exact (v2_record h_enc h_dec schema_of h_ok canon_h h_rt h_ne h_sc l Hl).
  Qed.
End PublicHist.

(* canon is the identity on valid histograms: known schema, custom values only with the custom schema *)
Definition hist_valid (x : rsample hist) : Prop :=
  is_known_schema (h_schema (r_h x)) = true /\ (is_custom (h_schema (r_h x)) = false -> h_cv (r_h x) = []).
Definition fhist_valid (x : rsample fhist) : Prop :=
  is_known_schema (fh_schema (r_h x)) = true /\ (is_custom (fh_schema (r_h x)) = false -> fh_cv (r_h x) = []).

Lemma canon_rs_id {H} (canon_h : H -> H) (schema_of : H -> Z) (valid : rsample H -> Prop) :
  (forall x, valid x -> is_known_schema (schema_of (r_h x)) = true /\ canon_h (r_h x) = r_h x) ->
  forall l, Forall valid l -> canon_rs canon_h schema_of true l = l.
Proof.
  intros Hv. unfold canon_rs. induction l as [|x l IH]; intros Hl; [reflexivity|].
  inversion Hl as [|? ? Hx Hl']; subst. destruct (Hv x Hx) as [Hk Hc].
  cbn [filter]. rewrite Hk. cbn [map]. rewrite IH, Hc by exact Hl'. destruct x; reflexivity.
Qed.

Lemma canon_rs_hist_id l : Forall hist_valid l -> canon_rs canon_hist h_schema true l = l.
Proof.
  apply canon_rs_id. intros [r st t h] [Hk Hc]. split; [exact Hk|]. cbn [r_h] in *.
  destruct h. unfold canon_hist. cbn in *. destruct (is_custom _); [|rewrite Hc]; reflexivity.
Qed.

Lemma canon_rs_fhist_id l : Forall fhist_valid l -> canon_rs canon_fhist fh_schema true l = l.
Proof.
  apply canon_rs_id. intros [r st t h] [Hk Hc]. split; [exact Hk|]. cbn [r_h] in *.
  destruct h. unfold canon_fhist. cbn in *. destruct (is_custom _); [|rewrite Hc]; reflexivity.
Qed.

(* ---------------------------------------------------------------- non-vacuity witnesses *)
Definition ex_samples : list ref_sample :=
  [mkSample 18446744073709551615 0 (-9223372036854775808) 9221120237041090561;
   mkSample 0 (-5) 9223372036854775807 0;
   mkSample 7 (-5) 1 1;
   mkSample 3 9223372036854775807 0 18446744073709551615].
Lemma ex_samples_ok : Forall sample_ok ex_samples.
Proof. repeat constructor; cbv; intuition discriminate. Qed.

Definition ex_hists : list (rsample hist) :=
  [mkRS 5 0 10 (mkHist 1 3 0 2 9 4611686018427387904 [mkSpan (-2) 2] [] [1; -1]%Z [] []);
   mkRS 1 7 (-4) (mkHist 0 (-53) 0 0 3 0 [mkSpan 0 2] [] [2; 1]%Z [] [4607182418800017408; 4611686018427387904]);
   mkRS 9 7 20 (mkHist 2 100 0 0 0 0 [] [] [] [] [])].
Lemma ex_hists_ok : Forall rhist_ok ex_hists.
Proof. repeat constructor; cbv; intuition discriminate. Qed.
