(* proof/PromqlParseProofs.v — C26, continued: label matchers, postfix modifiers and primary
   expressions read back as printed; the two invariants of the round trip (ML for parse_e, PL for
   prefix) and their proof for every node but calls and aggregations. *)
From Coq Require Import List ZArith Bool NArith Lia.
From Verif Require Import model.PromqlPrint model.PromqlParse proof.PromqlPrintProofs.
Import ListNotations.
Open Scope Z_scope.

Local Arguments lex_word : simpl never.
Local Arguments kw_lookup : simpl never.

Lemma matcher_head_print : forall m Y, matcher_head (print_matcher m ++ Y) = Ok (m, Y).
Proof.
  intros [name ty val] Y. unfold print_matcher. cbn [m_name m_type m_val app].
  destruct (legacy_label name); destruct ty; reflexivity.
Qed.

Lemma print_matcher_head : forall m Y, exists t r, print_matcher m ++ Y = t :: r /\ tk t <> KRK.
Proof.
  intros [name ty val] Y. unfold print_matcher. cbn [m_name app].
  destruct (legacy_label name); eexists; eexists; split; eauto; cbn; congruence.
Qed.

Definition pms (ms : list matcher) := commas (map print_matcher ms).

Lemma pms_cons : forall m ms,
  pms (m :: ms) = print_matcher m ++ match ms with [] => [] | _ => T KCOMMA :: pms ms end.
Proof. destruct ms; [symmetry; apply app_nil_r|reflexivity]. Qed.

Lemma pms_hd : forall m ms Y, hd_kind (pms (m :: ms) ++ Y) <> KRK.
Proof.
  intros. rewrite pms_cons, <- app_assoc.
  destruct (print_matcher_head m (match ms with [] => [] | _ => T KCOMMA :: pms ms end ++ Y)) as (t & r & E & K).
  rewrite E. exact K.
Qed.

Lemma pms_length : forall ms, (length ms <= length (pms ms))%nat.
Proof.
  induction ms as [|m ms IH]; [apply Nat.le_refl|]. rewrite pms_cons, app_length. cbn [print_matcher length].
  destruct ms; cbn [length] in *; lia.
Qed.

Lemma matchers_loop_last : forall n m Y acc,
  matchers_loop (S n) (print_matcher m ++ T KRK :: Y) acc = Ok (acc ++ [m], Y).
Proof. intros. cbn [matchers_loop]. rewrite matcher_head_print. reflexivity. Qed.

Lemma not_krk {A} (k : kind) (a b : A) : k <> KRK -> match k with KRK => a | _ => b end = b.
Proof. destruct k; reflexivity || congruence. Qed.

Lemma matchers_loop_comma : forall n m X acc, hd_kind X <> KRK ->
  matchers_loop (S n) (print_matcher m ++ T KCOMMA :: X) acc = matchers_loop n X (acc ++ [m]).
Proof. intros. cbn [matchers_loop]. rewrite matcher_head_print. cbn [tk T]. now apply not_krk. Qed.

Lemma matchers_loop_print : forall ms m n acc Y, (length (m :: ms) <= n)%nat ->
  matchers_loop n (pms (m :: ms) ++ T KRK :: Y) acc = Ok (acc ++ m :: ms, Y).
Proof.
  induction ms as [|m2 ms IH]; intros m [|n] acc Y Hn; cbn [length] in Hn; try lia;
    rewrite pms_cons, <- app_assoc; cbn [app].
  - apply matchers_loop_last.
  - rewrite matchers_loop_comma by apply pms_hd. rewrite IH by (cbn [length]; lia).
    rewrite <- app_assoc. reflexivity.
Qed.

Lemma matchers_print : forall ms Y, ms <> [] -> matchers (pms ms ++ T KRK :: Y) = Ok (ms, Y).
Proof.
  intros [|m ms] Y H; [congruence|]. unfold matchers.
  rewrite not_krk by apply pms_hd. apply (matchers_loop_print ms m _ []).
  rewrite app_length. pose proof (pms_length (m :: ms)). lia.
Qed.

Section Post.
  Variable oc : orc.
  Variable o : opts.

  Lemma postfix_loop_mono : forall n e X r, postfix_loop n oc o e X = Ok r ->
    forall n', (n <= n')%nat -> postfix_loop n' oc o e X = Ok r.
  Proof.
    induction n; intros e X r H [|n'] Hn; try lia; auto; cbn [postfix_loop] in *;
      destruct (postfix_step oc o e X) as [[[e' rest]|x]|]; auto; try discriminate.
    apply IHn; auto. lia.
  Qed.

  Lemma loop_step : forall e X e' Y n r, postfix_step oc o e X = Some (Ok (e', Y)) ->
    postfix_loop n oc o e' Y = Ok r -> postfix_loop (S n) oc o e X = Ok r.
  Proof. intros e X e' Y n r S H. cbn [postfix_loop]. rewrite S. exact H. Qed.

  (* an optional modifier: nothing is printed and the expression stays, or one step of the loop *)
  Definition opt_step (e : expr) (P Y : list tok) (e' : expr) : Prop :=
    (P = [] /\ e' = e) \/ (P <> [] /\ postfix_step oc o e (P ++ Y) = Some (Ok (e', Y))).

  (* it costs fuel only when printed *)
  Lemma loop_opt : forall e P Y e' n r, opt_step e P Y e' ->
    postfix_loop n oc o e' Y = Ok r -> postfix_loop (n + length P) oc o e (P ++ Y) = Ok r.
  Proof.
    intros e P Y e' n r [[-> ->]|[HP S]] H.
    - eapply postfix_loop_mono; eauto. lia.
    - eapply postfix_loop_mono; [eapply loop_step; eauto|]. destruct P; [congruence|cbn [length]; lia].
  Qed.

  Lemma step_at : forall e a Y e', at_ok oc a = true ->
    match a with AtNone => e' = e | _ => apply_at e a = Ok e' end -> opt_step e (print_at oc a) Y e'.
  Proof.
    intros e a Y e' Hok Ha. destruct a as [|ms| |]; [left; auto|right; split; [discriminate|]..].
    - unfold at_ok in Hok. apply Z.eqb_eq in Hok. unfold print_at.
      destruct (ms <? 0) eqn:E; cbn [app postfix_step tk T tz]; b2p.
      + rewrite Z.abs_neq in Hok by lia. rewrite Hok, Z.opp_involutive, Ha. reflexivity.
      + rewrite Z.abs_eq in Hok by lia. rewrite Hok, Ha. reflexivity.
    - cbn. rewrite Ha. reflexivity.
    - cbn. rewrite Ha. reflexivity.
  Qed.

  Lemma step_off : forall e d Y e', off_ok oc d = true ->
    (if d =? 0 then e' = e else apply_offset e d = Ok e') -> opt_step e (print_off d) Y e'.
  Proof.
    intros e d Y e'. unfold off_ok, print_off. destruct (d =? 0) eqn:E0; cbn [orb]; intros Hok Ha; b2p.
    - subst d. left. auto.
    - right. destruct (0 <? d) eqn:E; b2p.
      + split; [discriminate|]. cbn [app postfix_step tk TW TD tz]. rewrite Hok, Ha. reflexivity.
      + replace (d <? 0) with true by (symmetry; apply Z.ltb_lt; lia). split; [discriminate|].
        cbn [app postfix_step tk TW T TD tz]. rewrite Hok, Ha. reflexivity.
  Qed.

  Lemma step_ext : forall e x Y e',
    match x with XNone => e' = e | _ => apply_ext o e x = Ok e' end -> opt_step e (print_ext x) Y e'.
  Proof.
    intros e x Y e' Ha. destruct x; [left; auto|right; split; [discriminate|cbn; rewrite Ha; reflexivity]..].
  Qed.

  Lemma dur_ok_facts : forall d, dur_ok oc d = true ->
    (trunc_ms d <=? 0) = false /\ olook (o_drt oc) (trunc_ms d) = d.
  Proof. unfold dur_ok. intros. b2p. split; auto. apply Z.leb_gt. lia. Qed.

  Lemma step_matrix : forall v rng Y, vs_at v = AtNone -> vs_off v = 0 -> dur_ok oc rng = true ->
    postfix_step oc o (EVS v) (T KLB :: print_range rng :: T KRB :: Y) = Some (Ok (EMat v rng, Y)).
  Proof.
    intros v rng Y Ha Ho Hd. destruct (dur_ok_facts _ Hd) as [D1 D2].
    cbn [postfix_step tk T TD tz print_range]. rewrite D1, D2, Ha, Ho. reflexivity.
  Qed.

  Lemma step_subquery : forall e rng step Y, dur_ok oc rng = true -> (step =? 0) || dur_ok oc step = true ->
    postfix_step oc o e (T KLB :: print_range rng :: T KCOLON :: (if step =? 0 then [] else [TD (trunc_ms step)]) ++ T KRB :: Y)
    = Some (Ok (ESub e rng step AtNone 0, Y)).
  Proof.
    intros e rng step Y Hd Hs. destruct (dur_ok_facts _ Hd) as [D1 D2].
    cbn [postfix_step tk T TD tz print_range]. rewrite D1, D2.
    destruct (step =? 0) eqn:E0; cbn [app tk T TD tz].
    - apply Z.eqb_eq in E0. subst step. reflexivity.
    - destruct (dur_ok_facts _ Hs) as [S1 S2]. rewrite S1, S2. reflexivity.
  Qed.
End Post.

Lemma lprec_unnorm : forall e, lprec (unnorm e) = lprec e.
Proof. destruct e; reflexivity. Qed.
Lemma fb_unnorm : forall e, fb (unnorm e) = fb e.
Proof. destruct e; reflexivity. Qed.
Lemma atomb_unnorm : forall e, atomb (unnorm e) = atomb e.
Proof. destruct e; reflexivity. Qed.
Lemma is_lit_unnorm : forall e, is_lit (unnorm e) = is_lit e.
Proof. destruct e; reflexivity. Qed.

Definition okstart (k : kind) : Prop :=
  match k with
  | KNUM | KDUR | KSTR | KID | KMID | KLP | KLK | KAGG _ | KOP BSub | KOP BAdd
  | KSTART | KEND | KSTEP | KRANGE | KMAXOF | KMINOF => True
  | _ => False
  end.

Lemma okstart_nomod : forall R, okstart (hd_kind R) -> nomod R.
Proof. intros R. unfold nomod. destruct (hd_kind R); try contradiction; reflexivity. Qed.

Lemma okstart_not_rp : forall R, okstart (hd_kind R) -> hd_kind R <> KRP.
Proof. intros R H E. rewrite E in H. exact H. Qed.

Lemma is_name_matcher_nil : forall m, is_name_matcher [] m = false.
Proof.
  intros. unfold is_name_matcher. destruct (m_val m); simpl; rewrite ?andb_false_r; reflexivity.
Qed.

Lemma filter_name_nil : forall l, filter (fun m0 => negb (is_name_matcher [] m0)) l = l.
Proof. induction l; simpl; auto. rewrite is_name_matcher_nil. simpl. congruence. Qed.

Lemma filter_name_cons : forall name l, forallb (fun m => negb (seqb (m_name m) name_label)) l = true ->
  filter (fun m0 => negb (is_name_matcher name m0)) l = l.
Proof.
  induction l; simpl; auto. intros H. apply andb_prop in H. destruct H as [H1 H2].
  unfold is_name_matcher at 1. apply negb_true_iff in H1. rewrite H1. simpl. rewrite IHl; auto.
Qed.

Section Primary.
  Variable oc : orc.
  Variable o : opts.
  Variable ft : ftab.
  Variable pe : Z -> list tok -> res (expr * list tok).

  (* the implicit __name__ matcher is the only one the printer drops, and vs_ok has none *)
  Lemma print_vs_base_ok : forall v, vs_ok oc o v = true ->
    print_vs_base v = (match vs_name v with [] => [] | n => [lex_word n] end) ++
                      (match vs_ms v with [] => [] | _ => T KLK :: pms (vs_ms v) ++ [T KRK] end).
  Proof.
    intros v H. unfold vs_ok in H. b2p. unfold print_vs_base.
    replace (filter _ (vs_ms v)) with (vs_ms v); [reflexivity|].
    symmetry. destruct (vs_name v); [apply filter_name_nil|apply filter_name_cons; assumption].
  Qed.

  Lemma vs_base_head : forall v X, vs_ok oc o v = true -> okstart (hd_kind (print_vs_base v ++ X)).
  Proof.
    intros v X H. rewrite (print_vs_base_ok v H). unfold vs_ok in H. b2p.
    destruct (vs_name v) as [|c n]; [destruct (vs_ms v); [discriminate|exact I]|].
    unfold name_ok in *. cbn [app hd_kind]. destruct (tk (lex_word (c :: n))); try discriminate; exact I.
  Qed.

  Lemma print_head : forall e X, wfb oc o ft e = true -> okstart (hd_kind (print oc (unnorm e) ++ X)).
  Proof.
    induction e; intros X H; cbn [wfb] in H; cbn [unnorm print].
    - unfold print_num. destruct (is_negf bits); [|destruct (bits =? inf_bits)]; exact I.
    - destruct neg; exact I.
    - exact I.
    - unfold print_vs. rewrite <- app_assoc. apply vs_base_head. exact H.
    - b2p. rewrite <- app_assoc. apply vs_base_head. assumption.
    - b2p. rewrite <- app_assoc. apply IHe. assumption.
    - b2p. cbn [app hd_kind]. destruct (tk (lex_word f)); try discriminate; exact I.
    - exact I.
    - b2p. rewrite <- app_assoc. apply IHe1. assumption.
    - destruct neg; exact I.
    - exact I.
  Qed.

  Lemma prefix_primary : forall n t rest, (forall b, tk t <> KOP b) ->
    prefix oc o ft pe n (t :: rest) =
    match primary o ft pe n (t :: rest) with
    | Ok (e, rest') => postfix_loop n oc o e rest'
    | Err x => Err x
    end.
  Proof. intros n [k x z] rest H. cbn [tk] in H. destruct k; try reflexivity. destruct (H _ eq_refl). Qed.

  Lemma primary_ident : forall n t rest, tk t = KID \/ tk t = KMID -> hd_kind rest <> KLP ->
    primary o ft pe n (t :: rest) = vs_tail (tx t) rest.
  Proof.
    intros n [k x z] rest Ht Hr. cbn [tk tx] in *.
    assert (E : match hd_kind rest with KLP => true | _ => false end = false)
      by (destruct (hd_kind rest); congruence).
    destruct Ht as [-> | ->]; cbn [primary tk tx]; rewrite ?E; reflexivity.
  Qed.

  Lemma primary_call : forall n t rest,
    match tk t with KID | KSTART | KEND | KSTEP | KRANGE | KMAXOF | KMINOF => true | _ => false end = true ->
    hd_kind rest = KLP ->
    primary o ft pe n (t :: rest) =
    match flookup (tx t) ft with
    | Some (_, experimental) =>
        if experimental && negb (o_expfn o) then Err EType else
        match call_body pe n rest with
        | Ok (args, r1) => Ok (ECall (tx t) args, r1)
        | Err x => Err x
        end
    | None => Err EType
    end.
  Proof.
    intros n [k x z] rest Ht Hr. cbn [tk tx] in *.
    destruct k; try discriminate Ht; cbn [primary tk tx]; rewrite Hr; reflexivity.
  Qed.

  Lemma primary_braces : forall n X, primary o ft pe n (T KLK :: X) = vs_tail [] (T KLK :: X).
  Proof. reflexivity. Qed.

  Lemma vs_tail_print : forall name ms Y, (ms = [] -> hd_kind Y <> KLK) ->
    vs_tail name (match ms with [] => [] | _ => T KLK :: pms ms ++ [T KRK] end ++ Y) =
    Ok (EVS (mkVS name ms AtNone XNone 0), Y).
  Proof.
    intros name [|m ms] Y H; unfold vs_tail; cbn [app].
    - specialize (H eq_refl). destruct (hd_kind Y); reflexivity || congruence.
    - cbn [hd_kind tk T tl]. rewrite app_cons_assoc, matchers_print by congruence. reflexivity.
  Qed.
End Primary.

Lemma fold_unary_nonlit : forall neg e, is_lit e = false -> fold_unary neg e = EUn neg e.
Proof. intros neg e H. destruct e; try reflexivity; discriminate H. Qed.

Lemma lprec_ge0 : forall e, 0 <= lprec e.
Proof. destruct e; cbn; try lia. pose proof (prec_range op); lia. Qed.

Lemma lprec_of_fb : forall op l, prec op < fb l -> prec op <= lprec l.
Proof.
  intros op l H. destruct l; cbn [fb lprec] in *; try (pose proof (prec_range op); lia).
  destruct (right_assoc op0); lia.
Qed.

Lemma minr_le6 : forall op, (if right_assoc op then prec op else prec op + 1) <= 6.
Proof. destruct op; simpl; lia. Qed.

Lemma fb_ge_lprec : forall m e, m <= 6 -> m <= lprec e -> m <= fb e.
Proof.
  intros m e H6 H. destruct e; cbn [fb lprec rprec] in *; try lia.
  - destruct (is_negf bits || (bits =? inf_bits)); lia.
  - destruct neg; lia.
  - destruct (right_assoc op); lia.
Qed.

Lemma vm_ok_unnorm : forall o op vm,
  match vm with Some m => vm_ok o m = true | None => True end -> vm_ok o (unnorm_vm op vm) = true.
Proof.
  intros o op vm H. destruct vm as [m|]; [|reflexivity]. unfold unnorm_vm.
  destruct (is_set_op op); auto. destruct (vm_card m) eqn:C; auto.
  unfold vm_ok in *. cbn [vm_card vm_on vm_labels vm_include vm_fl vm_fr]. rewrite C in H. exact H.
Qed.

(* the cardinality wfb asks for is the one checkAST leaves; before it, many-to-many never occurs *)
Lemma unnorm_vm_card : forall op vm,
  match vm with
  | Some m => (if is_set_op op then negb (card_eqb (vm_card m) COneToOne)
               else negb (card_eqb (vm_card m) CManyToMany)) = true
  | None => True
  end -> vm_card (unnorm_vm op vm) <> CManyToMany.
Proof.
  intros op [m|] H; [|discriminate]. unfold unnorm_vm.
  destruct (is_set_op op); destruct (vm_card m) eqn:C; try discriminate H; cbn [vm_card]; congruence.
Qed.

(* climb's test for fill modifiers that the options do not allow *)
Lemma vm_ok_fill : forall o m, vm_ok o m = true ->
  negb (o_fill o) && (match vm_fl m, vm_fr m with None, None => false | _, _ => true end) = false.
Proof.
  intros o m H. unfold vm_ok in H. apply andb_prop in H. destruct H as [H _].
  apply andb_prop in H. destruct H as [_ H].
  destruct (vm_fl m), (vm_fr m); try apply andb_false_r;
    apply andb_prop in H; destruct H as [H _]; apply andb_prop in H; destruct H as [H _]; rewrite H; reflexivity.
Qed.

Section Main.
  Variable oc : orc.
  Variable o : opts.
  Variable ft : ftab.
  Notation pr := (print oc).
  Notation wf := (wfb oc o ft).
  Notation PE := (parse_e oc o ft).

  Definition tlen (e : expr) : nat := length (pr (unnorm e)).
  Definition okX (X : list tok) : Prop :=
    match hd_kind X with KLP | KLK | KBY | KWITHOUT => False | _ => True end.

  Definition ML (e : expr) : Prop := forall f n minp X r,
    (n + tlen e <= f)%nat -> minp <= lprec e -> stop (fb e) X ->
    climb o (PE f) n minp (unnorm e) X = Ok r ->
    PE (S f) minp (pr (unnorm e) ++ X) = Ok r.

  Definition PL (e : expr) : Prop := atomb e = true -> forall f n X r,
    (n + tlen e <= f)%nat -> okX X ->
    postfix_loop n oc o (unnorm e) X = Ok r ->
    prefix oc o ft (PE f) f (pr (unnorm e) ++ X) = Ok r.

  Lemma stop_okX : forall m X, stop m X -> okX X.
  Proof. intros. unfold okX. destruct X; cbn in *; auto. destruct (tk t); try contradiction; exact I. Qed.

  Lemma tlen_pos : forall e, wf e = true -> (1 <= tlen e)%nat.
  Proof.
    intros e H. unfold tlen. pose proof (print_head oc o ft e [] H) as K. rewrite app_nil_r in K.
    destruct (pr (unnorm e)); [contradiction|cbn [length]; lia].
  Qed.

  (* atoms: the prefix lemma gives the main lemma *)
  Lemma ML_of_PL : forall e, PL e -> atomb e = true -> ML e.
  Proof.
    intros e HP Ha f n minp X r Hf Hm Hs Hc. cbn [parse_e].
    rewrite (HP Ha f 0%nat X (unnorm e, X)).
    - eapply climb_mono; eauto. lia.
    - lia.
    - eapply stop_okX; eauto.
    - eapply postfix_none; eauto.
  Qed.

  (* a sub-expression read with minimum precedence m, up to a token that stops the climb *)
  Lemma parse_sub : forall a f m Y, ML a -> (tlen a < f)%nat -> m <= lprec a -> m <= 6 -> stop m Y ->
    PE f m (pr (unnorm a) ++ Y) = Ok (unnorm a, Y).
  Proof.
    intros a [|f] m Y HM Hf Hm H6 HY; [lia|].
    apply (HM f 0%nat); [lia|exact Hm| |apply climb_stop, HY].
    eapply stop_weaken; eauto. now apply fb_ge_lprec.
  Qed.

  Lemma ML_bin : forall op rb vm l r,
    (forall e', (tlen e' < tlen (EBin op rb vm l r))%nat -> wf e' = true -> ML e' /\ PL e') ->
    wf (EBin op rb vm l r) = true -> ML (EBin op rb vm l r).
  Proof.
    intros op rb vm l r IH Hwf f n minp X res Hf Hm Hs Hc.
    cbn [wfb] in Hwf. apply andb_prop in Hwf. destruct Hwf as [Hwf Hty].
    apply andb_prop in Hwf. destruct Hwf as [Hwf Hr]. apply andb_prop in Hwf. destruct Hwf as [Hwf Hl].
    apply andb_prop in Hwf. destruct Hwf as [Hwl Hwr]. b2p.
    cbn [lprec] in Hm. cbn [fb] in Hs.
    set (m' := unnorm_vm op vm) in *.
    assert (Hvm : vm_ok o m' = true /\ vm_card m' <> CManyToMany).
    { split; [apply vm_ok_unnorm|apply unnorm_vm_card]; destruct vm; auto; b2p; auto. }
    destruct Hvm as [Hvm Hcard].
    assert (Hlen : (tlen l + 1 + tlen r <= tlen (EBin op rb vm l r))%nat).
    { unfold tlen. cbn [unnorm print]. rewrite !app_length. cbn [length]. rewrite !app_length. lia. }
    pose proof (tlen_pos l Hwl) as Hl1.
    cbn [unnorm print] in *. fold m' in Hc |- *.
    rewrite <- !app_assoc. cbn [app]. rewrite <- !app_assoc.
    destruct (IH l) as [MLl _]; [lia|auto|].
    apply (MLl f (S n)); [lia|pose proof (lprec_of_fb _ _ Hl); lia|cbn; exact Hl|].
    cbn [climb op_tok TW tk].
    replace (prec op <? minp) with false by (symmetry; apply Z.ltb_ge; lia).
    rewrite (bin_modifiers_print o rb m'), (vm_ok_fill o m')
      by (auto; apply okstart_nomod, (print_head oc o ft), Hwr).
    destruct (IH r) as [MLr _]; [lia|auto|].
    rewrite (parse_sub r f _ X MLr); [exact Hc|lia|exact Hr|apply minr_le6|exact Hs].
  Qed.

  Lemma ML_un : forall neg e1,
    (forall e', (tlen e' < tlen (EUn neg e1))%nat -> wf e' = true -> ML e' /\ PL e') ->
    wf (EUn neg e1) = true -> ML (EUn neg e1).
  Proof.
    intros neg e1 IH Hwf f n minp X res Hf Hm Hs Hc.
    cbn [wfb] in Hwf. b2p. cbn [fb rprec] in Hs.
    assert (Hlen : (tlen e1 + 1 <= tlen (EUn neg e1))%nat).
    { unfold tlen. cbn [unnorm print length]. lia. }
    cbn [unnorm print app] in *.
    assert (EP : PE f 6 (pr (unnorm e1) ++ X) = Ok (unnorm e1, X)).
    { destruct (IH e1) as [ML1 _]; [lia|auto|]. apply parse_sub; auto; lia. }
    destruct neg; cbn [parse_e prefix tk T]; rewrite EP, fold_unary_nonlit by (rewrite is_lit_unnorm; auto);
      eapply climb_mono; eauto; lia.
  Qed.

  (* literals: a sign is printed as a unary operator and folded back by the parser *)
  Lemma ML_num : forall b, wf (ENum b) = true -> ML (ENum b).
  Proof.
    intros b Hwf f n minp X res Hf Hm Hs Hc. cbn [wfb] in Hwf.
    cbn [unnorm print] in *. cbn [fb rprec] in Hs.
    pose proof (tlen_pos (ENum b) Hwf) as Hl.
    destruct f as [|f0]; [lia|].
    unfold print_num. destruct (is_negf b) eqn:EN; [|destruct (b =? inf_bits) eqn:EI]; cbn [orb] in Hs.
    - cbn [app parse_e prefix primary tk T TN tz]. rewrite (postfix_none oc o _ f0 6 X Hs).
      rewrite (climb_stop o _ f0 6 _ X Hs). cbn [fold_unary]. rewrite fneg_sub by auto.
      eapply climb_mono; eauto. lia.
    - cbn [app parse_e prefix primary tk T TN tz]. rewrite (postfix_none oc o _ f0 6 X Hs).
      rewrite (climb_stop o _ f0 6 _ X Hs). cbn [fold_unary].
      eapply climb_mono; eauto. lia.
    - cbn [app parse_e prefix primary tk TN tz].
      rewrite (postfix_none oc o _ (S f0) 8 X Hs). eapply climb_mono; eauto. lia.
  Qed.

  Lemma ML_dur : forall neg ns, wf (EDurLit neg ns) = true -> ML (EDurLit neg ns).
  Proof.
    intros neg ns Hwf f n minp X res Hf Hm Hs Hc. pose proof (tlen_pos _ Hwf) as Hl.
    cbn [wfb] in Hwf. b2p. cbn [unnorm print] in *. cbn [fb rprec] in Hs.
    destruct f as [|f0]; [lia|]. rewrite H0.
    destruct neg.
    - cbn [app parse_e prefix primary tk T TD tz]. rewrite (postfix_none oc o _ f0 6 X Hs).
      rewrite (climb_stop o _ f0 6 _ X Hs). cbn [fold_unary negb].
      eapply climb_mono; eauto. lia.
    - cbn [app parse_e prefix primary tk TD tz].
      rewrite (postfix_none oc o _ (S f0) 8 X Hs). eapply climb_mono; eauto. lia.
  Qed.

  Lemma PL_num : forall b, wf (ENum b) = true -> PL (ENum b).
  Proof.
    intros b Hwf Ha f n X r Hf HX Hp. unfold atomb in Ha. cbn [rprec] in Ha.
    destruct (is_negf b || (b =? inf_bits)) eqn:E; [b2p; lia|].
    apply orb_false_iff in E. destruct E as [E1 E2].
    cbn [unnorm print] in *. unfold print_num. rewrite E1, E2.
    cbn [app prefix primary tk TN tz]. eapply postfix_loop_mono; eauto. lia.
  Qed.

  Lemma PL_dur : forall neg ns, wf (EDurLit neg ns) = true -> PL (EDurLit neg ns).
  Proof.
    intros neg ns Hwf Ha f n X r Hf HX Hp. unfold atomb in Ha. cbn [rprec] in Ha.
    destruct neg; [b2p; lia|]. cbn [wfb] in Hwf. b2p.
    cbn [unnorm print] in *. rewrite H0.
    cbn [app prefix primary tk TD tz]. eapply postfix_loop_mono; eauto. lia.
  Qed.

  Lemma PL_str : forall s, PL (EStr s).
  Proof.
    intros s Ha f n X r Hf HX Hp. cbn [unnorm print] in *.
    cbn [app prefix primary tk TS tx]. eapply postfix_loop_mono; eauto. lia.
  Qed.

  Lemma PL_paren : forall e1,
    (forall e', (tlen e' < tlen (EParen e1))%nat -> wf e' = true -> ML e' /\ PL e') ->
    wf (EParen e1) = true -> PL (EParen e1).
  Proof.
    intros e1 IH Hwf Ha f n X r Hf HX Hp. cbn [wfb] in Hwf.
    assert (Hlen : (tlen e1 + 2 <= tlen (EParen e1))%nat).
    { unfold tlen. cbn [unnorm print length]. rewrite app_length. cbn [length]. lia. }
    cbn [unnorm print] in *. cbn [app]. rewrite app_cons_assoc.
    cbn [prefix primary tk T].
    destruct (IH e1) as [ML1 _]; [lia|auto|].
    rewrite (parse_sub e1 f 0 (T KRP :: X) ML1) by (lia || apply lprec_ge0 || exact I).
    cbn [tk T]. eapply postfix_loop_mono; eauto. lia.
  Qed.

  Definition vs0 (v : vsel) : vsel := mkVS (vs_name v) (vs_ms v) AtNone XNone 0.

  (* metric_identifier [label_matchers] | label_matchers *)
  Lemma primary_vs : forall pe n v Y, vs_ok oc o v = true -> okX Y ->
    prefix oc o ft pe n (print_vs_base v ++ Y) = postfix_loop n oc o (EVS (vs0 v)) Y.
  Proof.
    intros pe n v Y Hok HY. rewrite (print_vs_base_ok oc o) by exact Hok. rewrite <- app_assoc.
    unfold okX in HY.
    assert (V : vs_tail (vs_name v) (match vs_ms v with [] => [] | _ => T KLK :: pms (vs_ms v) ++ [T KRK] end ++ Y)
                = Ok (EVS (vs0 v), Y)).
    { apply vs_tail_print. intros _ E. rewrite E in HY. exact HY. }
    unfold vs_ok in Hok. b2p.
    destruct (vs_name v) as [|c nm] eqn:N; cbn [app].
    - destruct (vs_ms v) as [|m ms]; [discriminate|]. cbn [app] in *.
      rewrite prefix_primary by (intros b; discriminate).
      rewrite (primary_braces o ft pe), V. reflexivity.
    - assert (K : tk (lex_word (c :: nm)) = KID \/ tk (lex_word (c :: nm)) = KMID).
      { unfold name_ok in *. destruct (tk (lex_word (c :: nm))); try discriminate; auto. }
      rewrite prefix_primary by (intros b E; destruct K as [K|K]; rewrite K in E; discriminate).
      rewrite primary_ident, lex_word_tx, V; auto.
      + destruct K as [K|K]; rewrite K; discriminate.
      + destruct (vs_ms v); cbn [app hd_kind tk T]; [|discriminate].
        intro E; rewrite E in HY; exact HY.
  Qed.

  Lemma okX_mods : forall a x d X, okX X -> okX (print_at oc a ++ print_ext x ++ print_off d ++ X).
  Proof.
    intros a x d X H. destruct a; try exact I. destruct x; try exact I.
    unfold print_off. destruct (0 <? d); [exact I|]. destruct (d <? 0); [exact I|exact H].
  Qed.

  Lemma PL_vs : forall v, wf (EVS v) = true -> PL (EVS v).
  Proof.
    intros v Hwf Ha f n X r Hf HX Hp. cbn [wfb] in Hwf.
    assert (Hlen : (length (print_at oc (vs_at v)) + length (print_ext (vs_ext v)) + length (print_off (vs_off v)) <= tlen (EVS v))%nat).
    { unfold tlen. cbn [unnorm print]. unfold print_vs. rewrite !app_length. lia. }
    cbn [unnorm print] in *. unfold print_vs. rewrite <- !app_assoc.
    rewrite primary_vs by auto using okX_mods.
    pose proof Hwf as W. unfold vs_ok in W. b2p.
    destruct v as [name ms a x d]. cbn [vs_at vs_ext vs_off vs_name vs_ms] in *. unfold vs0. cbn [vs_name vs_ms].
    apply postfix_loop_mono with (n := (n + length (print_off d) + length (print_ext x) + length (print_at oc a))%nat); [|lia].
    apply loop_opt with (e' := EVS (mkVS name ms a XNone 0)); [apply step_at; [auto|destruct a; reflexivity]|].
    apply loop_opt with (e' := EVS (mkVS name ms a x 0)).
    { apply step_ext. destruct x; try reflexivity; unfold apply_ext;
        match goal with H : o_ext o = true |- _ => rewrite H end; reflexivity. }
    apply loop_opt with (e' := EVS (mkVS name ms a x d)); [|exact Hp].
    apply step_off; [auto|]. destruct (d =? 0) eqn:E; [apply Z.eqb_eq in E; subst|]; reflexivity.
  Qed.

  Lemma PL_mat : forall v rng, wf (EMat v rng) = true -> PL (EMat v rng).
  Proof.
    intros v rng Hwf Ha f n X r Hf HX Hp. cbn [wfb] in Hwf. apply andb_prop in Hwf. destruct Hwf as [Hv Hd].
    assert (Hlen : (3 + length (print_ext (vs_ext v)) + length (print_at oc (vs_at v)) + length (print_off (vs_off v)) <= tlen (EMat v rng))%nat).
    { unfold tlen. cbn [unnorm print]. rewrite !app_length. cbn [length]. lia. }
    cbn [unnorm print] in *. rewrite <- !app_assoc. cbn [app].
    rewrite primary_vs; auto; [|exact I].
    pose proof Hv as W. unfold vs_ok in W. b2p.
    destruct v as [name ms a x d]. cbn [vs_at vs_ext vs_off vs_name vs_ms] in *. unfold vs0. cbn [vs_name vs_ms].
    apply postfix_loop_mono with (n := S (n + length (print_off d) + length (print_at oc a) + length (print_ext x))); [|lia].
    eapply loop_step; [apply step_matrix; auto|].
    apply loop_opt with (e' := EMat (mkVS name ms AtNone x 0) rng).
    { apply step_ext. destruct x; try reflexivity; unfold apply_ext;
        match goal with H : o_ext o = true |- _ => rewrite H end; reflexivity. }
    apply loop_opt with (e' := EMat (mkVS name ms a x 0) rng); [apply step_at; [auto|destruct a; reflexivity]|].
    apply loop_opt with (e' := EMat (mkVS name ms a x d) rng); [|exact Hp].
    apply step_off; [auto|]. destruct (d =? 0) eqn:E; [apply Z.eqb_eq in E; subst|]; reflexivity.
  Qed.

  Lemma PL_sub : forall e1 rng step a d,
    (forall e', (tlen e' < tlen (ESub e1 rng step a d))%nat -> wf e' = true -> ML e' /\ PL e') ->
    wf (ESub e1 rng step a d) = true -> PL (ESub e1 rng step a d).
  Proof.
    intros e1 rng step a d IH Hwf Ha f n X r Hf HX Hp. cbn [wfb] in Hwf.
    apply andb_prop in Hwf. destruct Hwf as [Hwf Hat]. apply andb_prop in Hwf. destruct Hwf as [Hwf Hoff].
    apply andb_prop in Hwf. destruct Hwf as [Hwf Hstep]. apply andb_prop in Hwf. destruct Hwf as [Hwf Hrng].
    apply andb_prop in Hwf. destruct Hwf as [Hw1 Hatom].
    assert (Hlen : (tlen e1 + 4 + length (print_at oc a) + length (print_off d) <= tlen (ESub e1 rng step a d))%nat).
    { unfold tlen. cbn [unnorm print]. rewrite !app_length. cbn [length]. lia. }
    cbn [unnorm print] in *. rewrite <- !app_assoc. cbn [app].
    destruct (IH e1) as [_ PL1]; [lia|auto|].
    apply (PL1 Hatom f (S (n + length (print_off d) + length (print_at oc a)))); [lia|exact I|].
    eapply loop_step; [apply step_subquery; assumption|].
    apply loop_opt with (e' := ESub (unnorm e1) rng step a 0); [apply step_at; [auto|destruct a; reflexivity]|].
    apply loop_opt with (e' := ESub (unnorm e1) rng step a d); [|exact Hp].
    apply step_off; [auto|]. destruct (d =? 0) eqn:E; [apply Z.eqb_eq in E; subst|]; reflexivity.
  Qed.
End Main.
