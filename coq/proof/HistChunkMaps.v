(* proof/HistChunkMaps.v — preserved bucket maps at the level of spans; the theorem about
   expandSpansBothWays. *)
From Coq Require Import List ZArith Bool Lia.
From Verif Require Import model.HistChunk proof.HistChunkProofs proof.HistChunkIns.
Import ListNotations.
Open Scope Z_scope.

(* two (spans, buckets) pairs describe the same histogram side: every absolute bucket index
   carries the same count (absent = 0) *)
Definition same_map (k : kind) (s1 : list span) (b1 : list Z) (s2 : list span) (b2 : list Z) : Prop :=
  forall i, lookup i (bucket_alist k s1 b1) = lookup i (bucket_alist k s2 b2).

Lemma abs_counts_length k l : length (abs_counts k l) = length l.
Proof. destruct k; simpl; [apply prefix_sums_length|reflexivity]. Qed.

Lemma count_spans_of l : count_spans (spans_of l) = Z.of_nat (length l).
Proof.
  rewrite <- (idxs_from_length 0 (spans_of l) (spans_of_len l)).
  change (idxs_from 0 (spans_of l)) with (idxs (spans_of l)). now rewrite idxs_spans_of.
Qed.

Lemma wf_spans_len l : wf_spans l -> Forall (fun s => 0 <= s_len s) l.
Proof.
  destruct l as [|s r]; intros H; [constructor|]. destruct H as [H1 H2]. constructor; [assumption|].
  eapply Forall_impl; [|exact H2]. simpl; intros; lia.
Qed.

Lemma incr_common la lb ia ib : incr la ia -> incr lb ib -> incr (Z.min la lb) ia /\ incr (Z.min la lb) ib.
Proof. split; eapply incr_weaken; eauto; lia. Qed.

(* two valid span lists: their bucket indices increase above a common bound and are as many as
   the spans count *)
Lemma wf_common a b : wf_spans a -> wf_spans b ->
  exists lo, incr lo (idxs a) /\ incr lo (idxs b) /\
             Z.of_nat (length (idxs a)) = count_spans a /\ Z.of_nat (length (idxs b)) = count_spans b.
Proof.
  intros Ha Hb. destruct (idxs_incr a Ha) as [la Hia], (idxs_incr b Hb) as [lb Hib].
  exists (Z.min la lb). split; [|split]; [apply (incr_common la lb _ _ Hia Hib)..|].
  split; apply idxs_from_length, wf_spans_len; assumption.
Qed.

(* expandSpansBothWays: always terminates without panic; the forward inserts widen any bucket
   slice laid out on [a] to the merged spans and the backward inserts any slice laid out on [b],
   each keeping the bucket map; the merged spans cover exactly the buckets of a and of b *)
Theorem expand_both_correct a b :
  wf_spans a -> wf_spans b ->
  exists F B M,
    expand_both a b = Ok (F, B, M) /\
    (forall i, In i (idxs M) <-> In i (idxs a) \/ In i (idxs b)) /\
    (forall k buckets, Z.of_nat (length buckets) = count_spans a ->
       exists out, insert_go (is_deltas k) buckets F (count_spans M) = Ok out /\
                   Z.of_nat (length out) = count_spans M /\ same_map k M out a buckets) /\
    (forall k buckets, Z.of_nat (length buckets) = count_spans b ->
       exists out, insert_go (is_deltas k) buckets B (count_spans M) = Ok out /\
                   Z.of_nat (length out) = count_spans M /\ same_map k M out b buckets).
Proof.
  intros Ha Hb. unfold expand_both.
  destruct (wf_common a b Ha Hb) as (lo & Hia & Hib & La & Lb).
  destruct (both_go_widens _ _ _ Hia Hib) as (F & B & M & E & _ & MM & _ & _ & WF & WB).
  rewrite E. cbn [bind]. exists F, B, (spans_of M). rewrite idxs_spans_of, count_spans_of.
  repeat split; try apply MM; intros k buckets Hlen.
  - destruct (WF k buckets ltac:(lia)) as (out & E1 & E2 & E3). exists out.
    repeat split; [exact E1|lia|]. intros i. unfold bucket_alist. rewrite idxs_spans_of. apply E3.
  - destruct (WB k buckets ltac:(lia)) as (out & E1 & E2 & E3). exists out.
    repeat split; [exact E1|lia|]. intros i. unfold bucket_alist. rewrite idxs_spans_of. apply E3.
Qed.
