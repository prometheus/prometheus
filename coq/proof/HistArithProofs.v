(* proof/HistArithProofs.v — C31.  Bucket totals (total) under merge, fill/compact, expand and
   reduceResolution (read front to back as merge_run); detectReset on aligned bucket lists; the
   remapping of custom bounds; the widening of the zero bucket (scan_side, zcflt, reconcile) and,
   resting on it, Add/Sub (arith_general) and DetectReset (detect_general). *)
From Coq Require Import List ZArith Bool Lia.
From Verif Require Import model.HistArith lib.SortedList.
Import ListNotations.
Open Scope Z_scope.

Lemma total_app l1 l2 t : total (l1 ++ l2) t = total l1 t + total l2 t.
Proof. induction l1 as [|b l1 IH]; cbn [app total]; [lia|]. destruct (fst b =? t); lia. Qed.

Lemma total_filter (f : bkt -> bool) l t :
  (forall b, In b l -> f b = false -> snd b = 0) -> total (filter f l) t = total l t.
Proof.
  induction l as [|b l IH]; intro H; [reflexivity|].
  cbn [filter total]. rewrite <- IH by (intros; apply H; [now right|assumption]).
  destruct (f b) eqn:E; [reflexivity|]. rewrite (H b (or_introl eq_refl) E).
  destruct (fst b =? t); lia.
Qed.

Lemma total_dropwhile_zero (f : bkt -> bool) l t :
  (forall b, In b l -> f b = true -> snd b = 0) -> total (dropwhile f l) t = total l t.
Proof.
  induction l as [|b l IH]; intro H; [reflexivity|].
  cbn [dropwhile]. destruct (f b) eqn:E; [|reflexivity].
  rewrite IH by (intros x Hx; apply H; now right).
  cbn [total]. rewrite (H b (or_introl eq_refl) E). destruct (fst b =? t); lia.
Qed.

Lemma nonzero_false b : nonzero b = false -> snd b = 0.
Proof. unfold nonzero. intro H. now apply negb_false_iff, Z.eqb_eq in H. Qed.

Lemma total_filter_nonzero l t : total (filter nonzero l) t = total l t.
Proof. apply total_filter. intros b _. apply nonzero_false. Qed.

Lemma total_zeros_from from n t : total (zeros_from from n) t = 0.
Proof.
  revert from; induction n as [|n IH]; intro from; cbn [zeros_from total fst snd]; [reflexivity|].
  rewrite IH. now destruct (from =? t).
Qed.

Lemma total_scale sgn l t : total (scale sgn l) t = sgn * total l t.
Proof.
  induction l as [|b l IH]; cbn [scale map total fst snd]; [lia|].
  fold (scale sgn l). rewrite IH. destruct (fst b =? t); lia.
Qed.

Lemma total_merge_add sgn la lb t :
  total (merge_add sgn la lb) t = total la t + sgn * total lb t.
Proof.
  revert lb; induction la as [|a la IHa]; intro lb.
  - cbn [merge_add total]. rewrite total_scale. lia.
  - induction lb as [|b lb IHb]; cbn [merge_add]; [cbn [total]; lia|].
    destruct (fst a <? fst b); [|destruct (Z.eqb_spec (fst a) (fst b)) as [E|E]]; cbn [total fst snd].
    + rewrite IHa. cbn [total]. destruct (fst a =? t); lia.
    + rewrite IHa, <- E. destruct (fst a =? t); lia.
    + cbn [merge_add] in IHb. rewrite IHb. cbn [total]. destruct (fst a =? t), (fst b =? t); lia.
Qed.

Lemma total_fill k l t : total (fill k l) t = total l t.
Proof.
  induction l as [|b l IH]; [reflexivity|].
  cbn [fill total]. rewrite total_app, IH.
  destruct l as [|b' l']; [|destruct (_ && _)]; cbn [total]; rewrite ?total_zeros_from;
    destruct (fst b =? t); lia.
Qed.

Lemma total_compact k l t : total (compact_abs k l) t = total l t.
Proof. unfold compact_abs. rewrite total_fill. apply total_filter_nonzero. Qed.

(* with maxEmptyBuckets = 0 no gap is filled, so Compact(0) keeps exactly the populated buckets *)
Lemma fill0_id (l : list (Z * Z)) : fill 0 l = l.
Proof.
  induction l as [|b l IH]; [reflexivity|]. cbn [fill]. rewrite IH.
  destruct l as [|b' l']; [reflexivity|].
  now destruct (Z.ltb_spec 0 (fst b' - fst b - 1)), (Z.leb_spec (fst b' - fst b - 1) 0); try lia.
Qed.

Lemma compact0_no_empty l : Forall (fun b => snd b <> 0) (compact_abs 0 l).
Proof.
  unfold compact_abs. rewrite fill0_id. apply Forall_forall. intros b Hb.
  apply filter_In in Hb. destruct Hb as [_ Hb]. now apply negb_true_iff, Z.eqb_neq in Hb.
Qed.

Fixpoint inc_from (lo : Z) (l : list bkt) : Prop :=
  match l with [] => True | b :: l' => lo < fst b /\ inc_from (fst b) l' end.
Definition increasing (l : list bkt) : Prop :=
  match l with [] => True | b :: l' => inc_from (fst b) l' end.

Lemma inc_from_weaken lo lo' l : lo' <= lo -> inc_from lo l -> inc_from lo' l.
Proof. destruct l; cbn; [tauto|]. intros ? [? ?]; split; [lia|assumption]. Qed.

Lemma inc_increasing lo l : inc_from lo l -> increasing l.
Proof. destruct l; [trivial|]. now intros [_ H]. Qed.

Lemma increasing_inc_from (l : list (Z * Z)) : increasing l -> exists lo, inc_from lo l.
Proof.
  destruct l as [|b l]; intro H; [now exists 0|]. exists (fst b - 1). split; [lia|exact H].
Qed.

Lemma increasing_tail (b : Z * Z) l : increasing (b :: l) -> increasing l.
Proof. apply inc_increasing. Qed.

Lemma inc_from_In lo l x : inc_from lo l -> In x l -> lo < fst x.
Proof.
  revert lo; induction l as [|b l IH]; intros lo H Hx; [destruct Hx|].
  destruct H as [H1 H2], Hx as [->|Hx]; [exact H1|]. specialize (IH _ H2 Hx). lia.
Qed.

Lemma total_notin l i : (forall b, In b l -> fst b <> i) -> total l i = 0.
Proof.
  induction l as [|b l IH]; intro H; [reflexivity|]. cbn [total].
  destruct (Z.eqb_spec (fst b) i) as [E|_]; [now destruct (H b (or_introl eq_refl))|].
  apply IH. intros; apply H; now right.
Qed.

Lemma total_above i lo l : inc_from lo l -> i <= lo -> total l i = 0.
Proof. intros H Hi. apply total_notin. intros b Hb. pose proof (inc_from_In _ _ _ H Hb). lia. Qed.

Lemma total_in_increasing (l : list (Z * Z)) q : increasing l -> In q l -> total l (fst q) = snd q.
Proof.
  induction l as [|b l IH]; intros Hi Hq; [destruct Hq|]. destruct Hq as [->|Hq]; cbn [total].
  - rewrite Z.eqb_refl, (total_above (fst q) (fst q) l Hi); lia.
  - pose proof (inc_from_In _ _ _ Hi Hq).
    destruct (Z.eqb_spec (fst b) (fst q)); [lia|]. apply IH; [exact (increasing_tail b l Hi)|exact Hq].
Qed.

Lemma total_nonzero_in (l : list (Z * Z)) t : total l t <> 0 -> exists q, In q l /\ fst q = t.
Proof.
  induction l as [|b l IH]; cbn [total]; [lia|]. destruct (Z.eqb_spec (fst b) t) as [E|_].
  - intros _. exists b. split; [now left|exact E].
  - intro H. destruct (IH H) as (q & Hq & Hq2). exists q. split; [now right|exact Hq2].
Qed.

Lemma inc_from_filter (f : Z * Z -> bool) lo (l : list (Z * Z)) : inc_from lo l -> inc_from lo (filter f l).
Proof.
  revert lo; induction l as [|b l IH]; intros lo H; [exact I|].
  destruct H as [H1 H2]. cbn [filter]. destruct (f b).
  - split; [exact H1|apply IH; exact H2].
  - apply (inc_from_weaken (fst b)); [lia|apply IH; exact H2].
Qed.

Lemma increasing_filter (f : Z * Z -> bool) (l : list (Z * Z)) : increasing l -> increasing (filter f l).
Proof.
  intro H. destruct (increasing_inc_from l H) as [lo Hlo].
  exact (inc_increasing lo _ (inc_from_filter f lo l Hlo)).
Qed.

Lemma increasing_dropwhile (f : Z * Z -> bool) l : increasing l -> increasing (dropwhile f l).
Proof.
  induction l as [|b l IH]; intro H; [exact I|]. cbn [dropwhile].
  destruct (f b); [apply IH; apply (increasing_tail b l H)|exact H].
Qed.

Lemma target_idx_mono k a b : 0 <= k -> a <= b -> target_idx a k <= target_idx b k.
Proof.
  intros Hk Hab. unfold target_idx. rewrite !Z.shiftr_div_pow2 by exact Hk.
  pose proof (Z.pow_pos_nonneg 2 k ltac:(lia) Hk).
  pose proof (Z.div_le_mono (a - 1) (b - 1) (2 ^ k) ltac:(lia) ltac:(lia)). lia.
Qed.

Lemma target_idx_0 a : target_idx a 0 = a.
Proof. unfold target_idx. rewrite Z.shiftr_0_r. lia. Qed.

Lemma retarget_0 l : retarget 0 l = l.
Proof.
  induction l as [|[i c] l IH]; [reflexivity|]. cbn [retarget map fst snd]. fold (retarget 0 l).
  now rewrite target_idx_0, IH.
Qed.

Lemma total_retarget k l t :
  total (retarget k l) t = sumc (filter (fun b => target_idx (fst b) k =? t) l).
Proof.
  induction l as [|b l IH]; [reflexivity|].
  cbn [retarget map total filter fst snd]. fold (retarget k l). rewrite IH.
  now destruct (target_idx (fst b) k =? t).
Qed.

Lemma total_retarget_cons0 k b l t : snd b = 0 -> total (retarget k (b :: l)) t = total (retarget k l) t.
Proof. cbn [retarget map total fst snd]. fold (retarget k l). intros ->. destruct (_ =? t); lia. Qed.

Lemma retarget_filter_nonzero k l : retarget k (filter nonzero l) = filter nonzero (retarget k l).
Proof.
  induction l as [|b l IH]; [reflexivity|]. cbn [filter retarget map]. fold (retarget k l).
  change (nonzero (target_idx (fst b) k, snd b)) with (nonzero b).
  destruct (nonzero b); cbn [retarget map]; fold (retarget k (filter nonzero l)); now rewrite IH.
Qed.

Fixpoint nd_from (k lo : Z) (l : list bkt) : Prop :=
  match l with [] => True | b :: l' => lo <= target_idx (fst b) k /\ nd_from k (target_idx (fst b) k) l' end.

Lemma inc_nd k lo l : 0 <= k -> inc_from lo l -> nd_from k (target_idx lo k) l.
Proof.
  intro Hk. revert lo; induction l as [|b l IH]; intros lo H; [exact I|].
  destruct H as [H1 H2]. split; [apply target_idx_mono; lia | apply IH; exact H2].
Qed.

Lemma nd_weaken k lo lo' l : lo' <= lo -> nd_from k lo l -> nd_from k lo' l.
Proof. destruct l; cbn; [tauto|]. intros ? [? ?]; split; [lia|assumption]. Qed.

(* reduceResolution seen from the front: the current target bucket (t, c) absorbs the origin
   buckets that map to t and is emitted when a later target index turns up *)
Fixpoint merge_run (k t c : Z) (l : list bkt) : list bkt :=
  match l with
  | [] => [(t, c)]
  | b :: l' =>
      let t' := target_idx (fst b) k in
      if t =? t' then merge_run k t (c + snd b) l'
      else if t + 1 <=? t' then (t, c) :: merge_run k t' (snd b) l'
      else merge_run k t c l'
  end.

Lemma reduce_fold k l : forall t c acc,
  rev (fold_left (reduce_step k) l ((t, c) :: acc)) = rev acc ++ merge_run k t c l.
Proof.
  induction l as [|b l IH]; intros t c acc; cbn [fold_left merge_run reduce_step]; [reflexivity|].
  destruct (t =? _); [apply IH|]. destruct (t + 1 <=? _); [|apply IH].
  rewrite IH. cbn [rev]. now rewrite <- app_assoc.
Qed.

Lemma reduce_abs_cons k b l :
  reduce_abs k (b :: l) = merge_run k (target_idx (fst b) k) (snd b) l.
Proof. apply (reduce_fold k l _ _ []). Qed.

Lemma merge_run_total k l : forall t c x, nd_from k t l ->
  total (merge_run k t c l) x = (if t =? x then c else 0) + total (retarget k l) x.
Proof.
  induction l as [|b l IH]; intros t c x H; cbn [merge_run retarget map total fst snd];
    [destruct (t =? x); lia|].
  fold (retarget k l). destruct H as [H1 H2].
  destruct (Z.eqb_spec t (target_idx (fst b) k)) as [->|E].
  - rewrite IH by exact H2. destruct (_ =? x); lia.
  - destruct (Z.leb_spec (t + 1) (target_idx (fst b) k)); [|lia].
    cbn [total fst snd]. rewrite IH by exact H2. destruct (t =? x), (_ =? x); lia.
Qed.

Lemma merge_run_inc k l : forall t c lo, nd_from k t l -> lo < t -> inc_from lo (merge_run k t c l).
Proof.
  induction l as [|b l IH]; intros t c lo H Hlo; cbn [merge_run]; [now split|]. destruct H as [H1 H2].
  destruct (Z.eqb_spec t (target_idx (fst b) k)) as [->|E]; [now apply IH|].
  destruct (Z.leb_spec (t + 1) (target_idx (fst b) k)); [|lia].
  split; [exact Hlo|]. apply IH; [exact H2|cbn; lia].
Qed.

Lemma reduce_total k l t : 0 <= k -> increasing l ->
  total (reduce_abs k l) t = total (retarget k l) t.
Proof.
  intros Hk Hinc. destruct l as [|b l]; [reflexivity|].
  rewrite reduce_abs_cons, merge_run_total by (apply inc_nd; assumption).
  cbn [retarget map total fst snd]. fold (retarget k l). destruct (_ =? t); lia.
Qed.

Lemma reduce_increasing k l : 0 <= k -> increasing l -> increasing (reduce_abs k l).
Proof.
  intros Hk Hinc. destruct l as [|b l]; [exact I|]. rewrite reduce_abs_cons.
  apply (inc_increasing (target_idx (fst b) k - 1)), merge_run_inc; [apply inc_nd; assumption|lia].
Qed.

Lemma take_span_inc n : forall idx bs l r rest lo, take_span idx n bs = Some (l, r) ->
  lo < idx -> inc_from (idx + Z.of_nat n - 1) rest -> inc_from lo (l ++ rest).
Proof.
  induction n as [|n IH]; intros idx bs l r rest lo H Hlo Hr; cbn [take_span] in H.
  - injection H as <- _. apply (inc_from_weaken (idx + Z.of_nat 0 - 1)); [lia|exact Hr].
  - destruct bs as [|b bs']; [discriminate|].
    destruct (take_span (idx + 1) n bs') as [[l' r']|] eqn:E; [|discriminate].
    injection H as <- _. split; [exact Hlo|].
    apply (IH _ _ _ _ _ _ E); [cbn; lia|]. apply (inc_from_weaken (idx + Z.of_nat (S n) - 1)); [lia|exact Hr].
Qed.

(* the first span may have a negative offset: the bound is on the first bucket it describes *)
Lemma expand_from_inc sp : forall first idx bs l lo, expand_from first idx sp bs = Ok l ->
  (if first then match sp with [] => True | s :: _ => lo < idx + s_off s end else lo < idx) ->
  inc_from lo l.
Proof.
  induction sp as [|s sp IH]; intros first idx bs l lo H Hlo; cbn [expand_from] in H.
  - destruct bs; [|discriminate]. now injection H as <-.
  - destruct (negb first && (s_off s <? 0)) eqn:E0; [discriminate|].
    destruct (take_span (idx + s_off s) (Z.to_nat (s_len s)) bs) as [[l1 r]|] eqn:E1; [|discriminate].
    destruct (expand_from false _ sp r) as [l2|] eqn:E2; [|discriminate]. injection H as <-.
    apply (take_span_inc _ _ _ _ _ _ _ E1).
    + destruct first; [exact Hlo|]. apply Z.ltb_ge in E0. lia.
    + apply (IH _ _ _ _ _ E2). lia.
Qed.

Lemma expand_increasing sp bs l : expand sp bs = Ok l -> increasing l.
Proof.
  intro H. destruct sp as [|s sp].
  - cbn in H. destruct bs; [|discriminate]. now injection H as <-.
  - apply (inc_increasing (s_off s - 1)), (expand_from_inc _ _ _ _ _ _ H). cbn. lia.
Qed.

Fixpoint find_idx (i : Z) (l : list bkt) : option Z :=
  match l with [] => None | b :: l' => if fst b =? i then Some (snd b) else find_idx i l' end.

(* bucket p of the previous histogram witnesses a reset against the current buckets:
   it is populated and missing now, or its count went down *)
Definition bad (cur : list bkt) (p : bkt) : bool :=
  match find_idx (fst p) cur with None => nonzero p | Some c => c <? snd p end.

Lemma find_idx_above i lo l : inc_from lo l -> i <= lo -> find_idx i l = None.
Proof.
  revert lo; induction l as [|b l IH]; intros lo H Hi; [reflexivity|].
  destruct H as [H1 H2]. cbn [find_idx]. destruct (Z.eqb_spec (fst b) i); [lia|].
  apply (IH (fst b)); [exact H2|lia].
Qed.

Lemma existsb_bad_skip (c : bkt) cur prev lo :
  inc_from lo prev -> fst c <= lo -> existsb (bad (c :: cur)) prev = existsb (bad cur) prev.
Proof.
  revert lo; induction prev as [|p prev IH]; intros lo H Hc; [reflexivity|].
  destruct H as [H1 H2]. cbn [existsb]. rewrite (IH (fst p)) by (assumption || lia).
  unfold bad. cbn [find_idx]. now destruct (Z.eqb_spec (fst c) (fst p)); [lia|].
Qed.

Lemma dr_lists_spec prev : forall cur, increasing prev -> increasing cur ->
  dr_lists prev cur = existsb (bad cur) prev.
Proof.
  induction prev as [|p prev IHp]; intros cur Hp Hc; [now destruct cur|].
  pose proof (increasing_tail p prev Hp) as Hp'.
  induction cur as [|c cur IHc]; [reflexivity|].
  cbn [dr_lists existsb]. unfold bad at 1. cbn [find_idx].
  destruct (Z.ltb_spec (fst c) (fst p)) as [L|L].
  - (* c lies below p: skipped *)
    cbn [dr_lists] in IHc. rewrite (IHc (increasing_tail c cur Hc)). cbn [existsb].
    rewrite (existsb_bad_skip c cur prev (fst p)) by (assumption || lia).
    now destruct (Z.eqb_spec (fst c) (fst p)); [lia|].
  - rewrite (IHp (c :: cur) Hp' Hc). destruct (Z.ltb_spec (fst p) (fst c)) as [L2|L2].
    + (* p is missing now *)
      destruct (Z.eqb_spec (fst c) (fst p)); [lia|].
      now rewrite (find_idx_above (fst p) (fst c) cur Hc) by lia.
    + now destruct (Z.eqb_spec (fst c) (fst p)); [|lia].
Qed.

Lemma find_idx_total i l : increasing l ->
  total l i = match find_idx i l with Some c => c | None => 0 end.
Proof.
  induction l as [|b l IH]; intro H; [reflexivity|]. cbn [total find_idx].
  destruct (Z.eqb_spec (fst b) i) as [E|_]; [|exact (IH (increasing_tail b l H))].
  rewrite (total_above i (fst b) l H); lia.
Qed.

Lemma bad_decreased cur p : increasing cur -> 0 <= snd p ->
  bad cur p = (total cur (fst p) <? snd p).
Proof.
  intros Hc Hp. unfold bad. rewrite (find_idx_total (fst p) cur Hc).
  destruct (find_idx (fst p) cur); [reflexivity|]. unfold nonzero.
  now destruct (Z.eqb_spec (snd p) 0), (Z.ltb_spec 0 (snd p)); try lia.
Qed.

Lemma p_detect_buckets_iff : forall prev cur, increasing prev -> increasing cur ->
  (dr_lists prev cur = true <->
   exists p, In p prev /\
     match find_idx (fst p) cur with None => snd p <> 0 | Some c => c < snd p end).
Proof.
  intros prev cur Hp Hc. rewrite (dr_lists_spec prev cur Hp Hc), existsb_exists.
  assert (E : forall p, bad cur p = true <->
                match find_idx (fst p) cur with None => snd p <> 0 | Some c => c < snd p end).
  { intro p. unfold bad, nonzero. destruct (find_idx (fst p) cur); [apply Z.ltb_lt|].
    now rewrite negb_true_iff, Z.eqb_neq. }
  split; intros (p & Hin & Hb); exists p; (split; [exact Hin|now apply E]).
Qed.

Lemma p_detect_buckets_decreased : forall prev cur, increasing prev -> increasing cur ->
  Forall (fun p => 0 <= snd p) prev ->
  (dr_lists prev cur = true <-> exists p, In p prev /\ total cur (fst p) < snd p).
Proof.
  intros prev cur Hp Hc Hnn. rewrite (dr_lists_spec prev cur Hp Hc), existsb_exists.
  rewrite Forall_forall in Hnn.
  split; intros (p & Hin & Hb); exists p; (split; [exact Hin|]);
    rewrite (bad_decreased cur p Hc (Hnn p Hin)) in *; now apply Z.ltb_lt.
Qed.

Lemma zrange_lb from n x : In x (zrange from n) -> from <= x.
Proof.
  revert from; induction n as [|n IH]; intros from H; [destruct H|].
  destruct H as [<-|H]; [lia|]. specialize (IH _ H). lia.
Qed.

Lemma total_zrange_map (f : Z -> Z) n : forall from t, from <= t < from + Z.of_nat n ->
  total (map (fun x => (x, f x)) (zrange from n)) t = f t.
Proof.
  induction n as [|n IH]; intros from t H; [lia|]. cbn [zrange map total fst snd].
  destruct (Z.eqb_spec from t) as [->|E]; [|apply IH; lia].
  rewrite total_notin; [lia|]. intros b Hb. apply in_map_iff in Hb. destruct Hb as (x & <- & Hx).
  apply zrange_lb in Hx. cbn. lia.
Qed.

Lemma add_mism_total sgn la ba lb bb inter t :
  0 <= t <= Z.of_nat (length inter) ->
  total (add_mism sgn la ba lb bb inter) t =
  total (remap inter ba la) t + sgn * total (remap inter bb lb) t.
Proof.
  intro Ht. unfold add_mism. rewrite total_filter_nonzero.
  apply (total_zrange_map (fun t => total (remap inter ba la) t + sgn * total (remap inter bb lb) t)). lia.
Qed.

(* where a source bucket with upper bound x goes: the first bound of the intersected layout
   that is >= x; if there is none, the +Inf bucket (index = number of bounds) *)
Lemma find_ge_some inter : forall x p r, find_ge inter x p = Some r ->
  exists pre y post, inter = pre ++ y :: post /\ r = p + Z.of_nat (length pre) /\ x <= y /\
                     Forall (fun z => z < x) pre.
Proof.
  induction inter as [|y inter IH]; intros x p r H; cbn [find_ge] in H; [discriminate|].
  destruct (Z.leb_spec x y).
  - injection H as <-. exists [], y, inter. repeat split; cbn; try lia. constructor.
  - destruct (IH x (p + 1) r H) as (pre & y' & post & -> & -> & C & D).
    exists (y :: pre), y', post. repeat split; cbn [app length]; try lia. now constructor.
Qed.

Lemma find_ge_none inter : forall x p, find_ge inter x p = None -> Forall (fun z => z < x) inter.
Proof.
  induction inter as [|y inter IH]; intros x p H; [constructor|]. cbn [find_ge] in H.
  destruct (Z.leb_spec x y); [discriminate|]. constructor; [lia|apply (IH x (p + 1) H)].
Qed.

Lemma map_idx_range inter bounds idx : 0 <= map_idx inter bounds idx <= Z.of_nat (length inter).
Proof.
  unfold map_idx. destruct (cbound bounds idx); [|lia].
  destruct (find_ge inter z 0) eqn:E; [|lia].
  destruct (find_ge_some _ _ _ _ E) as (pre & y & post & -> & -> & _). rewrite app_length. cbn. lia.
Qed.

Fixpoint zinc (lo : Z) (l : list Z) : Prop :=
  match l with [] => True | x :: r => lo < x /\ zinc x r end.

Lemma zinc_bound lo l z : zinc lo l -> In z l -> lo < z.
Proof.
  revert lo; induction l as [|x l IH]; intros lo H Hz; [destruct Hz|].
  destruct H as [H1 H2], Hz as [->|Hz]; [exact H1|]. specialize (IH _ H2 Hz). lia.
Qed.
Lemma zinc_weaken lo lo' l : lo' <= lo -> zinc lo l -> zinc lo' l.
Proof. destruct l; cbn; [tauto|]. intros ? [? ?]. split; [lia|assumption]. Qed.

Lemma intersect_fuel_spec fuel : forall a b lo z, zinc lo a -> zinc lo b ->
  (length a + length b <= fuel)%nat ->
  (In z (intersect_fuel fuel a b) <-> In z a /\ In z b).
Proof.
  induction fuel as [|fuel IH]; intros a b lo z Ha Hb Hf.
  - destruct a; destruct b; cbn in *; try lia; tauto.
  - cbn [intersect_fuel]. destruct a as [|x a']; [cbn; tauto|]. destruct b as [|y b']; [cbn; tauto|].
    destruct Ha as [Hx Ha'], Hb as [Hy Hb']. cbn [length] in Hf.
    destruct (Z.eqb_spec x y) as [<-|E1]; [|destruct (Z.ltb_spec x y) as [E2|E2]].
    + cbn [In]. rewrite (IH a' b' x z Ha' Hb' ltac:(lia)). tauto.
    + (* x is below every bound of b: it is in no intersection *)
      rewrite (IH a' (y :: b') x z Ha' (conj E2 Hb') ltac:(cbn [length]; lia)).
      split; [intros [A B]; split; [now right|exact B]|].
      intros [[<-|A] B]; [|now split].
      pose proof (zinc_bound x (y :: b') x (conj E2 Hb') B). lia.
    + assert (H : y < x) by lia.
      rewrite (IH (x :: a') b' y z (conj H Ha') Hb' ltac:(cbn [length]; lia)).
      split; [intros [A B]; split; [exact A|now right]|].
      intros [A [<-|B]]; [|now split].
      pose proof (zinc_bound y (x :: a') y (conj H Ha') A). lia.
Qed.

Lemma intersect_spec a b lo z : zinc lo a -> zinc lo b ->
  (In z (intersect a b) <-> In z a /\ In z b).
Proof. intros Ha Hb. unfold intersect. apply (intersect_fuel_spec _ a b lo z Ha Hb). lia. Qed.

Fixpoint deltas_from (prev : Z) (l : list Z) : list Z :=
  match l with [] => [] | x :: r => (x - prev) :: deltas_from x r end.

Lemma deltas_cumsum acc ds : deltas_from acc (cumsum_from acc ds) = ds.
Proof.
  revert acc; induction ds as [|d ds IH]; intro acc; cbn [cumsum_from deltas_from]; [reflexivity|].
  rewrite IH. f_equal. lia.
Qed.

(* Decides statements about the order of thresholds and bucket bounds: after case analysis on the
   thresholds in the context they are boolean comparisons of integers, which lia understands. *)
Ltac thr_cases :=
  intros; repeat match goal with t : thr |- _ => destruct t end;
  unfold thr_leb, thr_ltb, thr_eqb, upper, lower in *;
  try discriminate; try lia; try (f_equal; lia); try reflexivity.

Lemma thr_leb_refl T : thr_leb T T = true.
Proof. thr_cases. Qed.
Lemma thr_lt_le_trans a b c : thr_ltb a b = true -> thr_leb b c = true -> thr_leb a c = true.
Proof. thr_cases. Qed.
Lemma thr_le_lt_le_trans a b c : thr_leb a b = true -> thr_ltb b c = true -> thr_leb c c = true -> thr_leb a c = true.
Proof. thr_cases. Qed.
Lemma thr_ltb_leb a b : thr_ltb a b = true -> thr_leb a b = true.
Proof. thr_cases. Qed.
Lemma thr_le_lt_trans a b c : thr_leb a b = true -> thr_ltb b c = true -> thr_ltb a c = true.
Proof. thr_cases. Qed.
Lemma thr_lt_le_lt a b c : thr_ltb a b = true -> thr_leb b c = true -> thr_ltb a c = true.
Proof. thr_cases. Qed.
Lemma thr_eqb_eq a b : thr_eqb a b = true -> a = b.
Proof. thr_cases. Qed.
Lemma thr_eqb_refl a : thr_eqb a a = true.
Proof. thr_cases. Qed.
Lemma thr_ltb_neq a b : thr_ltb a b = true -> thr_eqb b a = false.
Proof. thr_cases. Qed.

Lemma bcode_eq idx s : s <= 8 -> bcode idx s = 2 * idx * 2 ^ (8 - s).
Proof. intro H. unfold bcode. now rewrite Z.shiftl_mul_pow2 by lia. Qed.

Lemma bcode_lt s i j : s <= 8 -> i < j -> bcode i s < bcode j s.
Proof.
  intros Hs Hij. rewrite !bcode_eq by exact Hs.
  pose proof (Z.pow_pos_nonneg 2 (8 - s) ltac:(lia) ltac:(lia)). nia.
Qed.
Lemma bcode_le s i j : s <= 8 -> i <= j -> bcode i s <= bcode j s.
Proof.
  intros Hs Hij. destruct (Z.eq_dec i j) as [->|]; [lia|]. apply Z.lt_le_incl, bcode_lt; lia.
Qed.

(* bucket b lies (at least partly) below T: its lower bound is < T *)
Definition inside (s : Z) (T : thr) (b : Z * Z) : bool := thr_ltb (lower (fst b) s) T.
(* T cuts no populated bucket of l *)
Definition nocut (s : Z) (T : thr) (l : list (Z * Z)) : Prop :=
  forall b : Z * Z, In b l -> inside s T b = true -> thr_ltb T (upper (fst b) s) = true -> snd b = 0.
Definition cut_at (s : Z) (T : thr) (l : list (Z * Z)) : Prop :=
  exists b, In b l /\ snd b <> 0 /\ inside s T b = true /\ thr_ltb T (upper (fst b) s) = true.
Definition absorbed_sum (s : Z) (T : thr) (l : list (Z * Z)) : Z := sumc (filter (inside s T) l).
Definition outsideb (s : Z) (T : thr) (b : Z * Z) : bool := negb (inside s T b).

Lemma inside_mono s T1 T2 b : thr_leb T1 T2 = true -> inside s T1 b = true -> inside s T2 b = true.
Proof. unfold inside. thr_cases. Qed.

Lemma absorbed_cons s T b l :
  absorbed_sum s T (b :: l) = (if inside s T b then snd b else 0) + absorbed_sum s T l.
Proof. unfold absorbed_sum. cbn [filter]. now destruct (inside s T b). Qed.

Lemma nocut_cons s T b l :
  (inside s T b = true -> thr_ltb T (upper (fst b) s) = true -> snd b = 0) -> nocut s T l ->
  nocut s T (b :: l).
Proof. intros Hb Hl x [<-|Hx]; [exact Hb|exact (Hl x Hx)]. Qed.

Lemma nocut_app s T l1 l2 : nocut s T (l1 ++ l2) <-> nocut s T l1 /\ nocut s T l2.
Proof.
  split; [intro H; split; intros b Hb; apply H, in_or_app; auto|].
  intros [H1 H2] b Hb. apply in_app_or in Hb. destruct Hb; auto.
Qed.

Lemma cut_at_app s T l1 l2 : cut_at s T l1 \/ cut_at s T l2 -> cut_at s T (l1 ++ l2).
Proof. intros [(b & H & R)|(b & H & R)]; exists b; (split; [apply in_or_app; auto|exact R]). Qed.

(* behind index i, at or above T, no bucket reaches below T *)
Lemma inside_beyond s T i (l : list (Z * Z)) b : s <= 8 -> inc_from i l -> thr_leb T (TC (bcode i s)) = true ->
  In b l -> inside s T b = false.
Proof.
  intros Hs Hi HT Hb. pose proof (inc_from_In _ _ _ Hi Hb).
  pose proof (bcode_le s i (fst b - 1) Hs ltac:(lia)). unfold inside. thr_cases.
Qed.

Lemma beyond s T i (l : list (Z * Z)) : s <= 8 -> inc_from i l -> thr_leb T (TC (bcode i s)) = true ->
  absorbed_sum s T l = 0 /\ nocut s T l.
Proof.
  intros Hs Hi HT. pose proof (fun b => inside_beyond s T i l b Hs Hi HT) as F. split.
  - unfold absorbed_sum. now rewrite filter_none.
  - intros b Hb Hin. now rewrite F in Hin.
Qed.

Lemma cut_at_cons s T b l : cut_at s T l -> cut_at s T (b :: l).
Proof. intros (x & H & R). exists x. split; [now right|exact R]. Qed.

(* one side of the scan, in terms of the threshold T' it leaves: T itself, or the far bound of
   the populated bucket that T cuts *)
Lemma scan_side_spec s T : s <= 8 -> forall l lo acc z adj, inc_from lo l ->
  scan_side s T l acc = (z, adj) ->
  let T' := match adj with Some t => t | None => T end in
  thr_leb T T' = true /\ z = acc + absorbed_sum s T' l /\ nocut s T' l /\
  (adj = None \/ thr_ltb T T' = true /\ cut_at s T l).
Proof.
  intros Hs. unfold bkt. induction l as [|[i c] l IH]; intros lo acc z adj Hinc H; cbn [scan_side] in H.
  - injection H as <- <-. split; [apply thr_leb_refl|]. split; [unfold absorbed_sum; cbn; lia|].
    split; [intros b []|now left].
  - destruct Hinc as [Hlo Hinc]. cbn [fst] in Hinc.
    pose proof (bcode_lt s (i - 1) i Hs ltac:(lia)) as Hw.
    destruct (thr_leb T (lower i s)) eqn:E1.
    { (* the first bucket starts at or above T: nothing is inside *)
      injection H as <- <-.
      destruct (beyond s T (i - 1) ((i, c) :: l) Hs) as [A B]; [split; [cbn; lia|exact Hinc]|exact E1|].
      rewrite A. split; [apply thr_leb_refl|]. split; [lia|]. split; [exact B|now left]. }
    assert (Ein : inside s T (i, c) = true) by (unfold inside; cbn [fst]; thr_cases).
    destruct (thr_ltb T (upper i s)) eqn:E2.
    + (* T cuts this bucket: the buckets behind it are inside neither T nor its upper bound *)
      destruct (beyond s T i l Hs Hinc) as [A B]; [thr_cases|].
      destruct (beyond s (upper i s) i l Hs Hinc) as [A2 B2]; [thr_cases|].
      destruct (Z.eqb_spec c 0) as [->|Ec]; injection H as <- <-.
      * rewrite absorbed_cons, Ein, A. split; [apply thr_leb_refl|]. split; [cbn; lia|].
        split; [now apply nocut_cons|now left].
      * split; [now apply thr_ltb_leb|]. rewrite absorbed_cons, A2.
        replace (inside s (upper i s) (i, c)) with true by (unfold inside; cbn [fst]; thr_cases).
        split; [cbn; lia|]. split; [apply nocut_cons; [cbn [fst]; thr_cases|exact B2]|].
        right. split; [exact E2|]. exists (i, c). repeat split; [now left|exact Ec|exact Ein|exact E2].
    + (* wholly inside, also of the threshold the rest of the scan leaves: go on *)
      destruct (IH i (acc + c) z adj Hinc H) as (L & Z & C & O). cbv zeta.
      set (T' := match adj with Some t => t | None => T end) in *.
      split; [exact L|]. rewrite absorbed_cons, (inside_mono s T T' _ L Ein).
      split; [cbn; lia|]. split; [apply nocut_cons; [cbn [fst]; thr_cases|exact C]|].
      destruct O as [O|[O1 O2]]; [now left|right]. split; [exact O1|now apply cut_at_cons].
Qed.

(* zeroCountForLargerThreshold, slow path: the returned threshold T' is >= the requested one,
   cuts no populated bucket, differs from it only if that one did, and the returned zero count is
   the old zero count plus exactly the buckets (of both sides) lying below T' *)
Definition widening (h : fh) (T : thr) (z : Z) (T' : thr) : Prop :=
  thr_leb T T' = true /\
  z = zc h + absorbed_sum (schema h) T' (pos h) + absorbed_sum (schema h) T' (neg h) /\
  nocut (schema h) T' (pos h) /\ nocut (schema h) T' (neg h) /\
  (T' = T \/ (thr_ltb T T' = true /\ cut_at (schema h) T (pos h ++ neg h))).

Lemma zcflt_loop_spec fuel : forall h T z T', schema h <= 8 -> increasing (pos h) -> increasing (neg h) ->
  zcflt_loop fuel h T = Ok (z, T') -> widening h T z T'.
Proof.
  unfold widening. induction fuel as [|fuel IH]; intros h T z T' Hs Hp Hn H; cbn [zcflt_loop] in H; [discriminate|].
  destruct (increasing_inc_from _ Hp) as [lop Hlop], (increasing_inc_from _ Hn) as [lon Hlon].
  destruct (scan_side (schema h) T (pos h) (zc h)) as [z1 adj1] eqn:S1.
  destruct (scan_side_spec _ T Hs _ lop _ _ _ Hlop S1) as (L1 & Z1 & C1 & O1).
  (* after the positive side the threshold is T1: moved only if T cut a populated bucket *)
  set (T1 := match adj1 with Some t => t | None => T end) in *.
  destruct (scan_side (schema h) T1 (neg h) z1) as [z2 adj2] eqn:S2.
  destruct (scan_side_spec _ T1 Hs _ lon _ _ _ Hlon S2) as (L2 & Z2 & C2 & O2).
  destruct adj2 as [t2|].
  - (* the negative side moved the threshold again: start over with it *)
    destruct O2 as [|[A D2]]; [discriminate|].
    destruct (IH h t2 z T' Hs Hp Hn H) as (L & Z & CP & CN & _).
    assert (LT : thr_ltb T T' = true)
      by (apply (thr_le_lt_trans T T1 T' L1), (thr_lt_le_lt T1 t2 T' A L)).
    repeat split; auto using thr_ltb_leb. right. split; [exact LT|]. apply cut_at_app.
    destruct O1 as [->|[_ D1]]; [now right|now left].
  - injection H as <- <-. unfold absorbed_sum in *.
    repeat split; auto; [lia|]. destruct O1 as [->|(LT & D1)]; [now left|].
    right. split; [exact LT|]. apply cut_at_app. now left.
Qed.

Lemma zcflt_spec h T z T' : schema h <= 8 -> increasing (pos h) -> increasing (neg h) ->
  zcflt h T = Ok (z, T') ->
  (thr_eqb T (zt h) = true /\ z = zc h /\ T' = T) \/ (thr_ltb (zt h) T = true /\ widening h T z T').
Proof.
  intros Hs Hp Hn H. unfold zcflt in H.
  destruct (thr_eqb T (zt h)) eqn:E1; [left; now injection H as <- <-|].
  destruct (thr_ltb T (zt h)) eqn:E2; [discriminate|].
  right. split; [destruct (zt h); thr_cases|]. apply (zcflt_loop_spec _ h T z T' Hs Hp Hn H).
Qed.

Lemma trim_compact s T : s <= 8 -> forall (l : list (Z * Z)) lo, inc_from lo l ->
  compact_abs 0 (trim_side s T l) = filter nonzero (filter (outsideb s T) l).
Proof.
  intros Hs l. unfold compact_abs. rewrite fill0_id.
  induction l as [|[i c] l IH]; intros lo H; [reflexivity|]. destruct H as [Hlo H].
  cbn [trim_side fst] in *. destruct (thr_leb T (lower i s)) eqn:E.
  - assert (H' : inc_from (i - 1) ((i, c) :: l)) by (split; [cbn; lia|exact H]).
    rewrite (filter_all (outsideb s T)); [reflexivity|]. intros b Hb. unfold outsideb.
    now rewrite (inside_beyond s T (i - 1) _ b Hs H' E Hb).
  - cbn [filter]. replace (outsideb s T (i, c)) with false
      by (unfold outsideb, inside; cbn [fst]; thr_cases).
    exact (IH i H).
Qed.

Definition widened (h0 : fh) (T : thr) : fh :=
  mkH (hint h0) (schema h0) T
      (zc h0 + absorbed_sum (schema h0) T (pos h0) + absorbed_sum (schema h0) T (neg h0))
      (cnt h0) (sum h0)
      (filter nonzero (filter (outsideb (schema h0) T) (pos h0)))
      (filter nonzero (filter (outsideb (schema h0) T) (neg h0))) (cv h0).

Lemma trim_widened h T : schema h <= 8 -> increasing (pos h) -> increasing (neg h) ->
  trim (set_zero h (zc h + absorbed_sum (schema h) T (pos h) + absorbed_sum (schema h) T (neg h)) T)
  = widened h T.
Proof.
  intros Hs Hp Hn. destruct (increasing_inc_from _ Hp) as [lop Hlop], (increasing_inc_from _ Hn) as [lon Hlon].
  unfold trim, set_zero, widened. cbn [hint schema zt zc cnt sum pos neg cv].
  now rewrite (trim_compact _ T Hs _ lop Hlop), (trim_compact _ T Hs _ lon Hlon).
Qed.

Lemma absorbed_additive s T1 T2 (l : list (Z * Z)) : thr_leb T1 T2 = true ->
  absorbed_sum s T1 l + absorbed_sum s T2 (filter nonzero (filter (outsideb s T1) l)) = absorbed_sum s T2 l.
Proof.
  intro HT. induction l as [|b l IH]; [reflexivity|].
  pose proof (inside_mono s T1 T2 b HT) as M. pose proof (nonzero_false b) as Z.
  rewrite !absorbed_cons. cbn [filter]. unfold outsideb at 1.
  destruct (inside s T1 b); cbn [negb filter]; [rewrite M by reflexivity; lia|].
  destruct (nonzero b); [rewrite absorbed_cons|rewrite Z by reflexivity]; destruct (inside s T2 b); lia.
Qed.

Lemma filter_twice s T1 T2 (l : list (Z * Z)) : thr_leb T1 T2 = true ->
  filter nonzero (filter (outsideb s T2) (filter nonzero (filter (outsideb s T1) l))) =
  filter nonzero (filter (outsideb s T2) l).
Proof.
  intro HT. unfold outsideb. induction l as [|b l IH]; [reflexivity|].
  pose proof (inside_mono s T1 T2 b HT) as M.
  cbn [filter]. destruct (inside s T1 b); cbn [negb filter]; [now rewrite M|].
  destruct (nonzero b) eqn:Ez; cbn [filter]; destruct (inside s T2 b); cbn [negb filter];
    now rewrite ?Ez, IH.
Qed.

Lemma widened_widened h0 T1 T2 : thr_leb T1 T2 = true -> widened (widened h0 T1) T2 = widened h0 T2.
Proof.
  intro L. unfold widened. cbn [hint schema zt zc cnt sum pos neg cv].
  rewrite !filter_twice by exact L. f_equal.
  pose proof (absorbed_additive (schema h0) T1 T2 (pos h0) L).
  pose proof (absorbed_additive (schema h0) T1 T2 (neg h0) L). lia.
Qed.

Lemma nocut_widen s T1 T2 (l : list (Z * Z)) : thr_leb T1 T2 = true ->
  nocut s T1 l -> nocut s T2 (filter nonzero (filter (outsideb s T1) l)) -> nocut s T2 l.
Proof.
  intros HT N1 N2 b Hb Hi Hu.
  destruct (Z.eqb_spec (snd b) 0) as [|Ez]; [assumption|].
  destruct (inside s T1 b) eqn:E1.
  - (* below T1: not cut by T1, so its upper bound is <= T1 <= T2 *)
    destruct (thr_ltb T1 (upper (fst b) s)) eqn:E2; [exact (N1 b Hb E1 E2)|]. exfalso. thr_cases.
  - apply (N2 b); [|exact Hi|exact Hu]. apply filter_In. split.
    + apply filter_In. split; [exact Hb|]. unfold outsideb. now rewrite E1.
    + unfold nonzero. now apply negb_true_iff, Z.eqb_neq.
Qed.

(* invariants of the reconcileZeroBuckets loop, relative to the original receiver h0 / other o:
   each is as at the start, or widened to a threshold that cuts none of its populated buckets *)
Definition Ih (h0 hc : fh) : Prop :=
  hc = h0 \/
  exists T, thr_ltb (zt h0) T = true /\ hc = widened h0 T /\
            nocut (schema h0) T (pos h0) /\ nocut (schema h0) T (neg h0).
Definition Io (o : fh) (oz : Z) (ot : thr) : Prop :=
  (ot = zt o /\ oz = zc o) \/
  (thr_ltb (zt o) ot = true /\
   oz = zc o + absorbed_sum (schema o) ot (pos o) + absorbed_sum (schema o) ot (neg o) /\
   nocut (schema o) ot (pos o) /\ nocut (schema o) ot (neg o)).

Lemma Ih_basic h0 hc : Ih h0 hc -> increasing (pos h0) -> increasing (neg h0) ->
  schema hc = schema h0 /\ increasing (pos hc) /\ increasing (neg hc) /\ thr_leb (zt h0) (zt hc) = true.
Proof.
  intros [->|(T & L & -> & _)] Hp Hn; cbn [widened schema pos neg zt]; repeat split;
    auto using thr_leb_refl, thr_ltb_leb, increasing_filter.
Qed.

Lemma widen_step h0 hc hz ht T1 : increasing (pos h0) -> increasing (neg h0) -> schema h0 <= 8 ->
  Ih h0 hc -> thr_ltb (zt hc) T1 = true -> zcflt hc T1 = Ok (hz, ht) ->
  Ih h0 (trim (set_zero hc hz ht)).
Proof.
  intros Hp Hn Hs I0 HT Hz.
  destruct (Ih_basic h0 hc I0 Hp Hn) as (Es & Hpc & Hnc & L0).
  destruct (zcflt_spec hc T1 hz ht ltac:(lia) Hpc Hnc Hz) as [(E & _)|(_ & L2 & -> & C1 & C2 & _)].
  { apply thr_eqb_eq in E. subst T1. exfalso. destruct (zt hc); thr_cases. }
  rewrite trim_widened by (assumption || lia). right. exists ht.
  assert (Lh : thr_ltb (zt hc) ht = true) by exact (thr_lt_le_lt _ _ _ HT L2).
  destruct I0 as [->|(T & L & -> & N1 & N2)]; cbn [widened schema pos neg zt] in *.
  - repeat split; assumption.
  - rewrite widened_widened by exact (thr_ltb_leb _ _ Lh).
    split; [exact (thr_lt_le_lt _ _ _ L (thr_ltb_leb _ _ Lh))|]. split; [reflexivity|].
    pose proof (thr_ltb_leb _ _ Lh) as Lh'.
    split; [exact (nocut_widen _ T ht _ Lh' N1 C1)|exact (nocut_widen _ T ht _ Lh' N2 C2)].
Qed.

Lemma reconcile_loop_spec h0 o :
  increasing (pos h0) -> increasing (neg h0) -> increasing (pos o) -> increasing (neg o) ->
  schema h0 <= 8 -> schema o <= 8 ->
  forall fuel hc oz ot h1 ozf, Ih h0 hc -> Io o oz ot ->
  reconcile_loop fuel hc o oz ot = Ok (h1, ozf) -> Ih h0 h1 /\ Io o ozf (zt h1).
Proof.
  intros Hp Hn Hpo Hno Hs Hso. induction fuel as [|fuel IH]; intros hc oz ot h1 ozf I1 I2 H;
    cbn [reconcile_loop] in H; destruct (thr_eqb ot (zt hc)) eqn:E;
    try (injection H as <- <-; apply thr_eqb_eq in E; now subst ot); [discriminate|].
  (* other's zero bucket is brought up to the receiver's threshold ... *)
  assert (R : forall oz1 ot1, (if thr_ltb ot (zt hc) then zcflt o (zt hc) else Ok (oz, ot)) = Ok (oz1, ot1) ->
                              Io o oz1 ot1).
  { intros oz1 ot1 Hr. destruct (thr_ltb ot (zt hc)) eqn:L; [|now injection Hr as <- <-].
    destruct (zcflt_spec o (zt hc) oz1 ot1 Hso Hpo Hno Hr) as [(A & -> & ->)|(A & B & C & D & F & _)].
    - left. apply thr_eqb_eq in A. now split.
    - right. split; [exact (thr_lt_le_lt _ _ _ A B)|auto]. }
  destruct (if thr_ltb ot (zt hc) then _ else _) as [[oz1 ot1]|e]; [|discriminate].
  specialize (R oz1 ot1 eq_refl).
  (* ... and the receiver's up to the threshold that gave *)
  destruct (thr_ltb (zt hc) ot1) eqn:L2; [|exact (IH _ _ _ _ _ I1 R H)].
  destruct (zcflt hc ot1) as [[hz ht]|e] eqn:Ez; [|discriminate].
  exact (IH _ _ _ _ _ (widen_step h0 hc hz ht ot1 Hp Hn Hs I1 L2 Ez) R H).
Qed.

Lemma reconcile_spec h o h1 oz :
  increasing (pos h) -> increasing (neg h) -> increasing (pos o) -> increasing (neg o) ->
  schema h <= 8 -> schema o <= 8 ->
  reconcile h o = Ok (h1, oz) -> Ih h h1 /\ Io o oz (zt h1).
Proof.
  intros Hp Hn Hpo Hno Hs Hso H. unfold reconcile in H.
  eapply (reconcile_loop_spec h o Hp Hn Hpo Hno Hs Hso); [| |exact H]; now left.
Qed.

Definition reduced_to (s' s : Z) (l : list bkt) : list bkt := if s' <? s then reduce_abs (s - s') l else l.

Lemma reduced_to_total s' s l t : s' <= s -> increasing l ->
  total (reduced_to s' s l) t = total (retarget (s - s') l) t.
Proof.
  intros Hs Hinc. unfold reduced_to. destruct (Z.ltb_spec s' s); [apply reduce_total; [lia|exact Hinc]|].
  replace (s - s') with 0 by lia. now rewrite retarget_0.
Qed.

Lemma reduced_to_increasing s' s (l : list (Z * Z)) : s' <= s -> increasing l -> increasing (reduced_to s' s l).
Proof. intros H Hi. unfold reduced_to. destruct (s' <? s); [apply reduce_increasing; [lia|exact Hi]|exact Hi]. Qed.

Lemma arith_exp sgn h o : is_custom (schema h) = false -> is_custom (schema o) = false ->
  arith sgn h o =
  match reconcile h o with
  | Err e => Err e
  | Ok (h1, oz) =>
      let s' := Z.min (schema h) (schema o) in
      Ok (mkAO (mkH (fst (adjust_hint (hint h) (hint o))) s' (zt h1) (zc h1 + sgn * oz)
                    (cnt h + sgn * cnt o) (sum h + sgn * sum o)
                    (merge_add sgn (reduced_to s' (schema h) (pos h1))
                               (drop_below s' (zt h1) (reduced_to s' (schema o) (pos o))))
                    (merge_add sgn (reduced_to s' (schema h) (neg h1))
                               (drop_below s' (zt h1) (reduced_to s' (schema o) (neg o))))
                    (cv h))
               (snd (adjust_hint (hint h) (hint o))) false)
  end.
Proof.
  intros Hh Ho. unfold arith. rewrite Hh, Ho. cbn [xorb]. destruct (adjust_hint _ _).
  now destruct (reconcile h o) as [[h1 oz]|].
Qed.

Lemma side_total sgn s' sh so T l1 l2 t : s' <= sh -> increasing l1 ->
  total (merge_add sgn (reduced_to s' sh l1) (drop_below s' T (reduced_to s' so l2))) t =
  total (retarget (sh - s') l1) t + sgn * total (drop_below s' T (reduced_to s' so l2)) t.
Proof. intros. now rewrite total_merge_add, reduced_to_total. Qed.

Lemma reconcile_loop_same fuel h o oz ot :
  thr_eqb ot (zt h) = true -> reconcile_loop fuel h o oz ot = Ok (h, oz).
Proof. intro H. destruct fuel; cbn [reconcile_loop]; now rewrite H. Qed.

Lemma arith_same_threshold sgn h o :
  is_custom (schema h) = false -> is_custom (schema o) = false ->
  thr_eqb (zt o) (zt h) = true -> increasing (pos h) -> increasing (neg h) ->
  increasing (pos o) -> increasing (neg o) ->
  exists r, arith sgn h o = Ok r /\
    let s' := Z.min (schema h) (schema o) in
    schema (ao_h r) = s' /\ zt (ao_h r) = zt h /\
    zc (ao_h r) = zc h + sgn * zc o /\ cnt (ao_h r) = cnt h + sgn * cnt o /\
    (forall t, total (pos (ao_h r)) t =
               total (retarget (schema h - s') (pos h)) t +
               sgn * total (drop_below s' (zt h) (reduced_to s' (schema o) (pos o))) t) /\
    (forall t, total (neg (ao_h r)) t =
               total (retarget (schema h - s') (neg h)) t +
               sgn * total (drop_below s' (zt h) (reduced_to s' (schema o) (neg o))) t).
Proof.
  intros Hh Ho Hz Hph Hnh Hpo Hno. rewrite arith_exp by assumption.
  unfold reconcile. rewrite reconcile_loop_same by exact Hz.
  eexists. split; [reflexivity|]. cbn [ao_h schema zt zc cnt pos neg].
  repeat split; intro t; apply side_total; (assumption || lia).
Qed.

(* what stays in regular buckets / what moves into the zero bucket when the zero bucket of a
   histogram with threshold zt0 is (possibly) widened to T *)
Definition kept_at (s : Z) (zt0 T : thr) (l : list (Z * Z)) : list (Z * Z) :=
  if thr_eqb T zt0 then l else filter (outsideb s T) l.
Definition absorbed_at (x : fh) (T : thr) : Z :=
  if thr_eqb T (zt x) then 0
  else absorbed_sum (schema x) T (pos x) + absorbed_sum (schema x) T (neg x).

Lemma Ih_facts h0 hc : Ih h0 hc ->
  zc hc = zc h0 + absorbed_at h0 (zt hc) /\
  (thr_eqb (zt hc) (zt h0) = false ->
   nocut (schema h0) (zt hc) (pos h0) /\ nocut (schema h0) (zt hc) (neg h0)) /\
  forall k t,
    total (retarget k (pos hc)) t = total (retarget k (kept_at (schema h0) (zt h0) (zt hc) (pos h0))) t /\
    total (retarget k (neg hc)) t = total (retarget k (kept_at (schema h0) (zt h0) (zt hc) (neg h0))) t.
Proof.
  unfold absorbed_at, kept_at. intros [->|(T & L & -> & N)]; cbn [widened zt zc pos neg].
  - rewrite thr_eqb_refl. repeat split; (lia || discriminate).
  - rewrite (thr_ltb_neq _ _ L). repeat split; try lia; try apply N;
      now rewrite retarget_filter_nonzero, total_filter_nonzero.
Qed.

Lemma Io_facts o oz ot : Io o oz ot ->
  oz = zc o + absorbed_at o ot /\ thr_leb (zt o) ot = true /\
  (thr_eqb ot (zt o) = false -> nocut (schema o) ot (pos o) /\ nocut (schema o) ot (neg o)).
Proof.
  unfold absorbed_at. intros [(-> & ->)|(L & -> & N)].
  - rewrite thr_eqb_refl. repeat split; (lia || discriminate || apply thr_leb_refl).
  - rewrite (thr_ltb_neq _ _ L). repeat split; try lia; try apply N. now apply thr_ltb_leb.
Qed.

Lemma upper_target_le so s' i : s' <= so -> so <= 8 -> bcode i so <= bcode (target_idx i (so - s')) s'.
Proof.
  intros H1 H2. rewrite !bcode_eq by lia. unfold target_idx. rewrite Z.shiftr_div_pow2 by lia.
  replace (8 - s') with ((so - s') + (8 - so)) by lia. rewrite Z.pow_add_r by lia.
  pose proof (Z.pow_pos_nonneg 2 (so - s') ltac:(lia) ltac:(lia)) as Pk.
  pose proof (Z.pow_pos_nonneg 2 (8 - so) ltac:(lia) ltac:(lia)) as Pm.
  pose proof (Z.div_mod (i - 1) (2 ^ (so - s')) ltac:(lia)) as D.
  pose proof (Z.mod_pos_bound (i - 1) (2 ^ (so - s')) Pk) as M.
  set (q := (i - 1) / 2 ^ (so - s')) in *. set (m := 2 ^ (so - s')) in *. set (w := 2 ^ (8 - so)) in *.
  assert (i <= (q + 1) * m) by nia. nia.
Qed.

Lemma bound_le_mono s T i j : s <= 8 -> i <= j -> bound_le j s T = true -> bound_le i s T = true.
Proof.
  intros Hs Hij H. unfold bound_le in *. pose proof (bcode_le s i j Hs Hij). thr_cases.
Qed.

Lemma drop_below_total s T (l : list (Z * Z)) t : is_exp s = true -> increasing l ->
  total (drop_below s T l) t = if bound_le t s T then 0 else total l t.
Proof.
  intros He Hi. unfold drop_below. rewrite He.
  assert (Hs : s <= 8) by (unfold is_exp in He; lia).
  induction l as [|b l IH]; [now destruct (bound_le t s T)|]. cbn [dropwhile].
  destruct (bound_le (fst b) s T) eqn:Pb.
  - rewrite (IH (increasing_tail b l Hi)). destruct (bound_le t s T) eqn:Pt; [reflexivity|].
    cbn [total]. destruct (Z.eqb_spec (fst b) t); [congruence|reflexivity].
  - destruct (bound_le t s T) eqn:Pt; [|reflexivity].
    apply (total_above t (fst b - 1) (b :: l)); [split; [lia|exact Hi]|].
    destruct (Z_lt_le_dec t (fst b)) as [|Hge]; [lia|].
    now rewrite (bound_le_mono s T (fst b) t Hs Hge Pt) in Pb.
Qed.

(* per-bucket side conditions on `other` (schema so, own threshold zt0) for the common threshold
   T' and result schema s':
   - wf:    if its zero bucket is not widened, a bucket wholly inside it is empty;
   - nocut: if it is widened, T' cuts no populated bucket (guaranteed by reconcileZeroBuckets);
   - ndc:   a populated bucket wholly inside [-T',T'] merges into a bucket of schema s' that is
            wholly inside too — this excludes exactly the double-count configuration. *)
Definition other_ok (so s' : Z) (zt0 T' : thr) (b : Z * Z) : Prop :=
  (thr_eqb T' zt0 = true -> thr_leb (upper (fst b) so) T' = true -> snd b = 0) /\
  (thr_eqb T' zt0 = false -> inside so T' b = true -> thr_ltb T' (upper (fst b) so) = true -> snd b = 0) /\
  (snd b <> 0 -> thr_leb (upper (fst b) so) T' = true ->
   bound_le (target_idx (fst b) (so - s')) s' T' = true).

Lemma other_side so s' zt0 T' (l : list (Z * Z)) t : s' <= so -> so <= 8 ->
  (forall b, In b l -> other_ok so s' zt0 T' b) ->
  total (retarget (so - s') (kept_at so zt0 T' l)) t =
  if bound_le t s' T' then 0 else total (retarget (so - s') l) t.
Proof.
  intros H1 H2. unfold kept_at. induction l as [|b l IH]; intro Hall.
  - destruct (thr_eqb T' zt0); cbn; now destruct (bound_le t s' T').
  - assert (IH' := IH (fun x Hx => Hall x (or_intror Hx))). clear IH.
    destruct (Hall b (or_introl eq_refl)) as (W & N & D).
    pose proof (upper_target_le so s' (fst b) H1 H2) as U.
    pose proof (bcode_lt so (fst b - 1) (fst b) H2 ltac:(lia)) as Hw.
    destruct (Z.eq_dec (snd b) 0) as [Ez|Ez].
    { (* an empty bucket changes nothing, kept or not *)
      destruct (thr_eqb T' zt0); [|cbn [filter]; destruct (outsideb so T' b)];
        now rewrite ?total_retarget_cons0 by exact Ez. }
    specialize (D Ez). unfold bound_le, inside in *.
    assert (Hcons : forall l', total (retarget (so - s') (b :: l')) t =
              (if target_idx (fst b) (so - s') =? t then snd b else 0) + total (retarget (so - s') l') t)
      by (intro l'; cbn [retarget map total fst snd]; fold (retarget (so - s') l'); destruct (_ =? t); lia).
    destruct (thr_eqb T' zt0) eqn:Eq;
      [|cbn [filter]; unfold outsideb at 1, inside; destruct (thr_ltb (lower (fst b) so) T') eqn:Ei; cbn [negb]];
      rewrite ?Hcons, IH'; destruct (Z.eqb_spec (target_idx (fst b) (so - s')) t) as [<-|];
      destruct (thr_leb (upper _ s') T') eqn:Pt; try lia; exfalso.
    + (* not widened: a populated bucket below the merged bucket's bound lies in other's own zero bucket *)
      apply Ez, W; [reflexivity|thr_cases].
    + (* absorbed, yet its merged bucket sticks out: it is cut, or doubly counted *)
      destruct (thr_ltb T' (upper (fst b) so)) eqn:Ec; [now apply Ez, N|].
      discriminate D. thr_cases.
    + (* kept, yet its merged bucket is dropped *) thr_cases.
Qed.

Lemma other_side_total so s' zt0 T' (l : list (Z * Z)) t :
  s' <= so -> so <= 8 -> is_exp s' = true -> increasing l ->
  (forall b, In b l -> other_ok so s' zt0 T' b) ->
  total (drop_below s' T' (reduced_to s' so l)) t =
  total (retarget (so - s') (kept_at so zt0 T' l)) t.
Proof.
  intros H1 H2 He Hi Hall.
  rewrite drop_below_total by (try assumption; apply reduced_to_increasing; assumption).
  rewrite reduced_to_total by assumption. symmetry. now apply other_side.
Qed.

Lemma is_exp_facts s : is_exp s = true -> is_custom s = false /\ -4 <= s /\ s <= 8.
Proof. unfold is_exp, is_custom, customSchema. lia. Qed.

Lemma is_exp_min a b : is_exp a = true -> is_exp b = true -> is_exp (Z.min a b) = true.
Proof. unfold is_exp. lia. Qed.

(* no populated bucket lies wholly inside the histogram's own zero bucket *)
Definition wf_own (x : fh) : Prop :=
  forall b, In b (pos x ++ neg x) -> thr_leb (upper (fst b) (schema x)) (zt x) = true -> snd b = 0.

(* the configuration of the finding is absent: every populated bucket of `other` that lies wholly
   inside the common zero bucket [-T,T] merges, at the result schema s', into a bucket that lies
   wholly inside it as well *)
Definition no_double_count (o : fh) (s' : Z) (T : thr) : Prop :=
  forall b, In b (pos o ++ neg o) -> snd b <> 0 -> thr_leb (upper (fst b) (schema o)) T = true ->
            bound_le (target_idx (fst b) (schema o - s')) s' T = true.

Lemma other_ok_of o s' T : wf_own o ->
  (thr_eqb T (zt o) = false -> nocut (schema o) T (pos o) /\ nocut (schema o) T (neg o)) ->
  no_double_count o s' T ->
  forall b, In b (pos o ++ neg o) -> other_ok (schema o) s' (zt o) T b.
Proof.
  intros W N ND b Hb. split; [|split].
  - intros E L. apply thr_eqb_eq in E. apply (W b Hb). now rewrite <- E.
  - intro E. exact (proj2 (nocut_app _ _ _ _) (N E) b Hb).
  - exact (ND b Hb).
Qed.

Theorem arith_general sgn h o r :
  is_exp (schema h) = true -> is_exp (schema o) = true ->
  increasing (pos h) -> increasing (neg h) -> increasing (pos o) -> increasing (neg o) ->
  wf_own o ->
  arith sgn h o = Ok r ->
  let R := ao_h r in let T' := zt R in let s' := Z.min (schema h) (schema o) in
  no_double_count o s' T' ->
  schema R = s' /\ thr_leb (zt h) T' = true /\ thr_leb (zt o) T' = true /\
  cnt R = cnt h + sgn * cnt o /\ sum R = sum h + sgn * sum o /\
  zc R = zc h + absorbed_at h T' + sgn * (zc o + absorbed_at o T') /\
  (thr_eqb T' (zt h) = false -> nocut (schema h) T' (pos h) /\ nocut (schema h) T' (neg h)) /\
  (thr_eqb T' (zt o) = false -> nocut (schema o) T' (pos o) /\ nocut (schema o) T' (neg o)) /\
  (forall t, total (pos R) t =
             total (retarget (schema h - s') (kept_at (schema h) (zt h) T' (pos h))) t +
             sgn * total (retarget (schema o - s') (kept_at (schema o) (zt o) T' (pos o))) t) /\
  (forall t, total (neg R) t =
             total (retarget (schema h - s') (kept_at (schema h) (zt h) T' (neg h))) t +
             sgn * total (retarget (schema o - s') (kept_at (schema o) (zt o) T' (neg o))) t).
Proof.
  intros Eh Eo Hp Hn Hpo Hno Wo H.
  destruct (is_exp_facts _ Eh) as (Ch & Lh & Uh), (is_exp_facts _ Eo) as (Co & Lo & Uo).
  rewrite arith_exp in H by assumption.
  destruct (reconcile h o) as [[h1 oz]|e] eqn:Er; [|discriminate]. injection H as <-.
  cbn [ao_h schema zt zc cnt sum pos neg]. intro ND.
  destruct (reconcile_spec h o h1 oz Hp Hn Hpo Hno Uh Uo Er) as [I1 I2].
  destruct (Ih_basic h h1 I1 Hp Hn) as (_ & Hp1 & Hn1 & L1).
  destruct (Ih_facts h h1 I1) as (Zh & Nh & Kh), (Io_facts o oz (zt h1) I2) as (Zo & L2 & No).
  pose proof (other_ok_of o _ _ Wo No ND) as OK.
  pose proof (is_exp_min _ _ Eh Eo) as Es.
  repeat (split; [assumption || reflexivity || (rewrite Zh, Zo; reflexivity)|]).
  split; intro t; rewrite side_total by (assumption || lia).
  - rewrite (proj1 (Kh _ t)), (other_side_total (schema o) _ (zt o)); auto; try lia.
    intros b Hb. apply OK, in_or_app. now left.
  - rewrite (proj2 (Kh _ t)), (other_side_total (schema o) _ (zt o)); auto; try lia.
    intros b Hb. apply OK, in_or_app. now right.
Qed.

Lemma ndc_other_not_higher_res h o T : schema o <= schema h ->
  no_double_count o (Z.min (schema h) (schema o)) T.
Proof.
  intros Hs b _ _ L. rewrite Z.min_r by lia. replace (schema o - schema o) with 0 by lia.
  now rewrite target_idx_0.
Qed.

Lemma ndc_zero_threshold o s' : no_double_count o s' T0.
Proof. intros b _ _ L. discriminate L. Qed.

(* a boundary of the coarse grid is a boundary of the fine grid: no merged bucket straddles it *)
Lemma ndc_threshold_on_grid o s' j : s' <= schema o -> schema o <= 8 ->
  no_double_count o s' (TC (bcode j s')).
Proof.
  intros H1 H2 b _ _ L. unfold bound_le, upper, thr_leb, thr_ltb in *.
  apply negb_true_iff, Z.ltb_ge in L. apply negb_true_iff, Z.ltb_ge.
  set (k := schema o - s') in *. set (i := fst b) in *.
  pose proof (Z.pow_pos_nonneg 2 k ltac:(lia) ltac:(lia)) as P.
  assert (E : bcode j s' = bcode (j * 2 ^ k) (schema o)).
  { rewrite !bcode_eq by lia. replace (8 - s') with (k + (8 - schema o)) by lia.
    rewrite Z.pow_add_r by lia. ring. }
  assert (Hi : i <= j * 2 ^ k).
  { destruct (Z_le_gt_dec i (j * 2 ^ k)) as [|G]; [assumption|].
    pose proof (bcode_lt (schema o) (j * 2 ^ k) i H2 ltac:(lia)). lia. }
  apply bcode_le; [lia|]. unfold target_idx. rewrite Z.shiftr_div_pow2 by lia.
  assert ((i - 1) / 2 ^ k < j); [|lia]. apply Z.div_lt_upper_bound; [lia|]. nia.
Qed.

Definition nonneg (l : list (Z * Z)) : Prop := forall b, In b l -> 0 <= snd b.

Lemma total_nonneg (l : list (Z * Z)) t : nonneg l -> 0 <= total l t.
Proof.
  induction l as [|b l IH]; intro H; [cbn; lia|].
  cbn [total]. pose proof (H b (or_introl eq_refl)). pose proof (IH (fun x Hx => H x (or_intror Hx))).
  destruct (fst b =? t); lia.
Qed.

Lemma nonneg_retarget k l : nonneg l -> nonneg (retarget k l).
Proof. intros H b Hb. apply in_map_iff in Hb. destruct Hb as (x & <- & Hx). exact (H x Hx). Qed.
Lemma nonneg_kept s z T l : nonneg l -> nonneg (kept_at s z T l).
Proof.
  intros H b Hb. unfold kept_at in Hb. destruct (thr_eqb T z); [exact (H b Hb)|].
  apply filter_In in Hb. now apply H.
Qed.

Lemma increasing_drop_below s T l : increasing l -> increasing (drop_below s T l).
Proof. intro H. unfold drop_below. destruct (is_exp s); [now apply increasing_dropwhile|exact H]. Qed.

(* detectReset on the two iterators = some bucket count decreased after aligning the previous
   histogram (lower resolution, wider zero bucket) *)
Lemma dr_side sc sp ztp T (lc lp : list (Z * Z)) :
  sc <= sp -> sp <= 8 -> is_exp sc = true ->
  increasing lc -> increasing lp -> nonneg lc -> nonneg lp ->
  (forall b, In b lc -> bound_le (fst b) sc T = true -> snd b = 0) ->
  (forall b, In b lp -> other_ok sp sc ztp T b) ->
  (dr_lists (iter_abs sp sc T lp) (iter_abs sc sc T lc) = true <->
   exists t, total lc t < total (retarget (sp - sc) (kept_at sp ztp T lp)) t).
Proof.
  intros H1 H2 He Hic Hip Nc Np Wc Op.
  change (iter_abs sp sc T lp) with (drop_below sc T (reduced_to sc sp lp)).
  change (iter_abs sc sc T lc) with (drop_below sc T (reduced_to sc sc lc)).
  set (PI := drop_below sc T (reduced_to sc sp lp)). set (CI := drop_below sc T (reduced_to sc sc lc)).
  assert (IP : increasing PI) by (apply increasing_drop_below, reduced_to_increasing; assumption).
  assert (Ec : reduced_to sc sc lc = lc) by (unfold reduced_to; now rewrite Z.ltb_irrefl).
  assert (IC : increasing CI) by (apply increasing_drop_below; now rewrite Ec).
  assert (tPI : forall t, total PI t = total (retarget (sp - sc) (kept_at sp ztp T lp)) t)
    by (intro t; now apply other_side_total).
  assert (tCI : forall t, total CI t = total lc t)
    by (intro t; subst CI; rewrite Ec; unfold drop_below; rewrite He; now apply total_dropwhile_zero).
  assert (NP : forall t, 0 <= total PI t)
    by (intro t; rewrite tPI; now apply total_nonneg, nonneg_retarget, nonneg_kept).
  assert (NQ : Forall (fun q => 0 <= snd q) PI)
    by (apply Forall_forall; intros q Hq; rewrite <- (total_in_increasing PI q IP Hq); apply NP).
  rewrite (p_detect_buckets_decreased PI CI IP IC NQ). split.
  - intros (q & Hq & Hlt). exists (fst q). now rewrite <- tPI, <- tCI, (total_in_increasing PI q IP Hq).
  - intros (t & Ht). rewrite <- tPI, <- tCI in Ht.
    assert (0 <= total CI t) by (rewrite tCI; now apply total_nonneg).
    destruct (total_nonzero_in PI t ltac:(lia)) as (q & Hq & <-). exists q. split; [exact Hq|].
    now rewrite <- (total_in_increasing PI q IP Hq).
Qed.

(* the zero threshold T of the current histogram cuts through a populated bucket of p *)
Definition cuts_populated (p : fh) (T : thr) : Prop :=
  thr_eqb T (zt p) = false /\
  exists q, In q (pos p ++ neg p) /\ snd q <> 0 /\ inside (schema p) T q = true /\
            thr_ltb T (upper (fst q) (schema p)) = true.

Theorem detect_general c p b :
  is_exp (schema c) = true -> is_exp (schema p) = true ->
  increasing (pos c) -> increasing (neg c) -> increasing (pos p) -> increasing (neg p) ->
  nonneg (pos c) -> nonneg (neg c) -> nonneg (pos p) -> nonneg (neg p) ->
  wf_own c -> wf_own p -> hint c <> 1 -> hint c <> 2 ->
  detect_reset c p = Ok b ->
  no_double_count p (schema c) (zt c) ->
  (b = true <->
   cnt c < cnt p \/ schema p < schema c \/ thr_ltb (zt c) (zt p) = true \/
   cuts_populated p (zt c) \/
   zc c < zc p + absorbed_at p (zt c) \/
   (exists t, total (pos c) t <
              total (retarget (schema p - schema c) (kept_at (schema p) (zt p) (zt c) (pos p))) t) \/
   (exists t, total (neg c) t <
              total (retarget (schema p - schema c) (kept_at (schema p) (zt p) (zt c) (neg p))) t)).
Proof.
  intros Ec Ep Ipc Inc Ipp Inp Npc Nnc Npp Nnp Wc Wp H1 H2 H ND.
  destruct (is_exp_facts _ Ec) as (Cc & Lc & Uc), (is_exp_facts _ Ep) as (Cp & Lp & Up).
  unfold detect_reset in H.
  rewrite (proj2 (Z.eqb_neq _ _) H1), (proj2 (Z.eqb_neq _ _) H2), Cc in H. cbn [andb] in H.
  (* the cascade: each early exit is one of the listed reasons *)
  destruct (Z.ltb_spec (cnt c) (cnt p)) as [E1|E1]; [injection H as <-; split; [intros _; left; exact E1|reflexivity]|].
  destruct (Z.ltb_spec (schema p) (schema c)) as [E2|E2]; [injection H as <-; split; [intros _; right; left; exact E2|reflexivity]|].
  destruct (thr_ltb (zt c) (zt p)) eqn:E3; [injection H as <-; split; [intros _; do 2 right; left; reflexivity|reflexivity]|].
  destruct (zcflt p (zt c)) as [[pz nt]|e] eqn:Ez; [|discriminate].
  (* what zeroCountForLargerThreshold returned: the requested threshold and the absorbed
     count, unless the threshold cuts a populated bucket *)
  assert (Z : (nt = zt c /\ pz = zc p + absorbed_at p (zt c) /\ ~ cuts_populated p (zt c) /\
               (thr_eqb (zt c) (zt p) = false -> nocut (schema p) (zt c) (pos p) /\ nocut (schema p) (zt c) (neg p))) \/
              (nt <> zt c /\ cuts_populated p (zt c))).
  { unfold absorbed_at, cuts_populated.
    destruct (zcflt_spec p (zt c) pz nt Up Ipp Inp Ez) as [(A & -> & ->)|(A & B & -> & D & F & G)].
    - left. rewrite A. repeat split; try lia; intros; intuition congruence.
    - rewrite (thr_ltb_neq _ _ A). destruct G as [->|(LT & CP)].
      + left. repeat split; try assumption; try lia.
        intros (_ & q & Hq & Hz & Hi & Hu). exact (Hz (proj2 (nocut_app _ _ _ _) (conj D F) q Hq Hi Hu)).
      + right. split; [intros ->; destruct (zt c); thr_cases|auto]. }
  destruct Z as [(-> & -> & NC & NO)|(NE & CP)].
  2:{ destruct (thr_eqb nt (zt c)) eqn:X; [now apply thr_eqb_eq in X|]. injection H as <-.
      split; [intros _; do 3 right; left; exact CP|reflexivity]. }
  rewrite thr_eqb_refl in H. cbn [negb] in H.
  destruct (Z.ltb_spec (zc c) (zc p + absorbed_at p (zt c))) as [E4|E4];
    [injection H as <-; split; [intros _; do 4 right; left; exact E4|reflexivity]|].
  injection H as <-.
  (* the bucket comparison on both sides *)
  pose proof (other_ok_of p _ _ Wp NO ND) as OK.
  rewrite orb_true_iff,
    (dr_side (schema c) (schema p) (zt p) (zt c) (pos c) (pos p) E2 Up Ec Ipc Ipp Npc Npp
       (fun q Hq => Wc q (in_or_app _ _ _ (or_introl Hq))) (fun q Hq => OK q (in_or_app _ _ _ (or_introl Hq)))),
    (dr_side (schema c) (schema p) (zt p) (zt c) (neg c) (neg p) E2 Up Ec Inc Inp Nnc Nnp
       (fun q Hq => Wc q (in_or_app _ _ _ (or_intror Hq))) (fun q Hq => OK q (in_or_app _ _ _ (or_intror Hq)))).
  split; [intros [X|X]; [do 5 right; left; exact X|do 6 right; exact X]|].
  intros [X|[X|[X|[X|[X|X]]]]]; [lia|lia|congruence|contradiction|lia|destruct X; auto].
Qed.

Lemma is_custom_not_exp s : is_custom s = true -> is_exp s = false.
Proof. unfold is_custom, customSchema, is_exp. lia. Qed.

Lemma arith_custom sgn h o :
  is_custom (schema h) = true -> is_custom (schema o) = true ->
  idx_nonneg (pos h) = true -> idx_nonneg (pos o) = true ->
  exists r, arith sgn h o = Ok r /\
    let R := ao_h r in
    schema R = schema h /\ cnt R = cnt h + sgn * cnt o /\ sum R = sum h + sgn * sum o /\
    zc R = zc h /\ zt R = zt h /\
    (list_eqb (cv h) (cv o) = true ->
       ao_reconciled r = false /\ cv R = cv h /\
       forall t, total (pos R) t = total (pos h) t + sgn * total (pos o) t) /\
    (list_eqb (cv h) (cv o) = false ->
       ao_reconciled r = true /\ cv R = intersect (cv h) (cv o) /\
       forall t, 0 <= t <= Z.of_nat (length (cv R)) ->
         total (pos R) t = total (remap (cv R) (cv h) (pos h)) t +
                           sgn * total (remap (cv R) (cv o) (pos o)) t).
Proof.
  intros Hh Ho Nh No. unfold arith. rewrite Hh, Ho. cbn [xorb].
  destruct (adjust_hint (hint h) (hint o)) as [hint' coll]. rewrite Nh, No. cbn [andb negb].
  destruct (list_eqb (cv h) (cv o)); eexists; (split; [reflexivity|]);
    cbn [ao_h ao_reconciled schema cnt sum zc zt cv pos]; repeat split; try discriminate.
  - intro t. rewrite total_merge_add. unfold drop_below. now rewrite (is_custom_not_exp _ Hh).
  - intros t Ht. now apply add_mism_total.
Qed.

Lemma p_detect_reset_hint_and_type : forall c p,
  (hint c = 1 -> detect_reset c p = Ok true) /\ (hint c = 2 -> detect_reset c p = Ok false) /\
  (hint c <> 1 -> hint c <> 2 -> cnt p <= cnt c ->
   (is_custom (schema c) = true /\ is_custom (schema p) = false) \/
   (is_exp (schema c) = true /\ is_custom (schema p) = true) ->
   detect_reset c p = Ok true).
Proof.
  intros c p. unfold detect_reset. repeat split; try (now intros ->).
  intros H1 H2 Hc Hx.
  rewrite (proj2 (Z.eqb_neq _ _) H1), (proj2 (Z.eqb_neq _ _) H2), (proj2 (Z.ltb_ge _ _) Hc).
  destruct Hx as [[-> ->]|[E1 E2]]; [reflexivity|].
  destruct (is_exp_facts _ E1) as (-> & L1 & U1). cbn [andb].
  unfold is_custom, customSchema in E2.
  now replace (schema p <? schema c) with true by lia.
Qed.
